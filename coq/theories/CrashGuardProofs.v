(* CrashGuardProofs.v — C02 / C03 / C32 for the recovery WITH the position guard of apply_wal_record
   (recover_g): at every crash cut of a log the storage wrote the guard does not fire and the guarded
   recovery is the unguarded one (FileWalGuardProofs.v), so every consequence of C01 in CrashProofs.v
   carries over word for word. *)
From Agdb Require Import Bytes FileWal FileWalProofs FileWalGuardProofs TxnNesting CrashProofs.
From Coq Require Import ZifyBool ZifyNat.
Open Scope nat_scope.

Notation st_of d0 := {| data := d0; wal := [] |}.

Lemma guarded_cut d0 ops k j : wp d0 ops ->
  recover_g walrev_fixed (crash (st_of d0) (trace walrev_fixed (st_of d0) ops) k j)
  = Some (recover walrev_fixed (crash (st_of d0) (trace walrev_fixed (st_of d0) ops) k j)).
Proof. intros H. apply (recover_g_from_committed d0 ops k j H). Qed.

Theorem crash_recovers_a_flush_point_g d0 ops k j :
  wp d0 ops ->
  let st := st_of d0 in
  exists r, recover_g walrev_fixed (crash st (trace walrev_fixed st ops) k j) = Some r /\
            wal r = [] /\ In (data r) (d0 :: flush_points st ops).
Proof.
  intros H st. subst st. eexists. split; [apply guarded_cut; exact H|].
  split; [reflexivity|]. apply crash_recovers_a_flush_point. exact H.
Qed.

Lemma clean_reopen_g (d : bytes) : recover_g walrev_fixed (st_of d) = Some (st_of d).
Proof. reflexivity. Qed.
