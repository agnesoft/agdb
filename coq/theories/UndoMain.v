(* UndoMain.v — C13_rollback_restores: every sequence of mutation primitives of DbModel.v
   executed from a well-formed state with an empty undo stack is undone by `rollback` up to the
   observational equivalence — by induction over the executed steps. *)
From Agdb Require Import Bytes BytesProofs DbValue Graph DbModel Revisions UndoBase UndoObs UndoAlias UndoKv
  UndoGraphBase UndoGraph UndoGraphEdge UndoGraphOps UndoAbs UndoDb
  UndoStepsAlias UndoStepsKv UndoStepsKv2 UndoStepsGraph UndoBridge.
From Agdb Require Import DbFrameProofs.
From Coq Require Import Permutation ZifyBool ZifyNat ZifyN.
Ltac Zify.zify_post_hook ::= Z.div_mod_to_equations.
Open Scope Z_scope.

(* the capacity under the removals, from the definitions alone (no well-formedness needed) *)

Lemma cap_remove_from_edge g i g1 : remove_from_edge g i = Some g1 -> capacity g1 = capacity g.
Proof.
  unfold remove_from_edge. destruct (_ =? i).
  - intros [= <-]. rewrite cap_set_fmeta, cap_set_from. reflexivity.
  - destruct (find_prev _ _ _ _); [|discriminate]. intros [= <-]. rewrite !cap_set_fmeta. reflexivity.
Qed.
Lemma cap_remove_to_edge g i g1 : remove_to_edge g i = Some g1 -> capacity g1 = capacity g.
Proof.
  unfold remove_to_edge. destruct (_ =? i).
  - intros [= <-]. rewrite cap_set_tmeta, cap_set_to. reflexivity.
  - destruct (find_prev _ _ _ _); [|discriminate]. intros [= <-]. rewrite !cap_set_tmeta. reflexivity.
Qed.
Lemma cap_remove_edge g i g1 : remove_edge g i = Some g1 -> capacity g1 = capacity g.
Proof.
  unfold remove_edge. destruct (is_edge g i); [|intros [= <-]; reflexivity].
  destruct (remove_from_edge g i) as [ga|] eqn:E1; [|discriminate].
  destruct (remove_to_edge ga i) as [gb|] eqn:E2; [|discriminate]. intros [= <-].
  rewrite cap_free_index, (cap_remove_to_edge _ _ _ E2), (cap_remove_from_edge _ _ _ E1). reflexivity.
Qed.

Lemma cap_remove_from_edges fuel : forall g e g1, remove_from_edges fuel g e = Some g1 -> capacity g1 = capacity g.
Proof.
  induction fuel as [|f IH]; intros g e g1; cbn [remove_from_edges]; destruct (e =? 0); try (intros [= <-]; reflexivity); try discriminate.
  destruct (remove_to_edge g e) as [ga|] eqn:E; [|discriminate]. intros H. apply IH in H.
  rewrite H, cap_free_index. eapply cap_remove_to_edge, E.
Qed.
Lemma cap_remove_to_edges fuel : forall g e g1, remove_to_edges fuel g e = Some g1 -> capacity g1 = capacity g.
Proof.
  induction fuel as [|f IH]; intros g e g1; cbn [remove_to_edges]; destruct (e =? 0); try (intros [= <-]; reflexivity); try discriminate.
  destruct (remove_from_edge g e) as [ga|] eqn:E; [|discriminate]. intros H. apply IH in H.
  rewrite H, cap_free_index. eapply cap_remove_from_edge, E.
Qed.
Lemma cap_remove_node g n g1 : Graph.remove_node g n = Some g1 -> capacity g1 = capacity g.
Proof.
  unfold Graph.remove_node. destruct (is_node g n); [|intros [= <-]; reflexivity].
  destruct (remove_from_edges _ g _) as [ga|] eqn:E1; [|discriminate].
  destruct (remove_to_edges _ ga _) as [gb|] eqn:E2; [|discriminate]. intros [= <-].
  rewrite cap_set_tmeta, cap_free_index, (cap_remove_to_edges _ _ _ _ E2), (cap_remove_from_edges _ _ _ _ E1). reflexivity.
Qed.

Lemma cap_get_free_index_le g : capacity g <= capacity (snd (get_free_index g)).
Proof. rewrite cap_get_free_index. destruct (fmeta g 0 =? i64_min); lia. Qed.

Section Main.
  Variable rv : revision.
  Hypothesis Hrv : fix_rollback_replace rv = true.
  Hypothesis Hsteal : fix_alias_steal_undo rv = true.

  (* one mutation primitive, with the side condition under which its recorded inverse is exact *)
  Inductive pstep : db -> db -> Prop :=
  | ps_insert_node d i d1 : insert_node_db d = (i, d1) -> pstep d d1
  | ps_insert_edge d f t i d1 : 0 < f -> 0 < t -> insert_edge_db d f t = ROk (i, d1) -> pstep d d1
  | ps_remove_edge d e0 d1 : 0 < e0 -> is_edge (gr d) e0 = true -> remove_edge_db d (- e0) = (d1, None) -> pstep d d1
  | ps_remove_isolated_node d n g' :
      0 < n -> is_node (gr d) n = true -> out_edges (gr d) n = [] -> in_edges (gr d) n = [] ->
      Graph.remove_node (gr d) n = Some g' -> pstep d (push_undo (with_gr d g') CInsertNode)
  | ps_insert_new_alias d id a :
      imap_value (aliases d) a = None -> imap_key (aliases d) id = None -> pstep d (insert_new_alias d id a)
  | ps_insert_alias d id a : pstep d (insert_alias rv d id a)
  | ps_remove_alias d a : pstep d (snd (remove_alias d a))
  | ps_insert_key_value d id x : ~ has_key (kvs_get (vals d) id) (fst x) -> pstep d (insert_key_value d id x)
  | ps_insert_or_replace d id x :
      (forall old l', replace_first (kvs_get (vals d) id) x = Some (old, l') -> idx_has d id old) ->
      pstep d (insert_or_replace_key_value d id x)
  | ps_reserve d id : pstep d (reserve_kv d id)
  | ps_remove_keys d id keys : idx_has_all d id -> pstep d (snd (remove_keys d id keys))
  | ps_remove_all_values d id : idx_has_all d id -> pstep d (remove_all_values d id)
  | ps_insert_index d key n d1 : insert_index d key = ROk (n, d1) -> pstep d d1
  | ps_remove_index d key : pstep d (snd (remove_index d key)).

  Inductive psteps : db -> db -> Prop :=
  | pss_nil d : psteps d d
  | pss_snoc d d1 d2 : psteps d d1 -> pstep d1 d2 -> psteps d d2.

  Lemma pstep_cap d d1 : pstep d d1 -> capacity (gr d) <= capacity (gr d1).
  Proof using Hsteal.
    intros H. destruct H.
    - unfold insert_node_db in H. destruct (insert_node (gr d)) as [i0 g] eqn:E. injection H as <- <-.
      cbn [gr push_undo with_gr]. change g with (snd (i0, g)). rewrite <- E, cap_insert_node. apply cap_get_free_index_le.
    - unfold insert_edge_db in H1. destruct (insert_edge (gr d) f t) as [[i0 g]|] eqn:E; [|discriminate].
      injection H1 as <- <-. cbn [gr push_undo with_gr]. rewrite (cap_insert_edge _ _ _ _ _ E). apply cap_get_free_index_le.
    - unfold remove_edge_db in H1. destruct (Graph.remove_edge (gr d) (- e0)) as [g|] eqn:E; [|discriminate].
      injection H1 as <-. cbn [gr push_undo with_gr]. rewrite (cap_remove_edge _ _ _ E). lia.
    - cbn [gr push_undo with_gr]. rewrite (cap_remove_node _ _ _ H3). lia.
    - cbn. lia.
    - rewrite (proj1 (insert_alias_gvi rv d id a)). lia.
    - rewrite (proj1 (remove_alias_gvi d a)). lia.
    - cbn. lia.
    - rewrite (proj1 (insert_or_replace_key_value_ga d id x)). lia.
    - cbn. lia.
    - rewrite (proj1 (remove_keys_ga d id keys)). lia.
    - rewrite (proj1 (remove_all_values_ga d id)). lia.
    - unfold insert_index in H. destruct (idx_find (indexes d) key); [discriminate|]. injection H as _ <-.
      match goal with |- _ <= capacity (gr ?X) => assert (Hinv : backfill_inv key (with_indexes (push_undo d (CRemoveIndex key)) (indexes (push_undo d (CRemoveIndex key)) ++ [(key, [])])) X) end.
      { apply backfill_inv_outer. repeat split. }
      destruct Hinv as (Eg & _). rewrite Eg. cbn. lia.
    - unfold remove_index. destruct (idx_find (indexes d) key) as [ids|]; cbn [snd]; [|lia].
      cbn [gr with_indexes push_undo]. destruct (push_fold_fields key ids d) as (Eg & _). rewrite Eg. lia.
  Qed.

  Lemma psteps_cap d d1 : psteps d d1 -> capacity (gr d) <= capacity (gr d1).
  Proof. induction 1; [lia|]. pose proof (pstep_cap _ _ H0). lia. Qed.

  (* C13_step_inverse, all primitives at once *)
  Theorem pstep_ok d d1 :
    db_ok d -> pstep d d1 -> capacity (gr d1) <= two63z -> db_ok d1 /\ undoable rv d d1.
  Proof.
    intros Hok H Hb. destruct H.
    - destruct (step_insert_node_db rv Hrv d i d1 Hok H Hb) as (H1 & H2 & _). auto.
    - destruct (step_insert_edge_db rv Hrv d f t i d1 Hok H H0 H1 Hb) as (H2 & H3 & _). auto.
    - destruct (db_ok_rep d Hok) as (a & R).
      apply is_edge_kind in H0; [|assumption]. destruct H0 as (f & t & Hk).
      unfold rep in R. rewrite <- (r_kind _ _ _ _ R) in Hk by assumption.
      destruct (step_remove_edge_db rv Hrv d a e0 f t Hok R H Hk) as (d1' & E & H2 & H3 & _).
      rewrite H1 in E. injection E as <-. auto.
    - destruct (db_ok_rep d Hok) as (a & R).
      apply is_node_kind in H0; [|assumption]. unfold rep in R. rewrite <- (r_kind _ _ _ _ R) in H0 by assumption.
      pose proof (out_edges_nil_aout _ _ _ R H H0 H1) as Ho. pose proof (in_edges_nil_ain _ _ _ R H H0 H2) as Hi.
      destruct (step_remove_isolated_node rv Hrv d a n Hok R H H0 Ho Hi) as (g'' & E & H4 & H5 & _).
      rewrite H3 in E. injection E as <-. auto.
    - apply step_insert_new_alias; assumption.
    - apply step_insert_alias; assumption.
    - apply step_remove_alias; assumption.
    - apply step_insert_key_value; assumption.
    - apply step_insert_or_replace; assumption.
    - apply step_reserve_kv; assumption.
    - apply step_remove_keys; assumption.
    - apply step_remove_all_values; assumption.
    - eapply step_insert_index; eassumption.
    - apply step_remove_index; assumption.
  Qed.

  Lemma psteps_ok d d1 :
    db_ok d -> psteps d d1 -> capacity (gr d1) <= two63z -> db_ok d1 /\ undoable rv d d1.
  Proof.
    intros Hok H. induction H as [d|d d1 d2 H12 IH H2]; intros Hb.
    - split; [assumption | apply undoable_refl; assumption].
    - pose proof (pstep_cap _ _ H2) as Hc. destruct IH as (Hok1 & U1); [assumption | lia|].
      destruct (pstep_ok d1 d2 Hok1 H2 Hb) as (Hok2 & U2).
      split; [assumption | eapply undoable_trans; eassumption].
  Qed.

  (* C13_rollback_restores *)
  Theorem rollback_restores d d1 :
    db_ok d -> undo d = [] -> psteps d d1 -> capacity (gr d1) <= two63z ->
    exists d', rollback rv d1 = ROk d' /\ sim d' d.
  Proof.
    intros Hok Hu H Hb. destruct (psteps_ok d d1 Hok H Hb) as (Hok1 & U).
    apply (undoable_rollback rv d d1 Hu U Hok1).
  Qed.
End Main.
