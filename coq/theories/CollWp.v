(* CollWp.v — proofs (collections): the calculus in which the programs of
   Collections.v are verified.

   `cwp fl p sp Q`: for EVERY sequence of answers the abstract record map (StorageSpec.v,
   `spec_step`, started in `sp`) accepts for the storage calls of `p`, the program does not
   die (no answer of the wrong shape) and ends with a result r in a specification state sp'
   with Q r sp'.  The only freedom of the storage is the index an insert returns.

   `cwp_sound` (the discharge of every assumption about the storage): on the MODEL of
   storage.rs over a canonical byte store (Storage.v; ops_file, ops_mem), from any state
   related to sp by C04's refinement relation `Rel`, the run of p either dies by a panic of
   the storage (a request beyond 2^64 bytes) or ends in a state related to some sp' with Q.
   It uses nothing but C04's `step_refines`. *)
From Agdb Require Import Bytes BytesProofs Records RecordsProofs RecordsTableProofs Storage StorageSpec StorageLayout StorageWp
  StorageRefine StorageProofs Collections.
From Coq Require Import ZifyBool ZifyNat ZifyN.
Ltac Zify.zify_post_hook ::= Z.div_mod_to_equations.
Open Scope N_scope.
Arguments N.add : simpl never.
Arguments N.mul : simpl never.
Arguments N.sub : simpl never.
Arguments N.of_nat : simpl never.
Arguments N.to_nat : simpl never.
Arguments N.eqb : simpl never.
Arguments N.ltb : simpl never.
Arguments N.leb : simpl never.
Arguments N.div : simpl never.

(* the one thing a real storage guarantees beyond the abstract map: indexes are u64 values *)
Definition obs_ok (o : sop) (v : obs) : Prop :=
  match o, v with
  | SInsert _, ObNum i => i < two64
  | _, _ => True
  end.

Fixpoint cwp {A} (fl : bool) (p : cprog A) (sp : spec) (Q : cres A -> spec -> Prop) : Prop :=
  match p with
  | CRet a => Q (CrOk a) sp
  | CErr e => Q (CrErr e) sp
  | CDead => False
  | CDo o k => forall v sp', spec_step fl sp o v = Some sp' -> obs_ok o v -> cwp fl (k v) sp' Q
  end.

Section Wp.
  Variable fl : bool.

  Lemma cwp_mono {A} (p : cprog A) : forall sp (Q Q' : cres A -> spec -> Prop),
    (forall r sp', Q r sp' -> Q' r sp') -> cwp fl p sp Q -> cwp fl p sp Q'.
  Proof.
    induction p as [a|e| |o k IH]; intros sp Q Q' HQ H; cbn [cwp] in *; [apply HQ; exact H|apply HQ; exact H|exact H|].
    intros v sp' Hs Hok. eapply IH; [exact HQ|]. apply H; assumption.
  Qed.

  Definition kont {A B} (f : A -> cprog B) (Q : cres B -> spec -> Prop) : cres A -> spec -> Prop :=
    fun r sp => match r with
                | CrOk a => cwp fl (f a) sp Q
                | CrErr e => Q (CrErr e) sp
                | CrDead => False
                end.

  Lemma cwp_bind {A B} (p : cprog A) (f : A -> cprog B) : forall sp Q,
    cwp fl p sp (kont f Q) -> cwp fl (cbind p f) sp Q.
  Proof.
    induction p as [a|e| |o k IH]; intros sp Q H; cbn [cbind cwp kont] in *; [exact H|exact H|exact H|].
    intros v sp' Hs Hok. apply IH. apply H; assumption.
  Qed.

  Lemma cwp_bind_inv {A B} (p : cprog A) (f : A -> cprog B) : forall sp Q,
    cwp fl (cbind p f) sp Q -> cwp fl p sp (kont f Q).
  Proof.
    induction p as [a|e| |o k IH]; intros sp Q H; cbn [cbind cwp kont] in *; [exact H|exact H|exact H|].
    intros v sp' Hs Hok. apply IH. apply H; assumption.
  Qed.

  Lemma cwp_bind_assoc {A B C} (p : cprog A) (f : A -> cprog B) (k : B -> cprog C) : forall sp Q,
    cwp fl (cbind (cbind p f) k) sp Q -> cwp fl (cbind p (fun a => cbind (f a) k)) sp Q.
  Proof.
    induction p as [a|e| |o k' IH]; intros sp Q H; cbn [cbind cwp] in *; [exact H|exact H|exact H|].
    intros v sp' Hs Hok. apply IH. apply H; assumption.
  Qed.

  Lemma cwp_try {A} (p : cprog A) : forall sp (Q : cres (option A) -> spec -> Prop),
    cwp fl p sp (fun r sp' => match r with
                              | CrOk a => Q (CrOk (Some a)) sp'
                              | CrErr _ => Q (CrOk None) sp'
                              | CrDead => False
                              end) ->
    cwp fl (cp_try p) sp Q.
  Proof.
    induction p as [a|e| |o k IH]; intros sp Q H; cbn [cp_try cwp] in *; [exact H|exact H|exact H|].
    intros v sp' Hs Hok. apply IH. apply H; assumption.
  Qed.

  Lemma cwp_catch {A} (p : cprog A) : forall sp (Q : cres (sum A cv_err) -> spec -> Prop),
    cwp fl p sp (fun r sp' => match r with
                              | CrOk a => Q (CrOk (Datatypes.inl a)) sp'
                              | CrErr e => Q (CrOk (Datatypes.inr e)) sp'
                              | CrDead => False
                              end) ->
    cwp fl (cp_catch p) sp Q.
  Proof.
    induction p as [a|e| |o k IH]; intros sp Q H; cbn [cp_catch cwp] in *; [exact H|exact H|exact H|].
    intros v sp' Hs Hok. apply IH. apply H; assumption.
  Qed.

  (* a step of a history: the result of the operation, or its `?`-error, becomes the observation *)
  Lemma cwp_fin {A R} (p : cprog A) (f : A -> R) (g : cv_err -> R) sp (Q : cres R -> spec -> Prop) :
    cwp fl p sp (fun r sp' => match r with
                              | CrOk a => Q (CrOk (f a)) sp'
                              | CrErr e => Q (CrOk (g e)) sp'
                              | CrDead => False
                              end) ->
    cwp fl (r <~ cp_catch p ;; CRet (match r with Datatypes.inl a => f a | Datatypes.inr e => g e end)) sp Q.
  Proof. intros H. apply cwp_bind. apply cwp_catch. eapply cwp_mono; [|exact H]. intros [a|e|] sp'; cbn [kont cwp]; auto. Qed.

  Lemma sm_mutate sp m : sm (mutate sp m) = m. Proof. reflexivity. Qed.
  Lemma sdepth_mutate sp m : sdepth (mutate sp m) = sdepth sp. Proof. reflexivity. Qed.

  (* a call the abstract map answers in one way only: with the unit / the number n / the bytes b, going to s1 *)
  Lemma cwp_unit o sp s1 (Q : cres unit -> spec -> Prop) :
    (forall v, spec_step fl sp o v = guard (is_unit v) s1) -> Q (CrOk tt) s1 -> cwp fl (cp_unit o) sp Q.
  Proof.
    intros E HQ. cbn [cp_unit cwp]. intros v sp' H _. rewrite E in H.
    destruct v; try discriminate H. injection H as <-. exact HQ.
  Qed.

  Lemma cwp_num o n sp s1 (Q : cres N -> spec -> Prop) :
    (forall v, spec_step fl sp o v = guard (is_num v n) s1) -> Q (CrOk n) s1 -> cwp fl (cp_num o) sp Q.
  Proof.
    intros E HQ. cbn [cp_num cwp]. intros v sp' H _. rewrite E in H.
    destruct v as [|k| | | |]; try discriminate H. cbn [is_num] in H.
    destruct (N.eqb_spec k n) as [->|]; [|discriminate H]. injection H as <-. exact HQ.
  Qed.

  Lemma cwp_bytes o b sp s1 (Q : cres bytes -> spec -> Prop) :
    (forall v, spec_step fl sp o v = guard (is_bytes v b) s1) -> Q (CrOk b) s1 -> cwp fl (cp_bytes o) sp Q.
  Proof.
    intros E HQ. cbn [cp_bytes cwp]. intros v sp' H _. rewrite E in H.
    destruct v as [| |x| | |]; try discriminate H. cbn [is_bytes] in H.
    destruct (bytes_eqb x b) eqn:Eb; [|discriminate H]. apply bytes_eqb_eq in Eb. subst x. injection H as <-. exact HQ.
  Qed.

  Lemma cwp_value i sp x (Q : cres bytes -> spec -> Prop) :
    m_get (sm sp) i = Some x -> Q (CrOk x) sp -> cwp fl (cp_value i) sp Q.
  Proof. intros Hg. apply cwp_bytes. intros v. cbn [spec_step]. rewrite Hg. reflexivity. Qed.

  Lemma cwp_value_missing i sp (Q : cres bytes -> spec -> Prop) :
    m_get (sm sp) i = None -> Q (CrErr (CvStorage SeNotFound)) sp -> cwp fl (cp_value i) sp Q.
  Proof.
    intros Hg HQ. cbn [cp_value cp_bytes cwp]. intros v sp' H Hok. cbn [spec_step] in H. rewrite Hg in H.
    destruct v as [| | |e| |]; try discriminate H. destruct e; try discriminate H. injection H as <-. exact HQ.
  Qed.

  Lemma cwp_value_at_size i off n sp x (Q : cres bytes -> spec -> Prop) :
    m_get (sm sp) i = Some x -> off + n <= lenN x ->
    Q (CrOk (bs_read x (N.to_nat off) (N.to_nat n))) sp -> cwp fl (cp_value_at_size i off n) sp Q.
  Proof.
    intros Hg Hb. apply cwp_bytes. intros v. cbn [spec_step]. rewrite Hg.
    destruct (N.ltb_spec (lenN x) off); [lia|]. destruct (N.ltb_spec (lenN x) (off + n)); [lia|]. reflexivity.
  Qed.

  Lemma cwp_value_size i sp x (Q : cres N -> spec -> Prop) :
    m_get (sm sp) i = Some x -> Q (CrOk (lenN x)) sp -> cwp fl (cp_value_size i) sp Q.
  Proof. intros Hg. apply cwp_num. intros v. cbn [spec_step]. rewrite Hg. reflexivity. Qed.

  Lemma cwp_de64 bs sp (Q : cres N -> spec -> Prop) :
    8 <= lenN bs -> Q (CrOk (de (firstn 8 bs))) sp -> cwp fl (cp_de64 bs) sp Q.
  Proof. intros Hl HQ. unfold cp_de64. destruct (N.ltb_spec (lenN bs) 8); [lia|]. exact HQ. Qed.
End Wp.

Section Sound.
  Variable ops : store_ops cdata.
  Variable fl : bool.
  Hypothesis K : kind ops fl.

  (* every live index of a storage state is a u64 *)
  Lemma Rel_index_bound s sp j v : Rel s sp -> m_get (sm sp) j = Some v -> j < two64.
  Proof.
    intros ((rg & TL & (A0 & Ag)) & _) Hg.
    assert (Hj : j <> 0) by (intros ->; congruence).
    rewrite (Ag j Hj) in Hg. apply get_In in Hg.
    destruct (In_layout 24 rg j v Hg) as (q & Hq).
    destruct (tiles_elim _ _ TL) as (_ & _ & (TR & _) & (TW & _) & _).
    apply (TR q j (lenN v) Hj) in Hq. apply live_at_lt in Hq. destruct TW as (Hlen & _). lia.
  Qed.

  Theorem cwp_sound {A} (p : cprog A) : forall s sp (Q : cres A -> spec -> Prop),
    Rel s sp -> cwp fl p sp Q ->
    snd (cp_run (st_step cdata ops) p s) = CrDead \/
    exists sp', Rel (fst (cp_run (st_step cdata ops) p s)) sp' /\ Q (snd (cp_run (st_step cdata ops) p s)) sp'.
  Proof.
    induction p as [a|e| |o k IH]; intros s sp Q RL H; cbn [cp_run cwp] in *.
    - right. exists sp. auto.
    - right. exists sp. auto.
    - destruct H.
    - destruct (st_step cdata ops s o) as [s' v] eqn:Es.
      pose proof (step_refines ops fl K s sp o RL) as SR. rewrite Es in SR. cbn [fst snd] in SR.
      destruct SR as [->|(sp' & Hs & RL')]; [left; reflexivity|].
      destruct (spec_no_panic fl sp o) as [NP NF].
      assert (Hok : obs_ok o v).
      { destruct o; try exact I. destruct v; try exact I. cbn [obs_ok]. cbn [spec_step] in Hs.
        destruct (negb (n =? 0)); [|discriminate]. destruct (m_get (sm sp) n); [discriminate|]. injection Hs as <-.
        apply (Rel_index_bound _ _ n bs RL'). cbn [sm mutate]. rewrite m_get_put, N.eqb_refl. reflexivity. }
      destruct v; try congruence; apply (IH _ s' sp' Q RL'); apply H; assumption.
  Qed.

  (* a run that does not die leaves a storage that still refines an abstract map: the next program can start *)
  Corollary cwp_sound_ok {A} (p : cprog A) s sp (Q : cres A -> spec -> Prop) s' r :
    Rel s sp -> cwp fl p sp Q -> cp_run (st_step cdata ops) p s = (s', r) -> r <> CrDead ->
    exists sp', Rel s' sp' /\ Q r sp'.
  Proof.
    intros RL H E ND. destruct (cwp_sound p s sp Q RL H) as [D|X]; rewrite E in *; cbn [fst snd] in *; [contradiction|exact X].
  Qed.
End Sound.
