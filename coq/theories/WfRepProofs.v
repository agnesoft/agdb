(* WfRepProofs.v — bridge between the two developments about database states: the joint invariant `Inv`
   of C09 / C10 / C11 (DbInvProofs.v: graph wf, aliases a bijection onto nodes, no duplicate keys, indexes
   exact) and the notions of C13 (UndoDb.v: the simulation relation `sim`, the well-formedness `db_ok`).
   (1) the vocabulary of the two sides agrees (unique keys, unique index keys, existence of ids);
   (2) what Inv gives the C13 primitives: every pair of an existing element is listed in the index
       on its key (`idx_has`, the side condition of the removal / replacement primitives);
   (3) `Inv` is invariant under `sim`, given that the graph is well formed and the alias map is
       structurally a bijection (both are preserved by every undo command, see RollbackInvProofs.v);
   (4) the graph invariant of C08 (`wf`: some abstract multigraph simulates the slot arrays, GraphSim.v)
       implies the array well-formedness of C13 (`rep g a` for some abstract view a, UndoGraph.v), as long
       as the capacity fits i64; hence  Inv d -> capacity (gr d) <= 2^63 -> db_ok d.
       (The converse does not hold: `rep` allows per-node list orders that no single "newest first" edge
       order explains; wf is nevertheless kept by every rollback, see RollbackInvProofs.v.) *)
From Agdb Require Import Bytes BytesProofs DbValue Graph DbModel Search Queries Revisions
  GraphArr GraphSim GraphProofs GraphSpec GraphWf.
From Agdb Require Import AliasProofs ImapProofs KvProofs KvDbProofs KvSelectProofs
  IndexProofs IndexDbProofs IndexDb3Proofs IndexDb4Proofs IndexInvProofs DbInvProofs.
From Agdb Require Import UndoBase UndoObs UndoAlias UndoKv UndoGraphBase UndoGraph UndoAbs UndoDb UndoBridge
  UndoStepsKv UndoStepsKv2.
From Coq Require Import Permutation ZifyBool ZifyNat ZifyN.
Ltac Zify.zify_post_hook ::= Z.div_mod_to_equations.
Open Scope Z_scope.

Lemma has_key_false_iff l k : KvProofs.has_key l k = false <-> ~ UndoKv.has_key l k.
Proof.
  unfold KvProofs.has_key, UndoKv.has_key. induction l as [|y r IH]; cbn [existsb map In]; [tauto|].
  destruct (dbv_eqb_spec (fst y) k) as [E|NE]; cbn [orb].
  - split; [discriminate|intros H; exfalso; apply H; now left].
  - rewrite IH. tauto.
Qed.

Lemma keys_distinct_iff l : keys_distinct l <-> keys_ok l.
Proof.
  unfold keys_ok. induction l as [|x r IH]; cbn [keys_distinct map].
  - split; [constructor|trivial].
  - rewrite NoDup_cons_iff, IH, has_key_false_iff. reflexivity.
Qed.

Lemma mem_false_iff (x : dbvalue) l : mem dbv_eqb x l = false <-> ~ In x l.
Proof.
  induction l as [|y r IH]; cbn [mem In]; [tauto|].
  destruct (dbv_eqb_spec y x) as [E|NE]; cbn [orb].
  - split; [discriminate|intros H; exfalso; apply H; now left].
  - rewrite IH. tauto.
Qed.

Lemma vals_distinct_iff l : vals_distinct l <-> NoDup l.
Proof.
  induction l as [|x r IH]; cbn [vals_distinct].
  - split; [constructor|trivial].
  - rewrite NoDup_cons_iff, IH, mem_false_iff. reflexivity.
Qed.

Lemma idx_distinct_iff d : idx_distinct d <-> idx_ok (indexes d).
Proof. unfold idx_distinct, idx_keys_distinct, idx_ok. apply vals_distinct_iff. Qed.

Lemma is_node_slot_kind g i : is_node g i = match slot_kind g i with KNode => true | _ => false end.
Proof.
  unfold is_node, slot_kind. destruct (valid_index g i); [|reflexivity]. cbn [andb].
  destruct (Z.ltb_spec (from g i) 0); destruct (Z.leb_spec 0 (from g i)); try reflexivity; lia.
Qed.

Lemma is_edge_slot_kind g i : is_edge g i = match slot_kind g i with KEdge _ _ => true | _ => false end.
Proof.
  unfold is_edge, slot_kind. destruct (valid_index g i); [|reflexivity]. cbn [andb].
  destruct (from g i <? 0); reflexivity.
Qed.

Lemma graph_index_kinds g g' : (forall i, slot_kind g i = slot_kind g' i) -> forall i, graph_index g i = graph_index g' i.
Proof.
  intros H i. unfold graph_index. rewrite !is_node_slot_kind, !is_edge_slot_kind, H. reflexivity.
Qed.

Lemma length_pos_in {A} (l : list A) : (0 < length l)%nat -> exists x, In x l.
Proof. destruct l as [|x r]; cbn [length]; [lia|]. intros _. exists x. now left. Qed.

Lemma in_length_pos {A} (x : A) (l : list A) : In x l -> (0 < length l)%nat.
Proof. destruct l; cbn [In length]; [tauto|lia]. Qed.

Lemma cntP_pos_in ids P id : (0 < cntP ids P id)%nat -> exists p, In p ids /\ P (fst p) = true /\ snd p = id.
Proof.
  unfold cntP. intros H. apply length_pos_in in H. destruct H as [p Hp].
  apply filter_In in Hp. destruct Hp as [Hin Hb]. apply andb_true_iff in Hb. exists p. split; [exact Hin|]. split; [tauto|lia].
Qed.

Lemma cntK_pos l key P x : In x l -> dbv_eqb (fst x) key = true -> P (snd x) = true -> (0 < cntK l key P)%nat.
Proof.
  intros Hin Hk HP. unfold cntK. apply (in_length_pos x).
  apply filter_In. split; [exact Hin|]. now rewrite Hk, HP.
Qed.

Lemma idx_has_of_exact d id x :
  idx_exact d -> live d id = true -> In x (kvs_get (vals d) id) -> idx_has d id x.
Proof.
  intros He Hl Hin ids Hf.
  pose proof (He (fst x) ids Hf (fun w => dbv_eqb w (snd x)) (respects_eqb (snd x)) id) as Hc.
  rewrite Hl in Hc.
  assert (Hpos : (0 < cntP ids (fun w => dbv_eqb w (snd x)) id)%nat).
  { rewrite Hc. apply (cntK_pos _ _ _ x Hin); apply DbValueProofs.dbv_eqb_refl. }
  destruct (cntP_pos_in _ _ _ Hpos) as (p & Hp & Hv & Hid).
  apply DbValueEqProofs.dbv_eqb_true in Hv. destruct p as [v i]. cbn [fst snd] in *. subst. exact Hp.
Qed.

Lemma idx_has_all_of_Inv d id : Inv d -> live d id = true -> idx_has_all d id.
Proof. intros Hd Hl x Hx. apply idx_has_of_exact; [apply Hd|exact Hl|exact Hx]. Qed.

(* idx_has_all looks only at values and indexes *)
Lemma idx_has_all_frame d d' id :
  vals d' = vals d -> indexes d' = indexes d -> idx_has_all d id -> idx_has_all d' id.
Proof. intros Ev Ei H x Hx ids Hids. rewrite Ev in Hx. rewrite Ei in Hids. exact (H x Hx ids Hids). Qed.

Lemma cntP_perm ids ids' P id : Permutation ids ids' -> cntP ids P id = cntP ids' P id.
Proof. intros H. unfold cntP. apply Permutation_length. now apply Permutation_filter. Qed.

Lemma cntK_perm l l' key P : Permutation l l' -> cntK l key P = cntK l' key P.
Proof. intros H. unfold cntK. apply Permutation_length. now apply Permutation_filter. Qed.

Theorem Inv_of_sim d d' :
  Inv d -> UndoDb.sim d' d -> wf (gr d') -> alias_bij d' -> Inv d'.
Proof.
  intros (H1 & H2 & H3 & H4 & (IA & IB & IC)) S Hwf Hbij.
  pose proof (sim_obs_eq _ _ S) as O. destruct O as [Og Ov Oa Ok Oi].
  destruct S as [_ _ (Vk & _ & _) (Ik & _ & _)].
  assert (Hlive : forall i, live d' i = live d i).
  { intros i. unfold live. apply graph_index_kinds. apply (go_kind _ _ Og). }
  split; [exact Hwf|]. split; [exact Hbij|]. split; [|split; [|split; [|split]]].
  - intros a id Ha. rewrite Oa in Ha. destruct (H3 a id Ha) as [Hp Hn]. split; [exact Hp|].
    rewrite is_node_slot_kind in *. now rewrite (go_kind _ _ Og).
  - intros i. apply keys_distinct_iff. apply Vk.
  - intros key ids' Hf P HP id. pose proof (Oi key) as R. rewrite Hf in R.
    destruct (idx_find (indexes d) key) as [ids|] eqn:Ef; cbn [idx_rel] in R; [|contradiction].
    rewrite (cntP_perm _ _ P id R), (IA key ids Ef P HP id), Hlive.
    destruct (live d id); [|reflexivity]. apply cntK_perm. symmetry. apply Ov.
  - intros i Hi Hi'. rewrite Hlive in Hi, Hi'. pose proof (IB i Hi Hi') as E. pose proof (Ov i) as P. rewrite E in P.
    symmetry in P. now apply Permutation_nil in P.
  - apply idx_distinct_iff. exact Ik.
Qed.

(* the two formulations of a linked chain / of the free chain *)
Lemma chain_conv next l : forall h,
  GraphArr.chain next h l -> (forall x, In x l -> 0 < x) -> UndoGraphBase.chain next h l.
Proof.
  induction l as [|x r IH]; intros h H Hp; cbn [GraphArr.chain] in H.
  - subst h. constructor.
  - destruct H as [-> H]. constructor; [apply Hp; now left|]. apply IH; [exact H|]. intros y Hy. apply Hp. now right.
Qed.

Lemma fchain_conv next fl : forall h,
  h = fhead fl -> GraphSim.fchain next fl -> (forall s, In s fl -> 0 < s /\ - s <> i64_min) ->
  UndoGraphBase.fchain next h fl.
Proof.
  induction fl as [|x r IH]; intros h Hh H Hp; cbn [GraphSim.fchain fhead] in *.
  - subst h. constructor.
  - subst h. destruct H as [Hx H]. destruct (Hp x (or_introl eq_refl)) as [H1 H2].
    constructor; [exact H1|exact H2|]. apply IH; [exact Hx|exact H|]. intros y Hy. apply Hp. now right.
Qed.

Definition view (g : graph) (aa : agraph) (fl : list Z) : ag :=
  {| ak := fun i => slot_kind g i;
     aout := fun n => adj esrc (a_edges aa) n;
     ain := fun n => adj etgt (a_edges aa) n;
     acount := node_count g;
     afree := fl;
     acap := capacity g |}.

Section Bridge.
  Variables (g : graph) (aa : agraph) (fl : list Z).
  Hypothesis HS : GraphSim.sim g aa fl.
  Hypothesis Hcap : capacity g <= two63z.

  Let R := proj2 HS.
  Let B := GraphSim.r_base _ _ _ _ _ _ _ _ _ _ _ _ _ R.
  Let HO := GraphSim.r_out _ _ _ _ _ _ _ _ _ _ _ _ _ R.
  Let HI := GraphSim.r_in _ _ _ _ _ _ _ _ _ _ _ _ _ R.
  Let FS := GraphSim.r_free _ _ _ _ _ _ _ _ _ _ _ _ _ R.

  Lemma kind_node_iff n : 0 < n -> (slot_kind g n = KNode <-> In n (a_nodes aa)).
  Proof.
    intros Hn. rewrite <- (is_node_kind g n Hn), (is_node_iff _ _ _ _ _ _ _ _ _ HS n), Z.abs_eq by lia. reflexivity.
  Qed.

  Lemma kind_edge_of x : In x (a_edges aa) -> slot_kind g (eslot x) = KEdge (esrc x) (etgt x).
  Proof.
    intros Hx. pose proof (b_ER_range _ _ _ B x Hx) as Hr.
    destruct (class_edge _ _ _ _ _ _ _ _ _ HS x Hx) as [He _].
    apply (is_edge_kind g (eslot x)) in He; [|lia]. destruct He as (f & t & Hk). rewrite Hk.
    destruct (sim_edge_ends _ _ _ HS x Hx) as [E1 E2].
    apply (slot_kind_edge g (eslot x) f t) in Hk; [|lia]. destruct Hk as (_ & _ & _ & -> & ->).
    unfold edge_from, edge_to in E1, E2. rewrite from_opp in E1. rewrite to_opp in E2. now rewrite E1, E2.
  Qed.

  Lemma kind_edge_inv e f t : 0 < e -> slot_kind g e = KEdge f t ->
    exists x, In x (a_edges aa) /\ eslot x = e /\ esrc x = f /\ etgt x = t.
  Proof.
    intros He Hk. assert (Hie : is_edge g e = true) by (apply (is_edge_kind g e He); eauto).
    apply (is_edge_iff _ _ _ _ _ _ _ _ _ HS) in Hie. rewrite Z.abs_eq in Hie by lia.
    apply in_map_iff in Hie. destruct Hie as [x [Hx Hin]]. exists x. split; [exact Hin|]. split; [exact Hx|].
    pose proof (kind_edge_of x Hin) as K. rewrite Hx, Hk in K. injection K as -> ->. now split.
  Qed.

  (* either direction: the list of a node is a linked chain without repetition, of the recorded length *)
  Lemma half_lists (A M : Z -> Z) key (H : half A M (a_nodes aa) allP key (a_edges aa) (a_edges aa)) n :
    0 < n -> slot_kind g n = KNode ->
    UndoGraphBase.chain M (A n) (adj key (a_edges aa) n) /\ NoDup (adj key (a_edges aa) n) /\
    M n = Z.of_nat (length (adj key (a_edges aa) n)).
  Proof.
    intros Hn Hk. apply (kind_node_iff n Hn) in Hk.
    destruct (h_chain _ _ _ _ _ _ _ H n Hk I) as [Hc Hd]. split; [|split; [|exact Hd]].
    - apply chain_conv; [exact Hc|]. intros y Hy. apply in_adj in Hy. destruct Hy as [x [Hx [<- _]]].
      apply (b_ER_range _ _ _ B x Hx).
    - apply NoDup_adj. exact (b_ER_nodup _ _ _ B).
  Qed.

  Theorem sim_rep : rep g (view g aa fl).
  Proof.
    constructor; cbn [view ak aout ain acount afree acap].
    - exact (proj1 HS).
    - split; [exact (GraphSim.r_cap _ _ _ _ _ _ _ _ _ _ _ _ _ R)|exact Hcap].
    - reflexivity.
    - reflexivity.
    - apply fchain_conv; [exact (f_head _ _ _ _ _ _ _ _ _ FS)|exact (f_chain _ _ _ _ _ _ _ _ _ FS)|].
      intros s Hs. destruct (f_fl _ _ _ _ _ _ _ _ _ FS s Hs) as (H1 & H2 & _). split; [lia|exact H2].
    - exact (f_nodup _ _ _ _ _ _ _ _ _ FS).
    - intros s Hs. destruct (f_fl _ _ _ _ _ _ _ _ _ FS s Hs) as (H1 & _ & H3 & H4).
      destruct (f_unused _ _ _ _ _ _ _ _ _ FS s H1 H3 H4) as (A1 & A2 & A3 & A4). repeat split; try assumption; lia.
    - reflexivity.
    - intros n Hn Hk. now apply (half_lists _ _ _ HO).
    - intros n Hn Hk. now apply (half_lists _ _ _ HI).
    - intros n e Hn Hk. rewrite in_adj. split.
      + intros [x [Hx [<- Hs]]]. pose proof (b_ER_range _ _ _ B x Hx). split; [lia|]. split; [|intros []].
        exists (etgt x). rewrite (kind_edge_of x Hx), Hs. reflexivity.
      + intros (He & [t Ht] & _). destruct (kind_edge_inv e n t He Ht) as (x & Hx & E1 & E2 & _). exists x. tauto.
    - intros n e Hn Hk. rewrite in_adj. split.
      + intros [x [Hx [<- Hs]]]. pose proof (b_ER_range _ _ _ B x Hx). split; [lia|]. split; [|intros []].
        exists (esrc x). rewrite (kind_edge_of x Hx), Hs. reflexivity.
      + intros (He & [f Hf] & _). destruct (kind_edge_inv e f n He Hf) as (x & Hx & E1 & _ & E3). exists x. tauto.
    - intros e f t He Hk. destruct (kind_edge_inv e f t He Hk) as (x & Hx & _ & <- & <-).
      destruct (b_ends _ _ _ B x Hx) as [Hs Ht].
      pose proof (b_nodes_range _ _ _ B _ Hs) as Rs. pose proof (b_nodes_range _ _ _ B _ Ht) as Rt.
      split; [lia|]. split; [lia|]. split; apply kind_node_iff; (lia || assumption).
  Qed.
End Bridge.

Theorem wf_rep g : wf g -> capacity g <= two63z -> exists a, rep g a.
Proof. intros [aa [fl HS]] Hc. exists (view g aa fl). now apply sim_rep. Qed.

(* the C13 well-formedness of a state follows from the joint invariant *)
Theorem Inv_db_ok d : Inv d -> capacity (gr d) <= two63z -> db_ok d.
Proof.
  intros (Hwf & Hb & _ & Hk & (_ & _ & Hi)) Hc. destruct (wf_rep (gr d) Hwf Hc) as [a Ra].
  constructor.
  - apply (gsim_of_rep _ a Ra).
  - assert (Hok : alias_ok (aliases d)) by (intros al i; apply (proj1 Hb al i)).
    split; [exact Hok|]. split; [exact Hok|apply alias_eq_refl].
  - assert (Hok : forall i, keys_ok (kvs_get (vals d) i)) by (intros i; apply keys_distinct_iff, Hk).
    split; [exact Hok|]. split; [exact Hok|reflexivity].
  - assert (Hok : idx_ok (indexes d)) by (now apply idx_distinct_iff).
    split; [exact Hok|]. split; [exact Hok|]. intros key. apply idx_rel_refl.
Qed.
