(* LoadOutcomeAgree.v — C07 / C05: on a record store that HOLDS a database (`stored_db`, StoredDbRep.v) the outcome
   model of LoadOutcome.v loads it, and returns the very database the loader `load_db` of StoredDb.v returns
   (C05_db_reload).  Route: the value element class of LoadOutcome.v is lawful for the same representation as
   CollValues.ce_dbvalue (only `load` differs, and on the indexes `store` produces the two coincide), so the L2 reload
   lemmas apply to the programs of LoadOutcome.v; both loaders are shown to return one concrete database built from
   the representation witness. *)
From Agdb Require Import Bytes DbValue ValueIndex ValueIndexProofs ValueLoadProofs DbModel Records StorageSpec
  StorageLayout Collections CollValues CollWp CollVecBase CollVec CollElems CollMap CollGraph CollValuesProofs StoredDb
  StoredDbRep StoredDbRun StoredDbFrame StoredDbLoad StoredDbProofs LoadOutcome LoadOutcomeProofs.
Open Scope N_scope.

(* lo_run is cp_run on the read-only record map, once the limit admits the records *)
Definition lo_of_cres {A} (r : cres A) : lo_res A :=
  match r with CrOk a => LoOk a | CrErr _ => LoErr | CrDead => LoPanic end.

Lemma lo_request_admitted L m o n : limit_admits L m -> lo_request m o = Some n -> (L <? n) = false.
Proof.
  intros Hb. destruct o; cbn [lo_request]; try discriminate; destruct (m_get m index) as [x|] eqn:E; try discriminate;
    pose proof (Hb _ _ E).
  - intros [= <-]. lia.
  - destruct (_ || _) eqn:E1; [discriminate|]. intros [= <-]. lia.
Qed.

Lemma lo_run_cp_run {A} L m (p : cprog A) : limit_admits L m -> lo_run L p m = lo_of_cres (snd (cp_run sd_step p m)).
Proof.
  intros Hb. induction p as [a|e| |o k IH]; cbn [lo_run cp_run snd lo_of_cres]; try reflexivity.
  pose proof (sd_step_fst m o) as Ef. destruct (sd_step m o) as [m' v]. cbn [fst snd] in *. subst m'.
  destruct (lo_request m o) as [n|] eqn:Er; [rewrite (lo_request_admitted L m o n Hb Er)|];
    destruct v; cbn [snd lo_of_cres]; try reflexivity; apply IH.
Qed.

(* the value element class of LoadOutcome.v is lawful for the representation of C12 *)
Lemma load_g_ok_inv ix st v :
  load_db_value_g vg_current ix st = Ok v ->
  (is_numeric_type (vi_type ix) && negb (vi_size ix =? 8)) = false /\ is_known_type (vi_type ix) = true /\
  load_db_value ix st = Ok v.
Proof.
  unfold load_db_value_g. cbn [vg_num_checked vg_type_checked vg_current].
  destruct (is_numeric_type (vi_type ix) && negb (vi_size ix =? 8)); [discriminate|].
  destruct (is_known_type (vi_type ix)); cbn [negb]; [auto|discriminate].
Qed.

Lemma known_cases t : is_known_type t = true -> t = 1 \/ t = 2 \/ t = 3 \/ t = 4 \/ t = 5 \/ t = 6 \/ t = 7 \/ t = 8 \/ t = 9.
Proof. unfold is_known_type. lia. Qed.

Lemma lo_value_load_inline g ix v :
  load_db_value_g vg_current ix [] = Ok v -> is_value ix = true -> lo_value_load g ix = CRet v.
Proof.
  intros R Hv. destruct (load_g_ok_inv _ _ _ R) as (E1 & E2 & R'). unfold lo_value_load. rewrite E1, E2. cbn [negb].
  unfold lo_needs_record. rewrite Hv. cbn [negb].
  destruct (known_cases _ E2) as [E|[E|[E|[E|[E|[E|[E|[E|E]]]]]]]]; rewrite E; cbv iota;
    try (rewrite R'; reflexivity);
    exfalso; unfold load_db_value in R'; rewrite E in R'; cbv iota in R';
    unfold value_as, rec_get in R'; cbn in R'; discriminate R'.
Qed.

Lemma lo_value_load_record g ix b v :
  load_db_value_g vg_current ix [(vi_index ix, b)] = Ok v -> is_value ix = false ->
  lo_value_load g ix = (b0 <~ cp_value (vi_index ix) ;; cp_of_outcome (load_db_value ix [(vi_index ix, b0)])) \/
  lo_value_load g ix = CRet v.
Proof.
  intros R Hv. destruct (load_g_ok_inv _ _ _ R) as (E1 & E2 & R'). unfold lo_value_load. rewrite E1, E2. cbn [negb].
  unfold lo_needs_record. rewrite Hv. cbn [negb].
  destruct (known_cases _ E2) as [E|[E|[E|[E|[E|[E|[E|[E|E]]]]]]]]; rewrite E; cbv iota; try (left; reflexivity);
    right; unfold load_db_value in *; rewrite E in *; cbv iota in *; rewrite R'; reflexivity.
Qed.

Lemma lo_dbvalue_load g fl bs v sp (Q : cres dbvalue -> spec -> Prop) :
  el_rep law_dbvalue (hp sp) bs v -> Q (CrOk v) sp -> cwp fl (ce_load (lo_ce_dbvalue g) bs) sp Q.
Proof.
  intros (Hwf & i & H1 & H2 & -> & Hg) HQ. cbn [ce_load lo_ce_dbvalue].
  pose proof (load_g_roundtrip vg_current (fun _ => i) v [] Hwf (alloc_const_ok i H1 H2)) as R.
  destruct (dbv_store_shape v i) as [Es _]. rewrite Es in R.
  destruct (dbv_index_facts v i H1 H2) as [Hw Hc]. remember (fst (store_db_value (fun _ => i) v [])) as ix eqn:Eix.
  rewrite (vi_deserialize_wf ix Hw). cbn [cp_of_outcome cbind].
  destruct Hc as [[Hv Hn]|(Hv & Hi & b & Hb)].
  + rewrite Hn in R. rewrite (lo_value_load_inline g ix v R Hv). exact HQ.
  + rewrite Hb in R. rewrite <- Hi in R.
    destruct (lo_value_load_record g ix b v R Hv) as [E|E]; rewrite E; [|exact HQ].
    apply cwp_bind. eapply cwp_value; [rewrite Hi; exact (Hg b Hb)|]. cbn [kont].
    destruct (load_g_ok_inv _ _ _ R) as (_ & _ & R'). rewrite R'. exact HQ.
Qed.

(* the law of ce_dbvalue with the new `el_load` *)
Definition law_lo_dbvalue (g : vguards) : elem_law (lo_ce_dbvalue g) :=
  let L := law_dbvalue in
  @Build_elem_law dbvalue (lo_ce_dbvalue g) (el_valid L) (el_rep L) (el_own L)
    (el_size_pos _ L) (el_len _ L) (el_live _ L) (el_nodup _ L) (el_local _ L) (el_store _ L)
    (lo_dbvalue_load g) (el_remove _ L).

Definition law_lo_dbkv (g : vguards) : elem_law (lo_ce_dbkv g) :=
  law_pair dbvalue dbvalue (lo_ce_dbvalue g) (lo_ce_dbvalue g) (law_lo_dbvalue g) (law_lo_dbvalue g).

(* the representation predicates see of an element law only its size, `el_rep` and `el_own` *)
Definition same_rep {T} {E E' : cv_elem T} (L : elem_law E) (L' : elem_law E') : Prop :=
  ce_size E' = ce_size E /\ el_rep L' = el_rep L /\ el_own L' = el_own L.

Lemma same_rep_lo_dbvalue g : same_rep law_dbvalue (law_lo_dbvalue g).
Proof. repeat split. Qed.

(* Stated for variables: between the two concrete pair laws, conversion would compare the proofs inside law_pair. *)
Lemma same_rep_pair A B (EA EA' : cv_elem A) (EB EB' : cv_elem B) LA LA' LB LB' :
  same_rep LA LA' -> same_rep LB LB' -> same_rep (law_pair A B EA EB LA LB) (law_pair A B EA' EB' LA' LB').
Proof.
  intros (Sa & Ra & Oa) (Sb & Rb & Ob). repeat split; cbn [ce_size ce_pair el_rep el_own law_pair].
  - rewrite Sa, Sb. reflexivity.
  - unfold pair_rep. rewrite Ra, Rb, Oa, Ob. reflexivity.
  - unfold pair_own. rewrite Sa, Oa, Ob. reflexivity.
Qed.

Section SameRep.
  Variable T : Type.
  Variables E E' : cv_elem T.
  Variable L : elem_law E.
  Variable L' : elem_law E'.
  Hypothesis HL : same_rep L L'.

  Lemma vrep_same_rep g h bss l : vrep T E L g h bss l -> vrep T E' L' g h bss l.
  Proof.
    destruct HL as (Hsize & Hrep & Hown). intros [[Hrec Hel Hnd] Hlen Hcap Hfits].
    constructor; [constructor|..]; try assumption.
    - rewrite Hrep. exact Hel.
    - unfold owned. rewrite Hown. exact Hnd.
    - rewrite Hsize. exact Hfits.
  Qed.

  Lemma msep_same_rep_key V (EV : cv_elem V) (LV : elem_law EV) g d ss ks vs ls lk lv :
    msep T V E EV L LV g d ss ks vs ls lk lv -> msep T V E' EV L' LV g d ss ks vs ls lk lv.
  Proof.
    intros [H1 H2 H3 H4 H5 H6]. constructor; try assumption.
    - apply vrep_same_rep. exact H3.
    - destruct HL as (_ & _ & Hown). unfold mfoot, foot, owned in *. rewrite Hown. exact H6.
  Qed.
End SameRep.
Arguments vrep_same_rep {T E E' L L'} HL.
Arguments msep_same_rep_key {T E E' L L'} HL.

Lemma same_rep_lo_dbkv g : same_rep law_dbkv (law_lo_dbkv g).
Proof. apply same_rep_pair; apply same_rep_lo_dbvalue. Qed.

Lemma sd_reads_lo_dbvalue g0 : sd_elem_reads (lo_ce_dbvalue g0).
Proof. intros bs. cbn [ce_load lo_ce_dbvalue]. unfold lo_value_load. auto 8 with sd_reads. Qed.

Definition lo_prog (g0 : vguards) (b : bytes) : cprog db :=
  h <~ (r <~ cr_de b ;; lo_open_root g0 r) ;; lo_read g0 h.

Lemma sd_reads_lo_prog g0 b : sd_reads (lo_prog g0 b).
Proof.
  pose proof (sd_reads_lo_dbvalue g0) as Hv.
  assert (Hkv : sd_elem_reads (lo_ce_dbkv g0)) by (apply sd_reads_pair; exact Hv).
  assert (H1 : forall es, sd_reads (lo_index_list_open g0 es)).
  { induction es as [|e r IH]; cbn [lo_index_list_open]; unfold lo_index_open; auto 8 with sd_reads. }
  assert (H2 : forall hs, sd_reads (lo_index_list_read g0 hs)).
  { induction hs as [|h r IH]; cbn [lo_index_list_read]; unfold lo_map_read; auto 8 with sd_reads. }
  assert (H3 : forall idxs, sd_reads (lo_kvs_read g0 idxs)).
  { induction idxs as [|i r IH]; cbn [lo_kvs_read]; auto 8 with sd_reads. }
  unfold lo_prog, cr_de, lo_open_root, lo_indexes_open, lo_read, lo_graph_read, lo_map_read. auto 20 with sd_reads.
Qed.

Section Specs.
  Variable fl : bool.
  Variable g0 : vguards.

  Fixpoint lo_ih_rep (gh : heap) (hs : list lo_index_h) (ws : list (sd_mapw dbvalue Z)) (ixs : list index) : Prop :=
    match hs, ws, ixs with
    | [], [], [] => True
    | h :: hs', w :: ws', ix :: ixs' =>
      (lih_key h = fst ix /\
       msep dbvalue Z (lo_ce_dbvalue g0) ce_i64 (law_lo_dbvalue g0) law_i64 gh (lih_ids h) (mw_ss w) (mw_ks w) (mw_vs w)
            (ct_states (mw_t w)) (ct_keys (mw_t w)) (ct_values (mw_t w))) /\
      lo_ih_rep gh hs' ws' ixs'
    | _, _, _ => False
    end.

  Lemma lo_index_list_open_spec : forall es ws ixs sp (Q : cres (list lo_index_h) -> spec -> Prop),
    sd_ix_rep (hp sp) es ws ixs ->
    (forall hs, lo_ih_rep (hp sp) hs ws ixs -> Q (CrOk hs) sp) ->
    cwp fl (lo_index_list_open g0 es) sp Q.
  Proof.
    induction es as [|e r IH]; intros [|w ws] [|ix ixs] sp Q H HQ; cbn [sd_ix_rep] in H; try contradiction;
      cbn [lo_index_list_open]; [apply (HQ []); exact I|].
    destruct H as [(ixb & mi & -> & Hmi & Hk & Hm) Hr]. destruct (sd_entry_split _ _ _ (le64 mi) Hk) as [E1 E2].
    apply cwp_bind. unfold lo_index_open. rewrite E1, E2.
    apply cwp_bind. eapply (el_load (lo_ce_dbvalue g0) (law_lo_dbvalue g0)); [exact Hk|]. cbn [kont].
    apply cwp_bind. rewrite cp_de64_le64 by exact Hmi. cbn [cwp kont].
    destruct Hm as (HM & Ei & HP). destruct HM as [HS _ _]. rewrite <- Ei.
    apply cwp_bind. eapply cm_from_storage_spec; [apply (msep_same_rep_key (same_rep_lo_dbvalue g0)); exact HS|]. intros d' HS' _ _ _ _. cbn [kont cwp].
    apply cwp_bind. eapply IH; [exact Hr|]. intros hs Hhs. cbn [kont cwp].
    apply HQ. cbn [lo_ih_rep lih_key lih_ids]. split; [split; [reflexivity|exact HS']|exact Hhs].
  Qed.

  Lemma lo_index_list_read_spec : forall hs ws ixs sp (Q : cres (list index) -> spec -> Prop),
    lo_ih_rep (hp sp) hs ws ixs -> Q (CrOk (sd_ix_concrete ws ixs)) sp -> cwp fl (lo_index_list_read g0 hs) sp Q.
  Proof.
    induction hs as [|h r IH]; intros [|w ws] [|ix ixs] sp Q H HQ; cbn [lo_ih_rep] in H; try contradiction;
      cbn [lo_index_list_read sd_ix_concrete] in *; [exact HQ|].
    destruct H as [[Hk HS] Hr].
    apply cwp_bind. eapply lo_map_read_spec; [exact HS|]. cbn [kont].
    apply cwp_bind. eapply IH; [exact Hr|]. cbn [kont cwp]. rewrite Hk. exact HQ.
  Qed.

  Lemma lo_kvs_read_spec : forall idxs ws kvs sp (Q : cres (list (list kv)) -> spec -> Prop),
    sd_kv_rep (hp sp) idxs ws kvs -> Q (CrOk kvs) sp -> cwp fl (lo_kvs_read g0 idxs) sp Q.
  Proof.
    induction idxs as [|i r IH]; intros [|w ws] [|l kvs] sp Q H HQ; cbn [sd_kv_rep] in H; try contradiction;
      cbn [lo_kvs_read]; [exact HQ|].
    destruct H as [Hs Hr]. apply cwp_bind.
    destruct w as [[h bss]|]; cbn [sd_kv_slot_rep] in Hs.
    - destruct Hs as (Hi & <- & HR). destruct (N.eqb_spec (cv_index h) 0) as [E|_]; [contradiction|].
      eapply sd_vec_load_spec; [apply (vrep_same_rep (same_rep_lo_dbkv g0)); exact HR|]. cbn [kont].
      apply cwp_bind. eapply IH; [exact Hr|]. cbn [kont cwp]. exact HQ.
    - destruct Hs as [-> ->]. rewrite N.eqb_refl. cbn [cwp kont].
      apply cwp_bind. eapply IH; [exact Hr|]. cbn [kont cwp]. exact HQ.
  Qed.

  Theorem lo_prog_spec root d w sp :
    stored_db_w (hp sp) root d w ->
    cwp fl (lo_prog g0 (cr_ser (sw_root w))) sp (fun r sp' => sp' = sp /\ r = CrOk (sd_concrete w d)).
  Proof.
    intros [Hroot Hu64 _ Hg Hgi Ha1 Hk1 Ha2 Hk2 Hiv Hii Hix Hvv Hvi Hv _].
    unfold lo_prog. apply cwp_bind. apply cwp_bind. apply cr_de_ser; [exact Hu64|]. cbn [kont].
    unfold lo_open_root.
    apply cwp_bind. rewrite <- Hgi. eapply cg_from_storage_spec; [exact Hg|]. intros gd Hgd _. cbn [kont].
    destruct Ha1 as (HM1 & E1 & P1). destruct HM1 as [HS1 _ _].
    apply cwp_bind. rewrite <- E1. eapply cm_from_storage_spec; [exact HS1|]. intros d1 HS1' _ _ _ _. cbn [kont].
    destruct Ha2 as (HM2 & E2 & P2). destruct HM2 as [HS2 _ _].
    apply cwp_bind. rewrite <- E2. eapply cm_from_storage_spec; [exact HS2|]. intros d2 HS2' _ _ _ _. cbn [kont].
    apply cwp_bind. unfold lo_indexes_open. apply cwp_bind. rewrite <- Hii.
    eapply sd_vec_load_spec; [exact Hiv|]. cbn [kont].
    eapply lo_index_list_open_spec; [exact Hix|]. intros hs Hhs. cbn [kont].
    apply cwp_bind. rewrite <- Hvi. eapply cv_from_storage_spec; [exact Hvv|]. intros vh Hvh _ _. cbn [kont cwp].
    (* the complete read *)
    unfold lo_read. cbn [lh_graph lh_aliases1 lh_aliases2 lh_indexes lh_values].
    apply cwp_bind. eapply lo_graph_read_spec; [exact Hgd|]. cbn [kont].
    apply cwp_bind. eapply lo_map_read_spec; [exact HS1'|]. cbn [kont].
    apply cwp_bind. eapply lo_map_read_spec; [exact HS2'|]. cbn [kont].
    apply cwp_bind. eapply lo_index_list_read_spec; [exact Hhs|]. cbn [kont].
    apply cwp_bind. eapply cv_values_spec; [exact Hvh|]. cbn [kont].
    apply cwp_bind. eapply lo_kvs_read_spec; [exact Hv|]. cbn [kont cwp].
    split; reflexivity.
  Qed.
End Specs.

Lemma lenN_cr_ser r : lenN (cr_ser r) = 48.
Proof. unfold cr_ser. rewrite !lenN_app, !lenN_le64. reflexivity. Qed.

Theorem load_outcome_of_stored g0 m root d :
  stored_db (m_get m) root d ->
  exists d', load_outcome_g g0 (lo_limit m) m root = Loaded d' /\ load_db m root = Some d' /\ sd_eqv d d' /\ undo d' = [].
Proof.
  intros [w Hw]. exists (sd_concrete w d).
  split; [|exact (conj (load_db_stored_w m root d w Hw) (conj (sd_concrete_eqv _ _ _ _ Hw) eq_refl))].
  destruct (sd_run_sound true (lo_prog g0 (cr_ser (sw_root w))) (sd_spec_of m) _ (sd_reads_lo_prog g0 _)
              (lo_prog_spec true g0 root d w (sd_spec_of m) Hw)) as (_ & _ & Enew).
  cbn [sd_spec_of sm] in Enew.
  pose proof (lo_run_cp_run (lo_limit m) m (lo_prog g0 (cr_ser (sw_root w))) (limit_admits_lo_limit m)) as Erun.
  rewrite Enew in Erun. cbn [lo_of_cres] in Erun.
  unfold lo_prog in Erun. rewrite lo_run_bind in Erun.
  unfold load_outcome_g, lo_open.
  rewrite (sr_root _ _ _ _ Hw), lenN_cr_ser.
  assert (Hl : (lo_limit m <? 48) = false) by (unfold lo_limit; lia). rewrite Hl.
  replace (48 <? 40) with false by reflexivity. replace (48 <? 48) with false by reflexivity.
  destruct (lo_run (lo_limit m) (r <~ cr_de (cr_ser (sw_root w)) ;; lo_open_root g0 r) m) as [h| | |n];
    cbn [lo_bind] in Erun; try discriminate Erun.
  cbn [lo_of_res]. rewrite Erun. reflexivity.
Qed.
