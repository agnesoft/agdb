(* StoredDbOpsLinkDec.v — proofs (stored database): so_covered is DECIDABLE: the boolean so_coveredb d c computes it
   (capacity, existence of the ids, keys not indexed, validity of the values, sizes, the element's property list). *)
From Agdb Require Import Bytes DbValue ValueIndex Graph DbModel Collections CollValues CollVecBase CollValuesProofs
  StoredDbOpsDb3 StoredDbOpsQuery StoredDbOpsLinkHist.
From Coq Require Import Bool ZifyBool ZifyNat ZifyN.
Open Scope Z_scope.

Definition not_indexedb (d : db) (k : dbvalue) : bool :=
  match idx_find (indexes d) k with None => true | Some _ => false end.
Definition kv_validb (x : kv) : bool := wf_value (fst x) && wf_value (snd x).
Definition kv_fitsb (d : db) (id : Z) : bool :=
  (8 + ce_size ce_dbkv * (lenN (kvs_get (vals d) id) + 1) <? two64)%N.
Definition not_indexed2b (d : db) (id : Z) (x : kv) : bool :=
  not_indexedb d (fst x) &&
  match fst (kvs_insert_or_replace (vals d) id x) with Some old => not_indexedb d (fst old) | None => true end.

Fixpoint kvs_okb (d : db) (id : Z) (l : list kv) : bool :=
  match l with
  | [] => true
  | x :: t => not_indexedb d (fst x) && kv_validb x && kv_fitsb d id && kvs_okb (insert_key_value d id x) id t
  end.
Fixpoint iors_okb (d : db) (id : Z) (l : list kv) : bool :=
  match l with
  | [] => true
  | x :: t => not_indexed2b d id x && kv_validb x && kv_fitsb d id && iors_okb (insert_or_replace_key_value d id x) id t
  end.

Definition is_nil {A} (l : list A) : bool := match l with [] => true | _ => false end.
Definition is_none {A} (o : option A) : bool := match o with None => true | _ => false end.

Definition so_coveredb (d : db) (c : so_cq) : bool :=
  (capacity (gr d) <? 1152921504606846976) &&
  match c with
  | CqInsertNode l => let id := fst (insert_node_db d) in kvs_okb (reserve_kv (snd (insert_node_db d)) id) id l
  | CqInsertValues id l => graph_index (gr d) id && iors_okb (reserve_kv d id) id l
  | CqInsertEdge f t => (0 <? f) && (0 <? t) && (is_node (gr d) f && is_node (gr d) t || is_nil (undo d))
  | CqRemove id =>
    negb (is_nil (kvs_get (vals d) id)) &&
    forallb (fun x : kv => not_indexedb d (fst x)) (kvs_get (vals d) id) &&
    ((id <? 0) && is_edge (gr d) id ||
     (0 <? id) && is_node (gr d) id && is_none (imap_key (aliases d) id) && (from (gr d) id =? 0) && (to (gr d) id =? 0))
  end.

Lemma not_indexedb_iff d k : not_indexedb d k = true <-> idx_find (indexes d) k = None.
Proof. unfold not_indexedb. destruct (idx_find (indexes d) k); split; congruence. Qed.

Lemma kv_validb_iff x : kv_validb x = true <-> el_valid law_dbkv x.
Proof. unfold kv_validb. change (el_valid law_dbkv x) with (wf_value (fst x) = true /\ wf_value (snd x) = true). apply andb_true_iff. Qed.

Lemma kv_fitsb_iff d id : kv_fitsb d id = true <-> so_kv_fits d id.
Proof. unfold kv_fitsb, so_kv_fits. apply N.ltb_lt. Qed.

Lemma not_indexed2b_iff d id x : not_indexed2b d id x = true <-> so_not_indexed d id x.
Proof.
  unfold not_indexed2b, so_not_indexed. rewrite andb_true_iff, not_indexedb_iff.
  destruct (fst (kvs_insert_or_replace (vals d) id x)) as [old|]; [rewrite not_indexedb_iff; tauto|intuition].
Qed.

Lemma kvs_okb_iff id l : forall d, kvs_okb d id l = true <-> so_kvs_ok d id l.
Proof.
  induction l as [|x t IH]; intros d; cbn [kvs_okb so_kvs_ok]; [intuition|].
  rewrite !andb_true_iff, IH, not_indexedb_iff, kv_validb_iff, kv_fitsb_iff. tauto.
Qed.

Lemma iors_okb_iff id l : forall d, iors_okb d id l = true <-> so_iors_ok d id l.
Proof.
  induction l as [|x t IH]; intros d; cbn [iors_okb so_iors_ok]; [intuition|].
  rewrite !andb_true_iff, IH, not_indexed2b_iff, kv_validb_iff, kv_fitsb_iff. tauto.
Qed.

(* the part of the two removal conditions that does not depend on the element's having a property *)
Lemma remove_okb_iff d id :
  forallb (fun x : kv => not_indexedb d (fst x)) (kvs_get (vals d) id) &&
  ((id <? 0) && is_edge (gr d) id ||
   (0 <? id) && is_node (gr d) id && is_none (imap_key (aliases d) id) && (from (gr d) id =? 0) && (to (gr d) id =? 0)) = true <->
  (forall x, In x (kvs_get (vals d) id) -> idx_find (indexes d) (fst x) = None) /\
  (id < 0 /\ is_edge (gr d) id = true \/
   0 < id /\ is_node (gr d) id = true /\ imap_key (aliases d) id = None /\ from (gr d) id = 0 /\ to (gr d) id = 0).
Proof.
  rewrite !andb_true_iff, orb_true_iff, !andb_true_iff, !Z.ltb_lt, !Z.eqb_eq, forallb_forall.
  assert (B : is_none (imap_key (aliases d) id) = true <-> imap_key (aliases d) id = None).
  { destruct (imap_key (aliases d) id); cbn [is_none]; split; congruence. }
  assert (C : (forall x : kv, In x (kvs_get (vals d) id) -> not_indexedb d (fst x) = true) <->
              (forall x : kv, In x (kvs_get (vals d) id) -> idx_find (indexes d) (fst x) = None)).
  { split; intros H x Hx; apply not_indexedb_iff; apply H; exact Hx. }
  rewrite B, C. tauto.
Qed.

Theorem so_coveredb_iff d c : so_coveredb d c = true <-> so_covered d c.
Proof.
  unfold so_coveredb, so_covered, so_cap_ok. rewrite andb_true_iff, Z.ltb_lt.
  destruct c as [l|id l|f t|id]; cbv zeta.
  - rewrite kvs_okb_iff. tauto.
  - rewrite andb_true_iff, iors_okb_iff. tauto.
  - rewrite !andb_true_iff, orb_true_iff, andb_true_iff, !Z.ltb_lt.
    assert (A : is_nil (undo d) = true <-> undo d = []) by (destruct (undo d); cbn [is_nil]; split; congruence).
    rewrite A. destruct (is_node (gr d) f), (is_node (gr d) t); cbn [andb]; intuition congruence.
  - rewrite <- andb_assoc, andb_true_iff, remove_okb_iff, negb_true_iff.
    assert (A : is_nil (kvs_get (vals d) id) = false <-> kvs_get (vals d) id <> []).
    { destruct (kvs_get (vals d) id); cbn [is_nil]; split; congruence. }
    rewrite A. tauto.
Qed.
