(* CodecProofs.v — C20 (round trip, exact size) and C21 (totality) about Codec.v *)
From Agdb Require Import Bytes BytesProofs Utf8 Codec.
From Coq Require Import ZifyBool ZifyNat ZifyN.
Ltac Zify.zify_post_hook ::= Z.div_mod_to_equations.
Open Scope N_scope.
Arguments N.add : simpl never.
Arguments N.mul : simpl never.
Arguments N.sub : simpl never.
Arguments N.div : simpl never.
Arguments N.modulo : simpl never.
Arguments N.ltb : simpl never.
Arguments N.leb : simpl never.
Arguments N.eqb : simpl never.
Arguments N.min : simpl never.
Arguments N.of_nat : simpl never.
Arguments N.to_nat : simpl never.

Section ValInd.
  Variable P : val -> Prop.
  Hypothesis HU64 : forall n, P (VU64 n).
  Hypothesis HI64 : forall z, P (VI64 z).
  Hypothesis HF64 : forall b, P (VF64 b).
  Hypothesis HUsize : forall n, P (VUsize n).
  Hypothesis HBool : forall b, P (VBool b).
  Hypothesis HStr : forall bs, P (VStr bs).
  Hypothesis HBytes : forall bs, P (VBytes bs).
  Hypothesis HTime : forall s n a, P (VTime s n a).
  Hypothesis HVec : forall l, Forall P l -> P (VVec l).
  Hypothesis HStruct : forall l, Forall P l -> P (VStruct l).
  Hypothesis HEnum : forall tag l, Forall P l -> P (VEnum tag l).

  Fixpoint val_ind' (v : val) : P v :=
    let fix all (l : list val) : Forall P l :=
      match l with
      | [] => Forall_nil P
      | x :: r => Forall_cons x (val_ind' x) (all r)
      end in
    match v with
    | VU64 n => HU64 n | VI64 z => HI64 z | VF64 b => HF64 b | VUsize n => HUsize n
    | VBool b => HBool b | VStr bs => HStr bs | VBytes bs => HBytes bs
    | VTime s n a => HTime s n a
    | VVec l => HVec l (all l)
    | VStruct l => HStruct l (all l)
    | VEnum tag l => HEnum tag l (all l)
    end.
End ValInd.

Section TyInd.
  Variable P : ty -> Prop.
  Hypothesis H1 : P TU64.
  Hypothesis H2 : P TI64.
  Hypothesis H3 : P TF64.
  Hypothesis H4 : P TUsize.
  Hypothesis H5 : P TBool.
  Hypothesis H6 : P TStr.
  Hypothesis H7 : P TBytes.
  Hypothesis H8 : P TTime.
  Hypothesis HVec : forall t, P t -> P (TVec t).
  Hypothesis HStruct : forall fs, Forall P fs -> P (TStruct fs).
  Hypothesis HEnum : forall vs, Forall (Forall P) vs -> P (TEnum vs).

  Fixpoint ty_ind' (t : ty) : P t :=
    let fix all (l : list ty) : Forall P l :=
      match l with
      | [] => Forall_nil P
      | x :: r => Forall_cons x (ty_ind' x) (all r)
      end in
    let fix all2 (l : list (list ty)) : Forall (Forall P) l :=
      match l with
      | [] => Forall_nil (Forall P)
      | x :: r => Forall_cons x (all x) (all2 r)
      end in
    match t with
    | TU64 => H1 | TI64 => H2 | TF64 => H3 | TUsize => H4 | TBool => H5
    | TStr => H6 | TBytes => H7 | TTime => H8
    | TVec t' => HVec t' (ty_ind' t')
    | TStruct fs => HStruct fs (all fs)
    | TEnum vs => HEnum vs (all2 vs)
    end.
End TyInd.

Lemma lenN_concat_enc (l : list val) :
  Forall (fun v => size v = lenN (enc v)) l ->
  sumN (map size l) = lenN (concat (map enc l)).
Proof.
  induction 1 as [|x r Hx _ IH]; cbn [map concat sumN fold_right]; [reflexivity|].
  rewrite lenN_app. fold (sumN (map size r)). now rewrite Hx, IH.
Qed.

Theorem size_enc : forall v, size v = lenN (enc v).
Proof.
  induction v as [n|z|b|n|b|bs|bs|s n a|l IH|l IH|tag l IH] using val_ind';
    cbn [size enc]; rewrite ?lenN_app, ?lenN_cons, ?lenN_nil, ?lenN_le64, ?lenN_le32;
    try reflexivity; try lia.
  all: now rewrite (lenN_concat_enc l IH).
Qed.

Lemma skipn_lenN_app {A} (pre x : list A) : skipn (N.to_nat (lenN pre)) (pre ++ x) = x.
Proof.
  unfold lenN. rewrite Nat2N.id. rewrite skipn_app, skipn_all, Nat.sub_diag. reflexivity.
Qed.

Lemma rd64_le64 n rest : n < two64 -> rd64 (le64 n ++ rest) = Ok n.
Proof.
  intros H. unfold rd64. rewrite slice_app_exact by apply le64_length.
  now rewrite de_le64.
Qed.

Lemma sumN_cons x a : sumN (x :: a) = x + sumN a.
Proof. reflexivity. Qed.
Lemma sumN_nil : sumN [] = 0.
Proof. reflexivity. Qed.

Lemma sumN_app a b : sumN (a ++ b) = sumN a + sumN b.
Proof. induction a as [|x a IH]; cbn [app]; rewrite ?sumN_cons, ?sumN_nil, ?IH; lia. Qed.

Definition rt_at (p : profile) (g : guards) (t : ty) : Prop :=
  forall v rest, ty_ok t = true -> has_type t v = true ->
    dec p g t (enc v ++ rest) = Ok (v, size v).

Lemma elem_rt p g t x pre tail :
  rt_at p g t -> ty_ok t = true -> has_type t x = true ->
  (lenN (pre ++ enc x ++ tail) <? lenN pre) = false /\
  dec p g t (skipn (N.to_nat (lenN pre)) (pre ++ enc x ++ tail)) = Ok (x, size x).
Proof.
  intros H Hok Hx. split; [apply N.ltb_ge; rewrite lenN_app; lia|]. rewrite skipn_lenN_app. now apply H.
Qed.

Lemma dec_fields_rt p g mk fs :
  Forall (rt_at p g) fs -> forallb ty_ok fs = true ->
  forall l2 pre rest acc,
    has_types has_type fs l2 = true ->
    dec_fields (dec p g) (pre ++ concat (map enc l2) ++ rest) mk fs (lenN pre) acc
    = Ok (mk (rev acc ++ l2), lenN pre + sumN (map size l2)).
Proof.
  induction 1 as [|f fs Hf _ IH]; intros Hok l2 pre rest acc Ht.
  - destruct l2; [|discriminate]. cbn [dec_fields map concat sumN fold_right].
    rewrite app_nil_r. f_equal. f_equal. lia.
  - destruct l2 as [|x l2]; [discriminate|].
    cbn [has_types] in Ht. apply andb_true_iff in Ht as [Hx Ht].
    cbn [forallb] in Hok. apply andb_true_iff in Hok as [Hokf Hok].
    cbn [dec_fields map concat]. rewrite <- app_assoc.
    destruct (elem_rt p g f x pre (concat (map enc l2) ++ rest) Hf Hokf Hx) as [-> ->].
    rewrite size_enc, <- lenN_app, (app_assoc pre).
    rewrite (IH Hok l2 (pre ++ enc x) rest (x :: acc) Ht).
    cbn [rev]. rewrite <- app_assoc. cbn [app]. f_equal. f_equal.
    rewrite lenN_app, sumN_cons. lia.
Qed.

Lemma dec_loop_rt p g t' :
  rt_at p g t' -> ty_ok t' = true ->
  forall l2 pre rest acc fuel,
    forallb (has_type t') l2 = true ->
    (length l2 < fuel)%nat ->
    dec_loop (dec p g) (pre ++ concat (map enc l2) ++ rest) t' fuel (lenN l2) (lenN pre) acc
    = Ok (VVec (rev acc ++ l2), lenN pre + sumN (map size l2)).
Proof.
  intros Hrt Hok. induction l2 as [|x l2 IH]; intros pre rest acc fuel Ht Hfuel.
  - assert (E : dec_loop (dec p g) (pre ++ concat (map enc []) ++ rest) t' fuel (lenN (@nil val)) (lenN pre) acc
                 = Ok (VVec (rev acc), lenN pre)) by (destruct fuel; reflexivity).
    rewrite E, app_nil_r. cbn [map]. rewrite sumN_nil. f_equal. f_equal. lia.
  - cbn [forallb] in Ht. apply andb_true_iff in Ht as [Hx Ht].
    destruct fuel as [|fuel]; [cbn [length] in Hfuel; lia|].
    cbn [dec_loop].
    destruct (N.eqb_spec (lenN (x :: l2)) 0) as [E|_]; [rewrite lenN_cons in E; lia|].
    cbn [map concat]. rewrite <- app_assoc.
    destruct (elem_rt p g t' x pre (concat (map enc l2) ++ rest) Hrt Hok Hx) as [-> ->].
    rewrite size_enc, <- lenN_app, (app_assoc pre).
    replace (lenN (x :: l2) - 1) with (lenN l2) by (rewrite lenN_cons; lia).
    rewrite (IH (pre ++ enc x) rest (x :: acc) fuel Ht) by (cbn [length] in Hfuel; lia).
    cbn [rev]. rewrite <- app_assoc. cbn [app]. f_equal. f_equal.
    rewrite lenN_app, sumN_cons. lia.
Qed.

Lemma min_size_le t : forall v, has_type t v = true -> min_size t <= size v.
Proof.
  induction t as [| | | | | | | |t IH|fs IH|vs IH] using ty_ind'; intros v Hv;
    destruct v; try discriminate; cbn [min_size size]; try lia.
  (* TStruct: field by field *)
  cbn [has_type] in Hv. revert l Hv. induction IH as [|f fs Hf _ IHfs]; intros l Hv.
  - destruct l; [|discriminate]. cbn. lia.
  - destruct l as [|x l]; [discriminate|]. cbn [has_types] in Hv.
    apply andb_true_iff in Hv as [Hx Hv]. cbn [map]. rewrite !sumN_cons.
    specialize (Hf x Hx). specialize (IHfs l Hv). lia.
Qed.

Lemma len_le_concat t' (l : list val) :
  1 <= min_size t' -> forallb (has_type t') l = true -> lenN l <= lenN (concat (map enc l)).
Proof.
  intros Hmin Ht. induction l as [|x l IH]; [cbn [map concat]; rewrite lenN_nil; lia|].
  cbn [forallb] in Ht. apply andb_true_iff in Ht as [Hx Ht].
  cbn [map concat]. rewrite lenN_app, lenN_cons. specialize (IH Ht).
  pose proof (min_size_le t' x Hx) as M. rewrite size_enc in M. lia.
Qed.

Lemma slice_mid (pre x rest : bytes) :
  slice (pre ++ x ++ rest) (length pre) (length x) = Some x.
Proof.
  unfold slice. rewrite !app_length.
  destruct (Nat.leb_spec (length pre + length x) (length pre + (length x + length rest))); [|lia].
  rewrite skipn_app, skipn_all, Nat.sub_diag. cbn [skipn app].
  now rewrite firstn_app, Nat.sub_diag, firstn_all, firstn_O, app_nil_r.
Qed.

Lemma vec_alloc_ok g t' (l : list val) rest :
  ty_ok (TVec t') = true -> forallb (has_type t') l = true -> lenN l < two60 ->
  vec_alloc g t' (le64 (lenN l) ++ concat (map enc l) ++ rest) (lenN l) = Ok tt.
Proof.
  intros Hok Ht Hlen. cbn [ty_ok] in Hok. apply andb_true_iff in Hok as [Hmin _].
  assert (Hsz : lenN l <= lenN (concat (map enc l))) by (apply (len_le_concat t'); [lia|exact Ht]).
  assert (Hm : elem_mem t' <= 8) by (destruct t' as [| | | | | | | | |[|]|]; cbn; lia).
  unfold vec_alloc.
  set (bs := le64 (lenN l) ++ concat (map enc l) ++ rest).
  assert (Hbs : lenN l + 8 <= lenN bs).
  { unfold bs. rewrite !lenN_app, lenN_le64. lia. }
  set (cap := if g_cap_clamped g then N.min (lenN l) (lenN bs) else lenN l).
  assert (Hcap : cap <= lenN l) by (unfold cap; destruct (g_cap_clamped g); lia).
  unfold isize_max, two63, two60 in *.
  destruct (N.ltb_spec (9223372036854775808 - 1) (cap * elem_mem t')); [nia|].
  destruct (N.ltb_spec ((lenN bs + 1) * 64) (cap * elem_mem t')); [nia|].
  reflexivity.
Qed.

Lemma dec_blob_rt p g bs rest :
  lenN bs < two60 ->
  dec_blob p g (le64 (lenN bs) ++ bs ++ rest) = Ok (bs, 8 + lenN bs).
Proof.
  intros H. unfold dec_blob, two60 in *.
  rewrite rd64_le64 by (unfold two64; lia). cbn [obind].
  assert (E : (8 + lenN bs) mod two64 = 8 + lenN bs) by (apply N.mod_small; unfold two64; lia).
  rewrite E.
  destruct (N.leb_spec two64 (8 + lenN bs)) as [Hc|_]; [unfold two64 in Hc; lia|].
  rewrite andb_false_r. cbn [andb].
  assert (L : lenN (le64 (lenN bs) ++ bs ++ rest) = 8 + lenN bs + lenN rest)
    by (rewrite !lenN_app, lenN_le64; lia).
  rewrite L.
  replace (if g_add_checked g then 8 + lenN bs else 8 + lenN bs) with (8 + lenN bs) by (destruct (g_add_checked g); reflexivity).
  destruct (N.leb_spec 8 (8 + lenN bs)); [|lia].
  destruct (N.leb_spec (8 + lenN bs) (8 + lenN bs + lenN rest)); [|lia].
  cbn [andb]. f_equal. f_equal.
  replace 8%nat with (length (le64 (lenN bs))) by apply le64_length.
  rewrite skipn_app, skipn_all, Nat.sub_diag. cbn [skipn app].
  unfold lenN. rewrite Nat2N.id, firstn_app, Nat.sub_diag, firstn_all. cbn [firstn]. now rewrite app_nil_r.
Qed.

Lemma pick_rt p g vs :
  Forall (Forall (rt_at p g)) vs -> forallb (forallb ty_ok) vs = true ->
  forall k tag l pre rest,
    pick_types has_type vs k l = true ->
    lenN pre = 1 ->
    dec_pick (dec p g) (pre ++ concat (map enc l) ++ rest) tag vs k
    = Ok (VEnum tag l, 1 + sumN (map size l)).
Proof.
  induction 1 as [|fs vs Hfs _ IH]; intros Hok k tag l pre rest Ht Hpre.
  - destruct k; discriminate.
  - cbn [forallb] in Hok. apply andb_true_iff in Hok as [Hokf Hok].
    destruct k as [|k]; cbn [pick_types] in Ht; cbn [dec_pick].
    + rewrite <- Hpre. rewrite (dec_fields_rt p g (VEnum tag) fs Hfs Hokf l pre rest [] Ht).
      reflexivity.
    + apply IH; assumption.
Qed.

Theorem roundtrip p g : forall t, rt_at p g t.
Proof.
  induction t as [| | | | | | | |t IH|fs IH|vs IH] using ty_ind'; intros v rest Hok Hv;
    destruct v; try discriminate; cbn [has_type] in Hv; cbn [dec enc size].
  - (* TU64 *) rewrite rd64_le64 by (apply N.ltb_lt; exact Hv). reflexivity.
  - (* TI64 *) rewrite rd64_le64 by apply z2u_lt. cbn [obind]. rewrite u2z_z2u by lia. reflexivity.
  - (* TF64 *) rewrite rd64_le64 by (apply N.ltb_lt; exact Hv). reflexivity.
  - (* TUsize *) rewrite rd64_le64 by (apply N.ltb_lt; exact Hv). reflexivity.
  - (* TBool *) cbn [app]. destruct b; reflexivity.
  - (* TStr *) apply andb_true_iff in Hv as [Hu Hl]. apply N.ltb_lt in Hl.
    rewrite <- app_assoc, dec_blob_rt by exact Hl. cbn [obind]. now rewrite Hu.
  - (* TBytes *) apply N.ltb_lt in Hv. rewrite <- app_assoc, dec_blob_rt by exact Hv. reflexivity.
  - (* TTime *) apply andb_true_iff in Hv as [Hv Hcanon]. apply andb_true_iff in Hv as [Hn Hs].
    apply N.ltb_lt in Hn. apply N.ltb_lt in Hs.
    unfold dec_time.
    pose proof (slice_mid [] (le64 secs) ((le32 nanos ++ [if after_epoch then x01 else x00]) ++ rest)) as S1.
    rewrite le64_length in S1. cbn [app length] in S1.
    pose proof (slice_mid (le64 secs) (le32 nanos) ([if after_epoch then x01 else x00] ++ rest)) as S2.
    rewrite le64_length, le32_length in S2.
    pose proof (slice_mid (le64 secs ++ le32 nanos) [if after_epoch then x01 else x00] rest) as S3.
    rewrite app_length, le64_length, le32_length in S3. cbn [length Nat.add] in S3.
    rewrite <- !app_assoc in *. rewrite S1, S2, S3.
    rewrite de_le64 by (unfold two63, two64 in *; lia).
    rewrite de_le32 by (unfold nanos_per_sec, two32 in *; lia).
    rewrite N.div_small by exact Hn. rewrite N.mod_small by exact Hn.
    replace (secs + 0) with secs by lia.
    destruct (N.leb_spec two64 secs) as [C|_]; [unfold two63, two64 in *; lia|].
    destruct after_epoch.
    + change (negb (b2n x01 =? 0)) with true. cbn iota.
      destruct (N.ltb_spec secs two63); [reflexivity|lia].
    + change (negb (b2n x00 =? 0)) with false. cbn iota.
      destruct (N.ltb_spec secs two63); [|lia]. cbn [orb].
      cbn [orb negb] in Hcanon. apply negb_true_iff in Hcanon. rewrite Hcanon. reflexivity.
  - (* TVec *) apply andb_true_iff in Hv as [Hl Hlen]. apply N.ltb_lt in Hlen.
    rewrite <- app_assoc.
    rewrite rd64_le64 by (unfold two60, two64 in *; lia). cbn [obind].
    rewrite vec_alloc_ok by assumption. cbn [obind].
    cbn [ty_ok] in Hok. apply andb_true_iff in Hok as [Hmin Hok].
    pose proof (dec_loop_rt p g t IH Hok l (le64 (lenN l)) rest [] (S (length (le64 (lenN l) ++ concat (map enc l) ++ rest)))) as R.
    rewrite lenN_le64 in R. rewrite R; [reflexivity|exact Hl|].
    pose proof (len_le_concat t l ltac:(lia) Hl) as L. unfold lenN in L.
    rewrite !app_length. lia.
  - (* TStruct *) cbn [ty_ok] in Hok.
    pose proof (dec_fields_rt p g VStruct fs IH Hok l [] rest [] Hv) as R.
    cbn [app] in R. rewrite lenN_nil in R. rewrite R. reflexivity.
  - (* TEnum *) apply andb_true_iff in Hv as [Htag Hv]. apply Nat.ltb_lt in Htag.
    cbn [ty_ok] in Hok.
    assert (E : b2n (n2b (N.of_nat tag)) = N.of_nat tag) by (rewrite b2n_n2b; apply N.mod_small; lia).
    cbn [app]. rewrite E, Nat2N.id.
    pose proof (pick_rt p g vs IH Hok tag tag l [n2b (N.of_nat tag)] rest Hv eq_refl) as R.
    cbn [app] in R. exact R.
Qed.

Definition good (t : ty) (bs : bytes) (o : outcome (val * N)) : Prop :=
  match o with
  | Ok (_, n) => min_size t <= n /\ n <= lenN bs
  | Err => True
  | _ => False
  end.

Definition total_at (p : profile) (t : ty) : Prop :=
  forall bs, lenN bs < two60 -> ty_ok t = true -> good t bs (dec p guards_fixed t bs).

Lemma lenN_skipn (bs : bytes) off : off <= lenN bs -> lenN (skipn (N.to_nat off) bs) = lenN bs - off.
Proof. intros H. unfold lenN in *. rewrite skipn_length. lia. Qed.

Lemma rd64_cases bs : (exists n, rd64 bs = Ok n /\ 8 <= lenN bs /\ n < two64) \/ rd64 bs = Err.
Proof.
  unfold rd64. destruct (slice bs 0 8) as [s|] eqn:E; [left|right; reflexivity].
  exists (de s). split; [reflexivity|]. split.
  - unfold slice in E. destruct (Nat.leb_spec (0 + 8) (length bs)); [|discriminate]. unfold lenN. lia.
  - apply de_lt64. eapply slice_length; exact E.
Qed.

Lemma dec_blob_total p bs :
  match dec_blob p guards_fixed bs with
  | Ok (_, n) => 8 <= n /\ n <= lenN bs
  | Err => True
  | _ => False
  end.
Proof.
  unfold dec_blob. destruct (rd64_cases bs) as [(n & -> & Hl & Hn)| ->]; cbn [obind guards_fixed g_add_checked negb andb]; [|exact I].
  destruct (N.leb_spec 8 (8 + n)); [|lia].
  destruct (N.leb_spec (8 + n) (lenN bs)); cbn [andb]; [lia|exact I].
Qed.

Lemma total_step p t bs off :
  total_at p t -> ty_ok t = true -> lenN bs < two60 -> off <= lenN bs ->
  match dec p guards_fixed t (skipn (N.to_nat off) bs) with
  | Ok (_, sz) => min_size t <= sz /\ off + sz <= lenN bs
  | Err => True
  | _ => False
  end.
Proof.
  intros Ht Hok Hbs Hoff. specialize (Ht (skipn (N.to_nat off) bs)). unfold good in Ht.
  rewrite lenN_skipn in Ht by exact Hoff. specialize (Ht ltac:(lia) Hok).
  destruct (dec p guards_fixed t (skipn (N.to_nat off) bs)) as [[v sz]| | | |]; try exact Ht. lia.
Qed.

Lemma dec_fields_total p mk fs bs :
  Forall (total_at p) fs -> forallb ty_ok fs = true -> lenN bs < two60 ->
  forall off acc, off <= lenN bs ->
  match dec_fields (dec p guards_fixed) bs mk fs off acc with
  | Ok (_, n) => off + sumN (map min_size fs) <= n /\ n <= lenN bs
  | Err => True
  | _ => False
  end.
Proof.
  intros HF Hok Hbs. induction HF as [|f fs Hf _ IH]; intros off acc Hoff; cbn [dec_fields].
  - cbn [map]. rewrite sumN_nil. lia.
  - cbn [forallb] in Hok. apply andb_true_iff in Hok as [Hokf Hok].
    destruct (N.ltb_spec (lenN bs) off); [lia|].
    pose proof (total_step p f bs off Hf Hokf Hbs Hoff) as S.
    destruct (dec p guards_fixed f (skipn (N.to_nat off) bs)) as [[v sz]| | | |]; try exact S.
    specialize (IH Hok (off + sz) (v :: acc) ltac:(lia)).
    destruct (dec_fields (dec p guards_fixed) bs mk fs (off + sz) (v :: acc)) as [[v' n]| | | |]; try exact IH.
    cbn [map]. rewrite sumN_cons. lia.
Qed.

Lemma dec_loop_total p t' bs :
  total_at p t' -> ty_ok t' = true -> 1 <= min_size t' -> lenN bs < two60 ->
  forall fuel k off acc, off <= lenN bs -> lenN bs < off + N.of_nat fuel ->
  match dec_loop (dec p guards_fixed) bs t' fuel k off acc with
  | Ok (_, n) => off <= n /\ n <= lenN bs
  | Err => True
  | _ => False
  end.
Proof.
  intros Ht Hok Hmin Hbs. induction fuel as [|fuel IH]; intros k off acc Hoff Hfuel.
  - lia.
  - cbn [dec_loop]. destruct (N.eqb_spec k 0); [lia|].
    destruct (N.ltb_spec (lenN bs) off); [lia|].
    pose proof (total_step p t' bs off Ht Hok Hbs Hoff) as S.
    destruct (dec p guards_fixed t' (skipn (N.to_nat off) bs)) as [[v sz]| | | |]; try exact S.
    specialize (IH (k - 1) (off + sz) (v :: acc) ltac:(lia) ltac:(lia)).
    destruct (dec_loop (dec p guards_fixed) bs t' fuel (k - 1) (off + sz) (v :: acc)) as [[v' n']| | | |]; try exact IH.
    lia.
Qed.

Lemma dec_pick_total p tag vs bs :
  Forall (Forall (total_at p)) vs -> forallb (forallb ty_ok) vs = true ->
  lenN bs < two60 -> 1 <= lenN bs ->
  forall k,
  match dec_pick (dec p guards_fixed) bs tag vs k with
  | Ok (_, n) => 1 <= n /\ n <= lenN bs
  | Err => True
  | _ => False
  end.
Proof.
  intros HF Hok Hbs H1. induction HF as [|fs vs Hfs _ IH]; intros k; cbn [dec_pick].
  - destruct k; exact I.
  - cbn [forallb] in Hok. apply andb_true_iff in Hok as [Hokf Hok].
    destruct k as [|k].
    + pose proof (dec_fields_total p (VEnum tag) fs bs Hfs Hokf Hbs 1 [] H1) as T.
      destruct (dec_fields (dec p guards_fixed) bs (VEnum tag) fs 1 []) as [[v n]| | | |]; try exact T. lia.
    + apply IH. exact Hok.
Qed.

Theorem dec_total p : forall t, total_at p t.
Proof.
  induction t as [| | | | | | | |t IH|fs IH|vs IH] using ty_ind'; intros bs Hbs Hok; cbn [dec]; unfold good.
  (* the four 8-byte integers *)
  1-4: destruct (rd64_cases bs) as [(n & -> & Hl & Hn)| ->]; cbn [obind min_size]; [lia|exact I].
  - (* TBool *) destruct bs as [|b bs]; [exact I|]. cbn [min_size]. rewrite lenN_cons. lia.
  - (* TStr *) pose proof (dec_blob_total p bs) as T.
    destruct (dec_blob p guards_fixed bs) as [[s n]| | | |]; cbn [obind]; try exact T.
    destruct (utf8_valid s); [cbn [min_size]; lia|exact I].
  - (* TBytes *) pose proof (dec_blob_total p bs) as T.
    destruct (dec_blob p guards_fixed bs) as [[s n]| | | |]; cbn [obind]; try exact T.
  - (* TTime *) unfold dec_time.
    destruct (slice bs 0 8) as [s8|] eqn:E8; [|exact I].
    destruct (slice bs 8 4) as [n4|] eqn:E4; [|exact I].
    destruct (slice bs 12 1) as [[|fl [|? ?]]|] eqn:E1; try exact I.
    assert (L : 13 <= lenN bs).
    { unfold slice in E1. destruct (Nat.leb_spec (12 + 1) (length bs)); [|discriminate]. unfold lenN. lia. }
    cbn [guards_fixed g_time_checked].
    repeat match goal with |- context [if ?c then _ else _] => destruct c end; cbn [min_size]; try exact I; lia.
  - (* TVec *) cbn [ty_ok] in Hok. apply andb_true_iff in Hok as [Hmin Hok]. apply N.leb_le in Hmin.
    destruct (rd64_cases bs) as [(n & -> & Hl & Hn)| ->]; cbn [obind min_size]; [|exact I].
    unfold vec_alloc. cbn [guards_fixed g_cap_clamped].
    assert (Hm : elem_mem t <= 8) by (destruct t as [| | | | | | | | |[|]|]; cbn; lia).
    unfold isize_max, two63, two60 in *.
    destruct (N.ltb_spec (9223372036854775808 - 1) (N.min n (lenN bs) * elem_mem t)); [exfalso; nia|].
    destruct (N.ltb_spec ((lenN bs + 1) * 64) (N.min n (lenN bs) * elem_mem t)); [exfalso; nia|].
    cbn [obind].
    pose proof (dec_loop_total p t bs IH Hok Hmin Hbs (S (length bs)) n 8 [] Hl) as T.
    destruct (dec_loop (dec p guards_fixed) bs t (S (length bs)) n 8 []) as [[v m]| | | |]; try (apply T; unfold lenN; lia).
  - (* TStruct *) cbn [ty_ok] in Hok.
    pose proof (dec_fields_total p VStruct fs bs IH Hok Hbs 0 [] ltac:(lia)) as T.
    destruct (dec_fields (dec p guards_fixed) bs VStruct fs 0 []) as [[v n]| | | |]; try exact T.
  - (* TEnum *) cbn [ty_ok] in Hok. destruct bs as [|b bs]; [exact I|].
    pose proof (dec_pick_total p (N.to_nat (b2n b)) vs (b :: bs) IH Hok Hbs ltac:(rewrite lenN_cons; lia) (N.to_nat (b2n b))) as T.
    destruct (dec_pick (dec p guards_fixed) (b :: bs) (N.to_nat (b2n b)) vs (N.to_nat (b2n b))) as [[v n]| | | |]; try exact T.
Qed.

(* non-vacuity: a nested value meeting the hypotheses of the round trip *)
Example rt_example :
  let t := TStruct [TU64; TVec (TEnum [[]; [TStr; TI64]]); TTime] in
  let v := VStruct [VU64 7; VVec [VEnum 1 [VStr [x61; x62]; VI64 (-5)]; VEnum 0 []]; VTime 1 500000000 false] in
  ty_ok t = true /\ has_type t v = true /\
  dec Debug guards_fixed t (enc v ++ [xff]) = Ok (v, size v).
Proof. vm_compute. repeat split. Qed.
