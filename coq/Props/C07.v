(* C07 — Opening or reading a damaged database file never crashes the process.
   Statements, each proved in a line or two from the theorems of theories/OpenFileProofs.v, ValueLoadProofs.v and
   LoadOutcome*.v; closed witnesses are evaluated here.

   FULL STATEMENT (not proved in full — see below what is):
     for every data byte string and optional recovery log byte string, every storage variant and
     every read query q:
       open_db data log  is  Ok db  or  Err,   and   Ok db -> read db q  is  Ok  or  Err,
       every allocation request made on the way is <= 1024 * (|data| + |log|) + 65536 bytes,
       and neither ever fails to terminate,
     where open_db = recovery (repair / records / replay), the back-end's `new`, Storage::read_records,
     the root record decode (DbStorageIndex, legacy conversion), DbGraph / DbIndexedMap / DbIndexes /
     DbKeyValues::from_storage, and read = every select / search query.

   WHAT IS PROVED (all about the executable models OpenFile.v / ValueIndex.v, tied to /repo by the
   differential run of checks/c07.py):
     * C07_open_total_partial     the STORAGE LAYER of open_db — recovery log repair / parse / replay, the
                                  three back-ends' `new` and `read`, read_records with its header, size and
                                  version checks and the version migration, the record table sizing — for
                                  the REPAIRED code (all four bounds-check flags on), for every input a file
                                  system can hold (|data| + |log| <= 2^50): the result is a storage state or an
                                  error; never a panic, never non-termination; the only allocation request that
                                  can exceed the limit is the record table (known class
                                  alloc-StorageRecords.set_record/Storage.read_records), and then it does exceed it.
     * C07_value_read_total_partial  Storage::value_as_bytes of ANY index on ANY state that open returned:
                                  bytes or an error, buffers within the limit.
     * C07_load_value_total_partial  DbValue::load_db_value (both checks of C07-value-index.diff in) on EVERY
                                  16-byte index and every record store: a value or an error.
     * C07_load_value_current     the tree as it is (numeric check in, `_ => panic!()` pinned by the suite):
                                  load_db_value panics exactly when the type nibble is 0 or 10..15 (known
                                  class panic-db_value-explicit-panic).
     * C07_db_load_total_partial  (last section) the LOAD of the whole database above the storage layer —
                                  root record decode, DbVec / graph / multi-map / index loaders, the complete read
                                  of every component — on EVERY record store: a database or an error, or the one
                                  listed panic site (unknown value type nibble), or one of two write paths the model
                                  stops at (creation when there is no root record; the legacy conversion).
   MISSING for the full statement: the two write paths just named and the QUERY layer that reads an opened damaged
   database lazily (crash sites explored by mutation, repaired in /repo, and re-checked by the mutation run on every
   check; two classes there are known findings: cyclic sibling-edge lists make searches run forever / grow without
   bound).  The log position check (flag og_wal_pos) is the
   repair fixes/C07-wal-position.diff; checks/c07.py reads off the source tree whether it is present (then the
   tree corresponds to og_fixed and the two classes alloc-FileStorage.read/FileStorageMemoryMapped.new and
   hang-Storage.read_records are no longer accepted) or not (og_current, for which
   C07_current_log_position_refuted shows the violation). *)
From Agdb Require Import Bytes Utf8 Codec DbValue ValueIndex ValueIndexProofs OpenFile OpenFileProofs ValueLoadProofs.
From Agdb Require Import Records StorageSpec DbModel StoredDb StoredDbRep StoredDbExampleBase LoadOutcome LoadOutcomeProofs LoadOutcomeAgree LoadOutcomeExample.
Open Scope N_scope.

Theorem C07_open_total_partial :
  forall (be : backend) (data : bytes) (wal : option bytes),
    lenN data + wal_len wal <= 1125899906842624 ->
    match open_file og_fixed be data wal with
    | OOk _ | OErr => True
    | OAlloc ATable n => alloc_limit (lenN data) (wal_len wal) < n
    | OAlloc ABuffer _ | OPanic | OFuel => False
    end.
Proof.
  intros be data wal Hr. destruct (limit_facts data wal Hr) as (H1 & H2).
  exact (open_bytes_fixed be _ H1 data wal H2).
Qed.
Print Assumptions C07_open_total_partial.

(* the replay of the recovery log with the position check: a record is applied only inside the file or at
   its end (otherwise the open fails with an error), it extends the file by at most its own payload, and
   the whole recovery by at most the length of the log — the file can no longer be extended sparsely *)
Theorem C07_replay_record_bound :
  forall (be : backend) (limit : N) (d : bytes) (pos : N) (v d' : bytes),
    wal_apply_rec og_fixed be limit d (pos, v) = OOk d' ->
    pos <= lenN d /\ lenN d' <= N.max (lenN d) (pos + lenN v).
Proof. exact replay_record_bound. Qed.
Print Assumptions C07_replay_record_bound.

Theorem C07_recovery_length_bound :
  forall (be : backend) (limit : N) (data wal : bytes),
    limit <= isize_max -> lenN wal <= limit ->
    match wal_recover og_fixed be limit data wal with
    | OOk d => lenN d <= lenN data + lenN wal
    | OErr => True
    | _ => False
    end.
Proof.
  intros be limit data wal H1 H2. destruct (recovery_length_bound be limit data wal H1 H2) as [Hok Hlen].
  destruct (wal_recover og_fixed be limit data wal) as [d| | |s n|]; cbn in Hok; try tauto. now apply Hlen.
Qed.
Print Assumptions C07_recovery_length_bound.

Theorem C07_value_read_total_partial :
  forall (be : backend) (data : bytes) (wal : option bytes) (st : ostate) (i : N),
    lenN data + wal_len wal <= 1125899906842624 ->
    open_file og_fixed be data wal = OOk st ->
    match value_as_bytes og_fixed be (alloc_limit (lenN data) (wal_len wal)) st i with
    | OOk _ | OErr => True
    | _ => False
    end.
Proof.
  intros be data wal st i Hr Ho. destruct (limit_facts data wal Hr) as (H1 & H2).
  apply (value_as_bytes_fixed be _ H1). exact (open_bytes_data be _ H1 data wal st H2 Ho).
Qed.
Print Assumptions C07_value_read_total_partial.

Theorem C07_load_value_total_partial :
  forall (ix : vindex) (st : store),
    (forall i b, lookup i st = Some b -> lenN b < two60) ->
    match load_db_value_g vg_fixed ix st with Ok _ | Err => True | _ => False end.
Proof. exact load_fixed_total. Qed.
Print Assumptions C07_load_value_total_partial.

Theorem C07_load_value_current :
  forall (ix : vindex) (st : store),
    (forall i b, lookup i st = Some b -> lenN b < two60) ->
    match load_db_value_g vg_current ix st with
    | Ok _ | Err => True
    | Panic => is_known_type (vi_type ix) = false
    | _ => False
    end.
Proof. exact load_current_total. Qed.
Print Assumptions C07_load_value_current.

(* the bounds checks do not disturb C12: what `store` wrote loads back under every revision *)
Theorem C07_checks_preserve_roundtrip :
  forall (g : vguards) (alloc : store -> N) (v : dbvalue) (st : store),
    wf_value v = true -> alloc_ok alloc st ->
    load_db_value_g g (fst (store_db_value alloc v st)) (snd (store_db_value alloc v st)) = Ok v.
Proof. exact load_g_roundtrip. Qed.
Print Assumptions C07_checks_preserve_roundtrip.

(* The defects that were repaired (og_pinned = the code before the fix: commits 345fbb9..51d65f2), each
   with the repaired outcome next to it.  Classes: 0 opens, 1 error, 2 panic, 3 allocation of a buffer
   above the limit, 4 allocation of the record table above the limit, 5 no termination.
     ex_short          17-byte file: short read through the memory back-ends' unchecked slice
     ex_max_index      record index u64::MAX: index + 1 overflows
     ex_version_size   version record of 2^40 bytes: FileStorage::read allocates before it reads
     ex_log_back16     recovery log size field -16: WriteAheadLog::repair never advances
     ex_log_back8      size field -8: repair walks on, records() allocates 2^64 - 8 bytes
     ex_log_far        log record positioned at 2^40: the file is extended sparsely — still so in a tree
                       without fixes/C07-wal-position.diff (og_current: all checks but the position check) *)
Theorem C07_pinned_refuted :
  cls og_pinned BMemory ex_short None = 2 /\ cls og_fixed BMemory ex_short None = 1 /\
  cls og_pinned BMapped ex_short None = 2 /\ cls og_pinned BFile ex_short None = 1 /\
  cls og_pinned BFile ex_max_index None = 2 /\ cls og_fixed BFile ex_max_index None = 1 /\
  cls og_pinned BFile ex_version_size None = 3 /\ cls og_fixed BFile ex_version_size None = 1 /\
  cls og_pinned BMemory ex_version_size None = 2 /\
  cls og_pinned BFile ex_intact (Some ex_log_back16) = 5 /\ cls og_fixed BFile ex_intact (Some ex_log_back16) = 0 /\
  cls og_pinned BFile ex_intact (Some ex_log_back8) = 2 /\ cls og_fixed BFile ex_intact (Some ex_log_back8) = 0 /\
  cls og_pinned BMapped ex_intact (Some ex_log_far) = 3 /\ cls og_pinned BFile ex_intact (Some ex_log_far) = 5 /\
  cls og_current BMapped ex_intact (Some ex_log_far) = 3 /\ cls og_current BFile ex_intact (Some ex_log_far) = 5 /\
  cls og_fixed BMapped ex_intact (Some ex_log_far) = 1 /\ cls og_fixed BFile ex_intact (Some ex_log_far) = 1.
Proof. vm_compute. repeat split. Qed.
Print Assumptions C07_pinned_refuted.

(* a tree without the log position check violates the property through the log position (classes
   alloc-FileStorage.read/FileStorageMemoryMapped.new and hang-Storage.read_records) *)
Theorem C07_current_log_position_refuted :
  cls og_current BMapped ex_intact (Some ex_log_far) = 3 /\ cls og_current BFile ex_intact (Some ex_log_far) = 5.
Proof. pose proof C07_pinned_refuted. tauto. Qed.
Print Assumptions C07_current_log_position_refuted.

(* the known class of the record table is real also for the repaired code: a 40-byte file, 26 TB requested *)
Theorem C07_table_class_witness :
  open_file og_fixed BFile ex_big_index None = OAlloc ATable 26388279066648 /\
  open_file og_fixed BMemory ex_big_index None = OAlloc ATable 26388279066648 /\
  alloc_limit (lenN ex_big_index) 0 < 26388279066648.
Proof. vm_compute. repeat split. Qed.
Print Assumptions C07_table_class_witness.

(* a record size that passes the lenient check of read_records and is then read:
   MemoryStorage::read sliced out of range, now an error *)
Theorem C07_lenient_size_refuted :
  (exists st, open_file og_pinned BMemory ex_lenient None = OOk st /\
              value_as_bytes og_pinned BMemory (alloc_limit (lenN ex_lenient) 0) st 1 = OPanic) /\
  (exists st, open_file og_fixed BMemory ex_lenient None = OOk st /\
              value_as_bytes og_fixed BMemory (alloc_limit (lenN ex_lenient) 0) st 1 = OErr).
Proof. split; eexists; split; vm_compute; reflexivity. Qed.
Print Assumptions C07_lenient_size_refuted.

Theorem C07_load_value_pinned_refuted :
  load_db_value_g vg_pinned (repeat x00 16) [] = Panic /\
  load_db_value_g vg_pinned (repeat x00 15 ++ [x23]) [] = Panic /\
  load_db_value_g vg_current (repeat x00 15 ++ [xa0]) [] = Panic /\
  load_db_value_g vg_current (repeat x00 15 ++ [x23]) [] = Err.
Proof.
  exact (conj load_pinned_unknown_type (conj load_pinned_short_numeric
          (conj load_current_unknown_type load_current_short_numeric))).
Qed.
Print Assumptions C07_load_value_pinned_refuted.

(* non-vacuity: an intact file satisfies the hypothesis, opens on every back-end, its record reads back *)
Example C07_nonvacuous :
  forall be, exists st,
    open_file og_fixed be ex_intact None = OOk st /\ o_table st = [(1, (24, 3))] /\
    value_as_bytes og_fixed be (alloc_limit (lenN ex_intact) 0) st 1 = OOk [x61; x62; x63] /\
    realistic ex_intact None.
Proof.
  intros be. destruct be; eexists; (split; [vm_compute; reflexivity|]);
    (split; [reflexivity|]); (split; [vm_compute; reflexivity|]); unfold realistic; vm_compute; discriminate.
Qed.
Print Assumptions C07_nonvacuous.

(* ------------------------------------------------------------------------------------------------------------------
   ABOVE THE STORAGE LAYER: the LOAD of the whole database, DbImpl::new on an ARBITRARY record store.
   Model: theories/LoadOutcome.v — `load_outcome m root` for a record map m (index -> bytes: what the storage layer hands
   to the collections once it opened the file) = the outcome of try_new_with_storage (root record incl. the test for
   the legacy format, DbGraph / DbIndexedMap / DbIndexes / DbKeyValues::from_storage with DbVec::from_storage's checked
   length, every index's key through load_db_value) followed by the COMPLETE read of every component (VecIterator on
   every vector, every table's three vectors, every element's DbVec<DbKeyValue>).  Tied to /repo on every run of
   checks/c07.py: the record store of each damaged input whose storage layer opens -> extracted load_outcome, against
   DbFile::new on the same bytes (class of the open: opens / error / panic site / allocation).

   FULL STATEMENT for this layer: for every record map and root index the outcome is a database or an error.
   PROVED:  C07_db_load_total_partial — for EVERY record map (records below 2^60 bytes: any file) and root index the
   outcome is Loaded / LErr, or
       LPanic    the `_ => panic!()` of DbValue::load_db_value for a type nibble 0 or 10..15 — the ONE listed crash site
                 (known class panic-db_value-explicit-panic; the suite pins it).  That it is the only one is
                 C07_db_load_total_with_type_check: the same model with the check of fixes/C07-value-type.diff
                 (revision flag vg_type_checked) never panics, and the flag is read at no other place;
       LFresh    there is no root record: the code CREATES a database in this storage — a write path, not a load;
       LLegacy   a 40..47 byte root record whose values table loads: legacy::convert_to_current_version starts
                 rewriting the file — not modelled beyond this point;
   never LHugeAlloc: no read buffer exceeds 65536 + 1024 x (sum of the record sizes) — indeed none exceeds the largest
   record.  PARTIAL because of LFresh / LLegacy (two write paths the model stops at; the mutation run covers them with
   the direct oracle only) and because the queries that read an opened damaged database lazily are not modelled
   (two known classes live there: cyclic sibling lists). *)
Theorem C07_db_load_total_partial :
  forall (m : vmap) (root : N),
    (forall i b, m_get m i = Some b -> lenN b < two60) ->
    match load_outcome m root with
    | Loaded _ | LErr | LFresh | LLegacy | LPanic => True
    | LHugeAlloc _ => False
    end.
Proof.
  intros m root Hs. pose proof (load_outcome_g_total vg_current (lo_limit m) m root (limit_admits_lo_limit m) Hs) as H.
  unfold load_outcome. destruct (load_outcome_g vg_current (lo_limit m) m root); cbn [out_fine] in H; tauto.
Qed.
Print Assumptions C07_db_load_total_partial.

Theorem C07_db_load_total_with_type_check :
  forall (m : vmap) (root : N),
    (forall i b, m_get m i = Some b -> lenN b < two60) ->
    match load_outcome_g vg_fixed (lo_limit m) m root with
    | Loaded _ | LErr | LFresh | LLegacy => True
    | LPanic | LHugeAlloc _ => False
    end.
Proof.
  intros m root Hs. pose proof (load_outcome_g_total vg_fixed (lo_limit m) m root (limit_admits_lo_limit m) Hs) as H.
  destruct (load_outcome_g vg_fixed (lo_limit m) m root); cbn [out_fine] in H; try tauto.
  destruct H as [H|H]; discriminate.
Qed.
Print Assumptions C07_db_load_total_with_type_check.

(* for every revision of the two value-index checks and every limit that admits the records themselves: a panic needs
   a missing check *)
Theorem C07_db_load_total_any_revision :
  forall (g : vguards) (L : N) (m : vmap) (root : N),
    (forall i b, m_get m i = Some b -> lenN b <= L) ->
    (forall i b, m_get m i = Some b -> lenN b < two60) ->
    match load_outcome_g g L m root with
    | Loaded _ | LErr | LFresh | LLegacy => True
    | LPanic => vg_num_checked g = false \/ vg_type_checked g = false
    | LHugeAlloc _ => False
    end.
Proof. exact load_outcome_g_total. Qed.
Print Assumptions C07_db_load_total_any_revision.

(* FULL: on a record store that HOLDS a database (`stored_db`: the relation of C05's L3 theorems) the outcome model
   loads it, and what it returns is THE database the loader `load_db` of C05_db_reload returns (Leibniz equality), hence
   equal to the represented one up to sd_eqv — the exact treatment of damaged value indexes, the allocation limit and
   the order open-then-read change nothing on well-formed stores. *)
Theorem C07_db_load_agrees_with_C05 :
  forall (m : vmap) (root : N) (d : db),
    stored_db (m_get m) root d ->
    exists d', load_outcome m root = Loaded d' /\ load_db m root = Some d' /\ sd_eqv d d' /\ undo d' = [].
Proof. intros m root d H. exact (load_outcome_of_stored vg_current m root d H). Qed.
Print Assumptions C07_db_load_agrees_with_C05.

(* the same for every revision of the value-index checks *)
Theorem C07_db_load_agrees_with_C05_any_revision :
  forall (g : vguards) (m : vmap) (root : N) (d : db),
    stored_db (m_get m) root d ->
    exists d', load_outcome_g g (lo_limit m) m root = Loaded d' /\ load_db m root = Some d' /\ sd_eqv d d' /\ undo d' = [].
Proof. exact load_outcome_of_stored. Qed.
Print Assumptions C07_db_load_agrees_with_C05_any_revision.

(* the model run is the loader PROGRAM run on the record map: nothing in `lo_run` beyond `cp_run sd_step` but the
   allocation limit *)
Theorem C07_db_load_run_is_program_run :
  forall (A : Type) (L : N) (m : vmap) (p : Collections.cprog A),
    (forall i b, m_get m i = Some b -> lenN b <= L) ->
    lo_run L p m = lo_of_cres (snd (Collections.cp_run sd_step p m)).
Proof. intros A L m p H. exact (lo_run_cp_run L m p H). Qed.
Print Assumptions C07_db_load_run_is_program_run.

(* non-vacuity: every outcome the theorem allows occurs.  The stored example database of C05 (sx_store: index, two nodes, an alias, an
   edge, long and inline values) loads to itself; ONE damaged byte in it — the type nibble of the first index key, byte
   23 of the DbVec<DbIndexStorageIndex> record — makes DbImpl::new panic at the listed site (an error with the type
   check); no root record; a root record of 39 / 40 bytes; a legacy-sized root record whose values table loads. *)
Example C07_db_load_nonvacuous :
  load_outcome sx_store 1 = Loaded sx_db /\
  load_outcome lo_ex_damaged 1 = LPanic /\ lo_open_class lo_ex_damaged 1 = 2 /\
  load_outcome_g vg_fixed (lo_limit lo_ex_damaged) lo_ex_damaged 1 = LErr /\
  load_outcome [] 1 = LFresh /\
  load_outcome [(1, repeat x00 39)] 1 = LErr /\
  load_outcome lo_ex_legacy 1 = LLegacy.
Proof.
  destruct lo_ex_loads as (A & _). destruct lo_ex_panic as (B & C & D). destruct lo_ex_others as (E & F & _ & G & _).
  repeat split; assumption.
Qed.
Print Assumptions C07_db_load_nonvacuous.
