(* AdjOkWf.v — discharges the hypothesis `adj_ok` of the search proofs (C14, C17) from the
   well-formedness invariant `wf` of the slot graph (GraphSim.v / GraphWf.v, proved for every
   history of graph operations starting from graph_new: GraphSpec.grun_wf). *)
From Agdb Require Import Bytes Graph GraphSim GraphProofs GraphSpec GraphWf.
From Agdb Require Import DbModel Search Revisions AdjOk TraverseSpec TraverseProofs.
From Coq Require Import ZifyBool ZifyNat ZifyN.
Ltac Zify.zify_post_hook ::= Z.div_mod_to_equations.
Open Scope Z_scope.

(* a chain shorter than its fuel has reached 0 *)
Lemma short_chain_ends : forall next f a, (length (edge_list next f a) < f)%nat -> chain_ends next f a = true.
Proof.
  induction f as [|f IH]; intros a H; [lia|]. cbn [edge_list chain_ends] in *.
  destruct (a =? 0); [reflexivity|]. cbn [length] in H. apply IH. lia.
Qed.

Lemma edge_id_iff : forall g e, edge_id g e = true <-> e < 0 /\ is_edge g e = true.
Proof.
  intros g e. unfold edge_id. rewrite andb_true_iff. split; intros [H1 H2]; split; try assumption; lia.
Qed.

Lemma node_id_iff : forall g n, node_id g n = true <-> 0 < n /\ is_node g n = true.
Proof.
  intros g n. unfold node_id. rewrite andb_true_iff. split; intros [H1 H2]; split; try assumption; lia.
Qed.

Theorem wf_adj_ok : forall g, wf g -> adj_ok g.
Proof.
  intros g Hwf.
  assert (Hout : forall n, node_id g n = true ->
            NoDup (out_edges g n) /\ (forall e, In e (out_edges g n) <-> edge_id g e = true /\ edge_from g e = n)).
  { intros n Hn. apply node_id_iff in Hn. destruct Hn as [Hp Hn].
    destruct (wf_out_edges g n Hwf Hp Hn) as (H1 & H2 & _). split; [exact H1|].
    intros e. rewrite H2, edge_id_iff. tauto. }
  assert (Hin : forall n, node_id g n = true ->
            NoDup (in_edges g n) /\ (forall e, In e (in_edges g n) <-> edge_id g e = true /\ edge_to g e = n)).
  { intros n Hn. apply node_id_iff in Hn. destruct Hn as [Hp Hn].
    destruct (wf_in_edges g n Hwf Hp Hn) as (H1 & H2 & _). split; [exact H1|].
    intros e. rewrite H2, edge_id_iff. tauto. }
  assert (Hlen : forall l, NoDup l -> (forall e, In e l -> edge_id g e = true) -> (length l < length (g_from g))%nat).
  { intros l Hnd Hl.
    pose proof (elems_length_bound g l Hnd) as H.
    assert (Hcap : 1 <= capacity g) by (apply wf_capacity_pos; exact Hwf). unfold capacity in Hcap.
    assert (He : forall x, In x l -> elem_id g x = true).
    { intros x Hx. unfold elem_id. rewrite (Hl x Hx). apply orb_true_r. }
    specialize (H He). lia. }
  constructor.
  - intros n Hn. destruct (Hout n Hn) as [H1 H2]. apply short_chain_ends. apply (Hlen _ H1).
    intros e He. apply H2 in He. tauto.
  - intros n Hn. destruct (Hin n Hn) as [H1 H2]. apply short_chain_ends. apply (Hlen _ H1).
    intros e He. apply H2 in He. tauto.
  - intros n Hn. apply Hout. exact Hn.
  - intros n Hn. apply Hin. exact Hn.
  - intros n e Hn. apply Hout. exact Hn.
  - intros n e Hn. apply Hin. exact Hn.
  - intros e He. apply edge_id_iff in He. destruct He as [_ He].
    destruct (wf_edge_ends g e Hwf He) as (H1 & H2 & _). apply node_id_iff. split; assumption.
  - intros e He. apply edge_id_iff in He. destruct He as [_ He].
    destruct (wf_edge_ends g e Hwf He) as (_ & _ & H3 & H4). apply node_id_iff. split; assumption.
Qed.

(* the traversal theorem with the invariant instead of the hypothesis *)
Corollary traversal_exact_wf : forall d a reverse origin,
  wf (gr d) -> graph_index (gr d) origin = true ->
  exists r, graph_search rv_fixed d a reverse origin [] HDefault = Some (origin :: r) /\
            NoDup (origin :: r) /\
            (forall x, In x (origin :: r) <-> reach (gr d) reverse origin x).
Proof. intros d a rv o Hwf. apply traversal_exact. apply wf_adj_ok. exact Hwf. Qed.
