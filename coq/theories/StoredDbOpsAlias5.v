(* StoredDbOpsAlias5.v — MapImpl::insert of an absent key on a table that has ROOM (len < capacity * 15 / 16: no grow).

     so_map_rip    MultiMapImpl::rehash_in_place: capacity = self.capacity(); rehash_values(capacity, capacity)
                   (so_rehash_values, StoredDbOpsAlias4.v)

   so_map_insert_body_spec: the part of MapImpl::insert after the grow check (so_map_insert_body), on a represented table
   (mrep) whose open-addressing map satisfies C19's invariant PInv, for a key that no Valid slot holds: the program returns
   None and ends in a represented table t' whose map is the one OpenMap.v's insert_or_replace computes — PInv again, the
   pairs are (key, value) :: the old ones as a multiset —; the transaction is committed; only the footprint of the map
   changed (frame).  When the probe comes back to its start (every free slot is a Deleted one) the program inserts at the
   first Deleted slot and rehashes in place: either that does not happen (so_no_full_cycle) or the in-place rehash of the
   so_map_rest is the code's (so_map_rip).
   so_map_insert_absent (the first case, for every so_map_rest) and so_map_insert_absent_rip (the second) are that
   statement for the whole of so_map_insert. *)
From Coq Require Import List NArith ZArith Arith Bool Lia Permutation.
Import ListNotations.
From Agdb Require Import Bytes StorageSpec Collections CollWp CollBytes CollVecBase CollMap CollMapHist OpenMap
  OpenMapProofs OpenMapRefineBase OpenMapRefineOps OpenMapRefineStep StoredDbRep StoredDbProbe StoredDbOpsAlias
  StoredDbOpsAlias4.
From Coq Require Import ZifyBool ZifyNat ZifyN.
Ltac Zify.zify_post_hook ::= Z.div_mod_to_equations.
Open Scope N_scope.

Definition so_map_rip (K V : Type) (EK : cv_elem K) (EV : cv_elem V) (h : K -> N) (d : cm_data) : cprog cm_data :=
  so_rehash_values K V EK EV h d (N.to_nat (cm_capacity d)) (N.to_nat (cm_capacity d)) ;;~ CRet d.

Section MapInsertProof2.
  Variables K V : Type.
  Variable EK : cv_elem K.
  Variable EV : cv_elem V.
  Variable LK : elem_law EK.
  Variable LV : elem_law EV.
  Variable keqb : K -> K -> bool.
  Variable veqb : V -> V -> bool.
  Variable h : K -> N.
  Variable mincap : nat.
  Variable fl : bool.
  Hypothesis keqb_eq : forall a b, keqb a b = true <-> a = b.
  Hypothesis veqb_eq : forall a b, veqb a b = true <-> a = b.
  Hypothesis Hmin : (4 <= mincap)%nat.

  Notation msepT := (msep K V EK EV LK LV).
  Notation mrepT := (mrep K V EK EV LK LV).
  Notation mfootT := (mfoot K V EK EV LK LV).
  Notation slotsT := (ct_slots K V).
  Notation loopM := (ior_loop K V keqb om_fixed).

  (* OpenMap.v's insert_or_replace of an absent key into a map with room: the probe finds a free slot p, and the map left is
     the insertion at p, rehashed in place if the probe made a full cycle *)
  Lemma ior_absent_room (m : omap K V) key nv :
    PInv K V h mincap m -> so_key_absent K V keqb (slots m) key -> (len m < max_len (capacity K V m))%nat ->
    exists r p m',
      loopM (capacity K V m) (slots m) (capacity K V m) (hpos K h key (capacity K V m)) key (fun _ => true) nv
            (hpos K h key (capacity K V m)) None = Done r /\
      ior_free K V r = Some p /\ (p < capacity K V m)%nat /\
      (if ior_full_cycle K V r then rehash_in_place K V h (do_insert K V (slots m) (len m) p key nv) = Done m'
       else m' = do_insert K V (slots m) (len m) p key nv) /\
      PInv K V h mincap m' /\ Permutation (abs K V m') ((key, nv) :: abs K V m).
  Proof.
    intros HP Habs Hroom.
    destruct (insert_or_replace_spec K V keqb veqb h mincap om_fixed keqb_eq veqb_eq Hmin eq_refl m key (fun _ => true) nv HP)
      as (m' & ret & Hior & HP' & Hpost).
    unfold insert_or_replace, insert_or_replace_fuel, probe_fuel, grow_if_full in Hior.
    rewrite (proj2 (Nat.leb_gt _ _) Hroom) in Hior.
    set (c := capacity K V m) in *.
    assert (Hc0 : (0 < c)%nat) by (destruct c; [cbn in Hroom|]; lia).
    destruct HP as [[Hcv _] Hch].
    destruct (ior_loop_spec K V keqb veqb h om_fixed keqb_eq veqb_eq eq_refl c (slots m) key (fun _ => true) nv Hc0 Hch
                c (hpos K h key c) None (hpos_lt K keqb h key c Hc0)) as (r & Hr & Hpost2).
    { rewrite rem_start. lia. }
    { intros j Hj Hd. rewrite dist_self in Hd. lia. }
    { intros j Hj Hd. rewrite dist_self in Hd. lia. }
    rewrite Hr in Hior. unfold ior_post in Hpost2.
    destruct (ior_ret K V r) as [w|].
    { exfalso. destruct Hpost2 as (p & _ & Hv & _). specialize (Habs _ _ _ Hv).
      rewrite (proj2 (keqb_eq key key) eq_refl) in Habs. discriminate. }
    destruct Hpost2 as (Hsl & _ & Hfree). rewrite Hsl in Hior.
    destruct (ior_free K V r) as [p|] eqn:Hfr.
    2:{ (* no free slot: every slot is Valid, so len = capacity *)
        exfalso. pose proof (cnt_all_prefix _ (is_valid K V) Empty c (slots m) (le_n _) Hfree) as Hall.
        unfold cv in Hcv. pose proof (Nat.div_le_upper_bound (c * 15) 16 c). unfold max_len in Hroom. lia. }
    destruct Hfree as (Hp & _ & _).
    assert (E : ret = None /\ if ior_full_cycle K V r then rehash_in_place K V h (do_insert K V (slots m) (len m) p key nv) = Done m'
                              else m' = do_insert K V (slots m) (len m) p key nv).
    { destruct (ior_full_cycle K V r); cbn [andb fix_rehash_in_place om_fixed] in Hior.
      - destruct (rehash_in_place K V h _) as [m3|]; [|discriminate]. injection Hior as <- <-. auto.
      - injection Hior as <- <-. auto. }
    destruct E as [-> E]. exists r, p, m'. split; [exact Hr|]. split; [exact Hfr|]. split; [exact Hp|].
    split; [exact E|]. split; [exact HP'|apply Hpost].
  Qed.

  Theorem so_map_insert_body_spec x d ss ks vs t key nv id sp (Q : cres (cm_data * option V) -> spec -> Prop) :
    mrepT (hp sp) d ss ks vs t -> PInv K V h mincap (ct_omap K V t) ->
    so_key_absent K V keqb (slotsT (ct_states t) (ct_keys t) (ct_values t)) key -> so_no_grow K V t ->
    so_no_full_cycle K V keqb h t key nv \/ smr_rehash_in_place x = so_map_rip K V EK EV h ->
    el_valid LK key -> el_valid LV nv -> ct_len t + 1 < two64 -> sdepth sp = id -> id <> 0 ->
    (forall d' ss' ks' vs' t' sp',
        mrepT (hp sp') d' ss' ks' vs' t' -> cm_index d' = cm_index d -> PInv K V h mincap (ct_omap K V t') ->
        Permutation (sd_table_entries t') ((key, nv) :: sd_table_entries t) ->
        sdepth sp' = id - 1 -> frame (hp sp) (hp sp') (mfootT d ss ks vs) (mfootT d' ss' ks' vs') ->
        Q (CrOk (d', None)) sp') ->
    cwp fl (so_map_insert_body K V EK EV keqb h x d key nv id) sp Q.
  Proof.
    intros HM HP Habs Hng Hx VK VV Hlen Hid Hid0 HQ.
    pose proof HM as [HS _ [SK SV]].
    set (sl := slotsT (ct_states t) (ct_keys t) (ct_values t)) in *.
    assert (Lsl : length sl = length (ct_states t)) by (apply ct_slots_length; auto).
    destruct (ior_absent_room (ct_omap K V t) key nv HP Habs) as (r & p & m' & Hloop & Hfr & Hp & Hm' & HP' & Hperm).
    { unfold so_no_grow, so_max_len, lenN in Hng. unfold max_len, capacity, ct_omap. cbn [slots len]. fold sl. rewrite Lsl. lia. }
    unfold capacity, ct_omap in Hloop, Hp, Hm'. cbn [slots len] in Hloop, Hp, Hm'. fold sl in Hloop, Hp, Hm'.
    change (abs K V) with (iter_all K V) in Hperm. rewrite <- (sd_table_entries_iter_all K V t) in Hperm.
    unfold so_map_insert_body. rewrite (mrep_capacity HM).
    apply cwp_bind.
    eapply (so_ior_loop_spec K V EK EV LK LV fl keqb d ss ks vs (ct_states t) (ct_keys t) (ct_values t) key nv (lenN (ct_states t))
              (h key mod lenN (ct_states t)) sp HS SK SV) with (r := r);
      [unfold lenN; lia|exact Habs|apply N.mod_lt; unfold lenN; lia| |].
    { fold sl. unfold lenN. rewrite Nat2N.id, <- Lsl. exact Hloop. }
    rewrite Hfr. cbn [option_map kont fst snd].
    apply cwp_bind.
    eapply so_map_do_insert_spec; [exact HM|unfold lenN; lia|exact VK|exact VV|exact Hlen|].
    intros d' ss' ks' vs' sp1 HM1 Hi1 Hd1 Hf1. cbn [kont]. rewrite Nat2N.id in HM1. pose proof HM1 as [HS1 HL1 [SK1 SV1]].
    set (t' := {| ct_states := cl_upd (ct_states t) p StValid; ct_keys := cl_upd (ct_keys t) p key;
                  ct_values := cl_upd (ct_values t) p nv; ct_len := ct_len t + 1 |}) in *.
    assert (Et' : ct_omap K V t' = do_insert K V sl (N.to_nat (ct_len t)) p key nv).
    { unfold ct_omap, do_insert. cbn [t' ct_states ct_keys ct_values ct_len]. rewrite ct_slots_upd by auto. f_equal. lia. }
    rewrite <- Et' in Hm'.
    destruct (ior_full_cycle K V r) eqn:Hfull.
    - (* a full cycle: rehash in place *)
      destruct Hx as [Hnf|Hx]; [rewrite (Hnf r Hloop) in Hfull; discriminate|].
      unfold rehash_in_place, rehash_values, capacity, ct_omap in Hm'. cbn [slots len] in Hm'.
      set (sl1 := slotsT (ct_states t') (ct_keys t') (ct_values t')) in *.
      assert (Lsl1 : length sl1 = length sl).
      { unfold sl1. rewrite ct_slots_length by (cbn [t' ct_keys ct_values ct_states]; rewrite !cl_upd_length; auto).
        cbn [t' ct_states]. rewrite cl_upd_length. auto. }
      rewrite Lsl1 in Hm'.
      destruct (rehash_loop K V h (rehash_fuel (length sl) (length sl)) (length sl) (length sl) sl1 (repeat false (length sl)) 0)
        as [sl3|] eqn:HRL; [|discriminate].
      injection Hm' as <-.
      rewrite Hx. unfold so_map_rip, so_rehash_values.
      rewrite (mrep_capacity HM1). cbn [t' ct_states]. unfold lenN. rewrite cl_upd_length, Nat2N.id, <- Lsl.
      apply cwp_bind. apply cwp_bind.
      assert (Lt' : length (ct_states t') = length sl) by (cbn [t' ct_states]; rewrite cl_upd_length; auto).
      eapply (so_rehash_loop_spec K V EK EV LK LV keqb h fl d' (length sl) (length sl) (Nat.le_lt_trans _ _ _ (Nat.le_0_l p) Hp));
        [exact HS1|exact SK1|exact SV1|rewrite Lt'; apply Nat.le_refl|rewrite Lt'; apply Nat.le_refl|apply Nat.le_0_l|exact HRL|].
      intros ss3 ks3 vs3 ls3 lk3 lv3 sp3 HS3 A3 B3 C3 E3 D3 F3. cbn [kont cbind].
      apply cwp_bind. apply hwp_commit; [lia|exact Hid0|]. intros sp2 Hm2 Hd2. cbn [kont cwp].
      eapply (HQ d' ss3 ks3 vs3 {| ct_states := ls3; ct_keys := lk3; ct_values := lv3; ct_len := ct_len t + 1 |}).
      + constructor; [eapply msep_heq; [exact HS3|exact Hm2]|exact HL1|split; [exact A3|exact B3]].
      + exact Hi1.
      + unfold ct_omap. cbn [ct_states ct_keys ct_values ct_len]. rewrite E3. exact HP'.
      + rewrite (sd_table_entries_iter_all K V). unfold ct_omap. cbn [ct_states ct_keys ct_values ct_len]. rewrite E3. exact Hperm.
      + exact Hd2.
      + eapply frame_trans; [exact Hf1|]. eapply frame_trans; [exact F3|apply frame_refl; exact Hm2].
    - subst m'. cbn [cbind].
      apply cwp_bind. apply hwp_commit; [lia|exact Hid0|]. intros sp2 Hm2 Hd2. cbn [kont cwp].
      eapply HQ; [eapply mrep_heq; [exact HM1|exact Hm2]|exact Hi1|exact HP'| |exact Hd2|].
      { rewrite (sd_table_entries_iter_all K V t'). exact Hperm. }
      eapply frame_trans; [exact Hf1|apply frame_refl; exact Hm2].
  Qed.

  (* the whole of MapImpl::insert on a table with room: the grow branch is not entered *)
  Lemma so_map_insert_room x d ss ks vs t key nv sp (Q : cres (cm_data * option V) -> spec -> Prop) :
    mrepT (hp sp) d ss ks vs t -> PInv K V h mincap (ct_omap K V t) ->
    so_key_absent K V keqb (slotsT (ct_states t) (ct_keys t) (ct_values t)) key -> so_no_grow K V t ->
    so_no_full_cycle K V keqb h t key nv \/ smr_rehash_in_place x = so_map_rip K V EK EV h ->
    el_valid LK key -> el_valid LV nv -> ct_len t + 1 < two64 ->
    (forall d' ss' ks' vs' t' sp',
        mrepT (hp sp') d' ss' ks' vs' t' -> cm_index d' = cm_index d -> PInv K V h mincap (ct_omap K V t') ->
        Permutation (sd_table_entries t') ((key, nv) :: sd_table_entries t) ->
        sdepth sp' = sdepth sp -> frame (hp sp) (hp sp') (mfootT d ss ks vs) (mfootT d' ss' ks' vs') ->
        Q (CrOk (d', None)) sp') ->
    cwp fl (so_map_insert K V EK EV keqb h x d key nv) sp Q.
  Proof.
    intros HM HP Habs Hng Hx VK VV Hlen HQ.
    rewrite so_map_insert_unfold. apply cwp_bind. apply hwp_transaction. intros sp0 Hm0 Hd0. cbn [kont].
    pose proof HM as [_ HL _]. rewrite (mrep_capacity HM), HL.
    destruct (N.leb_spec (so_max_len (lenN (ct_states t))) (ct_len t)) as [X|_]; [unfold so_no_grow in Hng; lia|]. cbn [cbind].
    eapply so_map_insert_body_spec; [eapply mrep_heq; [exact HM|exact Hm0]|exact HP|exact Habs|exact Hng|exact Hx|exact VK|exact VV|
                                     exact Hlen|exact Hd0|lia|].
    intros d' ss' ks' vs' t' sp' HM' Hi' HP' Hperm' Hd' Hf'.
    eapply HQ; [exact HM'|exact Hi'|exact HP'|exact Hperm'|lia|].
    eapply frame_trans; [apply frame_refl; exact Hm0|exact Hf'].
  Qed.

  Theorem so_map_insert_absent x d ss ks vs t key nv sp (Q : cres (cm_data * option V) -> spec -> Prop) :
    mrepT (hp sp) d ss ks vs t -> PInv K V h mincap (ct_omap K V t) ->
    so_key_absent K V keqb (slotsT (ct_states t) (ct_keys t) (ct_values t)) key ->
    so_no_grow K V t -> so_no_full_cycle K V keqb h t key nv ->
    el_valid LK key -> el_valid LV nv -> ct_len t + 1 < two64 ->
    (forall d' ss' ks' vs' t' sp',
        mrepT (hp sp') d' ss' ks' vs' t' -> cm_index d' = cm_index d -> PInv K V h mincap (ct_omap K V t') ->
        Permutation (sd_table_entries t') ((key, nv) :: sd_table_entries t) ->
        sdepth sp' = sdepth sp -> frame (hp sp) (hp sp') (mfootT d ss ks vs) (mfootT d' ss' ks' vs') ->
        Q (CrOk (d', None)) sp') ->
    cwp fl (so_map_insert K V EK EV keqb h x d key nv) sp Q.
  Proof. intros HM HP Habs Hng Hnf. apply so_map_insert_room; auto. Qed.

  Theorem so_map_insert_absent_rip x d ss ks vs t key nv sp (Q : cres (cm_data * option V) -> spec -> Prop) :
    mrepT (hp sp) d ss ks vs t -> PInv K V h mincap (ct_omap K V t) ->
    so_key_absent K V keqb (slotsT (ct_states t) (ct_keys t) (ct_values t)) key ->
    so_no_grow K V t -> smr_rehash_in_place x = so_map_rip K V EK EV h ->
    el_valid LK key -> el_valid LV nv -> ct_len t + 1 < two64 ->
    (forall d' ss' ks' vs' t' sp',
        mrepT (hp sp') d' ss' ks' vs' t' -> cm_index d' = cm_index d -> PInv K V h mincap (ct_omap K V t') ->
        Permutation (sd_table_entries t') ((key, nv) :: sd_table_entries t) ->
        sdepth sp' = sdepth sp -> frame (hp sp) (hp sp') (mfootT d ss ks vs) (mfootT d' ss' ks' vs') ->
        Q (CrOk (d', None)) sp') ->
    cwp fl (so_map_insert K V EK EV keqb h x d key nv) sp Q.
  Proof. intros HM HP Habs Hng Hx. apply so_map_insert_room; auto. Qed.
End MapInsertProof2.
