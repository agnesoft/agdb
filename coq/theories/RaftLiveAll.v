(* RaftLiveAll.v — C30: the interleavings of the deliveries of one round, from a SYMBOLIC steady state.
   `ReachF ok rv G s`: every delivery order that `ok` admits (any in-flight message next that `ok` lets through, none
   lost or duplicated, until none is left) started in a cluster whose nodes and network are `s` ends in a state
   satisfying `G`; `ok = any_msg` gives the runs `dl_run` of RaftLive.v, `ok = deliverable` the per-channel-FIFO runs
   `pf_run` below.  Two rules (`reach_done`, `reach_step`) and a tactic `explore` that walks the graph of the symbolic
   states reachable from `s` depth-first, evaluating each delivery symbolically (RaftLiveInd.sym_eval) and remembering
   the states already proved (as hypotheses), so that every distinct state is expanded once. *)
From Coq Require Import NArith List Bool Lia Arith.
From Agdb Require Import Raft RaftLive RaftLiveInd.
Import ListNotations.
Open Scope N_scope.

(* delivery of any in-flight message that `ok` admits, until none is left *)
Inductive run_ok (ok : list msg -> nat -> bool) (rv : raftrev) : cluster -> cluster -> Prop :=
| ro_done : forall c, c_net c = [] -> run_ok ok rv c c
| ro_step : forall c k c', (k < length (c_net c))%nat -> ok (c_net c) k = true ->
    run_ok ok rv (step rv c (Deliver k 0)) c' -> run_ok ok rv c c'.

Definition ReachF (ok : list msg -> nat -> bool) (rv : raftrev) (G : cluster -> Prop) (s : cluster) : Prop :=
  forall c c', strip c = s -> run_ok ok rv c c' -> G (strip c').

Lemma reach_done : forall ok rv (G : cluster -> Prop) s, c_net s = [] -> G s -> ReachF ok rv G s.
Proof.
  intros ok rv G s Hn HG c c' Hc R.
  assert (Hnc : c_net c = []) by (rewrite <- Hc in Hn; exact Hn).
  destruct R as [c _ | c k c' Hk _ _].
  - rewrite Hc. exact HG.
  - rewrite Hnc in Hk. cbn in Hk. lia.
Qed.

Lemma reach_step : forall ok rv (G : cluster -> Prop) s,
  c_net s <> [] ->
  (forall j, (j < length (c_net s))%nat -> ok (c_net s) j = true -> ReachF ok rv G (nstep rv s (Deliver j 0))) ->
  ReachF ok rv G s.
Proof.
  intros ok rv G s Hn Hs c c' Hc R.
  assert (Hnc : c_net c = c_net s) by (rewrite <- Hc; reflexivity).
  destruct R as [c Hn0 | c k c' Hk Hd R].
  - rewrite Hnc in Hn0. contradiction.
  - rewrite Hnc in Hk, Hd. apply (Hs k Hk Hd (step rv c (Deliver k 0)) c'); [|exact R].
    rewrite nstep_step, Hc. reflexivity.
Qed.

Lemma reach_after : forall ok rv (G : cluster -> Prop) s a c c1,
  ReachF ok rv G (nstep rv s a) -> strip c = s -> run_ok ok rv (step rv c a) c1 -> G (strip c1).
Proof. intros ok rv G s a c c1 H Hc R. apply (H (step rv c a) c1); [rewrite nstep_step, Hc; reflexivity | exact R]. Qed.

(* E : nstep rv s (Deliver j 0) = <explicit successor>; `prep` clears the context down to what `lia` needs *)
Ltac succ_eq prep rv s j E :=
  eassert (E : nstep rv s (Deliver j 0) = _) by (prep; deliver_eval; reflexivity).

Ltac use_succ :=
  match goal with
  | E : nstep ?rv ?s ?e = _ |- ReachF _ ?rv _ (nstep ?rv ?s ?e) => rewrite E; assumption
  end.

Ltac clear_succs rv s :=
  repeat match goal with E : nstep rv s _ = _ |- _ => clear E end.

Ltac split_index j :=
  lazymatch goal with
  | H : (j < 0)%nat |- _ => exfalso; inversion H
  | H : (j < S _)%nat |- _ =>
      destruct j as [|j]; [clear H | apply Nat.succ_lt_mono in H; split_index j]
  end.

(* `explore prep ok rv G s final k`: add `ReachF ok rv G s` to the context (unless it is there), then continue with `k` *)
Ltac explore prep ok rv G s final k :=
  lazymatch goal with
  | _ : ReachF ok rv G s |- _ => k ()
  | _ =>
      let net := eval cbv [c_net] in (c_net s) in
      lazymatch net with
      | nil =>
          let H := fresh "R" in
          assert (H : ReachF ok rv G s) by (apply reach_done; [reflexivity | final]);
          k ()
      | _ =>
          let n := eval cbv [length] in (length net) in
          explore_from prep ok rv G s net final n O
            ltac:(fun _ =>
                    let H := fresh "R" in
                    assert (H : ReachF ok rv G s)
                      by (apply reach_step;
                          [cbv [c_net]; discriminate
                          | let j := fresh "j" in let Hj := fresh "Hj" in let Hd := fresh "Hd" in
                            intros j Hj Hd; cbv [c_net length] in Hj; split_index j;
                            first [use_succ | exfalso; cbv in Hd; discriminate Hd]]);
                    clear_succs rv s;
                    k ())
      end
  end
with explore_from prep ok rv G s net final n j k :=
  lazymatch n with
  | O => k ()
  | S ?n' =>
      let d := eval cbv in (ok net j) in
      lazymatch d with
      | true =>
          let E := fresh "E" in
          succ_eq prep rv s j E;
          lazymatch type of E with
          | _ = ?s' => explore prep ok rv G s' final ltac:(fun _ => explore_from prep ok rv G s net final n' (S j) k)
          end
      | false => explore_from prep ok rv G s net final n' (S j) k
      end
  end.

(* Per-channel FIFO delivery
   What the server's transport gives: the messages between one pair of nodes are delivered in the order in which they
   were sent (a response belongs to the channel of the request it answers), deliveries of DIFFERENT channels interleave
   arbitrarily.  `pf_run` = `dl_run` restricted to deliverable messages: no older message of the same channel is in flight. *)

Definition msg_req (m : msg) : request := match m with MReq r => r | MResp r _ => r end.
Definition same_chan (a b : msg) : bool :=
  (q_from (msg_req a) =? q_from (msg_req b)) && (q_to (msg_req a) =? q_to (msg_req b)).
Definition deliverable (net : list msg) (j : nat) : bool :=
  match nth_error net j with
  | Some m => forallb (fun m' => negb (same_chan m' m)) (firstn j net)
  | None => false
  end.

Inductive pf_run (rv : raftrev) : cluster -> cluster -> Prop :=
| pf_done : forall c, c_net c = [] -> pf_run rv c c
| pf_step : forall c k c', (k < length (c_net c))%nat -> deliverable (c_net c) k = true ->
    pf_run rv (step rv c (Deliver k 0)) c' -> pf_run rv c c'.

(* scripted actions, each followed by per-channel-FIFO delivery until quiescence *)
Inductive pff_run (rv : raftrev) : list event -> cluster -> cluster -> Prop :=
| pff_nil : forall c, pff_run rv [] c c
| pff_act : forall a rest c c1 c', pf_run rv (step rv c a) c1 -> pff_run rv rest c1 c' -> pff_run rv (a :: rest) c c'.

Lemma pff_run_cons : forall rv a rest c c',
  pff_run rv (a :: rest) c c' -> exists c1, pf_run rv (step rv c a) c1 /\ pff_run rv rest c1 c'.
Proof. intros rv a rest c c' R. inversion R; subst. eauto. Qed.

Lemma pff_run_nil : forall rv c c', pff_run rv [] c c' -> c' = c.
Proof. intros rv c c' R. inversion R; reflexivity. Qed.

Lemma pf_run_dl : forall rv c c', pf_run rv c c' -> dl_run rv c c'.
Proof.
  intros rv c c' H. induction H as [c Hn | c k c' Hk Hd H IH]; [apply dl_done; exact Hn|].
  apply (dl_step rv c k); [exact Hk | exact IH].
Qed.

Lemma fifo_drain_pf : forall rv c c', fifo_drain rv c c' -> pf_run rv c c'.
Proof.
  intros rv c c' H. induction H as [c Hn | c c' Hn H IH]; [apply pf_done; exact Hn|].
  destruct (c_net c) as [|m net] eqn:E; [contradiction|].
  apply (pf_step rv c 0%nat); [rewrite E; cbn; lia | rewrite E; reflexivity | exact IH].
Qed.

Lemma fifo_run_pff : forall rv acts c c', fifo_run rv acts c c' -> pff_run rv acts c c'.
Proof.
  intros rv acts c c' H. induction H as [c | a rest c m c1 D R IH]; [apply pff_nil|].
  eapply pff_act; [apply fifo_drain_pf; exact D | exact IH].
Qed.

(* a given delivery order is a per-channel-FIFO run (used for examples) *)
Fixpoint pf_check (rv : raftrev) (ks : list nat) (c : cluster) : bool :=
  match ks with
  | [] => match c_net c with [] => true | _ => false end
  | k :: rest => (k <? length (c_net c))%nat && deliverable (c_net c) k && pf_check rv rest (step rv c (Deliver k 0))
  end.

Lemma pf_check_sound : forall rv ks c,
  pf_check rv ks c = true -> pf_run rv c (run_from rv c (map (fun k => Deliver k 0) ks)).
Proof.
  intros rv. induction ks as [|k rest IH]; intros c H; cbn [pf_check] in H.
  - cbn [map]. change (run_from rv c []) with c. apply pf_done. destruct (c_net c); [reflexivity | discriminate H].
  - apply andb_true_iff in H as [H H3]. apply andb_true_iff in H as [H1 H2].
    apply (pf_step rv c k); [apply Nat.ltb_lt; exact H1 | exact H2 | exact (IH _ H3)].
Qed.

Definition any_msg (net : list msg) (j : nat) : bool := true.

Lemma dl_run_ok : forall rv c c', dl_run rv c c' -> run_ok any_msg rv c c'.
Proof.
  intros rv c c' H. induction H as [c Hn | c k c' Hk H IH]; [apply ro_done; exact Hn|].
  apply (ro_step _ rv c k); [exact Hk | reflexivity | exact IH].
Qed.

Lemma pf_run_ok : forall rv c c', pf_run rv c c' -> run_ok deliverable rv c c'.
Proof.
  intros rv c c' H. induction H as [c Hn | c k c' Hk Hd H IH]; [apply ro_done; exact Hn|].
  apply (ro_step _ rv c k); [exact Hk | exact Hd | exact IH].
Qed.
