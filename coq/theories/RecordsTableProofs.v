(* RecordsTableProofs.v — the record table of Records.v: live entries, the free-index
   list threaded through slot 0, and the effect of new_record / free_index (remove_index) /
   set_pos / set_size on them. *)
From Agdb Require Import Bytes BytesProofs Records RecordsProofs.
From Coq Require Import ZifyBool ZifyNat ZifyN.
Open Scope N_scope.

(* the live entry of index i: position and size *)
Definition live_at (l : list srec) (i : N) : option (N * N) :=
  match nth_error l (N.to_nat i) with
  | Some r => if negb (i =? 0) && (r_index r =? i) then Some (r_pos r, r_size r) else None
  | None => None
  end.

(* the free-index list threaded through the table from slot 0 *)
Inductive fchain (l : list srec) : N -> list N -> Prop :=
| fc_nil : fchain l 0 []
| fc_cons h r t : h <> 0 -> nth_error l (N.to_nat h) = Some r -> fchain l (r_index r) t -> fchain l h (h :: t).

(* fewer than 2^64 slots; the free-index list from slot 0 is duplicate-free; every other slot is
   on that list or holds its own index *)
Definition twf (l : list srec) : Prop :=
  lenN l < two64 /\
  exists r0 fl, nth_error l 0 = Some r0 /\ fchain l (r_index r0) fl /\ NoDup fl /\
    forall i r, (0 < i)%nat -> nth_error l i = Some r -> In (N.of_nat i) fl \/ r_index r = N.of_nat i.

Lemma fchain_head l h fl : fchain l h fl -> (h = 0 /\ fl = []) \/ (h <> 0 /\ exists t, fl = h :: t).
Proof. intros H; inversion H; subst; [left; auto|right; eauto]. Qed.

Lemma fchain_member l h fl : fchain l h fl -> NoDup fl ->
  forall x, In x fl -> x <> 0 /\ exists r, nth_error l (N.to_nat x) = Some r /\ r_index r <> x /\ (r_index r = 0 \/ In (r_index r) fl).
Proof.
  induction 1 as [|h r t Hh Hn Hc IH]; intros ND x Hx; [destruct Hx|].
  inversion ND as [|? ? Hnotin ND']; subst.
  destruct Hx as [<-|Hx].
  - split; [assumption|]. exists r. split; [assumption|].
    destruct (fchain_head _ _ _ Hc) as [[E1 E2]|[E1 [t' E2]]].
    + split; [congruence|auto].
    + subst t. split; [|right; right; left; reflexivity].
      intros E. apply Hnotin. rewrite <- E. left; reflexivity.
  - destruct (IH ND' x Hx) as (Hx0 & r' & Hr' & Hne & Hnext). split; [assumption|].
    exists r'. repeat split; auto. destruct Hnext; [auto|right; right; assumption].
Qed.

Lemma fchain_ext l l' h fl :
  (forall x, In x fl -> option_map r_index (nth_error l' (N.to_nat x)) = option_map r_index (nth_error l (N.to_nat x))) ->
  fchain l h fl -> fchain l' h fl.
Proof.
  intros Hext H. induction H as [|h r t Hh Hn Hc IH]; [constructor|].
  pose proof (Hext h (or_introl eq_refl)) as E. rewrite Hn in E. cbn in E.
  destruct (nth_error l' (N.to_nat h)) as [r'|] eqn:E'; [|discriminate]. cbn in E. injection E as E.
  econstructor; [assumption|exact E'|]. rewrite E. apply IH. intros x Hx. apply Hext. right; assumption.
Qed.

Lemma twf_same_index l l' :
  length l' = length l ->
  (forall i, option_map r_index (nth_error l' i) = option_map r_index (nth_error l i)) ->
  twf l -> twf l'.
Proof.
  intros HL HI (Hlen & r0 & fl & H0 & Hc & ND & Hall).
  split; [unfold lenN in *; rewrite HL; assumption|].
  pose proof (HI 0%nat) as E0. rewrite H0 in E0. destruct (nth_error l' 0) as [r0'|] eqn:E0'; [|discriminate].
  cbn in E0. injection E0 as E0.
  exists r0', fl. split; [reflexivity|]. split.
  { rewrite E0. eapply fchain_ext; [|exact Hc]. intros x _. apply HI. }
  split; [assumption|].
  intros i r Hi Hr. pose proof (HI i) as E. rewrite Hr in E.
  destruct (nth_error l i) as [r1|] eqn:E1; [|discriminate]. cbn in E. injection E as E.
  rewrite E. eapply Hall; eassumption.
Qed.

Lemma twf_new : twf (recs records_new).
Proof.
  split; [unfold lenN, two64; cbn [length recs records_new]; lia|]. exists rec0, []. cbn [recs records_new nth_error]. split; [reflexivity|].
  split; [constructor|]. split; [constructor|]. intros [|[|i]] r Hi; cbn; try discriminate; lia.
Qed.

Lemma live_at_0 l : live_at l 0 = None.
Proof. unfold live_at. destruct (nth_error l (N.to_nat 0)); reflexivity. Qed.

Lemma live_at_some l i p n :
  live_at l i = Some (p, n) <-> i <> 0 /\ nth_error l (N.to_nat i) = Some {| r_index := i; r_pos := p; r_size := n |}.
Proof.
  unfold live_at. destruct (nth_error l (N.to_nat i)) as [[ri rp rn]|]; cbn [r_index r_pos r_size].
  - destruct (N.eqb_spec i 0) as [Hi|Hi], (N.eqb_spec ri i) as [Hr|Hr]; cbn [negb andb].
    + split; [discriminate|]. intros [H _]. contradiction.
    + split; [discriminate|]. intros [H _]; contradiction.
    + subst ri. split; [intros [= -> ->]; auto|intros [_ [= -> ->]]; reflexivity].
    + split; [discriminate|]. intros [_ [= E _ _]]. contradiction.
  - split; [discriminate|intros [_ H]; discriminate].
Qed.

Lemma live_at_lt l i p n : live_at l i = Some (p, n) -> i < lenN l.
Proof. intros H. apply live_at_some in H. destruct H as [_ H]. apply nth_error_Some_lt in H. unfold lenN. lia. Qed.

(* a member of the free-index list is not live *)
Lemma free_not_live l h fl : fchain l h fl -> NoDup fl -> forall x, In x fl -> live_at l x = None.
Proof.
  intros Hc ND x Hx. destruct (fchain_member _ _ _ Hc ND x Hx) as (Hx0 & r & Hr & Hne & _).
  unfold live_at. rewrite Hr. destruct (N.eqb_spec (r_index r) x); [congruence|]. now rewrite andb_false_r.
Qed.

(* record(index) never indexes out of range and answers exactly the live entries *)
Lemma record_spec rs i : twf (recs rs) ->
  record rs i = Some (match live_at (recs rs) i with
                      | Some (p, n) => Some {| r_index := i; r_pos := p; r_size := n |}
                      | None => None end).
Proof.
  intros (Hlen & r0 & fl & H0 & Hc & ND & Hall). unfold record, rget, live_at.
  destruct (nth_error (recs rs) (N.to_nat i)) as [r|] eqn:Er; [|reflexivity].
  unfold is_valid, rget.
  destruct (N.eqb_spec (r_index r) 0) as [Ez|Enz].
  { destruct (N.eqb_spec i 0); cbn [negb andb]; [reflexivity|].
    destruct (N.eqb_spec (r_index r) i); [congruence|reflexivity]. }
  assert (Hcase : (r_index r = i /\ i <> 0) \/ (In (r_index r) fl /\ r_index r <> i) \/ (i = 0 /\ In (r_index r) fl)).
  { destruct (N.eqb_spec i 0) as [->|Hi].
    - right; right. split; [reflexivity|]. change (N.to_nat 0) with 0%nat in Er. assert (r = r0) by congruence. subst r.
      destruct (fchain_head _ _ _ Hc) as [[E _]|[_ [t ->]]]; [congruence|left; reflexivity].
    - destruct (Hall (N.to_nat i) r ltac:(lia) Er) as [Hin|Hidx].
      + right; left. rewrite N2Nat.id in Hin.
        destruct (fchain_member _ _ _ Hc ND i Hin) as (_ & r' & Hr' & Hne & Hnext).
        assert (r' = r) by congruence. subst r'. split; [|assumption]. destruct Hnext; [congruence|assumption].
      + left. rewrite N2Nat.id in Hidx. auto. }
  destruct Hcase as [[E Hi]|[[Hin Hne]|[-> Hin]]].
  - rewrite E, Er, E, N.eqb_refl. destruct (N.eqb_spec i 0); [congruence|]. cbn [negb andb].
    destruct r as [ri rp rn]; cbn in *; subst; reflexivity.
  - destruct (fchain_member _ _ _ Hc ND _ Hin) as (_ & r' & Hr' & Hne' & _). rewrite Hr'.
    destruct (N.eqb_spec (r_index r') (r_index r)); [congruence|].
    destruct (N.eqb_spec (r_index r) i); [congruence|]. now rewrite andb_false_r.
  - destruct (fchain_member _ _ _ Hc ND _ Hin) as (_ & r' & Hr' & Hne' & _). rewrite Hr'.
    destruct (N.eqb_spec (r_index r') (r_index r)); [congruence|]. reflexivity.
Qed.

Lemma head_free_eq rs r0 : nth_error (recs rs) 0 = Some r0 -> head_free rs = r_index r0.
Proof. intros H. unfold head_free. now rewrite (nth_error_nth _ _ rec0 _ H). Qed.

Lemma nth_error_set_head l h i r0 : nth_error l 0 = Some r0 ->
  nth_error (set_head l h) i = if Nat.eqb i 0 then Some {| r_index := h; r_pos := r_pos r0; r_size := r_size r0 |} else nth_error l i.
Proof.
  intros H0. unfold set_head. rewrite nth_error_upd, (nth_error_nth _ _ rec0 _ H0).
  destruct (Nat.eqb_spec i 0); [|reflexivity].
  apply nth_error_Some_lt in H0. destruct (Nat.ltb_spec 0 (length l)); [reflexivity|lia].
Qed.

Lemma set_head_length l h : length (set_head l h) = length l.
Proof. apply upd_length. Qed.

Lemma new_record_spec rs pos n :
  twf (recs rs) ->
  match new_record rs pos n with
  | None => two64 <= lenN (recs rs) + 1
  | Some (rs', r) =>
    r = {| r_index := r_index r; r_pos := pos; r_size := n |} /\ r_index r <> 0 /\ r_index r < two64 /\
    live_at (recs rs) (r_index r) = None /\
    (forall i, live_at (recs rs') i = if i =? r_index r then Some (pos, n) else live_at (recs rs) i) /\
    twf (recs rs') /\ fps rs' = fps rs /\ fsp rs' = fsp rs
  end.
Proof.
  intros W. pose proof W as (Hlen & r0 & fl & H0 & Hc & ND & Hall).
  unfold new_record. rewrite (head_free_eq _ _ H0).
  destruct (N.eqb_spec (r_index r0) 0) as [Ez|Enz]; cbn [negb].
  - (* append *)
    destruct (N.leb_spec two64 (lenN (recs rs) + 1)) as [|Hcap]; [assumption|].
    cbn [r_index recs set_recs fps fsp].
    assert (L1 : (1 <= length (recs rs))%nat) by (apply nth_error_Some_lt in H0; lia).
    assert (Hfl : fl = []) by (destruct (fchain_head _ _ _ Hc) as [[_ E]|[E _]]; [assumption|congruence]). subst fl.
    split; [reflexivity|]. split; [unfold lenN; lia|]. split; [unfold lenN in *; lia|].
    split.
    { unfold live_at. unfold lenN. rewrite Nat2N.id.
      destruct (nth_error (recs rs) (length (recs rs))) eqn:E; [|reflexivity].
      apply nth_error_Some_lt in E. lia. }
    split.
    { intros i. unfold live_at. destruct (N.eqb_spec i (lenN (recs rs))) as [->|Hi].
      - unfold lenN. rewrite Nat2N.id, nth_error_app2, Nat.sub_diag by lia. cbn [nth_error r_index r_pos r_size].
        rewrite N.eqb_refl. destruct (N.eqb_spec (N.of_nat (length (recs rs))) 0); [lia|reflexivity].
      - destruct (Nat.ltb_spec (N.to_nat i) (length (recs rs))).
        + now rewrite nth_error_app1.
        + rewrite nth_error_app2 by lia.
          destruct (N.to_nat i - length (recs rs))%nat as [|k] eqn:Ek; [unfold lenN in Hi; lia|].
          cbn [nth_error]. destruct k; cbn [nth_error].
          * destruct (nth_error (recs rs) (N.to_nat i)) eqn:E; [apply nth_error_Some_lt in E; lia|reflexivity].
          * destruct (nth_error (recs rs) (N.to_nat i)) eqn:E; [apply nth_error_Some_lt in E; lia|reflexivity]. }
    split; [|split; reflexivity].
    split; [unfold lenN in *; rewrite app_length; cbn [length]; lia|].
    exists r0, []. split; [rewrite nth_error_app1 by lia; assumption|].
    split; [rewrite Ez; constructor|]. split; [constructor|].
    intros i r Hi Hr. right.
    destruct (Nat.ltb_spec i (length (recs rs))).
    + rewrite nth_error_app1 in Hr by lia. destruct (Hall i r Hi Hr) as [Hf|Hx]; [destruct Hf|exact Hx].
    + rewrite nth_error_app2 in Hr by lia.
      destruct (i - length (recs rs))%nat as [|k] eqn:Ek; cbn [nth_error] in Hr.
      * injection Hr as <-. cbn [r_index]. unfold lenN. f_equal. lia.
      * destruct k; discriminate.
  - (* pop the free-index list *)
    destruct (fchain_head _ _ _ Hc) as [[E _]|[_ [t ->]]]; [congruence|].
    set (h := r_index r0) in *.
    inversion Hc as [|h' rh t' Hh Hrh Hct]; subst h' t'.
    unfold rget. rewrite Hrh. cbn [r_index recs set_recs fps fsp].
    inversion ND as [|? ? Hnotin ND']; subst.
    assert (Hh0 : N.to_nat h <> 0%nat) by lia.
    assert (NE : forall i, nth_error (upd (set_head (recs rs) (r_index rh)) (N.to_nat h) {| r_index := h; r_pos := pos; r_size := n |}) i =
                           if Nat.eqb i (N.to_nat h) then Some {| r_index := h; r_pos := pos; r_size := n |}
                           else if Nat.eqb i 0 then Some {| r_index := r_index rh; r_pos := r_pos r0; r_size := r_size r0 |}
                           else nth_error (recs rs) i).
    { intros i. rewrite nth_error_upd, set_head_length, (nth_error_set_head _ _ _ _ H0).
      destruct (Nat.eqb_spec i (N.to_nat h)); [|reflexivity].
      apply nth_error_Some_lt in Hrh. destruct (Nat.ltb_spec (N.to_nat h) (length (recs rs))); [reflexivity|lia]. }
    split; [reflexivity|]. split; [assumption|].
    split. { apply nth_error_Some_lt in Hrh. unfold lenN in Hlen. lia. }
    split. { apply (free_not_live _ _ _ Hc ND). cbn [In]. left; reflexivity. }
    split.
    { intros i. unfold live_at. rewrite NE.
      destruct (N.eqb_spec i h) as [->|Hi].
      - rewrite Nat.eqb_refl. cbn [r_index r_pos r_size]. rewrite N.eqb_refl.
        destruct (N.eqb_spec h 0); [congruence|reflexivity].
      - destruct (Nat.eqb_spec (N.to_nat i) (N.to_nat h)); [lia|].
        destruct (Nat.eqb_spec (N.to_nat i) 0) as [Ei|Ei]; [|reflexivity].
        assert (i = 0) by lia. subst i. change (N.to_nat 0) with 0%nat. rewrite H0. reflexivity. }
    split; [|split; reflexivity].
    split; [unfold lenN in *; rewrite upd_length, set_head_length; assumption|].
    exists {| r_index := r_index rh; r_pos := r_pos r0; r_size := r_size r0 |}, t.
    split. { rewrite NE. destruct (Nat.eqb_spec 0 (N.to_nat h)); [lia|reflexivity]. }
    split.
    { cbn [r_index]. eapply fchain_ext; [|exact Hct]. intros x Hx. rewrite NE.
      destruct (fchain_member _ _ _ Hct ND' x Hx) as (Hx0 & _).
      destruct (Nat.eqb_spec (N.to_nat x) (N.to_nat h)) as [E|E].
      - exfalso. apply Hnotin. assert (x = h) by lia. subst x. assumption.
      - destruct (Nat.eqb_spec (N.to_nat x) 0); [lia|reflexivity]. }
    split; [assumption|].
    intros i r Hi Hr. rewrite NE in Hr.
    destruct (Nat.eqb_spec i (N.to_nat h)) as [->|E].
    + injection Hr as <-. right. cbn [r_index]. lia.
    + destruct (Nat.eqb_spec i 0); [lia|].
      destruct (Hall i r Hi Hr) as [[E'|Hin]|Hidx]; [lia|left; assumption|right; assumption].
Qed.

Lemma free_index_spec rs j p n :
  twf (recs rs) -> live_at (recs rs) j = Some (p, n) ->
  (forall i, live_at (recs (free_index rs j)) i = if i =? j then None else live_at (recs rs) i) /\
  twf (recs (free_index rs j)) /\ fps (free_index rs j) = fps rs /\ fsp (free_index rs j) = fsp rs /\
  length (recs (free_index rs j)) = length (recs rs).
Proof.
  intros W HL. pose proof W as (Hlen & r0 & fl & H0 & Hc & ND & Hall).
  apply live_at_some in HL. destruct HL as [Hj Hrj].
  unfold free_index, rget. rewrite Hrj, (head_free_eq _ _ H0). cbn [recs set_recs fps fsp].
  set (h := r_index r0) in *.
  set (rj' := {| r_index := h; r_pos := U64MAX; r_size := r_size (nth (N.to_nat j) (recs rs) rec0) |}).
  assert (Hj0 : N.to_nat j <> 0%nat) by lia.
  assert (H0' : nth_error (upd (recs rs) (N.to_nat j) rj') 0 = Some r0).
  { rewrite nth_error_upd. destruct (Nat.eqb_spec 0 (N.to_nat j)); [lia|assumption]. }
  assert (NE : forall i, nth_error (set_head (upd (recs rs) (N.to_nat j) rj') j) i =
                         if Nat.eqb i 0 then Some {| r_index := j; r_pos := r_pos r0; r_size := r_size r0 |}
                         else if Nat.eqb i (N.to_nat j) then Some rj' else nth_error (recs rs) i).
  { intros i. rewrite (nth_error_set_head _ _ _ _ H0'). destruct (Nat.eqb_spec i 0); [reflexivity|].
    rewrite nth_error_upd. destruct (Nat.eqb_spec i (N.to_nat j)); [|reflexivity].
    apply nth_error_Some_lt in Hrj. destruct (Nat.ltb_spec (N.to_nat j) (length (recs rs))); [reflexivity|lia]. }
  assert (Hjfl : ~ In j fl).
  { intros Hin. destruct (fchain_member _ _ _ Hc ND j Hin) as (_ & r' & Hr' & Hne & _).
    rewrite Hrj in Hr'. injection Hr' as <-. cbn in Hne. congruence. }
  assert (Hhj : h <> j).
  { destruct (fchain_head _ _ _ Hc) as [[E _]|[_ [t E]]]; [congruence|]. intros ->. apply Hjfl. rewrite E. left; reflexivity. }
  split.
  { intros i. unfold live_at. rewrite NE.
    destruct (N.eqb_spec i j) as [->|Hi].
    - destruct (Nat.eqb_spec (N.to_nat j) 0); [lia|]. rewrite Nat.eqb_refl. cbn [rj' r_index].
      destruct (N.eqb_spec h j); [congruence|]. now rewrite andb_false_r.
    - destruct (Nat.eqb_spec (N.to_nat i) 0) as [Ei|Ei].
      + assert (i = 0) by lia. subst i. change (N.to_nat 0) with 0%nat. rewrite H0. reflexivity.
      + destruct (Nat.eqb_spec (N.to_nat i) (N.to_nat j)); [lia|reflexivity]. }
  split.
  { split; [unfold lenN in *; rewrite set_head_length, upd_length; assumption|].
    exists {| r_index := j; r_pos := r_pos r0; r_size := r_size r0 |}, (j :: fl).
    split; [rewrite NE; reflexivity|]. cbn [r_index].
    split.
    { econstructor; [assumption| |].
      - rewrite NE. destruct (Nat.eqb_spec (N.to_nat j) 0); [lia|]. rewrite Nat.eqb_refl. reflexivity.
      - cbn [rj' r_index]. eapply fchain_ext; [|exact Hc]. intros x Hx. rewrite NE.
        destruct (fchain_member _ _ _ Hc ND x Hx) as (Hx0 & _).
        destruct (Nat.eqb_spec (N.to_nat x) 0); [lia|].
        destruct (Nat.eqb_spec (N.to_nat x) (N.to_nat j)); [|reflexivity].
        exfalso. apply Hjfl. assert (x = j) by lia. subst x. assumption. }
    split; [constructor; assumption|].
    intros i r Hi Hr. rewrite NE in Hr. destruct (Nat.eqb_spec i 0); [lia|].
    destruct (Nat.eqb_spec i (N.to_nat j)) as [->|E].
    - left. left. lia.
    - destruct (Hall i r Hi Hr); [left; right; assumption|right; assumption]. }
  split; [reflexivity|]. split; [reflexivity|]. rewrite set_head_length, upd_length. reflexivity.
Qed.

(* set_pos and set_size rewrite position and size of one entry and keep its index *)
Definition remap (h : N -> N -> N * N) (r : srec) : srec :=
  {| r_index := r_index r; r_pos := fst (h (r_pos r) (r_size r)); r_size := snd (h (r_pos r) (r_size r)) |}.

Lemma remap_spec rs j h (rs' := match rget rs j with
                               | Some r => set_recs rs (upd (recs rs) (N.to_nat j) (remap h r))
                               | None => rs end) :
  twf (recs rs) ->
  (forall i, live_at (recs rs') i =
             if i =? j then match live_at (recs rs) j with Some (p, n) => Some (h p n) | None => None end else live_at (recs rs) i) /\
  twf (recs rs') /\ fps rs' = fps rs /\ fsp rs' = fsp rs /\ length (recs rs') = length (recs rs).
Proof.
  intros W. unfold rs', rget. destruct (nth_error (recs rs) (N.to_nat j)) as [r|] eqn:Er.
  - cbn [recs set_recs fps fsp].
    assert (NE : forall i, nth_error (upd (recs rs) (N.to_nat j) (remap h r)) i =
                           if Nat.eqb i (N.to_nat j) then Some (remap h r) else nth_error (recs rs) i).
    { intros i. rewrite nth_error_upd. destruct (Nat.eqb_spec i (N.to_nat j)); [|reflexivity].
      apply nth_error_Some_lt in Er. destruct (Nat.ltb_spec (N.to_nat j) (length (recs rs))); [reflexivity|lia]. }
    split.
    { intros i. unfold live_at. rewrite NE. destruct (N.eqb_spec i j) as [->|Hi].
      - rewrite Nat.eqb_refl, Er. cbn [remap r_index r_pos r_size].
        destruct (negb (j =? 0) && (r_index r =? j)); [|reflexivity]. now destruct (h (r_pos r) (r_size r)).
      - destruct (Nat.eqb_spec (N.to_nat i) (N.to_nat j)); [lia|reflexivity]. }
    split.
    { eapply twf_same_index; [apply upd_length| |exact W]. intros i. rewrite NE.
      destruct (Nat.eqb_spec i (N.to_nat j)) as [->|]; [rewrite Er|]; reflexivity. }
    repeat split. apply upd_length.
  - split.
    { intros i. destruct (N.eqb_spec i j) as [->|]; [|reflexivity]. unfold live_at. rewrite Er. reflexivity. }
    split; [exact W|]. repeat split.
Qed.

Lemma set_pos_spec rs j q :
  twf (recs rs) ->
  (forall i, live_at (recs (set_pos rs j q)) i =
             if i =? j then match live_at (recs rs) j with Some (_, n) => Some (q, n) | None => None end else live_at (recs rs) i) /\
  twf (recs (set_pos rs j q)) /\ fps (set_pos rs j q) = fps rs /\ fsp (set_pos rs j q) = fsp rs /\
  length (recs (set_pos rs j q)) = length (recs rs).
Proof. exact (remap_spec rs j (fun _ n => (q, n))). Qed.

Lemma set_size_spec rs j m :
  twf (recs rs) ->
  (forall i, live_at (recs (set_size rs j m)) i =
             if i =? j then match live_at (recs rs) j with Some (p, _) => Some (p, m) | None => None end else live_at (recs rs) i) /\
  twf (recs (set_size rs j m)) /\ fps (set_size rs j m) = fps rs /\ fsp (set_size rs j m) = fsp rs /\
  length (recs (set_size rs j m)) = length (recs rs).
Proof. exact (remap_spec rs j (fun p _ => (p, m))). Qed.

(* set_size, and set_pos followed by set_size, on a live entry *)
Lemma set_size_live rs j p n m :
  twf (recs rs) -> live_at (recs rs) j = Some (p, n) ->
  (forall i, live_at (recs (set_size rs j m)) i = if i =? j then Some (p, m) else live_at (recs rs) i) /\
  twf (recs (set_size rs j m)) /\ fps (set_size rs j m) = fps rs /\ fsp (set_size rs j m) = fsp rs.
Proof.
  intros W HL. destruct (set_size_spec rs j m W) as (H & W' & F & S & _). rewrite HL in H. auto.
Qed.

Lemma set_pos_size_live rs j p n q m :
  twf (recs rs) -> live_at (recs rs) j = Some (p, n) ->
  (forall i, live_at (recs (set_size (set_pos rs j q) j m)) i = if i =? j then Some (q, m) else live_at (recs rs) i) /\
  twf (recs (set_size (set_pos rs j q) j m)) /\
  fps (set_size (set_pos rs j q) j m) = fps rs /\ fsp (set_size (set_pos rs j q) j m) = fsp rs.
Proof.
  intros W HL. destruct (set_pos_spec rs j q W) as (H1 & W1 & F1 & S1 & _).
  assert (HL1 : live_at (recs (set_pos rs j q)) j = Some (q, n)) by (rewrite H1, N.eqb_refl, HL; reflexivity).
  destruct (set_size_live _ j q n m W1 HL1) as (H2 & W2 & F2 & S2).
  split; [|split; [exact W2|split; congruence]].
  intros i. rewrite H2, H1. destruct (i =? j); reflexivity.
Qed.
