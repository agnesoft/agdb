(* IndexInvProofs.v — C11: the index invariants as one property of database states (live set = the
   elements of the graph) and their preservation by the value / index mutations of DbImpl that
   leave the graph alone. *)
From Agdb Require Import Bytes DbValue Graph DbModel Search Queries DbValueEqProofs DbFrameProofs
  KvProofs KvDbProofs KvSelectProofs IndexProofs IndexDbProofs IndexDb2Proofs IndexDb3Proofs IndexDb4Proofs.
Open Scope Z_scope.

(* exact indexes + only live elements have values + no key indexed twice *)
Definition idx_inv (d : db) : Prop := idx_exact d /\ vals_live d /\ idx_distinct d.

Lemma idx_inv_new : idx_inv db_new.
Proof. exact (conj idx_exact_new (conj vals_live_new idx_distinct_new)). Qed.

Lemma idx_distinct_keys d d' : map fst (indexes d') = map fst (indexes d) -> idx_distinct d -> idx_distinct d'.
Proof. unfold idx_distinct, idx_keys_distinct. now intros ->. Qed.

Lemma idx_inv_same_gr d d' :
  gr d' = gr d ->
  idx_exact_on (live d) d' -> vals_live_on (live d) d' -> idx_distinct d' -> idx_inv d'.
Proof.
  intros Hg H1 H2 H3. split; [|split; [|exact H3]].
  - apply (idx_exact_on_ext (live d)); [now apply live_same_gr|exact H1].
  - apply (vals_live_on_ext (live d)); [now apply live_same_gr|exact H2].
Qed.

Lemma insert_key_value_inv d id x :
  idx_inv d -> live d id = true -> idx_inv (insert_key_value d id x).
Proof.
  intros (H1 & H2 & H3) Hid. apply (idx_inv_same_gr d); [reflexivity| | |].
  - now apply insert_key_value_exact; [apply live_ok| |].
  - now apply insert_key_value_live.
  - apply (idx_distinct_keys d); [apply insert_key_value_keys|exact H3].
Qed.

Lemma insert_or_replace_key_value_inv d id x :
  idx_inv d -> live d id = true -> idx_inv (insert_or_replace_key_value d id x).
Proof.
  intros (H1 & H2 & H3) Hid. apply (idx_inv_same_gr d).
  - apply (insert_or_replace_key_value_ga d id x).
  - now apply insert_or_replace_key_value_exact; [apply live_ok| |].
  - now apply insert_or_replace_key_value_live.
  - apply (idx_distinct_keys d); [apply insert_or_replace_key_value_keys|exact H3].
Qed.

Lemma reserve_kv_inv d id : idx_inv d -> idx_inv (reserve_kv d id).
Proof.
  intros (H1 & H2 & H3). apply (idx_inv_same_gr d); [reflexivity| | |exact H3].
  - now apply reserve_kv_exact.
  - now apply reserve_kv_live.
Qed.

Lemma insert_kvs_replace_inv d id kvs :
  idx_inv d -> live d id = true -> idx_inv (insert_kvs_replace d id kvs).
Proof.
  intros Hd Hid. unfold insert_kvs_replace.
  apply (fold_left_inv (fun a => idx_inv a /\ gr a = gr d)).
  - split; [now apply reserve_kv_inv|reflexivity].
  - intros a x _ [Ha Hg]. split.
    + apply insert_or_replace_key_value_inv; [exact Ha|]. unfold live. now rewrite Hg.
    + rewrite (proj1 (insert_or_replace_key_value_ga a id x)). exact Hg.
Qed.

Lemma insert_kvs_new_inv d id kvs :
  idx_inv d -> live d id = true -> idx_inv (insert_kvs_new d id kvs).
Proof.
  intros Hd Hid. unfold insert_kvs_new.
  apply (fold_left_inv (fun a => idx_inv a /\ gr a = gr d)).
  - split; [now apply reserve_kv_inv|reflexivity].
  - intros a x _ [Ha Hg]. split.
    + apply insert_key_value_inv; [exact Ha|]. unfold live. now rewrite Hg.
    + exact Hg.
Qed.

Lemma remove_keys_inv d id keys :
  idx_inv d -> kvs_distinct (vals d) -> live d id = true -> idx_inv (snd (remove_keys d id keys)).
Proof.
  intros (H1 & H2 & H3) Hk Hid. apply (idx_inv_same_gr d).
  - apply (remove_keys_ga d id keys).
  - apply remove_keys_exact; [apply live_ok|exact Hid|apply Hk|exact H1].
  - apply remove_keys_live; [exact Hid|apply Hk|exact H2].
  - apply (idx_distinct_keys d); [apply remove_keys_index_keys|exact H3].
Qed.

Lemma insert_index_inv d key n d' :
  insert_index d key = ROk (n, d') -> idx_inv d -> idx_inv d'.
Proof. intros Hi (H1 & H2 & H3). now apply (insert_index_exact d key n d'). Qed.

Lemma remove_index_inv d key : idx_inv d -> idx_inv (snd (remove_index d key)).
Proof.
  intros (H1 & H2 & H3).
  pose proof (remove_index_spec d key H3) as S. cbv zeta in S. destruct S as (A & B & C & D & F & _).
  apply (idx_inv_same_gr d); [exact A| | |exact F].
  - now apply remove_index_exact.
  - now apply (vals_live_on_frame (live d) d).
Qed.
