(* UndoRemoveNode.v — C13_step_inverse for remove_node_db: it is a sequence of primitives
   (alias removal; for every edge of the node: remove_edge_db + remove_all_values; removal of the
   then isolated node), so C13_rollback_restores applies to it. *)
From Agdb Require Import Bytes BytesProofs DbValue Graph DbModel Revisions UndoBase UndoObs UndoAlias UndoKv
  UndoGraphBase UndoGraph UndoGraphEdge UndoGraphOps UndoAbs UndoDb
  UndoStepsAlias UndoStepsKv UndoStepsKv2 UndoStepsGraph UndoBridge UndoMain UndoFinal UndoLift.
From Agdb Require DbCascadeProofs.
From Agdb Require Import DbFrameProofs.
From Coq Require Import Permutation ZifyBool ZifyNat ZifyN.
Ltac Zify.zify_post_hook ::= Z.div_mod_to_equations.
Open Scope Z_scope.

Definition ne_id (x : Z * Z * Z) : Z := fst (fst x).

Lemma NoDup_app_intro {A} (l l' : list A) :
  NoDup l -> NoDup l' -> (forall x, In x l -> In x l' -> False) -> NoDup (l ++ l').
Proof.
  induction l as [|x r IH]; intros H1 H2 H3; cbn [app]; [assumption|].
  inversion H1 as [|? ? Hn Hr]. subst. constructor.
  - intros Hin. apply in_app_or in Hin. destruct Hin as [Hin|Hin]; [contradiction|].
    apply (H3 x); [left; reflexivity | assumption].
  - apply IH; auto. intros y Hy. apply H3. right. assumption.
Qed.

Lemma node_edges_spec d a n :
  rep (gr d) a -> 0 < n -> ak a n = KNode ->
  Forall (fun x => exists e, ne_id x = - e /\ 0 < e /\ ak a e = KEdge (snd (fst x)) (snd x)) (node_edges d n) /\
  NoDup (map ne_id (node_edges d n)) /\
  (forall e, In e (aout a n) \/ In e (ain a n) -> In (- e) (map ne_id (node_edges d n))).
Proof.
  intros R Hn Kn. unfold rep in R. unfold node_edges.
  rewrite (rep_out_edges _ _ R n Hn Kn), (rep_in_edges _ _ R n Hn Kn).
  destruct (r_out _ _ _ _ R n Hn Kn) as (_ & Hndo & _). destruct (r_in _ _ _ _ R n Hn Kn) as (_ & Hndi & _).
  assert (Hfrom : forall e f t, 0 < e -> ak a e = KEdge f t -> edge_from (gr d) (- e) = f /\ edge_to (gr d) (- e) = t).
  { intros e f t He Hk. destruct (rep_edge_arrays _ _ _ _ R e f t He Hk) as (_ & _ & Efr & Eto & _).
    unfold edge_from, edge_to. rewrite from_opp, to_opp, Efr, Eto. lia. }
  set (g := gr d) in *.
  set (fo := fun e => (e, edge_from g e, edge_to g e)).
  set (fi := fun e => if edge_from g e =? n then [] else [(e, edge_from g e, edge_to g e)]).
  (* the in-part as a filter *)
  assert (Hin_spec : forall x, In x (flat_map fi (map Z.opp (ain a n))) <->
             exists e, In e (ain a n) /\ edge_from g (- e) <> n /\ x = (- e, edge_from g (- e), edge_to g (- e))).
  { intros x. rewrite in_flat_map. split.
    - intros (ei & Hei & Hx). apply in_map_iff in Hei. destruct Hei as (e & <- & He). unfold fi in Hx.
      destruct (Z.eqb_spec (edge_from g (- e)) n); [contradiction|]. destruct Hx as [<-|[]]. eauto.
    - intros (e & He & Hne & ->). exists (- e). split; [apply in_map, He|]. unfold fi.
      destruct (Z.eqb_spec (edge_from g (- e)) n); [contradiction | left; reflexivity]. }
  split; [|split].
  - apply Forall_forall. intros x Hx. apply in_app_or in Hx. destruct Hx as [Hx|Hx].
    + rewrite map_map in Hx. apply in_map_iff in Hx. destruct Hx as (e & <- & He).
      pose proof (rep_out_range _ _ _ _ R n e Hn Kn He) as Hr.
      destruct (rep_out_edge _ _ _ _ R n e Hn Kn He) as (t & Ht).
      destruct (Hfrom e n t (proj1 Hr) Ht) as (E1 & E2). exists e. unfold fo, ne_id. cbn [fst snd]. rewrite E1, E2. auto with zarith.
    + apply Hin_spec in Hx. destruct Hx as (e & He & _ & ->).
      pose proof (rep_in_range _ _ _ _ R n e Hn Kn He) as Hr.
      destruct (rep_in_edge _ _ _ _ R n e Hn Kn He) as (f & Hf).
      destruct (Hfrom e f n (proj1 Hr) Hf) as (E1 & E2). exists e. unfold ne_id. cbn [fst snd]. rewrite E1, E2. auto with zarith.
  - rewrite map_app. apply NoDup_app_intro.
    + rewrite !map_map. unfold fo, ne_id. cbn [fst]. apply FinFun.Injective_map_NoDup; [|assumption]. intros x y. lia.
    + assert (Hsub : forall l, NoDup l -> NoDup (map ne_id (flat_map fi (map Z.opp l)))).
      { induction l as [|e r IH]; intros Hnd; cbn [map flat_map]; [constructor|].
        inversion Hnd as [|? ? Hne Hnd']. subst. rewrite map_app. unfold fi at 1.
        destruct (edge_from g (- e) =? n); cbn [map app]; [auto|]. constructor; [|auto].
        unfold ne_id at 1. cbn [fst]. intros Hc. apply in_map_iff in Hc. destruct Hc as (x & Ex & Hx).
        apply in_flat_map in Hx. destruct Hx as (ei & Hei & Hx). apply in_map_iff in Hei. destruct Hei as (e' & <- & He').
        unfold fi in Hx. destruct (edge_from g (- e') =? n); [contradiction|]. destruct Hx as [<-|[]].
        unfold ne_id in Ex. cbn [fst] in Ex. assert (e' = e) by lia. subst. contradiction. }
      apply Hsub, Hndi.
    + intros x Hx1 Hx2. rewrite !map_map in Hx1. apply in_map_iff in Hx1. destruct Hx1 as (e & <- & He).
      apply in_map_iff in Hx2. destruct Hx2 as (y & Ey & Hy). apply Hin_spec in Hy. destruct Hy as (e' & He' & Hne & ->).
      unfold fo, ne_id in Ey. cbn [fst] in Ey. assert (e' = e) by lia. subst e'.
      pose proof (rep_out_range _ _ _ _ R n e Hn Kn He) as Hr.
      destruct (rep_out_edge _ _ _ _ R n e Hn Kn He) as (t & Ht).
      destruct (Hfrom e n t (proj1 Hr) Ht) as (E1 & _). contradiction.
  - intros e He. rewrite map_app. apply in_or_app. destruct (in_dec Z.eq_dec e (aout a n)) as [Ho|Hno].
    + left. rewrite !map_map. apply in_map_iff. exists e. split; [reflexivity | assumption].
    + destruct He as [He|He]; [contradiction|]. right. apply in_map_iff.
      exists (- e, edge_from g (- e), edge_to g (- e)). split; [reflexivity|]. apply Hin_spec. exists e.
      split; [assumption|]. split; [|reflexivity].
      pose proof (rep_in_range _ _ _ _ R n e Hn Kn He) as Hr.
      destruct (rep_in_edge _ _ _ _ R n e Hn Kn He) as (f & Hf).
      destruct (Hfrom e f n (proj1 Hr) Hf) as (E1 & _). rewrite E1. intros ->. apply Hno.
      apply (r_out_mem _ _ _ _ R n e Hn Kn). split; [lia|]. split; [eauto | intros []].
Qed.

(* the cascade over the node's edges, then the node *)

(* removing the values of one element keeps the index entries of every other element *)
Lemma remove_first_pair_in_other l v id p : In p l -> snd p <> id -> In p (remove_first_pair l v id).
Proof.
  induction l as [|[v' id'] r IH]; cbn [remove_first_pair In]; [tauto|]. intros Hin Hne.
  destruct (dbv_eqb v' v && (id' =? id)) eqn:E.
  - destruct Hin as [<-|Hin]; [|assumption]. apply andb_true_iff in E. cbn [snd] in Hne. lia.
  - destruct Hin as [<-|Hin]; [left; reflexivity | right; auto].
Qed.

Lemma fold_remove_sel_idx ej l : forall d key ids',
  idx_find (indexes (fold_left (remove_sel ej (fun _ => true)) l d)) key = Some ids' ->
  exists ids, idx_find (indexes d) key = Some ids /\ forall p, snd p <> ej -> In p ids -> In p ids'.
Proof.
  induction l as [|x r IH]; intros d key ids' H; cbn [fold_left] in H; [eauto|].
  destruct (IH _ _ _ H) as (ids1 & H1 & Hsub). unfold remove_sel in H1. cbn [remove_kv indexes] in H1.
  unfold idx_remove_id in H1. rewrite idx_find_update' in H1.
  destruct (dbv_eqb (fst x) key); [|eauto].
  destruct (idx_find (indexes d) key) as [ids|]; cbn [omap] in H1; [|discriminate]. injection H1 as <-.
  exists ids. split; [reflexivity|]. intros p Hp Hin. apply Hsub; [assumption|]. apply remove_first_pair_in_other; assumption.
Qed.

Lemma idx_has_all_after_remove_all d ej ei :
  same_slot ej ei = false -> idx_has_all d ei -> idx_has_all (remove_all_values d ej) ei.
Proof.
  intros Hs Hall x Hx ids' Hids'. unfold remove_all_values in Hx, Hids'. cbn [vals indexes with_vals] in Hx, Hids'.
  destruct (remove_all_fold_fields (kvs_get (vals d) ej) ej d) as (_ & _ & Ei & _ & Ev).
  rewrite kvs_get_remove, Hs, Ev in Hx. rewrite Ei in Hids'.
  destruct (fold_remove_sel_idx ej _ _ _ _ Hids') as (ids & Hids & Hsub).
  apply Hsub; [cbn [snd]; intros ->; rewrite same_slot_refl in Hs; discriminate|]. apply (Hall x Hx ids Hids).
Qed.

Lemma gr_remove_all_values d id : gr (remove_all_values d id) = gr d.
Proof. apply (remove_all_values_ga d id). Qed.

Section RemoveNode.
  Variable rv : revision.
  Hypothesis Hrv : fix_rollback_replace rv = true.
  Hypothesis Hsteal : fix_alias_steal_undo rv = true.

  Lemma rn_fold n : forall l acc a,
    db_ok acc -> rep (gr acc) a -> 0 < n -> ak a n = KNode ->
    Forall (fun x => exists e, ne_id x = - e /\ 0 < e /\ ak a e = KEdge (snd (fst x)) (snd x)) l ->
    NoDup (map ne_id l) ->
    (forall x, In x l -> idx_has_all acc (ne_id x)) ->
    exists acc' a', fold_left DbCascadeProofs.cascade_step l (acc, None) = (acc', None) /\ psteps rv acc acc' /\ db_ok acc' /\
      rep (gr acc') a' /\ capacity (gr acc') = capacity (gr acc) /\ aliases acc' = aliases acc /\
      ak a' n = KNode /\
      (forall e, In e (aout a' n) -> In e (aout a n) /\ ~ In (- e) (map ne_id l)) /\
      (forall e, In e (ain a' n) -> In e (ain a n) /\ ~ In (- e) (map ne_id l)).
  Proof.
    induction l as [|x r IH]; intros acc a Hok R Hn Kn Hall Hnd Hidx; cbn [fold_left].
    - exists acc, a. split; [reflexivity|]. split; [apply pss_nil|]. repeat (split; [assumption || reflexivity|]).
      split; intros e He; (split; [assumption | intros []]).
    - inversion Hall as [|? ? (e & Ee & He & Ke) Hall']. subst.
      cbn [map] in Hnd. apply NoDup_cons_iff in Hnd. destruct Hnd as (Hnx & Hnd').
      destruct x as [[ei f] t]. unfold ne_id in Ee. cbn [fst snd] in Ee, Ke. subst ei.
      destruct (step_remove_edge_db rv Hrv acc a e f t Hok R He Ke) as (d1 & E1 & Hok1 & _ & Hc1 & Ea1 & Ev1 & Ei1 & R1).
      (* the model's step is remove_edge_db followed by remove_all_values *)
      assert (Estep : exists g, Graph.remove_edge (gr acc) (- e) = Some g /\ d1 = push_undo (with_gr acc g) (CInsertEdge f t)).
      { unfold remove_edge_db in E1. destruct (Graph.remove_edge (gr acc) (- e)) as [g|]; [|discriminate].
        injection E1 as <-. exists g. split; [reflexivity|].
        unfold rep in R. destruct (rep_edge_arrays _ _ _ _ R e f t He Ke) as (_ & _ & Efr & Eto & _).
        unfold edge_from, edge_to. rewrite from_opp, to_opp, Efr, Eto, !Z.opp_involutive. reflexivity. }
      destruct Estep as (g & Eg & Ed1). cbn [DbCascadeProofs.cascade_step]. rewrite Eg, <- Ed1.
      assert (Hp1 : pstep rv acc d1).
      { apply (ps_remove_edge rv acc e d1 He); [|assumption].
        apply is_edge_kind; [assumption|]. unfold rep in R. rewrite <- (r_kind _ _ _ _ R) by assumption. eauto. }
      assert (Hidx1 : idx_has_all d1 (- e)).
      { intros y Hy ids Hids. rewrite Ev1 in Hy. unfold idx_has in *. rewrite Ei1 in Hids.
        apply (Hidx (- e, f, t) (or_introl eq_refl) y Hy ids Hids). }
      set (d2 := remove_all_values d1 (- e)).
      assert (Hp2 : pstep rv d1 d2) by (apply ps_remove_all_values, Hidx1).
      assert (Hg2 : gr d2 = gr d1) by apply gr_remove_all_values.
      destruct (pstep_ok rv Hrv Hsteal d1 d2 Hok1 Hp2) as (Hok2 & _).
      { rewrite Hg2. apply db_ok_cap, Hok1. }
      assert (KA : ak (a_remove_edge a e) = upd (ak a) e KFree) by (unfold a_remove_edge; rewrite Ke; reflexivity).
      assert (Hne : n <> e) by (intros ->; congruence).
      destruct (IH d2 (a_remove_edge a e)) as (acc' & a' & Ef & Hps & Hok' & R' & Hc' & Ea' & Kn' & Ho' & Hi'); auto.
      + rewrite Hg2. exact R1.
      + rewrite KA, upd_other by assumption. assumption.
      + apply Forall_forall. intros y Hy. rewrite Forall_forall in Hall'. destruct (Hall' y Hy) as (e' & Ee' & He' & Ke').
        exists e'. split; [assumption|]. split; [assumption|]. rewrite KA, upd_other; [assumption|].
        intros ->. apply Hnx. apply in_map_iff. exists y. split; [exact Ee' | exact Hy].
      + intros y Hy. apply idx_has_all_after_remove_all.
        * rewrite Forall_forall in Hall'. destruct (Hall' y Hy) as (e' & Ee' & He' & _). rewrite Ee'.
          destruct (same_slot_spec (- e) (- e')); [|reflexivity]. exfalso. apply Hnx.
          apply in_map_iff. exists y. split; [|exact Hy]. rewrite Ee'. unfold ne_id. cbn [fst]. lia.
        * intros z Hz ids Hids. rewrite Ev1 in Hz. unfold idx_has in *. rewrite Ei1 in Hids.
          apply (Hidx y (or_intror Hy) z Hz ids Hids).
      + exists acc', a'. split; [exact Ef|]. split.
        { eapply psteps_trans; [|exact Hps]. eapply pss_snoc; [apply psteps_one, Hp1 | exact Hp2]. }
        split; [exact Hok'|]. split; [exact R'|].
        split; [rewrite Hc', Hg2; exact Hc1|].
        split; [rewrite Ea'; unfold d2; rewrite (proj2 (remove_all_values_ga d1 (- e))); exact Ea1|].
        split; [exact Kn'|].
        (* lists of n only lose the removed edge *)
        unfold rep in R.
        assert (Hout : forall e0, In e0 (aout (a_remove_edge a e) n) -> In e0 (aout a n) /\ e0 <> e).
        { intros e0. unfold a_remove_edge. rewrite Ke. cbn [a_release a_set_in a_set_out aout]. unfold upd.
          destruct (Z.eqb_spec n f) as [->|Hnf].
          - rewrite lrem_in. tauto.
          - intros Hin. split; [assumption|]. intros ->.
            destruct (rep_out_edge _ _ _ _ R n e Hn Kn Hin) as (t' & Ht'). congruence. }
        assert (Hinn : forall e0, In e0 (ain (a_remove_edge a e) n) -> In e0 (ain a n) /\ e0 <> e).
        { intros e0. unfold a_remove_edge. rewrite Ke. cbn [a_release a_set_in a_set_out ain aout]. unfold upd.
          destruct (Z.eqb_spec n t) as [->|Hnt].
          - rewrite lrem_in. tauto.
          - intros Hin. split; [assumption|]. intros ->.
            destruct (rep_in_edge _ _ _ _ R n e Hn Kn Hin) as (f' & Hf'). congruence. }
        split; intros e0 He0.
        * destruct (Ho' e0 He0) as (H1 & H2). destruct (Hout e0 H1) as (H3 & H4). split; [assumption|].
          cbn [map In]. unfold ne_id at 1. cbn [fst]. intros [Hc|Hc]; [lia | contradiction].
        * destruct (Hi' e0 He0) as (H1 & H2). destruct (Hinn e0 H1) as (H3 & H4). split; [assumption|].
          cbn [map In]. unfold ne_id at 1. cbn [fst]. intros [Hc|Hc]; [lia | contradiction].
  Qed.

  (* C13_step_inverse for remove_node_db: it decomposes into primitives *)
  Theorem remove_node_db_psteps d n alias :
    db_ok d -> 0 < n -> is_node (gr d) n = true ->
    match alias with Some a => imap_value (aliases d) a = Some n | None => True end ->
    (forall x, In x (node_edges d n) -> idx_has_all d (ne_id x)) ->
    exists d1, remove_node_db d n alias = (d1, None) /\ psteps rv d d1 /\ capacity (gr d1) = capacity (gr d).
  Proof.
    intros Hok Hn Hnode Halias Hidx. rewrite DbCascadeProofs.remove_node_db_step_eq. cbv zeta.
    set (d0 := match alias with
               | Some a => with_aliases (push_undo d (CInsertAlias n a)) (imap_remove_key (imap_remove_key (aliases d) a) a)
               | None => d end).
    assert (H0 : db_ok d0 /\ psteps rv d d0 /\ gr d0 = gr d /\ vals d0 = vals d /\ indexes d0 = indexes d).
    { unfold d0. destruct alias as [al|].
      - destruct (step_remove_existing_alias rv Hrv d n al Hok Halias) as (H1 & _).
        split; [exact H1|]. split; [|auto].
        assert (E : with_aliases (push_undo d (CInsertAlias n al)) (imap_remove_key (imap_remove_key (aliases d) al) al)
                    = snd (remove_alias d al)) by (unfold remove_alias; rewrite Halias; reflexivity).
        rewrite E. apply psteps_one, ps_remove_alias.
      - split; [exact Hok|]. split; [apply pss_nil | auto]. }
    destruct H0 as (Hok0 & Hps0 & Eg0 & Ev0 & Ei0).
    rewrite Eg0, Hnode. cbn [negb].
    destruct (db_ok_rep d0 Hok0) as (a & R).
    assert (Kn : ak a n = KNode).
    { unfold rep in R. rewrite (r_kind _ _ _ _ R) by assumption. apply is_node_kind; [assumption|]. rewrite Eg0. exact Hnode. }
    destruct (node_edges_spec d0 a n R Hn Kn) as (Hall & Hnd & Hcov).
    assert (Ene : node_edges d0 n = node_edges d n) by (unfold node_edges; rewrite Eg0; reflexivity).
    destruct (rn_fold n (node_edges d0 n) d0 a Hok0 R Hn Kn Hall Hnd) as (d2 & a2 & Ef & Hps & Hok2 & R2 & Hc2 & _ & Kn2 & Ho2 & Hi2).
    { intros x Hx y Hy ids Hids. rewrite Ene in Hx. rewrite Ev0 in Hy. unfold idx_has in *. rewrite Ei0 in Hids.
      apply (Hidx x Hx y Hy ids Hids). }
    rewrite Ef.
    assert (Ho : aout a2 n = []).
    { destruct (aout a2 n) as [|e r] eqn:E; [reflexivity|]. exfalso.
      destruct (Ho2 e) as (H1 & H2); [try rewrite E; left; reflexivity|]. apply H2, Hcov. left. exact H1. }
    assert (Hi : ain a2 n = []).
    { destruct (ain a2 n) as [|e r] eqn:E; [reflexivity|]. exfalso.
      destruct (Hi2 e) as (H1 & H2); [try rewrite E; left; reflexivity|]. apply H2, Hcov. right. exact H1. }
    destruct (step_remove_isolated_node rv Hrv d2 a2 n Hok2 R2 Hn Kn2 Ho Hi) as (g' & Erm & _ & _ & Hc3).
    rewrite Erm. eexists. split; [reflexivity|]. split.
    - eapply psteps_trans; [exact Hps0|]. eapply pss_snoc; [exact Hps|].
      unfold rep in R2. apply (ps_remove_isolated_node rv d2 n g'); try assumption.
      + apply is_node_kind; [assumption|]. rewrite <- (r_kind _ _ _ _ R2) by assumption. exact Kn2.
      + rewrite (rep_out_edges _ _ R2 n Hn Kn2), Ho. reflexivity.
      + rewrite (rep_in_edges _ _ R2 n Hn Kn2), Hi. reflexivity.
    - cbv zeta in Hc3. rewrite Hc3, Hc2, Eg0. reflexivity.
  Qed.
End RemoveNode.
