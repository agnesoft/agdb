(* C24 — The server enforces authentication and per-database permissions.
   The statements; the lemmas they follow from are in theories/AuthProofs*.v (here only short proofs
   from them, inductions over the sequence from the one-request lemma, and the evaluation of the finite
   tables and examples).  The model (theories/Auth.v):
   `authorize s now tok req` = the guards of routes/**, user_id.rs, server_db.rs in code order,
   `apply` = the action, `step` = authorize then apply, `run` = a request sequence.
   The predicates of the statements (db_view, weak, all_weak, nongrant, all_nongrant, tok_wf, tok_inv, killed,
   permitted, matrix_cell) are defined, each with what it means, in theories/AuthProofs*.v. *)
From Agdb Require Import Bytes Auth AuthProofs AuthProofsTokens AuthProofsPerm AuthProofsRoles
  AuthProofsBatch AuthProofsMatrix AuthProofsExamples.
Open Scope N_scope.

(* Any request the server answers with an error (a denial by `authorize` — 401/403/404/46x — or a
   failing action) leaves the whole server state, hence every database's content, audit log and
   role table, exactly as it was. *)
Theorem C24_no_effect_without_permission :
  forall (s : state) (now : N) (tok : option N) (req : request),
    resp_ok (fst (step s now tok req)) = false -> snd (step s now tok req) = s.
Proof. exact step_err_unchanged. Qed.
Print Assumptions C24_no_effect_without_permission.

(* Without a valid, unexpired, not-logged-out token everything except login is answered 401. *)
Theorem C24_unauthenticated_rejected :
  forall (s : state) (now : N) (tok : option N) (req : request),
    user_of_token s now tok = None -> is_login req = false -> step s now tok req = (RespErr 401, s).
Proof. exact unauthenticated_step. Qed.
Print Assumptions C24_unauthenticated_rejected.

(* For EVERY request sequence all of whose callers lack write permission on (o, d), the content and
   the audit log of (o, d) — and whether it exists — are the same before and after. *)
Theorem C24_read_role_never_mutates :
  forall (tr : list event) (s : state) (o d : N),
    all_weak s tr o d -> db_view (run s tr) o d = db_view s o d.
Proof.
  induction tr as [|[[now tok] req] tr IH]; intros s o d H; [reflexivity|]. destruct H as [H1 H2].
  cbn [run]. rewrite (IH _ _ _ H2). apply weak_step_view, H1.
Qed.
Print Assumptions C24_read_role_never_mutates.

(* token-table invariant of reachable states *)
Theorem C24_token_invariant :
  (forall admin ttl users, tok_wf (init_state admin ttl users)) /\
  (forall tr s, tok_wf s -> tok_wf (run s tr)).
Proof. exact (conj tok_wf_init (run_inv tok_wf tok_wf_step)). Qed.
Print Assumptions C24_token_invariant.

(* every successful logout (current / all / others / by session id), admin logout, admin logout-all
   and user deletion removes every session the documentation says it revokes ... *)
Theorem C24_revocation_takes_effect :
  forall (s : state) (now : N) (tok : option N) (req : request) (r : tokrec),
    tok_wf s -> resp_ok (fst (step s now tok req)) = true ->
    In r (s_tokens s) -> killed s now tok req r = true ->
    tok_inv (fun _ => False) (snd (step s now tok req)) (t_id r).
Proof.
  intros s now tok req r [N B] OK I K.
  destruct (step_tokens s now tok req) as [(Nx & T)|(L & _)].
  - split; [|rewrite Nx; apply B, I].
    intros x Ix Ex. rewrite T in Ix. apply filter_In in Ix. destruct Ix as [Ix Px].
    rewrite (NoDup_map_inj t_id _ x r N Ix I Ex), OK, K in Px. discriminate Px.
  - (* a login kills nothing *)
    destruct req; discriminate L || discriminate K.
Qed.
Print Assumptions C24_revocation_takes_effect.

(* ... and a removed session is rejected by every later request of every sequence *)
Theorem C24_revoked_forever :
  forall (s : state) (t : N) (tr : list event) (now : N) (req : request),
    tok_inv (fun _ => False) s t -> is_login req = false ->
    step (run s tr) now (Some t) req = (RespErr 401, run s tr).
Proof. intros s t tr now req H. apply (rejected_forever _ _ _ _ _ _ H). intros r []. Qed.
Print Assumptions C24_revoked_forever.

(* expiry: a live token is bounded by its expiry time, and after that time it is rejected, whatever
   happened in between (tokens are never extended) *)
Theorem C24_expiry :
  (forall s t r, tok_wf s -> find_token s t = Some r -> tok_inv (fun x => t_exp x <= t_exp r) s t) /\
  (forall s t e tr now req,
      tok_inv (fun r => t_exp r <= e) s t -> e < now -> is_login req = false ->
      step (run s tr) now (Some t) req = (RespErr 401, run s tr)).
Proof.
  split.
  - intros s t r [N B] F. apply find_some in F. destruct F as [I E]. apply N.eqb_eq in E. split.
    + intros x Ix Ex. rewrite (NoDup_map_inj t_id _ x r N Ix I); [lia|congruence].
    + rewrite <- E. apply B, I.
  - intros s t e tr now req H E.
    apply (rejected_forever _ _ _ _ _ _ H). intros r Hr. cbn in Hr. lia.
Qed.
Print Assumptions C24_expiry.

(* role removal: after a successful `db user remove` the user holds no role; a user without role
   (not the owner name) is refused every operation on that database; and this stays so over every
   sequence of requests by callers who are not entitled to grant roles on it *)
Theorem C24_role_removal :
  (forall s now tok o d t,
      resp_ok (fst (step s now tok (ReqDb o d (OUserRemove t)))) = true ->
      role_of (snd (step s now tok (ReqDb o d (OUserRemove t)))) t o d = None) /\
  (forall tr s v o d op,
      role_of s v o d = None -> v <> o -> all_nongrant s tr o d ->
      role_of (run s tr) v o d = None /\ authorize_db (run s tr) v o d op <> Allow).
Proof.
  split.
  - intros s now tok o d t OK. unfold step in *.
    destruct (authorize s now tok (ReqDb o d (OUserRemove t))); [|discriminate OK].
    cbn [apply] in *. unfold apply_db in *.
    destruct (find_db (s_dbs s) o d) as [r|] eqn:F; [|discriminate OK].
    unfold role_of. cbn [snd with_dbs s_dbs]. erewrite find_db_update_same by first [exact F|reflexivity].
    cbn [set_roles d_roles]. rewrite lookup_drop, N.eqb_refl. reflexivity.
  - intros tr s v o d op H1 H2 H3.
    pose proof (removed_role_stays tr s v o d H1 H3) as R. split; [exact R|apply no_role_denied; assumption].
Qed.
Print Assumptions C24_role_removal.

(* soundness on ALL states: whenever the guards of a /db/{owner}/{db}/... endpoint let a caller
   through, the caller holds the permission the documentation's table requires (owner = the owner
   name; admin / write / read = a role of at least that level on the database) — with the single
   exception of a user removing themselves *)
Theorem C24_guards_imply_documented_permission :
  forall (s : state) (u o d : N) (op : dbop),
    authorize_db s u o d op = Allow -> permitted s u o d op \/ self_remove u op.
Proof. exact authorize_db_sound. Qed.
Print Assumptions C24_guards_imply_documented_permission.

(* admin endpoints: only a live token of the configured server admin *)
Theorem C24_admin_endpoints_admin_only :
  forall (s : state) (now : N) (tok : option N) (req : request),
    match req with
    | ReqAdminDbList | ReqAdminDb _ _ _ | ReqAdminUserAdd _ _ | ReqAdminUserChangePassword _ _
    | ReqAdminUserDelete _ | ReqAdminUserLogout _ _ | ReqAdminUserLogoutAll | ReqAdminUserList | ReqAdminStatus => True
    | _ => False
    end ->
    authorize s now tok req = Allow -> user_of_token s now tok = Some (s_admin s).
Proof. exact admin_only. Qed.
Print Assumptions C24_admin_endpoints_admin_only.

(* the finite table endpoint x {owner, db admin, write, read, no role}: `authorize` allows — and the
   operation then succeeds — exactly where the documentation's table says (scenario: mx_state, one
   representative request per endpoint with generic arguments) *)
Theorem C24_documented_matrix :
  (forall t h, matrix_cell t h = doc_allows (doc_perm t) h) /\
  (forall t h, resp_ok (fst (step mx_state 0 (Some (caller_of h)) (ReqDb 1 (fst (rep t)) (snd (rep t)))))
               = doc_allows (doc_perm t) h) /\
  (forall h, holds_of mx_state (caller_of h) 1 10 = h).
Proof.
  split; [|split]; intros; try destruct t; destruct h; vm_compute; reflexivity.
Qed.
Print Assumptions C24_documented_matrix.

(* admin endpoints on the scenario: allowed to the server admin, refused to the owner, db admin,
   writer, reader, role-less user, a missing token and an expired admin token *)
Theorem C24_admin_matrix :
  forallb (fun req =>
             is_allow (authorize mx_state 0 (Some 0) req)
             && forallb (fun h => negb (is_allow (authorize mx_state 0 (Some (caller_of h)) req)))
                        [HOwner; HAdmin; HWrite; HRead; HNone]
             && negb (is_allow (authorize mx_state 0 None req))
             && negb (is_allow (authorize mx_state 2000 (Some 0) req)))
          admin_reqs = true.
Proof. vm_compute. reflexivity. Qed.
Print Assumptions C24_admin_matrix.

(* REFUTED cell (code and documentation differ; confirmed on the real server, recorded as finding
   `user_remove_self_without_admin`): the documentation requires db admin for user/remove, the
   handler lets a read-role user remove THEMSELVES, which changes the role table. *)
Theorem C24_matrix_self_remove_refuted :
  exists s now tok o d u,
    user_of_token s now tok = Some u /\ holds_of s u o d = HRead /\
    doc_allows (doc_perm (tag_of (OUserRemove u))) (holds_of s u o d) = false /\
    authorize s now tok (ReqDb o d (OUserRemove u)) = Allow /\
    role_of s u o d = Some RoRead /\
    role_of (snd (step s now tok (ReqDb o d (OUserRemove u)))) u o d = None.
Proof. exists mx_state, 0, (Some 4), 1, 10, 4. vm_compute. repeat split; reflexivity. Qed.
Print Assumptions C24_matrix_self_remove_refuted.

(* the read/write classification of the 18 query kinds used by the exec / exec_mut guards
   (utilities.rs required_role) is the complement of what the read-only transaction accepts
   (user_db.rs t_exec) and equals the audited list (t_exec_mut) *)
Theorem C24_query_classification :
  forall k : qkind, kind_is_write k = negb (kind_read_allowed k) /\ kind_audited k = kind_is_write k.
Proof. exact kind_tables_agree. Qed.
Print Assumptions C24_query_classification.

(* a reader, a role-less user and a missing token issue requests (reads, a copy and a self-removal
   succeed, the rest is refused): every caller is `weak`, the database is unchanged, the copy exists *)
Example C24_nonvacuous_weak_sequence :
  all_weak mx_state weak_trace 1 10 /\
  db_view (run mx_state weak_trace) 1 10 = Some (mkContent [Some 7] false, []) /\
  role_of (run mx_state weak_trace) 4 4 12 = Some RoAdmin.
Proof. vm_compute. intuition congruence. Qed.
Print Assumptions C24_nonvacuous_weak_sequence.

(* login, use until the expiry second, rejection after it, logout, rejection, fresh login *)
Example C24_nonvacuous_revocation :
  let s0 := init_state 0 60 [(0, 1); (1, 101)] in
  let s1 := snd (step s0 5 None (ReqLogin 1 101)) in
  let s2 := snd (step s1 7 (Some 0) (ReqLogout LoCurrent)) in
  tok_wf s1 /\
  fst (step s1 6 (Some 0) ReqStatus) = RespOk 200 (BStatus 1 false 1) /\
  fst (step s1 65 (Some 0) ReqStatus) = RespOk 200 (BStatus 1 false 1) /\
  fst (step s1 66 (Some 0) ReqStatus) = RespErr 401 /\
  fst (step s1 7 (Some 0) (ReqLogout LoCurrent)) = RespOk 201 BNone /\
  fst (step s2 8 (Some 0) ReqStatus) = RespErr 401 /\
  fst (step s2 8 None (ReqLogin 1 101)) = RespOk 200 (BToken 1).
Proof.
  cbv zeta. split; [apply tok_wf_step; apply tok_wf_init|]. vm_compute. repeat split; reflexivity.
Qed.
Print Assumptions C24_nonvacuous_revocation.
