(* StoredDbOpsAlias4.v — MultiMapImpl::rehash_values (multi_map.rs) as a PROGRAM over the DbMapData interface, and its
   proof against OpenMap.v's rehash_loop.

     so_rehash_loop   while i != current_capacity { state(i); Empty: i += 1; Deleted: if i < new_capacity { set_state(i,
                      Empty) } i += 1; Valid: if i < new_capacity && occupancy[i] { i += 1 } else { key(i); probe the
                      occupancy bits from hash % new_capacity for the first clear one (rehash_probe: in memory), set it,
                      swap(i, pos), if i == pos { i += 1 } } } — on fuel (out of fuel = CDead; the occupancy BitSet is in
                      memory: a list of booleans)
     so_rehash_values fuel = current + new + 1 (OpenMap.rehash_fuel), all bits clear, i = 0

   so_rehash_loop_spec: on a represented table (msep) whose slot list is sl, if OpenMap.v's rehash_loop returns Done sl'
   then the program ends in a represented table (same handle) whose slot list is sl'; depth kept; frame. *)
From Coq Require Import List NArith ZArith Arith Bool Lia Permutation.
Import ListNotations.
From Agdb Require Import StorageSpec Collections CollWp CollBytes CollVecBase CollVec CollMap CollMapHist
  OpenMap OpenMapProofs StoredDbOpsAlias.
From Coq Require Import ZifyBool ZifyNat ZifyN.
Open Scope N_scope.

Section RehashProg.
  Variables K V : Type.
  Variable EK : cv_elem K.
  Variable EV : cv_elem V.
  Variable h : K -> N.

  Fixpoint so_rehash_loop (fuel : nat) (d : cm_data) (cur newcap : nat) (occ : list bool) (i : nat) : cprog unit :=
    match fuel with
    | O => CDead
    | S f =>
      if (i =? cur)%nat then CRet tt
      else
        s <~ cm_state d (N.of_nat i) ;;
        match s with
        | StEmpty => so_rehash_loop f d cur newcap occ (i + 1)
        | StDeleted =>
          (if (i <? newcap)%nat then cm_set_state d (N.of_nat i) StEmpty else CRet tt) ;;~
          so_rehash_loop f d cur newcap occ (i + 1)
        | StValid =>
          if (i <? newcap)%nat && nth i occ false then so_rehash_loop f d cur newcap occ (i + 1)
          else
            key <~ cm_key K EK d (N.of_nat i) ;;
            match rehash_probe newcap occ newcap (hpos K h key newcap) with
            | None => CDead
            | Some pos =>
              cm_swap K V EK EV d (N.of_nat i) (N.of_nat pos) ;;~
              so_rehash_loop f d cur newcap (upd pos true occ) (if (i =? pos)%nat then i + 1 else i)
            end
        end
    end.

  Definition so_rehash_values (d : cm_data) (cur newcap : nat) : cprog unit :=
    so_rehash_loop (rehash_fuel cur newcap) d cur newcap (repeat false newcap) 0.
End RehashProg.

Lemma cl_upd_same {T} : forall (l : list T) j x, nth_error l j = Some x -> cl_upd l j x = l.
Proof.
  induction l as [|y l IH]; intros [|j] x H; cbn [nth_error cl_upd] in *; try discriminate.
  - injection H as ->. reflexivity.
  - f_equal. apply IH. exact H.
Qed.

Section RehashProof.
  Variables K V : Type.
  Variable EK : cv_elem K.
  Variable EV : cv_elem V.
  Variable LK : elem_law EK.
  Variable LV : elem_law EV.
  Variable keqb : K -> K -> bool.
  Variable h : K -> N.
  Variable fl : bool.

  Notation msepT := (msep K V EK EV LK LV).
  Notation mfootT := (mfoot K V EK EV LK LV).
  Notation slotsT := (ct_slots K V).

  Lemma with_s_same d : with_s d (cm_states d) = d.
  Proof. destruct d; reflexivity. Qed.
  Lemma with_k_same d : with_k d (cm_keys d) = d.
  Proof. destruct d; reflexivity. Qed.
  Lemma with_v_same d : with_v d (cm_values d) = d.
  Proof. destruct d; reflexivity. Qed.

  (* swap(i, j) of DbMapData, both in range (i = j: nothing is written), at any transaction depth *)
  Lemma so_cm_swap_spec d ss ks vs ls lk lv i j sa ka va sb kb vb sp (Q : cres unit -> spec -> Prop) :
    msepT (hp sp) d ss ks vs ls lk lv ->
    nth_error ls i = Some sa -> nth_error lk i = Some ka -> nth_error lv i = Some va ->
    nth_error ls j = Some sb -> nth_error lk j = Some kb -> nth_error lv j = Some vb ->
    (forall ss' ks' vs' sp',
        msepT (hp sp') d ss' ks' vs' (cl_upd (cl_upd ls i sb) j sa) (cl_upd (cl_upd lk i kb) j ka) (cl_upd (cl_upd lv i vb) j va) ->
        sdepth sp' = sdepth sp -> frame (hp sp) (hp sp') (mfootT d ss ks vs) (mfootT d ss' ks' vs') -> Q (CrOk tt) sp') ->
    cwp fl (cm_swap K V EK EV d (N.of_nat i) (N.of_nat j)) sp Q.
  Proof.
    intros HS Esi Eki Evi Esj Ekj Evj HQ. unfold cm_swap.
    destruct (Nat.eq_dec i j) as [<-|Nij].
    { apply cwp_bind. eapply cv_swap_spec; [apply HS|]. rewrite N.eqb_refl. cbn [kont].
      apply cwp_bind. eapply cv_swap_spec; [apply HS|]. rewrite N.eqb_refl. cbn [kont].
      eapply cv_swap_spec; [apply HS|]. rewrite N.eqb_refl.
      apply (HQ ss ks vs); [|reflexivity|apply frame_refl; intros x; reflexivity].
      rewrite (cl_upd_same ls i sb Esj), (cl_upd_same lk i kb Ekj), (cl_upd_same lv i vb Evj).
      rewrite (cl_upd_same ls i sa Esi), (cl_upd_same lk i ka Eki), (cl_upd_same lv i va Evi). exact HS. }
    assert (Nn : N.of_nat i <> N.of_nat j) by lia.
    apply cwp_bind. eapply cv_swap_spec; [apply HS|].
    destruct (N.eqb_spec (N.of_nat i) (N.of_nat j)); [contradiction|]. rewrite !Nat2N.id, Esi, Esj.
    intros ss' sp1 R1 D1 Fr1. cbn [kont].
    destruct (msep_update_s K V EK EV LK LV _ _ _ _ _ _ _ _ _ _ _ _ HS eq_refl R1 Fr1) as [HS1 Ff1]. rewrite with_s_same in HS1, Ff1.
    apply cwp_bind. eapply cv_swap_spec; [apply HS1|].
    destruct (N.eqb_spec (N.of_nat i) (N.of_nat j)); [contradiction|]. rewrite !Nat2N.id, Eki, Ekj.
    intros ks' sp2 R2 D2 Fr2. cbn [kont].
    destruct (msep_update_k K V EK EV LK LV _ _ _ _ _ _ _ _ _ _ _ _ HS1 eq_refl R2 Fr2) as [HS2 Ff2]. rewrite with_k_same in HS2, Ff2.
    eapply cv_swap_spec; [apply HS2|].
    destruct (N.eqb_spec (N.of_nat i) (N.of_nat j)); [contradiction|]. rewrite !Nat2N.id, Evi, Evj.
    intros vs' sp3 R3 D3 Fr3.
    destruct (msep_update_v K V EK EV LK LV _ _ _ _ _ _ _ _ _ _ _ _ HS2 eq_refl R3 Fr3) as [HS3 Ff3]. rewrite with_v_same in HS3, Ff3.
    eapply HQ; [exact HS3|lia|eapply frame_trans; [exact Ff1|eapply frame_trans; [exact Ff2|exact Ff3]]].
  Qed.

  Lemma so_rehash_loop_spec d cur newcap : (0 < newcap)%nat ->
    forall fuel ss ks vs ls lk lv occ i sl' sp (Q : cres unit -> spec -> Prop),
      msepT (hp sp) d ss ks vs ls lk lv -> length lk = length ls -> length lv = length ls ->
      (cur <= length ls)%nat -> (newcap <= length ls)%nat -> (i <= cur)%nat ->
      rehash_loop K V h fuel cur newcap (slotsT ls lk lv) occ i = Done sl' ->
      (forall ss' ks' vs' ls' lk' lv' sp',
          msepT (hp sp') d ss' ks' vs' ls' lk' lv' -> length lk' = length ls' -> length lv' = length ls' -> length ls' = length ls ->
          slotsT ls' lk' lv' = sl' -> sdepth sp' = sdepth sp ->
          frame (hp sp) (hp sp') (mfootT d ss ks vs) (mfootT d ss' ks' vs') -> Q (CrOk tt) sp') ->
      cwp fl (so_rehash_loop K V EK EV h fuel d cur newcap occ i) sp Q.
  Proof.
    intros Hn. induction fuel as [|f IH]; intros ss ks vs ls lk lv occ i sl' sp Q HS L1 L2 Hcur Hnew Hi Hr HQ;
      cbn [rehash_loop] in Hr; [discriminate|]. cbn [so_rehash_loop].
    destruct (Nat.eqb_spec i cur) as [E|E].
    { injection Hr as <-. cbn [cwp]. eapply HQ; eauto. apply frame_refl. intros j; reflexivity. }
    destruct (ct_slots_nth K V ls lk lv i L1 L2) as (s & k & v & Es & Ek & Ev & En); [lia|].
    rewrite En in Hr.
    apply cwp_bind. unfold cm_state. eapply cv_value_spec; [apply HS|].
    rewrite Nat2N.id, Es. cbn [kont]. destruct s; cbn [slot_of] in Hr, En.
    - eapply IH; eauto. lia.
    - destruct ((i <? newcap)%nat && nth i occ false) eqn:Eocc.
      + eapply IH; eauto. lia.
      + apply cwp_bind. unfold cm_key. eapply cv_value_spec; [apply HS|].
        rewrite Nat2N.id, Ek. cbn [kont].
        destruct (rehash_probe newcap occ newcap (hpos K h k newcap)) as [pos|] eqn:Hp; [|discriminate].
        pose proof (rehash_probe_lt _ _ _ _ _ Hn (hpos_lt K keqb h k newcap Hn) Hp) as Hpos.
        destruct (BytesProofs.nth_error_lt_Some ls pos) as (sb & Esb); [lia|].
        destruct (BytesProofs.nth_error_lt_Some lk pos) as (kb & Ekb); [lia|].
        destruct (BytesProofs.nth_error_lt_Some lv pos) as (vb & Evb); [lia|].
        apply cwp_bind.
        eapply (so_cm_swap_spec d ss ks vs ls lk lv i pos StValid k v sb kb vb); eauto.
        intros ss' ks' vs' sp1 HS1 D1 F1. cbn [kont].
        assert (Esl : slotsT (cl_upd (cl_upd ls i sb) pos StValid) (cl_upd (cl_upd lk i kb) pos k) (cl_upd (cl_upd lv i vb) pos v)
                      = swap_nth Empty i pos (slotsT ls lk lv)).
        { rewrite ct_slots_upd by (rewrite !cl_upd_length; auto). rewrite ct_slots_upd by auto.
          unfold swap_nth. rewrite En.
          destruct (ct_slots_nth K V ls lk lv pos L1 L2) as (s2 & k2 & v2 & Es2 & Ek2 & Ev2 & En2); [lia|].
          rewrite En2. rewrite Esb in Es2. rewrite Ekb in Ek2. rewrite Evb in Ev2.
          injection Es2 as <-. injection Ek2 as <-. injection Ev2 as <-. reflexivity. }
        rewrite <- Esl in Hr.
        eapply IH; [exact HS1|rewrite !cl_upd_length; auto|rewrite !cl_upd_length; auto|rewrite !cl_upd_length; exact Hcur|
                    rewrite !cl_upd_length; exact Hnew|destruct (i =? pos)%nat; lia|exact Hr|].
        intros ss2 ks2 vs2 ls2 lk2 lv2 sp2 HS2 A B C D2 E2 F2.
        eapply HQ; eauto; [rewrite C, !cl_upd_length; reflexivity|lia|eapply frame_trans; [exact F1|exact F2]].
    - destruct (Nat.ltb_spec i newcap) as [Lt|Ge].
      + apply cwp_bind. unfold cm_set_state. apply cwp_bind.
        eapply cv_replace_spec; [apply HS|exact I|]. rewrite Nat2N.id, Es.
        intros ss' sp1 R1 D1 F1. cbn [kont cwp].
        destruct (msep_update_s K V EK EV LK LV _ _ _ _ _ _ _ _ _ _ _ _ HS eq_refl R1 F1) as [HS1 Ff1]. rewrite with_s_same in HS1, Ff1.
        assert (Esl : slotsT (cl_upd ls i StEmpty) lk lv = upd i Empty (slotsT ls lk lv)).
        { rewrite <- (cl_upd_same lk i k Ek) at 1. rewrite <- (cl_upd_same lv i v Ev) at 1. rewrite ct_slots_upd by auto. reflexivity. }
        rewrite <- Esl in Hr.
        eapply IH; [exact HS1|rewrite cl_upd_length; auto|rewrite cl_upd_length; auto|rewrite cl_upd_length; exact Hcur|
                    rewrite cl_upd_length; exact Hnew|lia|exact Hr|].
        intros ss2 ks2 vs2 ls2 lk2 lv2 sp2 HS2 A B C D2 E2 F2.
        eapply HQ; eauto; [rewrite C, cl_upd_length; reflexivity|lia|eapply frame_trans; [exact Ff1|exact F2]].
      + cbn [cbind cwp]. eapply IH; eauto. lia.
  Qed.
End RehashProof.
