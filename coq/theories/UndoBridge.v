(* UndoBridge.v — C13: from the simulation relation (abstract views) to the observational
   equivalence of UndoObs.v stated on the model's own read functions (slot kinds, out_edges,
   in_edges, node_count, degree counters, the next slots handed out). *)
From Agdb Require Import Bytes BytesProofs DbValue Graph GraphArr DbModel Revisions UndoBase UndoObs UndoAlias UndoKv
  UndoGraphBase UndoGraph UndoGraphEdge UndoGraphOps UndoAbs UndoDb UndoStepsGraph.
From Coq Require Import Permutation ZifyBool ZifyNat ZifyN.
Ltac Zify.zify_post_hook ::= Z.div_mod_to_equations.
Open Scope Z_scope.

Lemma slot_kind_zero g : slot_kind g 0 = KFree.
Proof. reflexivity. Qed.

Section Bridge.
  Variables (g : graph) (a : ag).
  Hypothesis R : rep g a.

  Lemma rep_slot_kind i : slot_kind g i = if 0 <? Z.abs i then ak a (Z.abs i) else KFree.
  Proof.
    rewrite <- slot_kind_abs. destruct (Z.ltb_spec 0 (Z.abs i)).
    - symmetry. apply (r_kind _ _ _ _ R). assumption.
    - replace (Z.abs i) with 0 by lia. reflexivity.
  Qed.

  Lemma rep_out_edges n : 0 < n -> ak a n = KNode -> out_edges g n = map Z.opp (aout a n).
  Proof.
    intros Hn Hk. destruct (r_out _ _ _ _ R n Hn Hk) as (Hc & _).
    unfold out_edges, first_edge_from.
    apply (edge_list_chain (fun e => fmeta g e) (aout a n) (from g n) (length (g_from g)) Hc).
    - apply (rep_out_length _ _ _ _ R); assumption.
    - intros x. apply fmeta_opp.
  Qed.

  Lemma rep_in_edges n : 0 < n -> ak a n = KNode -> in_edges g n = map Z.opp (ain a n).
  Proof.
    intros Hn Hk. destruct (r_in _ _ _ _ R n Hn Hk) as (Hc & _).
    unfold in_edges, first_edge_to.
    apply (edge_list_chain (fun e => tmeta g e) (ain a n) (to g n) (length (g_from g)) Hc).
    - apply (rep_in_length _ _ _ _ R); assumption.
    - intros x. apply tmeta_opp.
  Qed.

  Lemma rep_node_of_kind n : slot_kind g n = KNode -> 0 < Z.abs n /\ ak a (Z.abs n) = KNode.
  Proof.
    rewrite rep_slot_kind. destruct (Z.ltb_spec 0 (Z.abs n)); [auto | discriminate].
  Qed.
End Bridge.

Lemma map_opp_nil l : map Z.opp l = [] -> l = [].
Proof. destruct l; [reflexivity | discriminate]. Qed.

Lemma gsim_graph_obs_eq g g' : gsim g g' -> graph_obs_eq g g'.
Proof.
  intros (a & a' & R & R' & E). constructor.
  - intros i. rewrite (rep_slot_kind g a R), (rep_slot_kind g' a' R').
    destruct (Z.ltb_spec 0 (Z.abs i)); [apply (ae_kind _ _ E); assumption | reflexivity].
  - unfold rep in R, R'. rewrite <- (r_count _ _ _ _ R), <- (r_count _ _ _ _ R'). apply (ae_count _ _ E).
  - intros n Hk. destruct (rep_node_of_kind g a R n Hk) as (Hn & Kn).
    assert (Kn' : ak a' (Z.abs n) = KNode) by (rewrite <- (ae_kind _ _ E); assumption).
    rewrite <- (out_edges_abs g), <- (out_edges_abs g').
    rewrite (rep_out_edges g a R), (rep_out_edges g' a' R') by assumption.
    apply Permutation_map, (ae_out _ _ E); assumption.
  - intros n Hk. destruct (rep_node_of_kind g a R n Hk) as (Hn & Kn).
    assert (Kn' : ak a' (Z.abs n) = KNode) by (rewrite <- (ae_kind _ _ E); assumption).
    rewrite <- (in_edges_abs g), <- (in_edges_abs g').
    rewrite (rep_in_edges g a R), (rep_in_edges g' a' R') by assumption.
    apply Permutation_map, (ae_in _ _ E); assumption.
Qed.

Lemma sim_obs_eq d d' : sim d d' -> obs_eq d d'.
Proof.
  intros [G (_ & _ & (A1 & A2)) (_ & _ & V) (_ & _ & I)]. constructor; auto using gsim_graph_obs_eq.
Qed.

Lemma gsim_degrees g g' n :
  gsim g g' -> slot_kind g n = KNode ->
  edge_count_from g n = edge_count_from g' n /\ edge_count_to g n = edge_count_to g' n.
Proof.
  intros (a & a' & R & R' & E) Hk. destruct (rep_node_of_kind g a R n Hk) as (Hn & Kn).
  assert (Kn' : ak a' (Z.abs n) = KNode) by (rewrite <- (ae_kind _ _ E); assumption).
  unfold edge_count_from, edge_count_to.
  assert (Ef : forall h, fmeta h n = fmeta h (Z.abs n)) by (intros; unfold fmeta; symmetry; apply get_abs).
  assert (Et : forall h, tmeta h n = tmeta h (Z.abs n)) by (intros; unfold tmeta; symmetry; apply get_abs).
  rewrite !Ef, !Et. unfold rep in R, R'.
  destruct (r_out _ _ _ _ R _ Hn Kn) as (_ & _ & ->). destruct (r_out _ _ _ _ R' _ Hn Kn') as (_ & _ & ->).
  destruct (r_in _ _ _ _ R _ Hn Kn) as (_ & _ & ->). destruct (r_in _ _ _ _ R' _ Hn Kn') as (_ & _ & ->).
  rewrite (Permutation_length (ae_out _ _ E _ Hn Kn)), (Permutation_length (ae_in _ _ E _ Hn Kn)). auto.
Qed.

(* the next slots handed out coincide (as long as the capacity stays within i64) *)
Lemma gsim_next_slots n : forall g g' a a',
  rep g a -> rep g' a' -> aeqv a a' ->
  capacity g + Z.of_nat n <= two63z -> capacity g' + Z.of_nat n <= two63z ->
  next_slots n g = next_slots n g'.
Proof.
  induction n as [|n IH]; intros g g' a a' R R' E Hb Hb'; cbn [next_slots]; [reflexivity|].
  destruct (get_free_index g) as [i g1] eqn:Eg, (get_free_index g') as [i' g1'] eqn:Eg'.
  assert (Hc : capacity g1 <= capacity g + 1).
  { change g1 with (snd (i, g1)). rewrite <- Eg, cap_get_free_index. destruct (fmeta g 0 =? i64_min); lia. }
  assert (Hc' : capacity g1' <= capacity g' + 1).
  { change g1' with (snd (i', g1')). rewrite <- Eg', cap_get_free_index. destruct (fmeta g' 0 =? i64_min); lia. }
  destruct (rep_alloc _ _ _ _ _ _ R Eg) as (Ei & R1); [lia|].
  destruct (rep_alloc _ _ _ _ _ _ R' Eg') as (Ei' & R1'); [lia|].
  destruct (aeqv_alloc _ _ E) as (Efst & E1). f_equal; [congruence|].
  apply (IH _ _ _ _ R1 R1' E1); lia.
Qed.

Lemma out_edges_nil_aout g a n : rep g a -> 0 < n -> ak a n = KNode -> out_edges g n = [] -> aout a n = [].
Proof. intros R Hn Hk H. rewrite (rep_out_edges g a R n Hn Hk) in H. apply map_opp_nil, H. Qed.
Lemma in_edges_nil_ain g a n : rep g a -> 0 < n -> ak a n = KNode -> in_edges g n = [] -> ain a n = [].
Proof. intros R Hn Hk H. rewrite (rep_in_edges g a R n Hn Hk) in H. apply map_opp_nil, H. Qed.
