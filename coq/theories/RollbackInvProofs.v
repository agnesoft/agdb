(* RollbackInvProofs.v — what every rollback preserves outright (no simulation needed):
   the graph invariant `wf` (C08) and the structural bijection of the alias map (C10).
   The undo commands reach the graph only through insert_node / insert_edge / remove_edge /
   remove_node, and these keep wf when the ids carry the sign of their kind (`cmd_ok`); every
   primitive of C13 (`pstep`) pushes only such commands (`uok` = the whole undo stack is sign-correct). *)
From Agdb Require Import Bytes BytesProofs DbValue Graph DbModel Search Queries Revisions
  GraphSim GraphWf GraphLive DbFrameProofs AliasProofs ImapProofs.
From Agdb Require Import UndoBase UndoObs UndoAlias UndoKv UndoGraphBase UndoGraph UndoAbs UndoDb
  UndoStepsKv UndoStepsKv2 UndoMain UndoRemoveNode.
From Coq Require Import Permutation ZifyBool ZifyNat ZifyN.
Ltac Zify.zify_post_hook ::= Z.div_mod_to_equations.
Open Scope Z_scope.

Definition cmd_ok (c : command) : Prop :=
  match c with
  | CInsertEdge f t => 0 <= f /\ 0 <= t
  | CRemoveEdge i => i <= 0
  | CRemoveNode i => 0 <= i
  | _ => True
  end.

Definition uok (d : db) : Prop := Forall cmd_ok (undo d).

Lemma undo_one_wf d c d' : undo_one d c = ROk d' -> cmd_ok c -> wf (gr d) -> wf (gr d').
Proof.
  destruct c; cbn [undo_one cmd_ok]; intros H Hc Hwf; try (injection H as <-; exact Hwf).
  - destruct (insert_edge (gr d) f t) as [[i g]|] eqn:E; [|discriminate]. injection H as <-. cbn [gr with_gr].
    destruct Hc as [Hf Ht]. exact (wf_insert_edge (gr d) f t i g Hwf Hf Ht E).
  - pose proof (wf_insert_node (gr d) Hwf) as W. destruct (insert_node (gr d)) as [i g]. injection H as <-. exact W.
  - destruct (wf_remove_edge (gr d) index Hwf Hc) as (g & E & W). rewrite E in H. injection H as <-. exact W.
  - destruct (wf_remove_node (gr d) index Hwf Hc) as (g & E & W). rewrite E in H. injection H as <-. exact W.
  - destruct (kvs_insert_or_replace (vals d) id x) as [[old|] s]; [|discriminate]. injection H as <-. exact Hwf.
Qed.

Lemma undo_one_bij d c d' : undo_one d c = ROk d' -> alias_bij d -> alias_bij d'.
Proof.
  unfold alias_bij. destruct c; cbn [undo_one]; intros H Hb; try (injection H as <-; exact Hb).
  - injection H as <-. cbn [aliases with_aliases]. now apply bij_imap_insert.
  - destruct (insert_edge (gr d) f t) as [[i g]|]; [|discriminate]. injection H as <-. exact Hb.
  - destruct (insert_node (gr d)) as [i g]. injection H as <-. exact Hb.
  - injection H as <-. cbn [aliases with_aliases]. now apply bij_imap_remove_key.
  - destruct (Graph.remove_edge (gr d) index); [|discriminate]. injection H as <-. exact Hb.
  - destruct (Graph.remove_node (gr d) index); [|discriminate]. injection H as <-. exact Hb.
  - destruct (kvs_insert_or_replace (vals d) id x) as [[old|] s]; [|discriminate]. injection H as <-. exact Hb.
Qed.

Lemma rollback_cmds_wf_bij rv cs : forall d d',
  rollback_cmds rv d cs = ROk d' -> Forall cmd_ok cs -> wf (gr d) -> alias_bij d ->
  wf (gr d') /\ alias_bij d'.
Proof.
  induction cs as [|c r IH]; intros d d' H Hc Hwf Hb; cbn [rollback_cmds] in H.
  - injection H as <-. now split.
  - inversion Hc as [|? ? Hc1 Hc2]; subst.
    destruct (undo_one d c) as [d1|k] eqn:E; [|discriminate].
    pose proof (undo_one_wf d c d1 E Hc1 Hwf) as W1. pose proof (undo_one_bij d c d1 E Hb) as B1.
    assert (Hgo : rollback_cmds rv d1 r = ROk d' -> wf (gr d') /\ alias_bij d') by (intros Hr; now apply (IH d1)).
    destruct c; try (exact (Hgo H)).
    destruct (fix_rollback_replace rv); [exact (Hgo H)|]. injection H as <-. now split.
Qed.

Lemma rollback_wf_bij rv d d' :
  rollback rv d = ROk d' -> uok d -> wf (gr d) -> alias_bij d -> wf (gr d') /\ alias_bij d'.
Proof. unfold rollback. intros H Hu Hwf Hb. exact (rollback_cmds_wf_bij rv (undo d) (clear_undo d) d' H Hu Hwf Hb). Qed.

Lemma uok_push d c : cmd_ok c -> uok d -> uok (push_undo d c).
Proof. intros Hc Hu. unfold uok. cbn [undo push_undo]. now constructor. Qed.

Lemma graph_index_pos_node g i : 0 < i -> graph_index g i = is_node g i.
Proof. intros H. unfold graph_index. destruct (Z.ltb_spec i 0); [lia|]. destruct (Z.ltb_spec 0 i); [reflexivity|lia]. Qed.

Lemma remove_sel_fold_uok id sel l : forall d,
  uok d -> uok (fold_left (remove_sel id sel) l d) /\ gr (fold_left (remove_sel id sel) l d) = gr d.
Proof.
  induction l as [|x r IH]; intros d Hu; cbn [fold_left]; [now split|].
  assert (Hu1 : uok (remove_sel id sel d x) /\ gr (remove_sel id sel d x) = gr d).
  { unfold remove_sel. destruct (sel x); [|now split]. split; [|reflexivity].
    unfold uok, remove_kv. cbn [undo]. constructor; [exact I|exact Hu]. }
  destruct Hu1 as [Hu1 Hg1]. destruct (IH _ Hu1) as [Hu2 Hg2]. split; [exact Hu2|congruence].
Qed.

Section Psteps.
  Variable rv : revision.
  Hypothesis Hsteal : fix_alias_steal_undo rv = true.

  Lemma pstep_uok d d1 : pstep rv d d1 -> wf (gr d) -> uok d -> wf (gr d1) /\ uok d1.
  Proof.
    intros H Hwf Hu. destruct H.
    - unfold insert_node_db in H. pose proof (insert_node_live (gr d) Hwf) as L.
      destruct (insert_node (gr d)) as [i0 g]. injection H as <- <-. destruct L as (W & Hp & _).
      split; [exact W|]. apply uok_push; [cbn [cmd_ok]; lia|exact Hu].
    - unfold insert_edge_db in H1. destruct (insert_edge (gr d) f t) as [[i0 g]|] eqn:E; [|discriminate].
      injection H1 as <- <-.
      assert (Hn : is_node (gr d) f = true /\ is_node (gr d) t = true).
      { unfold insert_edge in E. destruct (is_node (gr d) f && is_node (gr d) t) eqn:En; [|discriminate].
        now apply andb_true_iff in En. }
      destruct (insert_edge_live (gr d) f t i0 g Hwf) as (W & Hneg & _); try assumption.
      { rewrite graph_index_pos_node by assumption. apply Hn. }
      { rewrite graph_index_pos_node by assumption. apply Hn. }
      split; [exact W|]. apply uok_push; [cbn [cmd_ok]; lia|exact Hu].
    - unfold remove_edge_db in H1. destruct (wf_remove_edge (gr d) (- e0) Hwf) as (g & E & W); [lia|].
      rewrite E in H1. injection H1 as <-. split; [exact W|].
      assert (He : is_edge (gr d) (- e0) = true) by (rewrite is_edge_opp; exact H0).
      destruct (wf_edge_ends (gr d) (- e0) Hwf He) as (Hf & _ & Ht & _).
      apply uok_push; [cbn [cmd_ok]; lia|exact Hu].
    - destruct (wf_remove_node (gr d) n Hwf) as (g & E & W); [lia|]. rewrite E in H3. injection H3 as <-.
      split; [exact W|]. apply uok_push; [exact I|exact Hu].
    - split; [exact Hwf|]. unfold insert_new_alias. unfold uok. cbn [undo with_aliases push_undo]. constructor; [exact I|exact Hu].
    - unfold insert_alias. rewrite Hsteal.
      destruct (imap_key (aliases d) id); cbn [aliases with_aliases push_undo];
        match goal with |- context [imap_value ?m a] => destruct (imap_value m a) end;
        (split; [exact Hwf|]); unfold uok; cbn [undo with_aliases push_undo]; repeat (constructor; [exact I|]); exact Hu.
    - unfold remove_alias. destruct (imap_value (aliases d) a); cbn [snd]; (split; [exact Hwf|]); [|exact Hu].
      unfold uok. cbn [undo with_aliases push_undo]. constructor; [exact I|exact Hu].
    - split; [exact Hwf|]. unfold uok, insert_key_value. cbn [undo with_vals push_undo index_insert_if with_indexes].
      constructor; [exact I|exact Hu].
    - unfold insert_or_replace_key_value. destruct (kvs_insert_or_replace (vals d) id x) as [[old|] s];
        (split; [exact Hwf|]); unfold uok; cbn [undo with_vals push_undo index_insert_if index_remove_if with_indexes];
        (constructor; [exact I|exact Hu]).
    - split; [exact Hwf|exact Hu].
    - rewrite remove_keys_fold. destruct (remove_sel_fold_uok id (fun x => mem dbv_eqb (fst x) keys) (kvs_get (vals d) id) d Hu) as [Hu1 Hg1].
      split; [rewrite Hg1; exact Hwf|exact Hu1].
    - rewrite gr_remove_all_values. split; [exact Hwf|].
      unfold remove_all_values, uok. cbn [undo with_vals].
      destruct (remove_all_fold_fields (kvs_get (vals d) id) id d) as (_ & _ & _ & Eu & _). rewrite Eu.
      apply (remove_sel_fold_uok id (fun _ => true) _ d Hu).
    - unfold insert_index in H. destruct (idx_find (indexes d) key); [discriminate|]. injection H as _ <-.
      match goal with |- wf (gr ?X) /\ _ =>
        assert (Hinv : backfill_inv key (with_indexes (push_undo d (CRemoveIndex key))
                                                      (indexes (push_undo d (CRemoveIndex key)) ++ [(key, [])])) X) end.
      { apply backfill_inv_outer. repeat split. }
      destruct Hinv as (Eg & _ & _ & Eu & _). unfold uok. rewrite Eg, Eu. cbn [gr undo with_indexes push_undo].
      split; [exact Hwf|]. constructor; [exact I|exact Hu].
    - unfold remove_index. destruct (idx_find (indexes d) key) as [ids|]; cbn [snd]; [|now split].
      set (X := fold_left (fun acc (p : dbvalue * Z) => push_undo acc (CInsertToIndex key (fst p) (snd p))) ids d).
      assert (Hf : gr X = gr d /\ uok X).
      { apply (fold_left_inv (fun a => gr a = gr d /\ uok a)); [now split|].
        intros acc p _ [Hg Hua]. split; [exact Hg|]. apply uok_push; [exact I|exact Hua]. }
      destruct Hf as [Hg Hu1]. cbn [gr with_indexes push_undo]. rewrite Hg. split; [exact Hwf|].
      unfold uok. cbn [undo with_indexes push_undo]. constructor; [exact I|exact Hu1].
  Qed.

  Lemma psteps_uok d d1 : psteps rv d d1 -> wf (gr d) -> uok d -> wf (gr d1) /\ uok d1.
  Proof.
    intros H Hwf Hu. induction H as [d|d d1 d2 H12 IH H2]; [now split|].
    destruct (IH Hwf Hu) as [W1 U1]. exact (pstep_uok d1 d2 H2 W1 U1).
  Qed.
End Psteps.
