(* PathProofs.v — C17: the path search (Search.v path_loop / path_search) returns the selected
   elements of a minimum-cost usable path (Dijkstra), is empty exactly when there is none,
   and never runs out of fuel. *)
From Agdb Require Import Bytes BytesProofs Graph DbModel Search Revisions GraphArr GraphProofs AdjOk ElementsSearchProofs.
From Coq Require Import ZifyBool ZifyNat ZifyN Permutation Sorted.
Ltac Zify.zify_post_hook ::= Z.div_mod_to_equations.
Open Scope Z_scope.

Definition mod_free (m : modifier) : bool := match m with MBeyond => false | _ => true end.

(* no CDistance and no Beyond modifier at any depth *)
Fixpoint dfree_data (c : cond_data) {struct c} : bool :=
  match c with
  | CDistance _ => false
  | CWhere cs =>
      (fix go (l : list cond) : bool :=
         match l with
         | [] => true
         | Cond _ m dd :: r => mod_free m && dfree_data dd && go r
         end) cs
  | _ => true
  end.

Definition dist_free (conds : list cond) : bool := dfree_data (CWhere conds).

Lemma dfree_where_cons : forall lg m dd r,
  dfree_data (CWhere (Cond lg m dd :: r)) = mod_free m && dfree_data dd && dfree_data (CWhere r).
Proof. reflexivity. Qed.

Lemma eval_data_dfree : forall rv d i k1 k2 c,
  dfree_data c = true -> eval_data rv d i k1 c = eval_data rv d i k2 c.
Proof.
  intros rv d i k1 k2 c.
  induction c as [v| |v|v|v|ids|key op value|keys| |cs IH] using cond_data_ind'; intros Hf;
    try reflexivity; [discriminate Hf|].
  rewrite !eval_data_where. generalize (Continue true) as result.
  induction IH as [|[lg md data] r Hx _ IHr]; intros result; [reflexivity|].
  cbn [cond_payload] in Hx. rewrite dfree_where_cons in Hf.
  apply andb_prop in Hf. destruct Hf as [Hf Hr]. apply andb_prop in Hf. destruct Hf as [Hm Hd].
  cbn [eval_list]. rewrite (Hx Hd).
  destruct md; cbn [mod_free] in Hm; try discriminate Hm; apply IHr; exact Hr.
Qed.

Lemma eval_conditions_dist_free : forall rv d i k1 k2 conds,
  dist_free conds = true -> eval_conditions rv d i k1 conds = eval_conditions rv d i k2 conds.
Proof. intros. unfold eval_conditions. apply eval_data_dfree. assumption. Qed.

(* sort_paths: a permutation, cost-descending; the popped path is a minimum *)

Lemma insert_path_perm : forall x l, Permutation (x :: l) (insert_path x l).
Proof.
  intros x l. induction l as [|y r IH]; cbn [insert_path]; [apply Permutation_refl|].
  destruct (path_before y x).
  - eapply Permutation_trans; [apply perm_swap|]. apply perm_skip. exact IH.
  - apply Permutation_refl.
Qed.

Lemma sort_paths_perm : forall l, Permutation l (sort_paths l).
Proof.
  induction l as [|x r IH]; cbn [sort_paths fold_right]; [apply perm_nil|].
  eapply Permutation_trans; [apply perm_skip; exact IH|]. apply insert_path_perm.
Qed.

Definition cost_ge (a b : path) : Prop := p_cost b <= p_cost a.

Lemma insert_path_sorted : forall x l, StronglySorted cost_ge l -> StronglySorted cost_ge (insert_path x l).
Proof.
  intros x l. induction l as [|y r IH]; intros Hs; cbn [insert_path].
  - constructor; constructor.
  - apply StronglySorted_inv in Hs. destruct Hs as [Hr Hy].
    destruct (path_before y x) eqn:E.
    + constructor; [apply IH; exact Hr|].
      eapply Permutation_Forall; [apply insert_path_perm|].
      constructor; [|exact Hy]. unfold cost_ge, path_before in *. lia.
    + constructor; [constructor; assumption|].
      assert (Hxy : cost_ge x y) by (unfold cost_ge, path_before in *; lia).
      constructor; [exact Hxy|].
      eapply Forall_impl; [|exact Hy]. unfold cost_ge in *. intros a Ha. lia.
Qed.

Lemma sort_paths_sorted : forall l, StronglySorted cost_ge (sort_paths l).
Proof.
  induction l as [|x r IH]; cbn [sort_paths fold_right]; [constructor|].
  apply insert_path_sorted. exact IH.
Qed.

Lemma sorted_last_min : forall l x, StronglySorted cost_ge (l ++ [x]) -> forall a, In a l -> p_cost x <= p_cost a.
Proof.
  induction l as [|y r IH]; intros x Hs a Hin; [contradiction|].
  cbn [app] in Hs. apply StronglySorted_inv in Hs. destruct Hs as [Hr Hy].
  destruct Hin as [Hin|Hin].
  - subst y. apply Forall_app in Hy. destruct Hy as [_ Hy]. inversion Hy; subst. assumption.
  - apply (IH x Hr a Hin).
Qed.

(* popping the last path of the sorted list *)
Definition path_pop (l : list path) : option (path * list path) :=
  match rev (sort_paths l) with
  | [] => None
  | cur :: rest_rev => Some (cur, rev rest_rev)
  end.

Lemma pop_none : forall l, path_pop l = None -> l = [].
Proof.
  intros l H. unfold path_pop in H. destruct (rev (sort_paths l)) as [|c rr] eqn:E; [|discriminate].
  apply Permutation_nil. apply Permutation_sym. eapply Permutation_trans; [apply sort_paths_perm|].
  rewrite <- (rev_involutive (sort_paths l)), E. apply perm_nil.
Qed.

Lemma pop_some : forall l cur rest, path_pop l = Some (cur, rest) ->
  Permutation l (cur :: rest) /\ forall a, In a l -> p_cost cur <= p_cost a.
Proof.
  intros l cur rest H. unfold path_pop in H.
  destruct (rev (sort_paths l)) as [|c rr] eqn:E; [discriminate|].
  injection H as H1 H2. subst c rest.
  assert (Es : sort_paths l = rev rr ++ [cur]).
  { rewrite <- (rev_involutive (sort_paths l)), E. reflexivity. }
  assert (Hp : Permutation l (cur :: rev rr)).
  { eapply Permutation_trans; [apply sort_paths_perm|]. rewrite Es.
    apply Permutation_sym. apply Permutation_cons_append. }
  split; [exact Hp|].
  intros a Ha. pose proof (sort_paths_sorted l) as Hs. rewrite Es in Hs.
  apply (Permutation_in _ Hp) in Ha. destruct Ha as [Ha|Ha]; [subst; lia|].
  apply (sorted_last_min _ _ Hs a Ha).
Qed.

Lemma pop_in : forall l cur rest, path_pop l = Some (cur, rest) -> forall a, In a l <-> a = cur \/ In a rest.
Proof.
  intros l cur rest H a. destruct (pop_some _ _ _ H) as [Hp _]. split; intros Ha.
  - apply (Permutation_in _ Hp) in Ha. destruct Ha as [Ha|Ha]; [left; congruence | right; exact Ha].
  - apply (Permutation_in _ (Permutation_sym Hp)). destruct Ha as [->|Ha]; [left; reflexivity | right; exact Ha].
Qed.

(* cost / selection flag of an element as PathHandler::process computes them (distance 0;
   for dist_free condition lists the distance does not matter, path_cost_dist_free) *)
Definition ecost (rv : revision) (d : db) (conds : list cond) (x : Z) : Z := fst (path_cost rv d conds x 0).
Definition esel (rv : revision) (d : db) (conds : list cond) (x : Z) : bool := snd (path_cost rv d conds x 0).

(* is_path g o w p : p = [o; e1; n1; ...; ek; w] is a directed walk of existing edges from the
   existing node o to w (built from the origin by appending an edge and its target) *)
Inductive is_path (g : graph) (o : Z) : Z -> list Z -> Prop :=
| path_origin : node_id g o = true -> is_path g o o [o]
| path_snoc : forall u p e, is_path g o u p -> edge_id g e = true -> edge_from g e = u ->
    is_path g o (edge_to g e) (p ++ [e; edge_to g e]).

(* the cost of a path: its elements after the origin *)
Definition cost (rv : revision) (d : db) (conds : list cond) (p : list Z) : Z :=
  fold_right Z.add 0 (map (ecost rv d conds) (tl p)).
Definition usable_path (rv : revision) (d : db) (conds : list cond) (p : list Z) : Prop :=
  Forall (fun x => ecost rv d conds x <> 0) (tl p).

Lemma path_cost_dist_free : forall rv d conds x k, dist_free conds = true ->
  path_cost rv d conds x k = (ecost rv d conds x, esel rv d conds x).
Proof.
  intros rv d conds x k Hdf. unfold ecost, esel, path_cost.
  rewrite (eval_conditions_dist_free rv d x k 0 conds Hdf).
  destruct (eval_conditions rv d x 0 conds) as [b|b|b]; reflexivity.
Qed.

Lemma ecost_range : forall rv d conds x, 0 <= ecost rv d conds x <= 2.
Proof.
  intros. unfold ecost, path_cost.
  destruct (eval_conditions rv d x 0 conds) as [b|b|b]; try destruct b; cbn [fst]; lia.
Qed.

Lemma is_path_nonempty : forall g o w p, is_path g o w p -> exists t, p = o :: t.
Proof.
  intros g o w p H. induction H as [Ho | u p e H [t IH] He Hf].
  - exists []. reflexivity.
  - exists (t ++ [e; edge_to g e]). rewrite IH. reflexivity.
Qed.

Lemma sum_acc : forall l a, fold_right Z.add a l = fold_right Z.add 0 l + a.
Proof. induction l as [|x l IH]; intros a; cbn [fold_right]; [lia|]. rewrite IH. lia. Qed.

Lemma tl_app_cons :forall (x : Z) t l, tl ((x :: t) ++ l) = tl (x :: t) ++ l.
Proof. reflexivity. Qed.

Lemma node_id_pos : forall g n, 0 < n -> node_id g n = is_node g n.
Proof. intros g n H. unfold node_id. destruct (0 <? n) eqn:E; [reflexivity | lia]. Qed.

Lemma visited_pos : forall V n, 0 < n -> (visited V n = true <-> In n V).
Proof.
  intros V n Hn. unfold visited. rewrite Z.abs_eq by lia. apply existsb_eqb_In.
Qed.

Lemma visited_pos_false : forall V n, 0 < n -> (visited V n = false <-> ~ In n V).
Proof.
  intros V n Hn. rewrite <- (visited_pos V n Hn). destruct (visited V n); split; congruence.
Qed.

Lemma last_index_snoc : forall l x b c, last_index {| p_elems := l ++ [(x, b)]; p_cost := c |} = x.
Proof. intros. unfold last_index. cbn [p_elems]. rewrite rev_app_distr. reflexivity. Qed.

Section Loop.
  Variable rv : revision.
  Variable d : db.
  Variable conds : list cond.
  Let g := gr d.
  Hypothesis Hok : adj_ok g.
  Hypothesis Hdf : dist_free conds = true.
  Variable o dst : Z.
  Variable add : bool.
  Hypothesis Ho : node_id g o = true.

  Let ec := ecost rv d conds.
  Let es := esel rv d conds.

  Lemma ec_nonneg : forall x, 0 <= ec x.
  Proof. intros x. pose proof (ecost_range rv d conds x). unfold ec. lia. Qed.

  (* usable path from the origin with its cost *)
  Inductive upath : Z -> list Z -> Z -> Prop :=
  | up_nil : upath o [o] 0
  | up_snoc : forall u p c e, upath u p c -> edge_id g e = true -> edge_from g e = u ->
      ec e <> 0 -> ec (edge_to g e) <> 0 ->
      upath (edge_to g e) (p ++ [e; edge_to g e]) (c + ec e + ec (edge_to g e)).

  Lemma upath_is_path : forall w p c, upath w p c ->
    is_path g o w p /\ usable_path rv d conds p /\ cost rv d conds p = c.
  Proof.
    intros w p c H. induction H as [|u p c e H (IH1 & IH2 & IH3) He Hf Hce Hcw].
    - split; [constructor; exact Ho|]. split; [constructor | reflexivity].
    - destruct (is_path_nonempty _ _ _ _ IH1) as [t Et]. subst p.
      split; [eapply path_snoc; eassumption|]. unfold usable_path, cost in *. rewrite tl_app_cons.
      split.
      + apply Forall_app. split; [exact IH2|]. constructor; [exact Hce|]. constructor; [exact Hcw|constructor].
      + rewrite map_app, fold_right_app. cbn [map fold_right].
        rewrite sum_acc, IH3. unfold ec. lia.
  Qed.

  Lemma is_path_upath : forall w p, is_path g o w p -> usable_path rv d conds p ->
    upath w p (cost rv d conds p).
  Proof.
    intros w p H. induction H as [Hn | u p e H IH He Hf]; intros Hu.
    - apply up_nil.
    - destruct (is_path_nonempty _ _ _ _ H) as [t Et]. subst p.
      unfold usable_path in Hu. rewrite tl_app_cons in Hu. apply Forall_app in Hu.
      destruct Hu as [Hu1 Hu2]. pose proof (Forall_inv Hu2) as Hce.
      pose proof (Forall_inv (Forall_inv_tail Hu2)) as Hcw. cbv beta in Hce, Hcw.
      pose proof (up_snoc _ _ _ e (IH Hu1) He Hf Hce Hcw) as Hs.
      destruct (upath_is_path _ _ _ Hs) as (_ & _ & Ec). rewrite Ec. exact Hs.
  Qed.

  Lemma upath_node : forall w p c, upath w p c -> node_id g w = true.
  Proof.
    intros w p c H. destruct H as [|u p c e H He Hf Hce Hcw]; [exact Ho|].
    apply (ao_to_node g Hok e He).
  Qed.

  Lemma upath_cost_nonneg : forall w p c, upath w p c -> 0 <= c.
  Proof.
    intros w p c H. induction H as [|u p c e H IH He Hf Hce Hcw]; [lia|].
    pose proof (ec_nonneg e). pose proof (ec_nonneg (edge_to g e)). lia.
  Qed.

  (* the (element, flag) list the search keeps for a path *)
  Definition flagged (p : list Z) : list (Z * bool) :=
    match p with
    | [] => []
    | x :: t => (x, add) :: map (fun y => (y, es y)) t
    end.

  Lemma map_fst_flagged : forall p, map fst (flagged p) = p.
  Proof.
    intros [|x t]; [reflexivity|]. cbn [flagged map fst]. f_equal.
    rewrite map_map. cbn [fst]. apply map_id.
  Qed.

  Lemma upath_head : forall w p c, upath w p c -> exists t, p = o :: t.
  Proof.
    intros w p c H. destruct (upath_is_path _ _ _ H) as (H1 & _). eapply is_path_nonempty; eassumption.
  Qed.

  (* P is a work-list entry for a usable path ending at w *)
  Definition wpath (P : path) (w : Z) : Prop :=
    exists p, upath w p (p_cost P) /\ p_elems P = flagged p.

  Lemma flagged_app : forall p l, p <> [] -> flagged (p ++ l) = flagged p ++ map (fun y => (y, es y)) l.
  Proof.
    intros [|x t] l Hp; [congruence|]. cbn [flagged app]. rewrite map_app. reflexivity.
  Qed.

  Lemma flagged_last : forall l w, exists l' b, flagged (l ++ [w]) = l' ++ [(w, b)].
  Proof.
    intros [|x t] w.
    - exists [], add. reflexivity.
    - exists (flagged (x :: t)), (es w). rewrite flagged_app by discriminate. reflexivity.
  Qed.

  Lemma upath_last : forall w p c, upath w p c -> exists l, p = l ++ [w].
  Proof.
    intros w p c H. destruct H as [|u p c e H He Hf Hce Hcw].
    - exists []. reflexivity.
    - exists (p ++ [e]). rewrite <- app_assoc. reflexivity.
  Qed.

  Lemma wpath_last_index : forall P w, wpath P w -> last_index P = w.
  Proof.
    intros [els c] w (p & Hp & Hel). cbn [p_elems p_cost] in *. subst els.
    destruct (upath_last _ _ _ Hp) as [l El]. subst p.
    destruct (flagged_last l w) as (l' & b & E). rewrite E. apply last_index_snoc.
  Qed.

  Lemma wpath_inj : forall P w1 w2, wpath P w1 -> wpath P w2 -> w1 = w2.
  Proof.
    intros P w1 w2 H1 H2. apply wpath_last_index in H1. apply wpath_last_index in H2. congruence.
  Qed.

  Lemma wpath_node : forall P w, wpath P w -> node_id g w = true.
  Proof. intros P w (p & Hp & _). eapply upath_node; eassumption. Qed.

  (* cur extended by the edge e and its target *)
  Definition path_ext (cur : path) (e : Z) : path :=
    {| p_elems := p_elems cur ++ [(e, es e); (edge_to g e, es (edge_to g e))];
       p_cost := p_cost cur + ec e + ec (edge_to g e) |}.

  Lemma wpath_ext : forall cur u e, wpath cur u -> edge_id g e = true -> edge_from g e = u ->
    ec e <> 0 -> ec (edge_to g e) <> 0 -> wpath (path_ext cur e) (edge_to g e).
  Proof.
    intros cur u e (p & Hp & Hel) He Hf Hce Hcw. exists (p ++ [e; edge_to g e]).
    cbn [path_ext p_cost p_elems]. split.
    - apply up_snoc with (u := u); assumption.
    - destruct (upath_head _ _ _ Hp) as [t Et]. rewrite flagged_app by (subst p; discriminate).
      rewrite Hel. reflexivity.
  Qed.

  Definition path_extend (cur : path) (V' : list Z) (e : Z) : list path :=
    let node := edge_to g e in
    if negb (ec e =? 0) && negb (visited V' node) then
      if negb (ec node =? 0) then [path_ext cur e] else []
    else [].

  Lemma extend_in : forall cur V' e P, In P (path_extend cur V' e) <->
    (ec e <> 0 /\ visited V' (edge_to g e) = false /\ ec (edge_to g e) <> 0 /\ P = path_ext cur e).
  Proof.
    intros cur V' e P. unfold path_extend.
    destruct (ec e =? 0) eqn:E1; destruct (visited V' (edge_to g e)) eqn:E2;
      destruct (ec (edge_to g e) =? 0) eqn:E3; cbn [negb andb In]; split; intros H;
      try contradiction; try (destruct H as (H1 & H2 & H3 & H4); try discriminate; try lia).
    - destruct H as [H|H]; [|contradiction]. repeat split; try lia. congruence.
    - left. congruence.
  Qed.

  Lemma path_loop_step : forall f L V,
    path_loop rv d conds dst (S f) L V =
    match path_pop L with
    | None => Some []
    | Some (cur, rest) =>
        let u := last_index cur in
        if visited V u then path_loop rv d conds dst f rest V
        else if u =? dst then Some (p_elems cur)
        else path_loop rv d conds dst f (rest ++ flat_map (path_extend cur (Z.abs u :: V)) (out_edges g u))
                       (Z.abs u :: V)
    end.
  Proof.
    intros f L V. cbn [path_loop]. unfold path_pop.
    destruct (rev (sort_paths L)) as [|cur rr]; [reflexivity|]. cbv zeta.
    destruct (visited V (last_index cur)); [reflexivity|].
    destruct (last_index cur =? dst); [reflexivity|].
    f_equal. f_equal. apply flat_map_ext. intros e. unfold path_extend, path_ext.
    rewrite !(path_cost_dist_free rv d conds _ _ Hdf). cbn [fst snd]. reflexivity.
  Qed.

  Definition init : path := {| p_elems := [(o, add)]; p_cost := 0 |}.

  Lemma wpath_init : wpath init o.
  Proof. exists [o]. split; [apply up_nil | reflexivity]. Qed.

  (* Dijkstra invariant; V = settled nodes, L = work list *)
  Record path_inv (L : list path) (V : list Z) : Prop := {
    inv_paths : forall P, In P L -> exists w, wpath P w;
    inv_front : forall v q c e, In v V -> upath v q c -> edge_id g e = true -> edge_from g e = v ->
        ec e <> 0 -> ec (edge_to g e) <> 0 -> ~ In (edge_to g e) V ->
        exists P, In P L /\ wpath P (edge_to g e) /\ p_cost P <= c + ec e + ec (edge_to g e);
    inv_origin : In o V \/ (V = [] /\ L = [init]);
    inv_dest : ~ In dst V
  }.

  Lemma inv_init : path_inv [init] [].
  Proof.
    constructor.
    - intros P [HP|[]]. subst P. exists o. apply wpath_init.
    - intros v q c e [].
    - right. split; reflexivity.
    - intros [].
  Qed.

  (* every usable path to an unsettled node is at least as expensive as some work-list entry *)
  Lemma frontier : forall L V, path_inv L V -> forall u q c, upath u q c -> ~ In u V ->
    exists P, In P L /\ p_cost P <= c.
  Proof.
    intros L V Hinv u q c Hq. induction Hq as [|u q c e Hq IH He Hf Hce Hcw]; intros Hnu.
    - destruct (inv_origin _ _ Hinv) as [Hin | [HV HL]]; [contradiction|].
      exists init. subst L. split; [left; reflexivity | cbn [init p_cost]; lia].
    - destruct (in_dec Z.eq_dec u V) as [Hin | Hnin].
      + destruct (inv_front _ _ Hinv u q c e Hin Hq He Hf Hce Hcw Hnu) as (P & HP & _ & Hc).
        exists P. split; assumption.
      + destruct (IH Hnin) as (P & HP & Hc). exists P. split; [exact HP|].
        pose proof (ec_nonneg e). pose proof (ec_nonneg (edge_to g e)). lia.
  Qed.

  Theorem path_loop_spec : forall f L V els, path_inv L V ->
    path_loop rv d conds dst f L V = Some els ->
    (els = [] /\ forall q c, ~ upath dst q c) \/
    (exists p c, upath dst p c /\ els = flagged p /\ forall q c', upath dst q c' -> c <= c').
  Proof.
    induction f as [|f IHf]; intros L V els Hinv H; [discriminate H|].
    rewrite path_loop_step in H. destruct (path_pop L) as [[cur rest]|] eqn:Epop.
    2:{ apply pop_none in Epop. subst L. injection H as H. subst els. left. split; [reflexivity|].
        intros q c Hq. destruct (frontier _ _ Hinv _ _ _ Hq (inv_dest _ _ Hinv)) as (P & HP & _).
        exact HP. }
    destruct (pop_some _ _ _ Epop) as [Hperm Hmin].
    pose proof (proj2 (pop_in _ _ _ Epop cur) (or_introl eq_refl)) as Hcur.
    pose proof (fun P HP => proj2 (pop_in _ _ _ Epop P) (or_intror HP)) as Hrest.
    pose proof (fun P => proj1 (pop_in _ _ _ Epop P)) as Hsplit.
    destruct (inv_paths _ _ Hinv cur Hcur) as [u Hu].
    pose proof (wpath_last_index _ _ Hu) as Elast. rewrite Elast in H. cbv zeta in H. clear Elast.
    pose proof (wpath_node _ _ Hu) as Hun. pose proof (node_id_bounds _ _ Hun) as (Hupos & _).
    destruct (visited V u) eqn:Evis.
    - (* popped path ends at a settled node: dropped *)
      apply visited_pos in Evis; [|exact Hupos].
      apply (IHf rest V els); [|exact H]. constructor.
      + intros P HP. apply (inv_paths _ _ Hinv). apply Hrest. exact HP.
      + intros v q c e Hv Hq He Hf Hce Hcw Hnw.
        destruct (inv_front _ _ Hinv v q c e Hv Hq He Hf Hce Hcw Hnw) as (P & HP & HwP & Hc).
        exists P. split; [|split; assumption].
        destruct (Hsplit P HP) as [E|HPr]; [|exact HPr]. subst P.
        exfalso. apply Hnw. rewrite (wpath_inj _ _ _ HwP Hu). exact Evis.
      + destruct (inv_origin _ _ Hinv) as [Hin | [HV _]]; [left; exact Hin|].
        subst V. contradiction.
      + apply (inv_dest _ _ Hinv).
    - apply visited_pos_false in Evis; [|exact Hupos].
      assert (Hcurmin : forall q c, upath u q c -> p_cost cur <= c).
      { intros q c Hq. destruct (frontier _ _ Hinv _ _ _ Hq Evis) as (P & HP & Hc).
        specialize (Hmin P HP). lia. }
      destruct (u =? dst) eqn:Ed.
      + (* destination reached *)
        assert (u = dst) by lia. subst u. right. destruct Hu as (p & Hp & Hel).
        exists p, (p_cost cur). split; [exact Hp|]. split; [injection H as H; congruence|].
        intros q c' Hq. apply (Hcurmin q c' Hq).
      + (* u gets settled, its out-edges are expanded *)
        assert (Hne : u <> dst) by lia.
        rewrite (Z.abs_eq u) in H by lia.
        apply (IHf _ _ els) in H; [exact H|]. constructor.
        * intros P HP. apply in_app_or in HP. destruct HP as [HP|HP].
          { apply (inv_paths _ _ Hinv). apply Hrest. exact HP. }
          apply in_flat_map in HP. destruct HP as (e & He & HP).
          apply extend_in in HP. destruct HP as (Hce & _ & Hcw & EP). subst P.
          apply (ao_out_spec g Hok u e Hun) in He. destruct He as [He Hf].
          exists (edge_to g e). apply (wpath_ext cur u e Hu He Hf Hce Hcw).
        * intros v q c e Hv Hq He Hf Hce Hcw Hnw.
          assert (Hwn : node_id g (edge_to g e) = true) by (apply (ao_to_node g Hok e He)).
          pose proof (node_id_bounds _ _ Hwn) as (Hwpos & _).
          destruct (Z.eq_dec v u) as [Evu | Nvu].
          { rewrite Evu in Hq, Hf. exists (path_ext cur e). split; [|split].
            - apply in_or_app. right. apply in_flat_map. exists e. split.
              + apply (ao_out_spec g Hok u e Hun). split; assumption.
              + apply extend_in. repeat split; try assumption.
                apply visited_pos_false; assumption.
            - apply (wpath_ext cur u e Hu He Hf Hce Hcw).
            - cbn [path_ext p_cost]. specialize (Hcurmin q c Hq). lia. }
          { assert (HvV : In v V) by (destruct Hv as [Hv|Hv]; [congruence | exact Hv]).
            assert (HnwV : ~ In (edge_to g e) V) by (intros Hc; apply Hnw; right; exact Hc).
            destruct (inv_front _ _ Hinv v q c e HvV Hq He Hf Hce Hcw HnwV) as (P & HP & HwP & Hc).
            exists P. split; [|split; assumption]. apply in_or_app. left.
            destruct (Hsplit P HP) as [E|HPr]; [|exact HPr]. subst P.
            exfalso. apply Hnw. left. apply (wpath_inj _ _ _ Hu HwP). }
        * left. destruct (inv_origin _ _ Hinv) as [Hin | [HV HL]]; [right; exact Hin|].
          subst L. apply Permutation_length_1_inv in Hperm. injection Hperm as E1 E2. subst cur.
          left. apply (wpath_inj _ _ _ Hu wpath_init).
        * intros [Hc|Hc]; [congruence|]. apply (inv_dest _ _ Hinv). exact Hc.
  Qed.
End Loop.

Definition path_fuel (g : graph) : nat := length (g_from g) * length (g_from g) + 2.

(* the flags the search attaches to the elements after the origin *)
Definition flags_ok (rv : revision) (d : db) (conds : list cond) (add : bool) (els : list (Z * bool)) : Prop :=
  match els with
  | [] => True
  | (_, b) :: t => b = add /\ Forall (fun xb => snd xb = esel rv d conds (fst xb)) t
  end.

Lemma flagged_flags_ok : forall rv d conds add p, flags_ok rv d conds add (flagged rv d conds add p).
Proof.
  intros rv d conds add [|x t]; cbn [flagged flags_ok]; [exact I|]. split; [reflexivity|].
  apply Forall_forall. intros xb Hin. apply in_map_iff in Hin. destruct Hin as (y & E & _). subst xb. reflexivity.
Qed.

(* the loop started as path_search starts it *)
Theorem path_loop_init_spec : forall rv d conds o dst add fuel els,
  adj_ok (gr d) -> dist_free conds = true -> node_id (gr d) o = true ->
  path_loop rv d conds dst fuel [init o add] [] = Some els ->
  (els = [] /\ forall q, is_path (gr d) o dst q -> ~ usable_path rv d conds q) \/
  (is_path (gr d) o dst (map fst els) /\ usable_path rv d conds (map fst els) /\
   flags_ok rv d conds add els /\
   forall q, is_path (gr d) o dst q -> usable_path rv d conds q ->
             cost rv d conds (map fst els) <= cost rv d conds q).
Proof.
  intros rv d conds o dst add fuel els Hok Hdf Ho H.
  destruct (path_loop_spec rv d conds Hok Hdf o dst add Ho fuel _ _ els
              (inv_init rv d conds o dst add) H) as [[E Hno] | (p & c & Hp & E & Hopt)].
  - left. split; [exact E|]. intros q Hq Hu.
    apply (Hno q (cost rv d conds q)). apply is_path_upath; assumption.
  - right. subst els. rewrite map_fst_flagged.
    destruct (upath_is_path rv d conds o Ho _ _ _ Hp) as (H1 & H2 & H3).
    split; [exact H1|]. split; [exact H2|]. split; [apply flagged_flags_ok|].
    intros q Hq Hu. rewrite H3. apply (Hopt q). apply is_path_upath; assumption.
Qed.

Lemma filter_flagged : forall rv d conds o t,
  map fst (filter snd (flagged rv d conds (esel rv d conds o) (o :: t))) = filter (esel rv d conds) (o :: t).
Proof.
  intros rv d conds o t.
  assert (E : flagged rv d conds (esel rv d conds o) (o :: t) = map (fun y => (y, esel rv d conds y)) (o :: t))
    by reflexivity.
  rewrite E. generalize (o :: t) as l.
  induction l as [|x l IH]; [reflexivity|]. cbn [map filter snd].
  destruct (esel rv d conds x); cbn [map fst]; rewrite IH; reflexivity.
Qed.

Lemma path_search_unfold : forall rv d conds o dst,
  node_id (gr d) o = true -> node_id (gr d) dst = true -> o <> dst ->
  path_search rv d conds o dst =
  match path_loop rv d conds dst (path_fuel (gr d)) [init o (esel rv d conds o)] [] with
  | Some els => Some (map fst (filter snd els))
  | None => None
  end.
Proof.
  intros rv d conds o dst Ho Hd Hne. unfold path_search.
  unfold node_id in Ho, Hd. apply andb_prop in Ho. apply andb_prop in Hd.
  destruct Ho as [_ Ho]. destruct Hd as [_ Hd]. rewrite Ho, Hd.
  destruct (o =? dst) eqn:E; [lia|]. reflexivity.
Qed.

Theorem path_search_spec : forall rv d conds o dst r,
  adj_ok (gr d) -> dist_free conds = true ->
  node_id (gr d) o = true -> node_id (gr d) dst = true -> o <> dst ->
  path_search rv d conds o dst = Some r ->
  (r = [] /\ forall q, is_path (gr d) o dst q -> ~ usable_path rv d conds q) \/
  (exists p, is_path (gr d) o dst p /\ usable_path rv d conds p /\
             r = filter (esel rv d conds) p /\
             forall q, is_path (gr d) o dst q -> usable_path rv d conds q ->
                       cost rv d conds p <= cost rv d conds q).
Proof.
  intros rv d conds o dst r Hok Hdf Ho Hd Hne H.
  rewrite path_search_unfold in H by assumption.
  destruct (path_loop rv d conds dst (path_fuel (gr d)) [init o (esel rv d conds o)] []) as [els|] eqn:E;
    [|discriminate H].
  injection H as H. subst r.
  destruct (path_loop_spec rv d conds Hok Hdf o dst (esel rv d conds o) Ho _ _ _ els
              (inv_init rv d conds o dst _) E) as [[E1 Hno] | (p & c & Hp & E1 & Hopt)].
  - left. subst els. split; [reflexivity|]. intros q Hq Hu.
    apply (Hno q (cost rv d conds q)). apply is_path_upath; assumption.
  - right. exists p. destruct (upath_is_path rv d conds o Ho _ _ _ Hp) as (H1 & H2 & H3).
    split; [exact H1|]. split; [exact H2|]. split.
    + subst els. destruct (is_path_nonempty _ _ _ _ H1) as [t Et]. subst p. apply filter_flagged.
    + intros q Hq Hu. rewrite H3. apply (Hopt q). apply is_path_upath; assumption.
Qed.

(* the fuel of path_search is never exhausted (any condition list) *)

Lemma visited_abs : forall V n, visited V (Z.abs n) = visited V n.
Proof. intros. unfold visited. rewrite Z.abs_involutive. reflexivity. Qed.

Lemma edge_list_length : forall next f e, (length (edge_list next f e) <= f)%nat.
Proof.
  intros next f. induction f as [|f IH]; intros e; cbn [edge_list length]; [lia|].
  destruct (e =? 0); cbn [length]; [lia|]. specialize (IH (next e)). lia.
Qed.

Lemma list_sum_drop : forall (f f' : nat -> nat) (k : nat) l x,
  In x l -> (forall y, f' y <= f y)%nat -> (f' x + k <= f x)%nat ->
  (list_sum (map f' l) + k <= list_sum (map f l))%nat.
Proof.
  intros f f' k l x Hin Hle Hx. induction l as [|a l IH]; [contradiction|].
  cbn [map]; rewrite ?list_sum_cons. destruct Hin as [E|Hin].
  - subst a. assert (H : (list_sum (map f' l) <= list_sum (map f l))%nat).
    { clear IH. induction l as [|b l IHl]; cbn [map]; rewrite ?list_sum_cons; [lia|]. specialize (Hle b). lia. }
    lia.
  - specialize (IH Hin). specialize (Hle a). lia.
Qed.

Lemma list_sum_bound : forall (f : nat -> nat) b l, (forall y, f y <= b)%nat ->
  (list_sum (map f l) <= length l * b)%nat.
Proof.
  intros f b l Hb. induction l as [|a l IH]; cbn [map length]; rewrite ?list_sum_cons; [cbn; lia|].
  specialize (Hb a). nia.
Qed.

Section NoFuel.
  Variable rv : revision.
  Variable d : db.
  Variable conds : list cond.
  Variable dst : Z.
  Let g := gr d.
  Hypothesis Hok : adj_ok g.

  Definition extend_raw (cur : path) (V' : list Z) (dist : Z) (e : Z) : list path :=
    let node := edge_to g e in
    let ce := path_cost rv d conds e dist in
    if negb (fst ce =? 0) && negb (visited V' node) then
      let cn := path_cost rv d conds node dist in
      if negb (fst cn =? 0) then
        [ {| p_elems := p_elems cur ++ [(e, snd ce); (node, snd cn)];
             p_cost := p_cost cur + fst ce + fst cn |} ]
      else []
    else [].

  Lemma path_loop_step_raw : forall f L V,
    path_loop rv d conds dst (S f) L V =
    match path_pop L with
    | None => Some []
    | Some (cur, rest) =>
        let u := last_index cur in
        if visited V u then path_loop rv d conds dst f rest V
        else if u =? dst then Some (p_elems cur)
        else path_loop rv d conds dst f
               (rest ++ flat_map (extend_raw cur (Z.abs u :: V) (Z.of_nat (length (p_elems cur)) + 1))
                                 (out_edges g u))
               (Z.abs u :: V)
    end.
  Proof.
    intros f L V. cbn [path_loop]. unfold path_pop.
    destruct (rev (sort_paths L)) as [|cur rr]; reflexivity.
  Qed.

  Lemma extend_raw_length : forall cur V' k e, (length (extend_raw cur V' k e) <= 1)%nat.
  Proof.
    intros. unfold extend_raw.
    destruct (negb (fst (path_cost rv d conds e k) =? 0) && negb (visited V' (edge_to g e)));
      [|cbn [length]; lia].
    destruct (negb (fst (path_cost rv d conds (edge_to g e) k) =? 0)); cbn [length]; lia.
  Qed.

  Lemma extend_raw_last : forall cur V' k e P, In P (extend_raw cur V' k e) -> last_index P = edge_to g e.
  Proof.
    intros cur V' k e P H. unfold extend_raw in H.
    destruct (negb (fst (path_cost rv d conds e k) =? 0) && negb (visited V' (edge_to g e)));
      [|contradiction].
    destruct (negb (fst (path_cost rv d conds (edge_to g e) k) =? 0)); [|contradiction].
    destruct H as [H|[]]. subst P. unfold last_index. cbn [p_elems]. rewrite rev_app_distr. reflexivity.
  Qed.

  Lemma flat_map_length_le : forall (f : Z -> list path) l,
    (forall e, length (f e) <= 1)%nat -> (length (flat_map f l) <= length l)%nat.
  Proof.
    intros f l Hf. induction l as [|a l IH]; cbn [flat_map length]; [lia|].
    rewrite app_length. specialize (Hf a). lia.
  Qed.

  (* the measure: the length of the work list plus the out-degrees of the slots not yet settled;
     a pop either shortens the list or settles a node and pushes at most its out-degree.  At most
     n - 1 slots of out-degree at most n each (wsum_bound): hence the fuel n * n + 2 of path_search *)
  Definition slot_w (V : list Z) (s : nat) : nat :=
    if visited V (Z.of_nat s) then 0%nat else length (out_edges g (Z.of_nat s)).
  Definition wsum (V : list Z) : nat := list_sum (map (slot_w V) (seq 1 (length (g_from g) - 1))).
  Definition path_mu (L : list path) (V : list Z) : nat := (length L + wsum V)%nat.

  Lemma wsum_settle : forall V u, node_id g (Z.abs u) = true -> visited V u = false ->
    (wsum (Z.abs u :: V) + length (out_edges g u) <= wsum V)%nat.
  Proof.
    intros V u Hn Hv. unfold wsum.
    pose proof (node_id_bounds _ _ Hn) as (H1 & H2 & _). unfold capacity in H2.
    apply list_sum_drop with (x := Z.to_nat (Z.abs u)).
    - apply in_seq. lia.
    - intros y. unfold slot_w, visited. cbn [existsb].
      destruct (existsb (Z.eqb (Z.abs (Z.of_nat y))) V); rewrite ?orb_true_r, ?orb_false_r; [lia|].
      destruct (Z.abs (Z.of_nat y) =? Z.abs u); lia.
    - unfold slot_w. rewrite Z2Nat.id by lia. rewrite !visited_abs, Hv, out_edges_abs.
      unfold visited. cbn [existsb]. rewrite Z.eqb_refl. cbn [orb]. lia.
  Qed.

  Lemma wsum_bound : forall V, (wsum V <= (length (g_from g) - 1) * length (g_from g))%nat.
  Proof.
    intros V. unfold wsum.
    pose proof (list_sum_bound (slot_w V) (length (g_from g)) (seq 1 (length (g_from g) - 1))) as H.
    rewrite seq_length in H. apply H. intros y. unfold slot_w.
    destruct (visited V (Z.of_nat y)); [lia|]. apply edge_list_length.
  Qed.

  Definition ends_ok (L : list path) : Prop :=
    forall P, In P L -> node_id g (Z.abs (last_index P)) = true.

  Lemma path_loop_fuel : forall f L V, ends_ok L -> (path_mu L V < f)%nat ->
    path_loop rv d conds dst f L V <> None.
  Proof.
    induction f as [|f IHf]; intros L V Hends Hmu; [lia|].
    rewrite path_loop_step_raw. destruct (path_pop L) as [[cur rest]|] eqn:Epop; [|discriminate].
    destruct (pop_some _ _ _ Epop) as [Hperm _].
    pose proof (Permutation_length Hperm) as Hlen. cbn [length] in Hlen.
    pose proof (fun P HP => Hends P (proj2 (pop_in _ _ _ Epop P) (or_intror HP))) as Hrest.
    pose proof (Hends cur (proj2 (pop_in _ _ _ Epop cur) (or_introl eq_refl))) as Hun. cbv zeta. unfold path_mu in *.
    destruct (visited V (last_index cur)) eqn:Evis.
    - apply IHf; [exact Hrest | lia].
    - destruct (last_index cur =? dst); [discriminate|].
      apply IHf.
      + intros P HP. apply in_app_or in HP. destruct HP as [HP|HP]; [apply Hrest; exact HP|].
        apply in_flat_map in HP. destruct HP as (e & He & HP).
        apply extend_raw_last in HP. rewrite HP.
        rewrite <- out_edges_abs in He. apply (ao_out_spec g Hok _ e Hun) in He. destruct He as [He _].
        pose proof (ao_to_node g Hok e He) as Hw. pose proof (node_id_bounds _ _ Hw) as (Hpos & _).
        rewrite Z.abs_eq by lia. exact Hw.
      + rewrite app_length.
        pose proof (flat_map_length_le
                      (extend_raw cur (Z.abs (last_index cur) :: V) (Z.of_nat (length (p_elems cur)) + 1))
                      (out_edges g (last_index cur)) (extend_raw_length _ _ _)) as H1.
        pose proof (wsum_settle V (last_index cur) Hun Evis) as H2. lia.
  Qed.

  Lemma path_loop_init_fuel : forall o add, node_id g (Z.abs o) = true ->
    path_loop rv d conds dst (path_fuel g) [ {| p_elems := [(o, add)]; p_cost := 0 |} ] [] <> None.
  Proof.
    intros o add Ho. apply path_loop_fuel.
    - intros P [<-|[]]. exact Ho.
    - unfold path_mu, path_fuel. cbn [length]. pose proof (wsum_bound []) as H. nia.
  Qed.

  Theorem path_search_no_fuel : forall o, path_search rv d conds o dst <> None.
  Proof.
    intros o. unfold path_search.
    destruct (negb (o =? dst) && is_node (gr d) o && is_node (gr d) dst) eqn:E; [|discriminate].
    apply andb_prop in E. destruct E as [E _]. apply andb_prop in E. destruct E as [_ Ho].
    pose proof (path_loop_init_fuel o (snd (path_cost rv d conds o 0))) as H. unfold path_fuel in H.
    destruct (path_loop rv d conds dst _ _ _); [discriminate|]. exfalso. apply H; [|reflexivity].
    unfold node_id. fold g in Ho. rewrite is_node_abs, Ho.
    unfold is_node, valid_index in Ho. apply andb_prop in Ho. destruct Ho as [Ho _].
    apply andb_prop in Ho. destruct Ho as [Ho _]. apply andb_prop in Ho. destruct Ho as [Ho _].
    apply andb_true_intro. split; [lia | reflexivity].
  Qed.

  (* for ANY condition list (also distance-dependent ones) a non-empty internal result is a
     directed path from the origin to the destination *)
  Section AnyConds.
    Variable o : Z.
    Hypothesis Ho : node_id g o = true.

    Lemma last_index_map : forall P,
      last_index P = match rev (map fst (p_elems P)) with x :: _ => x | [] => 0 end.
    Proof.
      intros P. unfold last_index. rewrite <- map_rev.
      destruct (rev (p_elems P)) as [|[i b] r]; reflexivity.
    Qed.

    Lemma is_path_last : forall w p, is_path g o w p -> exists l, p = l ++ [w].
    Proof.
      intros w p H. destruct H as [_ | u p e H He Hf].
      - exists []. reflexivity.
      - exists (p ++ [e]). rewrite <- app_assoc. reflexivity.
    Qed.

    Lemma is_path_node : forall w p, is_path g o w p -> node_id g w = true.
    Proof.
      intros w p H. destruct H as [H | u p e H He Hf]; [exact H | apply (ao_to_node g Hok e He)].
    Qed.

    Lemma extend_raw_shape : forall cur V' k e P, In P (extend_raw cur V' k e) ->
      exists b1 b2, p_elems P = p_elems cur ++ [(e, b1); (edge_to g e, b2)].
    Proof.
      intros cur V' k e P H. unfold extend_raw in H.
      destruct (negb (fst (path_cost rv d conds e k) =? 0) && negb (visited V' (edge_to g e)));
        [|contradiction].
      destruct (negb (fst (path_cost rv d conds (edge_to g e) k) =? 0)); [|contradiction].
      destruct H as [H|[]]. subst P. cbn [p_elems]. eexists. eexists. reflexivity.
    Qed.

    Definition pinv (L : list path) : Prop :=
      forall P, In P L -> is_path g o (last_index P) (map fst (p_elems P)).

    Lemma path_loop_any_sound : forall f L V els, pinv L ->
      path_loop rv d conds dst f L V = Some els -> els = [] \/ is_path g o dst (map fst els).
    Proof.
      induction f as [|f IHf]; intros L V els Hinv H; [discriminate H|].
      rewrite path_loop_step_raw in H. destruct (path_pop L) as [[cur rest]|] eqn:Epop.
      2:{ injection H as H. left. congruence. }
      pose proof (fun P HP => Hinv P (proj2 (pop_in _ _ _ Epop P) (or_intror HP))) as Hrest.
      pose proof (Hinv cur (proj2 (pop_in _ _ _ Epop cur) (or_introl eq_refl))) as Hc. cbv zeta in H.
      destruct (visited V (last_index cur)); [apply (IHf rest V els Hrest H)|].
      destruct (last_index cur =? dst) eqn:Ed.
      - injection H as H. subst els. right. assert (E : last_index cur = dst) by lia.
        rewrite <- E. exact Hc.
      - apply (IHf _ _ els) in H; [exact H|].
        intros P HP. apply in_app_or in HP. destruct HP as [HP|HP]; [apply Hrest; exact HP|].
        apply in_flat_map in HP. destruct HP as (e & He & HP).
        pose proof (extend_raw_last _ _ _ _ _ HP) as El.
        destruct (extend_raw_shape _ _ _ _ _ HP) as (b1 & b2 & Es).
        apply (ao_out_spec g Hok _ e (is_path_node _ _ Hc)) in He. destruct He as [He Hf].
        rewrite El, Es, map_app. cbn [map fst].
        exact (path_snoc g o _ _ e Hc He Hf).
    Qed.
  End AnyConds.

  Theorem path_search_any_sound : forall o r, 0 < o -> 0 < dst ->
    path_search rv d conds o dst = Some r -> r <> [] ->
    exists els, r = map fst (filter snd els) /\ is_path g o dst (map fst els).
  Proof.
    intros o r Hopos Hdpos H Hne. unfold path_search in H.
    destruct (negb (o =? dst) && is_node (gr d) o && is_node (gr d) dst) eqn:E.
    2:{ injection H as H. congruence. }
    apply andb_prop in E. destruct E as [E _]. apply andb_prop in E. destruct E as [_ Ho].
    rewrite <- node_id_pos in Ho by exact Hopos.
    match type of H with match ?x with _ => _ end = _ => destruct x as [els|] eqn:El end; [|discriminate H].
    injection H as H. exists els. split; [congruence|].
    assert (Hinit : pinv o [ {| p_elems := [(o, snd (path_cost rv d conds o 0))]; p_cost := 0 |} ]).
    { intros P [HP|[]]. subst P. apply path_origin. exact Ho. }
    destruct (path_loop_any_sound o _ _ _ els Hinit El) as [E|Hp]; [|exact Hp].
    subst els r. cbn in Hne. congruence.
  Qed.
End NoFuel.

Lemma is_path_not_nil : forall g o w, ~ is_path g o w [].
Proof. intros g o w H. destruct (is_path_nonempty _ _ _ _ H) as [t E]. discriminate E. Qed.

Theorem path_search_total : forall rv d conds o dst,
  adj_ok (gr d) -> dist_free conds = true ->
  node_id (gr d) o = true -> node_id (gr d) dst = true -> o <> dst ->
  exists r, path_search rv d conds o dst = Some r /\
    ((r = [] /\ forall q, is_path (gr d) o dst q -> ~ usable_path rv d conds q) \/
     (exists p, is_path (gr d) o dst p /\ usable_path rv d conds p /\
                r = filter (esel rv d conds) p /\
                forall q, is_path (gr d) o dst q -> usable_path rv d conds q ->
                          cost rv d conds p <= cost rv d conds q)).
Proof.
  intros rv d conds o dst Hok Hdf Ho Hd Hne.
  destruct (path_search rv d conds o dst) as [r|] eqn:E.
  - exists r. split; [reflexivity|]. apply path_search_spec; assumption.
  - exfalso. apply (path_search_no_fuel rv d conds dst Hok o E).
Qed.

Lemma path_search_degenerate : forall rv d conds o dst,
  o = dst \/ is_node (gr d) o = false \/ is_node (gr d) dst = false ->
  path_search rv d conds o dst = Some [].
Proof.
  intros rv d conds o dst H. unfold path_search.
  destruct (negb (o =? dst) && is_node (gr d) o && is_node (gr d) dst) eqn:E; [|reflexivity].
  apply andb_prop in E. destruct E as [E E3]. apply andb_prop in E. destruct E as [E1 E2].
  destruct H as [H|[H|H]]; [lia | congruence | congruence].
Qed.

(* a non-empty result: the selected elements of a minimum-cost usable path *)
Theorem path_search_sound : forall rv d conds o dst r,
  adj_ok (gr d) -> dist_free conds = true -> 0 < o -> 0 < dst ->
  path_search rv d conds o dst = Some r -> r <> [] ->
  exists p, is_path (gr d) o dst p /\ usable_path rv d conds p /\
            r = filter (esel rv d conds) p /\
            forall q, is_path (gr d) o dst q -> usable_path rv d conds q ->
                      cost rv d conds p <= cost rv d conds q.
Proof.
  intros rv d conds o dst r Hok Hdf Hopos Hdpos H Hne.
  destruct (Z.eq_dec o dst) as [E|Hod].
  { rewrite path_search_degenerate in H by (left; exact E). injection H as H. congruence. }
  destruct (is_node (gr d) o) eqn:Eo.
  2:{ rewrite path_search_degenerate in H by (right; left; exact Eo). injection H as H. congruence. }
  destruct (is_node (gr d) dst) eqn:Ed.
  2:{ rewrite path_search_degenerate in H by (right; right; exact Ed). injection H as H. congruence. }
  rewrite <- node_id_pos in Eo, Ed by assumption.
  destruct (path_search_spec rv d conds o dst r Hok Hdf Eo Ed Hod H) as [[E _] | Hp]; [contradiction | exact Hp].
Qed.

(* no conditions: every element costs 1 and is selected *)
Lemma ecost_nil : forall rv d x, ecost rv d [] x = 1.
Proof. reflexivity. Qed.
Lemma esel_nil : forall rv d x, esel rv d [] x = true.
Proof. reflexivity. Qed.

Lemma usable_path_nil : forall rv d p, usable_path rv d [] p.
Proof.
  intros. unfold usable_path. apply Forall_forall. intros x _. rewrite ecost_nil. lia.
Qed.

Lemma filter_esel_nil : forall rv d p, filter (esel rv d []) p = p.
Proof.
  intros rv d p. induction p as [|x p IH]; [reflexivity|]. cbn [filter]. rewrite esel_nil, IH. reflexivity.
Qed.

Lemma cost_nil : forall rv d p, cost rv d [] p = Z.of_nat (length (tl p)).
Proof.
  intros rv d p. unfold cost. induction (tl p) as [|x l IH]; [reflexivity|].
  cbn [map fold_right length]. rewrite IH, ecost_nil. lia.
Qed.

Theorem path_search_nil_empty_iff : forall rv d o dst,
  adj_ok (gr d) -> 0 < o -> 0 < dst ->
  (path_search rv d [] o dst = Some [] <->
   o = dst \/ node_id (gr d) o = false \/ node_id (gr d) dst = false \/
   forall q, ~ is_path (gr d) o dst q).
Proof.
  intros rv d o dst Hok Hopos Hdpos. rewrite !node_id_pos by assumption. split.
  - intros H. destruct (Z.eq_dec o dst) as [E|Hod]; [left; exact E|]. right.
    destruct (is_node (gr d) o) eqn:Eo; [|left; reflexivity]. right.
    destruct (is_node (gr d) dst) eqn:Ed; [|left; reflexivity]. right.
    rewrite <- node_id_pos in Eo, Ed by assumption.
    destruct (path_search_spec rv d [] o dst [] Hok eq_refl Eo Ed Hod H) as [[_ Hno] | (p & H1 & _ & H3 & _)].
    + intros q Hq. apply (Hno q Hq). apply usable_path_nil.
    + exfalso. rewrite filter_esel_nil in H3. subst p. apply (is_path_not_nil _ _ _ H1).
  - intros [E|[E|[E|Hno]]]; try (apply path_search_degenerate; tauto).
    destruct (Z.eq_dec o dst) as [E|Hod]; [apply path_search_degenerate; tauto|].
    destruct (is_node (gr d) o) eqn:Eo; [|apply path_search_degenerate; tauto].
    destruct (is_node (gr d) dst) eqn:Ed; [|apply path_search_degenerate; tauto].
    rewrite <- node_id_pos in Eo, Ed by assumption.
    destruct (path_search_total rv d [] o dst Hok eq_refl Eo Ed Hod) as (r & Hr & [[E _] | (p & H1 & _)]).
    + rewrite Hr, E. reflexivity.
    + exfalso. apply (Hno p H1).
Qed.

(* is_path read from the front: an executable checker *)

(* l = [e1; n1; ...; ek; nk] continues a walk standing at node u and ends at w *)
Fixpoint walkb (g : graph) (u : Z) (l : list Z) (w : Z) : bool :=
  match l with
  | [] => u =? w
  | e :: v :: r => edge_id g e && (edge_from g e =? u) && (edge_to g e =? v) && walkb g v r w
  | _ => false
  end.

Definition is_pathb (g : graph) (o w : Z) (p : list Z) : bool :=
  match p with
  | [] => false
  | x :: l => (x =? o) && node_id g o && walkb g o l w
  end.

(* walkb takes its list two elements at a time *)
Lemma list_ind2 {A} (P : list A -> Prop) :
  P [] -> (forall x, P [x]) -> (forall x y l, P l -> P (x :: y :: l)) -> forall l, P l.
Proof. intros H0 H1 H2. fix IH 1. intros [|x [|y l]]; [exact H0 | apply H1 | apply H2, IH]. Qed.

Lemma walkb_snoc : forall g l u x e,
  walkb g u l x = true -> edge_id g e = true -> edge_from g e = x ->
  walkb g u (l ++ [e; edge_to g e]) (edge_to g e) = true.
Proof.
  intros g l. induction l as [|e'|e' v' r IH] using list_ind2; intros u x e H He Hf.
  - cbn [walkb app] in *. rewrite He. lia.
  - discriminate H.
  - cbn [walkb app] in *. apply andb_prop in H. destruct H as [H1 H2]. rewrite H1. cbn [andb].
    exact (IH v' x e H2 He Hf).
Qed.

Lemma is_path_cons : forall g u e v w p, node_id g u = true -> edge_id g e = true ->
  edge_from g e = u -> edge_to g e = v -> is_path g v w p -> is_path g u w (u :: e :: p).
Proof.
  intros g u e v w p Hu He Hf Ht H. induction H as [Hv | x p e' H IH He' Hf'].
  - subst v. exact (path_snoc g u u [u] e (path_origin g u Hu) He Hf).
  - exact (path_snoc g u x (u :: e :: p) e' IH He' Hf').
Qed.

Lemma walkb_is_path : forall g, adj_ok g -> forall l u w, node_id g u = true ->
  walkb g u l w = true -> is_path g u w (u :: l).
Proof.
  intros g Hok l. induction l as [|e|e v r IH] using list_ind2; intros u w Hu H.
  - cbn [walkb] in H. assert (E : u = w) by lia. subst w. apply path_origin. exact Hu.
  - discriminate H.
  - cbn [walkb] in H. apply andb_prop in H. destruct H as [H H4].
    apply andb_prop in H. destruct H as [H H3]. apply andb_prop in H. destruct H as [H1 H2].
    assert (Hv : node_id g v = true).
    { replace v with (edge_to g e) by lia. apply (ao_to_node g Hok e H1). }
    apply (is_path_cons g u e v w (v :: r) Hu H1); [lia | lia | exact (IH v w Hv H4)].
Qed.

Theorem is_pathb_spec : forall g o w p, adj_ok g -> (is_pathb g o w p = true <-> is_path g o w p).
Proof.
  intros g o w p Hok. split.
  - intros H. destruct p as [|x l]; [discriminate H|]. cbn [is_pathb] in H.
    apply andb_prop in H. destruct H as [H H3]. apply andb_prop in H. destruct H as [H1 H2].
    assert (E : x = o) by lia. subst x. apply (walkb_is_path g Hok l o w H2 H3).
  - intros H. induction H as [Ho | u p e H IH He Hf].
    + cbn [is_pathb walkb]. rewrite Ho. lia.
    + destruct p as [|x l]; [discriminate IH|]. cbn [is_pathb app] in *.
      apply andb_prop in IH. destruct IH as [IH H3]. rewrite IH. cbn [andb].
      apply (walkb_snoc g l o u e H3 He Hf).
Qed.

Definition dbg : db := with_gr db_new example_graph.

(* 1 -> 2 -> 5 (edges -6, -7) and 1 -> 3 -> 4 -> 5 (edges -8, -9, -10) *)
Definition graph5 : graph :=
  let g := ins_node (ins_node (ins_node (ins_node (ins_node graph_new)))) in
  ins_edge (ins_edge (ins_edge (ins_edge (ins_edge g 1 2) 2 5) 1 3) 3 4) 4 5.
Definition db5 : db := with_gr db_new graph5.
(* everything except node 2 and the edges -6, -7 passes *)
Definition conds5 : list cond := [Cond LAnd MNot (CIds [QId 2; QId (-6); QId (-7)])].

Lemma graph5_adj_ok : adj_ok (gr db5).
Proof. apply adj_okb_sound. vm_compute. reflexivity. Qed.

Example ex_plain :
  adj_ok (gr dbg) /\ path_search rv_fixed dbg [] 1 3 = Some [1; -5; 3] /\
  is_path (gr dbg) 1 3 [1; -5; 3].
Proof.
  split; [exact example_graph_adj_ok|]. split; [vm_compute; reflexivity|].
  exact (path_snoc (gr dbg) 1 1 [1] (-5) (path_origin (gr dbg) 1 eq_refl) eq_refl eq_refl).
Qed.

(* the cheapest path is not the one with the fewest hops: 1 -6 2 -7 5 costs 2+2+2+1 = 7,
   1 -8 3 -9 4 -10 5 costs 6 *)
Example ex_cost_vs_hops :
  adj_ok (gr db5) /\ dist_free conds5 = true /\
  path_search rv_fixed db5 [] 1 5 = Some [1; -6; 2; -7; 5] /\
  path_search rv_fixed db5 conds5 1 5 = Some [1; -8; 3; -9; 4; -10; 5] /\
  is_pathb (gr db5) 1 5 [1; -6; 2; -7; 5] = true /\
  is_pathb (gr db5) 1 5 [1; -8; 3; -9; 4; -10; 5] = true /\
  cost rv_fixed db5 conds5 [1; -6; 2; -7; 5] = 7 /\
  cost rv_fixed db5 conds5 [1; -8; 3; -9; 4; -10; 5] = 6.
Proof. split; [exact graph5_adj_ok|]. vm_compute. repeat split. Qed.

(* an element at which the conditions stop the search cannot be used: edge -5 (1->3) *)
Example ex_stop :
  dist_free [Cond LAnd MNotBeyond (CIds [QId (-5)])] = true /\
  ecost rv_fixed dbg [Cond LAnd MNotBeyond (CIds [QId (-5)])] (-5) = 0 /\
  path_search rv_fixed dbg [Cond LAnd MNotBeyond (CIds [QId (-5)])] 1 3 = Some [1; -4; 2; -6; 3] /\
  path_search rv_fixed dbg [Cond LAnd MNotBeyond (CIds [QId (-5); QId 2])] 1 3 = Some [].
Proof. vm_compute. repeat split. Qed.

(* the final result can be empty although a usable path is found: no element of the cheapest
   path 1 -5 3 (cost 4; the alternative 1 -4 2 -6 3 costs 6) passes the conditions *)
Example ex_nothing_selected :
  let cs := [Cond LAnd MNone (CIds [QId 2; QId (-6)])] in
  dist_free cs = true /\
  path_loop rv_fixed dbg cs 3 (path_fuel (gr dbg)) [init 1 (esel rv_fixed dbg cs 1)] [] =
    Some [(1, false); (-5, false); (3, false)] /\
  path_search rv_fixed dbg cs 1 3 = Some [].
Proof. vm_compute. repeat split. Qed.

(* Why dist_free: with a distance condition the cost of an element depends on the path it is
   reached by, and settling a node through its cheapest path can lose the only usable
   continuation.  graph6: 1 -(-7)-> 2 -(-8)-> 3, 1 -(-9)-> 4 -(-10)-> 5 -(-11)-> 3, 3 -(-12)-> 6.
   Conditions: distance < 7 (an element met at a larger "distance" stops the search) and
   "not one of 2, -7, -8".  Node 3 is settled through the 3-hop path (cost 6 < 7); from there the
   edge -12 gets distance 8 and is refused.  Through the 2-hop path every element of
   1 -7 2 -8 3 -12 6 has a non-zero cost at the distance the search gives it (2 2 2 1 1 1),
   yet the result is empty; without the id condition that very path is returned. *)
Definition graph6 : graph :=
  let g := ins_node (ins_node (ins_node (ins_node (ins_node (ins_node graph_new))))) in
  ins_edge (ins_edge (ins_edge (ins_edge (ins_edge (ins_edge g 1 2) 2 3) 1 4) 4 5) 5 3) 3 6.
Definition db6 : db := with_gr db_new graph6.
Definition conds6 : list cond :=
  [Cond LAnd MNone (CDistance (KLessThan 7)); Cond LAnd MNot (CIds [QId 2; QId (-7); QId (-8)])].

Example ex_distance_dependent :
  adj_ok (gr db6) /\ dist_free conds6 = false /\
  path_search rv_fixed db6 conds6 1 6 = Some [] /\
  is_pathb (gr db6) 1 6 [1; -7; 2; -8; 3; -12; 6] = true /\
  map fst [path_cost rv_fixed db6 conds6 (-7) 2; path_cost rv_fixed db6 conds6 2 2;
           path_cost rv_fixed db6 conds6 (-8) 4; path_cost rv_fixed db6 conds6 3 4;
           path_cost rv_fixed db6 conds6 (-12) 6; path_cost rv_fixed db6 conds6 6 6] = [2; 2; 2; 1; 1; 1] /\
  path_search rv_fixed db6 [Cond LAnd MNone (CDistance (KLessThan 7))] 1 6 = Some [1; -7; 2; -8; 3; -12; 6].
Proof. split; [apply adj_okb_sound; vm_compute; reflexivity|]. vm_compute. repeat split. Qed.

Example ex_degenerate :
  path_search rv_fixed dbg [] 1 1 = Some [] /\ path_search rv_fixed dbg [] 1 9 = Some [] /\
  path_search rv_fixed dbg [] 9 1 = Some [].
Proof. vm_compute. repeat split. Qed.
