(* KvProofs.v — C09: the per-element key-value lists (DbKeyValues) behave as ordered maps: the
   store as an array of lists, insert_or_replace / remove_value / remove on one list; and the update
   of one entry of the list of indexes. *)
From Agdb Require Import Bytes DbValue Graph DbModel DbValueEqProofs.
From Coq Require Import ZifyBool ZifyNat ZifyN.
Open Scope Z_scope.

Lemma zabs_nat_eq i j : zabs_nat i = zabs_nat j <-> Z.abs i = Z.abs j.
Proof. unfold zabs_nat. lia. Qed.

(* the two signs of a slot share one list *)
Lemma kvs_get_abs s i j : Z.abs i = Z.abs j -> kvs_get s i = kvs_get s j.
Proof. intros H. unfold kvs_get. f_equal. now apply zabs_nat_eq. Qed.

Lemma kvs_set_nth_length s n v : length (kvs_set_nth s n v) = Nat.max (length s) (S n).
Proof.
  revert s. induction n as [|n IH]; intros [|x s]; cbn [kvs_set_nth length]; try lia.
  - specialize (IH []). cbn [length] in IH. lia.
  - specialize (IH s). lia.
Qed.

Lemma nth_kvs_set_nth s n v m :
  nth m (kvs_set_nth s n v) [] = if Nat.eqb n m then v else nth m s [].
Proof.
  revert s m. induction n as [|n IH]; intros [|x s] [|m]; cbn [kvs_set_nth nth Nat.eqb]; try reflexivity.
  - now destruct m.
  - rewrite IH. now destruct m.
  - apply IH.
Qed.

Lemma kvs_get_set s i v j :
  kvs_get (kvs_set s i v) j = if Z.abs i =? Z.abs j then v else kvs_get s j.
Proof.
  unfold kvs_get, kvs_set. rewrite nth_kvs_set_nth.
  destruct (Nat.eqb_spec (zabs_nat i) (zabs_nat j)) as [E|E]; rewrite zabs_nat_eq in E.
  - now rewrite (proj2 (Z.eqb_eq _ _) E).
  - now rewrite (proj2 (Z.eqb_neq _ _) E).
Qed.

Lemma nth_removelast {A} (l : list A) (d : A) m :
  nth m (removelast l) d = if Nat.ltb (S m) (length l) then nth m l d else d.
Proof.
  revert m. induction l as [|x l IH]; intros m; cbn [removelast].
  - now destruct m.
  - destruct l as [|y l].
    + cbn. now destruct m.
    + destruct m as [|m]; [reflexivity|].
      cbn [nth]. rewrite IH. cbn [length]. reflexivity.
Qed.

Lemma kvs_get_remove s i j :
  kvs_get (kvs_remove s i) j = if Z.abs i =? Z.abs j then [] else kvs_get s j.
Proof.
  unfold kvs_remove.
  destruct (Nat.eqb_spec (S (zabs_nat i)) (length s)) as [E|E].
  - unfold kvs_get. rewrite nth_removelast.
    destruct (Z.eqb_spec (Z.abs i) (Z.abs j)) as [E2|E2].
    + apply zabs_nat_eq in E2. rewrite <- E2.
      destruct (Nat.ltb_spec (S (zabs_nat i)) (length s)); [lia|reflexivity].
    + destruct (Nat.ltb_spec (S (zabs_nat j)) (length s)); [reflexivity|].
      symmetry. apply nth_overflow. rewrite <- zabs_nat_eq in E2. lia.
  - destruct (Nat.ltb_spec (zabs_nat i) (length s)) as [L|L].
    + apply kvs_get_set.
    + destruct (Z.eqb_spec (Z.abs i) (Z.abs j)) as [E2|E2]; [|reflexivity].
      apply zabs_nat_eq in E2. unfold kvs_get. rewrite <- E2. apply nth_overflow. lia.
Qed.

Lemma kvs_get_reserve s i j : kvs_get (kvs_reserve s i) j = kvs_get s j.
Proof.
  unfold kvs_reserve. destruct (Nat.ltb_spec (zabs_nat i) (length s)) as [L|L]; [reflexivity|].
  rewrite kvs_get_set. destruct (Z.eqb_spec (Z.abs i) (Z.abs j)) as [E|E]; [|reflexivity].
  apply zabs_nat_eq in E. unfold kvs_get. rewrite <- E. symmetry. apply nth_overflow. lia.
Qed.

Definition has_key (l : list kv) (k : dbvalue) : bool := existsb (fun p : kv => dbv_eqb (fst p) k) l.
Definition kv_find (l : list kv) (k : dbvalue) : option kv := find (fun p : kv => dbv_eqb (fst p) k) l.
Definition kv_lookup (l : list kv) (k : dbvalue) : option dbvalue :=
  match kv_find l k with Some p => Some (snd p) | None => None end.

Fixpoint keys_distinct (l : list kv) : Prop :=
  match l with
  | [] => True
  | x :: r => has_key r (fst x) = false /\ keys_distinct r
  end.

Lemma kvs_value_lookup s i k : kvs_value s i k = kv_lookup (kvs_get s i) k.
Proof. reflexivity. Qed.

Lemma has_key_app l1 l2 k : has_key (l1 ++ l2) k = has_key l1 k || has_key l2 k.
Proof. apply existsb_app. Qed.

Lemma has_key_congr l k k' : dbv_eqb k k' = true -> has_key l k = has_key l k'.
Proof.
  intros H. induction l as [|x l IH]; cbn [has_key existsb]; [reflexivity|].
  fold (has_key l k). fold (has_key l k'). rewrite IH. f_equal. now apply dbv_eqb_congr_r.
Qed.

Lemma has_key_false_in l k p : has_key l k = false -> In p l -> dbv_eqb (fst p) k = false.
Proof.
  induction l as [|x l IH]; cbn [has_key existsb In]; [intros _ []|].
  intros H [->|Hin]; apply orb_false_iff in H; [tauto|]. apply IH; tauto.
Qed.

(* a test with the same answer on every element keeps all of the list or nothing *)
Lemma filter_const {A} (f : A -> bool) (b : bool) l :
  (forall x, In x l -> f x = b) -> filter f l = if b then l else [].
Proof.
  induction l as [|a l IH]; cbn [filter]; intros H; [now destruct b|].
  rewrite (H a (or_introl eq_refl)), IH by (intros x Hx; apply H; now right). now destruct b.
Qed.

Lemma has_key_find l k : has_key l k = match kv_find l k with Some _ => true | None => false end.
Proof.
  induction l as [|x l IH]; cbn [has_key existsb kv_find find]; [reflexivity|].
  destruct (dbv_eqb (fst x) k); [reflexivity|exact IH].
Qed.

Lemma kv_find_none l k : has_key l k = false -> kv_find l k = None.
Proof. rewrite has_key_find. now destruct (kv_find l k). Qed.

Lemma kv_find_some l k p : kv_find l k = Some p -> In p l /\ dbv_eqb (fst p) k = true.
Proof. intros H. apply find_some in H. exact H. Qed.

(* with distinct keys any matching pair is THE pair found *)
Lemma kv_find_in l k p :
  keys_distinct l -> In p l -> dbv_eqb (fst p) k = true -> kv_find l k = Some p.
Proof.
  induction l as [|x l IH]; cbn [keys_distinct In kv_find find]; [intros _ []|].
  intros [Hx Hd] [->|Hin] Hk.
  - now rewrite Hk.
  - destruct (dbv_eqb (fst x) k) eqn:E; [|now apply IH].
    exfalso. pose proof (has_key_false_in l (fst x) p Hx Hin) as Hf.
    rewrite (dbv_eqb_congr_r (fst x) k (fst p) E) in Hf. congruence.
Qed.

Lemma keys_distinct_app l1 l2 :
  keys_distinct (l1 ++ l2) <->
  keys_distinct l1 /\ keys_distinct l2 /\ (forall p, In p l1 -> has_key l2 (fst p) = false).
Proof.
  induction l1 as [|x l1 IH]; cbn [app keys_distinct].
  - split; [intros H; repeat split; [exact H|intros p []]|tauto].
  - rewrite has_key_app, orb_false_iff, IH. split.
    + intros [[H1 H2] (H3 & H4 & H5)]. repeat split; try assumption.
      intros p [->|Hin]; [exact H2|now apply H5].
    + intros [[H1 H2] [H3 H4]]. repeat split; try assumption.
      * apply H4. now left.
      * intros p Hin. apply H4. now right.
Qed.

Lemma keys_distinct_snoc l x : keys_distinct l -> has_key l (fst x) = false -> keys_distinct (l ++ [x]).
Proof.
  intros Hd Hx. apply keys_distinct_app. split; [exact Hd|]. split; [split; [reflexivity|exact I]|].
  intros p Hin. cbn [has_key existsb]. rewrite orb_false_r, dbv_eqb_sym.
  now apply (has_key_false_in l (fst x) p).
Qed.

(* taking one pair out of a list with distinct keys *)
Lemma keys_distinct_mid l1 x l2 :
  keys_distinct (l1 ++ x :: l2) -> has_key l1 (fst x) = false /\ keys_distinct (l1 ++ l2).
Proof.
  rewrite !keys_distinct_app. cbn [keys_distinct]. intros (H1 & [H2 H3] & H4). split.
  - destruct (has_key l1 (fst x)) eqn:Eh; [|reflexivity].
    apply existsb_exists in Eh. destruct Eh as [p [Hin Hp]].
    specialize (H4 p Hin). cbn [has_key existsb] in H4. apply orb_false_iff in H4.
    rewrite dbv_eqb_sym in Hp. destruct H4; congruence.
  - repeat split; try assumption. intros p Hin. specialize (H4 p Hin).
    cbn [has_key existsb] in H4. apply orb_false_iff in H4. tauto.
Qed.

Lemma keys_distinct_nodup l : keys_distinct l -> NoDup l.
Proof.
  induction l as [|x l IH]; cbn [keys_distinct]; [constructor|].
  intros [Hx Hd]. constructor; [|now apply IH].
  intros Hin. pose proof (has_key_false_in l (fst x) x Hx Hin) as H.
  now rewrite dbv_eqb_refl in H.
Qed.

Lemma kv_find_app l1 l2 k :
  kv_find (l1 ++ l2) k = match kv_find l1 k with Some p => Some p | None => kv_find l2 k end.
Proof.
  induction l1 as [|x l1 IH]; cbn [app kv_find find]; [reflexivity|].
  destruct (dbv_eqb (fst x) k); [reflexivity|exact IH].
Qed.

Lemma replace_first_none l x : replace_first l x = None <-> has_key l (fst x) = false.
Proof.
  induction l as [|y l IH]; cbn [replace_first has_key existsb]; [tauto|].
  fold (has_key l (fst x)).
  destruct (dbv_eqb (fst y) (fst x)); cbn [orb]; [split; discriminate|].
  destruct (replace_first l x) as [[old r']|].
  - split; [discriminate|]. intros H. apply IH in H. discriminate.
  - split; [intros _; now apply IH|reflexivity].
Qed.

(* the shape of a replacement: same position, same length, only that pair changes *)
Lemma replace_first_some l x old l' :
  replace_first l x = Some (old, l') ->
  exists l1 l2, l = l1 ++ old :: l2 /\ l' = l1 ++ x :: l2 /\
                has_key l1 (fst x) = false /\ dbv_eqb (fst old) (fst x) = true.
Proof.
  revert l'. induction l as [|y l IH]; intros l'; cbn [replace_first]; [discriminate|].
  destruct (dbv_eqb (fst y) (fst x)) eqn:E.
  - intros H. inversion H; subst. exists [], l. repeat split. exact E.
  - destruct (replace_first l x) as [[old0 r']|]; [|discriminate].
    intros H. inversion H; subst.
    destruct (IH r' eq_refl) as (l1 & l2 & H1 & H2 & H3 & H4).
    exists (y :: l1), l2. subst. repeat split; [|exact H4].
    cbn [has_key existsb]. fold (has_key l1 (fst x)). now rewrite E, H3.
Qed.

Lemma replace_shape_has_key l1 l2 old x k :
  dbv_eqb (fst old) (fst x) = true ->
  has_key (l1 ++ x :: l2) k = has_key (l1 ++ old :: l2) k.
Proof.
  intros H. rewrite !has_key_app. f_equal. cbn [has_key existsb]. f_equal.
  symmetry. now apply dbv_eqb_congr_l.
Qed.

Lemma replace_shape_distinct l1 l2 old x :
  dbv_eqb (fst old) (fst x) = true ->
  keys_distinct (l1 ++ old :: l2) -> keys_distinct (l1 ++ x :: l2).
Proof.
  intros H. rewrite !keys_distinct_app. cbn [keys_distinct].
  intros (H1 & [H2 H3] & H4). repeat split; try assumption.
  - rewrite <- H2. symmetry. now apply has_key_congr.
  - intros p Hin. specialize (H4 p Hin). cbn [has_key existsb] in *.
    rewrite <- H4. f_equal. symmetry. now apply dbv_eqb_congr_l.
Qed.

(* lookups after insert_or_replace on one list, both branches *)
Lemma kv_find_replace_shape l1 l2 old x k :
  has_key l1 (fst x) = false -> dbv_eqb (fst old) (fst x) = true ->
  kv_find (l1 ++ x :: l2) k =
  if dbv_eqb (fst x) k then Some x else kv_find (l1 ++ old :: l2) k.
Proof.
  intros H1 H2. rewrite !kv_find_app. cbn [kv_find find].
  fold (kv_find l2 k). fold (kv_find l1 k).
  destruct (dbv_eqb (fst x) k) eqn:E.
  - apply dbv_eqb_true in E as <-. now rewrite (kv_find_none l1 _ H1).
  - rewrite (dbv_eqb_congr_l (fst old) (fst x) k H2), E. reflexivity.
Qed.

Lemma kv_find_snoc_new l x k :
  has_key l (fst x) = false ->
  kv_find (l ++ [x]) k = if dbv_eqb (fst x) k then Some x else kv_find l k.
Proof.
  intros H. rewrite kv_find_app. cbn [kv_find find]. fold (kv_find l k).
  destruct (dbv_eqb (fst x) k) eqn:E; [|now destruct (kv_find l k)].
  apply dbv_eqb_true in E as <-. now rewrite (kv_find_none l _ H).
Qed.

Lemma remove_first_key_absent l k : has_key l k = false -> remove_first_key l k = l.
Proof.
  induction l as [|y l IH]; cbn [remove_first_key has_key existsb]; [reflexivity|].
  fold (has_key l k). intros H. apply orb_false_iff in H. destruct H as [H1 H2].
  rewrite H1. f_equal. now apply IH.
Qed.

Lemma remove_first_key_app l1 l2 k :
  has_key l1 k = false -> remove_first_key (l1 ++ l2) k = l1 ++ remove_first_key l2 k.
Proof.
  induction l1 as [|y l1 IH]; cbn [app remove_first_key has_key existsb]; [reflexivity|].
  fold (has_key l1 k). intros H. apply orb_false_iff in H. destruct H as [H1 H2].
  rewrite H1. f_equal. now apply IH.
Qed.

Lemma remove_first_key_mid l1 x l2 :
  has_key l1 (fst x) = false -> remove_first_key (l1 ++ x :: l2) (fst x) = l1 ++ l2.
Proof. intros H. rewrite remove_first_key_app by exact H. cbn [remove_first_key]. now rewrite dbv_eqb_refl. Qed.

(* with distinct keys remove_value deletes exactly the pairs with that key, order kept *)
Lemma remove_first_key_filter l k :
  keys_distinct l -> remove_first_key l k = filter (fun p : kv => negb (dbv_eqb (fst p) k)) l.
Proof.
  induction l as [|y l IH]; cbn [keys_distinct remove_first_key filter]; [reflexivity|].
  intros [Hy Hd]. destruct (dbv_eqb (fst y) k) eqn:E; cbn [negb].
  - apply dbv_eqb_true in E as <-. symmetry. apply (filter_const _ true).
    intros p Hp. now rewrite (has_key_false_in l _ p Hy Hp).
  - f_equal. now apply IH.
Qed.

Lemma filter_keys_distinct (f : kv -> bool) l : keys_distinct l -> keys_distinct (filter f l).
Proof.
  induction l as [|y l IH]; cbn [keys_distinct filter]; [trivial|].
  intros [Hy Hd]. destruct (f y); [|now apply IH].
  cbn [keys_distinct]. split; [|now apply IH].
  clear -Hy. induction l as [|z l IH]; cbn [filter]; [reflexivity|].
  cbn [has_key existsb] in Hy. apply orb_false_iff in Hy. destruct Hy as [H1 H2].
  destruct (f z); [|now apply IH]. cbn [has_key existsb]. rewrite H1. now apply IH.
Qed.

Lemma remove_first_key_distinct l k : keys_distinct l -> keys_distinct (remove_first_key l k).
Proof. intros H. rewrite (remove_first_key_filter l k H). now apply filter_keys_distinct. Qed.

(* the list of indexes, a list keyed the same way: lookups after the update of one entry *)
Lemma idx_find_cons k ids r key :
  idx_find ((k, ids) :: r) key = if dbv_eqb k key then Some ids else idx_find r key.
Proof. unfold idx_find. cbn [find fst snd]. now destruct (dbv_eqb k key). Qed.

Lemma idx_find_update ix key f key' :
  idx_find (idx_update ix key f) key' =
  match idx_find ix key' with
  | Some ids => Some (if dbv_eqb key key' then f ids else ids)
  | None => None
  end.
Proof.
  induction ix as [|[k ids] r IH]; cbn [idx_update]; [reflexivity|].
  destruct (dbv_eqb k key) eqn:E; rewrite !idx_find_cons.
  - apply dbv_eqb_true in E as ->. destruct (dbv_eqb key key'); [reflexivity|]. now destruct (idx_find r key').
  - rewrite IH. destruct (dbv_eqb k key') eqn:E'; [|reflexivity].
    apply dbv_eqb_true in E' as ->. now rewrite (dbv_eqb_sym key key'), E.
Qed.

Lemma idx_update_update ix key f g :
  idx_update (idx_update ix key f) key g = idx_update ix key (fun ids => g (f ids)).
Proof.
  induction ix as [|[k ids] r IH]; cbn [idx_update]; [reflexivity|].
  destruct (dbv_eqb k key) eqn:E; cbn [idx_update]; rewrite E; [reflexivity|now rewrite IH].
Qed.

Lemma idx_update_keys ix key f : map fst (idx_update ix key f) = map fst ix.
Proof.
  induction ix as [|[k ids] r IH]; cbn [idx_update map fst]; [reflexivity|].
  destruct (dbv_eqb k key); cbn [map fst]; [reflexivity|]. now rewrite IH.
Qed.
