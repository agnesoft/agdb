(* C15 — Search conditions select and prune exactly as documented.
   The statements, each proved in a line or two from the theorems of theories/CondProofs.v
   (and DbValueProofs.v, ElementsSearchProofs.v).
   `DocSpec` (in CondProofs.v) is the documented semantics written independently of the
   model: the And / Or / Modifiers / Results tables of queries.md and a recursive reference
   evaluator `doc_eval` written from the prose. *)
From Agdb Require Import Bytes DbValue DbModel Search Revisions ElementsSearchProofs CondProofs.
Import DocSpec.
Open Scope Z_scope.

(* #### And: sc_and is the documented table — as a function (doc_and reads the six rows as
   unordered pairs), row by row in both orders, the rows cover every pair, commutative. *)
Theorem C15_and_table :
  (forall l r : sc, sc_and l r = doc_and l r) /\
  (forall k1 k2 k a b, In (k1, k2, k) and_rows ->
     sc_and (mk k1 a) (mk k2 b) = mk k (a && b) /\ sc_and (mk k2 b) (mk k1 a) = mk k (a && b)) /\
  (forall k1 k2, exists k, In (k1, k2, k) and_rows \/ In (k2, k1, k) and_rows) /\
  (forall l r : sc, sc_and l r = sc_and r l).
Proof. exact and_table. Qed.
Print Assumptions C15_and_table.

(* #### Or *)
Theorem C15_or_table :
  (forall l r : sc, sc_or l r = doc_or l r) /\
  (forall k1 k2 k a b, In (k1, k2, k) or_rows ->
     sc_or (mk k1 a) (mk k2 b) = mk k (a || b) /\ sc_or (mk k2 b) (mk k1 a) = mk k (a || b)) /\
  (forall k1 k2, exists k, In (k1, k2, k) or_rows \/ In (k2, k1, k) or_rows) /\
  (forall l r : sc, sc_or l r = sc_or r l).
Proof. exact or_table. Qed.
Print Assumptions C15_or_table.

(* "Finish ... is only used internally with offset and limit": evaluating conditions
   (any nesting, any modifiers) never yields Finish — for every revision. *)
Theorem C15_no_finish :
  forall rv d index distance conds b, eval_conditions rv d index distance conds <> Finish b.
Proof. exact eval_conditions_not_finish. Qed.
Print Assumptions C15_no_finish.

(* #### Results: only Distance and Where may yield Stop; everything else yields Continue. *)
Theorem C15_result_table :
  forall rv d index distance c,
    kind_of (eval_data rv d index distance c) = KContinue \/
    (may_stop c = true /\ kind_of (eval_data rv d index distance c) = KStop).
Proof. exact result_table. Qed.
Print Assumptions C15_result_table.

Example C15_result_table_stop :
  forall rv d,
    eval_data rv d 1 3 (CDistance (KLessThan 2)) = Stop false /\
    eval_data rv d 1 3 (CWhere [Cond LAnd MNone (CDistance (KEqual 3))]) = Stop true /\
    eval_data rv d 1 3 (CWhere [Cond LAnd MNotBeyond CNode]) = Stop true.
Proof. exact result_table_stop_witness. Qed.
Print Assumptions C15_result_table_stop.

(* #### Modifiers.  `step_result lg md distance result c0` is one iteration of the loop of
   evaluate_conditions (C15_eval_is_fold below): the accumulated `result` combined by `lg`
   with the `md`-modified outcome `c0` of the condition. *)
Theorem C15_eval_is_fold :
  forall rv d index distance conds,
    eval_conditions rv d index distance conds =
    fold_left (fun result c =>
                 match c with
                 | Cond lg md data => step_result lg md distance result (eval_data rv d index distance data)
                 end) conds (Continue true).
Proof. exact eval_where_fold. Qed.
Print Assumptions C15_eval_is_fold.

Theorem C15_modifiers :
  (* Beyond / NotBeyond never affect element selection *)
  (forall lg md distance result c0, md = MBeyond \/ md = MNotBeyond ->
     sc_true (step_result lg md distance result c0) = sc_true result) /\
  (* traversal, chained with And: Continue becomes Stop exactly when the Beyond condition
     fails (not at the start element) / the NotBeyond condition passes *)
  (forall distance result c0,
     step_result LAnd MBeyond distance result c0 =
       (if sc_true c0 || (distance =? 0) then result else stop_and result) /\
     step_result LAnd MNotBeyond distance result c0 =
       (if sc_true c0 then stop_and result else result)) /\
  (* traversal, chained with Or (table: x || Continue = Continue, x || Stop = x) *)
  (forall distance result c0, kind_of result <> KFinish ->
     step_result LOr MBeyond distance result c0 =
       (if sc_true c0 || (distance =? 0) then Continue (sc_true result) else result) /\
     step_result LOr MNotBeyond distance result c0 =
       (if sc_true c0 then result else Continue (sc_true result))) /\
  (* the start element is exempt from Beyond *)
  (forall result c0, step_result LAnd MBeyond 0 result c0 = result /\
                     step_result LOr MBeyond 0 result c0 = Continue (sc_true result)) /\
  (* Not reverses the selection result and nothing else *)
  (forall lg distance result c0,
     step_result lg MNot distance result c0 = sc_logic lg result (mk (kind_of c0) (negb (sc_true c0)))) /\
  (* the documented modifier table (doc_modifier), chained by the documented And / Or *)
  (forall lg md distance result c0,
     step_result lg md distance result c0 = doc_logic lg result (doc_modifier md lg distance c0)).
Proof. exact modifiers. Qed.
Print Assumptions C15_modifiers.

(* Key-value comparisons are type strict (the repaired code: fix_strict_order). *)
Theorem C15_type_strict :
  (forall op l r,
     In op [CEqual; CGreaterThan; CGreaterThanOrEqual; CLessThan; CLessThanOrEqual] ->
     value_compare true op l r = true -> same_kind l r = true) /\
  (forall l r, same_kind l r = false -> value_compare true CNotEqual l r = true) /\
  (forall op l r,
     In op [CContains; CStartsWith; CEndsWith] ->
     value_compare true op l r = true ->
     In (kind l, kind r) container_pairs /\
     (same_kind l r = true \/ In (kind l, kind r) cross_kind_pairs)) /\
  (forall op l r, value_compare true op l r = doc_compare op l r).
Proof. exact type_strict. Qed.
Print Assumptions C15_type_strict.

(* each documented container pair is inhabited; Equal(1_i64).compare(1_u64) is false *)
Example C15_type_strict_examples :
  let s := fun l => DString l in
  value_compare true CContains (s [x61; x62; x63]) (s [x62; x63]) = true /\
  value_compare true CContains (s [x61; x62; x63; x64]) (DVecString [[x62; x63]; [x64]]) = true /\
  value_compare true CContains (DVecI64 [1; 2]) (DI64 2) = true /\
  value_compare true CContains (DVecI64 [1; 2]) (DVecI64 [2; 1]) = true /\
  value_compare true CContains (DVecU64 [1; 2]%N) (DU64 2) = true /\
  value_compare true CContains (DVecU64 [1; 2]%N) (DVecU64 [2]%N) = true /\
  value_compare true CContains (DVecF64 [1; 2]%N) (DF64 2) = true /\
  value_compare true CContains (DVecF64 [1; 2]%N) (DVecF64 [2]%N) = true /\
  value_compare true CContains (DVecString [[x61]; [x62]]) (s [x62]) = true /\
  value_compare true CContains (DVecString [[x61]; [x62]]) (DVecString [[x62]]) = true /\
  value_compare true CStartsWith (s [x61; x62; x63]) (DVecString [[x61]; [x62]]) = true /\
  value_compare true CEndsWith (DVecI64 [1; 2]) (DI64 2) = true /\
  value_compare true CEqual (DU64 1) (DI64 1) = false.
Proof. exact container_pairs_inhabited. Qed.
Print Assumptions C15_type_strict_examples.

(* the defect that was repaired: the pinned code ordered values across kinds *)
Theorem C15_type_strict_pinned_refuted :
  value_compare (fix_strict_order rv_pinned) CGreaterThan (DU64 5) (DI64 30) = true /\
  same_kind (DU64 5) (DI64 30) = false /\
  value_compare (fix_strict_order rv_fixed) CGreaterThan (DU64 5) (DI64 30) = false.
Proof. exact type_strict_pinned_refuted. Qed.
Print Assumptions C15_type_strict_pinned_refuted.

(* Distance: selection = the numerical comparison; Stop only when no greater distance can
   satisfy it, Continue only when this or a greater distance does. *)
Theorem C15_distance :
  forall c dist,
    sc_true (compare_distance c dist) = count_compare c dist /\
    kind_of (compare_distance c dist) <> KFinish /\
    (kind_of (compare_distance c dist) = KStop ->
       forall dist', dist < dist' -> count_compare c dist' = false) /\
    (kind_of (compare_distance c dist) = KContinue ->
       exists dist', dist <= dist' /\ count_compare c dist' = true).
Proof. exact distance_spec. Qed.
Print Assumptions C15_distance.

(* The evaluator of the code (all ten condition kinds, all modifiers, both logic operators,
   any nesting depth) is the documented reference evaluator — for the repaired code and
   every revision with strict comparisons. *)
Theorem C15_eval_matches_doc :
  forall d index distance conds,
    eval_conditions rv_fixed d index distance conds = doc_eval d index distance conds.
Proof. intros. apply eval_matches_doc. reflexivity. Qed.
Print Assumptions C15_eval_matches_doc.

(* before the repair the evaluator did not meet the documentation: age = 5_u64 passed `age > 30_i64` *)
Theorem C15_eval_matches_doc_pinned_refuted :
  let conds := [Cond LAnd MNone (CKeyValue (DString [x61; x67; x65]) CGreaterThan (DI64 30))] in
  eval_conditions rv_pinned strict_example_db 1 0 conds = Continue true /\
  doc_eval strict_example_db 1 0 conds = Continue false /\
  eval_conditions rv_fixed strict_example_db 1 0 conds = Continue false.
Proof. exact eval_matches_doc_pinned_refuted. Qed.
Print Assumptions C15_eval_matches_doc_pinned_refuted.

Example C15_eval_example :
  let conds := [Cond LAnd MNone CNode;
                Cond LOr MNone (CWhere [Cond LAnd MNone CEdge; Cond LAnd MNot (CIds [QId (-2)])]);
                Cond LAnd MBeyond (CDistance (KLessThan 3));
                Cond LAnd MNotBeyond (CIds [QId 7])] in
  doc_eval db_new 7 2 conds = Stop true /\ doc_eval db_new (-2) 4 conds = Stop false /\
  doc_eval db_new (-3) 1 conds = Continue true.
Proof. exact eval_matches_doc_example. Qed.
Print Assumptions C15_eval_example.

(* Selection and extent of the traversal: in the search loop an unvisited element is added
   iff the control is true, its neighbourhood is followed iff the control is Continue (not
   followed iff Stop), the search ends iff Finish (which only limit/offset produce); without
   limit/offset the control is the documented evaluator's. *)
Theorem C15_search_step :
  forall rv d a reverse origin conds h f index dist rest vis counter acc control counter',
    visited vis index = false ->
    handle h counter (eval_conditions rv d index dist conds) = (control, counter') ->
    search_loop rv d a reverse origin conds h (S f) ((index, dist) :: rest) vis counter acc =
    let acc' := if sc_true control then index :: acc else acc in
    match kind_of control with
    | KFinish => Some (rev acc')
    | _ => search_loop rv d a reverse origin conds h f
             (expand rv (gr d) a reverse origin rest (index, dist) (follows control))
             (Z.abs index :: vis) counter' acc'
    end.
Proof. exact search_loop_step. Qed.
Print Assumptions C15_search_step.

Theorem C15_search_step_doc :
  forall d a reverse origin conds f index dist rest vis counter acc,
    visited vis index = false ->
    search_loop rv_fixed d a reverse origin conds HDefault (S f) ((index, dist) :: rest) vis counter acc =
    let c := doc_eval d index dist conds in
    search_loop rv_fixed d a reverse origin conds HDefault f
      (expand rv_fixed (gr d) a reverse origin rest (index, dist) (follows c))
      (Z.abs index :: vis) counter (if sc_true c then index :: acc else acc).
Proof. intros. apply search_step_doc; [reflexivity|assumption]. Qed.
Print Assumptions C15_search_step_doc.

Theorem C15_elements_step_doc :
  forall d conds index r distance counter acc,
    elements_loop rv_fixed d conds HDefault (index :: r) distance counter acc =
    elements_loop rv_fixed d conds HDefault r (distance + 1) counter
      (if sc_true (doc_eval d index distance conds) then index :: acc else acc).
Proof. intros. apply elements_loop_step_doc. reflexivity. Qed.
Print Assumptions C15_elements_step_doc.

(* "Paths": cost 1 for an element that passes (selected), 2 for one that fails, 0 (its paths are
   no longer considered) when the search is not to continue beyond it *)
Theorem C15_path_cost :
  forall d conds index distance,
    path_cost rv_fixed d conds index distance =
    match doc_eval d index distance conds with
    | Continue add => (if add then 1 else 2, add)
    | Stop add => (0, add)
    | Finish add => (0, add)
    end /\ kind_of (doc_eval d index distance conds) <> KFinish.
Proof. intros. apply path_cost_doc. reflexivity. Qed.
Print Assumptions C15_path_cost.
