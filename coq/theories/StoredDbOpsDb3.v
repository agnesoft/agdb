(* StoredDbOpsDb3.v — proofs (stored database): DbImpl::insert_edge and insert_or_replace_key_value keep the
   database stored; the five core operations in one statement (so_op_stored), every history of them (so_ops_stored),
   and the transfer of `so_open ;; P` to the model of storage.rs (so_open_then_on_storage: C04's refinement, cwp_sound). *)
From Coq Require Import Permutation.
From Agdb Require Import Bytes DbValue Graph DbModel Storage StorageSpec StorageRefine StorageProofs Collections
  CollValues CollWp CollVecBase CollValuesProofs StoredDbRep StoredDbFrame StoredDbOps StoredDbOpsGraph StoredDbOpsGraph2
  StoredDbOpsDb StoredDbOpsKv StoredDbOpsKv2 StoredDbOpsKv3 StoredDbOpsDb2.
From Coq Require Import ZifyBool ZifyNat ZifyN.
Ltac Zify.zify_post_hook ::= Z.div_mod_to_equations.
Open Scope N_scope.

Lemma so_with_graph_eta h : so_with_graph h (so_graph h) = h.
Proof. destruct h. reflexivity. Qed.

(* neither the new key nor the key of the pair it replaces has an index *)
Definition so_not_indexed (d : db) (id : Z) (x : kv) : Prop :=
  idx_find (indexes d) (fst x) = None /\
  match fst (kvs_insert_or_replace (vals d) id x) with Some old => idx_find (indexes d) (fst old) = None | None => True end.

Definition so_kv_fits (d : db) (id : Z) : Prop := 8 + ce_size ce_dbkv * (lenN (kvs_get (vals d) id) + 1) < two64.

(* with no index on the keys involved, insert_or_replace_key_value changes the values (and the undo stack) only *)
Lemma ior_fields d id x : so_not_indexed d id x ->
  let d' := insert_or_replace_key_value d id x in
  gr d' = gr d /\ aliases d' = aliases d /\ vals d' = snd (kvs_insert_or_replace (vals d) id x) /\ indexes d' = indexes d.
Proof.
  intros [Hnx Hno]. unfold insert_or_replace_key_value.
  destruct (kvs_insert_or_replace (vals d) id x) as [[old|] s']; cbn [fst snd] in *;
    unfold index_insert_if, index_remove_if, idx_insert_id, idx_remove_id;
    cbn [with_vals push_undo with_indexes gr aliases vals indexes]; repeat split.
  - rewrite (idx_update_not_indexed _ _ _ Hno). apply idx_update_not_indexed. exact Hno.
  - apply idx_update_not_indexed. exact Hnx.
Qed.

Section Ops3.
  Variable fl : bool.

  (* DbImpl::insert_edge *)
  Theorem so_insert_edge_stored root d w h f t sp (Q : cres (so_db * option Z) -> spec -> Prop) :
    stored_db_w (hp sp) root d w -> so_handles h w -> so_graph_ok (gr d) ->
    (insert_edge (gr d) f t <> None -> so_edge_ok (gr d) f t) ->
    match insert_edge_db d f t with
    | DbModel.ROk (e, d') =>
      forall h' dg' s' sp',
        stored_db_w (hp sp') root d' (sd_with_graph w dg' s') -> so_handles h' (sd_with_graph w dg' s') ->
        sdepth sp' = sdepth sp ->
        frame (hp sp) (hp sp') (sd_foot root w) (sd_foot root (sd_with_graph w dg' s')) ->
        Q (CrOk (h', Some e)) sp'
    | DbModel.RErr _ => Q (CrOk (h, None)) sp
    end ->
    cwp fl (so_insert_edge h f t) sp Q.
  Proof.
    intros H [Hh1 Hh2] OK HE HQ. unfold so_insert_edge. apply cwp_bind. rewrite Hh1.
    eapply so_graph_insert_edge_spec; [exact (sr_graph _ _ _ _ H)|exact OK| |exact HE].
    unfold insert_edge_db in HQ. destruct (insert_edge (gr d) f t) as [[e G']|].
    - intros dg' s' sp' HG Hi Hd Hf. cbn [kont cwp fst snd].
      destruct (sd_graph_update _ _ root d w dg' s' G' H Hi HG Hf) as [H' F'].
      eapply HQ; [|split; [reflexivity|exact Hh2]|exact Hd|exact F'].
      apply (stored_db_w_same _ _ _ _ _ H'); reflexivity.
    - cbn [kont cwp fst snd]. rewrite <- Hh1, so_with_graph_eta. exact HQ.
  Qed.

  (* DbImpl::insert_or_replace_key_value (keys not indexed) *)
  Theorem so_insert_or_replace_key_value_stored' root d w h id x sp (Q : cres (so_db * option kv) -> spec -> Prop) :
    stored_db_w (hp sp) root d w -> so_handles h w ->
    so_not_indexed d id x -> so_index_ok (cg_as_u64 id) -> el_valid law_dbkv x -> so_kv_fits d id ->
    (forall h' vh' vs' vi' vw' sp',
        stored_db_w (hp sp') root (insert_or_replace_key_value d id x) (sd_with_values w vh' vs' vi' vw') ->
        so_handles h' (sd_with_values w vh' vs' vi' vw') -> sdepth sp' = sdepth sp ->
        frame (hp sp) (hp sp') (sd_foot root w) (sd_foot root (sd_with_values w vh' vs' vi' vw')) ->
        slot_alloc (zabs_nat id) (sw_vi w) vi' ->
        Q (CrOk (h', fst (kvs_insert_or_replace (vals d) id x))) sp') ->
    cwp fl (so_insert_or_replace_key_value h id x) sp Q.
  Proof.
    intros H [Hh1 Hh2] Hn Hix Hx Hfit HQ. unfold so_insert_or_replace_key_value. apply cwp_bind. rewrite Hh2.
    eapply so_kv_insert_or_replace_spec; [exact (stored_kvrep _ _ _ _ H)|exact Hix|exact Hx|rewrite zabs_as_u64; exact Hfit|].
    rewrite zabs_as_u64, <- kvs_ior_model.
    intros vh1 vs1 vi1 vw1 sp' HK I1 D1 F1 K1 A1. cbn [kont cwp fst snd].
    destruct (ior_fields d id x Hn) as (E1 & E2 & E3 & E4).
    destruct (stored_values_update _ _ root d (insert_or_replace_key_value d id x) w vh1 vs1 vi1 vw1 _ H I1 HK F1 E1 E2 E3 E4) as [H' F'].
    eapply HQ; [exact H'|split; [exact Hh1|reflexivity]|exact D1|exact F'|split; assumption].
  Qed.

  Definition so_op_model (d : db) (o : so_op) : db * so_out :=
    match o with
    | SoInsertNode => (snd (insert_node_db d), SoId (fst (insert_node_db d)))
    | SoInsertEdge f t => match insert_edge_db d f t with DbModel.ROk (e, d') => (d', SoId e) | DbModel.RErr _ => (d, SoErr) end
    | SoReserve id len => (reserve_kv d id, SoUnit)
    | SoInsertKeyValue id x => (insert_key_value d id x, SoUnit)
    | SoInsertOrReplace id x => (insert_or_replace_key_value d id x, SoOld (fst (kvs_insert_or_replace (vals d) id x)))
    end.

  Definition so_op_ok (d : db) (o : so_op) : Prop :=
    match o with
    | SoInsertNode => so_graph_ok (gr d)
    | SoInsertEdge f t => so_graph_ok (gr d) /\ (insert_edge (gr d) f t <> None -> so_edge_ok (gr d) f t)
    | SoReserve id len => so_index_ok (cg_as_u64 id)
    | SoInsertKeyValue id x =>
      idx_find (indexes d) (fst x) = None /\ so_index_ok (cg_as_u64 id) /\ el_valid law_dbkv x /\ so_kv_fits d id
    | SoInsertOrReplace id x =>
      so_not_indexed d id x /\ so_index_ok (cg_as_u64 id) /\ el_valid law_dbkv x /\ so_kv_fits d id
    end.

  Definition so_post (root : N) (w : sd_wit) (sp : spec) {A} (d' : db) (out : A) (r : cres (so_db * A)) (sp' : spec) : Prop :=
    exists h' w', r = CrOk (h', out) /\ stored_db_w (hp sp') root d' w' /\ so_handles h' w' /\ sdepth sp' = sdepth sp /\
                  frame (hp sp) (hp sp') (sd_foot root w) (sd_foot root w').

  Lemma so_post_intro root w sp {A} d' (out : A) h' w' sp' :
    stored_db_w (hp sp') root d' w' -> so_handles h' w' -> sdepth sp' = sdepth sp ->
    frame (hp sp) (hp sp') (sd_foot root w) (sd_foot root w') -> so_post root w sp d' out (CrOk (h', out)) sp'.
  Proof. intros H' Hh' D' F'. exists h', w'. auto. Qed.

  Theorem so_op_stored root d w h o sp :
    stored_db_w (hp sp) root d w -> so_handles h w -> so_op_ok d o ->
    cwp fl (so_op_run h o) sp (so_post root w sp (fst (so_op_model d o)) (snd (so_op_model d o))).
  Proof.
    intros H Hh OK. destruct o as [|f t|id len|id x|id x]; cbn [so_op_run so_op_model so_op_ok fst snd] in *.
    - apply cwp_bind. eapply so_insert_node_stored; [exact H|exact Hh|exact OK|].
      intros h' dg' s' sp' H' Hh' D' F'. cbn [kont cwp fst snd]. eapply so_post_intro; eassumption.
    - destruct OK as [OK HE]. apply cwp_bind. eapply so_insert_edge_stored; [exact H|exact Hh|exact OK|exact HE|].
      destruct (insert_edge_db d f t) as [[e d']|k]; cbn [fst snd].
      + intros h' dg' s' sp' H' Hh' D' F'. cbn [kont cwp fst snd]. eapply so_post_intro; eassumption.
      + cbn [kont cwp fst snd]. eapply so_post_intro; try eassumption; [reflexivity|apply frame_refl; intros j; reflexivity].
    - apply cwp_bind. eapply so_reserve_key_value_capacity_stored; [exact H|exact Hh|exact OK|].
      intros h' vh' vs' vi' vw' sp' H' Hh' D' F'. cbn [kont cwp]. eapply so_post_intro; eassumption.
    - destruct OK as (O1 & O2 & O3 & O4). apply cwp_bind. eapply so_insert_key_value_stored; [exact H|exact Hh|exact O1|exact O2|exact O3|exact O4|].
      intros h' vh' vs' vi' vw' sp' H' Hh' D' F'. cbn [kont cwp]. eapply so_post_intro; eassumption.
    - destruct OK as (O1 & O2 & O3 & O4). apply cwp_bind. eapply so_insert_or_replace_key_value_stored'; [exact H|exact Hh|exact O1|exact O2|exact O3|exact O4|].
      intros h' vh' vs' vi' vw' sp' H' Hh' D' F' _. cbn [kont cwp fst snd]. eapply so_post_intro; eassumption.
  Qed.

  Fixpoint so_ops_model (d : db) (l : list so_op) : db * list so_out :=
    match l with
    | [] => (d, [])
    | o :: t => let r := so_ops_model (fst (so_op_model d o)) t in (fst r, snd (so_op_model d o) :: snd r)
    end.
  Fixpoint so_ops_ok (d : db) (l : list so_op) : Prop :=
    match l with
    | [] => True
    | o :: t => so_op_ok d o /\ so_ops_ok (fst (so_op_model d o)) t
    end.

  Theorem so_ops_stored root : forall l d w h sp,
    stored_db_w (hp sp) root d w -> so_handles h w -> so_ops_ok d l ->
    cwp fl (so_ops_run h l) sp (so_post root w sp (fst (so_ops_model d l)) (snd (so_ops_model d l))).
  Proof.
    induction l as [|o t IH]; intros d w h sp H Hh OK; cbn [so_ops_run so_ops_model so_ops_ok fst snd] in *.
    - cbn [cwp]. eapply so_post_intro; try eassumption; [reflexivity|apply frame_refl; intros j; reflexivity].
    - destruct OK as [O1 O2]. apply cwp_bind. eapply cwp_mono; [|eapply so_op_stored; eassumption].
      intros r sp1 (h1 & w1 & -> & H1 & Hh1 & D1 & F1). cbn [kont fst snd].
      apply cwp_bind. eapply cwp_mono; [|eapply IH; eassumption].
      intros r2 sp2 (h2 & w2 & -> & H2 & Hh2 & D2 & F2). cbn [kont cwp fst snd].
      exists h2, w2. split; [reflexivity|]. split; [exact H2|]. split; [exact Hh2|]. split; [congruence|].
      eapply frame_trans; eassumption.
  Qed.
End Ops3.

(* a program that opens the handles and continues with P, run on a storage state that refines a record map holding d:
   it dies by a panic of the storage, or ends in a state refining a record map that satisfies what cwp proves of P *)
Lemma so_open_then_on_storage {A} (ops : store_ops cdata) (fl : bool) (P : so_db -> cprog A) (Q : cres A -> spec -> Prop) :
  kind ops fl -> forall s sp root d w0, Rel s sp -> stored_db_w (hp sp) root d w0 ->
    (forall h w, stored_db_w (hp sp) root d w -> so_handles h w -> sw_vi w = sw_vi w0 -> cwp fl (P h) sp Q) ->
    let r := cp_run (st_step cdata ops) (h <~ so_open root ;; P h) s in
    snd r = CrDead \/ exists sp', Rel (fst r) sp' /\ Q (snd r) sp'.
Proof.
  intros K s sp root d w0 RL H0 HP. apply (cwp_sound ops fl K _ s sp Q RL).
  apply cwp_bind. eapply so_open_spec'; [exact H0|]. intros h w H Hh _ Ev. cbn [kont]. apply (HP h w H Hh Ev).
Qed.
