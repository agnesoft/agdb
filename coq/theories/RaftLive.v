(* RaftLive.v — C30: fault-free schedules of the consensus model: the configured oldest-first schedule as a function
   (`healthy`), all fault-free interleavings as a relation (`ff_run`), and a reflective exhaustive exploration
   (`check`) with the soundness lemma that it covers every run of the relation. *)
From Coq Require Import NArith List Bool Lia Arith.
From Agdb Require Import Raft.
Import ListNotations.
Open Scope N_scope.

(* the configured schedule: node 0 (first election timeout 0 ms) starts the election, every message is
   delivered (oldest first), then the client appends the entries one after the other at the leader *)
Fixpoint healthy_run (rv : raftrev) (c : cluster) (data : list N) : cluster :=
  match data with
  | [] => c
  | d :: rest => healthy_run rv (drain rv 200 (step rv c (ClientAppend 0 d))) rest
  end.

Definition healthy (rv : raftrev) (size : N) (data : list N) : cluster :=
  healthy_run rv (drain rv 200 (step rv (init_default size) (Tick 0 0 []))) data.

(* A fault-free run: scripted actions (timer expirations, client appends) happen when no message is in flight
   (message latency << timeouts); while messages are in flight ANY of them may be delivered next (no loss, no
   duplication, arbitrary order); `elapsed = 0`: no timer has expired at a receiver. *)
Inductive dl_run (rv : raftrev) : cluster -> cluster -> Prop :=
| dl_done : forall c, c_net c = [] -> dl_run rv c c
| dl_step : forall c k c', (k < length (c_net c))%nat -> dl_run rv (step rv c (Deliver k 0)) c' -> dl_run rv c c'.

Inductive ff_run (rv : raftrev) : list event -> cluster -> cluster -> Prop :=
| ff_nil : forall c, ff_run rv [] c c
| ff_act : forall a rest c c1 c', dl_run rv (step rv c a) c1 -> ff_run rv rest c1 c' -> ff_run rv (a :: rest) c c'.

(* Comparing (history-free) clusters

   A lexicographic comparison of the nodes and the network of two clusters.  The exploration keeps its states in a
   search tree under it; all it needs to be sound is that `Eq` means equal. *)

Definition strip (c : cluster) : cluster := mkCluster (c_nodes c) (c_net c) [].

(* a match, not a function, so that the second comparison is evaluated only if the first gives Eq *)
Local Notation "a >> b" := (match a with Eq => b | Lt => Lt | Gt => Gt end) (at level 60, right associativity).

Fixpoint list_cmp {A} (cmp : A -> A -> comparison) (a b : list A) : comparison :=
  match a, b with
  | [], [] => Eq
  | [], _ :: _ => Lt
  | _ :: _, [] => Gt
  | x :: a', y :: b' => cmp x y >> list_cmp cmp a' b'
  end.

Definition bool_cmp (a b : bool) : comparison :=
  match a, b with true, true | false, false => Eq | false, true => Lt | true, false => Gt end.

Definition cstate_cmp (a b : cstate) : comparison :=
  match a, b with
  | Follower x, Follower y | Voted x, Voted y => x ?= y
  | _, _ =>
      let tag s := match s with Candidate => 0 | Election => 1 | Follower _ => 2 | Leader => 3 | Voted _ => 4 end in
      tag a ?= tag b
  end.

Definition peer_cmp (a b : peer) : comparison :=
  (p_li a ?= p_li b) >> (p_lt a ?= p_lt b) >> (p_lc a ?= p_lc b) >> bool_cmp (p_voted a) (p_voted b).

Definition entry_cmp (a b : entry) : comparison :=
  (e_index a ?= e_index b) >> (e_term a ?= e_term b) >> (e_data a ?= e_data b).

Definition rkind_cmp (a b : rkind) : comparison :=
  match a, b with
  | KAppend x, KAppend y => list_cmp entry_cmp x y
  | _, _ =>
      let tag k := match k with KAppend _ => 0 | KHeartbeat => 1 | KPreVote => 2 | KVote => 3 end in
      tag a ?= tag b
  end.

Definition request_cmp (a b : request) : comparison :=
  (q_from a ?= q_from b) >> (q_to a ?= q_to b) >> rkind_cmp (q_kind a) (q_kind b) >> (q_term a ?= q_term b) >>
  (q_li a ?= q_li b) >> (q_lt a ?= q_lt b) >> (q_lc a ?= q_lc b).

Definition rresult_cmp (a b : rresult) : comparison :=
  match a, b with
  | RLeaderMismatch x, RLeaderMismatch y => x ?= y
  | RTermMismatch x1 x2, RTermMismatch y1 y2 | RAlreadyVoted x1 x2, RAlreadyVoted y1 y2 => (x1 ?= y1) >> (x2 ?= y2)
  | RLogMismatch a1 a2 a3 a4 a5 a6, RLogMismatch b1 b2 b3 b4 b5 b6 =>
      (a1 ?= b1) >> (a2 ?= b2) >> (a3 ?= b3) >> (a4 ?= b4) >> (a5 ?= b5) >> (a6 ?= b6)
  | _, _ =>
      let tag r := match r with ROk => 0 | RLeaderMismatch _ => 1 | RTermMismatch _ _ => 2
                                | RLogMismatch _ _ _ _ _ _ => 3 | RAlreadyVoted _ _ => 4 end in
      tag a ?= tag b
  end.

Definition msg_cmp (a b : msg) : comparison :=
  match a, b with
  | MReq x, MReq y => request_cmp x y
  | MReq _, MResp _ _ => Lt
  | MResp _ _, MReq _ => Gt
  | MResp x s, MResp y t => request_cmp x y >> (s_to s ?= s_to t) >> rresult_cmp (s_result s) (s_result t)
  end.

(* the fields that change first, the configuration last *)
Definition node_cmp (a b : node) : comparison :=
  cstate_cmp (n_state a) (n_state b) >> (n_term a ?= n_term b) >> list_cmp peer_cmp (n_peers a) (n_peers b) >>
  list_cmp entry_cmp (n_logs a) (n_logs b) >> (n_commit a ?= n_commit b) >> (n_et a ?= n_et b) >>
  (n_index a ?= n_index b) >> (n_size a ?= n_size b) >> (n_first a ?= n_first b) >> (n_hb a ?= n_hb b) >>
  (n_tt a ?= n_tt b).

Definition sc_cmp (a b : cluster) : comparison :=
  list_cmp msg_cmp (c_net a) (c_net b) >> list_cmp node_cmp (c_nodes a) (c_nodes b).

Lemma lex_eq : forall a b : comparison, a >> b = Eq -> a = Eq /\ b = Eq.
Proof. intros [] b H; auto; discriminate. Qed.

Lemma list_cmp_eq : forall A (cmp : A -> A -> comparison),
  (forall x y, cmp x y = Eq -> x = y) -> forall a b, list_cmp cmp a b = Eq -> a = b.
Proof.
  intros A cmp H. induction a as [|x a IH]; destruct b as [|y b]; cbn; intros E; try discriminate; auto.
  apply lex_eq in E as [E1 E2]. f_equal; auto.
Qed.

(* split a chain `c1 >> c2 >> ... = Eq` and turn the comparisons of numbers into equations *)
Ltac lex_split H :=
  repeat match type of H with
         | _ >> _ = Eq => let H2 := fresh "E" in apply lex_eq in H as [H2 H]
         end;
  repeat match goal with E : (_ ?= _) = Eq |- _ => apply N.compare_eq in E end.

Lemma cstate_cmp_eq : forall a b, cstate_cmp a b = Eq -> a = b.
Proof. intros [] []; cbn; intros H; try discriminate; try apply N.compare_eq in H; subst; auto. Qed.

Lemma peer_cmp_eq : forall a b, peer_cmp a b = Eq -> a = b.
Proof.
  intros [? ? ? va] [? ? ? vb]; unfold peer_cmp; cbn; intros H. lex_split H. subst.
  destruct va, vb; try discriminate; reflexivity.
Qed.

Lemma entry_cmp_eq : forall a b, entry_cmp a b = Eq -> a = b.
Proof. intros [] []; unfold entry_cmp; cbn; intros H. lex_split H. subst; reflexivity. Qed.

Lemma rkind_cmp_eq : forall a b, rkind_cmp a b = Eq -> a = b.
Proof.
  intros [] []; cbn; intros H; try discriminate; auto.
  f_equal. exact (list_cmp_eq _ _ entry_cmp_eq _ _ H).
Qed.

Lemma request_cmp_eq : forall a b, request_cmp a b = Eq -> a = b.
Proof.
  intros [] []; unfold request_cmp; cbn; intros H. lex_split H.
  match goal with E : rkind_cmp _ _ = Eq |- _ => apply rkind_cmp_eq in E end. subst; reflexivity.
Qed.

Lemma rresult_cmp_eq : forall a b, rresult_cmp a b = Eq -> a = b.
Proof. intros [] []; cbn; intros H; try discriminate; lex_split H; subst; reflexivity. Qed.

Lemma msg_cmp_eq : forall a b, msg_cmp a b = Eq -> a = b.
Proof.
  intros [x|x [s1 s2]] [y|y [t1 t2]]; cbn; intros H; try discriminate.
  - apply request_cmp_eq in H. subst; reflexivity.
  - lex_split H. apply rresult_cmp_eq in H.
    match goal with E : request_cmp _ _ = Eq |- _ => apply request_cmp_eq in E end. subst; reflexivity.
Qed.

Lemma node_cmp_eq : forall a b, node_cmp a b = Eq -> a = b.
Proof.
  intros [] []; unfold node_cmp; cbn; intros H. lex_split H.
  repeat match goal with
         | E : cstate_cmp _ _ = Eq |- _ => apply cstate_cmp_eq in E
         | E : list_cmp peer_cmp _ _ = Eq |- _ => apply (list_cmp_eq _ _ peer_cmp_eq) in E
         | E : list_cmp entry_cmp _ _ = Eq |- _ => apply (list_cmp_eq _ _ entry_cmp_eq) in E
         end.
  subst; reflexivity.
Qed.

Lemma sc_cmp_eq : forall a b, sc_cmp a b = Eq -> strip a = strip b.
Proof.
  intros a b H. unfold sc_cmp in H. apply lex_eq in H as [H1 H2].
  apply (list_cmp_eq _ _ msg_cmp_eq) in H1. apply (list_cmp_eq _ _ node_cmp_eq) in H2.
  unfold strip. congruence.
Qed.

Lemma step_strip : forall rv c e, strip (step rv c e) = strip (step rv (strip c) e).
Proof.
  intros rv [nodes net h] e. unfold strip, step, get_node, put_node. cbn [c_nodes c_net c_hist].
  destruct e as [i el due | k el | k | k | i d].
  - destruct (nth_error nodes (N.to_nat i)) as [n|]; [|reflexivity]. destruct (process n el due). reflexivity.
  - destruct (nth_error net k) as [[r|r s]|]; [| |reflexivity].
    + destruct (nth_error nodes (N.to_nat (q_to r))) as [n|]; [|reflexivity].
      destruct (handle_request rv n r el). reflexivity.
    + destruct (nth_error nodes (N.to_nat (s_to s))) as [n|]; [|reflexivity].
      destruct (handle_response rv n r s). reflexivity.
  - reflexivity.
  - destruct (nth_error net k); reflexivity.
  - destruct (nth_error nodes (N.to_nat i)) as [n|]; [|reflexivity]. destruct (is_leader (n_state n)); [|reflexivity].
    destruct (append n d). reflexivity.
Qed.

Lemma strip_idem : forall c, strip (strip c) = strip c. Proof. reflexivity. Qed.

Lemma step_strip_eq : forall rv x y e, strip x = strip y -> strip (step rv x e) = strip (step rv y e).
Proof. intros rv x y e E. rewrite (step_strip rv x), (step_strip rv y), E. reflexivity. Qed.

(* Revisions that need no sweep of their own

   Two of the three revision flags only matter when something has gone wrong before: `fix_vote_match` and the
   guard of `fix_ack_term` when a candidate or leader gets the answer to a request of another term than its own, the
   table reset of `fix_ack_term` when the new leader's table is not blank.  `fix_vote_term` is read only when a Vote
   request is handled.  `blind a c` checks that no response in flight in c meets such a receiver and, for `a = None`,
   that no Vote request is in flight; then every delivery in c gives the same nodes and network for all revisions
   that `fits a`: those with `fix_vote_term = x` for `a = Some x`, all for `a = None`. *)

Definition rev_of (a : option bool) : raftrev := mkRev (match a with Some x => x | None => true end) true true.

Definition fits (a : option bool) (x : bool) : Prop := a = None \/ a = Some x.

Definition resp_blind (nd : node) (r : request) (s : response) : bool :=
  match n_state nd with
  | Candidate =>
      (q_term r =? n_term nd) &&
      match vote_received rr_fixed nd r, vote_received rr_before_ack_fix nd r with
      | (n1, q1), (n2, q2) => match node_cmp n1 n2 >> list_cmp request_cmp q1 q2 with Eq => true | _ => false end
      end
  | Leader => q_term r =? n_term nd
  | _ => true
  end.

Definition blind (a : option bool) (c : cluster) : bool :=
  forallb (fun m => match m with
                    | MReq r => match a with Some _ => true | None => negb (is_vote (q_kind r)) end
                    | MResp r s => match get_node c (s_to s) with Some nd => resp_blind nd r s | None => true end
                    end) (c_net c).

Lemma resp_blind_sound : forall nd r s rv rv', resp_blind nd r s = true -> fix_ack_term rv' = true ->
  handle_response rv nd r s = handle_response rv' nd r s.
Proof.
  intros nd r s [x b c] [x' b' c'] H C. cbn in C. subst c'. unfold resp_blind in H.
  unfold handle_response, vote_counts, ack_counts. destruct (n_state nd); try reflexivity.
  - apply andb_true_iff in H as [Ht H]. rewrite Ht, !orb_true_r.
    destruct (q_kind r), (s_result s); try reflexivity.
    (* the candidate counts a vote: with or without the table reset *)
    destruct c; [reflexivity|].
    change (vote_received (mkRev x b false) nd r) with (vote_received rr_before_ack_fix nd r).
    change (vote_received (mkRev x' b' true) nd r) with (vote_received rr_fixed nd r).
    destruct (vote_received rr_fixed nd r) as [n1 q1], (vote_received rr_before_ack_fix nd r) as [n2 q2].
    destruct (node_cmp n1 n2 >> list_cmp request_cmp q1 q2) eqn:E; try discriminate.
    apply lex_eq in E as [E1 E2]. apply node_cmp_eq in E1. apply (list_cmp_eq _ _ request_cmp_eq) in E2. congruence.
  - rewrite H. reflexivity.
Qed.

Lemma blind_step : forall a x0 b c x e, blind a x = true -> fits a x0 ->
  strip (step (mkRev x0 b c) x e) = strip (step (rev_of a) x e).
Proof.
  intros a x0 b c x e H F. destruct e as [i el due | k el | k | k | i d]; try reflexivity. cbn [step].
  destruct (nth_error (c_net x) k) as [[r|r s]|] eqn:E; [| |reflexivity];
    unfold blind in H; rewrite forallb_forall in H; specialize (H _ (nth_error_In _ _ E)); cbn beta iota in H.
  - destruct (get_node x (q_to r)) as [n|]; [|reflexivity].
    assert (Q : handle_request (mkRev x0 b c) n r el = handle_request (rev_of a) n r el).
    { destruct F as [->| ->]; [|reflexivity]. unfold handle_request. destruct (q_kind r); try reflexivity; discriminate H. }
    rewrite Q. destruct (handle_request (rev_of a) n r el). reflexivity.
  - destruct (get_node x (s_to s)) as [n|]; [|reflexivity].
    rewrite (resp_blind_sound n r s (mkRev x0 b c) (rev_of a) H eq_refl).
    destruct (handle_response (rev_of a) n r s). reflexivity.
Qed.

(* sets of states: a search tree under `sc_cmp` *)
Inductive tree := Leaf | Node (l : tree) (c : cluster) (r : tree).

Fixpoint tinsert (c : cluster) (t : tree) : tree :=
  match t with
  | Leaf => Node Leaf c Leaf
  | Node l y r => match sc_cmp c y with
                  | Eq => t
                  | Lt => Node (tinsert c l) y r
                  | Gt => Node l y (tinsert c r)
                  end
  end.

Fixpoint elems (t : tree) (acc : list cluster) : list cluster :=
  match t with Leaf => acc | Node l y r => elems l (y :: elems r acc) end.

Definition dedup (l : list cluster) : list cluster := elems (fold_right tinsert Leaf l) [].

(* covers l x: l contains x up to the history *)
Definition covers (l : list cluster) (x : cluster) : Prop := exists y, In y l /\ strip y = strip x.

Fixpoint tin (x : cluster) (t : tree) : Prop :=
  match t with Leaf => False | Node l y r => tin x l \/ y = x \/ tin x r end.

Lemma elems_spec : forall t acc y, In y (elems t acc) <-> tin y t \/ In y acc.
Proof.
  induction t as [|l IHl z r IHr]; intros acc y; cbn [elems tin]; [tauto|].
  rewrite IHl. cbn [In]. rewrite IHr. tauto.
Qed.

Lemma tinsert_keeps : forall c y t, tin y t -> tin y (tinsert c t).
Proof.
  intros c y. induction t as [|l IHl z r IHr]; cbn [tinsert tin]; [tauto|].
  destruct (sc_cmp c z); cbn [tin]; tauto.
Qed.

Lemma tinsert_new : forall c t, exists y, tin y (tinsert c t) /\ strip y = strip c.
Proof.
  intros c. induction t as [|l [y [Hy E]] z r [y' [Hy' E']]]; cbn [tinsert]; [exists c; cbn; auto|].
  destruct (sc_cmp c z) eqn:C; [apply sc_cmp_eq in C; exists z | exists y | exists y']; cbn; auto.
Qed.

Lemma dedup_covers : forall l x, covers l x -> covers (dedup l) x.
Proof.
  intros l x [y [Hy E]].
  assert (T : exists z, tin z (fold_right tinsert Leaf l) /\ strip z = strip y).
  { induction l as [|c l IH]; [destruct Hy|]. cbn [fold_right]. destruct Hy as [->|Hy].
    - apply tinsert_new.
    - destruct (IH Hy) as [z [Hz Ez]]. exists z. split; [apply tinsert_keeps; exact Hz | exact Ez]. }
  destruct T as [z [Hz Ez]]. exists z. split; [apply elems_spec; auto | congruence].
Qed.

Definition net_empty (c : cluster) : bool := match c_net c with [] => true | _ :: _ => false end.

(* the states one delivery away *)
Definition succs (rv : raftrev) (c : cluster) : list cluster :=
  map (fun k => strip (step rv c (Deliver k 0))) (seq 0 (length (c_net c))).

(* Breadth first: `front` holds the distinct states reached by the deliveries made so far, `done` the quiescent states
   met; None: out of fuel, or a state that is not `blind`.  The revision explored is `rev_of a`. *)
Fixpoint bfs (a : option bool) (fuel : nat) (front done : list cluster) : option (list cluster) :=
  match fuel with
  | O => match front with [] => Some done | _ :: _ => None end
  | S f => if forallb (blind a) front
           then bfs a f (dedup (flat_map (succs (rev_of a)) front)) (filter net_empty front ++ done)
           else None
  end.

Lemma bfs_sound : forall a x0 b c fuel front done L, fits a x0 -> bfs a fuel front done = Some L ->
  (forall x, covers done x -> covers L x) /\
  (forall x x', covers front x -> dl_run (mkRev x0 b c) x x' -> covers L x').
Proof.
  intros a x0 b c fuel front done L F. revert front done L. induction fuel as [|f IH]; intros front done L H; cbn [bfs] in H.
  - destruct front; [|discriminate]. inversion H; subst. split; [auto|]. intros x x' [y [[] _]].
  - destruct (forallb (blind a) front) eqn:B; [|discriminate]. rewrite forallb_forall in B.
    apply IH in H as [H1 H2].
    assert (D : forall x, covers done x -> covers L x).
    { intros x [y [Hy E]]. apply H1. exists y. split; [apply in_or_app; auto | exact E]. }
    split; [exact D|]. intros x x' [y [Hy E]] R.
    assert (En : c_net y = c_net x) by exact (f_equal c_net E).
    destruct R as [x Hn | x k x' Hk R].
    + apply H1. exists y. split; [|exact E]. apply in_or_app. left. apply filter_In. split; [exact Hy|].
      unfold net_empty. rewrite En, Hn. reflexivity.
    + apply (H2 (step (mkRev x0 b c) x (Deliver k 0)) x'); [|exact R]. apply dedup_covers.
      exists (strip (step (rev_of a) y (Deliver k 0))). split.
      * apply in_flat_map. exists y. split; [exact Hy|]. unfold succs. apply in_map_iff. exists k.
        split; [reflexivity | apply in_seq; rewrite En; lia].
      * rewrite strip_idem, <- (blind_step a x0 b c y _ (B y Hy) F). apply step_strip_eq. exact E.
Qed.

(* one scripted action after the other, each followed by all interleavings of the deliveries *)
Fixpoint phases (a : option bool) (fuel : nat) (script : list event) (L : list cluster) : option (list cluster) :=
  match script with
  | [] => Some L
  | e :: rest =>
      if forallb (blind a) L
      then match bfs a fuel (dedup (map (fun c => strip (step (rev_of a) c e)) L)) [] with
           | Some L' => phases a fuel rest L'
           | None => None
           end
      else None
  end.

Lemma phases_sound : forall a x0 b c fuel script L L', fits a x0 -> phases a fuel script L = Some L' ->
  forall x x', covers L x -> ff_run (mkRev x0 b c) script x x' -> covers L' x'.
Proof.
  intros a x0 b c fuel script L L' F. revert L L'. induction script as [|e rest IH]; intros L L' H x x' Hx R; cbn [phases] in H.
  - inversion H; subst. inversion R; subst. exact Hx.
  - inversion R as [|e0 rest0 y0 x1 x2 D R2]; subst.
    destruct (forallb (blind a) L) eqn:B; [|discriminate]. rewrite forallb_forall in B.
    destruct (bfs a fuel _ []) as [L1|] eqn:F1; [|discriminate].
    apply (IH _ _ H x1 x'); [|exact R2].
    apply (bfs_sound a x0 b c _ _ _ _ F) in F1 as [_ F1]. apply (F1 (step (mkRev x0 b c) x e)); [|exact D].
    apply dedup_covers. destruct Hx as [y [Hy E]].
    exists (strip (step (rev_of a) y e)). split; [apply in_map_iff; exists y; auto|].
    rewrite strip_idem, <- (blind_step a x0 b c y _ (B y Hy) F). apply step_strip_eq. exact E.
Qed.

Definition check (a : option bool) (fuel : nat) (script : list event) (goal : cluster -> bool) (L : list cluster) : bool :=
  match phases a fuel script L with
  | Some L' => forallb goal L'
  | None => false
  end.

Lemma check_sound : forall a x0 b c fuel script goal L, fits a x0 ->
  (forall x, goal (strip x) = goal x) ->
  check a fuel script goal L = true ->
  forall x x', covers L x -> ff_run (mkRev x0 b c) script x x' -> goal x' = true.
Proof.
  intros a x0 b c fuel script goal L F G H x x' Hx R. unfold check in H.
  destruct (phases a fuel script L) as [L'|] eqn:P; [|discriminate].
  destruct (phases_sound _ x0 b c _ _ _ _ F P x x' Hx R) as [y [Hy Ey]].
  rewrite forallb_forall in H. rewrite <- G, <- Ey, G. apply H; exact Hy.
Qed.

Lemma covers_self : forall x, covers [x] x.
Proof. intros x. exists x. cbn; auto. Qed.

Lemma all_synced_strip : forall data x, all_synced_b (strip x) data = all_synced_b x data.
Proof. reflexivity. Qed.

(* the script of the bounded statements for 3 nodes: node 0's election timer fires (configured first timeout 0 ms),
   two client appends at the leader, then a heartbeat round (both peers due) *)
Definition script3 : list event :=
  [Tick 0 0 []; ClientAppend 0 101; ClientAppend 0 102; Tick 0 1001 [1; 2]].

(* the relation is inhabited: the FIFO run is one of the runs covered *)
Lemma dl_run_drain : forall rv fuel c, c_net (drain rv fuel c) = [] -> dl_run rv c (drain rv fuel c).
Proof.
  intros rv. induction fuel as [|f IH]; intros c H; cbn [drain] in *.
  - apply dl_done; auto.
  - destruct (c_net c) as [|m net] eqn:E.
    + apply dl_done; auto.
    + eapply (dl_step rv c 0%nat); [rewrite E; cbn; lia|]. apply IH; auto.
Qed.

(* the oldest-first run of a script, if every round ends with an empty network *)
Fixpoint fifo_script (rv : raftrev) (fuel : nat) (script : list event) (c : cluster) : option cluster :=
  match script with
  | [] => Some c
  | e :: rest => let c1 := drain rv fuel (step rv c e) in
                 match c_net c1 with [] => fifo_script rv fuel rest c1 | _ :: _ => None end
  end.

Lemma fifo_script_ff : forall rv fuel script c c', fifo_script rv fuel script c = Some c' -> ff_run rv script c c'.
Proof.
  intros rv fuel. induction script as [|e rest IH]; intros c c' H; cbn [fifo_script] in H.
  - inversion H. apply ff_nil.
  - destruct (c_net (drain rv fuel (step rv c e))) eqn:E; [|discriminate].
    eapply ff_act; [apply (dl_run_drain rv fuel); exact E | apply IH; exact H].
Qed.

Lemma C30_nonvacuous : forall rv, exists c', ff_run rv script3 (init_default 3) c' /\ all_synced_b c' [101; 102] = true.
Proof.
  intros [[|] [|] [|]]; eexists;
    (split; [apply (fifo_script_ff _ 12); vm_compute; reflexivity | vm_compute; reflexivity]).
Qed.
