(* C26 — Database files stay inside their owner's directory and never collide.
   The model is theories/Paths.v and the general theorems are proved in theories/PathsProofs.v;
   the closed facts (witnesses, examples) are evaluated here, below their statements.

   `b "..."` is the byte string of the literal (PathsProofs.b).  `data` is the configured data
   directory; every positive theorem holds for an ARBITRARY byte string `data` (relative or
   absolute, with "." / ".." / repeated or trailing '/' in it, even empty).
   Paths are compared after lexical resolution (`resolve`: '/'-split, "." dropped, ".." pops;
   no symlinks).

   Shape of the result: for a server WITHOUT name validation (`accepts_today` = accept every
   name: the code up to /repo 7a9106f) both properties are REFUTED (witnesses (a)-(h),
   C26_today_refuted, C26_today_clash_refuted; all of them were reproduced on the real server and
   stay in the harness's name list); with the validator `valid_name` they are PROVED in full
   (C26_contained, C26_disjoint, C26_no_dir_clash and their boolean forms).  Since /repo 7a9106f
   the server's `utilities::validate_db_name` is this `valid_name`, applied to the target name of
   add / copy / rename; checks/c26.py finds it in the source and runs the model in strict mode,
   so a name the server accepts but `valid_name` rejects (or vice versa) is a disagreement. *)
From Agdb Require Import Bytes BytesProofs Paths PathsProofs.
Import String.StringSyntax.
Local Open Scope nat_scope.

Theorem C26_valid_name_defect :
  forall n : name, valid_name n = true <-> name_defect_of n = None.
Proof. intros n. unfold valid_name. destruct (name_defect_of n); split; congruence. Qed.
Print Assumptions C26_valid_name_defect.

(* valid_name = the conjunction of the seven rules *)
Theorem C26_valid_name_rules :
  forall n : name,
    valid_name n = true <->
    (* NEmpty *)          n <> [] /\
    (* NNul *)            ~ In x00 n /\
    (* NSeparator *)      (~ In x2f n /\ ~ In x5c n) /\
    (* NDotName *)        (n <> b "." /\ n <> b "..") /\
    (* NLeadingDot *)     (forall r, n <> x2e :: r) /\
    (* NReserved *)       (n <> b "audit" /\ n <> b "backups") /\
    (* NReservedSuffix *) (forall a, n <> a ++ b ".bak") /\ (forall a, n <> a ++ b ".log") /\
                          (forall a, n <> a ++ b ".audit").
Proof. exact valid_name_rules. Qed.
Print Assumptions C26_valid_name_rules.

(* and a reported defect is a rule that really is violated *)
Theorem C26_name_defect_sound :
  forall (n : name) (x : name_defect),
    name_defect_of n = Some x ->
    match x with
    | NEmpty => n = []
    | NNul => In x00 n
    | NSeparator => In x2f n \/ In x5c n
    | NDotName => n = b "." \/ n = b ".."
    | NLeadingDot => exists r, n = x2e :: r
    | NReserved => n = b "audit" \/ n = b "backups"
    | NReservedSuffix => exists a, n = a ++ b ".bak" \/ n = a ++ b ".log" \/ n = a ++ b ".audit"
    end.
Proof. intros n x E. pose proof (name_defect_spec n) as S. rewrite E in S. exact S. Qed.
Print Assumptions C26_name_defect_sound.

(* joining a plain component (non-empty, no '/', not "." or "..") pushes exactly that component,
   whatever the left operand looks like *)
Theorem C26_resolve_join :
  forall (p : path) (c : bytes),
    normal_comp c = true -> resolve (join p c) = r_extend (resolve p) [c].
Proof. exact resolve_join. Qed.
Print Assumptions C26_resolve_join.

(* for valid names the WAL agdb creates (wal_filename of the database path) is the file the
   server removes in delete_db / do_clear_db *)
Theorem C26_wal_agrees :
  forall (data : path) (o d : name),
    valid_name o = true -> valid_name d = true ->
    wal_filename (db_file data o d) = server_wal data o d.
Proof. exact wal_agrees. Qed.
Print Assumptions C26_wal_agrees.

(* the complete layout: every file of (o, d) resolves to <data>/o/<rel_path k d> *)
Theorem C26_files_resolved :
  forall (data : path) (o d : name) (k : fkind) (f : path),
    valid_name o = true -> valid_name d = true ->
    In (k, f) (files data o d) ->
    resolve f = r_extend (resolve data) (o :: rel_path k d).
Proof. exact files_resolved. Qed.
Print Assumptions C26_files_resolved.

Theorem C26_contained :
  forall (data : path) (o d : name),
    valid_name o = true -> valid_name d = true ->
    forall (k : fkind) (f : path), In (k, f) (files data o d) ->
    inside (resolve (join data o)) (resolve f) = true.
Proof.
  intros data o d Ho Hd k f Hin.
  rewrite (files_resolved data o d k f Ho Hd Hin), (resolve_join data o (valid_normal o Ho)).
  rewrite inside_extend. cbn [strict_prefix]. rewrite bytes_eqb_refl.
  destruct (rel_path k d) eqn:E; [exfalso; exact (rel_path_nonnil k d E)|reflexivity].
Qed.
Print Assumptions C26_contained.

Theorem C26_valid_no_escape :
  forall (data : path) (o d : name),
    valid_name o = true -> valid_name d = true -> escapes data o d = false.
Proof.
  intros data o d Ho Hd. apply existsb_false. intros [k f] Hin.
  cbn [snd]. now rewrite (C26_contained data o d Ho Hd k f Hin).
Qed.
Print Assumptions C26_valid_no_escape.

Theorem C26_disjoint :
  forall (data : path) (o d o' d' : name),
    valid_name o = true -> valid_name d = true -> valid_name o' = true -> valid_name d' = true ->
    (o, d) <> (o', d') ->
    forall (k : fkind) (f : path) (k' : fkind) (f' : path),
      In (k, f) (files data o d) -> In (k', f') (files data o' d') ->
      resolve f <> resolve f' /\
      inside (resolve f) (resolve f') = false /\
      inside (resolve f') (resolve f) = false.
Proof. exact disjoint. Qed.
Print Assumptions C26_disjoint.

(* a database file is never one of the directories the server needs (owner dir, audit,
   backups — of any valid owner, its own included), nor an ancestor of one *)
Theorem C26_no_dir_clash :
  forall (data : path) (o d o' : name),
    valid_name o = true -> valid_name d = true -> valid_name o' = true ->
    forall (k : fkind) (f g : path), In (k, f) (files data o d) -> In g (dirs data o') ->
    resolve f <> resolve g /\ inside (resolve f) (resolve g) = false.
Proof. exact no_dir_clash. Qed.
Print Assumptions C26_no_dir_clash.

Theorem C26_valid_no_clash :
  forall (data : path) (o d o' d' : name),
    valid_name o = true -> valid_name d = true -> valid_name o' = true -> valid_name d' = true ->
    (o, d) <> (o', d') -> clashes data o d o' d' = false.
Proof.
  intros data o d o' d' Ho Hd Ho' Hd' Hne. unfold clashes.
  rewrite (files_dirs_no_block data o d o' Ho Hd Ho').
  rewrite (files_dirs_no_block data o' d' o Ho' Hd' Ho).
  rewrite !orb_false_r.
  apply existsb_false. intros rf [[k f] [<- Hin]]%in_map_iff.
  apply existsb_false. intros rf' [[k' f'] [<- Hin']]%in_map_iff.
  destruct (disjoint data o d o' d' Ho Hd Ho' Hd' Hne k f k' f' Hin Hin') as (H1 & H2 & H3).
  exact (overlap_false _ _ H1 H2 H3).
Qed.
Print Assumptions C26_valid_no_clash.

(* (a) database ".x" is the file the server (and agdb) uses as the WAL of database "x" *)
Lemma C26_wal_collision_refuted :
  exists (data : path) (o d d' : name),
    data = b "agdb_server_data" /\ o = b "alice" /\ d = b "x" /\ d' = b ".x" /\
    accepts_today o = true /\ accepts_today d = true /\ accepts_today d' = true /\
    (o, d) <> (o, d') /\
    server_wal data o d = db_file data o d' /\
    wal_filename (db_file data o d) = db_file data o d' /\
    clashes data o d o d' = true.
Proof.
  (* here and below the names are let-bound: the kernel then converts each literal to bytes once,
     not at every occurrence in the statement *)
  pose (data := b "agdb_server_data"). pose (o := b "alice"). pose (d := b "x"). pose (d' := b ".x").
  exists data, o, d, d'.
  repeat apply conj; try discriminate; [reflexivity..|].
  eapply overlap_clashes with (k := FWalServer) (k' := FDb); [unfold files, In; eauto 10..|reflexivity].
Qed.
Print Assumptions C26_wal_collision_refuted.

(* (b) databases "audit" and "backups" are the per-owner directories; the audit log / backup of
   any other database of that owner lies inside them *)
Lemma C26_reserved_dir_refuted :
  exists (data : path) (o d1 d2 d : name),
    data = b "agdb_server_data" /\ o = b "alice" /\ d1 = b "audit" /\ d2 = b "backups" /\ d = b "x" /\
    accepts_today o = true /\ accepts_today d1 = true /\ accepts_today d2 = true /\
    db_file data o d1 = db_audit_dir data o /\
    db_file data o d2 = db_backup_dir data o /\
    inside (resolve (db_file data o d1)) (resolve (db_audit_file data o d)) = true /\
    inside (resolve (db_file data o d2)) (resolve (db_backup_file data o d)) = true /\
    clashes data o d1 o d = true /\ clashes data o d2 o d = true.
Proof.
  pose (data := b "agdb_server_data"). pose (o := b "alice").
  pose (d1 := b "audit"). pose (d2 := b "backups"). pose (d := b "x").
  exists data, o, d1, d2, d.
  repeat apply conj; [reflexivity..| |].
  - eapply overlap_clashes with (k := FDb) (k' := FAudit); [unfold files, In; eauto 10..|reflexivity].
  - eapply overlap_clashes with (k := FDb) (k' := FBackup); [unfold files, In; eauto 10..|reflexivity].
Qed.
Print Assumptions C26_reserved_dir_refuted.

(* (c) alice's database "../bob/x" is bob's database "x" *)
Lemma C26_other_owner_refuted :
  exists (data : path) (o d o' d' : name),
    data = b "agdb_server_data" /\ o = b "alice" /\ d = b "../bob/x" /\ o' = b "bob" /\ d' = b "x" /\
    accepts_today o = true /\ accepts_today d = true /\
    (o, d) <> (o', d') /\
    resolve (db_file data o d) = resolve (db_file data o' d') /\
    inside (resolve (join data o)) (resolve (db_file data o d)) = false /\
    escapes data o d = true /\ clashes data o d o' d' = true.
Proof.
  pose (data := b "agdb_server_data"). pose (o := b "alice").
  pose (d := b "../bob/x"). pose (o' := b "bob"). pose (d' := b "x").
  exists data, o, d, o', d'.
  repeat apply conj; try discriminate; reflexivity.
Qed.
Print Assumptions C26_other_owner_refuted.

(* (d) "a/../b" is database "b" *)
Lemma C26_dotdot_alias_refuted :
  exists (data : path) (o d d' : name),
    data = b "agdb_server_data" /\ o = b "alice" /\ d = b "a/../b" /\ d' = b "b" /\
    accepts_today o = true /\ accepts_today d = true /\
    (o, d) <> (o, d') /\
    resolve (db_file data o d) = resolve (db_file data o d') /\
    clashes data o d o d' = true.
Proof.
  pose (data := b "agdb_server_data"). pose (o := b "alice"). pose (d := b "a/../b"). pose (d' := b "b").
  exists data, o, d, d'.
  repeat apply conj; try discriminate; reflexivity.
Qed.
Print Assumptions C26_dotdot_alias_refuted.

(* (e) an absolute name replaces the whole path *)
Lemma C26_absolute_refuted :
  exists (data : path) (o d : name),
    data = b "agdb_server_data" /\ o = b "alice" /\ d = b "/tmp/x" /\
    accepts_today o = true /\ accepts_today d = true /\
    db_file data o d = b "/tmp/x" /\
    inside (resolve (join data o)) (resolve (db_file data o d)) = false /\
    escapes data o d = true.
Proof.
  pose (data := b "agdb_server_data"). pose (o := b "alice"). pose (d := b "/tmp/x").
  exists data, o, d. repeat apply conj; reflexivity.
Qed.
Print Assumptions C26_absolute_refuted.

(* (f) "../../x" leaves the data directory; "../../../x" climbs above the working directory *)
Lemma C26_escape_data_dir_refuted :
  exists (data : path) (o d d2 : name),
    data = b "agdb_server_data" /\ o = b "alice" /\ d = b "../../x" /\ d2 = b "../../../x" /\
    accepts_today o = true /\ accepts_today d = true /\ accepts_today d2 = true /\
    resolve (db_file data o d) = {| r_abs := false; r_ups := 0; r_comps := [b "x"] |} /\
    inside (resolve data) (resolve (db_file data o d)) = false /\
    resolve (db_file data o d2) = {| r_abs := false; r_ups := 1; r_comps := [b "x"] |} /\
    escapes data o d = true /\ escapes data o d2 = true.
Proof.
  pose (data := b "agdb_server_data"). pose (o := b "alice").
  pose (d := b "../../x"). pose (d2 := b "../../../x").
  exists data, o, d, d2. repeat apply conj; reflexivity.
Qed.
Print Assumptions C26_escape_data_dir_refuted.

(* (g) the rollback temporary of database "y.bak" is the backup of database "y" *)
Lemma C26_rollback_tmp_refuted :
  exists (data : path) (o d d' : name),
    data = b "agdb_server_data" /\ o = b "alice" /\ d = b "y.bak" /\ d' = b "y" /\
    accepts_today o = true /\ accepts_today d = true /\
    (o, d) <> (o, d') /\
    rollback_tmp data o d = db_backup_file data o d' /\
    clashes data o d o d' = true.
Proof.
  pose (data := b "agdb_server_data"). pose (o := b "alice"). pose (d := b "y.bak"). pose (d' := b "y").
  exists data, o, d, d'.
  repeat apply conj; try discriminate; [reflexivity..|].
  eapply overlap_clashes with (k := FTmpDb) (k' := FBackup); [unfold files, In; eauto 10..|reflexivity].
Qed.
Print Assumptions C26_rollback_tmp_refuted.

(* (h) with a '/' in the name the server removes a different file than the WAL agdb created *)
Lemma C26_wal_mismatch_refuted :
  exists (data : path) (o d : name),
    data = b "agdb_server_data" /\ o = b "alice" /\ d = b "a/b" /\
    accepts_today o = true /\ accepts_today d = true /\
    wal_filename (db_file data o d) = b "agdb_server_data/alice/a/.b" /\
    server_wal data o d = b "agdb_server_data/alice/.a/b" /\
    wal_filename (db_file data o d) <> server_wal data o d /\
    resolve (wal_filename (db_file data o d)) <> resolve (server_wal data o d).
Proof.
  pose (data := b "agdb_server_data"). pose (o := b "alice"). pose (d := b "a/b").
  exists data, o, d. repeat apply conj; try discriminate; reflexivity.
Qed.
Print Assumptions C26_wal_mismatch_refuted.

Theorem C26_today_refuted :
  ~ (forall (data : path) (o d : name),
        accepts_today o = true -> accepts_today d = true -> escapes data o d = false).
Proof.
  intros H. destruct C26_absolute_refuted as (data & o & d & _ & _ & _ & Ho & Hd & _ & _ & E).
  rewrite (H data o d Ho Hd) in E. discriminate E.
Qed.
Print Assumptions C26_today_refuted.

Theorem C26_today_clash_refuted :
  ~ (forall (data : path) (o d o' d' : name),
        accepts_today o = true -> accepts_today d = true ->
        accepts_today o' = true -> accepts_today d' = true ->
        (o, d) <> (o', d') -> clashes data o d o' d' = false).
Proof.
  intros H.
  destruct C26_wal_collision_refuted as (data & o & d & d' & _ & _ & _ & _ & Ho & Hd & Hd' & Hne & _ & _ & E).
  rewrite (H data o d o d' Ho Hd Ho Hd' Hne) in E. discriminate E.
Qed.
Print Assumptions C26_today_clash_refuted.

(* every witness name is rejected by valid_name, by the expected rule *)
Lemma C26_witnesses_rejected :
  map name_defect_of
    [b ".x"; b "audit"; b "backups"; b "../bob/x"; b "a/../b"; b "/tmp/x"; b "../../x";
     b "y.bak"; b "a/b"; b ""; b ".."; b "a\b"; b "x.log"; b "x.audit"]
  = [Some NLeadingDot; Some NReserved; Some NReserved; Some NSeparator; Some NSeparator;
     Some NSeparator; Some NSeparator; Some NReservedSuffix; Some NSeparator; Some NEmpty;
     Some NDotName; Some NSeparator; Some NReservedSuffix; Some NReservedSuffix].
Proof. reflexivity. Qed.
Print Assumptions C26_witnesses_rejected.

(* a valid pair, its eight resolved files, the three directories, and no escape *)
Example C26_nonvacuous_files :
  let data := b "agdb_server_data" in
  let o := b "alice" in
  let d := b "db1" in
  let at_ l := {| r_abs := false; r_ups := 0; r_comps := b "agdb_server_data" :: b "alice" :: l |} in
  valid_name o = true /\ valid_name d = true /\
  map (fun kf => (fst kf, resolve (snd kf))) (files data o d) =
    [ (FDb, at_ [b "db1"]);
      (FWal, at_ [b ".db1"]);
      (FWalServer, at_ [b ".db1"]);
      (FBackup, at_ [b "backups"; b "db1.bak"]);
      (FBackupAudit, at_ [b "backups"; b "db1.log"]);
      (FAudit, at_ [b "audit"; b "db1.log"]);
      (FTmpDb, at_ [b "backups"; b "db1"]);
      (FTmpAudit, at_ [b "backups"; b "db1.audit"]) ] /\
  map resolve (dirs data o) = [at_ []; at_ [b "audit"]; at_ [b "backups"]] /\
  escapes data o d = false.
Proof. intros data o d at_. repeat apply conj; [reflexivity..|]. apply C26_valid_no_escape; reflexivity. Qed.
Print Assumptions C26_nonvacuous_files.

(* distinct valid pairs (same owner / different owners) do not clash; a pair clashes with itself,
   so `clashes` is not constantly false *)
Example C26_nonvacuous_noclash :
  let data := b "agdb_server_data" in
  valid_name (b "alice") = true /\ valid_name (b "bob") = true /\
  valid_name (b "db1") = true /\ valid_name (b "db2") = true /\
  (b "alice", b "db1") <> (b "alice", b "db2") /\
  (b "alice", b "db1") <> (b "bob", b "db1") /\
  clashes data (b "alice") (b "db1") (b "alice") (b "db2") = false /\
  clashes data (b "alice") (b "db1") (b "bob") (b "db1") = false /\
  clashes data (b "alice") (b "db1") (b "alice") (b "db1") = true.
Proof.
  intros data. repeat apply conj; try discriminate; [reflexivity..| | |reflexivity];
    apply C26_valid_no_clash; try discriminate; reflexivity.
Qed.
Print Assumptions C26_nonvacuous_noclash.
