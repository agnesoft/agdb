(* C04 — Stored data survives any pattern of space reuse and defragmentation.
   The statements, each proved in a line or two from the theorems of theories/Records*Proofs.v,
   theories/Storage*.v (reading guide at the head of theories/StorageProofs.v).

   Models: Records.v / Storage.v = the code of storage_records.rs / storage.rs (generic in the byte
   store, instantiated here at the canonical byte stores `ops_file`, `ops_mem`); StorageSpec.v = the
   abstract map index |-> bytes as an acceptor of observations.
   `tiles s rg`: the data file of state s is the 24-byte version record followed by the gapless
   sequence of regions rg (index, payload), each with its 16-byte header (index, size); the record
   table holds exactly the live regions (index <> 0) at their positions, the two free maps hold exactly
   the free regions (index 0), the maps agree with each other, the free-index list threaded through
   slot 0 is duplicate-free and disjoint from the live indexes, all lengths are below 2^64. *)
From Agdb Require Import Bytes Records RecordsProofs RecordsTableProofs Storage StorageSpec
  StorageLayout StorageWp StorageOps StorageOps2 StorageRefine StorageReopen StorageOptimize StorageProofs StorageSim.
Open Scope N_scope.

Theorem C04_tiles_init : fst init_file = s_init /\ fst init_mem = s_init /\ tiles s_init [].
Proof. exact (conj (f_equal fst init_file_eq) (conj (f_equal fst init_mem_eq) tiles_init)). Qed.
Print Assumptions C04_tiles_init.

(* after every history of insert, insert-at, replace, resize, move, remove, optimize, reopen (drop+open
   and backup+open), transactions and reads — on a file-like or a memory-like byte store — the file tiles *)
Theorem C04_tiles_preserved :
  forall (ops : store_ops cdata) (fl : bool), kind ops fl ->
  forall (l : list sop) (s' : ST), st_exec cdata ops s_init l = Some s' -> exists rg, tiles s' rg.
Proof.
  intros ops fl K l s' H. destruct (exec_invariant ops fl K l _ _ _ Rel_init H) as (sp' & (rg & T & _) & _). eauto.
Qed.
Print Assumptions C04_tiles_preserved.

(* refinement: FULL statement
   For every operation list, every observation of the storage — returned indexes, value reads at any
   offset/size, sizes, error kinds (NotFound for removed / never used / zero indexes, OutOfBounds,
   NotAllowed), transaction ids — is exactly what the abstract map index |-> bytes allows
   (an insert may return any unused non-zero index; a removed index is unreadable; a file-backed storage
   dropped with an open transaction comes back with the map at the last point with no transaction open).
   A history can end early only with `ObPanic` (u64 overflow: a request that does not fit into 2^64
   bytes); `ObFault` (a byte-store call outside the contract pos <= len) is never observed. *)
Theorem C04_refines_map :
  (forall l, accepts true spec_init l (st_run cdata ops_file (fst init_file) l) = true) /\
  (forall l, accepts false spec_init l (st_run cdata ops_mem (fst init_mem) l) = true).
Proof. exact (conj refines_map_file refines_map_mem). Qed.
Print Assumptions C04_refines_map.

(* one step, from any state related to a specification state *)
Theorem C04_step_refines :
  forall ops fl, kind ops fl -> forall s sp o, Rel s sp ->
    snd (st_step cdata ops s o) = ObPanic \/
    exists sp', spec_step fl sp o (snd (st_step cdata ops s o)) = Some sp' /\ Rel (fst (st_step cdata ops s o)) sp'.
Proof. exact step_refines. Qed.
Print Assumptions C04_step_refines.

(* defragmentation
   after optimize_storage the file consists of the live regions only, in their old order:
   len = 24 + sum over the live values of (16 + size); both free maps are empty; every value is unchanged *)
Theorem C04_optimize_tight :
  forall ops, canon ops -> forall s rg, tiles s rg ->
  let r := optimize_storage cdata ops s in
  snd r = RPanic \/
  (snd r = ROk tt /\ tiles (fst r) (lmap rg) /\ all_live (lmap rg) /\
   (forall j, j <> 0 -> m_get (lmap rg) j = m_get rg j) /\
   lenN (cur (sdata (fst r))) = region_sum (lmap rg) /\
   fps (rtab (fst r)) = [] /\ fsp (rtab (fst r)) = []).
Proof. exact optimize_tight. Qed.
Print Assumptions C04_optimize_tight.

(* reopening
   loading the content of a tiled storage (backup + open; or drop + open with no transaction open)
   succeeds and yields a tiled storage with the same regions, hence the same live values *)
Theorem C04_reopen_preserves :
  forall ops, canon ops -> forall s rg, tiles s rg ->
  (forall r, r = reopen_copy cdata ops s -> snd r = ROk tt /\ tiles (fst r) rg /\ tx (fst r) = 0) /\
  (tx s = 0 -> dur (sdata s) = cur (sdata s) ->
   forall r, r = reopen cdata ops s -> snd r = ROk tt /\ tiles (fst r) rg /\ tx (fst r) = 0).
Proof. exact reopen_preserves. Qed.
Print Assumptions C04_reopen_preserves.

(* the selection rules of the free maps (Records level) *)
Theorem C04_take_free_rule :
  forall rs k rs' p s, fwf rs -> take_free rs k = Some (rs', (p, s)) ->
    m_get (fps rs) p = Some s /\ k <= s /\ (s = k \/ k + 16 <= s) /\ rs' = remove_free rs p.
Proof. exact take_free_spec. Qed.
Print Assumptions C04_take_free_rule.

(* a concrete history (insert, remove, reuse, grow, defragment, reopen, a failed replace that leaves its
   transaction open, reopen of a file-backed storage with that transaction open) is answered by the
   concrete model exactly as the abstract map demands — by evaluation *)
Example C04_sample_history_accepted :
  let ops := [SInsert [x01; x02; x03]; SInsert [x04]; SRemove 1; SInsert [x05]; SValue 1; SValue 2; SLen;
              SResize 2 40; SValue 2; SOptimize; SLen; SReopen; SValue 1; SValueAt 2 1; SReplace 7 [];
              STransaction; SInsert [x06]; SReopen; SValue 3] in
  accepts true spec_init ops (st_run cdata ops_file (fst init_file) ops) = true.
Proof. vm_compute. reflexivity. Qed.
Print Assumptions C04_sample_history_accepted.

(* a reachable state with live and free regions *)
Example C04_tiles_nonvacuous :
  let l := [SInsert [x01; x02; x03]; SInsert [x04]; SInsert [x05; x06]; SRemove 2] in
  exists s', st_exec cdata ops_file s_init l = Some s' /\ lenN (cur (sdata s')) = 78 /\ fps (rtab s') = [(43, 1)].
Proof. eexists. split; [vm_compute; reflexivity|]. split; vm_compute; reflexivity. Qed.
Print Assumptions C04_tiles_nonvacuous.

(* the storage level of C05 / C06 *)

(* C05 (storage level): reopening (drop + open with no transaction open), backup + open of the copy, and
   defragmentation preserve the live map index |-> bytes exactly *)
Theorem C05_storage_maintenance :
  forall ops, canon ops -> forall s rg, tiles s rg ->
  (* backup + open *)
  (snd (reopen_copy cdata ops s) = ROk tt /\ tiles (fst (reopen_copy cdata ops s)) rg) /\
  (* drop + open *)
  (tx s = 0 -> dur (sdata s) = cur (sdata s) ->
   snd (reopen cdata ops s) = ROk tt /\ tiles (fst (reopen cdata ops s)) rg) /\
  (* optimize *)
  (snd (optimize_storage cdata ops s) = RPanic \/
   (snd (optimize_storage cdata ops s) = ROk tt /\ tiles (fst (optimize_storage cdata ops s)) (lmap rg) /\
    forall j, j <> 0 -> m_get (lmap rg) j = m_get rg j)).
Proof. exact storage_maintenance. Qed.
Print Assumptions C05_storage_maintenance.

(* C06 (storage level): each of the three back-ends, modelled literally (Storage.v: mem_raw = MemoryStorage
   with its `end < len` copy-in-place / `resize(pos); extend` split, file_raw = FileStorage::write with its
   early return on empty writes, mapped_raw = the pair, memory answering reads), satisfies the laws of the
   canonical byte store for every write that does not start beyond the end and every read inside the data *)
Theorem C06_instances_lawful :
  lawful bytes mem_raw ops_mem rd_mem /\ lawful cdata file_raw ops_file rd_file /\
  lawful (cdata * bytes) mapped_raw ops_file rd_mapped.
Proof. exact (conj mem_lawful (conj file_lawful mapped_lawful)). Qed.
Print Assumptions C06_instances_lawful.

(* Storage<D> is parametric in a lawful byte store: related states give equal observations for every
   operation list, as long as the canonical run stays inside the contract *)
Theorem C06_storage_parametric :
  forall (T : Type) (opsT : store_ops T) (opsC : store_ops cdata) (rd : T -> cdata -> Prop),
    canon opsC -> lawful T opsT opsC rd ->
    forall l s1 s2, srel T rd s1 s2 -> ~ In ObFault (st_run cdata opsC s2 l) ->
      st_run T opsT s1 l = st_run cdata opsC s2 l.
Proof. exact sim_run. Qed.
Print Assumptions C06_storage_parametric.

(* hence, from an empty store, the three back-ends produce exactly the observations of the canonical model
   (which C04 shows to be the abstract map's) for EVERY operation list; FileStorage and
   FileStorageMemoryMapped agree on everything; MemoryStorage agrees with them on every history that does
   not drop the storage (it has no persistence: a `reopen` is a backup + open there) *)
Theorem C06_backends_agree :
  forall l,
  st_run bytes mem_raw (fst (with_data bytes mem_raw [])) l = st_run cdata ops_mem (fst init_mem) l /\
  st_run cdata file_raw (fst (with_data cdata file_raw empty_cdata)) l = st_run cdata ops_file (fst init_file) l /\
  st_run (cdata * bytes) mapped_raw (fst (with_data (cdata * bytes) mapped_raw (empty_cdata, []))) l
    = st_run cdata ops_file (fst init_file) l.
Proof. exact backends_agree. Qed.
Print Assumptions C06_backends_agree.

Theorem C06_mem_file_agree :
  forall l, no_reopen l = true -> forall s, st_run cdata ops_mem s l = st_run cdata ops_file s l.
Proof. exact mem_file_agree. Qed.
Print Assumptions C06_mem_file_agree.
