(* StoredDbExample.v — non-vacuity of `stored_db`, second part (the first part, StoredDbExampleBase.v, creates the
   database on the model of storage.rs, reads off its record store and proves `stored_db` of it): the example assembled —
   the database is what three queries produce from the empty database, `load_db` returns it, maintenance of the storage
   model and the memory-like storage leave the same record store — and the alias tables under C19's invariant. *)
From Coq Require Import Permutation.
From Agdb Require Import Bytes DbValue DbModel Records Storage StorageSpec StorageProofs Collections CollMapHist
  StoredDb StoredDbRep Queries Revisions OpenMap StoredDbProbe.
From Agdb Require Export StoredDbExampleBase.
From Coq Require Import ZifyBool ZifyNat ZifyN.
Open Scope N_scope.

(* the alias tables of the example satisfy C19's invariant (for hashes that send "root" to slot 1 and id 1 to slot 0,
   minimum capacity 2): the code's probing lookups return the model's lookups *)
Lemma sx_probe :
  (forall a, value bytes Z bytes_eqb (fun _ => 1) (ct_omap bytes Z sx_t1) a = Done (imap_value (aliases sx_db) a)) /\
  (forall i, value Z bytes Z.eqb (fun _ => 0) (ct_omap Z bytes sx_t2) i = Done (imap_key (aliases sx_db) i)).
Proof.
  apply (sd_alias_lookups_by_probing (fun _ => 1) (fun _ => 0) 2 om_fixed sx_g 1 sx_db sx_wit eq_refl sx_stored).
  - split; [split; [reflexivity|right; cbn; lia]|].
    intros i k v Hi Hn j Hj Hd. cbn in Hi, Hj. destruct i as [|[|i]]; [discriminate Hn| |lia].
    vm_compute in Hd. destruct j as [|[|j]]; vm_compute in Hd; lia.
  - split; [split; [reflexivity|right; cbn; lia]|].
    intros i k v Hi Hn j Hj Hd. cbn in Hi, Hj. destruct i as [|[|i]]; [|discriminate Hn|lia].
    destruct j as [|[|j]]; vm_compute in Hd; lia.
Qed.

(* the database is the one three queries produce from the empty database (model of the query layer) *)
Definition sx_queries : list query :=
  [InsertIndex sx_key;
   InsertNodes 2 (Multi [[(sx_key, DI64 7); (sx_name, sx_long)]; []]) [sx_alias] (Ids []);
   InsertEdges (Ids [QId 1%Z]) (Ids [QId 2%Z]) (Single [(DU64 1, DVecI64 [1; 2]%Z)]) false (Ids [])].

Lemma sx_db_is : fold_left (fun d q => fst (exec rv_fixed d q)) sx_queries db_new = sx_db.
Proof. vm_compute. reflexivity. Qed.

Definition sx_after (o : sop) : vmap := live_values cdata ops_file (fst (st_step cdata ops_file (fst sx_run) o)).
Definition sx_store_mem : vmap := live_values cdata ops_mem (fst (cp_run (st_step cdata ops_mem) sx_build s_init)).

Theorem sx_sample :
  snd sx_run = CrOk 1 /\
  live_values cdata ops_file (fst sx_run) = sx_store /\
  stored_db (m_get sx_store) 1 sx_db /\
  load_db sx_store 1 = Some sx_db /\
  (* optimize / drop+open / backup+open of the storage model: the record store, hence the loaded database, is the same *)
  sx_after SOptimize = sx_store /\ sx_after SReopen = sx_store /\ sx_after SReopenCopy = sx_store /\
  (* the memory-like storage: the same record store *)
  sx_store_mem = sx_store.
Proof.
  unfold sx_after, sx_store_mem. rewrite sx_run_eq, (proj2 (sx_run_kept_spec _ _ _ sx_build_kept)). cbn [fst snd].
  split; [reflexivity|]. split; [vm_compute; reflexivity|].
  split; [exists sx_wit; exact sx_stored|]. split; [vm_compute; reflexivity|].
  split; [vm_compute; reflexivity|]. split; [vm_compute; reflexivity|]. split; vm_compute; reflexivity.
Qed.
