(* StoredDbOpsLink.v — proofs (stored database): the LINK between the storage programs so_q_* of StoredDbOps.v and
   the validated query semantics of Queries.v.  For the query shapes the correspondence run executes,
       InsertNodes 1 (Single l) [] (Ids [])                         insert().nodes().values([l])        (count 1, no alias)
       InsertValues (Ids [QId id]) (Single l)                       insert().values([l]).ids(id)        (existing element)
       InsertEdges (Ids [QId f]) (Ids [QId t]) (Single []) false (Ids [])   insert().edges().from(f).to(t)   (existing nodes)
       Remove (Ids [QId id])                                        remove().ids(id)   (an edge / a node without edges, alias)
   `Queries.exec_mut_step` computes exactly the composition of DbModel functions that the so_q_* theorems mention, and
   `Queries.exec` (one query = one transaction: the undo stack is cleared by the commit) returns its `commit`; stored_db
   does not look at the undo stack, so the programs end in a store holding `fst (exec rv d q)` itself, and what they
   return is the id / count of `snd (exec rv d q)` (so_xpost_intro; the statements per shape: C05_db_exec_.._preserves_stored_db).  The revision
   is irrelevant for these shapes (stated for every rv). *)
From Coq Require Import Permutation.
From Agdb Require Import Bytes DbValue Graph DbModel Queries StorageSpec Collections CollWp CollVecBase StoredDbRep
  StoredDbProofs StoredDbFrame StoredDbOps StoredDbOpsGraph StoredDbOpsGraph2 StoredDbOpsGraph4 StoredDbOpsDb StoredDbOpsKv
  StoredDbOpsKv2 StoredDbOpsKv4 StoredDbOpsDb2 StoredDbOpsDb3 StoredDbOpsQuery StoredDbOpsRemove.
From Coq Require Import ZifyBool ZifyNat ZifyN.
Ltac Zify.zify_post_hook ::= Z.div_mod_to_equations.
Open Scope N_scope.
Arguments StOk {A} d a.
Arguments StErr {A} d e.
Arguments StPanic {A} d.

(* the four query shapes *)
Definition lq_insert_node (l : list kv) : query := InsertNodes 1 (Single l) [] (Ids []).
Definition lq_insert_values (id : Z) (l : list kv) : query := InsertValues (Ids [QId id]) (Single l).
Definition lq_insert_edge (f t : Z) : query := InsertEdges (Ids [QId f]) (Ids [QId t]) (Single []) false (Ids []).
Definition lq_remove (id : Z) : query := Remove (Ids [QId id]).

(* what a query result says: the result count and the ids of its elements *)
Definition qres_ids (r : qres) : option (Z * list Z) :=
  match r with QOk n els => Some (n, map e_id els) | _ => None end.

(* one successful mutating query = its step, committed *)
Lemma exec_of_step rv d q d1 n els :
  is_mutating q = true -> exec_mut_step rv d q = StOk d1 (n, els) -> Queries.exec rv d q = (DbModel.commit d1, QOk n els).
Proof. intros M E. unfold Queries.exec, exec_in_txn. rewrite M, E. reflexivity. Qed.

Lemma graph_index_node g n : (0 < n)%Z -> is_node g n = true -> graph_index g n = true.
Proof. intros Hn Nn. unfold graph_index. destruct (Z.ltb_spec n 0); [lia|]. destruct (Z.ltb_spec 0 n); [exact Nn|lia]. Qed.

Lemma graph_index_edge g e : (e < 0)%Z -> is_edge g e = true -> graph_index g e = true.
Proof. intros He Ie. unfold graph_index. destruct (Z.ltb_spec e 0); [exact Ie|lia]. Qed.

(* an edge between two nodes is inserted at the next free index *)
Lemma insert_edge_db_nodes d f t :
  is_node (gr d) f = true -> is_node (gr d) t = true ->
  let e := (- fst (get_free_index (gr d)))%Z in
  exists G', insert_edge (gr d) f t = Some (e, G') /\ insert_edge_db d f t = DbModel.ROk (e, push_undo (with_gr d G') (CRemoveEdge e)).
Proof.
  intros Nf Nt. unfold insert_edge_db, insert_edge. rewrite Nf, Nt. cbn [andb].
  destruct (get_free_index (gr d)) as [slot g1]. cbn [fst]. eexists. split; reflexivity.
Qed.

Lemma step_insert_node rv d l :
  let id := fst (insert_node_db d) in
  let d1 := mq_insert_key_values (reserve_kv (snd (insert_node_db d)) id) id l in
  exec_mut_step rv d (lq_insert_node l) = StOk d1 (1%Z, [elem d1 id []]).
Proof.
  cbn zeta. unfold lq_insert_node, exec_mut_step, insert_nodes.
  cbn [lenZ length Z.of_nat Z.max Z.compare Pos.compare existsb andb resolve_ids resolve_all Nat.ltb Nat.leb Nat.max Z.to_nat
       Pos.to_nat Pos.iter_op Init.Nat.add repeat Nat.eqb negb seq combine fold_left nth_error].
  rewrite Bool.andb_false_r. change (Pos.to_nat 1) with 1%nat.
  cbn [repeat length seq combine fold_left nth_error Nat.ltb Nat.leb].
  destruct (insert_node_db d) as [id a1]. cbn [fst snd rev app]. reflexivity.
Qed.

Lemma step_insert_values rv d id l :
  graph_index (gr d) id = true ->
  exec_mut_step rv d (lq_insert_values id l) =
  StOk (mq_insert_or_replace_key_values (reserve_kv d id) id l) (lenZ l, []).
Proof.
  intros G. unfold lq_insert_values, exec_mut_step, insert_values. cbn [st_fold]. unfold insert_values_q, db_id. rewrite G.
  cbn [insert_values_id fst snd Z.add]. reflexivity.
Qed.

Lemma step_insert_edge rv d f t e d1 :
  graph_index (gr d) f = true -> graph_index (gr d) t = true -> insert_edge_db d f t = DbModel.ROk (e, d1) ->
  exec_mut_step rv d (lq_insert_edge f t) = StOk (reserve_kv d1 e) (1%Z, [elem (reserve_kv d1 e) e []]).
Proof.
  intros Gf Gt E. unfold lq_insert_edge, exec_mut_step, insert_edges.
  cbn [resolve_ids resolve_all length Nat.eqb negb edge_db_ids]. unfold db_id. rewrite Gf, Gt.
  cbn [orb length Nat.eqb negb combine edge_values Nat.max repeat]. unfold insert_edge_list. cbn [st_fold]. rewrite E.
  cbn [st_fold rev app ok_elements lenZ length Z.of_nat map Pos.of_succ_nat insert_kvs_new fold_left]. reflexivity.
Qed.

Lemma step_remove_edge rv d e G' :
  (e < 0)%Z -> is_edge (gr d) e = true -> Graph.remove_edge (gr d) e = Some G' ->
  exec_mut_step rv d (lq_remove e) = StOk (remove_all_values (fst (remove_edge_db d e)) e) (1%Z, []).
Proof.
  intros He Ie EG. unfold lq_remove, exec_mut_step, remove_query. cbn [st_fold remove_q]. unfold remove_id, graph_index.
  destruct (Z.ltb_spec e 0) as [_|X]; [|lia]. rewrite Ie. destruct (Z.ltb_spec 0 e) as [X|_]; [lia|].
  unfold remove_edge_db. rewrite EG. cbn [fst]. reflexivity.
Qed.

Lemma step_remove_isolated_node rv d n :
  (0 < n)%Z -> is_node (gr d) n = true -> imap_key (aliases d) n = None -> snd (remove_node_db d n None) = None ->
  exec_mut_step rv d (lq_remove n) = StOk (remove_all_values (fst (remove_node_db d n None)) n) (1%Z, []).
Proof.
  intros Hn Nn Al Er. unfold lq_remove, exec_mut_step, remove_query. cbn [st_fold remove_q]. unfold remove_id, graph_index.
  destruct (Z.ltb_spec n 0) as [X|_]; [lia|]. destruct (Z.ltb_spec 0 n) as [_|X]; [|lia]. rewrite Nn, Al.
  destruct (remove_node_db d n None) as [d1 [k|]]; cbn [fst snd] in *; [discriminate|]. reflexivity.
Qed.

(* the post-condition of the linked theorems: the program returns `ret`, the query answers (n, ids), and the store holds the
   database the query returns *)
Definition so_xpost {A} (rv : revision) (root : N) (w : sd_wit) (sp : spec) (d : db) (q : query) (n : Z) (ids : list Z)
  (ret : so_db -> A) (r : cres A) (sp' : spec) : Prop :=
  exists h' w', r = CrOk (ret h') /\ qres_ids (snd (Queries.exec rv d q)) = Some (n, ids) /\
                stored_db_w (hp sp') root (fst (Queries.exec rv d q)) w' /\ so_handles h' w' /\ sdepth sp' = sdepth sp /\
                frame (hp sp) (hp sp') (sd_foot root w) (sd_foot root w').

(* ... from the step of the query: d1 is what the store holds before the commit (stored_db does not look at the undo stack) *)
Lemma so_xpost_intro {A} rv root w sp d q d1 n els (ret : so_db -> A) h' w' sp' :
  exec_mut_step rv d q = StOk d1 (n, els) -> is_mutating q = true ->
  stored_db_w (hp sp') root d1 w' -> so_handles h' w' -> sdepth sp' = sdepth sp ->
  frame (hp sp) (hp sp') (sd_foot root w) (sd_foot root w') ->
  so_xpost rv root w sp d q n (map e_id els) ret (CrOk (ret h')) sp'.
Proof.
  intros E M H' Hh' D' F'. exists h', w'. rewrite (exec_of_step rv d q d1 n els M E). cbn [fst snd qres_ids].
  split; [reflexivity|]. split; [reflexivity|]. split; [apply (stored_db_w_same _ _ _ _ _ H'); reflexivity|]. auto.
Qed.

Section Link.
  Variable fl : bool.

  (* insert edges from f to t (no values): insert_edge, reserve_key_value_capacity(e, 0) — the slot of the new edge is allocated *)
  Theorem so_q_insert_edge_stored' root d w h f t e d1 sp :
    stored_db_w (hp sp) root d w -> so_handles h w -> so_graph_ok (gr d) ->
    so_edge_ok (gr d) f t -> insert_edge_db d f t = DbModel.ROk (e, d1) -> so_index_ok (cg_as_u64 e) ->
    cwp fl (so_q_insert_edge h f t) sp
        (so_spost root w sp (reserve_kv d1 e) (fun h' => (h', Some e)) (slot_alloc (zabs_nat e))).
  Proof.
    intros H Hh OK Hedge E Hix. unfold so_q_insert_edge.
    apply cwp_bind. eapply so_begin; [exact H|]. intros sp0 H0 D0 F0. cbn [kont].
    apply cwp_bind. eapply so_insert_edge_stored; [exact H0|exact Hh|exact OK|intros _; exact Hedge|].
    rewrite E.
    intros h1 dg1 s1 sp1 H1 Hh1 D1 F1. cbn [kont fst snd].
    apply cwp_bind. eapply so_reserve_key_value_capacity_stored'; [exact H1|exact Hh1|exact Hix|].
    intros h2 vh2 vs2 vi2 vw2 sp2 H2 Hh2 D2 F2 KA. cbn [kont]. cbn [sd_with_graph sw_vi] in KA.
    apply (so_commit fl root w sp _ (fun h' => (h', Some e)) _ h2 _ sp2 H2 Hh2); [lia| |exact KA].
    eapply frame_trans; [exact F0|]. eapply frame_trans; [exact F1|exact F2].
  Qed.

  (* the same with an invalid endpoint included: None, the database as before *)
  Theorem so_q_insert_edge_stored root d w h f t sp :
    stored_db_w (hp sp) root d w -> so_handles h w -> so_graph_ok (gr d) ->
    (insert_edge (gr d) f t <> None -> so_edge_ok (gr d) f t) ->
    (forall e d1, insert_edge_db d f t = DbModel.ROk (e, d1) -> so_index_ok (cg_as_u64 e)) ->
    cwp fl (so_q_insert_edge h f t) sp
        (fun r sp' =>
           match insert_edge_db d f t with
           | DbModel.ROk (e, d1) =>
             exists h' w', r = CrOk (h', Some e) /\ stored_db_w (hp sp') root (reserve_kv d1 e) w' /\ so_handles h' w' /\
                           sdepth sp' = sdepth sp /\ frame (hp sp) (hp sp') (sd_foot root w) (sd_foot root w')
           | DbModel.RErr _ =>
             r = CrOk (h, None) /\ stored_db_w (hp sp') root d w /\ sdepth sp' = sdepth sp /\
             frame (hp sp) (hp sp') (sd_foot root w) (sd_foot root w)
           end).
  Proof.
    intros H Hh OK Hedge Hix. destruct (insert_edge_db d f t) as [[e d1]|k] eqn:E.
    - assert (HE : so_edge_ok (gr d) f t).
      { apply Hedge. unfold insert_edge_db in E. destruct (insert_edge (gr d) f t) as [[e' G']|]; discriminate. }
      eapply cwp_mono; [|eapply so_q_insert_edge_stored'; [exact H|exact Hh|exact OK|exact HE|exact E|eapply Hix; reflexivity]].
      intros r sp' (h' & w' & -> & H' & Hh' & D' & F' & _). exists h', w'. auto.
    - unfold so_q_insert_edge.
      apply cwp_bind. apply hwp_transaction. intros sp0 Hm0 Hd0. cbn [kont].
      apply cwp_bind. eapply so_insert_edge_stored; [eapply stored_db_w_heq; [exact Hm0|exact H]|exact Hh|exact OK|exact Hedge|].
      rewrite E. cbn [kont fst snd].
      apply cwp_bind. apply hwp_commit; [lia|lia|]. intros sp4 Hm4 Hd4. cbn [kont cwp].
      split; [reflexivity|]. split; [eapply stored_db_w_heq; [exact Hm4|]; eapply stored_db_w_heq; [exact Hm0|exact H]|]. split; [lia|].
      eapply frame_trans; [apply frame_refl; exact Hm0|apply frame_refl; exact Hm4].
  Qed.
End Link.

Lemma step_insert_edge_fail rv d f t :
  (0 < f)%Z -> (0 < t)%Z -> is_node (gr d) f && is_node (gr d) t = false ->
  exists e, exec_mut_step rv d (lq_insert_edge f t) = StErr d e.
Proof.
  intros Pf Pt Hn. unfold lq_insert_edge, exec_mut_step, insert_edges.
  cbn [resolve_ids resolve_all length Nat.eqb negb edge_db_ids]. unfold db_id, graph_index.
  destruct (Z.ltb_spec f 0) as [X|_]; [lia|]. destruct (Z.ltb_spec 0 f) as [_|X]; [|lia].
  destruct (Z.ltb_spec t 0) as [X|_]; [lia|]. destruct (Z.ltb_spec 0 t) as [_|X]; [|lia].
  destruct (is_node (gr d) f); [|eexists; reflexivity]. cbn [andb] in Hn. rewrite Hn. eexists. reflexivity.
Qed.

(* a failing query on a database at rest (empty undo stack) is rolled back to the database itself *)
Lemma exec_of_err rv d q e :
  is_mutating q = true -> exec_mut_step rv d q = StErr d e -> undo d = [] ->
  Queries.exec rv d q = (clear_undo d, QErr e).
Proof.
  intros M E U. unfold Queries.exec, exec_in_txn. rewrite M, E. unfold rollback. rewrite U. reflexivity.
Qed.

Section LinkFail.
  Variable fl : bool.
  Variable rv : revision.

  Theorem so_exec_insert_edge_rejected_stored root d w h f t sp :
    stored_db_w (hp sp) root d w -> so_handles h w -> so_graph_ok (gr d) ->
    (0 < f)%Z -> (0 < t)%Z -> is_node (gr d) f && is_node (gr d) t = false -> undo d = [] ->
    cwp fl (so_q_insert_edge h f t) sp
        (fun r sp' => r = CrOk (h, None) /\ qres_ids (snd (Queries.exec rv d (lq_insert_edge f t))) = None /\
                      fst (Queries.exec rv d (lq_insert_edge f t)) = d /\
                      stored_db_w (hp sp') root d w /\ sdepth sp' = sdepth sp /\
                      frame (hp sp) (hp sp') (sd_foot root w) (sd_foot root w)).
  Proof.
    intros H Hh OK Pf Pt Hn U.
    assert (EN : insert_edge (gr d) f t = None) by (unfold insert_edge; rewrite Hn; reflexivity).
    eapply cwp_mono; [|eapply (so_q_insert_edge_stored fl); [exact H|exact Hh|exact OK|intros X; contradiction X; exact EN|]].
    - unfold insert_edge_db. rewrite EN. intros r sp' (-> & H' & D' & F').
      destruct (step_insert_edge_fail rv d f t Pf Pt Hn) as [e E].
      rewrite (exec_of_err rv d (lq_insert_edge f t) e eq_refl E U). cbn [fst snd qres_ids].
      split; [reflexivity|]. split; [reflexivity|]. split; [destruct d; cbn in U |- *; rewrite U; reflexivity|]. auto.
    - unfold insert_edge_db. rewrite EN. intros e d1 X. discriminate X.
  Qed.
End LinkFail.
