(* RaftInv.v — the handlers and `step` of the consensus model described arm by arm (`process_case`, `request_case`,
   `response_case`, `step_case`: every later proof about a handler or about one step goes through these), and the
   invariants that hold for every adversarial event list (`run_from_inv`): well-formedness, and for every node a
   commit index that never decreases (C28a) and committed entries that stay (C28b). *)
From Coq Require Import NArith List Bool Lia Arith.
From Agdb Require Import Raft RaftProofs.
Import ListNotations.
Open Scope N_scope.

Lemma upd_nth_length : forall A (f : A -> A) l k, length (upd_nth k f l) = length l.
Proof. induction l; destruct k; cbn; auto. Qed.

Lemma nth_upd_nth_eq : forall A (f : A -> A) d l k, (k < length l)%nat -> nth k (upd_nth k f l) d = f (nth k l d).
Proof. induction l; destruct k; cbn; intros; try lia; auto. apply IHl; lia. Qed.

Lemma nth_upd_nth_neq : forall A (f : A -> A) d l k j, k <> j -> nth j (upd_nth k f l) d = nth j l d.
Proof. induction l; destruct k; destruct j; cbn; intros; try congruence; auto. Qed.

Lemma nth_error_upd_nth_eq : forall A (f : A -> A) l k x,
  nth_error l k = Some x -> nth_error (upd_nth k f l) k = Some (f x).
Proof. induction l; destruct k; cbn; intros; try discriminate; auto. congruence. Qed.

Lemma nth_error_upd_nth_neq : forall A (f : A -> A) l k j, k <> j -> nth_error (upd_nth k f l) j = nth_error l j.
Proof. induction l; destruct k; destruct j; cbn; intros; try congruence; auto. Qed.

Lemma In_remove_nth : forall A (l : list A) k x, In x (remove_nth k l) -> In x l.
Proof.
  induction l as [|a l IH]; intros k x H; destruct k; cbn in *; auto.
  destruct H; [left|right]; eauto.
Qed.

Lemma nth_error_firstn_lt : forall A (l : list A) n k, (k < n)%nat -> nth_error (firstn n l) k = nth_error l k.
Proof.
  induction l; intros n k H; destruct n; destruct k; cbn; auto; try lia. apply IHl; lia.
Qed.

Lemma clear_from_length : forall ps a s, length (clear_from a s ps) = length ps.
Proof. induction ps; cbn; intros; auto. Qed.

Lemma clear_from_nth : forall ps a s k,
  nth k (clear_from a s ps) peer0 = nth k ps peer0 \/
  nth k (clear_from a s ps) peer0 = p_set_voted false (nth k ps peer0).
Proof.
  induction ps; intros a0 s k; cbn [clear_from].
  - destruct k; auto.
  - destruct k; cbn [nth].
    + destruct (a0 =? s); auto.
    + apply IHps.
Qed.

Lemma reset_from_length : forall ps a s, length (reset_from a s ps) = length ps.
Proof. induction ps; cbn; intros; auto. Qed.

(* row k of the table after the reset at election (fix_ack_term): the own row is kept, every other row is cleared *)
Lemma reset_from_nth : forall ps a s k,
  nth k (reset_from a s ps) peer0 =
  if a + N.of_nat k =? s then nth k ps peer0 else p_set_all 0 0 0 (nth k ps peer0).
Proof.
  induction ps as [|p ps IH]; intros a s k; cbn [reset_from].
  - destruct k; cbn [nth]; destruct (_ =? _); reflexivity.
  - destruct k; cbn [nth].
    + replace (a + N.of_nat 0) with a by lia. reflexivity.
    + rewrite IH. replace (a + 1 + N.of_nat k) with (a + N.of_nat (S k)) by lia. reflexivity.
Qed.

Lemma node_at_reset_rows : forall nd j,
  node_at (reset_rows nd) j = if j =? n_index nd then node_at nd j else p_set_all 0 0 0 (node_at nd j).
Proof.
  intros nd j. unfold node_at, reset_rows. cbn [n_peers set_peers]. rewrite reset_from_nth.
  replace (0 + N.of_nat (N.to_nat j)) with j by lia. reflexivity.
Qed.

Lemma local_reset_rows : forall nd, local (reset_rows nd) = local nd.
Proof. intros nd. unfold local. change (n_index (reset_rows nd)) with (n_index nd). rewrite node_at_reset_rows, N.eqb_refl. reflexivity. Qed.

Lemma others_reset_rows : forall nd, others (reset_rows nd) = others nd.
Proof. intros nd. unfold others, indices, reset_rows. cbn [n_peers set_peers n_index]. rewrite reset_from_length. reflexivity. Qed.

(* the heartbeats sent at election carry the own row, which the reset leaves alone *)
Lemma heartbeat_reset_rows : forall nd, heartbeat_no_timer (reset_rows nd) = heartbeat_no_timer nd.
Proof.
  intros nd. unfold heartbeat_no_timer. rewrite others_reset_rows. apply map_ext. intros j.
  unfold mk_req. rewrite local_reset_rows. reflexivity.
Qed.

(* `vote_received` with the effect of the acknowledgement repair isolated *)
Lemma vote_received_eq : forall rv nd r,
  vote_received rv nd r =
  if n_size nd / 2 <? votes (upd_peer nd (q_to r) (p_set_voted true)) then
    (if fix_ack_term rv then reset_rows (set_term (set_state (upd_peer nd (q_to r) (p_set_voted true)) Leader) (q_term r))
     else set_term (set_state (upd_peer nd (q_to r) (p_set_voted true)) Leader) (q_term r),
     heartbeat_no_timer (set_term (set_state (upd_peer nd (q_to r) (p_set_voted true)) Leader) (q_term r)))
  else (upd_peer nd (q_to r) (p_set_voted true), []).
Proof.
  intros rv nd r. unfold vote_received.
  change (n_size (upd_peer nd (q_to r) (p_set_voted true))) with (n_size nd).
  destruct (_ <? _); [|reflexivity]. destruct (fix_ack_term rv); rewrite ?heartbeat_reset_rows; reflexivity.
Qed.

(* The handlers, arm by arm: what each handler returns, one constructor per arm of the Rust function, with the guards that lead there.
   A fact about a handler is proved by case analysis on its relation: `destruct (request_case rv nd r el)` puts the
   result of each arm in the place of `handle_request rv nd r el`. *)

Inductive process_spec (nd : node) (due : list N) : node * list request -> Prop :=
| ps_leader : n_state nd = Leader ->
    process_spec nd due (nd, map (fun j => mk_req nd j (n_term nd) KHeartbeat) (filter (fun j => memN j due) (others nd)))
| ps_pre_election : n_state nd = Election ->
    process_spec nd due (set_et (clear_votes nd) (n_hb nd),
                         map (fun j => mk_req (clear_votes nd) j (n_term nd + 1) KPreVote) (others (clear_votes nd)))
| ps_term_timeout : is_leader (n_state nd) = false ->
    process_spec nd due (set_et (set_state nd Election) (n_first nd), [])
| ps_idle : process_spec nd due (nd, []).

Lemma process_case : forall nd el due, process_spec nd due (process nd el due).
Proof.
  intros nd el due. unfold process, pre_election.
  destruct (n_state nd) eqn:S; cbn [is_election andb]; try destruct (n_et nd <=? el); try destruct (n_tt nd <? el);
    first [apply ps_leader; exact S | exact (ps_pre_election nd due S) | apply ps_term_timeout; rewrite S; reflexivity | apply ps_idle].
Qed.

(* the node after an Append/Heartbeat request of a term >= its own has passed `validate_term`:
   follower of the sender in the request's term, the sender's row updated *)
Definition follow (nd : node) (r : request) : node :=
  update_node (set_state (set_term nd (q_term r)) (Follower (q_from r))) r.

Inductive request_spec (rv : raftrev) (nd : node) (r : request) : node * response -> Prop :=
| rq_reject s : is_ok (s_result s) = false -> s_to s = q_from r -> request_spec rv nd r (nd, s)
| rq_pre_vote : q_kind r = KPreVote -> request_spec rv nd r (nd, ok r)
| rq_vote : q_kind r = KVote -> is_leader (n_state nd) = false -> is_candidate (n_state nd) = false ->
    n_term nd < q_term r -> p_li (local nd) <= q_li r -> p_lt (local nd) <= q_lt r ->
    request_spec rv nd r (set_state (if fix_vote_term rv then set_term nd (q_term r) else nd) (Voted (q_term r)), ok r)
| rq_heartbeat_mismatch s : q_kind r = KHeartbeat -> n_term nd <= q_term r ->
    is_ok (s_result s) = false -> s_to s = q_from r ->
    request_spec rv nd r (set_state (set_term nd (q_term r)) (Follower (q_from r)), s)
| rq_heartbeat : q_kind r = KHeartbeat -> n_term nd <= q_term r -> p_li (local nd) = q_li r ->
    request_spec rv nd r (if p_lc (local (follow nd r)) <? q_lc r then commit_storage (follow nd r) (q_lc r) else follow nd r,
                          ok r)
| rq_append logs : q_kind r = KAppend logs -> n_term nd <= q_term r ->
    request_spec rv nd r (append_logs (follow nd r) r logs).

Lemma become_follower_eq : forall nd r,
  validate_term nd r = None ->
  n_term nd <= q_term r /\ become_follower nd r = set_state (set_term nd (q_term r)) (Follower (q_from r)).
Proof.
  intros nd r V. unfold validate_term in V. unfold become_follower.
  destruct (N.ltb_spec (q_term r) (n_term nd)); [discriminate|].
  destruct (N.leb_spec (n_term nd) (q_term r)); [split; [assumption|reflexivity] | lia].
Qed.

Lemma request_case : forall rv nd r el, request_spec rv nd r (handle_request rv nd r el).
Proof.
  intros rv nd r el. unfold handle_request. destruct (q_kind r) as [logs| | |] eqn:K.
  - unfold append_request. destruct (validate_term nd r) as [s|] eqn:V.
    + unfold validate_term in V. destruct (_ <? _); inversion V. apply rq_reject; reflexivity.
    + destruct (become_follower_eq nd r V) as [T ->]. apply (rq_append rv nd r logs K T).
  - unfold heartbeat_request. destruct (validate_term nd r) as [s|] eqn:V.
    + unfold validate_term in V. destruct (_ <? _); inversion V. apply rq_reject; reflexivity.
    + destruct (become_follower_eq nd r V) as [T ->]. unfold validate_log.
      destruct (N.eqb_spec (p_li (local (set_state (set_term nd (q_term r)) (Follower (q_from r))))) (q_li r)) as [E|E];
        cbn [negb orb]; [|apply rq_heartbeat_mismatch; auto].
      destruct (_ =? _); cbn [negb]; [apply (rq_heartbeat rv nd r K T E) | apply rq_heartbeat_mismatch; auto].
  - unfold pre_vote_request, validate_log_for_vote.
    destruct (_ || _); destruct (n_state nd); try destruct (el <=? n_tt nd);
      first [apply (rq_pre_vote rv nd r K) | apply rq_reject; reflexivity].
  - unfold vote_request, validate_vote_state, validate_term_for_vote, validate_log_for_vote.
    destruct (n_state nd) eqn:S; try (apply rq_reject; reflexivity).
    all: try (destruct (q_term r <=? t); [apply rq_reject; reflexivity|]).
    all: destruct (N.leb_spec (q_term r) (n_term nd)); [apply rq_reject; reflexivity|].
    all: destruct (N.ltb_spec (q_li r) (p_li (local nd))); cbn [orb]; [apply rq_reject; reflexivity|].
    all: destruct (N.ltb_spec (q_lt r) (p_lt (local nd))); cbn [orb]; [apply rq_reject; reflexivity|].
    all: destruct (q_lc r <? p_lc (local nd)); [apply rq_reject; reflexivity|].
    all: apply rq_vote; rewrite ?S; auto.
Qed.

(* `response()`.  `upd_peer nd (q_to r) (p_set_voted true)` is the node with the answering peer marked;
   `upd_peer nd (q_to r) (p_set_all (q_li r) (q_lt r) (q_lc r))` the node with that peer's row overwritten by the
   request's (log_index, log_term, log_commit), which `commit()` does first *)
Inductive response_spec (rv : raftrev) (nd : node) (r : request) (s : response) : node * list request -> Prop :=
| rs_ignore : response_spec rv nd r s (nd, [])
| rs_pre_vote : n_state nd = Election ->
    response_spec rv nd r s (upd_peer nd (q_to r) (p_set_voted true), [])
| rs_candidate : n_state nd = Election ->
    response_spec rv nd r s (election (upd_peer nd (q_to r) (p_set_voted true)))
| rs_vote : n_state nd = Candidate -> q_kind r = KVote -> s_result s = ROk -> vote_counts rv nd r = true ->
    response_spec rv nd r s (upd_peer nd (q_to r) (p_set_voted true), [])
| rs_elected : n_state nd = Candidate -> q_kind r = KVote -> s_result s = ROk -> vote_counts rv nd r = true ->
    n_size nd / 2 < votes (upd_peer nd (q_to r) (p_set_voted true)) ->
    response_spec rv nd r s
      (let ld := set_term (set_state (upd_peer nd (q_to r) (p_set_voted true)) Leader) (q_term r) in
       (if fix_ack_term rv then reset_rows ld else ld, heartbeat_no_timer ld))
| rs_ack : n_state nd = Leader -> is_append_or_hb (q_kind r) && is_ok (s_result s) = true -> ack_counts rv nd r = true ->
    response_spec rv nd r s (upd_peer nd (q_to r) (p_set_all (q_li r) (q_lt r) (q_lc r)), [])
| rs_commit : n_state nd = Leader -> is_append_or_hb (q_kind r) && is_ok (s_result s) = true -> ack_counts rv nd r = true ->
    p_lc (local (upd_peer nd (q_to r) (p_set_all (q_li r) (q_lt r) (q_lc r)))) < q_li r ->
    response_spec rv nd r s
      (let cm := commit_storage (upd_peer nd (q_to r) (p_set_all (q_li r) (q_lt r) (q_lc r))) (q_li r) in
       (cm, heartbeat_no_timer cm))
| rs_reconcile cl : n_state nd = Leader -> response_spec rv nd r s (reconcile nd r cl)
| rs_step_down l : n_term nd < l ->
    response_spec rv nd r s (set_et (set_state (set_term nd l) Election) (n_first nd), []).

Lemma response_case : forall rv nd r s, response_spec rv nd r s (handle_response rv nd r s).
Proof.
  intros rv nd r s. unfold handle_response.
  assert (PV : n_state nd = Election -> response_spec rv nd r s (pre_vote_received nd r)).
  { intros S. unfold pre_vote_received. destruct (_ <? _); [apply rs_candidate | apply rs_pre_vote]; exact S. }
  assert (VR : n_state nd = Candidate -> q_kind r = KVote -> s_result s = ROk ->
               response_spec rv nd r s (if vote_counts rv nd r then vote_received rv nd r else (nd, []))).
  { intros S K R. destruct (vote_counts rv nd r) eqn:VC; [|apply rs_ignore]. rewrite vote_received_eq.
    destruct (N.ltb_spec (n_size nd / 2) (votes (upd_peer nd (q_to r) (p_set_voted true))));
      [apply rs_elected | apply rs_vote]; assumption. }
  assert (CM : n_state nd = Leader -> is_append_or_hb (q_kind r) && is_ok (s_result s) = true ->
               response_spec rv nd r s (if ack_counts rv nd r then commit nd r else (nd, []))).
  { intros S A. destruct (ack_counts rv nd r) eqn:AC; [|apply rs_ignore]. unfold commit.
    destruct (N.ltb_spec (p_lc (local (upd_peer nd (q_to r) (p_set_all (q_li r) (q_lt r) (q_lc r))))) (q_li r));
      cbn [andb]; [|apply rs_ack; assumption].
    destruct (_ <=? _); [apply rs_commit | apply rs_ack]; assumption. }
  destruct (n_state nd) eqn:S; destruct (q_kind r) eqn:K; destruct (s_result s) eqn:R;
    first [ apply rs_ignore | apply PV; reflexivity | apply VR; reflexivity | apply CM; reflexivity
          | apply rs_reconcile; assumption
          | match goal with |- context [n_term nd <? ?t] => destruct (N.ltb_spec (n_term nd) t) end;
            [apply rs_step_down; assumption | apply rs_ignore] ].
Qed.

(* a node of a cluster of more than one node: its index is a row of its table, and that row (`local`) mirrors the
   storage — log_commit is the commit index, log_index the length of the log.  `ni_size`: with `n_size = 1`
   `append` commits at once and sends nothing; that cluster is treated apart (RaftVote.K1). *)
Record ninv (nd : node) : Prop := {
  ni_range : (N.to_nat (n_index nd) < length (n_peers nd))%nat;
  ni_commit : n_commit nd = p_lc (local nd);
  ni_len : length (n_logs nd) = N.to_nat (p_li (local nd));
  ni_size : n_size nd <> 1 }.

(* what a handler may do to a node: identity and table size stay, the commit index does not decrease, and the entries
   up to the old commit index stay (C28a, C28b for one call); `good` adds that the result is again a `ninv` node *)
Definition stable (nd nd' : node) : Prop :=
  n_index nd' = n_index nd /\ length (n_peers nd') = length (n_peers nd) /\ n_size nd' = n_size nd /\
  n_commit nd <= n_commit nd' /\
  forall idx e, idx <= n_commit nd -> log_at (n_logs nd) idx = Some e -> log_at (n_logs nd') idx = Some e.

Definition good (nd nd' : node) : Prop := ninv nd' /\ stable nd nd'.

Lemma stable_refl : forall nd, stable nd nd.
Proof. intros nd; repeat split; auto; lia. Qed.

Lemma stable_trans : forall a b c, stable a b -> stable b c -> stable a c.
Proof.
  intros a b c (I1 & L1 & S1 & C1 & E1) (I2 & L2 & S2 & C2 & E2).
  repeat split; try congruence; try lia.
  intros idx e H1 H2. apply E2; [lia|]. apply E1; auto.
Qed.

Lemma good_refl : forall nd, ninv nd -> good nd nd.
Proof. intros; split; auto using stable_refl. Qed.

Lemma good_trans : forall a b c, good a b -> good b c -> good a c.
Proof. intros a b c [_ S1] [I2 S2]. split; auto. eapply stable_trans; eauto. Qed.

(* a change that leaves the storage and the own (li, lc) untouched *)
Lemma good_same : forall nd nd',
  ninv nd ->
  n_index nd' = n_index nd -> length (n_peers nd') = length (n_peers nd) -> n_size nd' = n_size nd ->
  n_logs nd' = n_logs nd -> n_commit nd' = n_commit nd ->
  p_li (local nd') = p_li (local nd) -> p_lc (local nd') = p_lc (local nd) ->
  good nd nd'.
Proof.
  intros nd nd' [R C L S] Hi Hl Hs Hlog Hc Hli Hlc. split.
  - constructor; congruence.
  - repeat split; auto; try lia. intros; congruence.
Qed.

Lemma local_upd_peer : forall nd j f,
  (N.to_nat (n_index nd) < length (n_peers nd))%nat ->
  local (upd_peer nd j f) = if j =? n_index nd then f (local nd) else local nd.
Proof.
  intros nd j f R. unfold local, node_at, upd_peer. cbn.
  destruct (N.eqb_spec j (n_index nd)) as [->|Hne].
  - apply nth_upd_nth_eq; auto.
  - apply nth_upd_nth_neq. intros H. apply Hne. lia.
Qed.

Lemma good_upd_peer : forall nd j f,
  ninv nd ->
  (j <> n_index nd \/ (forall p, p_li (f p) = p_li p /\ p_lc (f p) = p_lc p)) ->
  good nd (upd_peer nd j f).
Proof.
  intros nd j f I H. pose proof (ni_range _ I) as R.
  apply good_same; auto; try reflexivity.
  - unfold upd_peer; cbn. apply upd_nth_length.
  - rewrite local_upd_peer by auto. destruct (N.eqb_spec j (n_index nd)); auto.
    destruct H as [H|H]; [congruence|apply H].
  - rewrite local_upd_peer by auto. destruct (N.eqb_spec j (n_index nd)); auto.
    destruct H as [H|H]; [congruence|apply H].
Qed.

Lemma good_set_state : forall nd s, ninv nd -> good nd (set_state nd s).
Proof. intros; apply good_same; auto. Qed.
Lemma good_set_term : forall nd t, ninv nd -> good nd (set_term nd t).
Proof. intros; apply good_same; auto. Qed.
Lemma good_set_et : forall nd t, ninv nd -> good nd (set_et nd t).
Proof. intros; apply good_same; auto. Qed.

Lemma good_clear_votes : forall nd, ninv nd -> good nd (clear_votes nd).
Proof.
  intros nd I. apply good_same; auto; cbn.
  - apply clear_from_length.
  - unfold local, node_at; cbn.
    destruct (clear_from_nth (n_peers nd) 0 (n_index nd) (N.to_nat (n_index nd))) as [-> | ->]; auto.
  - unfold local, node_at; cbn.
    destruct (clear_from_nth (n_peers nd) 0 (n_index nd) (N.to_nat (n_index nd))) as [-> | ->]; auto.
Qed.

Lemma good_reset_rows : forall nd, ninv nd -> good nd (reset_rows nd).
Proof.
  intros nd I. apply good_same; auto; try (rewrite local_reset_rows; reflexivity).
  cbn. apply reset_from_length.
Qed.

Lemma log_at_some_lt : forall l idx e, log_at l idx = Some e -> 1 <= idx /\ (N.to_nat (idx - 1) < length l)%nat.
Proof.
  unfold log_at; intros l idx e H. destruct (N.eqb_spec idx 0); [discriminate|].
  split; [lia|]. apply nth_error_Some. congruence.
Qed.

Lemma log_at_append_keep : forall l k x idx e,
  log_at l idx = Some e -> idx <= k -> log_at (firstn (N.to_nat k) l ++ [x]) idx = Some e.
Proof.
  intros l k x idx e H Hk. pose proof (log_at_some_lt _ _ _ H) as [H1 H2].
  unfold log_at in *. destruct (N.eqb_spec idx 0); [discriminate|].
  rewrite nth_error_app1.
  - rewrite nth_error_firstn_lt; auto. lia.
  - rewrite firstn_length. lia.
Qed.

Lemma local_append_storage : forall nd log,
  (N.to_nat (n_index nd) < length (n_peers nd))%nat ->
  local (append_storage nd log) = p_set_log (e_index log) (e_term log) (local nd).
Proof.
  intros nd log R. unfold append_storage, upd_local.
  rewrite local_upd_peer by exact R. rewrite N.eqb_refl. reflexivity.
Qed.

Lemma local_commit_storage : forall nd idx,
  (N.to_nat (n_index nd) < length (n_peers nd))%nat ->
  local (commit_storage nd idx) = p_set_commit idx (local nd).
Proof.
  intros nd idx R. unfold commit_storage, upd_local.
  rewrite local_upd_peer by exact R. rewrite N.eqb_refl. reflexivity.
Qed.

Lemma peers_len_append_storage : forall nd log, length (n_peers (append_storage nd log)) = length (n_peers nd).
Proof. intros. unfold append_storage, upd_local, upd_peer. cbn. apply upd_nth_length. Qed.

Lemma peers_len_commit_storage : forall nd idx, length (n_peers (commit_storage nd idx)) = length (n_peers nd).
Proof. intros. unfold commit_storage, upd_local, upd_peer. cbn. apply upd_nth_length. Qed.

Lemma good_append_storage : forall nd log,
  ninv nd -> p_lc (local nd) < e_index log -> e_index log <= p_li (local nd) + 1 ->
  good nd (append_storage nd log).
Proof.
  intros nd log I Hc Hi. pose proof I as [R C L S].
  assert (Hlogs : n_logs (append_storage nd log) = firstn (N.to_nat (e_index log - 1)) (n_logs nd) ++ [log]) by reflexivity.
  assert (Hcm : n_commit (append_storage nd log) = n_commit nd) by reflexivity.
  split.
  - constructor.
    + rewrite peers_len_append_storage. exact R.
    + rewrite local_append_storage by exact R. rewrite Hcm. exact C.
    + rewrite local_append_storage by exact R. rewrite Hlogs.
      rewrite app_length, firstn_length. cbn [length p_set_log p_li]. lia.
    + exact S.
  - repeat split.
    + apply peers_len_append_storage.
    + rewrite Hcm. lia.
    + intros idx e H1 H2. rewrite Hlogs. apply log_at_append_keep; auto. lia.
Qed.

Lemma good_commit_storage : forall nd idx,
  ninv nd -> p_lc (local nd) < idx -> good nd (commit_storage nd idx).
Proof.
  intros nd idx I Hc. pose proof I as [R C L S].
  assert (Hlogs : n_logs (commit_storage nd idx) = n_logs nd) by reflexivity.
  assert (Hcm : n_commit (commit_storage nd idx) = idx) by reflexivity.
  split.
  - constructor.
    + rewrite peers_len_commit_storage. exact R.
    + rewrite local_commit_storage by exact R. rewrite Hcm. reflexivity.
    + rewrite local_commit_storage by exact R. rewrite Hlogs. exact L.
    + exact S.
  - repeat split.
    + apply peers_len_commit_storage.
    + rewrite Hcm. lia.
    + intros i e H1 H2. rewrite Hlogs. exact H2.
Qed.

Lemma good_then : forall a b c, good a b -> (ninv b -> good b c) -> good a c.
Proof. intros a b c G H. eapply good_trans; [exact G | apply H; apply G]. Qed.

Lemma good_process : forall nd el due, ninv nd -> good nd (fst (process nd el due)).
Proof.
  intros nd el due I. destruct (process_case nd el due); cbn [fst].
  - apply good_refl; exact I.
  - eapply good_then; [apply good_clear_votes; exact I | apply good_set_et].
  - eapply good_then; [apply good_set_state; exact I | apply good_set_et].
  - apply good_refl; exact I.
Qed.

Lemma log_at_snoc_keep : forall l x idx e, log_at l idx = Some e -> log_at (l ++ [x]) idx = Some e.
Proof.
  intros l x idx e H. pose proof (log_at_some_lt _ _ _ H) as [_ L]. unfold log_at in *.
  destruct (idx =? 0); [discriminate|]. rewrite nth_error_app1; auto.
Qed.

(* `append` on a node of a cluster of more than one node: the entry it creates and the node it leaves *)
Lemma append_eq : forall nd d, ninv nd ->
  let x := mkEntry (lenN (n_logs nd) + 1) (n_term nd) d in
  let nd' := fst (append nd d) in
  n_logs nd' = n_logs nd ++ [x] /\ n_commit nd' = n_commit nd /\
  local nd' = p_set_log (e_index x) (e_term x) (local nd) /\
  n_index nd' = n_index nd /\ length (n_peers nd') = length (n_peers nd) /\ n_size nd' = n_size nd /\
  n_term nd' = n_term nd.
Proof.
  intros nd d I. pose proof I as [R C L S]. cbv zeta. unfold append. cbn [fst]. apply N.eqb_neq in S.
  set (nd1 := upd_local nd (fun p => p_set_log (p_li p + 1) (n_term nd) p)).
  assert (Hloc1 : local nd1 = p_set_log (lenN (n_logs nd) + 1) (n_term nd) (local nd)).
  { unfold nd1, upd_local. rewrite local_upd_peer by exact R. rewrite N.eqb_refl.
    unfold lenN. rewrite L, N2Nat.id. reflexivity. }
  change (n_size (st_append nd1 (mkEntry (p_li (local nd1)) (n_term nd1) d))) with (n_size nd). rewrite S.
  change (n_term nd1) with (n_term nd). rewrite Hloc1. cbn [p_set_log p_li].
  repeat split.
  - cbn [st_append set_storage n_logs e_index]. change (n_logs nd1) with (n_logs nd).
    replace (N.to_nat (lenN (n_logs nd) + 1 - 1)) with (length (n_logs nd)) by (unfold lenN; lia).
    rewrite firstn_all. reflexivity.
  - exact Hloc1.
  - unfold nd1, upd_local, upd_peer. cbn. apply upd_nth_length.
Qed.

Lemma good_append : forall nd d, ninv nd -> good nd (fst (append nd d)).
Proof.
  intros nd d I. destruct (append_eq nd d I) as (El & Ec & Eloc & Ei & Ep & Es & Et). pose proof I as [R C L S]. split.
  - constructor.
    + rewrite Ei, Ep. exact R.
    + rewrite Eloc, Ec. exact C.
    + rewrite Eloc, El, app_length. cbn. unfold lenN. lia.
    + rewrite Es. exact S.
  - repeat split; auto; [rewrite Ec; lia|]. intros idx e H1 H2. rewrite El. apply log_at_snoc_keep. exact H2.
Qed.

Lemma good_follow : forall nd r, ninv nd -> q_from r <> n_index nd -> good nd (follow nd r).
Proof.
  intros nd r I Hne. unfold follow.
  eapply good_then; [apply good_set_term; exact I|]. intros I1.
  eapply good_then; [apply good_set_state; exact I1|]. intros I2. apply good_upd_peer; auto.
Qed.

Lemma local_follow : forall nd r, ninv nd -> q_from r <> n_index nd -> local (follow nd r) = local nd.
Proof.
  intros nd r I Hne. unfold follow, update_node. rewrite local_upd_peer by apply (ni_range _ I).
  cbn [n_index set_state set_term]. apply N.eqb_neq in Hne. rewrite Hne. reflexivity.
Qed.

(* `validate_log_append` says "append": the entry is past the commit index, and it either extends the log by one in
   the term of the last entry or has a higher term and sits at most one past the end *)
Lemma validate_log_append_true : forall nd r log,
  validate_log_append nd r log = inl true ->
  p_lc (local nd) < e_index log /\ e_index log <= p_li (local nd) + 1 /\
  ((p_lt (local nd) = e_term log /\ e_index log = p_li (local nd) + 1) \/ p_lt (local nd) < e_term log).
Proof.
  intros nd r log. unfold validate_log_append.
  destruct (N.eqb_spec (p_lt (local nd)) (e_term log)).
  - destruct (N.leb_spec (e_index log) (p_li (local nd))); [discriminate|].
    destruct (N.ltb_spec (p_lc (local nd)) (e_index log)); cbn [andb]; [|discriminate].
    destruct (N.eqb_spec (p_li (local nd) + 1) (e_index log)); [|discriminate]. intros _. repeat split; lia.
  - destruct (N.ltb_spec (p_lt (local nd)) (e_term log)); cbn [andb]; [|discriminate].
    destruct (N.ltb_spec (p_lc (local nd)) (e_index log)); cbn [andb]; [|discriminate].
    destruct (N.leb_spec (e_index log) (p_li (local nd) + 1)); [|discriminate]. intros _. repeat split; lia.
Qed.

Lemma good_append_logs : forall logs nd r, ninv nd -> good nd (fst (append_logs nd r logs)).
Proof.
  induction logs as [|log rest IH]; intros nd r I; cbn [append_logs].
  - apply good_refl; auto.
  - destruct (validate_log_append nd r log) as [doit|resp] eqn:V; cbn [fst]; [|apply good_refl; auto].
    set (nd1 := if doit then append_storage nd log else nd).
    assert (G1 : good nd nd1).
    { unfold nd1. destruct doit; [|apply good_refl; auto].
      apply validate_log_append_true in V. apply good_append_storage; tauto. }
    set (nd2 := if (e_index log <=? q_lc r) && (p_lc (local nd1) <? e_index log)
                then commit_storage nd1 (e_index log) else nd1).
    assert (G2 : good nd1 nd2).
    { unfold nd2. destruct (e_index log <=? q_lc r); cbn [andb]; [|apply good_refl; apply G1].
      destruct (N.ltb_spec (p_lc (local nd1)) (e_index log)); [|apply good_refl; apply G1].
      apply good_commit_storage; [apply G1 | auto]. }
    eapply good_trans; [exact G1|]. eapply good_trans; [exact G2|]. apply IH. apply G2.
Qed.

Lemma good_request : forall rv nd r el,
  ninv nd -> q_from r <> n_index nd -> good nd (fst (handle_request rv nd r el)).
Proof.
  intros rv nd r el I Hne. pose proof (good_follow nd r I Hne) as GF.
  destruct (request_case rv nd r el); cbn [fst].
  - apply good_refl; exact I.
  - apply good_refl; exact I.
  - destruct (fix_vote_term rv); [eapply good_then; [apply good_set_term; exact I|] |]; apply good_set_state; exact I.
  - eapply good_then; [apply good_set_term; exact I | apply good_set_state].
  - destruct (N.ltb_spec (p_lc (local (follow nd r))) (q_lc r)); [|exact GF].
    eapply good_then; [exact GF | intros I2; apply good_commit_storage; assumption].
  - eapply good_then; [exact GF | intros I2; apply good_append_logs; exact I2].
Qed.

Lemma append_logs_to : forall logs nd r, s_to (snd (append_logs nd r logs)) = q_from r.
Proof.
  induction logs as [|log rest IH]; intros nd r; cbn [append_logs snd]; [reflexivity|].
  destruct (validate_log_append nd r log) eqn:W; cbn [snd]; [apply IH|].
  unfold validate_log_append in W.
  repeat match type of W with context [if ?b then _ else _] => destruct b end; inversion W; reflexivity.
Qed.

Lemma request_to : forall rv nd r el, s_to (snd (handle_request rv nd r el)) = q_from r.
Proof. intros rv nd r el. destruct (request_case rv nd r el); cbn [snd]; auto using append_logs_to. Qed.

Lemma good_election : forall nd, ninv nd -> good nd (fst (election nd)).
Proof.
  intros nd I. unfold election. cbn [fst].
  eapply good_trans; [apply good_set_term; eauto|].
  eapply good_trans; [apply good_set_state; apply good_set_term; auto|].
  apply good_clear_votes. apply good_set_state. apply good_set_term. auto.
Qed.

Lemma good_response : forall rv nd r s,
  ninv nd -> q_to r <> n_index nd -> good nd (fst (handle_response rv nd r s)).
Proof.
  intros rv nd r s I Hne.
  assert (GV : good nd (upd_peer nd (q_to r) (p_set_voted true))) by (apply good_upd_peer; [exact I | right; intros p; split; reflexivity]).
  assert (GA : good nd (upd_peer nd (q_to r) (p_set_all (q_li r) (q_lt r) (q_lc r)))) by (apply good_upd_peer; auto).
  destruct (response_case rv nd r s); cbn [fst reconcile]; auto using good_refl.
  - eapply good_then; [exact GV | apply good_election].
  - eapply good_then; [exact GV|]. intros I1. eapply good_then; [apply good_set_state; exact I1|]. intros I2.
    eapply good_then; [apply good_set_term; exact I2|]. intros I3.
    destruct (fix_ack_term rv); [apply good_reset_rows | apply good_refl]; exact I3.
  - eapply good_then; [exact GA | intros I1; apply good_commit_storage; assumption].
  - eapply good_then; [apply good_set_term; exact I|]. intros I1.
    eapply good_then; [apply good_set_state; exact I1 | apply good_set_et].
Qed.

Definition reqs_ok (i : N) (reqs : list request) : Prop :=
  forall q, In q reqs -> q_from q = i /\ q_to q <> i.

Lemma others_neq : forall nd j, In j (others nd) -> j <> n_index nd.
Proof.
  intros nd j H. unfold others in H. apply filter_In in H as [_ H].
  intros ->. rewrite N.eqb_refl in H. discriminate.
Qed.

Lemma reqs_ok_map : forall nd' T K l,
  (forall j, In j l -> j <> n_index nd') ->
  reqs_ok (n_index nd') (map (fun j => mk_req nd' j T K) l).
Proof.
  intros nd' T K l H q Hq. apply in_map_iff in Hq as [j [<- Hj]]. cbn. split; auto.
Qed.

Lemma reqs_ok_others : forall nd' T K, reqs_ok (n_index nd') (map (fun j => mk_req nd' j T K) (others nd')).
Proof. intros. apply reqs_ok_map. apply others_neq. Qed.

Lemma reqs_ok_nil : forall i, reqs_ok i [].
Proof. intros i q []. Qed.

Lemma index_clear_votes : forall nd, n_index (clear_votes nd) = n_index nd. Proof. reflexivity. Qed.

Lemma reqs_process : forall nd el due, reqs_ok (n_index nd) (snd (process nd el due)).
Proof.
  intros nd el due. destruct (process_case nd el due); cbn [snd]; try apply reqs_ok_nil.
  - apply reqs_ok_map. intros j Hj. apply filter_In in Hj as [Hj _]. apply others_neq; auto.
  - apply (reqs_ok_others (clear_votes nd)).
Qed.

Lemma reqs_append : forall nd d, reqs_ok (n_index nd) (snd (append nd d)).
Proof.
  intros nd d. unfold append. cbn [snd].
  apply (reqs_ok_others (upd_local nd (fun p => p_set_log (p_li p + 1) (n_term nd) p))).
Qed.

Lemma index_upd_peer : forall nd j f, n_index (upd_peer nd j f) = n_index nd. Proof. reflexivity. Qed.

Lemma reqs_election : forall nd, reqs_ok (n_index nd) (snd (election nd)).
Proof.
  intros nd. unfold election. cbn [snd].
  apply (reqs_ok_others (clear_votes (set_state (set_term nd (n_term nd + 1)) Candidate))).
Qed.

Lemma reqs_hb_no_timer : forall nd, reqs_ok (n_index nd) (heartbeat_no_timer nd).
Proof. intros. unfold heartbeat_no_timer. apply reqs_ok_others. Qed.

Lemma reqs_response : forall rv nd r s,
  q_to r <> n_index nd -> reqs_ok (n_index nd) (snd (handle_response rv nd r s)).
Proof.
  intros rv nd r s Hne. destruct (response_case rv nd r s); cbn [snd]; try apply reqs_ok_nil.
  - apply (reqs_election (upd_peer nd (q_to r) (p_set_voted true))).
  - apply (reqs_hb_no_timer (set_term (set_state (upd_peer nd (q_to r) (p_set_voted true)) Leader) (q_term r))).
  - apply (reqs_hb_no_timer (commit_storage (upd_peer nd (q_to r) (p_set_all (q_li r) (q_lt r) (q_lc r))) (q_li r))).
  - intros q [<-|[]]; cbn; split; auto.
Qed.

Definition msg_ok (m : msg) : Prop :=
  match m with
  | MReq r => q_from r <> q_to r
  | MResp r s => q_from r <> q_to r /\ s_to s = q_from r
  end.

Definition nodes_ok (l : list node) : Prop :=
  forall k nd, nth_error l k = Some nd -> ninv nd /\ n_index nd = N.of_nat k.

Definition nstable (l l' : list node) : Prop :=
  forall k nd, nth_error l k = Some nd -> exists nd', nth_error l' k = Some nd' /\ stable nd nd'.

Definition cinv (c : cluster) : Prop := nodes_ok (c_nodes c) /\ forall m, In m (c_net c) -> msg_ok m.

Lemma nstable_refl : forall l, nstable l l.
Proof. intros l k nd H. exists nd. split; auto using stable_refl. Qed.

Lemma nstable_trans : forall a b c, nstable a b -> nstable b c -> nstable a c.
Proof.
  intros a b c H1 H2 k nd H. destruct (H1 _ _ H) as [nd1 [E1 S1]]. destruct (H2 _ _ E1) as [nd2 [E2 S2]].
  exists nd2. split; auto. eapply stable_trans; eauto.
Qed.

Lemma nodes_put : forall c i nd nd',
  nodes_ok (c_nodes c) -> get_node c i = Some nd -> good nd nd' ->
  nodes_ok (put_node c i nd') /\ nstable (c_nodes c) (put_node c i nd').
Proof.
  intros c i nd nd' H G [I' S]. unfold get_node in G. unfold put_node. split.
  - intros k x Hk. destruct (Nat.eq_dec (N.to_nat i) k) as [<-|Hne].
    + rewrite (nth_error_upd_nth_eq _ _ _ _ _ G) in Hk. inversion Hk; subst x. split; auto.
      destruct (H _ _ G) as [_ E]. destruct S as (Hi & _). congruence.
    + rewrite nth_error_upd_nth_neq in Hk by auto. apply H; auto.
  - intros k x Hk. destruct (Nat.eq_dec (N.to_nat i) k) as [<-|Hne].
    + rewrite G in Hk. inversion Hk; subst x. exists nd'. split; auto.
      apply (nth_error_upd_nth_eq _ _ _ _ _ G).
    + exists x. rewrite nth_error_upd_nth_neq by auto. split; auto using stable_refl.
Qed.

Lemma put_nth : forall c i nd nd' j x,
  get_node c i = Some nd -> nth_error (put_node c i nd') j = Some x ->
  (j = N.to_nat i /\ x = nd') \/ (j <> N.to_nat i /\ nth_error (c_nodes c) j = Some x).
Proof.
  intros c i nd nd' j x G H. unfold put_node, get_node in *.
  destruct (Nat.eq_dec (N.to_nat i) j) as [<-|Hne].
  - rewrite (nth_error_upd_nth_eq _ _ _ _ _ G) in H. inversion H. auto.
  - rewrite nth_error_upd_nth_neq in H by auto. right; split; auto.
Qed.

Lemma get_put : forall c i nd nd' net h u v,
  get_node c i = Some nd -> get_node (mkCluster (put_node c i nd') net h) u = Some v ->
  (u = i /\ v = nd') \/ (u <> i /\ get_node c u = Some v).
Proof.
  intros c i nd nd' net h u v G H. unfold get_node in H. cbn [c_nodes] in H.
  destruct (put_nth _ _ _ _ _ _ G H) as [[E ->]|[Hne H']].
  - left. split; auto. apply N2Nat.inj. exact E.
  - right. split; auto. intros ->. apply Hne. reflexivity.
Qed.

Lemma get_put_eq : forall c i nd nd' net h,
  get_node c i = Some nd -> get_node (mkCluster (put_node c i nd') net h) i = Some nd'.
Proof. intros c i nd nd' net h G. apply (nth_error_upd_nth_eq _ (fun _ => nd') _ _ _ G). Qed.

Lemma get_put_neq : forall c i nd' net h u,
  u <> i -> get_node (mkCluster (put_node c i nd') net h) u = get_node c u.
Proof.
  intros c i nd' net h u H. apply nth_error_upd_nth_neq. intros E. apply H. apply N2Nat.inj. auto.
Qed.

Lemma get_node_index : forall c i nd, nodes_ok (c_nodes c) -> get_node c i = Some nd -> n_index nd = i.
Proof. intros c i nd H G. destruct (H _ _ G) as [_ E]. rewrite E. lia. Qed.

Lemma net_add_reqs : forall (net : list msg) i reqs,
  (forall m, In m net -> msg_ok m) -> reqs_ok i reqs ->
  forall m, In m (net ++ map MReq reqs) -> msg_ok m.
Proof.
  intros net i reqs H R m Hm. apply in_app_or in Hm as [Hm|Hm]; auto.
  apply in_map_iff in Hm as [q [<- Hq]]. cbn. destruct (R _ Hq) as [-> Hne]. congruence.
Qed.

(* One step: either no node acts (the nodes and the history stay, no message is new), or one existing node runs
   one handler.  Every invariant over `step` is proved by `destruct (step_case rv c e)`, which also puts the event
   of the case in the place of `e`. *)
Inductive step_spec (rv : raftrev) (c : cluster) : event -> cluster -> Prop :=
| sp_idle e c' : c_nodes c' = c_nodes c -> c_hist c' = c_hist c -> incl (c_net c') (c_net c) -> step_spec rv c e c'
| sp_tick i nd el due : get_node c i = Some nd ->
    step_spec rv c (Tick i el due)
      (mkCluster (put_node c i (fst (process nd el due)))
                 (c_net c ++ map MReq (snd (process nd el due)))
                 (c_hist c ++ node_ghosts nd (fst (process nd el due))))
| sp_append i nd d : get_node c i = Some nd -> is_leader (n_state nd) = true ->
    step_spec rv c (ClientAppend i d)
      (mkCluster (put_node c i (fst (append nd d)))
                 (c_net c ++ map MReq (snd (append nd d)))
                 (c_hist c ++ node_ghosts nd (fst (append nd d))))
| sp_request k r el nd : nth_error (c_net c) k = Some (MReq r) -> get_node c (q_to r) = Some nd ->
    step_spec rv c (Deliver k el)
      (mkCluster (put_node c (q_to r) (fst (handle_request rv nd r el)))
                 (remove_nth k (c_net c) ++ [MResp r (snd (handle_request rv nd r el))])
                 (c_hist c ++ request_ghosts c (fst (handle_request rv nd r el)) r (snd (handle_request rv nd r el))
                           ++ node_ghosts nd (fst (handle_request rv nd r el))))
| sp_response k r s el nd : nth_error (c_net c) k = Some (MResp r s) -> get_node c (s_to s) = Some nd ->
    step_spec rv c (Deliver k el)
      (mkCluster (put_node c (s_to s) (fst (handle_response rv nd r s)))
                 (remove_nth k (c_net c) ++ map MReq (snd (handle_response rv nd r s)))
                 (c_hist c ++ response_ghosts rv nd r s ++ node_ghosts nd (fst (handle_response rv nd r s)))).

Lemma step_case : forall rv c e, step_spec rv c e (step rv c e).
Proof.
  intros rv c e.
  assert (Same : forall e0, step_spec rv c e0 c) by (intros; apply sp_idle; auto using incl_refl).
  assert (Rm : forall k, incl (remove_nth k (c_net c)) (c_net c)) by (intros k m; apply In_remove_nth).
  destruct e as [i el due | k el | k | k | i d]; cbn [step].
  - destruct (get_node c i) as [nd|] eqn:G; [|apply Same].
    pose proof (sp_tick rv c i nd el due G) as X. destruct (process nd el due); exact X.
  - destruct (nth_error (c_net c) k) as [[r|r s]|] eqn:Hk; [| |apply Same].
    + destruct (get_node c (q_to r)) as [nd|] eqn:G; [|apply sp_idle; [reflexivity | reflexivity | apply Rm]].
      pose proof (sp_request rv c k r el nd Hk G) as X. destruct (handle_request rv nd r el); exact X.
    + destruct (get_node c (s_to s)) as [nd|] eqn:G; [|apply sp_idle; [reflexivity | reflexivity | apply Rm]].
      pose proof (sp_response rv c k r s el nd Hk G) as X. destruct (handle_response rv nd r s); exact X.
  - apply sp_idle; [reflexivity | reflexivity | apply Rm].
  - destruct (nth_error (c_net c) k) as [m|] eqn:Hk; [|apply Same].
    apply sp_idle; [reflexivity | reflexivity |]. apply incl_app; [apply incl_refl|]. intros x [<-|[]]. eapply nth_error_In; eauto.
  - destruct (get_node c i) as [nd|] eqn:G; [|apply Same]. destruct (is_leader (n_state nd)) eqn:L; [|apply Same].
    pose proof (sp_append rv c i nd d G L) as X. destruct (append nd d); exact X.
Qed.

(* what `cinv` tells about the delivered message *)
Lemma delivered_request : forall c k r nd,
  cinv c -> nth_error (c_net c) k = Some (MReq r) -> get_node c (q_to r) = Some nd -> q_from r <> n_index nd.
Proof.
  intros c k r nd [HN HM] Hk G. pose proof (HM _ (nth_error_In _ _ Hk)) as Hok. cbn in Hok.
  rewrite (get_node_index _ _ _ HN G). exact Hok.
Qed.

Lemma delivered_response : forall c k r s nd,
  cinv c -> nth_error (c_net c) k = Some (MResp r s) -> get_node c (s_to s) = Some nd ->
  q_to r <> n_index nd /\ s_to s = q_from r.
Proof.
  intros c k r s nd [HN HM] Hk G. pose proof (HM _ (nth_error_In _ _ Hk)) as [Hft Hto].
  rewrite (get_node_index _ _ _ HN G). split; congruence.
Qed.

Lemma step_inv : forall rv c e, cinv c -> cinv (step rv c e) /\ nstable (c_nodes c) (c_nodes (step rv c e)).
Proof.
  intros rv c e CI. pose proof CI as [HN HM].
  assert (HR : forall k m, In m (remove_nth k (c_net c)) -> msg_ok m) by (intros k m Hm; apply HM; eapply In_remove_nth; eauto).
  assert (Put : forall i nd nd' net', get_node c i = Some nd -> good nd nd' -> (forall m, In m net' -> msg_ok m) ->
                cinv (mkCluster (put_node c i nd') net' (c_hist c)) /\ nstable (c_nodes c) (put_node c i nd')).
  { intros i nd nd' net' G Gd Hnet. destruct (nodes_put c i nd nd' HN G Gd). split; [split|]; assumption. }
  destruct (step_case rv c e) as [e0 c' En Eh Hnet | i nd el due G | i nd d G L | k r el nd Hk G | k r s el nd Hk G];
    unfold cinv; cbn [c_nodes c_net].
  - rewrite En. split; [split; [exact HN | intros m Hm; apply HM, Hnet, Hm] | apply nstable_refl].
  - apply (Put i nd); [exact G | apply good_process, (HN _ _ G) | eapply net_add_reqs; [exact HM | apply reqs_process]].
  - apply (Put i nd); [exact G | apply good_append, (HN _ _ G) | eapply net_add_reqs; [exact HM | apply reqs_append]].
  - pose proof (delivered_request c k r nd CI Hk G) as Hne.
    apply (Put (q_to r) nd); [exact G | apply good_request; [apply (HN _ _ G) | exact Hne] |].
    intros m Hm. apply in_app_or in Hm as [Hm|[<-|[]]]; [eapply HR; eauto|]. cbn.
    rewrite request_to. pose proof (HM _ (nth_error_In _ _ Hk)) as Hok. cbn in Hok. auto.
  - destruct (delivered_response c k r s nd CI Hk G) as [Hne _].
    apply (Put (s_to s) nd); [exact G | apply good_response; [apply (HN _ _ G) | exact Hne] |].
    eapply net_add_reqs; [apply HR | apply reqs_response; exact Hne].
Qed.

Lemma run_from_inv : forall rv evs c, cinv c -> cinv (run_from rv c evs) /\ nstable (c_nodes c) (c_nodes (run_from rv c evs)).
Proof.
  intros rv. induction evs as [|e evs IH]; intros c H; cbn [run_from fold_left].
  - split; auto using nstable_refl.
  - destruct (step_inv rv c e H) as [H1 S1]. destruct (IH _ H1) as [H2 S2].
    split; auto. eapply nstable_trans; eauto.
Qed.

Lemma init_inv : forall size, size <> 1 -> cinv (init_default size).
Proof.
  intros size Hs. split; [|intros m []].
  intros k nd Hk. unfold init_default, init in Hk. cbn [c_nodes] in Hk.
  rewrite nth_error_map in Hk. destruct (nth_error (seq 0 (N.to_nat size)) k) as [j|] eqn:Hj; [|discriminate].
  cbn in Hk. inversion Hk; subst nd; clear Hk.
  assert (Hlt : (k < N.to_nat size)%nat).
  { rewrite <- (seq_length (N.to_nat size) 0). apply nth_error_Some. congruence. }
  assert (j = k).
  { pose proof (nth_error_nth _ _ 0%nat Hj) as E. rewrite seq_nth in E by lia. lia. }
  subst j. split; [|reflexivity].
  assert (Hloc : local (new_node size (N.of_nat k) 1000 1000 3000) = mkPeer 0 0 0 true).
  { unfold local, node_at, new_node. cbn [n_peers n_index]. rewrite Nat2N.id.
    rewrite (nth_indep _ _ (mkPeer 0 0 0 (N.of_nat 0 =? N.of_nat k))) by (rewrite map_length, seq_length; lia).
    rewrite (map_nth (fun i => mkPeer 0 0 0 (N.of_nat i =? N.of_nat k))).
    rewrite seq_nth by lia. cbn. rewrite N.eqb_refl. reflexivity. }
  constructor.
  - cbn. rewrite map_length, seq_length, Nat2N.id. lia.
  - rewrite Hloc. reflexivity.
  - rewrite Hloc. reflexivity.
  - exact Hs.
Qed.

Lemma init_hist : forall size, size <> 1 -> c_hist (init_default size) = [].
Proof. intros size Hs. unfold init_default, init. cbn [c_hist]. apply N.eqb_neq in Hs. rewrite Hs. reflexivity. Qed.

Lemma run_from_app : forall rv a b c, run_from rv c (a ++ b) = run_from rv (run_from rv c a) b.
Proof. intros. unfold run_from. apply fold_left_app. Qed.

Lemma fold_run_app : forall rv size evs evs', run rv size (evs ++ evs') = run_from rv (run rv size evs) evs'.
Proof. intros. apply run_from_app. Qed.

