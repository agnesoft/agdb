(* ConcReadProofs.v — C23: every interleaving of `FileStorage::read` returns the sequential bytes.
   One invariant of the interleaved run (`Inv`): the lock protocol keeps each thread's pending read
   correct (`at_ok`), and each thread stays in step with its own program run alone (`agrees`). *)
From Agdb Require Import Bytes ConcRead.
From Coq Require Import Lia.
Local Open Scope nat_scope.

Lemma upd_length : forall X (l : list X) i x, length (upd l i x) = length l.
Proof. induction l as [|y l IH]; intros [|i] x; cbn [upd length]; auto. Qed.

Lemma nth_error_upd_same : forall X (l : list X) i x th, nth_error l i = Some th -> nth_error (upd l i x) i = Some x.
Proof. induction l as [|y l IH]; intros [|i] x th H; cbn [upd nth_error] in *; try discriminate; eauto. Qed.

Lemma nth_error_upd_other : forall X (l : list X) i j x, i <> j -> nth_error (upd l i x) j = nth_error l j.
Proof.
  induction l as [|y l IH]; intros [|i] [|j] x Hij; cbn [upd nth_error]; auto; try lia.
Qed.

Lemma nth_error_same_length : forall X Y (l : list X) (l' : list Y) i x,
  length l = length l' -> nth_error l i = Some x -> exists y, nth_error l' i = Some y.
Proof.
  intros X Y l l' i x E H. destruct (nth_error l' i) eqn:E'; [eauto|].
  apply nth_error_None in E'. assert (i < length l) by (apply nth_error_Some; congruence). lia.
Qed.

Fixpoint occ (t : nat) (l : list nat) : nat :=
  match l with [] => 0 | u :: r => (if u =? t then 1 else 0) + occ t r end.

Lemma occ_app : forall t a b, occ t (a ++ b) = occ t a + occ t b.
Proof. induction a as [|u a IH]; intros b; cbn [occ app]; auto. rewrite IH. lia. Qed.

Lemma occ_snoc : forall u pre t, occ u (pre ++ [t]) = if t =? u then S (occ u pre) else occ u pre.
Proof. intros. rewrite occ_app. cbn [occ]. destruct (t =? u); lia. Qed.

Lemma tlog_app : forall t l1 l2, tlog t (l1 ++ l2) = tlog t l1 ++ tlog t l2.
Proof.
  induction l1 as [|[[[u pos] len] r] l1 IH]; intros l2; cbn [tlog app]; auto.
  destruct (u =? t); cbn [app]; now rewrite IH.
Qed.

Lemma tlog_snoc : forall u l t pos len r,
  tlog u (l ++ [(t, pos, len, r)]) = tlog u l ++ (if t =? u then [(pos, len, r)] else []).
Proof. intros. rewrite tlog_app. reflexivity. Qed.

Definition phase (p : pcst) : nat :=
  match p with
  | Idle => 0
  | LSeek | POpen => 1
  | LRead | PSeek => 2
  | LUnlock _ | PRead _ => 3
  end.

Lemma file_read_in content pos len : in_range content pos len = true -> sys_read content pos len = file_read content pos len.
Proof. unfold file_read. now intros ->. Qed.
Lemma file_read_oob content pos len : in_range content pos len = false -> None = file_read content pos len.
Proof. unfold file_read. now intros ->. Qed.

(* a read out of range is answered at once (1 action), a read in range takes 4 actions on either branch *)
Definition read_cost (content : bytes) (pos len : nat) : nat := if in_range content pos len then 4 else 1.

(* the number of actions a reader needs when run alone *)
Fixpoint steps_seq {A} (content : bytes) (p : prog A) : nat :=
  match p with
  | Ret _ => 0
  | Rd pos len k => read_cost content pos len + steps_seq content (k (file_read content pos len))
  end.

Definition entry_ok (content : bytes) (e : entry) : Prop :=
  let '(_, pos, len, r) := e in r = file_read content pos len.

Section Inv.
Context {A : Type}.
Variable content : bytes.

(* thread t at p inside the read (pos, len), given the shared cursor and the lock: a thread in the locked
   branch is the holder (hence at most one such thread), and only the holder depends on the shared cursor *)
Definition at_ok (cur : nat) (lk : option nat) (t pos len : nat) (p : pcst) : Prop :=
  match p with
  | Idle => True
  | LSeek => lk = Some t /\ in_range content pos len = true
  | LRead => lk = Some t /\ in_range content pos len = true /\ cur = pos   (* between the holder's seek and read *)
  | LUnlock r => lk = Some t /\ in_range content pos len = true /\ r = file_read content pos len
  | POpen | PSeek => in_range content pos len = true                        (* past the range check *)
  | PRead c => in_range content pos len = true /\ c = pos
  end.

Definition head_ok (cur : nat) (lk : option nat) (t : nat) (th : thread A) : Prop :=
  match code th with
  | Ret _ => pc th = Idle
  | Rd pos len _ => at_ok cur lk t pos len (pc th)
  end.

(* another thread's action leaves head_ok alone unless it changes cursor or lock while this thread holds the lock *)
Lemma head_ok_frame : forall cur lk cur' lk' u th,
  head_ok cur lk u th -> (lk = Some u -> cur' = cur /\ lk' = lk) -> head_ok cur' lk' u th.
Proof.
  unfold head_ok. intros cur lk cur' lk' u th H F. destruct (code th); [exact H|].
  destruct (pc th); cbn [at_ok] in *; auto; destruct (F (proj1 H)) as [-> ->]; exact H.
Qed.

Lemma phase_lt_cost : forall cur lk t pos len p, at_ok cur lk t pos len p -> phase p < read_cost content pos len.
Proof.
  unfold read_cost. intros cur lk t pos len p.
  destruct p; cbn [phase at_ok]; destruct (in_range content pos len); intuition (lia || congruence).
Qed.

(* thread th, started as p0, scheduled n times and with completed reads `done`, is where p0 run alone is
   after these reads: the reads to come, the value to come, and the actions still needed are p0's *)
Definition agrees (p0 : prog A) (done : list (nat * nat * option bytes)) (n : nat) (th : thread A) : Prop :=
  seq_trace content p0 = done ++ seq_trace content (code th) /\
  run_seq content p0 = run_seq content (code th) /\
  steps_seq content p0 - n = steps_seq content (code th) - phase (pc th).

Variable ps : list (prog A).

(* the state after the schedule `pre` *)
Record Inv (pre : list nat) (s : state A) : Prop := {
  inv_len : length (threads s) = length ps;
  inv_log : Forall (entry_ok content) (log s);
  inv_thread : forall t th p0, nth_error (threads s) t = Some th -> nth_error ps t = Some p0 ->
     head_ok (cursor s) (lock s) t th /\ agrees p0 (tlog t (log s)) (occ t pre) th
}.

Lemma Inv_init : forall c0, Inv [] (init c0 ps).
Proof.
  intros c0. constructor; cbn [init threads lock cursor log].
  - apply map_length.
  - constructor.
  - intros t th p0 H Hp. rewrite nth_error_map, Hp in H. injection H as <-.
    split; [|repeat split; cbn; lia]. unfold head_ok. cbn. now destruct p0.
Qed.

(* an action of a thread that does not exist or has returned changes nothing *)
Lemma Inv_skip : forall pre s t, Inv pre s ->
  (forall th, nth_error (threads s) t = Some th -> exists a, code th = Ret a) -> Inv (pre ++ [t]) s.
Proof.
  intros pre s t [Hlen Hlog Hth] Hdone. constructor; auto.
  intros u thu q Hu Hq. destruct (Hth u thu q Hu Hq) as [Hh (Ht & Hr & Hs)]. rewrite occ_snoc.
  destruct (Nat.eqb_spec t u) as [->|]; [|auto].
  destruct (Hdone _ Hu) as [a Ha]. repeat split; auto. rewrite Ha in *. cbn [steps_seq] in *. lia.
Qed.

(* thread t becomes th'; it may change cursor and lock only while the lock is free or its own *)
Lemma Inv_upd : forall pre s t th p0 cur' lk' th' lg',
  Inv pre s -> nth_error (threads s) t = Some th -> nth_error ps t = Some p0 ->
  lock s = None \/ lock s = Some t \/ (cur' = cursor s /\ lk' = lock s) ->
  Forall (entry_ok content) lg' -> (forall u, u <> t -> tlog u lg' = tlog u (log s)) ->
  head_ok cur' lk' t th' -> agrees p0 (tlog t lg') (S (occ t pre)) th' ->
  Inv (pre ++ [t]) (mkState cur' lk' (upd (threads s) t th') lg').
Proof.
  intros pre s t th p0 cur' lk' th' lg' [Hlen Hlog Hth] Ht Hp Hframe Hlg Hoth Hh Ha.
  constructor; cbn [threads lock cursor log].
  - now rewrite upd_length.
  - exact Hlg.
  - intros u thu q Hu Hq. rewrite occ_snoc. destruct (Nat.eqb_spec t u) as [<-|Hne].
    + rewrite (nth_error_upd_same _ _ _ _ _ Ht) in Hu.
      replace thu with th' by congruence. replace q with p0 by congruence. auto.
    + rewrite nth_error_upd_other in Hu by exact Hne. rewrite Hoth by auto.
      destruct (Hth u thu q Hu Hq) as [Hhu Hau]. split; [|exact Hau].
      apply (head_ok_frame _ _ _ _ _ _ Hhu). intros E. destruct Hframe as [F|[F|F]]; [congruence..|exact F].
Qed.

(* one more action inside the head read: the log and the code stay *)
Lemma Inv_goto : forall pre s t p pos len k cur' lk' p',
  Inv pre s -> nth_error (threads s) t = Some (mkThread p (Rd pos len k)) ->
  lock s = None \/ lock s = Some t \/ (cur' = cursor s /\ lk' = lock s) ->
  phase p' = S (phase p) -> at_ok cur' lk' t pos len p' ->
  Inv (pre ++ [t]) (mkState cur' lk' (upd (threads s) t (mkThread p' (Rd pos len k))) (log s)).
Proof.
  intros pre s t p pos len k cur' lk' p' I Ht Hframe Hph Hh.
  destruct (nth_error_same_length _ _ _ _ _ _ (inv_len _ _ I) Ht) as [p0 Hp0].
  destruct (inv_thread _ _ I _ _ _ Ht Hp0) as [_ (Htr & Hrun & Hst)].
  apply (Inv_upd pre s t _ p0 cur' lk' _ _ I Ht Hp0 Hframe (inv_log _ _ I)); auto.
  pose proof (phase_lt_cost _ _ _ _ _ _ Hh). repeat split; cbn [code pc steps_seq] in *; auto. lia.
Qed.

(* the last action of the head read: it is logged with the sequential result and the continuation starts *)
Lemma Inv_finish : forall pre s t p pos len k lk',
  Inv pre s -> nth_error (threads s) t = Some (mkThread p (Rd pos len k)) ->
  lock s = None \/ lock s = Some t \/ lk' = lock s ->
  read_cost content pos len = S (phase p) -> forall r, r = file_read content pos len ->
  Inv (pre ++ [t]) (mkState (cursor s) lk' (upd (threads s) t (mkThread Idle (k r))) (log s ++ [(t, pos, len, r)])).
Proof.
  intros pre s t p pos len k lk' I Ht Hframe Hph r ->.
  destruct (nth_error_same_length _ _ _ _ _ _ (inv_len _ _ I) Ht) as [p0 Hp0].
  destruct (inv_thread _ _ I _ _ _ Ht Hp0) as [_ (Htr & Hrun & Hst)].
  apply (Inv_upd pre s t _ p0 _ _ _ _ I Ht Hp0).
  - intuition.
  - apply Forall_app. split; [apply (inv_log _ _ I)|]. now repeat constructor.
  - intros u Hu. rewrite tlog_snoc. destruct (Nat.eqb_spec t u); [congruence|apply app_nil_r].
  - unfold head_ok. cbn. now destruct (k _).
  - unfold agrees. rewrite tlog_snoc, Nat.eqb_refl, <- app_assoc. repeat split; cbn [code pc steps_seq phase] in *; auto. lia.
Qed.

Lemma Inv_step : forall pre s t, Inv pre s -> Inv (pre ++ [t]) (step true content s t).
Proof.
  intros pre s t I. unfold step.
  destruct (nth_error (threads s) t) as [[p c]|] eqn:Ht; [|apply Inv_skip; [exact I|congruence]].
  destruct c as [a|pos len k]; cbn [code pc].
  { apply Inv_skip; [exact I|]. intros th E. exists a. now replace th with (mkThread p (Ret a)) by congruence. }
  destruct (nth_error_same_length _ _ _ _ _ _ (inv_len _ _ I) Ht) as [p0 Hp0].
  destruct (inv_thread _ _ I _ _ _ Ht Hp0) as [Hh _]. unfold head_ok in Hh. cbn [code pc] in Hh.
  assert (Hcost : in_range content pos len = true -> read_cost content pos len = 4) by (unfold read_cost; now intros ->).
  destruct p as [| | |r| | |c]; cbn [at_ok] in Hh.
  - (* Idle: the range check, then try_lock *)
    destruct (in_range content pos len) eqn:Hr; cbn [negb].
    + destruct (lock s) as [h|] eqn:Hlk; apply (Inv_goto pre s t Idle); cbn [at_ok]; auto.
    + apply (Inv_finish pre s t Idle); auto using file_read_oob. unfold read_cost. now rewrite Hr.
  - (* LSeek: the holder moves the shared cursor *)
    destruct Hh as [Hme Hr]. apply (Inv_goto pre s t LSeek); cbn [at_ok]; auto.
  - (* LRead: the holder reads at the cursor it set *)
    destruct Hh as (Hme & Hr & ->). rewrite (file_read_in _ _ _ Hr).
    apply (Inv_goto pre s t LRead); cbn [at_ok]; auto.
  - (* LUnlock: drop the guard, return *)
    destruct Hh as (Hme & Hr & Hres). apply (Inv_finish pre s t (LUnlock r)); auto.
  - (* POpen: open the private handle *)
    apply (Inv_goto pre s t POpen); cbn [at_ok]; auto.
  - (* PSeek: seek on it *)
    apply (Inv_goto pre s t PSeek); cbn [at_ok]; auto.
  - (* PRead: private cursor *)
    destruct Hh as [Hr ->]. apply (Inv_finish pre s t (PRead pos)); auto using file_read_in.
Qed.

Lemma Inv_run : forall sched pre s, Inv pre s -> Inv (pre ++ sched) (run true content s sched).
Proof.
  induction sched as [|t sched IH]; intros pre s I; cbn [run fold_left].
  - now rewrite app_nil_r.
  - change (pre ++ t :: sched) with (pre ++ [t] ++ sched). rewrite app_assoc. apply IH, Inv_step, I.
Qed.

Theorem Inv_reachable : forall c0 sched, Inv sched (run true content (init c0 ps) sched).
Proof. intros c0 sched. exact (Inv_run sched [] _ (Inv_init c0)). Qed.

Lemma Inv_thread_exists : forall pre s t p0, Inv pre s -> nth_error ps t = Some p0 ->
  exists th, nth_error (threads s) t = Some th.
Proof. intros pre s t p0 I. apply nth_error_same_length. symmetry. apply (inv_len _ _ I). Qed.

End Inv.

Lemma seq_trace_reqs : forall content rs acc,
  seq_trace content (prog_of_reqs rs acc) = map (fun '(p, l) => (p, l, file_read content p l)) rs.
Proof. induction rs as [|[p l] rs IH]; intros acc; cbn [prog_of_reqs seq_trace map]; auto. now rewrite IH. Qed.

Lemma steps_seq_bound : forall A content (p : prog A), steps_seq content p <= 4 * reads_seq content p.
Proof.
  induction p as [a|pos len k IH]; cbn [steps_seq reads_seq]; [lia|].
  specialize (IH (file_read content pos len)). unfold read_cost. destruct (in_range content pos len); lia.
Qed.

(* no reader is ever blocked, and the number of actions a reader needs does not depend on the
   other threads: scheduled `steps_seq` times (4 per sequential read in range, 1 per rejected read) it has returned *)
Theorem completes : forall A (content : bytes) c0 (ps : list (prog A)) sched t p0,
  nth_error ps t = Some p0 -> steps_seq content p0 <= occ t sched ->
  nth_error (threads (run true content (init c0 ps) sched)) t = Some (mkThread Idle (Ret (run_seq content p0))).
Proof.
  intros A content c0 ps sched t p0 Hp Hocc.
  pose proof (Inv_reachable content ps c0 sched) as I.
  destruct (Inv_thread_exists _ _ _ _ _ _ I Hp) as [[p c] Hth]. rewrite Hth.
  destruct (inv_thread _ _ _ _ I _ _ _ Hth Hp) as [Hh (_ & Hrun & Hst)]. unfold head_ok in Hh. cbn [code pc] in *.
  destruct c as [a|pos len k]; cbn [run_seq steps_seq] in *; [congruence|].
  apply phase_lt_cost in Hh. lia.
Qed.

(* two threads on the shared handle: without the lock this schedule interleaves their seeks and reads *)
Definition wit_content : bytes := [x01; x02; x03; x04].
Definition wit_reqs : list (list (nat * nat)) := [[(0, 2)]; [(2, 2)]].
Definition wit_sched : list nat := [0; 0; 1; 1; 0; 1; 0; 1].

(* non-vacuity: three threads, reads inside, straddling and beyond the end, an empty read,
   an adaptive reader (reads a length byte, then that many bytes) *)
Definition ex_content : bytes := [x02; x0a; x0b; x0c; x0d].
Definition ex_adaptive : prog (option bytes) :=
  Rd 0 1 (fun r => match r with
                   | Some [b] => Rd 1 (N.to_nat (b2n b)) (fun r2 => Ret r2)
                   | _ => Ret None
                   end).
Definition ex_progs : list (prog (option bytes)) :=
  [ex_adaptive; Rd 3 2 (fun r => Rd 4 2 (fun r2 => Rd 9 0 (fun r3 => Ret r3))); ex_adaptive].
Definition ex_sched : list nat := [0; 1; 2; 1; 0; 2; 0; 1; 1; 2; 0; 2; 1; 0; 1; 2; 0; 1; 2; 0; 1; 0; 1; 2; 1; 1; 2; 2; 1].
