(* EmptyAliasProofs.v — C10: empty aliases are rejected without effect by EVERY alias-inserting query
   (fix: b8b5b10 = flag fix_empty_alias — with the flag off only InsertAliases checks; InsertNodes (new nodes
   and insert-or-update by ids) and InsertValues (insert-or-update by an unknown alias) create a listed,
   resolvable empty alias).  Hence no alias in the map is ever empty: the three queries that add aliases
   reject the empty one, removals only remove, a rollback restores the alias map of the state before (C13).
   `nea d` = the empty alias does not resolve.  Forward preservation needs no invariant at all
   (exec_in_txn_nea); across rollbacks it follows from the restoration theorems of HistoryAtomicProofs.v. *)
From Coq Require Import List ZArith Bool Lia.
From Agdb Require Import Bytes BytesProofs DbValue Graph DbModel Search Queries Revisions
  DbFrameProofs ImapProofs AliasProofs AliasQueryProofs IndexDb3Proofs QStepProofs
  DbInvProofs QueryInvProofs TraversalLiveProofs UndoObs UndoGraph HistoryAtomicProofs.
Import ListNotations.
Open Scope Z_scope.

Section Rev.
  Variable rv : revision.
  Hypothesis Hfix : fix_empty_alias rv = true.

  (* InsertNodes with an empty alias at ANY position: NotAllowed, the step leaves the database untouched
     (the check precedes every mutation and every id resolution) *)
  Lemma insert_nodes_empty_alias d count values (als : list bytes) ids :
    In ([] : bytes) als -> insert_nodes rv d count values als ids = StErr d ENotAllowed.
  Proof.
    intros Hin. unfold insert_nodes. rewrite Hfix. cbn [andb].
    replace (existsb _ als) with true; [reflexivity|].
    symmetry. apply existsb_exists. exists []. now split.
  Qed.

  (* InsertValues: an id given as the empty alias that does not resolve is NotAllowed (with the flag off it creates a
     node named ""); the step leaves the database untouched *)
  Lemma insert_values_q_empty_alias d acc kvs e :
    db_id d (QAlias []) = RErr e -> insert_values_q rv d acc (QAlias []) kvs = StErr d ENotAllowed.
  Proof. intros He. unfold insert_values_q. rewrite He, Hfix. reflexivity. Qed.

End Rev.

(* the pinned code accepted them: a node named "" is created, listed and resolvable *)
Definition q_nodes_empty : query := InsertNodes 0 (Single []) [[]] (Ids []).
Definition q_values_empty : query := InsertValues (Ids [QAlias []]) (Single []).

(* the last flag alone decides: everything repaired except this one still accepts it *)
Definition rv_no_empty_fix : revision :=
  {| fix_rollback_replace := true; fix_alias_steal_undo := true; fix_alias_nodes_only := true; fix_strict_order := true;
     fix_slice_clamp := true; fix_edge_origin := true; fix_visited_chain := true; fix_nodes_ids_alias := true;
     fix_empty_alias := false |}.

Example empty_alias_fixed_example :
  exec rv_fixed db_new q_nodes_empty = (db_new, QErr ENotAllowed) /\
  exec rv_fixed db_new q_values_empty = (db_new, QErr ENotAllowed).
Proof. vm_compute. split; reflexivity. Qed.

Definition nea (d : db) : Prop := imap_value (aliases d) [] = None.

Lemma nea_new : nea db_new.
Proof. reflexivity. Qed.

Lemma nea_same d d' : aliases d' = aliases d -> nea d -> nea d'.
Proof. unfold nea. now intros ->. Qed.

Lemma imap_insert_keeps_none m (a : bytes) id x :
  a <> x -> imap_value m x = None -> imap_value (imap_insert m a id) x = None.
Proof.
  intros Hne Hx. rewrite imap_insert_value_raw. cbv zeta.
  assert (E : bytes_eqb a x = false).
  { destruct (bytes_eqb a x) eqn:E; [|reflexivity]. apply bytes_eqb_eq in E. contradiction. }
  rewrite E, Hx. destruct (insert_old_k m a id) as [k|]; [destruct (bytes_eqb k x)|]; reflexivity.
Qed.

Lemma imap_remove_keeps_none m a x : imap_value m x = None -> imap_value (imap_remove_key m a) x = None.
Proof. intros Hx. rewrite imap_remove_key_value, Hx. now destruct (bytes_eqb a x). Qed.

Lemma drop_alias_keeps_none m al x : imap_value m x = None -> imap_value (drop_alias m al) x = None.
Proof. intros Hx. rewrite drop_alias_value, Hx. destruct al as [a|]; [now destruct (bytes_eqb a x)|reflexivity]. Qed.

Section Nea.
  Variable rv : revision.
  Hypothesis Hempty : fix_empty_alias rv = true.

  Lemma insert_alias_nea d id (al : bytes) : al <> [] -> nea d -> nea (insert_alias rv d id al).
  Proof.
    intros Hne Hd. unfold nea. rewrite insert_alias_aliases. unfold insert_alias_map.
    apply imap_insert_keeps_none; [exact Hne|].
    destruct (imap_key (aliases d) id) as [old|]; [|exact Hd]. now do 2 apply imap_remove_keeps_none.
  Qed.

  Lemma insert_new_alias_nea d id (al : bytes) : al <> [] -> nea d -> nea (insert_new_alias d id al).
  Proof. intros Hne Hd. unfold nea, insert_new_alias. cbn [aliases with_aliases]. now apply imap_insert_keeps_none. Qed.

  (* the key-value operations do not touch the alias map *)
  Lemma insert_kvs_replace_nea d id kvs : nea d -> nea (insert_kvs_replace d id kvs).
  Proof. apply nea_same, insert_kvs_replace_ga. Qed.

  Lemma insert_kvs_new_nea d id kvs : nea d -> nea (insert_kvs_new d id kvs).
  Proof. apply nea_same, insert_kvs_new_ga. Qed.

  Lemma remove_keys_nea d id keys : nea d -> nea (snd (remove_keys d id keys)).
  Proof. apply nea_same, remove_keys_ga. Qed.

  Lemma insert_values_new_nea a acc alias kvs :
    match alias with Some al => al <> [] | None => True end -> nea a -> nea (fst (insert_values_new a acc alias kvs)).
  Proof.
    intros Hal Ha. unfold insert_values_new. destruct (insert_node_db_fields a) as (Fa & _).
    destruct (insert_node_db a) as [id a1]. cbn [fst snd] in *.
    apply insert_kvs_new_nea.
    destruct alias as [al|]; [apply insert_new_alias_nea; [exact Hal|]|]; now apply (nea_same a).
  Qed.

  Lemma remove_id_nea a id : nea a -> nea (fst (remove_id a id)).
  Proof.
    intros Ha. unfold nea. rewrite remove_id_aliases. destruct (graph_index (gr a) id && (0 <? id)); [|exact Ha].
    now apply drop_alias_keeps_none.
  Qed.

  Lemma remove_q_nea a q : nea a -> nea (fst (remove_q a q)).
  Proof.
    intros Ha. destruct q as [id|al]; [now apply remove_id_nea|]. unfold nea. rewrite remove_q_aliases.
    destruct (imap_value (aliases a) al); [|exact Ha]. now apply drop_alias_keeps_none.
  Qed.

  Lemma remove_alias_nea a al : nea a -> nea (snd (remove_alias a al)).
  Proof. unfold nea. intros Ha. rewrite remove_alias_value, Ha. now destruct (bytes_eqb al []). Qed.

  Lemma remove_index_aliases d key : aliases (snd (remove_index d key)) = aliases d.
  Proof.
    unfold remove_index. destruct (idx_find (indexes d) key) as [ids|]; cbn [snd]; [|reflexivity].
    cbn [aliases with_indexes push_undo]. apply (fold_left_inv (fun a => aliases a = aliases d)); [reflexivity|].
    intros a p _ Ha. exact Ha.
  Qed.

  (* every query: the element operations keep nea whatever their arguments, except that a
     new alias must have passed the check for the empty one (QueryInvProofs.exec_mut_step_keeps) *)
  Theorem exec_in_txn_nea d q : nea d -> nea (fst (exec_in_txn rv d q)).
  Proof.
    intros Hd. rewrite exec_in_txn_db. destruct (is_mutating q); [|exact Hd].
    apply (exec_mut_step_keeps rv nea (fun _ _ => True) (fun _ => True)); try exact Hd; try (intros; exact I).
    (* the operations, in the order of section Keeps; last: nothing is asked of the key-value lists *)
    - intros a id kvs Ha _. now apply insert_kvs_replace_nea.
    - intros a acc alias kvs Ha _ Hal. apply insert_values_new_nea; [|exact Ha].
      destruct alias; [apply Hal, Hempty|exact I].
    - intros a f t id a1 kvs Ha _ _ Ei _. split; [|trivial].
      destruct (insert_edge_db_fields a f t id a1 Ei) as (g' & _ & _ & Fa & _).
      apply insert_kvs_new_nea. now apply (nea_same a).
    - intros a id al Ha _ _ Hc.
      destruct (fix_nodes_ids_alias rv); [apply insert_alias_nea|apply insert_new_alias_nea]; auto.
    - exact remove_alias_nea.
    - intros a id keys Ha _. now apply remove_keys_nea.
    - exact remove_id_nea.
    - exact remove_q_nea.
    - intros a key n a1 Ha Ei. pose proof (insert_index_spec a key) as Sp. rewrite Ei in Sp.
      destruct Sp as (_ & _ & _ & Ea & _). now apply (nea_same a).
    - intros a key. apply nea_same, remove_index_aliases.
    - intros ids als _ a x id b al Ha _ _. apply insert_alias_nea; [discriminate|exact Ha].
    - destruct q; cbn; try exact I; destruct values; cbn; try exact I; apply Forall_forall; intros; exact I.
  Qed.

  Theorem txn_run_nea qs : forall d acc, nea d -> nea (fst (fst (txn_run rv d qs acc))).
  Proof.
    induction qs as [|q r IH]; intros d acc Hd; cbn [txn_run]; [exact Hd|].
    pose proof (exec_in_txn_nea d q Hd) as H. destruct (exec_in_txn rv d q) as [d1 res]. cbn [fst] in *.
    destruct (is_failure res); [exact H|now apply IH].
  Qed.

  Lemma run_item_commit d it :
    item_failed rv d it = false -> aliases (run_item rv d it) = aliases (item_peak rv d it).
  Proof.
    destruct it as [q|qs f]; cbn [item_failed run_item item_peak].
    - unfold exec. destruct (exec_in_txn rv d q) as [d1 r]. destruct r as [n els|e|]; cbn [fst snd is_failure].
      + reflexivity.
      + destruct (rollback rv d1); cbn [snd is_failure]; discriminate.
      + discriminate.
    - unfold txn_failed, transaction. destruct (txn_run rv d qs []) as [[d1 results] all_ok]. cbn [fst snd].
      intros H. apply Bool.negb_false_iff in H. rewrite H.
      destruct (existsb _ results); reflexivity.
  Qed.

  Lemma item_peak_nea d it : nea d -> nea (item_peak rv d it).
  Proof. intros Hd. destruct it as [q|qs f]; cbn [item_peak]; [now apply exec_in_txn_nea|now apply txn_run_nea]. Qed.
End Nea.

Lemma restored_nea d d' : restored d d' -> nea d -> nea d'.
Proof. intros [Ho _] Hd. unfold nea. rewrite <- (oe_alias_value _ _ Ho). exact Hd. Qed.

Theorem history_nea_fixed its : forall d,
  Forall item_ok its -> HInv d -> nea d -> bounded rv_fixed d its ->
  nea (run_items rv_fixed d its).
Proof.
  induction its as [|it r IH]; intros d Hok Hd Hn Hb; [exact Hn|].
  inversion Hok as [|? ? Hok1 Hok2]; subst. destruct Hb as [Hb1 Hb2]. cbn [run_items fold_left].
  destruct (item_atomic rv_fixed eq_refl eq_refl eq_refl eq_refl eq_refl search_live_fixed d it Hok1 Hd Hb1) as [Hd' Hres].
  apply (IH (run_item rv_fixed d it) Hok2 Hd'); [|exact Hb2].
  destruct (item_failed rv_fixed d it) eqn:Ef.
  - exact (restored_nea _ _ (Hres eq_refl) Hn).
  - apply (nea_same (item_peak rv_fixed d it)); [now apply run_item_commit|now apply (item_peak_nea rv_fixed eq_refl)].
Qed.
