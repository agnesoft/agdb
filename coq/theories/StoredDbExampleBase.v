(* StoredDbExampleBase.v — non-vacuity of `stored_db`: a small database is CREATED by running
   programs of Collections.v on the model of storage.rs (`cp_run (st_step cdata ops_file)`), its record store is read
   off the final storage state (`live_values`: every live index with its bytes — what the correspondence run compares
   with real files), `stored_db` is proved of that store for the database of DbModel.v written out below, and
   `load_db` is evaluated on it.

   The database: 2 nodes, 1 edge 1 -> 2 (id -3), node 1 has the alias "root" and the properties
   ("k", 7) and ("name", "0123456789abcdef") — a 16-byte string, stored out of line —, the edge has (1u64, [1, 2]i64) —
   a vector, out of line —, one index on key "k" holding (7, node 1).  The hash tables of the example have 2 slots
   (multi_map.rs starts at 64; `stored_db` does not constrain the capacity). *)
From Coq Require Import Permutation.
From Agdb Require Import Bytes DbValue ValueIndex Graph DbModel Records Storage StorageSpec StorageProofs Collections
  CollValues CollVecBase CollVec CollElems CollMapHist CollGraph CollValuesProofs StoredDbRep.
From Coq Require Import ZifyBool ZifyNat ZifyN.
Open Scope N_scope.

Definition sx_alias : bytes := [x72; x6f; x6f; x74].                                                   (* "root" *)
Definition sx_key : dbvalue := DString [x6b].                                                          (* "k" *)
Definition sx_name : dbvalue := DString [x6e; x61; x6d; x65].                                          (* "name" *)
Definition sx_long : dbvalue :=
  DString [x30; x31; x32; x33; x34; x35; x36; x37; x38; x39; x61; x62; x63; x64; x65; x66].            (* 16 bytes: out of line *)

(* the arrays after insert_node, insert_node, insert_edge 1 2 *)
Definition sx_graph : graph :=
  {| g_from := [0; 3; 0; -1]; g_to := [0; 0; 3; -2]; g_fmeta := [-9223372036854775808; 1; 0; 0]; g_tmeta := [2; 0; 1; 0] |}%Z.

Definition sx_db : db :=
  {| gr := sx_graph;
     aliases := {| k2v := [(sx_alias, 1%Z)]; v2k := [(1%Z, sx_alias)] |};
     vals := [[]; [(sx_key, DI64 7); (sx_name, sx_long)]; []; [(DU64 1, DVecI64 [1; 2]%Z)]];
     indexes := [(sx_key, [(DI64 7, 1%Z)])];
     undo := [] |}.

Definition sx_graph_ops : list cg_op :=
  [GoGrow; GoGrow; GoGrow;
   GoSet GfFrom 1 3; GoSet GfFrom 3 (-1); GoSet GfTo 2 3; GoSet GfTo 3 (-2);
   GoSet GfFromMeta 1 1; GoSet GfToMeta 0 2; GoSet GfToMeta 2 1]%Z.

(* what DbImpl::new (first branch) and the insertions do to the storage, through the collection interfaces *)
Definition sx_build : cprog N :=
  id <~ cp_transaction ;;
  root <~ cr_create ;;
  g0 <~ cg_new ;;
  cg_run g0 sx_graph_ops ;;~
  a1 <~ cm_new ;;
  cm_run bytes Z ce_string ce_i64 [] 0%Z a1
    [MoResize 2; MoSetKey 1 sx_alias; MoSetValue 1 1%Z; MoSetState 1 StValid; MoSetLen 1] ;;~
  a2 <~ cm_new ;;
  cm_run Z bytes ce_i64 ce_string 0%Z [] a2
    [MoResize 2; MoSetKey 0 1%Z; MoSetValue 0 sx_alias; MoSetState 0 StValid; MoSetLen 1] ;;~
  ixv <~ cv_new ;;
  kix <~ ce_store ce_dbvalue sx_key ;;
  im <~ cm_new ;;
  cm_run dbvalue Z ce_dbvalue ce_i64 (DI64 0) 0%Z im
    [MoResize 2; MoSetKey 0 (DI64 7); MoSetValue 0 1%Z; MoSetState 0 StValid; MoSetLen 1] ;;~
  cv_push bytes (ce_raw 24) ixv (kix ++ le64 (cm_index im)) ;;~
  vv <~ cv_new ;;
  vv1 <~ cv_resize N ce_u64 vv 4 0 ;;
  k1 <~ cv_new ;;
  cv_replace N ce_u64 vv1 1 (cv_index k1) ;;~
  k1a <~ cv_push kv ce_dbkv k1 (sx_key, DI64 7) ;;
  cv_push kv ce_dbkv k1a (sx_name, sx_long) ;;~
  k3 <~ cv_new ;;
  cv_replace N ce_u64 vv1 3 (cv_index k3) ;;~
  cv_push kv ce_dbkv k3 (DU64 1, DVecI64 [1; 2]%Z) ;;~
  cr_store {| cr_version := 1; cr_graph := cg_index g0; cr_aliases1 := cm_index a1; cr_aliases2 := cm_index a2;
              cr_indexes := cv_index ixv; cr_values := cv_index vv |} ;;~
  cp_commit id ;;~
  CRet root.

Definition sx_run := cp_run (st_step cdata ops_file) sx_build s_init.
Definition sx_store : vmap := Eval vm_compute in live_values cdata ops_file (fst sx_run).

(* the storage state the build ends in, written out: whatever is run on the example file starts from this literal, so
   that checking it does not build the file again *)
Definition sx_state : storage cdata := Eval vm_compute in fst sx_run.

(* The run of a program on the file-like storage, as long as it never drops the storage (SReopen): the memory-like storage
   differs from the file-like one only in what a drop does (StorageSim.mem_file_agree), so the run on it is the same
   run.  The build is evaluated once, through this function. *)
Fixpoint sx_run_kept {A} (p : cprog A) (s : storage cdata) : option (storage cdata * cres A) :=
  match p with
  | CRet a => Some (s, CrOk a)
  | CErr e => Some (s, CrErr e)
  | CDead => Some (s, CrDead)
  | CDo o k =>
    if match o with SReopen => true | _ => false end then None
    else let '(s', v) := st_step cdata ops_file s o in
         match v with ObPanic | ObFault => Some (s', CrDead) | _ => sx_run_kept (k v) s' end
  end.

Lemma sx_run_kept_spec {A} (p : cprog A) : forall s r, sx_run_kept p s = Some r ->
  cp_run (st_step cdata ops_file) p s = r /\ cp_run (st_step cdata ops_mem) p s = r.
Proof.
  induction p as [a|e| |o k IH]; intros s r H; cbn [sx_run_kept cp_run] in *; try (injection H as <-; split; reflexivity).
  destruct (match o with SReopen => true | _ => false end) eqn:R; [discriminate H|].
  assert (E : st_step cdata ops_mem s o = st_step cdata ops_file s o) by (destruct o; try reflexivity; discriminate R).
  rewrite E. destruct (st_step cdata ops_file s o) as [s' v].
  destruct v; first [apply IH; exact H|injection H as <-; split; reflexivity].
Qed.

Lemma sx_build_kept : sx_run_kept sx_build s_init = Some (sx_state, CrOk 1).
Proof. vm_compute. reflexivity. Qed.

Lemma sx_run_eq : sx_run = (sx_state, CrOk 1).
Proof. exact (proj1 (sx_run_kept_spec _ _ _ sx_build_kept)). Qed.

(* the witness: handles and slot bytes, read off the store *)
Definition sx_g : heap := m_get sx_store.
Definition sx_rec (i : N) : bytes := match sx_g i with Some b => b | None => [] end.
Fixpoint sx_chop (sz n : nat) (b : bytes) : list bytes :=
  match n with O => [] | S k => firstn sz b :: sx_chop sz k (skipn sz b) end.
Definition sx_vec (i : N) (sz : nat) : cv_vec * list bytes :=
  let b := sx_rec i in let n := de (firstn 8 b) in
  ({| cv_index := i; cv_len := n; cv_cap := n |}, sx_chop sz (N.to_nat n) (skipn 8 b)).
Definition sx_word (b : bytes) (k : nat) : N := de (firstn 8 (skipn (8 * k) b)).
Definition sx_mapw {K V} (i : N) (szk szv : nat) (t : cm_table K V) : sd_mapw K V :=
  let b := sx_rec i in
  let s := sx_vec (sx_word b 1) 1 in let k := sx_vec (sx_word b 2) szk in let v := sx_vec (sx_word b 3) szv in
  {| mw_d := {| cm_index := i; cm_len := sx_word b 0; cm_states := fst s; cm_keys := fst k; cm_values := fst v |};
     mw_ss := snd s; mw_ks := snd k; mw_vs := snd v; mw_t := t |}.

Definition sx_root : cr_root :=
  let b := sx_rec 1 in
  {| cr_version := sx_word b 0; cr_graph := sx_word b 1; cr_aliases1 := sx_word b 2; cr_aliases2 := sx_word b 3;
     cr_indexes := sx_word b 4; cr_values := sx_word b 5 |}.

Definition sx_t1 : cm_table bytes Z := {| ct_states := [StEmpty; StValid]; ct_keys := [[]; sx_alias]; ct_values := [0; 1]%Z; ct_len := 1 |}.
Definition sx_t2 : cm_table Z bytes := {| ct_states := [StValid; StEmpty]; ct_keys := [1; 0]%Z; ct_values := [sx_alias; []]; ct_len := 1 |}.
Definition sx_t3 : cm_table dbvalue Z := {| ct_states := [StValid; StEmpty]; ct_keys := [DI64 7; DI64 0]; ct_values := [1; 0]%Z; ct_len := 1 |}.

(* the record indices written out below are those the build handed out: 19 the vector of index entries (cr_indexes of the
   root), 23 the id table of the index on "k", 24 the vector of property-vector indexes (cr_values), 25 and 27 the
   property vectors of node 1 and of the edge (the nonzero entries of that vector) *)
Definition sx_wit : sd_wit :=
  let gb := sx_rec (cr_graph sx_root) in
  let f := sx_vec (sx_word gb 0) 8 in let t := sx_vec (sx_word gb 1) 8 in
  let fm := sx_vec (sx_word gb 2) 8 in let tm := sx_vec (sx_word gb 3) 8 in
  let iv := sx_vec (cr_indexes sx_root) 24 in
  let vv := sx_vec (cr_values sx_root) 8 in
  {| sw_root := sx_root;
     sw_g := {| cg_index := cr_graph sx_root; cg_from := fst f; cg_to := fst t; cg_from_meta := fst fm; cg_to_meta := fst tm |};
     sw_gs := {| gs_from := snd f; gs_to := snd t; gs_from_meta := snd fm; gs_to_meta := snd tm |};
     sw_a1 := sx_mapw (cr_aliases1 sx_root) 8 8 sx_t1;
     sw_a2 := sx_mapw (cr_aliases2 sx_root) 8 8 sx_t2;
     sw_ih := fst iv; sw_is := snd iv; sw_ie := snd iv;
     sw_iw := [sx_mapw 23 16 8 sx_t3];
     sw_vh := fst vv; sw_vs := snd vv; sw_vi := [0; 25; 0; 27];
     sw_vw := [None; Some (sx_vec 25 32); None; Some (sx_vec 27 32)] |}.

Fixpoint sx_nodupb (l : list N) : bool :=
  match l with [] => true | x :: r => negb (existsb (N.eqb x) r) && sx_nodupb r end.
Lemma sx_nodup l : sx_nodupb l = true -> NoDup l.
Proof.
  induction l as [|x r IH]; cbn [sx_nodupb]; [constructor|].
  intros H. apply andb_true_iff in H. destruct H as [H1 H2]. constructor; [|apply IH; exact H2].
  intros I. apply negb_true_iff in H1. assert (existsb (N.eqb x) r = true); [|congruence].
  apply existsb_exists. exists x. split; [exact I|apply N.eqb_refl].
Qed.

Lemma sx_vrep_intro T (E : cv_elem T) (L : elem_law E) (g : heap) idx n bss l rec :
  g idx = Some rec ->
  firstn (length (le64 n ++ concat bss)) rec = le64 n ++ concat bss ->
  Forall2 (el_rep L g) bss l -> sx_nodupb (idx :: owned T E L bss) = true -> n = lenN l -> 8 + ce_size E * lenN l < two64 ->
  vrep T E L g {| cv_index := idx; cv_len := n; cv_cap := n |} bss l.
Proof.
  intros Hg Hf He Hn Hl Hfit. constructor; cbn [cv_index cv_len cv_cap]; [|exact Hl|lia|exact Hfit].
  constructor; [|exact He|apply sx_nodup; exact Hn].
  exists (skipn (length (le64 n ++ concat bss)) rec). rewrite Hg. f_equal.
  rewrite <- (firstn_skipn (length (le64 n ++ concat bss)) rec) at 1. rewrite Hf, <- app_assoc. reflexivity.
Qed.

Ltac sx_inline := split; [reflexivity|first [exact I|reflexivity|unfold i64_range; lia|lia]].
Ltac sx_str :=
  lazymatch goal with |- el_rep _ ?g ?bs ?s => change (str_rep g bs s) end;
  match goal with
  | |- str_rep _ ?bs _ => let i := eval vm_compute in (de (firstn 8 bs)) in
      exists i; split; [reflexivity|]; split; [reflexivity|]; split; [reflexivity|]; split; [reflexivity|reflexivity]
  end.
Ltac sx_dbv :=
  try lazymatch goal with |- el_rep _ ?g ?bs ?v => change (dbv_rep g bs v) end;
  match goal with
  | |- dbv_rep _ ?bs _ => let i := eval vm_compute in (if is_value bs then 1 else vi_index bs) in
      split; [reflexivity|]; exists i; split; [discriminate|]; split; [reflexivity|]; split; [reflexivity|];
      let b := fresh "b" in let Hb := fresh "Hb" in
      intros b Hb; vm_compute in Hb; first [discriminate Hb|injection Hb as <-; reflexivity]
  end.
Ltac sx_kv :=
  lazymatch goal with |- el_rep _ ?g ?bs ?p => change (pair_rep dbvalue dbvalue ce_dbvalue ce_dbvalue law_dbvalue law_dbvalue g bs p) end;
  match goal with
  | |- pair_rep _ _ _ _ _ _ _ ?bs _ =>
      exists (firstn 16 bs), (skipn 16 bs); split; [reflexivity|]; split; [sx_dbv|]; split; [sx_dbv|];
      let j := fresh "j" in intros j; vm_compute; intuition congruence
  end.
Ltac sx_elems elem :=
  lazymatch goal with
  | |- Forall2 ?R ?a ?b => let a' := eval vm_compute in a in let b' := eval vm_compute in b in change (Forall2 R a' b')
  end;
  repeat (first [apply Forall2_nil | apply Forall2_cons; [elem|]]).
Ltac sx_vrep elem :=
  eapply sx_vrep_intro; [reflexivity|reflexivity|sx_elems elem|reflexivity|reflexivity|reflexivity].

Lemma sx_stored : stored_db_w sx_g 1 sx_db sx_wit.
Proof.
  constructor.
  - reflexivity.
  - repeat split; reflexivity.
  - reflexivity.
  - constructor.
    + reflexivity.
    + intros f. destruct f; cbn [cg_vec gs_get ga_get sd_arrays sx_wit sw_g sw_gs]; sx_vrep sx_inline.
    + intros f. destruct f; reflexivity.
    + apply sx_nodup. reflexivity.
  - reflexivity.
  - split; [|split; [reflexivity|apply Permutation_refl]].
    constructor; [|reflexivity|split; reflexivity].
    constructor; [reflexivity|sx_vrep sx_inline|sx_vrep sx_str|sx_vrep sx_inline|repeat split; reflexivity|apply sx_nodup; reflexivity].
  - repeat constructor; cbn; tauto.
  - split; [|split; [reflexivity|apply Permutation_refl]].
    constructor; [|reflexivity|split; reflexivity].
    constructor; [reflexivity|sx_vrep sx_inline|sx_vrep sx_inline|sx_vrep sx_str|repeat split; reflexivity|apply sx_nodup; reflexivity].
  - repeat constructor; cbn; tauto.
  - sx_vrep sx_inline.
  - reflexivity.
  - cbn [sd_ix_rep sx_wit sw_ie sw_iw indexes sx_db]. split; [|exact I].
    exists (firstn 16 (nth 0 (snd (sx_vec 19 24)) [])), 23. split; [reflexivity|]. split; [reflexivity|]. split; [sx_dbv|].
    split; [|split; [reflexivity|apply Permutation_refl]].
    constructor; [|reflexivity|split; reflexivity].
    constructor; [reflexivity|sx_vrep sx_inline|sx_vrep sx_dbv|sx_vrep sx_inline|repeat split; reflexivity|apply sx_nodup; reflexivity].
  - sx_vrep sx_inline.
  - reflexivity.
  - cbn [sd_kv_rep sd_kv_slot_rep sx_wit sw_vi sw_vw vals sx_db].
    split; [split; reflexivity|]. split; [split; [discriminate|split; [reflexivity|sx_vrep sx_kv]]|].
    split; [split; reflexivity|]. split; [split; [discriminate|split; [reflexivity|sx_vrep sx_kv]]|exact I].
  - apply sx_nodup. reflexivity.
Qed.

