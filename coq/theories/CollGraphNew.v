(* CollGraphNew.v — proofs (collections): GraphDataStorage::new establishes `grep` for
   the arrays [0] [0] [i64::MIN] [0]; every history of the GraphData interface on the model of
   storage.rs from a fresh storage. *)
From Agdb Require Import Bytes BytesProofs Records RecordsProofs Storage StorageSpec StorageLayout StorageWp
  StorageRefine StorageProofs Collections CollWp CollBytes CollVecBase CollVecOps CollVec CollElems
  CollSep CollMap CollGraph.
From Coq Require Import ZifyBool ZifyNat ZifyN.
Open Scope N_scope.

Section New.
  Variable fl : bool.

  (* DbVec::new followed by one push: a vector [x] made of records that were free *)
  Lemma cv_new_push_spec x sp (Q : cres cv_vec -> spec -> Prop) :
    i64_range x ->
    (forall h sl sp', vrepZ (hp sp') h sl [x] -> cv_index h < two64 -> sdepth sp' = sdepth sp ->
        frame (hp sp) (hp sp') [] (footZ h sl) -> Q (CrOk h) sp') ->
    cwp fl (h0 <~ cv_new ;; cv_push Z ce_i64 h0 x) sp Q.
  Proof.
    intros Hx HQ. apply cwp_bind. apply (cv_new_spec Z ce_i64 law_i64 fl). intros h0 sp1 R0 Z0 B0 N0 D0 F0. cbn [kont].
    eapply cv_push_spec; [exact R0|exact Hx|unfold lenN; cbn; unfold two64; lia|].
    intros h sl sp2 R I D F. eapply HQ; [exact R|rewrite I; exact B0|congruence|]. eapply frame_trans; eassumption.
  Qed.

  Lemma frame_nil_fresh g g' F j : frame g g' [] F -> In j F -> g j = None.
  Proof. intros (_ & A2 & _) Hj. apply A2; [exact Hj|intros []]. Qed.

  Lemma frame_nil_same g g' F j : frame g g' [] F -> ~ In j F -> g' j = g j.
  Proof. intros (A1 & _ & _) Hj. apply A1; [intros []|exact Hj]. Qed.

  Definition ga_init : cg_arrays := {| ga_from := [0%Z]; ga_to := [0%Z]; ga_from_meta := [cg_i64_min]; ga_to_meta := [0%Z] |}.

  Lemma cg_new_spec sp (Q : cres cg_data -> spec -> Prop) :
    (forall d s sp', grep (hp sp') d s ga_init -> sdepth sp' = sdepth sp -> Q (CrOk d) sp') ->
    cwp fl cg_new sp Q.
  Proof.
    intros HQ. unfold cg_new.
    assert (Z0ok : i64_range 0%Z) by (unfold i64_range; lia).
    assert (Zmok : i64_range cg_i64_min) by (unfold i64_range, cg_i64_min; lia).
    apply cwp_bind. apply hwp_transaction. intros sp0 Hm0 Hd0. cbn [kont].
    (* four times DbVec::new and a push; each new vector leaves the earlier ones alone *)
    apply cwp_bind_assoc, cwp_bind, cv_new_push_spec; [exact Z0ok|]. intros hf sf sp2 Rf Bf Df Frf. cbn [kont].
    apply cwp_bind_assoc, cwp_bind, cv_new_push_spec; [exact Z0ok|]. intros ht st sp4 Rt Bt Dt Frt. cbn [kont].
    destruct (vrep_frame Rf Frt (fun _ _ X => X)) as [Rf4 Dft].
    apply cwp_bind_assoc, cwp_bind, cv_new_push_spec; [exact Zmok|]. intros hm sm sp6 Rm Bm Dm Frm. cbn [kont].
    destruct (vrep_frame Rf4 Frm (fun _ _ X => X)) as [Rf6 Dfm].
    destruct (vrep_frame Rt Frm (fun _ _ X => X)) as [Rt6 Dtm].
    apply cwp_bind_assoc, cwp_bind, cv_new_push_spec; [exact Z0ok|]. intros hn sn sp8 Rn Bn Dn Frn. cbn [kont].
    destruct (vrep_frame Rf6 Frn (fun _ _ X => X)) as [Rf8 Dfn].
    destruct (vrep_frame Rt6 Frn (fun _ _ X => X)) as [Rt8 Dtn].
    destruct (vrep_frame Rm Frn (fun _ _ X => X)) as [Rm8 Dmn].
    apply cwp_bind. apply hwp_insert. intros i sp9 Zi Bi Ni Hm9 Dd9. cbn [kont].
    apply cwp_bind. apply hwp_commit_tx; [congruence|]. intros sp10 Hm10 Dd10. cbn [kont cwp].
    set (d := {| cg_index := i; cg_from := hf; cg_to := ht; cg_from_meta := hm; cg_to_meta := hn |}).
    set (s := {| gs_from := sf; gs_to := st; gs_from_meta := sm; gs_to_meta := sn |}).
    assert (Lf : live_all (hp sp8) (footZ hf sf)) by (eapply vrep_live; exact Rf8).
    assert (Lt : live_all (hp sp8) (footZ ht st)) by (eapply vrep_live; exact Rt8).
    assert (Lm : live_all (hp sp8) (footZ hm sm)) by (eapply vrep_live; exact Rm8).
    assert (Ln : live_all (hp sp8) (footZ hn sn)) by (eapply vrep_live; exact Rn).
    assert (Same : forall j, j <> i -> hp sp10 j = hp sp8 j) by (intros j Hj; rewrite Hm10, Hm9; apply hupd_other; congruence).
    assert (Hi : forall F, live_all (hp sp8) F -> ~ In i F) by (intros F HF I; apply (HF i I); exact Ni).
    apply (HQ d s sp10); [|exact Dd10].
    constructor.
    - cbn [d cg_index cg_from cg_to cg_from_meta cg_to_meta]. rewrite Hm10, Hm9. apply hupd_same.
    - intros f; destruct f; cbn [d s cg_vec gs_get ga_get ga_init ga_from ga_to ga_from_meta ga_to_meta cg_from cg_to cg_from_meta cg_to_meta gs_from gs_to gs_from_meta gs_to_meta].
      + eapply vrep_transport; [exact Rf8|]. intros j Hj. apply Same. intros ->. exact (Hi _ Lf Hj).
      + eapply vrep_transport; [exact Rt8|]. intros j Hj. apply Same. intros ->. exact (Hi _ Lt Hj).
      + eapply vrep_transport; [exact Rm8|]. intros j Hj. apply Same. intros ->. exact (Hi _ Lm Hj).
      + eapply vrep_transport; [exact Rn|]. intros j Hj. apply Same. intros ->. exact (Hi _ Ln Hj).
    - intros f; destruct f; cbn [d cg_vec cg_from cg_to cg_from_meta cg_to_meta]; assumption.
    - unfold gfoot. cbn [d s cg_index cg_from cg_to cg_from_meta cg_to_meta gs_from gs_to gs_from_meta gs_to_meta].
      constructor.
      + intros I. apply in_app_or in I. destruct I as [I|I]; [exact (Hi _ Lf I)|].
        apply in_app_or in I. destruct I as [I|I]; [exact (Hi _ Lt I)|].
        apply in_app_or in I. destruct I as [I|I]; [exact (Hi _ Lm I)|exact (Hi _ Ln I)].
      + apply NoDup_app_iff. split; [eapply vrep_nodup; exact Rf8|]. split.
        * apply NoDup_app_iff. split; [eapply vrep_nodup; exact Rt8|]. split.
          -- apply NoDup_app_iff. split; [eapply vrep_nodup; exact Rm8|]. split; [eapply vrep_nodup; exact Rn|].
             intros j I1 I2. exact (Dmn j I1 I2).
          -- intros j I1 I2. apply in_app_or in I2. destruct I2 as [I2|I2]; [exact (Dtm j I1 I2)|exact (Dtn j I1 I2)].
        * intros j I1 I2. apply in_app_or in I2. destruct I2 as [I2|I2]; [exact (Dft j I1 I2)|].
          apply in_app_or in I2. destruct I2 as [I2|I2]; [exact (Dfm j I1 I2)|exact (Dfn j I1 I2)].
  Qed.

End New.

Lemma cg_run_ok fl l : gops_ok ga_init l -> forall d s sp, grep (hp sp) d s ga_init -> sdepth sp = 0 ->
  hrefines fl grep gfoot cg_index d s sp (cg_run d l) (fst (ga_run ga_init l)) (snd (ga_run ga_init l)).
Proof. intros Hok d s sp H Hd Q. exact (cg_run_spec fl l d s ga_init sp Q H Hd Hok). Qed.

Theorem cg_history_on_storage (ops : store_ops cdata) (fl : bool) : kind ops fl ->
  forall (l : list cg_op), gops_ok ga_init l ->
  let r := cp_run (st_step cdata ops) (d <~ cg_new ;; cg_run d l) s_init in
  snd r = CrDead \/
  exists d' sp' s,
    snd r = CrOk (d', snd (ga_run ga_init l)) /\ Rel (fst r) sp' /\ grep (hp sp') d' s (fst (ga_run ga_init l)).
Proof.
  intros Kd l Hok.
  exact (hist_on_storage fl grep gfoot cg_index cg_new ga_init _ (fun d => cg_run d l) _ ops Kd (cg_new_spec fl) (cg_run_ok fl l Hok)).
Qed.
