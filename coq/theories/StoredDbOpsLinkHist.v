(* StoredDbOpsLinkHist.v — proofs (stored database): the COVERED QUERIES as storage programs and their histories: the
   definitions and the small facts about them (the theorems are in StoredDbOpsLinkHist2.v).
     so_cq          the covered query shapes (one new node with values; values on an existing element; one edge between existing
                    nodes; removal of an edge / of a node without edges and alias)
     so_covered d c the side conditions in terms of the database d only: capacity < 2^60, ids existing, keys not indexed, values
                    valid (what a Rust program can hold), property vectors below 2^64 bytes; for a removal: the element has at
                    least one property (then its property vector is provably allocated: so_slot_valid)
     cq_run, cq_runs the programs; cq_model: the fold of `Queries.exec` with the ids it reports; so_covered_all: every query of
                    a history is covered in the database it runs on. *)
From Coq Require Import Permutation.
From Agdb Require Import Bytes DbValue Graph DbModel Queries Collections StoredDbRep StoredDbOps StoredDbOpsKv4
  StoredDbOpsQuery StoredDbOpsLink.
From Agdb Require GraphSim GraphSpec GraphProofs QueryInvProofs.
From Coq Require Import ZifyBool ZifyNat ZifyN.
Ltac Zify.zify_post_hook ::= Z.div_mod_to_equations.
Open Scope N_scope.

Inductive so_cq :=
| CqInsertNode (l : list kv)
| CqInsertValues (id : Z) (l : list kv)
| CqInsertEdge (f t : Z)
| CqRemove (id : Z).

Definition cq_query (c : so_cq) : query :=
  match c with
  | CqInsertNode l => lq_insert_node l
  | CqInsertValues id l => lq_insert_values id l
  | CqInsertEdge f t => lq_insert_edge f t
  | CqRemove id => lq_remove id
  end.

(* the program of a covered query; it returns the id of the element it created *)
Definition cq_run (h : so_db) (c : so_cq) : cprog (so_db * option Z) :=
  match c with
  | CqInsertNode l => r <~ so_q_insert_node h l ;; CRet (fst r, Some (snd r))
  | CqInsertValues id l => h' <~ so_q_insert_values h id l ;; CRet (h', None)
  | CqInsertEdge f t => so_q_insert_edge h f t
  | CqRemove id => h' <~ so_q_remove h id ;; CRet (h', None)
  end.

(* the id of the element a query result reports (insert nodes / insert edges report the new element) *)
Definition cq_out (r : qres) : option Z :=
  match qres_ids r with Some (_, [id]) => Some id | _ => None end.

Definition so_cap_ok (d : db) : Prop := (capacity (gr d) < 1152921504606846976)%Z.

Definition so_covered (d : db) (c : so_cq) : Prop :=
  so_cap_ok d /\
  match c with
  | CqInsertNode l => let id := fst (insert_node_db d) in so_kvs_ok (reserve_kv (snd (insert_node_db d)) id) id l
  | CqInsertValues id l => graph_index (gr d) id = true /\ so_iors_ok (reserve_kv d id) id l
  | CqInsertEdge f t =>
    (0 < f)%Z /\ (0 < t)%Z /\
    (is_node (gr d) f = true /\ is_node (gr d) t = true \/
     (* an endpoint that is not a node: the query is rejected, nothing may change (database at rest) *)
     is_node (gr d) f && is_node (gr d) t = false /\ undo d = [])
  | CqRemove id =>
    kvs_get (vals d) id <> [] /\
    (forall x, In x (kvs_get (vals d) id) -> idx_find (indexes d) (fst x) = None) /\
    ((id < 0)%Z /\ is_edge (gr d) id = true \/
     (0 < id)%Z /\ is_node (gr d) id = true /\ imap_key (aliases d) id = None /\ from (gr d) id = 0%Z /\ to (gr d) id = 0%Z)
  end.

(* an element with a property has an allocated property vector *)
Lemma sd_kv_rep_slot g : forall vi vw kvs n,
  sd_kv_rep g vi vw kvs -> nth n kvs [] <> [] -> nth n vi 0 <> 0.
Proof.
  induction vi as [|i vi IH]; intros vw kvs n H Hn; destruct vw as [|w vw], kvs as [|l kvs]; cbn [sd_kv_rep] in H; try contradiction.
  - destruct n; cbn [nth] in Hn; contradiction Hn; reflexivity.
  - destruct H as [Hs Hr]. destruct n as [|n]; cbn [nth] in *.
    + unfold sd_kv_slot_rep in Hs. destruct w as [[hh bss]|]; [destruct Hs as [X _]; exact X|destruct Hs as [_ X]; contradiction].
    + eapply IH; eassumption.
Qed.

Lemma stored_slot_valid g root d w id :
  stored_db_w g root d w -> kvs_get (vals d) id <> [] -> so_slot_valid (sw_vi w) (zabs_nat id).
Proof. intros H Hn. right. eapply sd_kv_rep_slot; [exact (sr_v _ _ _ _ H)|exact Hn]. Qed.

Lemma wf_node_count_pos g n : GraphSim.wf g -> is_node g n = true -> (1 <= tmeta g 0)%Z.
Proof.
  intros [a [fl HS]] Nn. apply (GraphProofs.is_node_iff _ _ _ _ _ _ _ _ _ HS) in Nn.
  pose proof (GraphSpec.sim_node_count _ _ _ HS) as E. unfold node_count in E. rewrite E.
  destruct (GraphSim.a_nodes a); [destruct Nn|cbn [length]; lia].
Qed.

Lemma exec_peak rv d q d1 n els :
  is_mutating q = true -> exec_mut_step rv d q = StOk d1 (n, els) ->
  gr (fst (exec_in_txn rv d q)) = gr (fst (Queries.exec rv d q)).
Proof.
  intros M E. rewrite (exec_of_step rv d q d1 n els M E). unfold exec_in_txn. rewrite M, E. reflexivity.
Qed.

Lemma cq_mutating c : is_mutating (cq_query c) = true.
Proof. destruct c; reflexivity. Qed.

Fixpoint cq_runs (h : so_db) (l : list so_cq) : cprog (so_db * list (option Z)) :=
  match l with
  | [] => CRet (h, [])
  | c :: t =>
    r <~ cq_run h c ;;
    r' <~ cq_runs (fst r) t ;;
    CRet (fst r', snd r :: snd r')
  end.

(* the model: the fold of Queries.exec over the queries, with the ids it reports *)
Fixpoint cq_model (rv : revision) (d : db) (l : list so_cq) : db * list (option Z) :=
  match l with
  | [] => (d, [])
  | c :: t =>
    let r := Queries.exec rv d (cq_query c) in
    let r' := cq_model rv (fst r) t in
    (fst r', cq_out (snd r) :: snd r')
  end.

(* every query is covered in the database it runs on (query_ok: its property list does not name a key twice — the
   side condition of the history invariants C09 / C13); the capacity stays below 2^60 *)
Fixpoint so_covered_all (rv : revision) (d : db) (l : list so_cq) : Prop :=
  match l with
  | [] => True
  | c :: t => so_covered d c /\ QueryInvProofs.query_ok (cq_query c) /\
              so_cap_ok (fst (Queries.exec rv d (cq_query c))) /\
              so_covered_all rv (fst (Queries.exec rv d (cq_query c))) t
  end.
