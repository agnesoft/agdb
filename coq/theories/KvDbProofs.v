(* KvDbProofs.v — C09: the key-value store operations and their DbImpl users
   (insert_key_value, insert_or_replace_key_value, remove_keys, remove_all_values, insert_kvs_new, insert_kvs_replace). *)
From Agdb Require Import Bytes DbValue Graph DbModel Search Queries DbValueEqProofs DbFrameProofs KvProofs.
From Coq Require Import ZifyBool ZifyNat ZifyN.
Open Scope Z_scope.

(* every element's list has pairwise different keys (w.r.t. dbv_eqb) *)
Definition kvs_distinct (s : kvstore) : Prop := forall i, keys_distinct (kvs_get s i).

Lemma kvs_distinct_nil : kvs_distinct [].
Proof. intros i. unfold kvs_get. destruct (zabs_nat i); exact I. Qed.

Lemma abs_eqb_refl i : (Z.abs i =? Z.abs i) = true.
Proof. apply Z.eqb_refl. Qed.

Lemma kvs_get_insert_value s i x j :
  kvs_get (kvs_insert_value s i x) j = if Z.abs i =? Z.abs j then kvs_get s i ++ [x] else kvs_get s j.
Proof. apply kvs_get_set. Qed.

Lemma kvs_get_remove_value s i k j :
  kvs_get (kvs_remove_value s i k) j =
  if Z.abs i =? Z.abs j then remove_first_key (kvs_get s i) k else kvs_get s j.
Proof. apply kvs_get_set. Qed.

(* insert_or_replace: an existing key keeps its position (and the list its length), only that pair
   changes; a new key is appended; other elements are untouched *)
Lemma kvs_insert_or_replace_spec s i x :
  let '(o, s') := kvs_insert_or_replace s i x in
  (forall j, Z.abs i <> Z.abs j -> kvs_get s' j = kvs_get s j) /\
  match o with
  | Some old => exists l1 l2, kvs_get s i = l1 ++ old :: l2 /\ kvs_get s' i = l1 ++ x :: l2 /\
                              has_key l1 (fst x) = false /\ dbv_eqb (fst old) (fst x) = true
  | None => has_key (kvs_get s i) (fst x) = false /\ kvs_get s' i = kvs_get s i ++ [x]
  end.
Proof.
  unfold kvs_insert_or_replace.
  destruct (replace_first (kvs_get s i) x) as [[old l']|] eqn:E.
  - split.
    + intros j Hj. rewrite kvs_get_set. now rewrite (proj2 (Z.eqb_neq _ _) Hj).
    + destruct (replace_first_some _ _ _ _ E) as (l1 & l2 & H1 & H2 & H3 & H4).
      exists l1, l2. rewrite kvs_get_set, abs_eqb_refl. tauto.
  - split.
    + intros j Hj. rewrite kvs_get_insert_value. now rewrite (proj2 (Z.eqb_neq _ _) Hj).
    + split; [now apply replace_first_none|].
      now rewrite kvs_get_insert_value, abs_eqb_refl.
Qed.

Lemma kvs_insert_or_replace_find s i x k :
  kv_find (kvs_get (snd (kvs_insert_or_replace s i x)) i) k =
  if dbv_eqb (fst x) k then Some x else kv_find (kvs_get s i) k.
Proof.
  pose proof (kvs_insert_or_replace_spec s i x) as H.
  destruct (kvs_insert_or_replace s i x) as [[old|] s']; cbn [snd]; destruct H as [_ H].
  - destruct H as (l1 & l2 & H1 & H2 & H3 & H4). rewrite H1, H2. now apply kv_find_replace_shape.
  - destruct H as [H1 H2]. rewrite H2. now apply kv_find_snoc_new.
Qed.

Lemma kvs_insert_or_replace_value s i x k :
  kvs_value (snd (kvs_insert_or_replace s i x)) i k =
  if dbv_eqb (fst x) k then Some (snd x) else kvs_value s i k.
Proof.
  rewrite !kvs_value_lookup. unfold kv_lookup. rewrite kvs_insert_or_replace_find.
  now destruct (dbv_eqb (fst x) k).
Qed.

Lemma kvs_insert_or_replace_other s i x j :
  Z.abs i <> Z.abs j -> kvs_get (snd (kvs_insert_or_replace s i x)) j = kvs_get s j.
Proof.
  pose proof (kvs_insert_or_replace_spec s i x) as H.
  destruct (kvs_insert_or_replace s i x) as [o s']; cbn [snd]. apply H.
Qed.

Lemma kvs_insert_or_replace_distinct s i x :
  kvs_distinct s -> kvs_distinct (snd (kvs_insert_or_replace s i x)).
Proof.
  intros Hd j. pose proof (kvs_insert_or_replace_spec s i x) as H.
  destruct (kvs_insert_or_replace s i x) as [o s']; cbn [snd]. destruct H as [Ho H].
  destruct (Z.eq_dec (Z.abs i) (Z.abs j)) as [E|E]; [|rewrite (Ho j E); apply Hd].
  rewrite <- !(kvs_get_abs _ i j E). destruct o as [old|].
  - destruct H as (l1 & l2 & H1 & H2 & H3 & H4). rewrite H2.
    apply (replace_shape_distinct l1 l2 old x H4). pose proof (Hd i) as Hdi. rewrite H1 in Hdi. exact Hdi.
  - destruct H as [H1 H2]. rewrite H2. apply keys_distinct_snoc; [apply Hd|exact H1].
Qed.

Lemma kvs_remove_value_distinct s i k : kvs_distinct s -> kvs_distinct (kvs_remove_value s i k).
Proof.
  intros Hd j. rewrite kvs_get_remove_value. destruct (Z.abs i =? Z.abs j); [|apply Hd].
  apply remove_first_key_distinct, Hd.
Qed.

Lemma kvs_remove_distinct s i : kvs_distinct s -> kvs_distinct (kvs_remove s i).
Proof. intros Hd j. rewrite kvs_get_remove. destruct (Z.abs i =? Z.abs j); [exact I|apply Hd]. Qed.

Lemma kvs_reserve_distinct s i : kvs_distinct s -> kvs_distinct (kvs_reserve s i).
Proof. intros Hd j. rewrite kvs_get_reserve. apply Hd. Qed.

Lemma insert_key_value_vals d id x : vals (insert_key_value d id x) = kvs_insert_value (vals d) id x.
Proof. reflexivity. Qed.

Lemma insert_or_replace_key_value_vals d id x :
  vals (insert_or_replace_key_value d id x) = snd (kvs_insert_or_replace (vals d) id x).
Proof.
  unfold insert_or_replace_key_value. destruct (kvs_insert_or_replace (vals d) id x) as [[old|] s]; reflexivity.
Qed.

Lemma reserve_kv_vals d id : vals (reserve_kv d id) = kvs_reserve (vals d) id.
Proof. reflexivity. Qed.

Lemma remove_all_values_vals d id : vals (remove_all_values d id) = kvs_remove (vals d) id.
Proof.
  unfold remove_all_values. cbn [vals with_vals]. f_equal.
  apply (fold_left_inv (fun a : db => vals a = vals d)); [reflexivity|].
  intros acc x _ H. exact H.
Qed.

(* removing an element's values leaves it with no property at all *)
Lemma remove_all_values_get d id j :
  kvs_get (vals (remove_all_values d id)) j = if Z.abs id =? Z.abs j then [] else kvs_get (vals d) j.
Proof. rewrite remove_all_values_vals. apply kvs_get_remove. Qed.

(* a successfully removed element (node or edge, by id or by alias) keeps no property; a later
   element reusing the slot therefore starts empty *)
Lemma remove_id_clears d id d' : remove_id d id = (d', ROk true) -> kvs_get (vals d') id = [].
Proof.
  unfold remove_id. destruct (graph_index (gr d) id); [|discriminate].
  destruct (if 0 <? id then remove_node_db d id (imap_key (aliases d) id) else remove_edge_db d id) as [d1 [k|]];
    [discriminate|].
  intros H. inversion H; subst. now rewrite remove_all_values_get, abs_eqb_refl.
Qed.

Lemma remove_q_clears d q d' id :
  remove_q d q = (d', ROk true) -> db_id d q = ROk id -> kvs_get (vals d') id = [].
Proof.
  destruct q as [i|a]; cbn [remove_q db_id].
  - destruct (graph_index (gr d) i) eqn:E; [|discriminate]. intros H1 H2. inversion H2; subst.
    now apply (remove_id_clears d id).
  - destruct (imap_value (aliases d) a) as [i|]; [|discriminate].
    destruct (remove_node_db d i (Some a)) as [d1 [k|]]; [discriminate|].
    intros H1 H2. inversion H1; inversion H2; subst. now rewrite remove_all_values_get, abs_eqb_refl.
Qed.

Definition rk_step (id : Z) (keys : list dbvalue) (acc : Z * db) (x : kv) : Z * db :=
  let '(n, a) := acc in
  if mem dbv_eqb (fst x) keys then
    let a1 := index_remove_if a (fst x) (snd x) id in
    let a2 := with_vals a1 (kvs_remove_value (vals a1) id (fst x)) in
    (n + 1, push_undo a2 (CInsertKeyValue id x))
  else (n, a).

Lemma remove_keys_unfold d id keys :
  remove_keys d id keys = fold_left (rk_step id keys) (kvs_get (vals d) id) (0, d).
Proof. reflexivity. Qed.

Definition listed (keys : list dbvalue) (p : kv) : bool := mem dbv_eqb (fst p) keys.

(* one listed pair: its index entry and the pair go, nothing else changes *)
Lemma rk_step_listed id keys n a x pre post :
  mem dbv_eqb (fst x) keys = true ->
  keys_distinct (pre ++ x :: post) -> kvs_get (vals a) id = pre ++ x :: post ->
  exists a', rk_step id keys (n, a) x = (n + 1, a') /\
    kvs_get (vals a') id = pre ++ post /\
    (forall j, Z.abs id <> Z.abs j -> kvs_get (vals a') j = kvs_get (vals a) j) /\
    indexes a' = idx_remove_id (indexes a) (fst x) (snd x) id.
Proof.
  intros Em Hd Hget. cbn [rk_step]. rewrite Em. eexists. split; [reflexivity|].
  cbn [vals indexes push_undo with_vals index_remove_if with_indexes]. repeat split.
  - rewrite kvs_get_remove_value, abs_eqb_refl, Hget.
    apply remove_first_key_mid, (keys_distinct_mid pre x post Hd).
  - intros j Hj. rewrite kvs_get_remove_value. now rewrite (proj2 (Z.eqb_neq _ _) Hj).
Qed.

Lemma rk_fold id keys todo : forall pre n a,
  keys_distinct (pre ++ todo) -> kvs_get (vals a) id = pre ++ todo ->
  let r := fold_left (rk_step id keys) todo (n, a) in
  kvs_get (vals (snd r)) id = pre ++ filter (fun p => negb (listed keys p)) todo /\
  fst r = n + Z.of_nat (length (filter (listed keys) todo)) /\
  (forall j, Z.abs id <> Z.abs j -> kvs_get (vals (snd r)) j = kvs_get (vals a) j).
Proof.
  induction todo as [|x todo IH]; intros pre n a Hd Hget; cbv zeta; cbn [fold_left filter].
  - cbn [fst snd length]. repeat split; [exact Hget|lia].
  - change (listed keys x) with (mem dbv_eqb (fst x) keys). destruct (mem dbv_eqb (fst x) keys) eqn:Em; cbn [negb].
    + destruct (rk_step_listed id keys n a x pre todo Em Hd Hget) as (a' & -> & Hget' & Hoth & _).
      pose proof (IH pre (n + 1) a' (proj2 (keys_distinct_mid pre x todo Hd)) Hget') as R.
      cbv zeta in R. destruct R as (R1 & R2 & R3).
      repeat split; [exact R1|rewrite R2; cbn [length]; lia|].
      intros j Hj. now rewrite (R3 j Hj), (Hoth j Hj).
    + cbn [rk_step]. rewrite Em. pose proof (IH (pre ++ [x]) n a) as R. cbv zeta in R.
      rewrite <- !app_assoc in R. exact (R Hd Hget).
Qed.

(* remove_keys deletes exactly the listed keys, keeps the order of the rest, reports their number,
   and leaves every other element alone *)
Lemma remove_keys_spec d id keys :
  keys_distinct (kvs_get (vals d) id) ->
  let r := remove_keys d id keys in
  kvs_get (vals (snd r)) id = filter (fun p => negb (listed keys p)) (kvs_get (vals d) id) /\
  fst r = Z.of_nat (length (filter (listed keys) (kvs_get (vals d) id))) /\
  (forall j, Z.abs id <> Z.abs j -> kvs_get (vals (snd r)) j = kvs_get (vals d) j).
Proof.
  intros Hd. rewrite remove_keys_unfold.
  apply (rk_fold id keys (kvs_get (vals d) id) [] 0 d Hd eq_refl).
Qed.

Lemma remove_keys_distinct d id keys :
  kvs_distinct (vals d) -> kvs_distinct (vals (snd (remove_keys d id keys))).
Proof.
  intros Hd j. pose proof (remove_keys_spec d id keys (Hd id)) as R. cbv zeta in R. destruct R as (R1 & _ & R3).
  destruct (Z.eq_dec (Z.abs id) (Z.abs j)) as [E|E]; [|rewrite (R3 j E); apply Hd].
  rewrite <- (kvs_get_abs _ id j E), R1. apply filter_keys_distinct, Hd.
Qed.

Lemma insert_kvs_new_vals kvs : forall d id,
  vals (fold_left (fun a x => insert_key_value a id x) kvs d) =
  fold_left (fun s x => kvs_insert_value s id x) kvs (vals d).
Proof. induction kvs as [|x kvs IH]; intros d id; cbn [fold_left]; [reflexivity|]. now rewrite IH. Qed.

Lemma fold_insert_value_get kvs : forall s id j,
  kvs_get (fold_left (fun s x => kvs_insert_value s id x) kvs s) j =
  if Z.abs id =? Z.abs j then kvs_get s id ++ kvs else kvs_get s j.
Proof.
  induction kvs as [|x kvs IH]; intros s id j; cbn [fold_left].
  - rewrite app_nil_r. destruct (Z.eqb_spec (Z.abs id) (Z.abs j)) as [E|E]; [|reflexivity].
    now apply kvs_get_abs.
  - rewrite IH, !kvs_get_insert_value, abs_eqb_refl, <- app_assoc.
    now destruct (Z.abs id =? Z.abs j).
Qed.

(* values of a freshly created element: appended in the given order *)
Lemma insert_kvs_new_get d id kvs j :
  kvs_get (vals (insert_kvs_new d id kvs)) j =
  if Z.abs id =? Z.abs j then kvs_get (vals d) id ++ kvs else kvs_get (vals d) j.
Proof.
  unfold insert_kvs_new. rewrite insert_kvs_new_vals, fold_insert_value_get, reserve_kv_vals.
  now rewrite !kvs_get_reserve.
Qed.

Lemma keys_distinct_of_list (kvs : list kv) : keys_distinct kvs -> keys_distinct ([] ++ kvs).
Proof. trivial. Qed.

Lemma insert_kvs_new_distinct d id kvs :
  kvs_distinct (vals d) -> kvs_get (vals d) id = [] -> keys_distinct kvs ->
  kvs_distinct (vals (insert_kvs_new d id kvs)).
Proof.
  intros Hd He Hk j. rewrite insert_kvs_new_get, He.
  destruct (Z.abs id =? Z.abs j); [exact Hk|apply Hd].
Qed.

Lemma insert_kvs_replace_vals kvs : forall d id,
  vals (fold_left (fun a x => insert_or_replace_key_value a id x) kvs d) =
  fold_left (fun s x => snd (kvs_insert_or_replace s id x)) kvs (vals d).
Proof.
  induction kvs as [|x kvs IH]; intros d id; cbn [fold_left]; [reflexivity|].
  now rewrite IH, insert_or_replace_key_value_vals.
Qed.

Lemma insert_kvs_replace_distinct d id kvs :
  kvs_distinct (vals d) -> kvs_distinct (vals (insert_kvs_replace d id kvs)).
Proof.
  intros Hd. unfold insert_kvs_replace. rewrite insert_kvs_replace_vals, reserve_kv_vals.
  apply fold_left_inv; [now apply kvs_reserve_distinct|].
  intros s x _ Hs. now apply kvs_insert_or_replace_distinct.
Qed.

Lemma insert_kvs_replace_other d id kvs j :
  Z.abs id <> Z.abs j -> kvs_get (vals (insert_kvs_replace d id kvs)) j = kvs_get (vals d) j.
Proof.
  intros Hj. unfold insert_kvs_replace. rewrite insert_kvs_replace_vals, reserve_kv_vals.
  apply (fold_left_inv (fun s => kvs_get s j = kvs_get (vals d) j)); [apply kvs_get_reserve|].
  intros s x _ Hs. now rewrite kvs_insert_or_replace_other.
Qed.

(* insert-or-update of a list of pairs: afterwards a key reads the LAST value given for it in the
   list, keys not in the list read as before *)
Fixpoint last_value (kvs : list kv) (k : dbvalue) (dflt : option dbvalue) : option dbvalue :=
  match kvs with
  | [] => dflt
  | x :: r => last_value r k (if dbv_eqb (fst x) k then Some (snd x) else dflt)
  end.

Lemma insert_kvs_replace_value d id kvs k :
  kvs_value (vals (insert_kvs_replace d id kvs)) id k = last_value kvs k (kvs_value (vals d) id k).
Proof.
  unfold insert_kvs_replace. rewrite insert_kvs_replace_vals, reserve_kv_vals.
  assert (H0 : kvs_value (kvs_reserve (vals d) id) id k = kvs_value (vals d) id k).
  { rewrite !kvs_value_lookup. now rewrite kvs_get_reserve. }
  rewrite <- H0. generalize (kvs_reserve (vals d) id) as s. clear H0.
  induction kvs as [|x kvs IH]; intros s; cbn [fold_left last_value]; [reflexivity|].
  now rewrite IH, kvs_insert_or_replace_value.
Qed.

(* for a list with distinct keys: the value given in the list, else the old one *)
Lemma last_value_distinct kvs k dflt :
  keys_distinct kvs ->
  last_value kvs k dflt = match kv_lookup kvs k with Some v => Some v | None => dflt end.
Proof.
  revert dflt. induction kvs as [|x kvs IH]; intros dflt; cbn [keys_distinct last_value]; [reflexivity|].
  intros [Hx Hd]. rewrite (IH _ Hd). unfold kv_lookup. cbn [kv_find find]. fold (kv_find kvs k).
  destruct (dbv_eqb (fst x) k) eqn:E; [|reflexivity].
  apply dbv_eqb_true in E as <-. now rewrite (kv_find_none kvs _ Hx).
Qed.
