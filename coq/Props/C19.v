(* C19 — Every query terminates after any history.
   Statements, each proved in a few lines from the theorems of theories/OpenMapProofs.v (and, further down,
   theories/OpenMapRefine*.v); closed witnesses are evaluated here.  The model is theories/OpenMap.v (the
   open-addressing map behind aliases and indexes, every unbounded loop on fuel).

   Termination of a Gallina function is not a statement, so the theorems say: with the stated fuel the
   out-of-fuel outcome is unreachable.  Fuel of the probe loops = capacity (`probe_fuel`), fuel of
   rehash_values = current capacity + new capacity + 1 (`rehash_fuel`).

   Revisions: `om_pinned` = the code before fix: commit fc221a8 (all three flags false), `om_fixed` = the
   code with that fix (all three true).  The positive theorems only need the wrap guard of insert_or_replace and the iterator
   flag; they hold whether or not a full probe cycle also rehashes in place.

   The other fuelled loops of a query — unlinking an edge from the adjacency lists, the breadth/depth first
   and path searches — are bounded in GraphProofs.v and TraverseProofs.v (C08 / C14 / C17, other files);
   MapIterator (`iter`) and the DbKeyValues / DbVec scans are bounded `for`/`while pos != len` loops. *)
From Coq Require Import List NArith Arith Bool Lia Permutation.
Import ListNotations.
From Agdb Require Import OpenMap OpenMapProofs OpenMapSpec OpenMapRefineBase OpenMapRefineOps OpenMapRefineStep OpenMapRefine.

(* For every key/value type, every equality test, EVERY hash function, every minimum capacity >= 4 (64 in
   the code) and every revision that has the insert_or_replace wrap guard and the iterator flag: every
   list of operations (insert, insert_or_replace with any predicate, remove_key, remove_value, reserve,
   value, values) run from the empty map completes — no probe loop needs more than `capacity` iterations,
   no rehash more than `rehash_fuel` — and ends in a table whose `len` is its number of Valid slots and is
   smaller than its capacity (so a non-Valid slot always exists), with capacity 0 or >= the minimum. *)
Theorem C19_probe_bound :
  forall (K V : Type) (keqb : K -> K -> bool) (veqb : V -> V -> bool) (h : K -> N) (mincap : nat) (rv : om_revision),
    4 <= mincap ->
    fix_insert_wrap_guard rv = true -> fix_iter_finished rv = true ->
    forall ops : list (op K V),
    exists m, run K V keqb veqb h mincap rv empty_map ops = Done m /\
              cnt (is_valid K V) (slots m) = len m /\
              (capacity K V m = 0 \/ (mincap <= capacity K V m /\ len m < capacity K V m)).
Proof. intros K V keqb veqb h mincap rv Hmin Hg Hf ops. exact (run_total_from K V keqb veqb h mincap rv Hmin Hg Hf ops empty_map (Inv_empty K V mincap)). Qed.
Print Assumptions C19_probe_bound.

(* The same, as an invariant: from ANY table satisfying the invariant (e.g. one loaded from a file) every
   single operation completes within the bound and re-establishes the invariant. *)
Theorem C19_step_bound :
  forall (K V : Type) (keqb : K -> K -> bool) (veqb : V -> V -> bool) (h : K -> N) (mincap : nat) (rv : om_revision),
    4 <= mincap ->
    fix_insert_wrap_guard rv = true -> fix_iter_finished rv = true ->
    forall (m : omap K V) (o : op K V), Inv K V mincap m ->
    exists m', step K V keqb veqb h mincap rv m o = Done m' /\ Inv K V mincap m'.
Proof. intros K V keqb veqb h mincap rv Hmin Hg Hf. exact (step_total K V keqb veqb h mincap rv Hmin Hg Hf). Qed.
Print Assumptions C19_step_bound.

(* Lookups need no invariant at all: `value` (= contains, one `next()` of iter_key) completes within
   `capacity` iterations on EVERY table in every revision; `values` (iter_key to the end, contains_value,
   values_count) on every table once the iterator has its `finished` flag. *)
Theorem C19_value_any_table :
  forall (K V : Type) (keqb : K -> K -> bool) (h : K -> N) (m : omap K V) (k : K),
    exists r, value K V keqb h m k = Done r.
Proof. exact value_total. Qed.
Print Assumptions C19_value_any_table.

Theorem C19_values_any_table :
  forall (K V : Type) (keqb : K -> K -> bool) (h : K -> N) (rv : om_revision),
    fix_iter_finished rv = true ->
    forall (m : omap K V) (k : K), exists r, values K V keqb h rv m k = Done r.
Proof. exact values_total. Qed.
Print Assumptions C19_values_any_table.

(* rehash_values(cur, newcap) — grow, shrink and the in-place rehash of the repair — terminates within
   cur + newcap + 1 iterations of its `while` loop (each inner occupancy probe within newcap) whenever the
   array covers both capacities and holds fewer Valid slots than the new capacity; it keeps the array length
   and the number of Valid slots and leaves no Valid slot at or beyond the new capacity (so the truncation
   of a shrink loses nothing). *)
Theorem C19_rehash_values_bound :
  forall (K V : Type) (h : K -> N) (cur newcap : nat) (sl : list (slot K V)),
    cur <= length sl -> newcap <= length sl -> cnt (is_valid K V) sl < newcap ->
    exists sl', rehash_values K V h cur newcap sl = Done sl' /\
                length sl' = length sl /\
                cnt (is_valid K V) sl' = cnt (is_valid K V) sl /\
                (forall p, newcap <= p -> p < cur -> is_valid K V (nth p sl' Empty) = false).
Proof. intros K V h. exact (rehash_values_ok K V (fun _ _ => true) (fun _ _ => true) h). Qed.
Print Assumptions C19_rehash_values_bound.

(* rehash (grow, shrink, or nothing) and the in-place rehash of the repair keep the multiset of stored
   (key, value) pairs: for every predicate Q the number of stored pairs satisfying Q is unchanged (with
   Q = "equals (k, v)" this is the multiplicity of (k, v)).  Hypotheses of the first statement = what the
   callers guarantee (`len` is the number of Valid slots and is below the target capacity).
   That every stored pair is still FOUND by probing after a rehash is C19_rehash_keeps_lookups /
   C19_rehash_in_place_keeps_lookups below (it needs the probe-chain invariant of the table). *)
Theorem C19_rehash_preserves_entries :
  forall (K V : Type) (h : K -> N) (mincap : nat) (Q : K -> V -> bool) (m m' : omap K V) (c : nat),
    cnt (is_valid K V) (slots m) = len m -> len m < Nat.max c mincap ->
    rehash K V h mincap m c = Done m' ->
    count_entries K V Q (slots m') = count_entries K V Q (slots m).
Proof. intros K V h mincap. exact (rehash_entries K V (fun _ _ => true) (fun _ _ => true) h mincap). Qed.
Print Assumptions C19_rehash_preserves_entries.

Theorem C19_rehash_in_place_preserves_entries :
  forall (K V : Type) (h : K -> N) (Q : K -> V -> bool) (m m' : omap K V),
    0 < capacity K V m -> rehash_in_place K V h m = Done m' ->
    count_entries K V Q (slots m') = count_entries K V Q (slots m).
Proof. intros K V h. exact (rehash_in_place_entries K V (fun _ _ => true) (fun _ _ => true) h). Qed.
Print Assumptions C19_rehash_in_place_preserves_entries.

(* keys and values u64 / DbId: stable_hash = identity; minimum capacity 64 as in the code *)
Definition idh (k : N) : N := k.
Definition always (_ : N) : bool := true.

(* 64 x { MapImpl::insert(i, 1); MapImpl::remove(i) } — what 64 x { insert alias; remove alias } does to the
   id -> alias half of the alias map *)
Definition cycles (n : nat) : list (op N N) :=
  flat_map (fun i => [OInsertOrReplace N N (N.of_nat i) always 1%N; ORemoveKey N N (N.of_nat i)]) (seq 0 n).

(* After the 64 cycles (which all complete) the table has capacity 64, len 0 and no Empty slot, and the
   next insert of a new key never returns: insert_or_replace is out of fuel for EVERY amount of fuel, in
   particular for fuel = capacity. *)
Theorem C19_pinned_refuted :
  exists m, run N N N.eqb N.eqb idh 64 om_pinned empty_map (cycles 64) = Done m /\
            capacity N N m = 64 /\ len m = 0 /\
            (forall fuel : nat -> nat,
               insert_or_replace_fuel N N N.eqb idh 64 om_pinned fuel m 100%N always 1%N = OutOfFuel) /\
            step N N N.eqb N.eqb idh 64 om_pinned m (OInsertOrReplace N N 100%N always 1%N) = OutOfFuel.
Proof.
  exists {| slots := repeat Deleted 64; len := 0 |}.
  assert (Hh : forall fuel : nat -> nat,
             insert_or_replace_fuel N N N.eqb idh 64 om_pinned fuel {| slots := repeat Deleted 64; len := 0 |}
               100%N always 1%N = OutOfFuel).
  { apply (insert_or_replace_pinned_hangs N N N.eqb N.eqb idh 64 om_pinned); [|apply Nat.ltb_lt|apply Nat.ltb_lt|];
      reflexivity. }
  split; [apply cycles_64_table|]. split; [reflexivity|]. split; [reflexivity|]. split; [exact Hh|].
  unfold step. cbn [step_fuel]. rewrite Hh. reflexivity.
Qed.
Print Assumptions C19_pinned_refuted.

(* the same history in the repaired revision: completes, and the inserted key is found *)
Example C19_fixed_same_history :
  exists m, run N N N.eqb N.eqb idh 64 om_fixed empty_map
                (cycles 64 ++ [OInsertOrReplace N N 100%N always 1%N]) = Done m /\
            capacity N N m = 64 /\ len m = 1 /\ value N N N.eqb idh m 100%N = Done (Some 1%N).
Proof. eexists. split; [rewrite run_app, (cycles_64_table om_fixed : run _ _ _ _ idh _ _ _ (cycles 64) = _); vm_compute; reflexivity|]. vm_compute. auto. Qed.
Print Assumptions C19_fixed_same_history.

(* Second defect (iterator): 63 x { insert(i, 1); remove_value(i, 1) } leaves Deleted slots 0..62, then
   insert_or_replace(0, |_| false, 7) stores the value in slot 63, the slot just before the key's first
   slot, and no Empty slot is left.  With the wrap guard of insert_or_replace but the pinned iterator,
   `values(0)` never ends, for every amount of fuel (the wrap check is skipped whenever a value is
   returned); `value(0)` is fine. *)
Definition rev_guard_only : om_revision :=
  {| fix_insert_wrap_guard := true; fix_rehash_in_place := true; fix_iter_finished := false |}.
Definition never (_ : N) : bool := false.
Definition iter_history : list (op N N) :=
  flat_map (fun i => [OInsert N N (N.of_nat i) 1%N; ORemoveValue N N (N.of_nat i) 1%N]) (seq 0 63)
  ++ [OInsertOrReplace N N 0%N never 7%N].

Theorem C19_iter_pinned_refuted :
  forall rv, fix_iter_finished rv = false ->
  exists m, run N N N.eqb N.eqb idh 64 rv empty_map iter_history = Done m /\
            (forall fuel : nat -> nat, values_fuel N N N.eqb idh rv fuel m 0%N = OutOfFuel) /\
            value N N N.eqb idh m 0%N = Done (Some 7%N).
Proof.
  intros rv Hf. eexists. split; [apply iter_history_table|]. split; [|reflexivity].
  apply (values_pinned_hangs N N N.eqb idh 64 rv Hf); [apply Nat.ltb_lt| |]; reflexivity.
Qed.
Print Assumptions C19_iter_pinned_refuted.

Example C19_iter_fixed_same_history :
  exists m, run N N N.eqb N.eqb idh 64 om_fixed empty_map iter_history = Done m /\
            values N N N.eqb idh om_fixed m 0%N = Done [7%N].
Proof. eexists. split; [apply iter_history_table|]. reflexivity. Qed.
Print Assumptions C19_iter_fixed_same_history.

(* The hypotheses of C19_probe_bound are satisfiable by the code's constants and the bound is tight enough to
   be exercised: 200 distinct keys cross the 64 -> 128 -> 256 boundaries upwards, their removal crosses them
   downwards, and 300 insert/remove cycles at capacity 64 trigger the full-cycle path repeatedly. *)
Example C19_nonvacuous :
  let up := List.map (fun i => OInsert N N (N.of_nat i) (N.of_nat i)) (seq 0 200) in
  let down := List.map (fun i => ORemoveValue N N (N.of_nat i) (N.of_nat i)) (seq 0 200) in
  (exists m, run N N N.eqb N.eqb idh 64 om_fixed empty_map up = Done m /\ capacity N N m = 256 /\ len m = 200) /\
  (exists m, run N N N.eqb N.eqb idh 64 om_fixed empty_map (up ++ down ++ cycles 300) = Done m /\
             capacity N N m = 64 /\ len m = 0).
Proof.
  intros up down.
  (* the table after `up` is computed once; the longer history is resumed from it *)
  eassert (Hup : run N N N.eqb N.eqb idh 64 om_fixed empty_map up = Done _) by (vm_compute; reflexivity).
  split; eexists.
  - split; [exact Hup|]. vm_compute. auto.
  - rewrite run_app, Hup. split; [vm_compute; reflexivity|]. vm_compute. auto.
Qed.
Print Assumptions C19_nonvacuous.

(* Functional correctness of the table (supports C10/C11: the maps DbModel abstracts as association lists — the
   alias map IndexedMap<String, DbId> = two MapImpl, every index MultiMap<DbValue, DbId>). *)

(* The specification is theories/OpenMapSpec.v (a multimap = a multiset of (key, value) pairs, written as a
   list compared up to Permutation; `mm_step` = what each operation may show and do; `fm_*` = the ordinary
   finite map for MapImpl).  The proofs are theories/OpenMapRefine*.v.  Everything below holds for EVERY hash
   function, every key / value type whose `PartialEq` (keqb / veqb) decides equality, every minimum capacity
   >= 4 (64 in the code), and every revision with the wrap guard of insert_or_replace and the iterator's
   `finished` flag (fix fc221a8; with or without its in-place rehash).

   The invariant of every reachable table, `PInv` (spelled out by C19_invariant_is): len = number of Valid
   slots; capacity 0, or capacity >= mincap and len < capacity; and the PROBE CHAIN: every Valid slot i holding
   key k is reachable from hash(k) mod capacity by stepping +1 (wrapping) without meeting an Empty slot (Deleted
   slots are crossed).  It does NOT say that an Empty slot exists: a table of capacity 64 can consist of Valid
   and Deleted slots only (C19_tombstones_nonvacuous reaches one); lookups then end by the full-cycle guard
   (`finished` / `pos == start_pos`), and the theorems cover that case. *)

Theorem C19_invariant_is :
  forall (K V : Type) (h : K -> N) (mincap : nat) (m : omap K V),
    PInv K V h mincap m <->
    (cnt (is_valid K V) (slots m) = len m /\
     (capacity K V m = 0 \/ (mincap <= capacity K V m /\ len m < capacity K V m))) /\
    (forall i k v, i < capacity K V m -> nth i (slots m) Empty = Valid k v ->
     forall j, j < capacity K V m ->
       dist (capacity K V m) (hpos K h k (capacity K V m)) j < dist (capacity K V m) (hpos K h k (capacity K V m)) i ->
       nth j (slots m) Empty <> Empty).
Proof. intros. reflexivity. Qed.
Print Assumptions C19_invariant_is.

(* ALL histories: every list of operations (insert, insert_or_replace with any predicate, remove_key,
   remove_value, reserve, value, values) run on the table from the empty map completes (fuel = capacity, no
   out-of-fuel case left), and the list of values it returns to its caller (`run_obs` = `run` with the
   results kept, C19_run_obs_is_run) is one the abstract multimap allows for the same operations (`mm_run`
   from the empty multiset); the final multimap is the multiset of the table's Valid slots = what `iter`
   yields, `len` is its size, and the table satisfies the invariant.  (values k is compared as a multiset:
   `mm_step` asks for a Permutation; the order is the probe order, C19_lookup_finds_exactly_stored.) *)
Theorem C19_table_refines_multimap :
  forall (K V : Type) (keqb : K -> K -> bool) (veqb : V -> V -> bool) (h : K -> N) (mincap : nat) (rv : om_revision),
    (forall a b, keqb a b = true <-> a = b) -> (forall a b, veqb a b = true <-> a = b) ->
    4 <= mincap -> fix_insert_wrap_guard rv = true -> fix_iter_finished rv = true ->
    forall ops : list (op K V),
    exists (m : omap K V) (obl : list (obs V)) (s : mm K V),
      run_obs K V keqb veqb h mincap rv empty_map ops = Done (m, obl) /\
      mm_run K V keqb veqb [] ops obl s /\
      Permutation (iter_all K V m) s /\ len m = length s /\ PInv K V h mincap m.
Proof. exact table_refines_multimap. Qed.
Print Assumptions C19_table_refines_multimap.

Theorem C19_run_obs_is_run :
  forall (K V : Type) (keqb : K -> K -> bool) (veqb : V -> V -> bool) (h : K -> N) (mincap : nat) (rv : om_revision)
         (ops : list (op K V)) (m m' : omap K V) (obl : list (obs V)),
    run_obs K V keqb veqb h mincap rv m ops = Done (m', obl) -> run K V keqb veqb h mincap rv m ops = Done m'.
Proof. exact run_obs_run. Qed.
Print Assumptions C19_run_obs_is_run.

(* The same as a simulation from ANY table satisfying the invariant (e.g. one loaded from a file) whose
   stored pairs are the multiset s: one operation completes, shows what the multimap allows, re-establishes
   the invariant, and its stored pairs are the multimap's. *)
Theorem C19_step_refines_multimap :
  forall (K V : Type) (keqb : K -> K -> bool) (veqb : V -> V -> bool) (h : K -> N) (mincap : nat) (rv : om_revision),
    (forall a b, keqb a b = true <-> a = b) -> (forall a b, veqb a b = true <-> a = b) ->
    4 <= mincap -> fix_insert_wrap_guard rv = true -> fix_iter_finished rv = true ->
    forall (m : omap K V) (o : op K V) (s : mm K V),
      PInv K V h mincap m -> Permutation (abs K V m) s ->
      exists m' ob s', step_obs K V keqb veqb h mincap rv m o = Done (m', ob) /\ PInv K V h mincap m' /\
                       mm_step K V keqb veqb s o ob s' /\ Permutation (abs K V m') s'.
Proof. exact step_refines. Qed.
Print Assumptions C19_step_refines_multimap.

(* On every table satisfying the invariant (after every history: C19_table_refines_multimap): `values k`
   returns exactly the values of the stored pairs of key k — v is returned iff (k, v) is stored, with its
   multiplicity — `value k` is the first of them (None iff there is none), contains_value / values_count /
   len agree with the stored multiset (`iter_all` = what MapIterator yields). *)
Theorem C19_lookup_finds_exactly_stored :
  forall (K V : Type) (keqb : K -> K -> bool) (veqb : V -> V -> bool) (h : K -> N) (mincap : nat) (rv : om_revision),
    (forall a b, keqb a b = true <-> a = b) -> (forall a b, veqb a b = true <-> a = b) ->
    fix_iter_finished rv = true ->
    forall (m : omap K V) (k : K), PInv K V h mincap m ->
    exists l, values K V keqb h rv m k = Done l /\
              value K V keqb h m k = Done (hd_error l) /\
              Permutation l (mm_values K V keqb k (iter_all K V m)) /\
              (forall v, In v l <-> In (k, v) (iter_all K V m)) /\
              (forall v, contains_value K V keqb veqb h rv m k v =
                         Done (mm_contains_value K V keqb veqb k v (iter_all K V m))) /\
              values_count K V keqb h rv m k = Done (length (mm_values K V keqb k (iter_all K V m))) /\
              len m = length (iter_all K V m).
Proof. exact lookup_finds_exactly_stored. Qed.
Print Assumptions C19_lookup_finds_exactly_stored.

(* "Still found after rehash" (what C19_rehash_preserves_entries left open): a rehash to any capacity that
   can hold the pairs (grow, shrink, or none) completes, re-establishes the invariant AT THE NEW CAPACITY,
   keeps the multiset of pairs, and every lookup returns the same values as before (values as multisets;
   value is None before iff None after). *)
Theorem C19_rehash_keeps_lookups :
  forall (K V : Type) (keqb : K -> K -> bool) (veqb : V -> V -> bool) (h : K -> N) (mincap : nat) (rv : om_revision),
    (forall a b, keqb a b = true <-> a = b) -> (forall a b, veqb a b = true <-> a = b) ->
    4 <= mincap -> fix_iter_finished rv = true ->
    forall (m : omap K V) (c : nat), PInv K V h mincap m -> len m < Nat.max c mincap ->
    exists m', rehash K V h mincap m c = Done m' /\ PInv K V h mincap m' /\ capacity K V m' = Nat.max c mincap /\
               Permutation (iter_all K V m') (iter_all K V m) /\
               forall k, exists l l', values K V keqb h rv m k = Done l /\ values K V keqb h rv m' k = Done l' /\
                                      Permutation l' l /\
                                      value K V keqb h m k = Done (hd_error l) /\
                                      value K V keqb h m' k = Done (hd_error l') /\
                                      (hd_error l' = None <-> hd_error l = None).
Proof.
  intros K V keqb veqb h mincap rv keqb_eq veqb_eq Hmin Hfin m c HI Hlt. pose proof HI as [[Hcv _] Hch].
  destruct (rehash_good K V keqb veqb h mincap rv keqb_eq veqb_eq Hmin m c Hcv Hlt Hch) as [m' [Hr [Hc [Hl [HG HP]]]]].
  pose proof (Good_PInv K V h mincap rv Hmin m' HG) as HI'.
  exists m'. split; [exact Hr|]. split; [exact HI'|]. split; [exact Hc|]. split; [exact HP|].
  exact (lookups_agree K V keqb veqb h mincap rv keqb_eq Hfin m m' HI HI' HP).
Qed.
Print Assumptions C19_rehash_keeps_lookups.

(* The in-place rehash of fix fc221a8 (run after a full probe cycle): the same, and it leaves NO Deleted slot
   (`clean`): probing stops early again. *)
Theorem C19_rehash_in_place_keeps_lookups :
  forall (K V : Type) (keqb : K -> K -> bool) (veqb : V -> V -> bool) (h : K -> N) (mincap : nat) (rv : om_revision),
    (forall a b, keqb a b = true <-> a = b) -> (forall a b, veqb a b = true <-> a = b) ->
    4 <= mincap -> fix_iter_finished rv = true ->
    forall (m : omap K V), PInv K V h mincap m -> 0 < capacity K V m ->
    exists m', rehash_in_place K V h m = Done m' /\ PInv K V h mincap m' /\ capacity K V m' = capacity K V m /\
               (forall p, p < capacity K V m' -> nth p (slots m') Empty <> Deleted) /\
               Permutation (iter_all K V m') (iter_all K V m) /\
               forall k, exists l l', values K V keqb h rv m k = Done l /\ values K V keqb h rv m' k = Done l' /\
                                      Permutation l' l /\
                                      value K V keqb h m k = Done (hd_error l) /\
                                      value K V keqb h m' k = Done (hd_error l') /\
                                      (hd_error l' = None <-> hd_error l = None).
Proof.
  intros K V keqb veqb h mincap rv keqb_eq veqb_eq Hmin Hfin m HI Hc0.
  pose proof HI as [[Hcv [Hz|[Hmc Hlt]]] Hch]; [lia|].
  destruct (rehash_in_place_full K V keqb veqb h keqb_eq veqb_eq m Hcv Hlt)
    as [m' [Hr [Hc [Hl [Hcv' [Hch' [Hcl HP]]]]]]].
  assert (HI' : PInv K V h mincap m').
  { apply (Good_PInv K V h mincap rv Hmin). unfold Good. split; [exact Hcv'|]. split; [lia|]. split; [lia|exact Hch']. }
  exists m'. split; [exact Hr|]. split; [exact HI'|]. split; [exact Hc|]. split; [exact Hcl|]. split; [exact HP|].
  exact (lookups_agree K V keqb veqb h mincap rv keqb_eq Hfin m m' HI HI' HP).
Qed.
Print Assumptions C19_rehash_in_place_keeps_lookups.

(* rehash_values itself (the loop shared by grow, shrink and the in-place rehash), on any array: whatever it
   is given — Deleted slots, broken chains — its result has the probe chain at the new capacity and no
   Deleted slot below it, provided the part of a grown array beyond the old capacity is Empty. *)
Theorem C19_rehash_values_establishes_chain :
  forall (K V : Type) (h : K -> N) (cur newcap : nat) (sl sl' : list (slot K V)),
    0 < newcap -> cur <= length sl -> newcap <= length sl ->
    (forall p, cur <= p -> p < newcap -> nth p sl Empty = Empty) ->
    rehash_values K V h cur newcap sl = Done sl' ->
    chain K V h newcap sl' /\ (forall p, p < newcap -> nth p sl' Empty <> Deleted).
Proof. intros K V h. exact (rehash_values_chain K V (fun _ _ => true) (fun _ _ => true) h). Qed.
Print Assumptions C19_rehash_values_establishes_chain.

(* MapImpl (map.rs; both halves of the alias map): the table used with
   insert = insert_or_replace k (|_| true) v, remove = remove_key, value, reserve.  Every history completes and
   shows EXACTLY the observations of the ordinary finite map `fm_run` (an association list with one binding
   per key: insert returns the previous value of the key, value k = the value inserted last, None after
   remove); the table holds at most one pair per key, and its pairs are the finite map's bindings. *)
Theorem C19_map_unique_keys :
  forall (K V : Type) (keqb : K -> K -> bool) (veqb : V -> V -> bool),
    (forall a b, keqb a b = true <-> a = b) -> (forall a b, veqb a b = true <-> a = b) ->
    forall (h : K -> N) (mincap : nat) (rv : om_revision),
    4 <= mincap -> fix_insert_wrap_guard rv = true -> fix_iter_finished rv = true ->
    forall mops : list (mop K V),
    exists m, run_obs K V keqb veqb h mincap rv empty_map (List.map (mop_op K V) mops)
                = Done (m, fst (fm_run K V keqb [] mops)) /\
              Permutation (iter_all K V m) (snd (fm_run K V keqb [] mops)) /\
              NoDup (List.map fst (iter_all K V m)) /\
              PInv K V h mincap m.
Proof.
  intros K V keqb veqb keqb_eq veqb_eq h mincap rv Hmin Hguard Hfin mops.
  destruct (table_refines_multimap K V keqb veqb h mincap rv keqb_eq veqb_eq Hmin Hguard Hfin
              (List.map (mop_op K V) mops)) as [m [obl [s [Hr [Hm [HP [_ HI]]]]]]].
  destruct (mm_run_fm K V keqb veqb keqb_eq veqb_eq mops [] obl s) as [Hfr Hus]; [constructor|exact Hm|].
  rewrite Hfr. exists m. split; [exact Hr|]. split; [exact HP|]. split; [|exact HI].
  exact (UK_perm K V _ _ (Permutation_sym HP) Hus).
Qed.
Print Assumptions C19_map_unique_keys.

(* the finite map of the previous theorem obeys the usual laws *)
Theorem C19_finite_map_laws :
  forall (K V : Type) (keqb : K -> K -> bool), (forall a b, keqb a b = true <-> a = b) ->
    (forall k v s, fm_get K V keqb k (fm_set K V keqb k v s) = Some v) /\
    (forall k k' v s, k' <> k -> fm_get K V keqb k' (fm_set K V keqb k v s) = fm_get K V keqb k' s) /\
    (forall k s, fm_get K V keqb k (fm_remove K V keqb k s) = None) /\
    (forall k k' s, k' <> k -> fm_get K V keqb k' (fm_remove K V keqb k s) = fm_get K V keqb k' s).
Proof.
  intros K V keqb keqb_eq. split; [exact (fm_get_set_same K V keqb keqb_eq)|].
  split; [exact (fm_get_set_other K V keqb keqb_eq)|].
  split; [exact (fm_get_remove_same K V keqb keqb_eq)|exact (fm_get_remove_other K V keqb keqb_eq)].
Qed.
Print Assumptions C19_finite_map_laws.

(* Non-vacuity 1: an ADVERSARIAL CONSTANT hash (every key probes from slot 7), u64 keys and values, the code's
   minimum capacity 64.  72 inserts (70 distinct keys and two more values of key 5) cross 64 -> 128; removing
   60 pairs one by one and key 7 altogether crosses 128 -> 64; the lookups afterwards return exactly what is
   stored: values 5 = {5, 500, 501}, key 7 gone, key 3 present, insert_or_replace of the value 500 of key 5
   replaces it (returns 500), values 5 = {5, 9, 501}, the never inserted key 42 is absent. *)
Definition consth (_ : N) : N := 7%N.
Definition hc_up : list (op N N) :=
  List.map (fun i => OInsert N N (N.of_nat i) (N.of_nat i)) (seq 0 70) ++ [OInsert N N 5%N 500%N; OInsert N N 5%N 501%N].
Definition hc_down : list (op N N) :=
  List.map (fun i => ORemoveValue N N (N.of_nat i) (N.of_nat i)) (seq 10 60) ++ [ORemoveKey N N 7%N].
Definition hc_look : list (op N N) :=
  [OValues N N 5%N; OValue N N 7%N; OValue N N 3%N; OInsertOrReplace N N 5%N (N.eqb 500%N) 9%N;
   OValues N N 5%N; OValue N N 42%N].

Example C19_refinement_nonvacuous :
  (exists m obl, run_obs N N N.eqb N.eqb consth 64 om_fixed empty_map hc_up = Done (m, obl) /\
                 capacity N N m = 128 /\ len m = 72) /\
  (exists m obl, run_obs N N N.eqb N.eqb consth 64 om_fixed empty_map (hc_up ++ hc_down ++ hc_look) = Done (m, obl) /\
                 capacity N N m = 64 /\ len m = 11 /\
                 skipn (length obl - 6) obl =
                 [ObsValues [5%N; 500%N; 501%N]; ObsValue None; ObsValue (Some 3%N); ObsReplaced (Some 500%N);
                  ObsValues [5%N; 9%N; 501%N]; ObsValue None]).
Proof.
  eassert (Hup : run_obs N N N.eqb N.eqb consth 64 om_fixed empty_map hc_up = Done _) by (vm_compute; reflexivity).
  split; eexists; eexists.
  - split; [exact Hup|]. vm_compute. auto.
  - rewrite run_obs_app, Hup. split; [vm_compute; reflexivity|]. vm_compute. auto.
Qed.
Print Assumptions C19_refinement_nonvacuous.

(* Non-vacuity 2: the table WITHOUT ANY Empty slot.  Identity hash; two values of key 5 and key 69 (which
   collides with 5 modulo 64), then 61 x { MapImpl::insert(200 + i, 1); remove(200 + i) } turn the other 61
   slots of the capacity-64 table into tombstones: no Empty slot is left, the lookups (of present and of
   absent keys) end by the full-cycle guard and still return exactly the stored values; the 62nd cycle's
   insert runs a full probe cycle and rehashes in place (an Empty slot exists again), with the same lookups. *)
Definition tomb_pre : list (op N N) := [OInsert N N 5%N 1%N; OInsert N N 5%N 2%N; OInsert N N 69%N 3%N].
Definition tomb_cycles (n : nat) : list (op N N) :=
  flat_map (fun i => [OInsertOrReplace N N (N.of_nat (200 + i)) always 1%N; ORemoveKey N N (N.of_nat (200 + i))]) (seq 0 n).
Definition tomb_look : list (op N N) := [OValues N N 5%N; OValue N N 69%N; OValue N N 133%N].

Example C19_tombstones_nonvacuous :
  (exists m obl, run_obs N N N.eqb N.eqb idh 64 om_fixed empty_map (tomb_pre ++ tomb_cycles 61 ++ tomb_look) = Done (m, obl) /\
                 capacity N N m = 64 /\ len m = 3 /\ existsb (is_empty N N) (slots m) = false /\
                 skipn (length obl - 3) obl = [ObsValues [1%N; 2%N]; ObsValue (Some 3%N); ObsValue None]) /\
  (exists m obl, run_obs N N N.eqb N.eqb idh 64 om_fixed empty_map (tomb_pre ++ tomb_cycles 62 ++ tomb_look) = Done (m, obl) /\
                 capacity N N m = 64 /\ len m = 3 /\ existsb (is_empty N N) (slots m) = true /\
                 skipn (length obl - 3) obl = [ObsValues [1%N; 2%N]; ObsValue (Some 3%N); ObsValue None]).
Proof.
  (* both histories begin with the same 125 operations, run once *)
  eassert (Hpre : run_obs N N N.eqb N.eqb idh 64 om_fixed empty_map (tomb_pre ++ tomb_cycles 61) = Done _)
    by (vm_compute; reflexivity).
  split; eexists; eexists.
  - rewrite app_assoc, run_obs_app, Hpre. split; [vm_compute; reflexivity|]. vm_compute. auto.
  - change (tomb_pre ++ tomb_cycles 62 ++ tomb_look)
      with ((tomb_pre ++ tomb_cycles 61) ++
            [OInsertOrReplace N N 261%N always 1%N; ORemoveKey N N 261%N] ++ tomb_look).
    rewrite run_obs_app, Hpre. split; [vm_compute; reflexivity|]. vm_compute. auto.
Qed.
Print Assumptions C19_tombstones_nonvacuous.
