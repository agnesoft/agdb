(* UndoLift.v — C13 lifted to Queries.exec (one failing query) and Queries.transaction
   (several queries, a failing one or a failure injected at the end) — PARTIAL: for the mutating
   queries whose primitives need no cross-component side condition (insert aliases, remove
   aliases, insert index, remove index) and every read-only query in between. *)
From Agdb Require Import Bytes BytesProofs DbValue Graph DbModel Search Queries Revisions UndoBase UndoObs UndoAlias UndoKv
  UndoGraphBase UndoGraph UndoGraphEdge UndoGraphOps UndoAbs UndoDb
  UndoStepsAlias UndoStepsKv UndoStepsKv2 UndoStepsGraph UndoBridge UndoMain UndoFinal UndoWitness.
From Agdb Require Import DbFrameProofs.
From Coq Require Import Permutation ZifyBool ZifyNat ZifyN.
Ltac Zify.zify_post_hook ::= Z.div_mod_to_equations.
Open Scope Z_scope.

Definition liftable (q : query) : bool :=
  match q with
  | InsertAliases _ _ | RemoveAliases _ | InsertIndex _ | RemoveIndex _ => true
  | _ => negb (is_mutating q)
  end.

(* undo commands never touch the undo stack of the state they are applied to *)
Lemma undo_one_undo d c d' : undo_one d c = ROk d' -> undo d' = undo d.
Proof.
  destruct c; cbn [undo_one]; try (intros [= <-]; reflexivity).
  - destruct (insert_edge (gr d) f t) as [[i g]|]; [|discriminate]. intros [= <-]. reflexivity.
  - destruct (insert_node (gr d)). intros [= <-]. reflexivity.
  - destruct (Graph.remove_edge (gr d) index); [|discriminate]. intros [= <-]. reflexivity.
  - destruct (Graph.remove_node (gr d) index); [|discriminate]. intros [= <-]. reflexivity.
  - destruct (kvs_insert_or_replace (vals d) id x) as [[old|] s]; [|discriminate]. intros [= <-]. reflexivity.
Qed.

Lemma rollback_cmds_undo rv cs : forall d d', rollback_cmds rv d cs = ROk d' -> undo d' = undo d.
Proof.
  induction cs as [|c r IH]; intros d d'; cbn [rollback_cmds]; [intros [= <-]; reflexivity|].
  destruct (undo_one d c) as [d1|] eqn:E; [|discriminate]. apply undo_one_undo in E. rewrite <- E.
  destruct c; try apply IH. destruct (fix_rollback_replace rv); [apply IH | intros [= <-]; reflexivity].
Qed.

Lemma rollback_undo rv d d' : rollback rv d = ROk d' -> undo d' = [].
Proof. unfold rollback. intros H. apply rollback_cmds_undo in H. exact H. Qed.

Section Lift.
  Variable rv : revision.
  Hypothesis Hrv : fix_rollback_replace rv = true.
  Hypothesis Hsteal : fix_alias_steal_undo rv = true.

  Notation psteps := (psteps rv).

  Lemma psteps_trans d d1 d2 : psteps d d1 -> psteps d1 d2 -> psteps d d2.
  Proof.
    intros H1 H2. induction H2 as [|x y z H2 IH H3]; [assumption|].
    eapply pss_snoc; [apply IH; assumption | exact H3].
  Qed.
  Lemma psteps_one d d1 : pstep rv d d1 -> psteps d d1.
  Proof. intros H. eapply pss_snoc; [apply pss_nil | exact H]. Qed.

  (* a step that only touches aliases / indexes *)
  Definition light (d d1 : db) : Prop := psteps d d1 /\ gr d1 = gr d.

  Lemma light_refl d : light d d.
  Proof. split; [apply pss_nil | reflexivity]. Qed.
  Lemma light_trans d d1 d2 : light d d1 -> light d1 d2 -> light d d2.
  Proof. intros (H1 & E1) (H2 & E2). split; [eapply psteps_trans; eassumption | congruence]. Qed.

  Lemma gr_insert_alias d id a : gr (insert_alias rv d id a) = gr d.
  Proof using Hsteal. apply (insert_alias_gvi rv d id a). Qed.

  Definition step_db {A} (s : step A) : db :=
    match s with StOk _ d _ => d | StErr _ d _ => d | StPanic _ d => d end.

  Lemma st_fold_light {A B} (f : db -> B -> A -> step B) l :
    (forall a b x, light a (step_db (f a b x))) ->
    forall d b, light d (step_db (st_fold f d b l)).
  Proof.
    intros Hf. induction l as [|x r IH]; intros d b; cbn [st_fold]; [apply light_refl|].
    specialize (Hf d b x). destruct (f d b x) as [d1 b1|d1 e|d1]; cbn [step_db] in *; [|assumption|assumption].
    eapply light_trans; [exact Hf | apply IH].
  Qed.

  Lemma insert_aliases_light d ids als : light d (step_db (insert_aliases rv d ids als)).
  Proof.
    unfold insert_aliases. destruct ids as [l|s]; [|apply light_refl].
    destruct (negb (Nat.eqb (length l) (length als))); [apply light_refl|].
    match goal with |- context [st_fold ?f d 0 ?l'] =>
      assert (Hf : forall a0 b x, light a0 (step_db (f a0 b x)));
      [| pose proof (st_fold_light f l' Hf d 0) as Hl; destruct (st_fold f d 0 l'); exact Hl] end.
    intros a0 b [q al]. destruct al as [|c al']; [apply light_refl|].
    destruct (db_id a0 q) as [id|e]; [|apply light_refl].
    destruct (fix_alias_nodes_only rv && (id <? 0)); [apply light_refl|].
    cbn [step_db]. split; [apply psteps_one, ps_insert_alias | apply gr_insert_alias].
  Qed.

  Lemma remove_aliases_light als : forall d n,
    light d (snd (fold_left (fun (acc : Z * db) al =>
                       let '(b, a1) := remove_alias (snd acc) al in
                       (if b then fst acc + 1 else fst acc, a1)) als (n, d))).
  Proof.
    induction als as [|al r IH]; intros d n; cbn [fold_left snd fst]; [apply light_refl|].
    destruct (remove_alias d al) as [b a1] eqn:E.
    eapply light_trans; [|apply IH].
    replace a1 with (snd (remove_alias d al)) by (rewrite E; reflexivity).
    split; [apply psteps_one, ps_remove_alias|].
    unfold remove_alias. destruct (imap_value (aliases d) al); reflexivity.
  Qed.

  Lemma gr_insert_index d key n d1 : insert_index d key = ROk (n, d1) -> gr d1 = gr d.
  Proof.
    unfold insert_index. destruct (idx_find (indexes d) key); [discriminate|]. intros [= _ <-].
    match goal with |- gr ?X = _ => assert (Hinv : backfill_inv key (with_indexes (push_undo d (CRemoveIndex key)) (indexes (push_undo d (CRemoveIndex key)) ++ [(key, [])])) X) end.
    { apply backfill_inv_outer. repeat split. }
    destruct Hinv as (Eg & _). rewrite Eg. reflexivity.
  Qed.

  Lemma gr_remove_index d key : gr (snd (remove_index d key)) = gr d.
  Proof.
    unfold remove_index. destruct (idx_find (indexes d) key) as [ids|]; cbn [snd]; [|reflexivity].
    cbn [gr with_indexes push_undo]. destruct (push_fold_fields key ids d) as (Eg & _). exact Eg.
  Qed.

  Lemma exec_in_txn_light d q : liftable q = true -> light d (fst (exec_in_txn rv d q)).
  Proof.
    intros Hq. unfold exec_in_txn. destruct (is_mutating q) eqn:Em; [|apply light_refl].
    destruct q; cbn in Hq, Em; try discriminate; cbn [exec_mut_step].
    - pose proof (insert_aliases_light d ids aliases) as H.
      destruct (insert_aliases rv d ids aliases) as [d1 [n els]|d1 e|d1]; exact H.
    - destruct (insert_index d key) as [[n d1]|e] eqn:E; cbn [fst]; [|apply light_refl].
      split; [eapply psteps_one, ps_insert_index, E | eapply gr_insert_index, E].
    - destruct (remove_index d key) as [n d1] eqn:E. cbn [fst].
      replace d1 with (snd (remove_index d key)) by (rewrite E; reflexivity).
      split; [apply psteps_one, ps_remove_index | apply gr_remove_index].
    - unfold remove_aliases. pose proof (remove_aliases_light aliases d 0) as H.
      destruct (fold_left _ aliases (0, d)) as [n d1]. exact H.
  Qed.

  Lemma db_ok_cap d : db_ok d -> capacity (gr d) <= two63z.
  Proof. intros Hok. destruct (db_ok_rep d Hok) as (a & R). apply (r_cap _ _ _ _ R). Qed.

  Lemma light_rollback d d1 :
    db_ok d -> undo d = [] -> light d d1 ->
    exists d', rollback rv d1 = ROk d' /\ obs_eq d d' /\ db_ok d' /\ undo d' = [].
  Proof.
    intros Hok Hu (Hs & Eg).
    destruct (rollback_restores_obs rv Hrv Hsteal d d1 Hok Hu Hs) as (d' & Hr & Ho & _ & _ & Hok').
    - rewrite Eg. apply db_ok_cap, Hok.
    - exists d'. split; [exact Hr|]. split; [exact Ho|]. split; [exact Hok'|]. eapply rollback_undo, Hr.
  Qed.

  Theorem exec_failure_restores d q d' e :
    liftable q = true -> db_ok d -> undo d = [] -> exec rv d q = (d', QErr e) ->
    obs_eq d d' /\ db_ok d' /\ undo d' = [].
  Proof.
    intros Hq Hok Hu Hex. unfold exec in Hex. pose proof (exec_in_txn_light d q Hq) as Hl.
    destruct (exec_in_txn rv d q) as [d1 r]. cbn [fst] in Hl.
    destruct (light_rollback d d1 Hok Hu Hl) as (d2 & Hr & Ho & Hok2 & Hu2).
    destruct r as [n els|k|]; [discriminate | | discriminate]. rewrite Hr in Hex. injection Hex as <- _. auto.
  Qed.

  Lemma txn_run_light qs : forall d acc, Forall (fun q => liftable q = true) qs ->
    light d (fst (fst (txn_run rv d qs acc))).
  Proof.
    induction qs as [|q r IH]; intros d acc Hall; cbn [txn_run]; [apply light_refl|].
    inversion Hall as [|? ? Hq Hr]. subst. pose proof (exec_in_txn_light d q Hq) as Hl.
    destruct (exec_in_txn rv d q) as [d1 res]. cbn [fst] in Hl.
    destruct (is_failure res); [exact Hl|]. eapply light_trans; [exact Hl | apply IH, Hr].
  Qed.

  Theorem transaction_failure_restores d qs fail_at_end :
    Forall (fun q => liftable q = true) qs -> db_ok d -> undo d = [] ->
    let '(d1, results, all_ok) := txn_run rv d qs [] in
    existsb (fun r => match r with QPanic => true | _ => false end) results = false ->
    all_ok && negb fail_at_end = false ->
    exists d', transaction rv d qs fail_at_end = (d', results) /\ obs_eq d d' /\ db_ok d' /\ undo d' = [].
  Proof.
    intros Hall Hok Hu. pose proof (txn_run_light qs d [] Hall) as Hl. unfold transaction.
    destruct (txn_run rv d qs []) as [[d1 results] all_ok]. cbn [fst] in Hl. intros Hnp Hfail.
    rewrite Hnp, Hfail. destruct (light_rollback d d1 Hok Hu Hl) as (d2 & Hr & Ho & Hok2 & Hu2).
    rewrite Hr. exists d2. auto.
  Qed.
End Lift.

(* the hypotheses of the lifted theorems are satisfiable: the two-node database with aliases
   "a","b" is well formed, and the alias-stealing transaction is covered *)

(* the state built by `insert nodes aliases [a,b]`, as a sequence of primitives *)
Definition lx_1 : db := snd (insert_node_db db_new).
Definition lx_2 : db := insert_new_alias lx_1 1 w_a.
Definition lx_3 : db := reserve_kv lx_2 1.
Definition lx_4 : db := snd (insert_node_db lx_3).
Definition lx_5 : db := insert_new_alias lx_4 2 w_b.
Definition lx_6 : db := reserve_kv lx_5 2.

Lemma lx_psteps : psteps rv_fixed db_new lx_6.
Proof.
  eapply pss_snoc. eapply pss_snoc. eapply pss_snoc. eapply pss_snoc. eapply pss_snoc. eapply pss_snoc.
  - apply pss_nil.
  - eapply (ps_insert_node rv_fixed db_new 1 lx_1). reflexivity.
  - apply (ps_insert_new_alias rv_fixed lx_1 1 w_a); reflexivity.
  - apply (ps_reserve rv_fixed lx_2 1).
  - eapply (ps_insert_node rv_fixed lx_3 2 lx_4). reflexivity.
  - apply (ps_insert_new_alias rv_fixed lx_4 2 w_b); reflexivity.
  - apply (ps_reserve rv_fixed lx_5 2).
Qed.

Lemma lx_ok : db_ok (clear_undo lx_6).
Proof.
  unfold clear_undo. apply sim_undo_irrelevant.
  destruct (psteps_ok rv_fixed eq_refl eq_refl db_new lx_6 db_ok_new lx_psteps) as (Hok & _).
  - vm_compute. discriminate.
  - apply sim_sym. unfold db_ok in Hok. apply sim_undo_irrelevant. exact Hok.
Qed.

(* the state is evaluated once, to clear_undo lx_6 *)
Lemma lift_example :
  let d := fst (exec rv_fixed db_new (InsertNodes 2 (Single []) [w_a; w_b] (Ids []))) in
  Forall (fun q => liftable q = true) w2_txn /\ db_ok d /\ undo d = [] /\
  exists d', transaction rv_fixed d w2_txn true = (d', [QOk 1 []]) /\ obs_eq d d'.
Proof.
  intros d. assert (Ed : d = clear_undo lx_6) by (vm_compute; reflexivity). clearbody d. subst d.
  pose proof lx_ok as Hok.
  assert (Hall : Forall (fun q => liftable q = true) w2_txn) by (repeat constructor).
  split; [exact Hall|]. split; [exact Hok|]. split; [reflexivity|].
  pose proof (transaction_failure_restores rv_fixed eq_refl eq_refl (clear_undo lx_6) w2_txn true Hall Hok eq_refl) as H.
  destruct (txn_run rv_fixed (clear_undo lx_6) w2_txn []) as [[d1 results] all_ok] eqn:E.
  assert (Er : results = [QOk 1 []]).
  { assert (E2 : snd (fst (txn_run rv_fixed (clear_undo lx_6) w2_txn [])) = [QOk 1 []]) by (vm_compute; reflexivity).
    rewrite E in E2. exact E2. }
  subst results. destruct H as (d' & Ht & Ho & _); [reflexivity | rewrite andb_false_r; reflexivity |].
  exists d'. auto.
Qed.
