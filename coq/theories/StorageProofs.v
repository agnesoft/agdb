(* StorageProofs.v — C04: the optimize and
   reopen steps, the refinement of every history, and the theorems stated in Props/C04.v.

   Reading guide to the development:
     RecordsProofs / RecordsTableProofs / RecordsLoadProofs   the record table and the free maps
     StorageLayout    byte lists, regions, layout, table-vs-layout relation
     StorageWp        weakest preconditions, the tiling invariant, the steps of an operation, free_a_region
     StorageOps       insert, remove, enlarge_value, shrink_value, move_to_end
     StorageOps2      resize, insert_at, replace, move_at, reads
     StorageReopen    read_records on a tiled file
     StorageOptimize  optimize_storage
     StorageRefine    one step of the storage refines one step of the map specification
     StorageSim       the literal back-ends against the canonical byte stores (after this file) *)
From Agdb Require Import Bytes BytesProofs Records RecordsProofs RecordsTableProofs RecordsLoadProofs Storage StorageSpec
  StorageLayout StorageWp StorageOps StorageOps2 StorageRefine StorageReopen StorageOptimize.
From Coq Require Import ZifyBool ZifyNat ZifyN.
Open Scope N_scope.

(* the kind of byte store: file-like (a drop rolls an open transaction back) or memory-like *)
Definition kind (ops : store_ops cdata) (fl : bool) : Prop :=
  canon ops /\ so_reopen ops = (if fl then c_rollback else c_flush).

Lemma kind_file : kind ops_file true.
Proof. split; [apply canon_file|reflexivity]. Qed.
Lemma kind_mem : kind ops_mem false.
Proof. split; [apply canon_mem|reflexivity]. Qed.

Lemma agree_lmap rg m : agree rg m -> agree (lmap rg) m.
Proof. intros [A0 A]. split; [exact A0|]. intros j Hj. rewrite (A j Hj). symmetry. apply m_get_lmap. exact Hj. Qed.

Lemma spec_no_panic fl sp o : spec_step fl sp o ObPanic = None /\ spec_step fl sp o ObFault = None.
Proof.
  destruct o; cbn [spec_step]; repeat match goal with
    | |- context [match m_get ?m ?i with _ => _ end] => destruct (m_get m i)
    | |- context [if ?b then _ else _] => destruct b
    end; split; reflexivity.
Qed.

Section Main.
  Variable ops : store_ops cdata.
  Variable fl : bool.
  Hypothesis K : kind ops fl.

  Let CN : canon ops := proj1 K.

  Lemma step_optimize s sp :
    Rel s sp ->
    snd (st_step cdata ops s SOptimize) = ObPanic \/
    exists sp', spec_step fl sp SOptimize (snd (st_step cdata ops s SOptimize)) = Some sp' /\
                Rel (fst (st_step cdata ops s SOptimize)) sp'.
  Proof.
    intros ((rg & T & Ag) & Htx & (s0 & rg0 & T0 & Hc0 & Ag0) & H0).
    cbn [st_step lift fst snd].
    pose proof (optimize_spec ops CN s rg T) as W. unfold wp in W.
    destruct (optimize_storage cdata ops s) as [s' [[]|e| |]]; cbn [fst snd to_obs ou]; [|destruct W|auto|destruct W].
    destruct W as (T' & _ & _ & Htx' & Hdur'). right. cbn [spec_step is_unit guard]. eexists; split; [reflexivity|].
    unfold Rel. split; [exists (lmap rg); split; [exact T'|apply agree_lmap; exact Ag]|]. split; [congruence|].
    rewrite Htx in Hdur'. destruct (N.eqb_spec (sdepth sp) 0) as [E0|N0].
    - destruct (H0 E0) as [_ Ecm]. split.
      + exists s', (lmap rg). split; [exact T'|]. split; [congruence|]. rewrite Ecm. apply agree_lmap; exact Ag.
      + intros _. split; [exact Hdur'|exact Ecm].
    - split; [exists s0, rg0; split; [exact T0|]; split; [congruence|exact Ag0]|]. intros E; congruence.
  Qed.

  Lemma step_reopen s sp (o : sop) :
    (o = SReopen \/ o = SReopenCopy) -> Rel s sp ->
    exists sp', spec_step fl sp o (snd (st_step cdata ops s o)) = Some sp' /\ Rel (fst (st_step cdata ops s o)) sp'.
  Proof.
    intros Ho ((rg & T & Ag) & Htx & (s0 & rg0 & T0 & Hc0 & Ag0) & H0).
    (* the content the storage is opened on, a tiling of it, and the map it holds *)
    assert (Hgen : forall d sX rgX m, tiles sX rgX -> cur d = cur (sdata sX) -> dur d = cur d -> agree rgX m ->
              let r := with_data cdata ops d in
              snd r = ROk tt /\ Rel (fst r) {| sm := m; sdepth := 0; scommitted := m |}).
    { intros d sX rgX m TX Hcd Hdd AgX r.
      destruct (with_data_spec ops CN sX rgX d TX Hcd) as (s' & Er & T' & Htx' & Hd'). unfold r. rewrite Er. cbn [fst snd].
      split; [reflexivity|]. unfold Rel. cbn [sm sdepth scommitted].
      split; [exists rgX; auto|]. split; [exact Htx'|].
      split; [exists s', rgX; split; [exact T'|]; split; [rewrite Hd'; symmetry; exact Hdd|exact AgX]|].
      intros _. split; [rewrite Hd'; exact Hdd|reflexivity]. }
    destruct Ho as [-> | ->]; cbn [st_step lift fst snd]; unfold reopen, reopen_copy.
    - rewrite (proj2 K). destruct fl.
      + (* file-like: the durable content *)
        cbn [spec_step andb].
        set (m := if negb (sdepth sp =? 0) then scommitted sp else sm sp).
        assert (Agm : agree rg0 m).
        { unfold m. destruct (N.eqb_spec (sdepth sp) 0) as [E0|]; cbn [negb]; [|exact Ag0].
          destruct (H0 E0) as [_ <-]. exact Ag0. }
        destruct (Hgen (c_rollback (sdata s)) s0 rg0 m T0 ltac:(cbn [c_rollback cur]; congruence) eq_refl Agm) as [Er RL].
        rewrite Er. cbn [to_obs ou is_unit guard]. eexists; split; [reflexivity|exact RL].
      + cbn [spec_step andb].
        destruct (Hgen (c_flush (sdata s)) s rg (sm sp) T eq_refl eq_refl Ag) as [Er RL].
        rewrite Er. cbn [to_obs ou is_unit guard]. eexists; split; [reflexivity|exact RL].
    - rewrite (cn_copy _ CN). cbn [spec_step].
      destruct (Hgen (c_flush (sdata s)) s rg (sm sp) T eq_refl eq_refl Ag) as [Er RL].
      rewrite Er. cbn [to_obs ou is_unit guard]. eexists; split; [reflexivity|exact RL].
  Qed.

  Theorem step_refines s sp o :
    Rel s sp ->
    snd (st_step cdata ops s o) = ObPanic \/
    exists sp', spec_step fl sp o (snd (st_step cdata ops s o)) = Some sp' /\ Rel (fst (st_step cdata ops s o)) sp'.
  Proof.
    intros RL. destruct (plain o) eqn:Ep.
    - apply (step_plain ops CN fl); assumption.
    - destruct o; try discriminate Ep.
      + apply step_optimize; exact RL.
      + right. apply step_reopen; auto.
      + right. apply step_reopen; auto.
  Qed.

  Theorem run_refines l : forall s sp, Rel s sp -> accepts fl sp l (st_run cdata ops s l) = true.
  Proof.
    induction l as [|o t IH]; intros s sp RL; [reflexivity|].
    cbn [st_run]. destruct (st_step cdata ops s o) as [s' v] eqn:Es.
    pose proof (step_refines s sp o RL) as H. rewrite Es in H. cbn [fst snd] in H.
    destruct H as [->|(sp' & Hs & RL')]; [destruct t; reflexivity|].
    destruct (spec_no_panic fl sp o) as [NP NF].
    destruct v; try congruence; cbn [accepts]; rewrite Hs; apply IH; exact RL'.
  Qed.

  Theorem exec_invariant l : forall s sp s', Rel s sp -> st_exec cdata ops s l = Some s' -> exists sp', Rel s' sp'.
  Proof.
    induction l as [|o t IH]; intros s sp s' RL; cbn [st_exec]; [intros [= <-]; eauto|].
    destruct (st_step cdata ops s o) as [s1 v] eqn:Es.
    pose proof (step_refines s sp o RL) as H. rewrite Es in H. cbn [fst snd] in H.
    destruct H as [->|(sp' & Hs & RL')]; [discriminate|].
    destruct v; try discriminate; apply (IH s1 sp' s' RL').
  Qed.
End Main.

Definition s_init : ST := {| sdata := {| cur := vrec; dur := vrec |}; rtab := records_new; tx := 0; version := 1 |}.

Lemma init_file_eq : init_file = (s_init, ROk tt).
Proof. vm_compute. reflexivity. Qed.
Lemma init_mem_eq : init_mem = (s_init, ROk tt).
Proof. vm_compute. reflexivity. Qed.

Lemma tiles_init : tiles s_init [].
Proof.
  apply tiles_intro; unfold s_init; st.
  - cbn [ser]. now rewrite app_nil_r.
  - vm_compute. reflexivity.
  - exact trel_new.
  - exact rwf_new.
  - reflexivity.
Qed.

Lemma Rel_init : Rel s_init spec_init.
Proof.
  unfold Rel, spec_init. cbn [sm sdepth scommitted].
  assert (Ag : agree [] []) by (split; [reflexivity|intros j _; reflexivity]).
  split; [exists []; split; [exact tiles_init|exact Ag]|]. split; [reflexivity|].
  split; [exists s_init, []; split; [exact tiles_init|]; split; [reflexivity|exact Ag]|].
  intros _. split; reflexivity.
Qed.

(* C04_refines_map: for every operation list every observation of the storage (results, value
   reads, error kinds, transaction ids) is accepted by the abstract map; a history ends early only
   by a panic (a request that does not fit into 2^64 bytes), never by a back-end fault *)
Theorem refines_map_file : forall l, accepts true spec_init l (st_run cdata ops_file (fst init_file) l) = true.
Proof. intros l. rewrite init_file_eq. apply (run_refines ops_file true kind_file). exact Rel_init. Qed.
Theorem refines_map_mem : forall l, accepts false spec_init l (st_run cdata ops_mem (fst init_mem) l) = true.
Proof. intros l. rewrite init_mem_eq. apply (run_refines ops_mem false kind_mem). exact Rel_init. Qed.

(* slen as a sum *)
Definition region_sum (rg : list region) : N := fold_right (fun (r : N * bytes) a => 16 + lenN (snd r) + a) 24 rg.
Lemma slen_sum rg : 24 + slen rg = region_sum rg.
Proof. unfold region_sum. induction rg as [|r t IH]; cbn [fold_right]; [rewrite slen_nil; lia|]. rewrite slen_cons, <- IH. lia. Qed.

(* C04_optimize_tight *)
Theorem optimize_tight ops : canon ops -> forall s rg, tiles s rg ->
  let r := optimize_storage cdata ops s in
  snd r = RPanic \/
  (snd r = ROk tt /\ tiles (fst r) (lmap rg) /\ all_live (lmap rg) /\
   (forall j, j <> 0 -> m_get (lmap rg) j = m_get rg j) /\
   lenN (cur (sdata (fst r))) = region_sum (lmap rg) /\
   fps (rtab (fst r)) = [] /\ fsp (rtab (fst r)) = []).
Proof.
  intros CN s rg T r. pose proof (optimize_spec ops CN s rg T) as W. unfold wp in W. unfold r.
  destruct (optimize_storage cdata ops s) as [s' [[]|e| |]]; cbn [fst snd]; [|destruct W|auto|destruct W].
  destruct W as (T' & Hf & Hs & _). right. split; [reflexivity|]. split; [exact T'|].
  split. { intros i v H. unfold lmap in H. apply filter_In in H. destruct H as [_ H]. cbn [fst] in H. destruct (N.eqb_spec i 0); [discriminate|assumption]. }
  split; [intros j Hj; apply m_get_lmap; exact Hj|]. split; [|auto].
  destruct (tiles_elim _ _ T') as (Hcur & _). rewrite Hcur, lenN_app, lenN_vrec. fold (slen (lmap rg)). apply slen_sum.
Qed.

(* C04_reopen_preserves: opening the content of a tiled storage gives a tiled storage with the
   same regions (hence the same live values), no transaction open *)
Theorem reopen_preserves ops : canon ops -> forall s rg, tiles s rg ->
  (forall r, r = reopen_copy cdata ops s -> snd r = ROk tt /\ tiles (fst r) rg /\ tx (fst r) = 0) /\
  (tx s = 0 -> dur (sdata s) = cur (sdata s) ->
   forall r, r = reopen cdata ops s -> snd r = ROk tt /\ tiles (fst r) rg /\ tx (fst r) = 0).
Proof.
  intros CN s rg T. split.
  - intros r ->. unfold reopen_copy. rewrite (cn_copy _ CN).
    destruct (with_data_spec ops CN s rg (c_flush (sdata s)) T eq_refl) as (s' & Er & T' & Htx' & _).
    rewrite Er. auto.
  - intros _ Hd r ->. unfold reopen.
    assert (Hc : cur (so_reopen ops (sdata s)) = cur (sdata s)).
    { destruct (cn_reopen _ CN) as [-> | ->]; cbn [c_rollback c_flush cur]; [exact Hd|reflexivity]. }
    destruct (with_data_spec ops CN s rg _ T Hc) as (s' & Er & T' & Htx' & _).
    rewrite Er. auto.
Qed.

Lemma storage_maintenance :
  forall ops, canon ops -> forall s rg, tiles s rg ->
  (snd (reopen_copy cdata ops s) = ROk tt /\ tiles (fst (reopen_copy cdata ops s)) rg) /\
  (tx s = 0 -> dur (sdata s) = cur (sdata s) ->
   snd (reopen cdata ops s) = ROk tt /\ tiles (fst (reopen cdata ops s)) rg) /\
  (snd (optimize_storage cdata ops s) = RPanic \/
   (snd (optimize_storage cdata ops s) = ROk tt /\ tiles (fst (optimize_storage cdata ops s)) (lmap rg) /\
    forall j, j <> 0 -> m_get (lmap rg) j = m_get rg j)).
Proof.
  intros ops CN s rg T. destruct (reopen_preserves ops CN s rg T) as [Hc Hr]. split; [|split].
  - destruct (Hc _ eq_refl) as (A & B & _). auto.
  - intros H1 H2. destruct (Hr H1 H2 _ eq_refl) as (A & B & _). auto.
  - destruct (optimize_tight ops CN s rg T) as [H|(A & B & _ & C & _)]; [left; exact H|right; auto].
Qed.
