(* C14 — Graph traversals return exactly the reachable elements in documented order.
   The statements, each proved in a line or two from the theorems of theories/TraverseProofs.v; the eager textbook
   specifications (bfs_spec / dfs_spec, reach, walk, shortest, dfs_rec) are in theories/TraverseSpec.v,
   the hypothesis about the slot graph (adj_ok: the adjacency chains end, have no duplicates
   and enumerate exactly the edges of a node; edge endpoints are nodes) in theories/AdjOk.v.

   Notation of the statements:
     graph_search rv_fixed d a reverse origin [] HDefault
        = SearchImpl::search with the Default handler and no conditions, as coded (lazy work
          list with sibling chaining), for the revision of /repo with all fix: commits;
     graph_index g origin = true    : origin is an existing node id (> 0) or edge id (< 0);
     reach g reverse o x            : x is reached from o by node -> out-edge -> target steps
                                      (reverse: node -> in-edge -> source);
     walk g reverse o x k           : ... by exactly k such steps (every node and edge step counts);
     shortest g reverse o x k       : k is the length of a shortest walk from o to x. *)
From Agdb Require Import Bytes Graph DbModel Search Queries Revisions AdjOk TraverseSpec TraverseProofs.
From Agdb Require Import GraphSim GraphProofs GraphSpec AdjOkWf.
From Coq Require Import Sorting.Sorted.
Open Scope Z_scope.

(* The implementation's result IS the eager breadth-first specification's result: queue of
   (element, distance); a dequeued unvisited node enqueues all its edges newest first, a
   dequeued unvisited edge enqueues its far endpoint; visited test on dequeue.
   Origins: existing nodes AND existing edges. *)
Theorem C14_lazy_eq_eager_bfs :
  forall (d : db) (reverse : bool) (origin : Z),
    adj_ok (gr d) -> graph_index (gr d) origin = true ->
    graph_search rv_fixed d BFS reverse origin [] HDefault = Some (map fst (bfs_spec (gr d) reverse origin)).
Proof. intros. apply lazy_eq_eager; assumption. Qed.
Print Assumptions C14_lazy_eq_eager_bfs.

(* ... and the eager depth-first specification's: stack, pre-order, newest edge first. *)
Theorem C14_lazy_eq_eager_dfs :
  forall (d : db) (reverse : bool) (origin : Z),
    adj_ok (gr d) -> graph_index (gr d) origin = true ->
    graph_search rv_fixed d DFS reverse origin [] HDefault = Some (map fst (dfs_spec (gr d) reverse origin)).
Proof. intros. apply lazy_eq_eager; assumption. Qed.
Print Assumptions C14_lazy_eq_eager_dfs.

(* Breadth-first: origin first (distance 0), no duplicates, exactly the reachable elements,
   distances non-decreasing along the result, and every recorded distance is the length of
   a shortest alternating path. *)
Theorem C14_bfs_reachable :
  forall (g : graph) (reverse : bool) (o : Z),
    adj_ok g -> graph_index g o = true ->
    let r := bfs_spec g reverse o in
    (exists tl, r = (o, 0) :: tl) /\
    NoDup (map fst r) /\
    (forall x, In x (map fst r) <-> reach g reverse o x) /\
    StronglySorted Z.le (map snd r) /\
    (forall x k, In (x, k) r -> shortest g reverse o x k).
Proof.
  intros g rv o Hok Ho r. rewrite graph_index_elem_id in Ho.
  destruct (search_spec_reachable g Hok BFS rv o Ho) as (H1 & H2 & H3 & _).
  exact (conj H1 (conj H2 (conj H3 (bfs_spec_distances g Hok rv o Ho)))).
Qed.
Print Assumptions C14_bfs_reachable.

(* Depth-first: origin first, no duplicates, exactly the reachable elements, and the order is
   the pre-order of the recursive depth-first search that follows each branch to its end
   before backtracking, newest edge first (dfs_rec, for every sufficient recursion fuel). *)
Theorem C14_dfs_preorder :
  forall (g : graph) (reverse : bool) (o : Z),
    adj_ok g -> graph_index g o = true ->
    let r := dfs_spec g reverse o in
    (exists tl, r = (o, 0) :: tl) /\
    NoDup (map fst r) /\
    (forall x, In x (map fst r) <-> reach g reverse o x) /\
    (forall x k, In (x, k) r -> walk g reverse o x k) /\
    (forall fr, (search_fuel g <= fr)%nat -> map fst r = rev (dfs_rec g reverse fr o [])).
Proof.
  intros g rv o Hok Ho r. rewrite graph_index_elem_id in Ho.
  destruct (search_spec_reachable g Hok DFS rv o Ho) as (H1 & H2 & H3 & H4).
  refine (conj H1 (conj H2 (conj H3 (conj H4 _)))).
  intros fr Hfr. apply dfs_spec_preorder; assumption.
Qed.
Print Assumptions C14_dfs_preorder.

(* The same directly on the implementation model, both algorithms, both directions. *)
Theorem C14_traversal_exact :
  forall (d : db) (a : algo) (reverse : bool) (origin : Z),
    adj_ok (gr d) -> graph_index (gr d) origin = true ->
    exists r, graph_search rv_fixed d a reverse origin [] HDefault = Some (origin :: r) /\
              NoDup (origin :: r) /\
              (forall x, In x (origin :: r) <-> reach (gr d) reverse origin x).
Proof. exact traversal_exact. Qed.
Print Assumptions C14_traversal_exact.

(* At the query level (SearchQuery::search): origin only = forward, destination only = reverse. *)
Theorem C14_search_query_forward :
  forall (d : db) (o : Z), adj_ok (gr d) -> graph_index (gr d) o = true ->
    search rv_fixed d (plain_query ABreadthFirst o 0) = SOk (map fst (bfs_spec (gr d) false o)) /\
    search rv_fixed d (plain_query ADepthFirst o 0) = SOk (map fst (dfs_spec (gr d) false o)).
Proof. exact search_query_forward. Qed.
Print Assumptions C14_search_query_forward.

Theorem C14_search_query_reverse :
  forall (d : db) (o : Z), adj_ok (gr d) -> graph_index (gr d) o = true ->
    search rv_fixed d (plain_query ABreadthFirst 0 o) = SOk (map fst (bfs_spec (gr d) true o)) /\
    search rv_fixed d (plain_query ADepthFirst 0 o) = SOk (map fst (dfs_spec (gr d) true o)).
Proof. exact search_query_reverse. Qed.
Print Assumptions C14_search_query_reverse.

(* search_fuel is never exhausted (origins as DbImpl resolves them). *)
Theorem C14_no_fuel :
  forall (d : db) (a : algo) (reverse : bool) (origin : Z),
    adj_ok (gr d) ->
    graph_index (gr d) origin = true \/ is_node (gr d) origin || is_edge (gr d) origin = false ->
    graph_search rv_fixed d a reverse origin [] HDefault <> None.
Proof. exact search_no_fuel. Qed.
Print Assumptions C14_no_fuel.

(* ... also with ANY condition list and ANY limit/offset handler (used by C19). *)
Theorem C14_no_fuel_all_conditions :
  forall (d : db), adj_ok (gr d) ->
  forall (a : algo) (reverse : bool) (origin : Z) (conds : list cond) (h : handler_kind),
    graph_index (gr d) origin = true \/ is_node (gr d) origin || is_edge (gr d) origin = false ->
    graph_search rv_fixed d a reverse origin conds h <> None.
Proof. exact graph_search_no_fuel. Qed.
Print Assumptions C14_no_fuel_all_conditions.

(* Defect 1 (repaired by fix: 23600df, flag fix_edge_origin): before the fix a search from an
   edge also returned the edge's older sibling, which is not reachable from it.
   History: insert 2 nodes; insert edge 1->2 (-3); insert edge 1->2 (-4); search from -4. *)
Theorem C14_edge_origin_pinned_refuted :
  let d := witness1 rv_pinned in
  adj_ok (gr d) /\ graph_index (gr d) (-4) = true /\
  graph_search rv_pinned d BFS false (-4) [] HDefault = Some [-4; -3; 2] /\
  graph_search rv_pinned d DFS false (-4) [] HDefault = Some [-4; 2; -3] /\
  ids_of (snd (exec rv_pinned d (SearchQ (plain_query ABreadthFirst (-4) 0)))) = Some [-4; -3; 2] /\
  ~ reach (gr d) false (-4) (-3) /\
  graph_search rv_fixed (witness1 rv_fixed) BFS false (-4) [] HDefault = Some [-4; 2].
Proof. exact edge_origin_pinned_refuted. Qed.
Print Assumptions C14_edge_origin_pinned_refuted.

(* Defect 2 (repaired by fix: 7e27fbc, flag fix_visited_chain):
   with the first fix only, the already visited origin edge cut the lazily expanded edge list
   of its node when the node was reached again, so older siblings were lost although reachable.
   History: insert 1 node; insert edge 1->1 (-2); insert edge 1->1 (-3); search from -3. *)
Theorem C14_visited_chain_refuted :
  let d := witness2 rv_no_visited_chain in
  adj_ok (gr d) /\ graph_index (gr d) (-3) = true /\
  graph_search rv_no_visited_chain d BFS false (-3) [] HDefault = Some [-3; 1] /\
  graph_search rv_no_visited_chain d DFS false (-3) [] HDefault = Some [-3; 1] /\
  graph_search rv_no_visited_chain d BFS true (-3) [] HDefault = Some [-3; 1] /\
  ids_of (snd (exec rv_no_visited_chain d (SearchQ (plain_query ABreadthFirst (-3) 0)))) = Some [-3; 1] /\
  reach (gr d) false (-3) (-2) /\
  graph_search rv_fixed (witness2 rv_fixed) BFS false (-3) [] HDefault = Some [-3; 1; -2].
Proof. exact visited_chain_refuted. Qed.
Print Assumptions C14_visited_chain_refuted.

(* Non-vacuity: a graph built with the real operations (3 nodes, parallel edges, a self-loop,
   a cycle, a removed and re-used edge slot) satisfies adj_ok, and the searches on it. *)
Example C14_nonvacuous :
  adj_ok (gr example_db) /\
  graph_search rv_fixed example_db BFS false 1 [] HDefault = Some [1; -5; -4; 3; 2; -7; -8; -6] /\
  graph_search rv_fixed example_db DFS false 1 [] HDefault = Some [1; -5; 3; -7; -4; 2; -8; -6] /\
  graph_search rv_fixed example_db BFS true 3 [] HDefault = Some [3; -5; -6; 1; 2; -7; -8; -4] /\
  graph_search rv_fixed example_db DFS false (-4) [] HDefault = Some [-4; 2; -8; -6; 3; -7; 1; -5] /\
  bfs_spec example_graph false 1 = [(1, 0); (-5, 1); (-4, 1); (3, 2); (2, 2); (-7, 3); (-8, 3); (-6, 3)].
Proof. exact example_searches. Qed.
Print Assumptions C14_nonvacuous.

(* The checker of the hypothesis is sound, so adj_ok of any concrete graph is decided by vm_compute. *)
Theorem C14_adj_okb_sound : forall g : graph, adj_okb g = true -> adj_ok g.
Proof. exact adj_okb_sound. Qed.
Print Assumptions C14_adj_okb_sound.

(* ---- the hypothesis adj_ok is discharged by the graph invariant ---- *)

(* wf (GraphSim.v: some abstract multigraph simulates the slot arrays) implies adj_ok ... *)
Theorem C14_wf_adj_ok : forall g : graph, wf g -> adj_ok g.
Proof. exact wf_adj_ok. Qed.
Print Assumptions C14_wf_adj_ok.

(* ... and wf holds after every history of graph operations from the empty graph (GraphSpec.grun_wf;
   gop_ok: ids are passed with the sign of their kind, as DbImpl::graph_index dispatches), so every
   such graph satisfies the hypothesis of the theorems above. *)
Theorem C14_reachable_graphs_adj_ok :
  forall (ops : list gop) (g : graph) (a : agraph),
    Forall gop_ok ops -> grun graph_new a_empty ops = Some (g, a) -> adj_ok g.
Proof. intros ops g a H E. apply wf_adj_ok, (grun_wf ops g a H E). Qed.
Print Assumptions C14_reachable_graphs_adj_ok.

Theorem C14_traversal_exact_wf :
  forall (d : db) (a : algo) (reverse : bool) (origin : Z),
    wf (gr d) -> graph_index (gr d) origin = true ->
    exists r, graph_search rv_fixed d a reverse origin [] HDefault = Some (origin :: r) /\
              NoDup (origin :: r) /\
              (forall x, In x (origin :: r) <-> reach (gr d) reverse origin x).
Proof. exact traversal_exact_wf. Qed.
Print Assumptions C14_traversal_exact_wf.
