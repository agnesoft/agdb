(* UndoStepsKv2.v — C13_step_inverse: insert_or_replace_key_value (replace arm and append arm),
   reserve_kv (neutral), remove_keys and remove_all_values (folds of single removals),
   insert_index and remove_index. *)
From Agdb Require Import Bytes BytesProofs DbValue DbValueProofs Graph DbModel Revisions KvProofs UndoBase UndoObs UndoAlias UndoKv
  UndoGraphBase UndoGraph UndoAbs UndoDb UndoStepsKv.
From Coq Require Import Permutation ZifyBool ZifyNat ZifyN.
Open Scope Z_scope.

Section Steps.
  Variable rv : revision.
  Hypothesis Hrv : fix_rollback_replace rv = true.

  Lemma step_replace d id x old l' :
    db_ok d -> replace_first (kvs_get (vals d) id) x = Some (old, l') -> idx_has d id old ->
    let d1 := {| gr := gr d; aliases := aliases d; vals := kvs_set (vals d) id l';
                 indexes := idx_insert_id (idx_remove_id (indexes d) (fst old) (snd old) id) (fst old) (snd x) id;
                 undo := CReplaceKeyValue id old :: undo d |} in
    db_ok d1 /\ undoable rv d d1.
  Proof.
    intros Hok Hrf Hhas. pose proof Hok as [G A V I].
    destruct V as (Vok & _ & _). destruct I as (Iok & _ & _).
    destruct (replace_first_inverse _ _ _ _ Hrf) as (Ekey & Hinv).
    assert (Hkl' : keys_ok l').
    { unfold keys_ok. rewrite (replace_first_keys _ _ _ _ Hrf). apply Vok. }
    apply (kv_step rv Hrv); auto.
    - split; [|split]; try (apply idx_ok_update, idx_ok_update; assumption). intros k. apply idx_rel_refl.
    - assert (Hk : forall i, keys_ok (kvs_get (kvs_set (vals d) id l') i)).
      { intros i. rewrite kvs_get_set. destruct (same_slot id i); [assumption | apply Vok]. }
      split; [|split]; auto.
    - intros e (Ie1 & _ & Ie3) (Ve1 & _ & Ve3).
      assert (Pid : Permutation l' (kvs_get (vals e) id)).
      { specialize (Ve3 id). rewrite kvs_get_set, same_slot_refl in Ve3. symmetry. exact Ve3. }
      destruct (replace_first_perm l' (kvs_get (vals e) id) old x (kvs_get (vals d) id) Hkl' Pid Hinv) as (le' & Hre & Ple).
      exists (idx_insert_id (idx_remove_id (indexes e) (fst x) (snd x) id) (fst x) (snd old) id), (kvs_set (vals e) id le').
      split; [|split].
      + cbn [undo_one]. unfold kvs_insert_or_replace. rewrite Hre. reflexivity.
      + split; [apply idx_ok_update, idx_ok_update; assumption|]. split; [assumption|]. intros key.
        unfold idx_insert_id, idx_remove_id. rewrite !idx_find_update'. specialize (Ie3 key).
        unfold idx_insert_id, idx_remove_id in Ie3. rewrite !idx_find_update' in Ie3. rewrite Ekey in Ie3.
        destruct (dbv_eqb_spec (fst x) key) as [E|]; [|exact Ie3]. subst key.
        destruct (idx_find (indexes e) (fst x)) as [la|], (idx_find (indexes d) (fst x)) as [lb|] eqn:Eb;
          cbn [omap idx_rel] in Ie3 |- *; try tauto.
        rewrite (remove_first_pair_perm _ _ _ _ Ie3). rewrite remove_first_pair_app_last.
        apply remove_first_pair_then_append. apply Hhas. rewrite Ekey. exact Eb.
      + split; [|split]; auto.
        * intros i. rewrite kvs_get_set. destruct (same_slot id i); [|apply Ve1].
          eapply keys_ok_perm; [exact Ple | apply Vok].
        * intros i. rewrite kvs_get_set. specialize (Ve3 i). rewrite kvs_get_set in Ve3.
          destruct (same_slot id i) eqn:E; [|exact Ve3].
          rewrite <- Ple. rewrite (kvs_get_same _ _ _ E). reflexivity.
  Qed.

  Lemma step_insert_or_replace d id x :
    db_ok d ->
    (forall old l', replace_first (kvs_get (vals d) id) x = Some (old, l') -> idx_has d id old) ->
    db_ok (insert_or_replace_key_value d id x) /\ undoable rv d (insert_or_replace_key_value d id x).
  Proof.
    intros Hok Hhas. unfold insert_or_replace_key_value, kvs_insert_or_replace.
    destruct (replace_first (kvs_get (vals d) id) x) as [[old l']|] eqn:E.
    - apply (step_replace d id x old l' Hok E). eapply Hhas. reflexivity.
    - apply replace_first_none in E. exact (step_insert_key_value rv Hrv d id x Hok E).
  Qed.

  (* reserve_kv only grows the outer vector *)
  Lemma step_reserve_kv d id : db_ok d -> db_ok (reserve_kv d id) /\ undoable rv d (reserve_kv d id).
  Proof.
    intros Hok. assert (S : sim (reserve_kv d id) d).
    { destruct Hok as [G A V I]. constructor; cbn; auto.
      destruct V as (V1 & _ & _). split; [|split]; auto; intros i; rewrite kvs_get_reserve; auto. }
    split; [eapply sim_ok_l, S | apply undoable_neutral; [reflexivity | exact S]].
  Qed.

  Definition remove_sel (id : Z) (sel : kv -> bool) (d : db) (x : kv) : db :=
    if sel x then remove_kv d id x else d.

  (* the pairs still to be processed are present, indexed, and have pairwise different keys *)
  Lemma fold_remove_sel id sel l : forall d,
    db_ok d -> NoDup (map fst l) ->
    (forall x, In x l -> In x (kvs_get (vals d) id) /\ idx_has d id x) ->
    let d1 := fold_left (remove_sel id sel) l d in
    db_ok d1 /\ undoable rv d d1.
  Proof.
    induction l as [|x r IH]; intros d Hok Hnd Hpre; cbn [fold_left].
    - split; [assumption | apply undoable_refl; assumption].
    - inversion Hnd as [|? ? Hnx Hnd']. subst.
      assert (Hstep : db_ok (remove_sel id sel d x) /\ undoable rv d (remove_sel id sel d x) /\
                      (forall y, In y r -> In y (kvs_get (vals (remove_sel id sel d x)) id) /\ idx_has (remove_sel id sel d x) id y)).
      { unfold remove_sel. destruct (sel x).
        - destruct (Hpre x (or_introl eq_refl)) as (Hin & Hhas).
          destruct (step_remove_kv rv Hrv d id x Hok Hin Hhas) as (Hok1 & U1). split; [assumption|]. split; [assumption|].
          intros y Hy. destruct (Hpre y (or_intror Hy)) as (Hiny & Hhasy).
          assert (Hne : fst y <> fst x) by (intros E; apply Hnx; rewrite <- E; apply in_map, Hy).
          split.
          + cbn [remove_kv vals]. rewrite kvs_get_remove_value, same_slot_refl.
            destruct Hok as [_ _ (Vok & _ & _) _]. rewrite remove_first_key_filter by apply Vok.
            apply filter_In. split; [assumption|]. unfold key_is. destruct (dbv_eqb_spec (fst y) (fst x)); [contradiction | reflexivity].
          + unfold idx_has. cbn [remove_kv indexes]. unfold idx_remove_id. intros ids. rewrite idx_find_update'.
            destruct (dbv_eqb_spec (fst x) (fst y)); [congruence|]. apply Hhasy.
        - split; [assumption|]. split; [apply undoable_refl; assumption|]. intros y Hy. apply Hpre. right. assumption. }
      destruct Hstep as (Hok1 & U1 & Hpre1). destruct (IH _ Hok1 Hnd' Hpre1) as (Hok2 & U2).
      split; [exact Hok2 | eapply undoable_trans; eassumption].
  Qed.

  (* remove_keys is such a fold *)
  Lemma remove_keys_fold d id keys :
    snd (remove_keys d id keys) =
    fold_left (remove_sel id (fun x => mem dbv_eqb (fst x) keys)) (kvs_get (vals d) id) d.
  Proof.
    unfold remove_keys. generalize (kvs_get (vals d) id) as l. generalize 0 as n. revert d.
    intros d n l. revert d n. induction l as [|x r IH]; intros d n; cbn [fold_left]; [reflexivity|].
    unfold remove_sel at 2. destruct (mem dbv_eqb (fst x) keys); apply IH.
  Qed.

  (* every pair of the element is listed in the index on its key (if there is one) *)
  Definition idx_has_all (d : db) (id : Z) : Prop := forall x, In x (kvs_get (vals d) id) -> idx_has d id x.

  Lemma step_remove_keys d id keys :
    db_ok d -> idx_has_all d id ->
    db_ok (snd (remove_keys d id keys)) /\ undoable rv d (snd (remove_keys d id keys)).
  Proof.
    intros Hok Hall. rewrite remove_keys_fold. apply fold_remove_sel; auto.
    destruct Hok as [_ _ (Vok & _ & _) _]. apply Vok.
  Qed.

  (* remove_all_values: the same removals, the list is cleared at the end *)
  Lemma remove_all_fold_fields l id : forall d,
    let d1 := fold_left (fun acc (x : kv) => push_undo (index_remove_if acc (fst x) (snd x) id) (CInsertKeyValue id x)) l d in
    let d2 := fold_left (remove_sel id (fun _ => true)) l d in
    gr d1 = gr d2 /\ aliases d1 = aliases d2 /\ indexes d1 = indexes d2 /\ undo d1 = undo d2 /\ vals d1 = vals d.
  Proof.
    induction l as [|x r IH]; intros d; cbn [fold_left]; [auto|].
    set (da := push_undo (index_remove_if d (fst x) (snd x) id) (CInsertKeyValue id x)).
    set (db' := remove_sel id (fun _ => true) d x).
    (* the two folds run from states that agree on everything but vals *)
    assert (Hgen : forall l' a b, gr a = gr b -> aliases a = aliases b -> indexes a = indexes b -> undo a = undo b ->
              let a1 := fold_left (fun acc (x : kv) => push_undo (index_remove_if acc (fst x) (snd x) id) (CInsertKeyValue id x)) l' a in
              let b1 := fold_left (remove_sel id (fun _ => true)) l' b in
              gr a1 = gr b1 /\ aliases a1 = aliases b1 /\ indexes a1 = indexes b1 /\ undo a1 = undo b1 /\ vals a1 = vals a).
    { clear. induction l' as [|y r' IH']; intros a b Hg Ha Hi Hu; cbn [fold_left]; [auto|].
      destruct (IH' (push_undo (index_remove_if a (fst y) (snd y) id) (CInsertKeyValue id y))
                    (remove_sel id (fun _ => true) b y)) as (H1 & H2 & H3 & H4 & H5);
        cbn; try congruence. auto. }
    apply (Hgen r da db'); reflexivity.
  Qed.

  Lemma fold_remove_all_vals l id : forall d,
    kvs_get (vals d) id = l ->
    let d2 := fold_left (remove_sel id (fun _ => true)) l d in
    forall j, kvs_get (vals d2) j = if same_slot id j then [] else kvs_get (vals d) j.
  Proof.
    induction l as [|x r IH]; intros d El; cbn [fold_left]; intros j.
    - destruct (same_slot id j) eqn:E; [|reflexivity]. rewrite <- (kvs_get_same _ _ _ E). exact El.
    - unfold remove_sel at 2. cbn beta iota.
      assert (El' : kvs_get (vals (remove_kv d id x)) id = r).
      { cbn [remove_kv vals]. rewrite kvs_get_remove_value, same_slot_refl, El. cbn [remove_first_key].
        rewrite dbv_eqb_refl. reflexivity. }
      rewrite (IH _ El' j). destruct (same_slot id j) eqn:E; [reflexivity|].
      cbn [remove_kv vals]. rewrite kvs_get_remove_value, E. reflexivity.
  Qed.

  Lemma step_remove_all_values d id :
    db_ok d -> idx_has_all d id ->
    db_ok (remove_all_values d id) /\ undoable rv d (remove_all_values d id).
  Proof.
    intros Hok Hall. set (l := kvs_get (vals d) id).
    set (d2 := fold_left (remove_sel id (fun _ => true)) l d).
    assert (H2 : db_ok d2 /\ undoable rv d d2).
    { apply fold_remove_sel; auto. destruct Hok as [_ _ (Vok & _ & _) _]. apply Vok. }
    destruct H2 as (Hok2 & U2).
    destruct (remove_all_fold_fields l id d) as (Eg & Ea & Ei & Eu & Ev). fold d2 in Eg, Ea, Ei, Eu.
    unfold remove_all_values. fold l.
    set (d1 := fold_left (fun acc (x : kv) => push_undo (index_remove_if acc (fst x) (snd x) id) (CInsertKeyValue id x)) l d) in *.
    assert (S : sim (with_vals d1 (kvs_remove (vals d1) id)) d2).
    { destruct Hok2 as [G A V I]. constructor; cbn [gr aliases vals indexes with_vals].
      - rewrite Eg. exact G.
      - rewrite Ea. exact A.
      - assert (Eq : forall j, kvs_get (kvs_remove (vals d1) id) j = kvs_get (vals d2) j).
        { intros j. rewrite kvs_get_remove, Ev. unfold d2. rewrite (fold_remove_all_vals l id d eq_refl j). reflexivity. }
        destruct V as (V1 & _ & _). split; [|split]; auto; intros j; rewrite Eq; auto.
      - rewrite Ei. exact I. }
    split; [eapply sim_ok_l, S|]. eapply undoable_sim_r; [exact U2 | exact S | exact Eu].
  Qed.
End Steps.

(* insert_index (with back-fill) and remove_index *)

Lemma db_eta d : d = {| gr := gr d; aliases := aliases d; vals := vals d; indexes := indexes d; undo := undo d |}.
Proof. destruct d; reflexivity. Qed.

Section Steps.
  Variable rv : revision.
  Hypothesis Hrv : fix_rollback_replace rv = true.

  (* what the back-fill can change: only the contents of the index on `key` *)
  Definition backfill_inv (key : dbvalue) (d0 a : db) : Prop :=
    gr a = gr d0 /\ aliases a = aliases d0 /\ vals a = vals d0 /\ undo a = undo d0 /\
    map fst (indexes a) = map fst (indexes d0) /\
    (forall key', key' <> key -> idx_find (indexes a) key' = idx_find (indexes d0) key').

  Lemma backfill_inv_insert key d0 a v id :
    backfill_inv key d0 a -> backfill_inv key d0 (index_insert_if a key v id).
  Proof.
    intros (H1 & H2 & H3 & H4 & H5 & H6). repeat split; cbn [index_insert_if with_indexes gr aliases vals undo indexes]; auto.
    - unfold idx_insert_id. rewrite idx_update_keys. assumption.
    - intros key' Hne. unfold idx_insert_id. rewrite idx_find_update'.
      destruct (dbv_eqb_spec key key'); [congruence|]. apply H6, Hne.
  Qed.

  Lemma backfill_inv_inner key d0 id l : forall a,
    backfill_inv key d0 a ->
    backfill_inv key d0 (fold_left (fun a (x : kv) => if dbv_eqb (fst x) key then index_insert_if a key (snd x) id else a) l a).
  Proof.
    induction l as [|x r IH]; intros a Ha; cbn [fold_left]; [assumption|].
    apply IH. destruct (dbv_eqb (fst x) key); [apply backfill_inv_insert|]; assumption.
  Qed.

  Lemma backfill_inv_outer key d0 slots : forall a,
    backfill_inv key d0 a ->
    backfill_inv key d0
      (fold_left (fun acc i =>
                    let iz := Z.of_nat i in
                    let id := if is_node (gr acc) iz then iz else - iz in
                    fold_left (fun a (x : kv) => if dbv_eqb (fst x) key then index_insert_if a key (snd x) id else a)
                              (kvs_get (vals acc) iz) acc) slots a).
  Proof.
    induction slots as [|s r IH]; intros a Ha; cbn [fold_left]; [assumption|].
    apply IH. apply backfill_inv_inner. assumption.
  Qed.

  Lemma step_insert_index d key n d1 :
    db_ok d -> insert_index d key = ROk (n, d1) -> db_ok d1 /\ undoable rv d d1.
  Proof.
    intros Hok Hins. unfold insert_index in Hins.
    destruct (idx_find (indexes d) key) as [l|] eqn:Enone; [discriminate|].
    injection Hins as En Ed. clear En. subst d1.
    set (d2 := with_indexes (push_undo d (CRemoveIndex key)) (indexes (push_undo d (CRemoveIndex key)) ++ [(key, [])])).
    match goal with |- db_ok ?X /\ _ => set (d3 := X) end.
    assert (Hinv : backfill_inv key d2 d3).
    { unfold d3. apply backfill_inv_outer. repeat split. }
    destruct Hinv as (Eg & Ea & Ev & Eu & Ek & Ef).
    pose proof Hok as [G A V I]. destruct I as (Iok & _ & _).
    rewrite (db_eta d3), Eg, Ea, Ev, Eu. cbn [d2 gr aliases vals undo with_indexes push_undo].
    apply (kv_step rv Hrv); auto.
    - split; [|split]; try (intros k; apply idx_rel_refl);
        unfold idx_ok; rewrite Ek; cbn [d2 indexes with_indexes push_undo]; apply idx_ok_app_new; assumption.
    - intros e (Ie1 & Ie2 & Ie3) Ve. exists (idx_remove (indexes e) key), (vals e).
      split; [reflexivity|]. split; [|exact Ve].
      split; [apply idx_ok_remove; assumption|]. split; [assumption|]. intros key'.
      rewrite idx_find_remove by assumption. destruct (dbv_eqb_spec key key') as [<-|Hne].
      + rewrite Enone. exact I.
      + specialize (Ie3 key'). rewrite Ef in Ie3 by congruence.
        cbn [d2 indexes with_indexes push_undo] in Ie3. rewrite idx_find_app_new in Ie3.
        destruct (idx_find (indexes d) key') eqn:E'; [exact Ie3|].
        destruct (dbv_eqb_spec key key'); [contradiction | exact Ie3].
  Qed.

  Definition cmd_to_index (key : dbvalue) (p : dbvalue * Z) : command := CInsertToIndex key (fst p) (snd p).

  Lemma push_fold_fields key l : forall d,
    let d1 := fold_left (fun acc (p : dbvalue * Z) => push_undo acc (CInsertToIndex key (fst p) (snd p))) l d in
    gr d1 = gr d /\ aliases d1 = aliases d /\ vals d1 = vals d /\ indexes d1 = indexes d /\
    undo d1 = rev (map (cmd_to_index key) l) ++ undo d.
  Proof.
    induction l as [|p r IH]; intros d; cbn [fold_left]; [repeat split|].
    destruct (IH (push_undo d (CInsertToIndex key (fst p) (snd p)))) as (H1 & H2 & H3 & H4 & H5).
    repeat split; try assumption. rewrite H5. cbn [map rev push_undo undo]. rewrite <- app_assoc. reflexivity.
  Qed.

  Lemma rollback_to_index key l : forall e,
    rollback_cmds rv e (map (cmd_to_index key) l) =
    ROk (with_indexes e (fold_left (fun ix (p : dbvalue * Z) => idx_insert_id ix key (fst p) (snd p)) l (indexes e))).
  Proof.
    induction l as [|p r IH]; intros e; cbn [map rollback_cmds fold_left].
    - rewrite (db_eta e) at 1. reflexivity.
    - cbn [cmd_to_index undo_one]. rewrite IH. reflexivity.
  Qed.

  Lemma fold_insert_id_find key l : forall ix key',
    idx_find (fold_left (fun ix (p : dbvalue * Z) => idx_insert_id ix key (fst p) (snd p)) l ix) key' =
    if dbv_eqb key key' then omap (fun l0 => l0 ++ l) (idx_find ix key') else idx_find ix key'.
  Proof.
    induction l as [|p r IH]; intros ix key'; cbn [fold_left].
    - destruct (dbv_eqb key key'); [|reflexivity]. destruct (idx_find ix key'); cbn [omap]; [rewrite app_nil_r|]; reflexivity.
    - rewrite IH. unfold idx_insert_id. rewrite idx_find_update'. destruct (dbv_eqb key key'); [|reflexivity].
      destruct (idx_find ix key'); cbn [omap]; [|reflexivity]. rewrite <- app_assoc. destruct p. reflexivity.
  Qed.

  Lemma fold_insert_id_ok key l : forall ix,
    idx_ok ix -> idx_ok (fold_left (fun ix (p : dbvalue * Z) => idx_insert_id ix key (fst p) (snd p)) l ix).
  Proof.
    induction l as [|p r IH]; intros ix Hok; cbn [fold_left]; [assumption|]. apply IH, idx_ok_update, Hok.
  Qed.

  Lemma step_remove_index d key :
    db_ok d -> db_ok (snd (remove_index d key)) /\ undoable rv d (snd (remove_index d key)).
  Proof.
    intros Hok. unfold remove_index.
    destruct (idx_find (indexes d) key) as [ids|] eqn:Eids; cbn [snd];
      [|split; [assumption | apply undoable_refl; assumption]].
    destruct (push_fold_fields key ids d) as (Eg & Ea & Ev & Ei & Eu).
    set (d1 := fold_left (fun acc (p : dbvalue * Z) => push_undo acc (CInsertToIndex key (fst p) (snd p))) ids d) in *.
    pose proof Hok as [G A V I]. pose proof I as (Iok & _ & _).
    set (dr := with_indexes (push_undo d1 (CInsertIndex key)) (idx_remove (indexes (push_undo d1 (CInsertIndex key))) key)).
    assert (Hfind : forall key', idx_find (indexes dr) key' = if dbv_eqb key key' then None else idx_find (indexes d) key').
    { intros key'. cbn [dr indexes with_indexes push_undo]. rewrite Ei. apply idx_find_remove, Iok. }
    assert (Iokr : idx_ok (indexes dr)).
    { cbn [dr indexes with_indexes push_undo]. rewrite Ei. apply idx_ok_remove, Iok. }
    split.
    - constructor; cbn [dr gr aliases vals indexes with_indexes push_undo]; rewrite ?Eg, ?Ea, ?Ev; auto.
      split; [|split]; auto. intros k. apply idx_rel_refl.
    - exists (CInsertIndex key :: rev (map (cmd_to_index key) ids)). split.
      { cbn [dr undo with_indexes push_undo]. rewrite Eu. reflexivity. }
      intros e [Ge Ae Ve Ie]. cbn [dr gr aliases vals with_indexes push_undo] in Ge, Ae, Ve.
      rewrite Eg in Ge. rewrite Ea in Ae. rewrite Ev in Ve.
      destruct Ie as (Ie1 & _ & Ie3).
      assert (Hnone : idx_find (indexes e) key = None).
      { specialize (Ie3 key). rewrite Hfind, dbv_eqb_refl in Ie3. destruct (idx_find (indexes e) key); [contradiction | reflexivity]. }
      cbn [rollback_cmds undo_one]. rewrite <- map_rev, rollback_to_index.
      eexists. split; [reflexivity|].
      constructor; cbn [gr aliases vals indexes with_indexes]; auto.
      split; [apply fold_insert_id_ok, idx_ok_app_new; assumption|]. split; [assumption|].
      intros key'. rewrite fold_insert_id_find, idx_find_app_new.
      specialize (Ie3 key'). rewrite Hfind in Ie3.
      destruct (dbv_eqb_spec key key') as [E|Hne].
      + subst key'. rewrite Hnone, Eids. cbn [omap idx_rel app]. symmetry. apply Permutation_rev.
      + destruct (idx_find (indexes e) key'); exact Ie3.
  Qed.
End Steps.
