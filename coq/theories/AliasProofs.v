(* AliasProofs.v — C10 at the level of DbModel.v: insert_alias / insert_new_alias / remove_alias /
   the alias handling of remove_node_db, and the two invariants
     alias_bij   : the alias map is one-to-one,
     alias_nodes : every aliased id is a positive id of an existing node. *)
From Agdb Require Import Bytes BytesProofs Graph DbModel ImapProofs DbFrameProofs.
Open Scope Z_scope.

(* two indexed maps that answer every lookup alike *)
Definition imap_equiv (m m' : imap) : Prop :=
  (forall x, imap_value m x = imap_value m' x) /\ (forall y, imap_key m y = imap_key m' y).

Lemma imap_equiv_refl m : imap_equiv m m.
Proof. split; reflexivity. Qed.

Lemma imap_equiv_trans m1 m2 m3 : imap_equiv m1 m2 -> imap_equiv m2 m3 -> imap_equiv m1 m3.
Proof. intros [A B] [C D]. split; intros; [rewrite A; apply C|rewrite B; apply D]. Qed.

Lemma imap_equiv_sym m1 m2 : imap_equiv m1 m2 -> imap_equiv m2 m1.
Proof. intros [A B]. split; intros; [now rewrite A|now rewrite B]. Qed.

(* the code removes the key twice (IndexedMap::remove_key, then Map::remove): the second is a no-op *)
Lemma remove_twice_equiv m a :
  imap_equiv (imap_remove_key (imap_remove_key m a) a) (imap_remove_key m a).
Proof.
  split.
  - intros x. rewrite !imap_remove_key_value. now destruct (bytes_eqb a x).
  - intros y. rewrite (imap_remove_key_key (imap_remove_key m a)).
    rewrite imap_remove_key_value, bytes_eqb_refl. reflexivity.
Qed.

Definition alias_bij (d : db) : Prop := bij (aliases d).
Definition alias_nodes (d : db) : Prop :=
  forall a id, imap_value (aliases d) a = Some id -> 0 < id /\ is_node (gr d) id = true.

Lemma alias_bij_new : alias_bij db_new.
Proof. exact bij_empty. Qed.

Lemma alias_nodes_new : alias_nodes db_new.
Proof. intros a id H. discriminate. Qed.

Section AliasDb.
  Variable rv : revision.

  Lemma insert_new_alias_aliases d id a :
    aliases (insert_new_alias d id a) = imap_insert (aliases d) a id.
  Proof. reflexivity. Qed.

  Lemma insert_new_alias_bij d id a : alias_bij d -> alias_bij (insert_new_alias d id a).
  Proof. apply bij_imap_insert. Qed.

  Definition insert_alias_map (m : imap) (id : Z) (a : bytes) : imap :=
    imap_insert (match imap_key m id with
                 | Some old => imap_remove_key (imap_remove_key m old) old
                 | None => m
                 end) a id.

  Lemma insert_alias_aliases d id a :
    aliases (insert_alias rv d id a) = insert_alias_map (aliases d) id a.
  Proof.
    unfold insert_alias, insert_alias_map.
    destruct (imap_key (aliases d) id) as [old|]; cbn zeta;
      destruct (fix_alias_steal_undo rv);
      repeat match goal with |- context [match ?x with Some _ => _ | None => _ end] => destruct x end;
      reflexivity.
  Qed.

  Lemma insert_alias_map_bij m id a : bij m -> bij (insert_alias_map m id a).
  Proof.
    intros Hb. unfold insert_alias_map. apply bij_imap_insert.
    destruct (imap_key m id); [|exact Hb]. now do 2 apply bij_imap_remove_key.
  Qed.

  (* on lookups insert_alias is exactly IndexedMap::insert *)
  Lemma insert_alias_map_equiv m id a :
    bij m -> imap_equiv (insert_alias_map m id a) (imap_insert m a id).
  Proof.
    intros Hb. unfold insert_alias_map.
    destruct (imap_key m id) as [old|] eqn:Eold; [|apply imap_equiv_refl].
    pose proof (proj2 (bij_value_key m old id Hb) Eold) as Hvold.
    assert (Hb1 : bij (imap_remove_key (imap_remove_key m old) old)) by now do 2 apply bij_imap_remove_key.
    destruct (remove_twice_equiv m old) as [Hv2 Hk2].
    split.
    - intros x. rewrite (imap_insert_value _ a id x Hb1), (imap_insert_value m a id x Hb).
      destruct (bytes_eqb a x); [reflexivity|].
      rewrite Hk2, imap_remove_key_key, Hvold, Z.eqb_refl, Eold.
      rewrite Hv2, imap_remove_key_value. reflexivity.
    - intros y. rewrite !imap_insert_key.
      destruct (Z.eqb_spec id y) as [->|Hiy]; [reflexivity|].
      rewrite Hv2, Hk2, imap_remove_key_value, imap_remove_key_key, Hvold.
      rewrite (proj2 (Z.eqb_neq id y) Hiy).
      destruct (bytes_eqb_spec old a) as [->|Hoa].
      + rewrite Hvold, (proj2 (Z.eqb_neq id y) Hiy). reflexivity.
      + reflexivity.
  Qed.

  Lemma insert_alias_bij d id a : alias_bij d -> alias_bij (insert_alias rv d id a).
  Proof. unfold alias_bij. rewrite insert_alias_aliases. apply insert_alias_map_bij. Qed.

  Lemma insert_alias_equiv d id a :
    alias_bij d -> imap_equiv (aliases (insert_alias rv d id a)) (imap_insert (aliases d) a id).
  Proof. intros Hb. rewrite insert_alias_aliases. now apply insert_alias_map_equiv. Qed.

  Lemma imap_insert_value_some m a id x y :
    bij m -> imap_value (imap_insert m a id) x = Some y ->
    (x = a /\ y = id) \/ (x <> a /\ y <> id /\ imap_value m x = Some y).
  Proof.
    intros Hb. rewrite (imap_insert_value m a id x Hb).
    destruct (bytes_eqb_spec a x) as [->|Hax].
    - intros H. inversion H. now left.
    - intros H. right. split; [congruence|].
      destruct (imap_key m id) as [k|] eqn:Ek.
      + destruct (bytes_eqb_spec k x) as [->|Hkx]; [discriminate|].
        split; [|exact H]. intros ->. apply (bij_value_key m x id Hb) in H. congruence.
      + split; [|exact H]. intros ->. apply (bij_value_key m x id Hb) in H. congruence.
  Qed.

  Lemma alias_nodes_insert d d' id a :
    alias_bij d -> alias_nodes d -> 0 < id -> is_node (gr d) id = true ->
    gr d' = gr d -> (forall x, imap_value (aliases d') x = imap_value (imap_insert (aliases d) a id) x) ->
    alias_nodes d'.
  Proof.
    intros Hb Hn Hpos Hnode Hg Hv x y H. rewrite Hg. rewrite Hv in H.
    apply (imap_insert_value_some _ _ _ _ _ Hb) in H.
    destruct H as [[-> ->]|(_ & _ & H)]; [tauto|now apply (Hn x)].
  Qed.

  Lemma insert_new_alias_nodes d id a :
    alias_bij d -> alias_nodes d -> 0 < id -> is_node (gr d) id = true ->
    alias_nodes (insert_new_alias d id a).
  Proof. intros Hb Hn Hpos Hnode. now apply (alias_nodes_insert d _ id a). Qed.

  Lemma insert_alias_nodes d id a :
    alias_bij d -> alias_nodes d -> 0 < id -> is_node (gr d) id = true ->
    alias_nodes (insert_alias rv d id a).
  Proof.
    intros Hb Hn Hpos Hnode. apply (alias_nodes_insert d _ id a); try assumption.
    - apply (insert_alias_gvi rv d id a).
    - apply (insert_alias_equiv d id a Hb).
  Qed.

  Lemma remove_alias_equiv d a :
    imap_equiv (aliases (snd (remove_alias d a))) (imap_remove_key (aliases d) a).
  Proof.
    unfold remove_alias. destruct (imap_value (aliases d) a) as [id|] eqn:E; cbn [snd].
    - apply remove_twice_equiv.
    - split.
      + intros x. rewrite imap_remove_key_value.
        destruct (bytes_eqb_spec a x) as [->|]; [exact E|reflexivity].
      + intros y. rewrite imap_remove_key_key, E. reflexivity.
  Qed.

  Lemma remove_alias_bij d a : alias_bij d -> alias_bij (snd (remove_alias d a)).
  Proof.
    unfold alias_bij, remove_alias. intros Hb.
    destruct (imap_value (aliases d) a); cbn [snd]; [|exact Hb].
    now do 2 apply bij_imap_remove_key.
  Qed.

  Lemma remove_alias_nodes d a : alias_nodes d -> alias_nodes (snd (remove_alias d a)).
  Proof.
    intros Hn x y H.
    destruct (remove_alias_gvi d a) as (Hg & _). rewrite Hg.
    rewrite (proj1 (remove_alias_equiv d a)), imap_remove_key_value in H.
    destruct (bytes_eqb a x); [discriminate|]. now apply (Hn x).
  Qed.

  Lemma remove_alias_value d a x :
    imap_value (aliases (snd (remove_alias d a))) x = if bytes_eqb a x then None else imap_value (aliases d) x.
  Proof. rewrite (proj1 (remove_alias_equiv d a)). apply imap_remove_key_value. Qed.

  Definition drop_alias (m : imap) (al : option bytes) : imap :=
    match al with Some a => imap_remove_key (imap_remove_key m a) a | None => m end.

  Lemma remove_edge_db_aliases d e : aliases (fst (remove_edge_db d e)) = aliases d.
  Proof. unfold remove_edge_db. destruct (Graph.remove_edge (gr d) e); reflexivity. Qed.

  Lemma remove_all_values_aliases d id : aliases (remove_all_values d id) = aliases d.
  Proof. apply (remove_all_values_ga d id). Qed.

  Lemma remove_node_db_aliases d n al :
    aliases (fst (remove_node_db d n al)) = drop_alias (aliases d) al.
  Proof.
    apply (remove_node_db_keeps (fun a => aliases a = drop_alias (aliases d) al)).
    - destruct al; reflexivity.
    - intros a ei f t g _ Ha _. now rewrite remove_all_values_aliases.
    - intros a g Ha _. exact Ha.
  Qed.

  Lemma remove_id_aliases d id :
    aliases (fst (remove_id d id)) =
    if graph_index (gr d) id && (0 <? id) then drop_alias (aliases d) (imap_key (aliases d) id) else aliases d.
  Proof.
    unfold remove_id. destruct (graph_index (gr d) id); [|reflexivity]. cbn [andb].
    destruct (0 <? id).
    - pose proof (remove_node_db_aliases d id (imap_key (aliases d) id)) as H.
      destruct (remove_node_db d id (imap_key (aliases d) id)) as [d1 [k|]]; cbn [fst] in *; [exact H|].
      now rewrite remove_all_values_aliases.
    - pose proof (remove_edge_db_aliases d id) as H.
      destruct (remove_edge_db d id) as [d1 [k|]]; cbn [fst] in *; [exact H|].
      now rewrite remove_all_values_aliases.
  Qed.

  Lemma remove_q_aliases d q :
    aliases (fst (remove_q d q)) =
    match q with
    | QId id => aliases (fst (remove_id d id))
    | QAlias a => match imap_value (aliases d) a with
                  | Some _ => drop_alias (aliases d) (Some a)
                  | None => aliases d
                  end
    end.
  Proof.
    destruct q as [id|a]; [reflexivity|]. cbn [remove_q].
    destruct (imap_value (aliases d) a) as [id|]; [|reflexivity].
    pose proof (remove_node_db_aliases d id (Some a)) as H.
    destruct (remove_node_db d id (Some a)) as [d1 [k|]]; cbn [fst] in *; [exact H|].
    now rewrite remove_all_values_aliases.
  Qed.

  Lemma drop_alias_bij m al : bij m -> bij (drop_alias m al).
  Proof. intros Hb. destruct al; [|exact Hb]. now do 2 apply bij_imap_remove_key. Qed.

  Lemma drop_alias_value m al x :
    imap_value (drop_alias m al) x =
    match al with Some a => if bytes_eqb a x then None else imap_value m x | None => imap_value m x end.
  Proof.
    destruct al as [a|]; [|reflexivity]. cbn [drop_alias].
    rewrite (proj1 (remove_twice_equiv m a)). apply imap_remove_key_value.
  Qed.

  Lemma drop_alias_of_id_gone m id x :
    bij m -> imap_value (drop_alias m (imap_key m id)) x <> Some id.
  Proof.
    intros Hb. rewrite drop_alias_value.
    destruct (imap_key m id) as [a|] eqn:Ea.
    - destruct (bytes_eqb_spec a x) as [->|Hax]; [discriminate|].
      intros H. apply (bij_value_key m x id Hb) in H. congruence.
    - intros H. apply (bij_value_key m x id Hb) in H. congruence.
  Qed.

  Lemma drop_alias_named_gone m a id x :
    bij m -> imap_value m a = Some id -> imap_value (drop_alias m (Some a)) x <> Some id.
  Proof.
    intros Hb Ha. rewrite drop_alias_value.
    destruct (bytes_eqb_spec a x) as [->|Hax]; [discriminate|].
    intros Hx. apply Hax. now apply (bij_injective m a x id).
  Qed.

  Lemma remove_id_bij d id : alias_bij d -> alias_bij (fst (remove_id d id)).
  Proof.
    unfold alias_bij. rewrite remove_id_aliases. intros Hb.
    destruct (graph_index (gr d) id && (0 <? id)); [now apply drop_alias_bij|exact Hb].
  Qed.

  Lemma remove_q_bij d q : alias_bij d -> alias_bij (fst (remove_q d q)).
  Proof.
    intros Hb. unfold alias_bij. rewrite remove_q_aliases. destruct q as [id|a].
    - now apply remove_id_bij.
    - destruct (imap_value (aliases d) a); [now apply drop_alias_bij|exact Hb].
  Qed.

  Lemma db_id_alias d a id : db_id d (QAlias a) = ROk id <-> imap_value (aliases d) a = Some id.
  Proof.
    cbn [db_id]. destruct (imap_value (aliases d) a) as [v|]; split; intros H; inversion H; reflexivity.
  Qed.

  Lemma db_id_alias_err d a : db_id d (QAlias a) = RErr ENotFound <-> imap_value (aliases d) a = None.
  Proof.
    cbn [db_id]. destruct (imap_value (aliases d) a) as [v|]; split; intros H; inversion H; reflexivity.
  Qed.
End AliasDb.
