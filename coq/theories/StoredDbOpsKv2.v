(* StoredDbOpsKv2.v — proofs (stored database): DbKeyValues::insert_value / reserve_capacity as programs over
   the storage compute DbModel's kvs_insert_value / kvs_reserve on the values component (kvrep) of a stored database:
   grow the slot vector up to the index (new slots 0), create the element's vector when the slot is 0 (DbVec::new + replace
   of the slot) or rebuild its handle (from_storage); the slot is allocated afterwards, every allocated slot stays so. *)
From Coq Require Import Permutation.
From Agdb Require Import Bytes DbValue DbModel StorageSpec Collections CollValues CollWp CollVecBase CollVec CollSep
  CollMap CollValuesProofs StoredDbRep StoredDbFrame StoredDbOps StoredDbOpsKv.
From Coq Require Import ZifyBool ZifyNat ZifyN.
Ltac Zify.zify_post_hook ::= Z.div_mod_to_equations.
Open Scope N_scope.

Definition so_index_ok (index : N) : Prop := index < 1152921504606846976.        (* 2^60 *)

(* one element's vector replaced under a frame *)
Lemma kvrep_slot_update g g' vh vs vi vw kvs n k bss k' bss' l' :
  kvrep g vh vs vi vw kvs -> nth_error vw n = Some (Some (k, bss)) ->
  vrepK g' k' bss' l' -> cv_index k' = cv_index k -> frame g g' (footK k bss) (footK k' bss') ->
  kvrep g' vh vs vi (cl_upd vw n (Some (k', bss'))) (kvs_set_nth kvs n l') /\
  frame g g' (kvfoot vh vs vw) (kvfoot vh vs (cl_upd vw n (Some (k', bss')))).
Proof.
  intros H Hw HR' Hi Hf. destruct (kvrep_at _ _ _ _ _ _ _ _ _ H Hw) as (Hn & _).
  destruct (sd_kv_rep_at _ _ _ _ _ (kr_kv _ _ _ _ _ _ H) Hn) as (ia & i & ib & a & w & b & ka & l & kb & -> & -> & -> & Lia & La & Lka & _ & Bs & _).
  rewrite <- La, nth_error_mid in Hw. injection Hw as ->. destruct Bs as (Hnz & Hki & _).
  rewrite <- La, cl_upd_mid, La, <- Lka, kvs_set_nth_mid.
  destruct (kv_step_slot (footK k' bss') n H Lia La Lka Hf) as (A & Ba & Bb & N' & Fr).
  { eapply vrep_nodup. exact HR'. }
  split; [|unfold kvfoot at 2; rewrite sd_kv_foot_mid; exact Fr].
  constructor; [exact A| |unfold kvfoot; rewrite sd_kv_foot_mid; exact N'].
  apply sd_kv_rep_mid; [exact Ba| |exact Bb]. cbn [sd_kv_slot_rep]. split; [exact Hnz|]. split; [congruence|exact HR'].
Qed.

(* the footprint of a vector depends on the handle's index only *)
Lemma footK_index k k' bss : cv_index k' = cv_index k -> footK k' bss = footK k bss.
Proof. intros E. unfold foot. rewrite E. reflexivity. Qed.

(* after the element's footprint was replaced by that of w' (kv_step_slot), its slot is rewritten in the slot vector *)
Lemma kv_slot_write {g1 g2 vh vs vs2 ia ib a b ka kb} j w' l' :
  sd_kv_rep g1 ia a ka -> sd_kv_rep g1 ib b kb -> live_all g1 (slotfoot w') ->
  NoDup (footU vh vs ++ sd_kv_foot a ++ slotfoot w' ++ sd_kv_foot b) ->
  vrepU g2 vh vs2 (ia ++ j :: ib) -> frame g1 g2 (footU vh vs) (footU vh vs2) ->
  (forall g', (forall x, In x (slotfoot w') -> g' x = g1 x) -> sd_kv_slot_rep g' j w' l') ->
  kvrep g2 vh vs2 (ia ++ j :: ib) (a ++ w' :: b) (ka ++ l' :: kb) /\
  frame g1 g2 (footU vh vs ++ sd_kv_foot a ++ slotfoot w' ++ sd_kv_foot b) (kvfoot vh vs2 (a ++ w' :: b)).
Proof.
  intros Ba Bb Hw N1 R2 F2 Hs.
  assert (Hlive : live_all g1 (sd_kv_foot a ++ slotfoot w' ++ sd_kv_foot b)).
  { apply live_all_app. split; [eapply sd_kv_live; exact Ba|]. apply live_all_app. split; [exact Hw|eapply sd_kv_live; exact Bb]. }
  destruct (kv_step_vec_raw g1 g2 vh vs vh vs2 _ _ N1 Hlive R2 F2) as (N2 & Fr2 & Same).
  unfold kvfoot. rewrite sd_kv_foot_mid. split; [|exact Fr2].
  constructor; [exact R2| |unfold kvfoot; rewrite sd_kv_foot_mid; exact N2].
  apply sd_kv_rep_mid.
  - eapply sd_transport_kv; [exact Ba|]. intros x Hx. apply Same. apply in_or_app. left. exact Hx.
  - apply Hs. intros x Hx. apply Same. apply in_or_app. right. apply in_or_app. left. exact Hx.
  - eapply sd_transport_kv; [exact Bb|]. intros x Hx. apply Same. apply in_or_app. right. apply in_or_app. right. exact Hx.
Qed.

Section KvOps.
  Variable fl : bool.

  Lemma so_kv_grow_spec vh vs vi vw kvs index sp (Q : cres cv_vec -> spec -> Prop) :
    kvrep (hp sp) vh vs vi vw kvs -> so_index_ok index ->
    (forall vh1 vs1 vi1 vw1 sp',
        kvrep (hp sp') vh1 vs1 vi1 vw1 (kvs_pad kvs (N.to_nat index)) -> cv_index vh1 = cv_index vh -> sdepth sp' = sdepth sp ->
        frame (hp sp) (hp sp') (kvfoot vh vs vw) (kvfoot vh1 vs1 vw1) -> slot_keep vi vi1 -> Q (CrOk vh1) sp') ->
    cwp fl (if cv_len vh <=? index then cv_resize N ce_u64 vh (index + 1) 0 else CRet vh) sp Q.
  Proof.
    intros H Hix HQ. pose proof H as [A B C]. unfold so_index_ok in Hix.
    destruct (sd_kv_rep_lengths _ _ _ _ B) as [L1 L2].
    pose proof (vr_len _ _ _ _ _ _ _ A) as Hlen. unfold lenN in Hlen.
    destruct (N.leb_spec (cv_len vh) index) as [Hle|Hlt].
    - eapply cv_resize_spec; [exact A|cbn; unfold two64; lia|cbn [ce_size ce_u64]; unfold two64; lia|].
      intros vh1 vs1 sp1 R1 I1 D1 F1.
      destruct (kv_step_vec _ _ _ _ _ _ _ _ _ _ H R1 F1) as (B1 & N1 & Fr1).
      set (k := (S (N.to_nat index) - length kvs)%nat).
      assert (Er : cl_resize vi (N.to_nat (index + 1)) 0 = vi ++ repeat 0 k).
      { unfold cl_resize, k. rewrite firstn_all2 by lia. f_equal. f_equal. lia. }
      rewrite Er in R1.
      apply (HQ vh1 vs1 (vi ++ repeat 0 k) (vw ++ repeat None k) sp1); [|exact I1|exact D1| |apply slot_keep_app].
      + constructor; [exact R1| |].
        * unfold kvs_pad. fold k. apply sd_kv_rep_app; [exact B1|apply sd_kv_rep_none].
        * unfold kvfoot in *. rewrite sd_kv_foot_app, sd_kv_foot_none, app_nil_r. exact N1.
      + unfold kvfoot in *. rewrite sd_kv_foot_app, sd_kv_foot_none, app_nil_r. exact Fr1.
    - cbn [cwp]. apply (HQ vh vs vi vw sp); [|reflexivity|reflexivity|apply frame_refl; intros j; reflexivity|apply slot_keep_refl].
      rewrite kvs_pad_in by lia. exact H.
  Qed.

  Lemma so_kv_slot_spec {R} (rest : cv_vec -> cprog R) vh vs vi vw kvs index sp (Q : cres R -> spec -> Prop) :
    kvrep (hp sp) vh vs vi vw kvs -> (N.to_nat index < length kvs)%nat ->
    (forall vs1 vi1 vw1 k bss sp',
        kvrep (hp sp') vh vs1 vi1 vw1 kvs -> nth_error vw1 (N.to_nat index) = Some (Some (k, bss)) ->
        sdepth sp' = sdepth sp -> frame (hp sp) (hp sp') (kvfoot vh vs vw) (kvfoot vh vs1 vw1) ->
        slot_keep vi vi1 -> cwp fl (rest k) sp' Q) ->
    cwp fl (si <~ cv_value N ce_u64 vh index ;;
            k <~ (if si =? 0 then k0 <~ cv_new ;; cv_replace N ce_u64 vh index (cv_index k0) ;;~ CRet k0
                  else cv_from_storage kv ce_dbkv si) ;; rest k) sp Q.
  Proof.
    intros H Hn HQ. pose proof H as [A B C].
    destruct (sd_kv_rep_at _ _ _ _ _ B Hn) as (ia & i & ib & a & w & b & ka & l & kb & -> & -> & -> & Lia & La & Lka & Ba & Bs & Bb).
    assert (Ew : forall w', nth_error (a ++ w' :: b) (N.to_nat index) = Some w') by (intros w'; rewrite <- La; apply nth_error_mid).
    apply cwp_bind. eapply cv_value_spec; [exact A|]. rewrite <- Lia, nth_error_mid. cbn [kont].
    destruct w as [[k bss]|]; cbn [sd_kv_slot_rep] in Bs.
    - (* the element has a vector: from_storage *)
      destruct Bs as (Hnz & Hki & HR). destruct (N.eqb_spec i 0) as [X|_]; [contradiction|].
      apply cwp_bind. rewrite <- Hki. eapply cv_from_storage_spec; [exact HR|]. intros k' HR' Hi' Hl'. cbn [kont].
      destruct (kvrep_slot_update _ _ _ _ _ _ _ _ _ _ _ _ _ H (Ew _) HR' Hi') as [H' F'].
      { rewrite (footK_index _ _ _ Hi'). apply frame_refl. intros j; reflexivity. }
      rewrite <- La, cl_upd_mid, La, <- Lka, kvs_set_nth_mid in H'. rewrite <- La, cl_upd_mid in F'.
      eapply (HQ vs _ _ k' bss sp); [exact H'|apply Ew|reflexivity|exact F'|apply slot_keep_refl].
    - (* no vector yet: DbVec::new, then the slot is replaced by its index *)
      destruct Bs as [-> ->]. rewrite N.eqb_refl.
      apply cwp_bind. apply cwp_bind. apply (cv_new_spec kv ce_dbkv law_dbkv fl). intros k0 sp1 R0 Z0 B0 N0 D0 F0. cbn [kont].
      destruct (kv_step_slot (footK k0 []) _ H Lia La Lka F0)
        as (A1 & Ba1 & Bb1 & N1 & Fr1); [eapply vrep_nodup; exact R0|].
      apply cwp_bind.
      eapply cv_replace_spec; [exact A1|cbn; exact B0|]. rewrite <- Lia, nth_error_mid.
      intros vs2 sp2 R2 D2 F2. cbn [kont cwp]. rewrite cl_upd_mid in R2.
      destruct (kv_slot_write (cv_index k0) (Some (k0, [])) [] Ba1 Bb1 (vrep_live _ _ _ _ _ _ _ R0) N1 R2 F2) as [H2 Fr2].
      { intros g' Same. split; [exact Z0|]. split; [reflexivity|]. eapply vrep_transport; [exact R0|exact Same]. }
      eapply (HQ vs2 _ _ k0 [] sp2); [exact H2|apply Ew|congruence| |apply slot_keep_mid0].
      eapply frame_trans; [exact Fr1|exact Fr2].
  Qed.

  Lemma so_kv_open_slot_spec vh vs vi vw kvs index sp (Q : cres (cv_vec * cv_vec) -> spec -> Prop) :
    kvrep (hp sp) vh vs vi vw kvs -> so_index_ok index ->
    (forall vh1 vs1 vi1 vw1 k bss sp',
        kvrep (hp sp') vh1 vs1 vi1 vw1 (kvs_pad kvs (N.to_nat index)) ->
        nth_error vw1 (N.to_nat index) = Some (Some (k, bss)) ->
        cv_index vh1 = cv_index vh -> sdepth sp' = sdepth sp ->
        frame (hp sp) (hp sp') (kvfoot vh vs vw) (kvfoot vh1 vs1 vw1) ->
        slot_keep vi vi1 -> Q (CrOk (vh1, k)) sp') ->
    cwp fl (so_kv_open_slot vh index) sp Q.
  Proof.
    intros H Hix HQ. unfold so_kv_open_slot.
    apply cwp_bind. eapply so_kv_grow_spec; [exact H|exact Hix|].
    intros vh1 vs1 vi1 vw1 sp1 H1 I1 D1 F1 K1. cbn [kont].
    eapply so_kv_slot_spec; [exact H1|apply kvs_pad_length|].
    intros vs2 vi2 vw2 k bss sp2 H2 Hw D2 F2 K2. cbn [cwp].
    eapply HQ; [exact H2|exact Hw|exact I1|congruence|eapply frame_trans; eassumption|eapply slot_keep_trans; eassumption].
  Qed.

  (* DbKeyValues::insert_value *)
  Theorem so_kv_insert_value_spec vh vs vi vw kvs index x sp (Q : cres cv_vec -> spec -> Prop) :
    kvrep (hp sp) vh vs vi vw kvs -> so_index_ok index -> el_valid law_dbkv x ->
    8 + ce_size ce_dbkv * (lenN (nth (N.to_nat index) kvs []) + 1) < two64 ->
    (forall vh1 vs1 vi1 vw1 sp',
        kvrep (hp sp') vh1 vs1 vi1 vw1 (kvs_set_nth kvs (N.to_nat index) (nth (N.to_nat index) kvs [] ++ [x])) ->
        cv_index vh1 = cv_index vh -> sdepth sp' = sdepth sp ->
        frame (hp sp) (hp sp') (kvfoot vh vs vw) (kvfoot vh1 vs1 vw1) ->
        slot_keep vi vi1 -> nth (N.to_nat index) vi1 0 <> 0 -> Q (CrOk vh1) sp') ->
    cwp fl (so_kv_insert_value vh index x) sp Q.
  Proof.
    intros H Hix Hx Hfit HQ. unfold so_kv_insert_value.
    apply cwp_bind. eapply so_kv_open_slot_spec; [exact H|exact Hix|].
    intros vh1 vs1 vi1 vw1 k bss sp1 H1 Hw I1 D1 F1 K1. cbn [kont fst snd].
    destruct (kvrep_at _ _ _ _ _ _ _ _ _ H1 Hw) as (_ & Hnz & _ & HR). rewrite kvs_pad_nth in HR.
    apply cwp_bind. eapply cv_reserve_spec; [exact HR|]. intros k1 sp2 HR1 Ik1 _ D2 F2. cbn [kont].
    apply cwp_bind. eapply cv_push_spec; [exact HR1|exact Hx|exact Hfit|].
    intros k2 bss2 sp3 HR2 Ik2 D3 F3. cbn [kont cwp].
    destruct (kvrep_slot_update _ _ _ _ _ _ _ _ _ _ _ _ _ H1 Hw HR2) as [H3 Fr3];
      [congruence|eapply frame_trans; eassumption|].
    rewrite kvs_set_nth_pad in H3.
    eapply HQ; [exact H3|exact I1|congruence|eapply frame_trans; eassumption|exact K1|exact Hnz].
  Qed.

  (* DbKeyValues::reserve_capacity *)
  Theorem so_kv_reserve_capacity_spec vh vs vi vw kvs index len sp (Q : cres cv_vec -> spec -> Prop) :
    kvrep (hp sp) vh vs vi vw kvs -> so_index_ok index ->
    (forall vh1 vs1 vi1 vw1 sp',
        kvrep (hp sp') vh1 vs1 vi1 vw1 (kvs_pad kvs (N.to_nat index)) ->
        cv_index vh1 = cv_index vh -> sdepth sp' = sdepth sp ->
        frame (hp sp) (hp sp') (kvfoot vh vs vw) (kvfoot vh1 vs1 vw1) ->
        slot_keep vi vi1 -> nth (N.to_nat index) vi1 0 <> 0 -> Q (CrOk vh1) sp') ->
    cwp fl (so_kv_reserve_capacity vh index len) sp Q.
  Proof.
    intros H Hix HQ. unfold so_kv_reserve_capacity.
    apply cwp_bind. eapply so_kv_open_slot_spec; [exact H|exact Hix|].
    intros vh1 vs1 vi1 vw1 k bss sp1 H1 Hw I1 D1 F1 K1. cbn [kont fst snd].
    destruct (kvrep_at _ _ _ _ _ _ _ _ _ H1 Hw) as (_ & Hnz & _ & HR).
    apply cwp_bind. eapply cv_reserve_spec; [exact HR|]. intros k1 sp2 HR1 Ik1 _ D2 F2. cbn [kont cwp].
    destruct (kvrep_slot_update _ _ _ _ _ _ _ _ _ _ _ _ _ H1 Hw HR1 Ik1 F2) as [H3 Fr3].
    rewrite kvs_set_nth_same in H3 by apply kvs_pad_length.
    eapply HQ; [exact H3|exact I1|congruence|eapply frame_trans; eassumption|exact K1|exact Hnz].
  Qed.
End KvOps.
