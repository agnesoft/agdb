(* PathsProofs.v — C26.  Joining a normal component pushes exactly that component (`resolve_join`), so for
   valid names every file of database (o, d) resolves to `r_extend (resolve data) (o :: rel_path k d)`
   (`files_resolved`).  Containment is then immediate, and disjointness is the injectivity of the last
   component `k_name k d` in d for valid d (`name_inj`). *)
From Agdb Require Import Bytes BytesProofs Paths.
From Coq Require String.
Import String.StringSyntax.
Local Open Scope nat_scope.

(* byte-string literals for statements and witnesses (not extracted) *)
Definition b (s : String.string) : bytes := String.list_byte_of_string s.
Arguments b s%string_scope.

Lemma literals :
  c_slash = x2f /\ c_dot = x2e /\ c_backslash = x5c /\ c_nul = x00 /\
  [c_slash] = b "/" /\ [c_dot] = b "." /\ [c_backslash] = b "\" /\
  s_dot = b "." /\ s_dotdot = b ".." /\ s_backups = b "backups" /\ s_audit = b "audit" /\
  s_bak = b ".bak" /\ s_log = b ".log" /\ s_audit_ext = b ".audit".
Proof. repeat split. Qed.

Lemma is_sep_iff c : is_sep c = true <-> c = x2f.
Proof. unfold is_sep, c_slash. apply byte_eqb_eq. Qed.

Lemma is_nil_iff n : is_nil n = true <-> n = [].
Proof. destruct n; cbn [is_nil]; split; congruence. Qed.

Lemma existsb_byte x n : existsb (fun c => byte_eqb c x) n = true <-> In x n.
Proof.
  induction n as [|y n IH]; cbn [existsb In]; [split; [discriminate|contradiction]|].
  rewrite orb_true_iff, byte_eqb_eq, IH. reflexivity.
Qed.

Lemma existsb_anysep n : existsb is_anysep n = true <-> In x2f n \/ In x5c n.
Proof.
  induction n as [|y n IH]; cbn [existsb In]; [intuition discriminate|].
  unfold is_anysep at 1. rewrite !orb_true_iff, !byte_eqb_eq, IH. unfold c_slash, c_backslash.
  intuition congruence.
Qed.

Lemma starts_with_iff pre n : starts_with pre n = true <-> exists r, n = pre ++ r.
Proof.
  revert n; induction pre as [|x pre IH]; intros n; cbn [starts_with].
  - split; [intros _; exists n; reflexivity|reflexivity].
  - destruct n as [|y n].
    + split; [discriminate|intros [r Hr]; discriminate].
    + rewrite andb_true_iff, byte_eqb_eq, IH. split.
      * intros [-> [r ->]]. exists r. reflexivity.
      * intros [r Hr]. cbn [app] in Hr. injection Hr as -> ->. split; [reflexivity|exists r; reflexivity].
Qed.

Lemma ends_with_iff suf n : ends_with suf n = true <-> exists a, n = a ++ suf.
Proof.
  unfold ends_with. rewrite starts_with_iff. split.
  - intros [r Hr]. exists (rev r).
    rewrite <- (rev_involutive n), Hr, rev_app_distr, rev_involutive. reflexivity.
  - intros [a ->]. exists (rev a). apply rev_app_distr.
Qed.

(* what it means for n to break the rule that defect x reports *)
Definition violates (x : name_defect) (n : name) : Prop :=
  match x with
  | NEmpty => n = []
  | NNul => In x00 n
  | NSeparator => In x2f n \/ In x5c n
  | NDotName => n = s_dot \/ n = s_dotdot
  | NLeadingDot => exists r, n = x2e :: r
  | NReserved => n = s_audit \/ n = s_backups
  | NReservedSuffix => exists a, n = a ++ s_bak \/ n = a ++ s_log \/ n = a ++ s_audit_ext
  end.

Definition name_rules (n : name) : Prop :=
  n <> [] /\
  ~ In x00 n /\
  (~ In x2f n /\ ~ In x5c n) /\
  (n <> s_dot /\ n <> s_dotdot) /\
  (forall r, n <> x2e :: r) /\
  (n <> s_audit /\ n <> s_backups) /\
  (forall a, n <> a ++ s_bak) /\ (forall a, n <> a ++ s_log) /\ (forall a, n <> a ++ s_audit_ext).

(* the one walk through the tests of name_defect_of: a reported defect is a rule really
   broken, and when none is reported all rules hold *)
Lemma name_defect_spec n :
  match name_defect_of n with Some x => violates x n | None => name_rules n end.
Proof.
  unfold name_defect_of.
  destruct (is_nil n) eqn:E1. { apply is_nil_iff. exact E1. }
  destruct (existsb _ n) eqn:E2. { apply existsb_byte in E2. exact E2. }
  destruct (existsb is_anysep n) eqn:E3. { apply existsb_anysep. exact E3. }
  destruct (bytes_eqb n s_dot || _) eqn:E4. { rewrite orb_true_iff, !bytes_eqb_eq in E4. exact E4. }
  destruct (starts_with s_dot n) eqn:E5. { apply starts_with_iff in E5. exact E5. }
  destruct (bytes_eqb n s_audit || _) eqn:E6. { rewrite orb_true_iff, !bytes_eqb_eq in E6. exact E6. }
  destruct (ends_with s_bak n || _ || _) eqn:E7.
  { rewrite !orb_true_iff, !ends_with_iff in E7. destruct E7 as [[[a E]|[a E]]|[a E]]; exists a; auto. }
  apply not_true_iff_false in E1, E2, E3, E4, E5, E6, E7.
  rewrite is_nil_iff in E1. rewrite existsb_byte in E2. rewrite existsb_anysep in E3.
  rewrite orb_true_iff, !bytes_eqb_eq in E4, E6. rewrite starts_with_iff in E5.
  rewrite !orb_true_iff, !ends_with_iff in E7.
  unfold name_rules. firstorder.
Qed.

Lemma valid_name_rules n : valid_name n = true <-> name_rules n.
Proof.
  unfold valid_name. pose proof (name_defect_spec n) as S.
  destruct (name_defect_of n) as [x|]; [|tauto].
  split; [discriminate|]. intros R. exfalso. unfold name_rules in R.
  destruct x; cbn [violates] in S; firstorder.
Qed.

Lemma split_sep_nonnil p : split_sep p <> [].
Proof.
  destruct p as [|c r]; cbn [split_sep]; [discriminate|].
  destruct (is_sep c); [discriminate|]. destruct (split_sep r); discriminate.
Qed.

Lemma split_sep_nosep c : ~ In x2f c -> split_sep c = [c].
Proof.
  induction c as [|x c IH]; intros H; cbn [split_sep]; [reflexivity|].
  destruct (is_sep x) eqn:E.
  - apply is_sep_iff in E. subst x. exfalso. apply H. left. reflexivity.
  - rewrite IH; [reflexivity|]. intros Hin. apply H. right. exact Hin.
Qed.

Lemma split_sep_app a c : split_sep (a ++ x2f :: c) = split_sep a ++ split_sep c.
Proof.
  induction a as [|x a IH]; cbn [app split_sep].
  - replace (is_sep x2f) with true by reflexivity. reflexivity.
  - rewrite IH. destruct (is_sep x); [reflexivity|].
    destruct (split_sep a) as [|h t] eqn:E; [exfalso; exact (split_sep_nonnil a E)|].
    reflexivity.
Qed.

Lemma components_single c : c <> [] -> ~ In x2f c -> components c = [c].
Proof.
  intros Hne Hns. unfold components. rewrite split_sep_nosep by exact Hns.
  destruct c; [congruence|reflexivity].
Qed.

Lemma components_app_sep a c :
  c <> [] -> ~ In x2f c -> components (a ++ x2f :: c) = components a ++ [c].
Proof.
  intros Hne Hns. unfold components.
  rewrite split_sep_app, filter_app, (split_sep_nosep c Hns).
  destruct c; [congruence|reflexivity].
Qed.

Lemma components_trailing a : components (a ++ [x2f]) = components a.
Proof.
  unfold components. rewrite split_sep_app, filter_app.
  change (filter (fun c => negb (is_nil c)) (split_sep [])) with (@nil bytes).
  apply app_nil_r.
Qed.

Lemma last_is_sep_true a : last_is_sep a = true -> exists a', a = a' ++ [x2f].
Proof.
  unfold last_is_sep. destruct (rev a) as [|c t] eqn:E; [discriminate|].
  intros H. apply is_sep_iff in H. subst c. exists (rev t).
  rewrite <- (rev_involutive a), E. reflexivity.
Qed.

Lemma is_abs_nosep c : ~ In x2f c -> is_abs c = false.
Proof.
  destruct c as [|x c]; [reflexivity|]. cbn [is_abs]. intros H.
  destruct (is_sep x) eqn:E; [|reflexivity].
  apply is_sep_iff in E. subst x. exfalso. apply H. left. reflexivity.
Qed.

Lemma join_rel a c :
  is_abs c = false ->
  join a c = if is_nil a || last_is_sep a then a ++ c else a ++ x2f :: c.
Proof. unfold join. intros ->. reflexivity. Qed.

Lemma components_join p c :
  c <> [] -> ~ In x2f c -> components (join p c) = components p ++ [c].
Proof.
  intros Hne Hns. rewrite join_rel by (apply is_abs_nosep; exact Hns).
  destruct p as [|x p'].
  - cbn [is_nil orb app]. rewrite components_single by assumption. reflexivity.
  - cbn [is_nil orb]. destruct (last_is_sep (x :: p')) eqn:E.
    + apply last_is_sep_true in E as [a' Ea]. rewrite Ea, <- app_assoc. cbn [app].
      rewrite components_app_sep, components_trailing by assumption. reflexivity.
    + apply components_app_sep; assumption.
Qed.

Lemma is_abs_join p c : ~ In x2f c -> is_abs (join p c) = is_abs p.
Proof.
  intros Hns. rewrite join_rel by (apply is_abs_nosep; exact Hns).
  destruct p as [|x p'].
  - apply is_abs_nosep. exact Hns.
  - (* cbn first: left to the kernel, the comparison unfolds byte_eqb on the variable x *)
    destruct (is_nil (x :: p') || last_is_sep (x :: p')); cbn [app is_abs]; reflexivity.
Qed.

Lemma normal_comp_spec c :
  normal_comp c = true <-> c <> [] /\ ~ In x2f c /\ c <> s_dot /\ c <> s_dotdot.
Proof.
  unfold normal_comp. rewrite !andb_true_iff, !negb_true_iff, <- !not_true_iff_false.
  rewrite is_nil_iff, (existsb_byte x2f c), !bytes_eqb_eq. tauto.
Qed.

(* the key lemma: joining a normal component pushes it *)
Lemma resolve_join p c : normal_comp c = true -> resolve (join p c) = r_extend (resolve p) [c].
Proof.
  intros H. apply normal_comp_spec in H as (H1 & H2 & H3 & H4).
  unfold resolve, r_extend. cbn [r_abs r_ups r_comps].
  rewrite is_abs_join, components_join by assumption.
  rewrite fold_left_app. cbn [fold_left].
  set (st := fold_left _ (components p) _).
  unfold resolve_step.
  rewrite (bytes_eqb_neq _ _ H3), (bytes_eqb_neq _ _ H4).
  cbn [fst snd rev]. reflexivity.
Qed.

Lemma extend_extend r l1 l2 : r_extend (r_extend r l1) l2 = r_extend r (l1 ++ l2).
Proof. unfold r_extend. cbn [r_abs r_ups r_comps]. rewrite app_assoc. reflexivity. Qed.

Lemma extend_inj r l l' : r_extend r l = r_extend r l' -> l = l'.
Proof. unfold r_extend. intros [= H]. exact (app_inv_head _ _ _ H). Qed.

Lemma strict_prefix_app D a c : strict_prefix (D ++ a) (D ++ c) = strict_prefix a c.
Proof.
  induction D as [|x D IH]; cbn [app strict_prefix]; [reflexivity|].
  rewrite bytes_eqb_refl, IH. reflexivity.
Qed.

Lemma strict_prefix_true a c : strict_prefix a c = true -> exists r, c = a ++ r.
Proof.
  revert c; induction a as [|x a IH]; intros c H.
  - exists c. reflexivity.
  - destruct c as [|y c]; cbn [strict_prefix] in H; [discriminate|].
    apply andb_true_iff in H as [Hx Hr]. apply bytes_eqb_eq in Hx. subst y.
    destruct (IH c Hr) as [r ->]. exists r. reflexivity.
Qed.

Lemma inside_extend r l l' : inside (r_extend r l) (r_extend r l') = strict_prefix l l'.
Proof.
  unfold inside, r_extend. cbn [r_abs r_ups r_comps].
  rewrite eqb_reflx, Nat.eqb_refl, strict_prefix_app. reflexivity.
Qed.

Lemma extend_apart r l l' :
  (forall t, l' <> l ++ t) ->
  r_extend r l <> r_extend r l' /\ inside (r_extend r l) (r_extend r l') = false.
Proof.
  intros H. split.
  - intros E. apply extend_inj in E. apply (H []). rewrite app_nil_r. symmetry. exact E.
  - rewrite inside_extend. apply not_true_iff_false. intros E.
    apply strict_prefix_true in E as [t E]. exact (H t E).
Qed.

Lemma comps_eqb_eq a c : comps_eqb a c = true <-> a = c.
Proof.
  revert c; induction a as [|x a IH]; intros [|y c]; cbn [comps_eqb];
    try (split; [discriminate|discriminate]); [split; reflexivity|].
  rewrite andb_true_iff, IH, bytes_eqb_eq.
  split; [intros [-> ->]; reflexivity|intros [= -> ->]; tauto].
Qed.

Lemma rpath_eqb_eq r r' : rpath_eqb r r' = true <-> r = r'.
Proof.
  destruct r as [a u c], r' as [a' u' c']. unfold rpath_eqb. cbn [r_abs r_ups r_comps].
  rewrite !andb_true_iff, eqb_true_iff, Nat.eqb_eq, comps_eqb_eq.
  split; [intros [[-> ->] ->]; reflexivity|intros [= -> -> ->]; tauto].
Qed.

Lemma valid_normal n : valid_name n = true -> normal_comp n = true.
Proof.
  intros H. apply valid_name_rules in H as (H1 & _ & [H3 _] & H4 & _).
  apply normal_comp_spec. tauto.
Qed.

Lemma normal_dot d : normal_comp d = true -> normal_comp (dot_name d) = true.
Proof.
  rewrite !normal_comp_spec. intros (H1 & H2 & H3 & _). unfold dot_name, c_dot. repeat split.
  - discriminate.
  - intros [E|E]; [discriminate|exact (H2 E)].
  - intros [= E]. exact (H1 E).
  - intros [= E]. exact (H3 E).
Qed.

Lemma normal_app a c :
  normal_comp a = true -> normal_comp c = true -> normal_comp (a ++ c) = true.
Proof.
  rewrite !normal_comp_spec. intros (A1 & A2 & _) (C1 & C2 & C3 & _).
  destruct a as [|x a]; [congruence|]. cbn [app]. repeat split.
  - discriminate.
  - change (~ In x2f ((x :: a) ++ c)). rewrite in_app_iff. tauto.
  - intros [= _ E]. apply app_eq_nil in E as [_ E]. exact (C1 E).
  - intros [= _ E]. apply app_eq_unit in E as [[_ E]|[_ E]]; [exact (C3 E)|exact (C1 E)].
Qed.

(* the WAL file: agdb's name for it is the server's name when no '/' is in the names *)

Lemma insert_none sep d : ~ In sep d -> insert_dot_after_last sep d = None.
Proof.
  induction d as [|x d IH]; cbn [insert_dot_after_last]; intros H; [reflexivity|].
  rewrite IH by (intros Hin; apply H; right; exact Hin).
  destruct (byte_eqb x sep) eqn:E; [|reflexivity].
  apply byte_eqb_eq in E. subst x. exfalso. apply H. left. reflexivity.
Qed.

Lemma insert_last sep a d :
  ~ In sep d -> insert_dot_after_last sep (a ++ sep :: d) = Some (a ++ sep :: x2e :: d).
Proof.
  intros H. induction a as [|x a IH]; cbn [app insert_dot_after_last].
  - rewrite insert_none by exact H.
    replace (byte_eqb sep sep) with true by (symmetry; apply byte_eqb_eq; reflexivity).
    reflexivity.
  - rewrite IH. reflexivity.
Qed.

(* joining a component leaves a path that is not directory-like: not empty, not ending in '/' *)
Lemma join_not_dir p c :
  c <> [] -> ~ In x2f c -> is_nil (join p c) || last_is_sep (join p c) = false.
Proof.
  intros Hne Hns. assert (exists X x, join p c = X ++ [x] /\ x <> x2f) as (X & x & -> & Hx).
  { rewrite join_rel by (apply is_abs_nosep; exact Hns). destruct (exists_last Hne) as (c' & x & ->).
    assert (x <> x2f) by (intros ->; apply Hns, in_or_app; right; now left).
    destruct (_ || _); [exists (p ++ c'), x|exists (p ++ x2f :: c'), x]; now rewrite <- app_assoc. }
  unfold last_is_sep. rewrite rev_app_distr. cbn [rev app].
  destruct (is_sep x) eqn:E; [|now destruct X]. now apply is_sep_iff in E.
Qed.

Lemma wal_agrees data o d :
  valid_name o = true -> valid_name d = true ->
  wal_filename (db_file data o d) = server_wal data o d.
Proof.
  intros Ho Hd. apply valid_normal, normal_comp_spec in Ho, Hd.
  destruct Ho as (Hne & Hns & _), Hd as (_ & Hd & _). unfold server_wal, db_file.
  rewrite (join_rel (join data o) d) by (apply is_abs_nosep; exact Hd).
  rewrite (join_rel (join data o) (dot_name d)) by reflexivity.
  rewrite (join_not_dir data o Hne Hns).
  unfold wal_filename, c_slash. rewrite insert_last by exact Hd. reflexivity.
Qed.

Lemma files_resolved data o d k f :
  valid_name o = true -> valid_name d = true ->
  In (k, f) (files data o d) ->
  resolve f = r_extend (resolve data) (o :: rel_path k d).
Proof.
  intros Ho Hd Hin. unfold files in Hin. rewrite (wal_agrees data o d Ho Hd) in Hin. cbn [In] in Hin.
  repeat (destruct Hin as [Hin|Hin]; [injection Hin as <- <-|]); [..|contradiction];
    unfold server_wal, db_file, db_backup_file, db_backup_audit_file, db_audit_file,
      rollback_tmp, rollback_audit_tmp, db_backup_dir, db_audit_dir;
    rewrite !resolve_join by auto using valid_normal, normal_dot, normal_app;
    rewrite !extend_extend; reflexivity.
Qed.

Lemma dirs_resolved data o g :
  valid_name o = true -> In g (dirs data o) ->
  exists t, resolve g = r_extend (resolve data) (o :: t) /\ (t = [] \/ t = [s_audit] \/ t = [s_backups]).
Proof.
  intros Ho Hin. unfold dirs in Hin. cbn [In] in Hin.
  destruct Hin as [<-|[<-|[<-|[]]]]; unfold db_audit_dir, db_backup_dir;
    rewrite !resolve_join by auto using valid_normal; rewrite ?extend_extend.
  - exists []. split; [reflexivity|auto].
  - exists [s_audit]. split; [reflexivity|auto].
  - exists [s_backups]. split; [reflexivity|auto].
Qed.

(* the combinatorial core: file names of different databases differ.  Every file of (o, d) is
   <owner dir>/[k_sub k/]k_name k d, and k_name wraps d in an optional '.' and an optional
   reserved suffix, neither of which a valid d has itself *)

Definition k_pre (k : fkind) : bytes :=
  match k with FWal | FWalServer => [x2e] | _ => [] end.
Definition k_suf (k : fkind) : bytes :=
  match k with
  | FBackup => s_bak | FBackupAudit | FAudit => s_log | FTmpAudit => s_audit_ext | _ => []
  end.
Definition k_sub (k : fkind) : option bytes :=
  match k with FDb | FWal | FWalServer => None | FAudit => Some s_audit | _ => Some s_backups end.
Definition k_name (k : fkind) (d : name) : bytes := k_pre k ++ d ++ k_suf k.

Lemma rel_path_form k d :
  rel_path k d = match k_sub k with None => [k_name k d] | Some s => [s; k_name k d] end.
Proof.
  destruct k; unfold rel_path, k_name, k_sub, k_pre, k_suf, dot_name, c_dot; cbn [app];
    rewrite ?app_nil_r; reflexivity.
Qed.

Lemma name_inj k k' d d' :
  valid_name d = true -> valid_name d' = true -> k_name k d = k_name k' d' -> d = d'.
Proof.
  intros Hd Hd'.
  apply valid_name_rules in Hd as (N1 & _ & _ & _ & L1 & _ & B1 & G1 & A1).
  apply valid_name_rules in Hd' as (N1' & _ & _ & _ & L1' & _ & B1' & G1' & A1').
  assert (Hpre : forall k, k_pre k = [] \/ k_pre k = [x2e]) by (intros []; auto).
  assert (Hsuf : forall k, k_suf k = [] \/ k_suf k = s_bak \/ k_suf k = s_log \/ k_suf k = s_audit_ext)
    by (intros []; auto).
  unfold k_name. intros E.
  assert (E2 : d ++ k_suf k = d' ++ k_suf k').
  { destruct (Hpre k) as [P|P], (Hpre k') as [P'|P']; rewrite P, P' in E; cbn [app] in E.
    - exact E.
    - exfalso. destruct d as [|y d]; [apply N1; reflexivity|].
      cbn [app] in E. injection E as -> _. exact (L1 d eq_refl).
    - exfalso. destruct d' as [|y d']; [apply N1'; reflexivity|].
      cbn [app] in E. injection E as <- _. exact (L1' d' eq_refl).
    - injection E as E. exact E. }
  clear E.
  destruct (Hsuf k) as [S|[S|[S|S]]], (Hsuf k') as [S'|[S'|[S'|S']]];
    rewrite S, S' in E2; rewrite ?app_nil_r in E2;
    first
      [ (* no suffix on either side *) exact E2
      | (* the same suffix *) apply app_inv_tail in E2; exact E2
      | (* a suffix on one side only: the other name would end in it *)
        exfalso;
        first [ exact (B1 _ E2) | exact (G1 _ E2) | exact (A1 _ E2)
              | exact (B1' _ (eq_sym E2)) | exact (G1' _ (eq_sym E2)) | exact (A1' _ (eq_sym E2)) ]
      | (* two different suffixes: their last bytes differ *)
        exfalso; apply (f_equal (@rev byte)) in E2; rewrite !rev_app_distr in E2;
        cbn in E2; discriminate E2 ].
Qed.

Lemma top_not_reserved k d :
  valid_name d = true -> k_sub k = None -> k_name k d <> s_audit /\ k_name k d <> s_backups.
Proof.
  intros Hd. apply valid_name_rules in Hd as (_ & _ & _ & _ & _ & [R1 R2] & _).
  destruct k; try discriminate; intros _; unfold k_name, k_pre, k_suf; cbn [app];
    rewrite app_nil_r; unfold s_audit, s_backups in *; split; try discriminate; assumption.
Qed.

Lemma sub_cases k s : k_sub k = Some s -> s = s_audit \/ s = s_backups.
Proof. destruct k; intros [= <-]; auto. Qed.

Lemma rel_path_nonnil k d : rel_path k d <> [].
Proof. destruct k; discriminate. Qed.

(* no file of database d is equal to, or an ancestor of, a file of another database d' of the
   same owner (paths relative to the owner's directory) *)
Lemma rel_no_prefix k k' d d' r :
  valid_name d = true -> valid_name d' = true -> d <> d' ->
  rel_path k' d' = rel_path k d ++ r -> False.
Proof.
  intros Hd Hd' Hne. rewrite !rel_path_form.
  destruct (k_sub k) as [s|] eqn:S, (k_sub k') as [s'|] eqn:S'; cbn [app]; intros E.
  - injection E as _ E _. apply Hne. symmetry. exact (name_inj _ _ _ _ Hd' Hd E).
  - discriminate E.
  - injection E as E _. destruct (top_not_reserved k d Hd S) as [T1 T2].
    destruct (sub_cases _ _ S') as [->| ->]; [exact (T1 (eq_sym E))|exact (T2 (eq_sym E))].
  - injection E as E _. apply Hne. symmetry. exact (name_inj _ _ _ _ Hd' Hd E).
Qed.

Lemma pair_no_prefix k k' o d o' d' r :
  valid_name d = true -> valid_name d' = true -> (o, d) <> (o', d') ->
  o' :: rel_path k' d' = (o :: rel_path k d) ++ r -> False.
Proof.
  intros Hd Hd' Hne E. cbn [app] in E. injection E as -> E.
  apply (rel_no_prefix k k' d d' r Hd Hd'); [|exact E].
  intros ->. apply Hne. reflexivity.
Qed.

Theorem disjoint data o d o' d' :
  valid_name o = true -> valid_name d = true -> valid_name o' = true -> valid_name d' = true ->
  (o, d) <> (o', d') ->
  forall k f k' f', In (k, f) (files data o d) -> In (k', f') (files data o' d') ->
  resolve f <> resolve f' /\
  inside (resolve f) (resolve f') = false /\
  inside (resolve f') (resolve f) = false.
Proof.
  intros Ho Hd Ho' Hd' Hne k f k' f' Hin Hin'.
  assert (Hne' : (o', d') <> (o, d)) by congruence.
  rewrite (files_resolved data o d k f Ho Hd Hin), (files_resolved data o' d' k' f' Ho' Hd' Hin').
  destruct (extend_apart (resolve data) (o :: rel_path k d) (o' :: rel_path k' d')) as [H1 H2].
  { intros t E. exact (pair_no_prefix k k' o d o' d' t Hd Hd' Hne E). }
  destruct (extend_apart (resolve data) (o' :: rel_path k' d') (o :: rel_path k d)) as [_ H3].
  { intros t E. exact (pair_no_prefix k' k o' d' o d t Hd' Hd Hne' E). }
  auto.
Qed.

(* a database file is never a directory the server needs, nor an ancestor of one
   (no hypothesis relating o and o': it also holds for the database's own owner) *)
Theorem no_dir_clash data o d o' :
  valid_name o = true -> valid_name d = true -> valid_name o' = true ->
  forall k f g, In (k, f) (files data o d) -> In g (dirs data o') ->
  resolve f <> resolve g /\ inside (resolve f) (resolve g) = false.
Proof.
  intros Ho Hd Ho' k f g Hin Hg.
  rewrite (files_resolved data o d k f Ho Hd Hin).
  destruct (dirs_resolved data o' g Ho' Hg) as (t & -> & Ht).
  apply extend_apart. intros r E. cbn [app] in E. injection E as _ E.
  rewrite rel_path_form in E. destruct Ht as [->|Ht].
  - destruct (k_sub k); discriminate E.
  - destruct (k_sub k) as [s|] eqn:S; cbn [app] in E.
    + destruct Ht as [->| ->]; discriminate E.
    + destruct (top_not_reserved k d Hd S) as [T1 T2].
      destruct Ht as [->| ->]; injection E as E _; [exact (T1 (eq_sym E))|exact (T2 (eq_sym E))].
Qed.

Lemma overlap_false a c :
  a <> c -> inside a c = false -> inside c a = false -> overlap a c = false.
Proof.
  intros H1 H2 H3. unfold overlap. rewrite H2, H3, !orb_false_r.
  apply not_true_iff_false. rewrite rpath_eqb_eq. exact H1.
Qed.

Lemma file_blocks_dir_false f g :
  f <> g -> inside f g = false -> file_blocks_dir f g = false.
Proof.
  intros H1 H2. unfold file_blocks_dir. rewrite H2, orb_false_r.
  apply not_true_iff_false. rewrite rpath_eqb_eq. exact H1.
Qed.

Lemma existsb_false {A} (f : A -> bool) l : (forall x, In x l -> f x = false) -> existsb f l = false.
Proof.
  intros H. induction l as [|a l IH]; cbn [existsb]; [reflexivity|].
  rewrite (H a (or_introl eq_refl)). apply IH. intros x Hx. apply H. now right.
Qed.

Lemma files_dirs_no_block data o d o' :
  valid_name o = true -> valid_name d = true -> valid_name o' = true ->
  existsb (fun f => existsb (file_blocks_dir f) (map resolve (dirs data o')))
    (map (fun kf => resolve (snd kf)) (files data o d)) = false.
Proof.
  intros Ho Hd Ho'.
  apply existsb_false. intros rf [[k f] [<- Hin]]%in_map_iff.
  apply existsb_false. intros rg [g [<- Hg]]%in_map_iff.
  destruct (no_dir_clash data o d o' Ho Hd Ho' k f g Hin Hg) as [H1 H2].
  exact (file_blocks_dir_false _ _ H1 H2).
Qed.

(* conversely, one overlapping pair of files is a clash *)
Lemma overlap_clashes data o d o' d' k f k' f' :
  In (k, f) (files data o d) -> In (k', f') (files data o' d') ->
  overlap (resolve f) (resolve f') = true -> clashes data o d o' d' = true.
Proof.
  intros Hin Hin' H. unfold clashes. rewrite !orb_true_iff. left. left.
  apply existsb_exists. exists (resolve f).
  split; [exact (in_map (fun kf => resolve (snd kf)) _ _ Hin)|].
  apply existsb_exists. exists (resolve f').
  split; [exact (in_map (fun kf => resolve (snd kf)) _ _ Hin')|exact H].
Qed.
