(* C03 — Every mutating query and transaction is atomic across crashes.
   The statements, each proved in a few lines from the theorems of theories/CrashProofs.v and CrashGuardProofs.v
   (on top of C01); the closed witness is evaluated here. *)
From Agdb Require Import Bytes FileWal FileWalProofs TxnNesting CrashProofs CrashGuardProofs.
Open Scope nat_scope.

(* A query / transaction whose storage-data calls contain no flush except the final one:
   for EVERY crash cut (k completed file-system calls, the next torn after j bytes) the
   recovered file is byte-for-byte the file before the transaction or the file after it,
   and the recovery log is empty.  (The database structures are functions of the file
   bytes, so the reopened database is the one before or the one after.) *)
Theorem C03_atomic_single_flush :
  forall (d0 : bytes) (body : list op) (k j : nat),
    no_flush body = true -> wp d0 (body ++ [OFlush]) ->
    let st := {| data := d0; wal := [] |} in
    let r := recover walrev_fixed (crash st (trace walrev_fixed st (body ++ [OFlush])) k j) in
    wal r = [] /\ (data r = d0 \/ data r = final_data st body).
Proof. exact atomic_single_flush. Qed.
Print Assumptions C03_atomic_single_flush.

(* the same for the recovery WITH the position guard of apply_wal_record (recover_g; None = error):
   at every crash cut the guarded recovery succeeds with the file before or the file after *)
Theorem C03_atomic_single_flush_guarded :
  forall (d0 : bytes) (body : list op) (k j : nat),
    no_flush body = true -> wp d0 (body ++ [OFlush]) ->
    let st := {| data := d0; wal := [] |} in
    exists r, recover_g walrev_fixed (crash st (trace walrev_fixed st (body ++ [OFlush])) k j) = Some r /\
              wal r = [] /\ (data r = d0 \/ data r = final_data st body).
Proof.
  intros d0 body k j Hnf H st. subst st. eexists. split; [apply guarded_cut; exact H|].
  apply (atomic_single_flush d0 body k j Hnf H).
Qed.
Print Assumptions C03_atomic_single_flush_guarded.

(* DbImpl::transaction_mut (after the fix: commit) brackets the whole closure — also when it
   fails and is rolled back by the undo commands — in one storage transaction.  Whatever
   matched nested transactions the collection operations open inside, the byte store is
   flushed exactly once, at the end. *)
Theorem C03_no_inner_flush :
  forall body : list sevent,
    stays_open 1 body = true -> depth_after 1 body = 1 ->
    exists ops, sd_ops 0 (SBegin :: body ++ [SCommit]) = ops ++ [OFlush] /\ no_flush ops = true.
Proof.
  intros body Hs Hd. exists (sd_ops 1 body). split.
  - cbn [sd_ops]. rewrite sd_ops_app, Hd. reflexivity.
  - apply stays_open_no_flush; [lia|exact Hs].
Qed.
Print Assumptions C03_no_inner_flush.

(* the code before the fix: commit had no outer transaction: the same body flushed between
   its collection operations, so a crash there exposed a partial query *)
Theorem C03_pinned_refuted_inner_flush :
  let body := [SBegin; SData (OWrite 0 [x01]); SCommit; SBegin; SData (OWrite 1 [x02]); SCommit] in
  sd_ops 0 body = [OWrite 0 [x01]; OFlush; OWrite 1 [x02]; OFlush] /\
  stays_open 1 body = true /\ depth_after 1 body = 1.
Proof. vm_compute. repeat split. Qed.
Print Assumptions C03_pinned_refuted_inner_flush.
