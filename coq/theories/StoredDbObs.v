(* StoredDbObs.v — the step of C05_db_eqv_is_observational (`sd_eqv`, the equality a reload determines, is finer than
   the observational equivalences `obs_eq` / `obs_eq_strong` of C13, UndoObs.v) that needs an induction. *)
From Coq Require Import Permutation.
From Agdb Require Import Bytes DbValue DbModel UndoObs StoredDbRep.
Open Scope Z_scope.

Lemma sd_idx_find ixs ixs' key : Forall2 sd_index_eqv ixs ixs' -> idx_rel (idx_find ixs key) (idx_find ixs' key).
Proof.
  unfold idx_find. induction 1 as [|a b l l' [H1 H2] _ IH]; cbn [find]; [exact I|].
  rewrite <- H1. destruct (dbv_eqb (fst a) key); [cbn [idx_rel]; exact H2|exact IH].
Qed.
