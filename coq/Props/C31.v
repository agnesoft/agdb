(* C31 — Every node applies committed actions once each and in log order.
   Statements, each derived in a few lines from the lemmas of theories/ExecSchedProofs.v; model
   theories/ExecSched.v.

   FULL STATEMENT: on every node, for every sequence of commits and every interleaving of the execution
   tasks the node starts, the executed trace is the committed log in increasing index order with each
   index exactly once, so nodes that committed the same log reach the same server and database state.

   The model has two execution disciplines (ExecSched.discipline):
     FifoWorker    = the code after the fix: commit `ClusterStorage::execute_log` sends the entry to ONE worker
                     task (unbounded mpsc channel) that runs `exec; notify; log_executed` entry by entry;
     SpawnPerEntry = the pinned code: one independent `tokio::spawn` per entry.
   For FifoWorker the full safety statement is proved (C31_fifo_order, C31_fifo_same_state, C31_once); the
   pinned discipline is refuted (C31_spawn_refuted) and proved only for the complement of the known class
   `commit-spawns-several-tasks` (C31_spawn_partial).  Liveness ("every started entry is eventually
   executed") is not a safety property and is out of scope.  Hypothesis on the log: the indices of the
   appended log are strictly increasing (Raft log; C28). *)
From Coq Require Import List NArith Bool Sorted Lia.
From Agdb Require Import ExecSched ExecSchedProofs.
Import ListNotations.
Import ExecM.
Open Scope N_scope.

(* FULL (FifoWorker, no restart): for every log, every list of events (any commits, any scheduler choices,
   any timing of the executed-marks) the executed trace is a prefix of the log — hence strictly increasing
   in index, every index at most once — and it is exactly the committed entries minus the ones still queued *)
Theorem C31_fifo_order :
  forall (lg : log) (evs : list event),
    StronglySorted N.lt (indices lg) -> no_restart evs = true ->
    let s := run FifoWorker lg evs in
    prefix (trace s) (indices lg) /\ StronglySorted N.lt (trace s) /\ NoDup (trace s) /\
    committed s = trace s ++ tasks s.
Proof.
  intros lg evs Hs Hnr. apply ordered_conclusion; auto. apply ordered_run_fifo; auto using ordered_init.
Qed.
Print Assumptions C31_fifo_order.

(* FULL (FifoWorker): two nodes of the same log — whatever their commit calls and schedules — have executed
   traces of which one is a prefix of the other; once both have executed the same committed entries their
   traces, and therefore the states reached by applying the actions, are equal *)
Theorem C31_fifo_traces_comparable :
  forall (lg : log) (evs1 evs2 : list event),
    StronglySorted N.lt (indices lg) -> no_restart evs1 = true -> no_restart evs2 = true ->
    prefix (trace (run FifoWorker lg evs1)) (trace (run FifoWorker lg evs2)) \/
    prefix (trace (run FifoWorker lg evs2)) (trace (run FifoWorker lg evs1)).
Proof.
  intros lg evs1 evs2 Hs H1 H2.
  destruct (C31_fifo_order lg evs1 Hs H1) as [P1 _], (C31_fifo_order lg evs2 Hs H2) as [P2 _].
  exact (prefix_comparable _ _ _ P1 P2).
Qed.
Print Assumptions C31_fifo_traces_comparable.

Theorem C31_fifo_same_state :
  forall (S : Type) (apply : S -> N -> S) (s0 : S) (lg : log) (evs1 evs2 : list event),
    StronglySorted N.lt (indices lg) -> no_restart evs1 = true -> no_restart evs2 = true ->
    committed (run FifoWorker lg evs1) = committed (run FifoWorker lg evs2) ->
    tasks (run FifoWorker lg evs1) = [] -> tasks (run FifoWorker lg evs2) = [] ->
    trace (run FifoWorker lg evs1) = trace (run FifoWorker lg evs2) /\
    db_state apply s0 lg (trace (run FifoWorker lg evs1)) = db_state apply s0 lg (trace (run FifoWorker lg evs2)).
Proof.
  intros S apply s0 lg evs1 evs2 Hs H1 H2 Hc T1 T2.
  destruct (C31_fifo_order lg evs1 Hs H1) as (_ & _ & _ & E1), (C31_fifo_order lg evs2 Hs H2) as (_ & _ & _ & E2).
  rewrite T1, app_nil_r in E1. rewrite T2, app_nil_r in E2. rewrite <- E1, <- E2, Hc. now split.
Qed.
Print Assumptions C31_fifo_same_state.

(* FULL (both disciplines): without restart every index is executed at most once, and only committed
   entries of the log are executed *)
Theorem C31_once :
  forall (d : discipline) (lg : log) (evs : list event),
    NoDup (indices lg) -> no_restart evs = true ->
    NoDup (trace (run d lg evs)) /\
    forall i, In i (trace (run d lg evs)) -> In i (committed (run d lg evs)) /\ In i (indices lg).
Proof.
  intros d lg evs Hnd Hnr. split.
  - apply (NoDup_count_occ N.eq_dec). intros i.
    destruct (counts_run d lg evs i Hnd) as (_ & ? & ?). rewrite (restarts_no_restart _ Hnr) in *. lia.
  - intros i Hin%(count_occ_In N.eq_dec). destruct (counts_run d lg evs i Hnd) as ((_ & ? & ?) & _).
    split; apply (count_occ_In N.eq_dec); lia.
Qed.
Print Assumptions C31_once.

(* FULL (both disciplines), the exact bound across restarts: an index is executed at most once plus the
   number of restarts at which it was pending (its exec step had run but `log_executed` had not happened);
   in particular at most 1 + (number of restarts) times *)
Theorem C31_once_restart :
  forall (d : discipline) (lg : log) (evs : list event) (i : N),
    NoDup (indices lg) ->
    (count_occ N.eq_dec (trace (run d lg evs)) i <= 1 + reexec_budget d lg init evs i)%nat /\
    (reexec_budget d lg init evs i <= restarts evs)%nat.
Proof.
  intros d lg evs i Hnd. apply (counts_run d lg evs i Hnd).
Qed.
Print Assumptions C31_once_restart.

(* one crash: at most twice, and twice only for an entry pending at the crash; an entry marked executed is
   never executed again; with the single worker at most ONE entry is pending at any time *)
Theorem C31_once_one_crash :
  forall (d : discipline) (lg : log) (evs1 evs2 : list event) (i : N),
    NoDup (indices lg) -> no_restart evs1 = true -> no_restart evs2 = true ->
    (count_occ N.eq_dec (trace (run d lg (evs1 ++ Restart :: evs2))) i
       <= 1 + count_occ N.eq_dec (pending (run d lg evs1)) i)%nat /\
    (count_occ N.eq_dec (pending (run d lg evs1)) i <= 1)%nat.
Proof.
  intros d lg evs1 evs2 i Hnd H1 H2. split.
  - rewrite <- (reexec_budget_one_crash d lg evs1 evs2 i H1 H2). now apply counts_run.
  - now apply (counts_pending_le1 lg), counts_run.
Qed.
Print Assumptions C31_once_one_crash.

Theorem C31_marked_never_again :
  forall (d : discipline) (lg : log) (evs1 evs2 : list event) (i : N),
    NoDup (indices lg) -> In i (executed (run d lg evs1)) ->
    count_occ N.eq_dec (trace (run d lg (evs1 ++ evs2))) i = count_occ N.eq_dec (trace (run d lg evs1)) i.
Proof.
  intros d lg evs1 evs2 i Hnd Hin. rewrite run_app. apply marked_never_again_from; [now apply counts_run|exact Hin].
Qed.
Print Assumptions C31_marked_never_again.

Theorem C31_fifo_one_pending :
  forall (lg : log) (evs : list event), (length (pending (run FifoWorker lg evs)) <= 1)%nat.
Proof.
  intros lg evs. apply (run_from_inv (fun s => (length (pending s) <= 1)%nat)); [apply fifo_pending_step|cbn; auto].
Qed.
Print Assumptions C31_fifo_one_pending.

(* FULL (FifoWorker, restarts included): the executed trace stays weakly increasing — the only possible
   repetition is the entry that was pending at a crash, re-executed before anything later runs *)
Theorem C31_fifo_restart_order :
  forall (lg : log) (evs : list event),
    StronglySorted N.lt (indices lg) ->
    StronglySorted N.le (trace (run FifoWorker lg evs)).
Proof.
  intros lg evs Hs. apply (worker_sorted lg), (run_from_inv (worker_ok lg)); [intros; now apply worker_step|apply worker_init].
Qed.
Print Assumptions C31_fifo_restart_order.

(* REFUTED for the pinned discipline: one commit call covering two entries starts two independent tasks;
   the schedule running the second first executes index 2 before index 1 *)
Theorem C31_spawn_refuted :
  let lg := [(1, 10); (2, 20)] in
  let evs := [Commit 2; RunTask 2; RunTask 1] in
  StronglySorted N.lt (indices lg) /\ no_restart evs = true /\
  trace (run SpawnPerEntry lg evs) = [2; 1] /\
  trace (run FifoWorker lg evs) = [1] /\
  ~ (forall (lg : log) (evs : list event),
       StronglySorted N.lt (indices lg) -> no_restart evs = true ->
       StronglySorted N.lt (trace (run SpawnPerEntry lg evs))).
Proof.
  cbn zeta.
  assert (Hs : StronglySorted N.lt (indices [(1, 10); (2, 20)])).
  { cbn. repeat constructor. }
  repeat split; try exact Hs; try (vm_compute; reflexivity).
  intros H. specialize (H [(1, 10); (2, 20)] [Commit 2; RunTask 2; RunTask 1] Hs eq_refl).
  vm_compute in H. apply StronglySorted_inv in H as [_ H]. apply Forall_inv in H. discriminate H.
Qed.
Print Assumptions C31_spawn_refuted.

(* PARTIAL for the pinned discipline (complement of the known class `commit-spawns-several-tasks`): order
   holds whenever every Commit finds no started entry waiting and starts at most one *)
Theorem C31_spawn_partial :
  forall (lg : log) (evs : list event),
    StronglySorted N.lt (indices lg) -> no_restart evs = true -> paced lg init evs ->
    let s := run SpawnPerEntry lg evs in
    prefix (trace s) (indices lg) /\ StronglySorted N.lt (trace s) /\ NoDup (trace s) /\
    committed s = trace s ++ tasks s.
Proof.
  intros lg evs Hs Hnr Hp. apply ordered_conclusion; auto. apply ordered_run_paced; auto using ordered_init.
Qed.
Print Assumptions C31_spawn_partial.

(* the single worker under an adversarial scheduler: the run requests for 3 and 2 are refused until their turn *)
Example C31_fifo_nonvacuous :
  let lg := [(1, 10); (2, 20); (3, 30)] in
  let evs := [Commit 3; RunTask 3; RunTask 2; RunTask 1; RunTask 3; MarkExecuted 1; RunTask 3; RunTask 2;
              MarkExecuted 2; RunTask 3] in
  StronglySorted N.lt (indices lg) /\ no_restart evs = true /\
  trace (run FifoWorker lg evs) = [1; 2; 3] /\ trace (run SpawnPerEntry lg evs) = [3; 2; 1].
Proof. cbn zeta. repeat split; try (vm_compute; reflexivity). cbn. repeat constructor. Qed.
Print Assumptions C31_fifo_nonvacuous.

(* a paced history exists and executes something *)
Example C31_spawn_partial_nonvacuous :
  let lg := [(1, 10); (2, 20)] in
  let evs := [Commit 1; RunTask 1; Commit 2; RunTask 2; MarkExecuted 2; MarkExecuted 1] in
  paced lg init evs /\ no_restart evs = true /\ trace (run SpawnPerEntry lg evs) = [1; 2] /\
  ~ paced lg init [Commit 2; RunTask 2; RunTask 1].
Proof.
  cbn zeta. repeat split; try (vm_compute; reflexivity); try (vm_compute; auto).
  intros H. vm_compute in H. destruct H as [[_ H] _]. apply le_S_n in H. inversion H.
Qed.
Print Assumptions C31_spawn_partial_nonvacuous.

(* the restart bound is attained: a crash between the exec step and the executed-mark runs entry 1 twice *)
Example C31_restart_bound_attained :
  let lg := [(1, 10); (2, 20)] in
  let evs1 := [Commit 2; RunTask 1] in
  let evs2 := [RunTask 1; MarkExecuted 1; RunTask 2] in
  trace (run FifoWorker lg (evs1 ++ Restart :: evs2)) = [1; 1; 2] /\
  pending (run FifoWorker lg evs1) = [1] /\
  reexec_budget FifoWorker lg init (evs1 ++ Restart :: evs2) 1 = 1%nat.
Proof. cbn zeta. repeat split; vm_compute; reflexivity. Qed.
Print Assumptions C31_restart_bound_attained.
