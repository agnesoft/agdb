(* StoredDbOpsAlias3.v — DbImpl::insert_new_alias on a stored database (layer L3).

   so_alias_insert_new_inserts: the theorem for ANY so_alias_rest, given of each of the two MapImpl::insert calls that it
   inserts its absent key (so_map_inserts); the two instances are so_alias_insert_new_stored below (tables with room) and
   so_alias_insert_new_stored_full (StoredDbOpsAlias8.v: the code's grow and in-place rehash, any fill).

   so_alias_insert_new_stored: from a stored database (stored_db_w) whose two alias tables satisfy C19's invariant
   (so_alias_tables_ok), for an alias that is not in use (imap_value = None) and an id that has no alias (imap_key = None),
   under so_alias_new_ok —
     neither table grows (len < capacity * 15 / 16: so_no_grow),
     neither probe comes back to its start (so_no_full_cycle: no in-place rehash),
     the alias and the id are valid elements (valid UTF-8 of bounded length / an i64), len + 1 < 2^64 —
   the program so_alias_insert_new (StoredDbOpsAlias2.v) ends in a store that holds DbModel's insert_new_alias d id alias;
   the witness differs in the two alias components only (so the graph / values handles stay valid); the new tables
   satisfy C19's invariant again; the transaction depth is restored; only the footprint changed (frame). *)
From Coq Require Import List NArith ZArith Arith Bool Lia Permutation.
Import ListNotations.
From Agdb Require Import Bytes BytesProofs DbModel StorageSpec Collections CollWp CollVecBase CollElems CollMap
  CollMapHist OpenMapRefineStep StoredDbRep StoredDbLoad StoredDbProbe StoredDbOpsDb StoredDbOpsAlias
  StoredDbOpsAlias5 StoredDbOpsAlias2 UndoBase.
Open Scope N_scope.

Section Absent.
  Variables K V : Type.
  Variable keqb : K -> K -> bool.
  Hypothesis keqb_eq : forall a b, keqb a b = true <-> a = b.

  Lemma so_absent_from_lookup (t : cm_table K V) (l : list (K * V)) key :
    Permutation (sd_table_entries t) l -> alookup keqb l key = None ->
    so_key_absent K V keqb (ct_slots K V (ct_states t) (ct_keys t) (ct_values t)) key.
  Proof.
    intros HP Hn j k v Hj. destruct (keqb k key) eqn:E; [|reflexivity]. exfalso.
    apply keqb_eq in E. subst k.
    set (sl := ct_slots K V (ct_states t) (ct_keys t) (ct_values t)) in *.
    assert (Hlt : (j < length sl)%nat).
    { destruct (Nat.lt_ge_cases j (length sl)) as [X|X]; [exact X|]. rewrite nth_overflow in Hj by exact X. discriminate. }
    pose proof (entries_nth_in K V sl j key v Hlt Hj) as Hin.
    assert (Hin2 : In (key, v) (sd_table_entries t)).
    { rewrite (sd_table_entries_iter_all K V). exact Hin. }
    apply (alookup_none_notin keqb keqb_eq l key Hn).
    apply in_map_iff. exists (key, v). split; [reflexivity|]. exact (Permutation_in _ HP Hin2).
  Qed.

  Lemma nodup_snoc (l : list (K * V)) k v : NoDup (map fst l) -> alookup keqb l k = None -> NoDup (map fst (l ++ [(k, v)])).
  Proof.
    intros ND Hn. rewrite map_app. cbn [map fst].
    eapply Permutation_NoDup; [apply Permutation_cons_append|]. constructor; [|exact ND].
    exact (alookup_none_notin keqb keqb_eq l k Hn).
  Qed.
End Absent.

Lemma imap_insert_new (m : imap) (a : bytes) (id : Z) :
  imap_value m a = None -> imap_key m id = None ->
  imap_insert m a id = {| k2v := k2v m ++ [(a, id)]; v2k := v2k m ++ [(id, a)] |}.
Proof.
  unfold imap_value, imap_key, imap_insert, ainsert. intros H1 H2. rewrite H1, H2.
  rewrite (aremove_absent bytes_eqb _ _ H1), (aremove_absent Z.eqb _ _ H2). reflexivity.
Qed.

(* MapImpl::insert of a key that no Valid slot of the represented table t holds, with the unmodelled branches x: None is
   returned and the table left holds the pair as well and satisfies PInv.  This is what so_alias_insert_new needs of its two
   insertions; StoredDbOpsAlias5.v and StoredDbOpsAlias7.v prove it under their side conditions. *)
Definition so_map_inserts (K V : Type) (EK : cv_elem K) (EV : cv_elem V) (LK : elem_law EK) (LV : elem_law EV)
    (keqb : K -> K -> bool) (hk : K -> N) (mincap : nat) (fl : bool) (x : so_map_rest) (t : cm_table K V) (key : K) (nv : V) : Prop :=
  forall d ss ks vs sp (Q : cres (cm_data * option V) -> spec -> Prop),
    mrep K V EK EV LK LV (hp sp) d ss ks vs t ->
    so_key_absent K V keqb (ct_slots K V (ct_states t) (ct_keys t) (ct_values t)) key ->
    (forall d' ss' ks' vs' t' sp',
        mrep K V EK EV LK LV (hp sp') d' ss' ks' vs' t' -> cm_index d' = cm_index d -> PInv K V hk mincap (ct_omap K V t') ->
        Permutation (sd_table_entries t') ((key, nv) :: sd_table_entries t) ->
        sdepth sp' = sdepth sp -> frame (hp sp) (hp sp') (mfoot K V EK EV LK LV d ss ks vs) (mfoot K V EK EV LK LV d' ss' ks' vs') ->
        Q (CrOk (d', None)) sp') ->
    cwp fl (so_map_insert K V EK EV keqb hk x d key nv) sp Q.

(* what insert_new_alias leaves: the store holds DbModel's insert_new_alias d id alias, the witness differs from w in the two
   alias tables only (the other handles stay valid), both tables satisfy PInv, depth restored, frame *)
Definition so_alias_post (hs : bytes -> N) (hi : Z -> N) (mincap : nat) root d w h id alias sp
    : cres (cm_data * cm_data) -> spec -> Prop :=
  fun r sp' => exists a' w', r = CrOk a' /\ stored_db_w (hp sp') root (insert_new_alias d id alias) w' /\
                 so_handles h w' /\ so_alias_handles a' w' /\ so_alias_tables_ok hs hi mincap w' /\
                 (exists m1 m2, w' = sd_with_a2 (sd_with_a1 w m1) m2) /\
                 sdepth sp' = sdepth sp /\ frame (hp sp) (hp sp') (sd_foot root w) (sd_foot root w').

Section AliasInsertAny.
  Variable hs : bytes -> N.
  Variable hi : Z -> N.
  Variable mincap : nat.
  Variable fl : bool.

  (* insert_new_alias, given the two insertions: alias -> id into the first table, then id -> alias into the second; the new
     alias is in neither, so both return None and the removals of IndexedMapImpl::insert are not executed *)
  Theorem so_alias_insert_new_inserts x root d w h a id alias sp :
    stored_db_w (hp sp) root d w -> so_handles h w -> so_alias_handles a w ->
    imap_value (aliases d) alias = None -> imap_key (aliases d) id = None ->
    so_map_inserts bytes Z ce_string ce_i64 law_string law_i64 bytes_eqb hs mincap fl (sar_k2v x) (mw_t (sw_a1 w)) alias id ->
    so_map_inserts Z bytes ce_i64 ce_string law_i64 law_string Z.eqb hi mincap fl (sar_v2k x) (mw_t (sw_a2 w)) id alias ->
    cwp fl (so_alias_insert_new hs hi x a id alias) sp
        (so_alias_post hs hi mincap root d w h id alias sp).
  Proof.
    intros H Hh [Ea1 Ea2] Hv Hk M1 M2.
    unfold so_alias_post.
    destruct a as [a1 a2]. cbn [fst snd] in Ea1, Ea2. subst a1 a2.
    unfold so_alias_insert_new, so_imap_insert. cbn [fst snd].
    destruct (sr_a1 _ _ _ _ H) as (HM1 & Hi1 & Hp1).
    apply cwp_bind.
    eapply M1; [exact HM1|eapply (so_absent_from_lookup bytes Z bytes_eqb bytes_eqb_eq); [exact Hp1|exact Hv]|].
    intros d1 ss1 ks1 vs1 t1 sp1 HM1' Hidx1 P1' Perm1 Hd1 Hf1. cbn [kont snd fst cbind].
    set (m1 := {| mw_d := d1; mw_ss := ss1; mw_ks := ks1; mw_vs := vs1; mw_t := t1 |}).
    destruct (sd_a1_update (hp sp) (hp sp1) root d w m1 (k2v (aliases d) ++ [(alias, id)])) as [H1 Fr1]; [exact H| | |exact Hf1|].
    { split; [exact HM1'|]. split; [cbn [m1 mw_d]; congruence|]. cbn [m1 mw_t].
      eapply Permutation_trans; [exact Perm1|]. eapply Permutation_trans; [apply perm_skip; exact Hp1|]. apply Permutation_cons_append. }
    { apply (nodup_snoc bytes Z bytes_eqb bytes_eqb_eq); [exact (sr_a1_keys _ _ _ _ H)|exact Hv]. }
    set (w1 := sd_with_a1 w m1) in *.
    destruct (sr_a2 _ _ _ _ H1) as (HM2 & Hi2 & Hp2). cbn [w1 sd_with_a1 sw_a2 sw_root with_aliases aliases v2k] in HM2, Hi2, Hp2.
    apply cwp_bind.
    eapply M2; [exact HM2|eapply (so_absent_from_lookup Z bytes Z.eqb Z.eqb_eq); [exact Hp2|exact Hk]|].
    intros d2 ss2 ks2 vs2 t2 sp2 HM2' Hidx2 P2' Perm2 Hd2 Hf2. cbn [kont snd fst cbind cwp].
    set (m2 := {| mw_d := d2; mw_ss := ss2; mw_ks := ks2; mw_vs := vs2; mw_t := t2 |}).
    destruct (sd_a2_update (hp sp1) (hp sp2) root _ w1 m2 (v2k (aliases d) ++ [(id, alias)]) H1) as [H2 Fr2]; [| |exact Hf2|].
    { split; [exact HM2'|]. split; [cbn [m2 mw_d w1 sd_with_a1 sw_root]; congruence|]. cbn [m2 mw_t].
      eapply Permutation_trans; [exact Perm2|]. eapply Permutation_trans; [apply perm_skip; exact Hp2|]. apply Permutation_cons_append. }
    { apply (nodup_snoc Z bytes Z.eqb Z.eqb_eq); [exact (sr_a2_keys _ _ _ _ H)|exact Hk]. }
    exists (d1, d2), (sd_with_a2 w1 m2). split; [reflexivity|]. split.
    { eapply stored_db_w_same; [exact H2| | | |]; try reflexivity.
      unfold insert_new_alias. cbn [with_aliases push_undo aliases k2v v2k]. rewrite (imap_insert_new _ _ _ Hv Hk). reflexivity. }
    split; [exact Hh|]. split; [split; reflexivity|]. split; [split; [exact P1'|exact P2']|].
    split; [exists m1, m2; reflexivity|]. split; [lia|].
    eapply frame_trans; [exact Fr1|exact Fr2].
  Qed.
End AliasInsertAny.

Section AliasInsert.
  Variable hs : bytes -> N.
  Variable hi : Z -> N.
  Variable mincap : nat.
  Hypothesis Hmin : (4 <= mincap)%nat.
  Variable fl : bool.

  Definition so_alias_new_ok (w : sd_wit) (id : Z) (alias : bytes) : Prop :=
    so_no_grow bytes Z (mw_t (sw_a1 w)) /\ so_no_grow Z bytes (mw_t (sw_a2 w)) /\
    so_no_full_cycle bytes Z bytes_eqb hs (mw_t (sw_a1 w)) alias id /\
    so_no_full_cycle Z bytes Z.eqb hi (mw_t (sw_a2 w)) id alias /\
    el_valid law_string alias /\ el_valid law_i64 id /\
    ct_len (mw_t (sw_a1 w)) + 1 < two64 /\ ct_len (mw_t (sw_a2 w)) + 1 < two64.

  Theorem so_alias_insert_new_stored x root d w h a id alias sp :
    stored_db_w (hp sp) root d w -> so_handles h w -> so_alias_handles a w -> so_alias_tables_ok hs hi mincap w ->
    imap_value (aliases d) alias = None -> imap_key (aliases d) id = None ->
    so_alias_new_ok w id alias ->
    cwp fl (so_alias_insert_new hs hi x a id alias) sp
        (so_alias_post hs hi mincap root d w h id alias sp).
  Proof.
    intros H Hh Ha [P1 P2] Hv Hk (G1 & G2 & F1 & F2 & VA & VI & L1 & L2).
    apply so_alias_insert_new_inserts; auto; intros d0 ss ks vs sp0 Q HM Habs HQ.
    - eapply (so_map_insert_absent bytes Z ce_string ce_i64 law_string law_i64 bytes_eqb Z.eqb hs mincap fl bytes_eqb_eq Z.eqb_eq Hmin); eauto.
    - eapply (so_map_insert_absent Z bytes ce_i64 ce_string law_i64 law_string Z.eqb bytes_eqb hi mincap fl Z.eqb_eq bytes_eqb_eq Hmin); eauto.
  Qed.
End AliasInsert.
