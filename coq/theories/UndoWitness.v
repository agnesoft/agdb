(* UndoWitness.v — C13: the two defects of the pinned tree (rollback stops at a
   ReplaceKeyValue command; alias stealing records no inverse for the victim) as concrete
   transactions on the model (evaluated in Props/C13.v), and that each fix flag repairs its own defect only. *)
From Agdb Require Import Bytes DbValue Graph DbModel Search Queries Revisions UndoBase UndoObs.
From Coq Require Import Permutation.
Open Scope Z_scope.

Definition w_key : dbvalue := DString [x6b].                     (* "k" *)
Definition w_a : bytes := [x61].                                  (* "a" *)
Definition w_b : bytes := [x62].                                  (* "b" *)

(* (i) db: node 1 with k=1.  transaction: insert a node; replace k on node 1; fail. *)
Definition w1_init (rv : revision) : db :=
  fst (exec rv db_new (InsertNodes 1 (Single [(w_key, DI64 1)]) [] (Ids []))).
Definition w1_txn : list query :=
  [InsertNodes 1 (Single []) [] (Ids []); InsertValues (Ids [QId 1]) (Single [(w_key, DI64 2)])].

(* (ii) db: nodes 1 "a", 2 "b".  transaction: give alias "a" to node 2; fail. *)
Definition w2_init (rv : revision) : db :=
  fst (exec rv db_new (InsertNodes 2 (Single []) [w_a; w_b] (Ids []))).
Definition w2_txn : list query := [InsertAliases (Ids [QId 2]) [w_a]].

(* each flag repairs its own defect only: with just the other flag on, the witness still fails *)
Definition rv_only_replace : revision :=
  {| fix_rollback_replace := true; fix_alias_steal_undo := false; fix_alias_nodes_only := false;
     fix_strict_order := false; fix_slice_clamp := false; fix_edge_origin := false; fix_visited_chain := false; fix_nodes_ids_alias := false; fix_empty_alias := false |}.
Definition rv_only_steal : revision :=
  {| fix_rollback_replace := false; fix_alias_steal_undo := true; fix_alias_nodes_only := false;
     fix_strict_order := false; fix_slice_clamp := false; fix_edge_origin := false; fix_visited_chain := false; fix_nodes_ids_alias := false; fix_empty_alias := false |}.

Lemma flags_independent :
  obs_eq (w1_init rv_only_replace) (fst (transaction rv_only_replace (w1_init rv_only_replace) w1_txn true)) /\
  obs_eq (w2_init rv_only_steal) (fst (transaction rv_only_steal (w2_init rv_only_steal) w2_txn true)) /\
  ~ obs_eq (w1_init rv_only_steal) (fst (transaction rv_only_steal (w1_init rv_only_steal) w1_txn true)) /\
  ~ obs_eq (w2_init rv_only_replace) (fst (transaction rv_only_replace (w2_init rv_only_replace) w2_txn true)).
Proof.
  split; [|split; [|split]].
  - apply obs_eqb_sound; vm_compute; reflexivity.
  - apply obs_eqb_sound; vm_compute; reflexivity.
  - intros [[_ Hc _ _] _ _ _ _]. vm_compute in Hc. discriminate.
  - intros [_ _ Ha _ _]. specialize (Ha w_a). vm_compute in Ha. discriminate.
Qed.
