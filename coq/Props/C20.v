(* C20 — Binary serialization round-trips and reports its exact size.
   The statements; the proofs are in theories/CodecProofs.v. *)
From Agdb Require Import Bytes Utf8 Codec CodecProofs.
Open Scope N_scope.

(* Every well-typed value of every type description (built-ins, and any nesting of
   derived structs / tuples / enums / vectors), followed by arbitrary further
   bytes, decodes to itself and consumes exactly `size v` bytes — for both build
   profiles and every revision of the decoder's guards. *)
Theorem C20_roundtrip :
  forall (p : profile) (g : guards) (t : ty) (v : val) (rest : bytes),
    ty_ok t = true -> has_type t v = true ->
    dec p g t (enc v ++ rest) = Ok (v, size v).
Proof. exact roundtrip. Qed.
Print Assumptions C20_roundtrip.

(* serialized_size (computed as the code does, by summing parts) is the number
   of bytes produced — for every value, typed or not. *)
Theorem C20_size : forall v : val, size v = lenN (enc v).
Proof. exact size_enc. Qed.
Print Assumptions C20_size.

(* the hypotheses are satisfiable by a nested, non-trivial value *)
Example C20_nonvacuous :
  let t := TStruct [TU64; TVec (TEnum [[]; [TStr; TI64]]); TTime] in
  let v := VStruct [VU64 7; VVec [VEnum 1 [VStr [x61; x62]; VI64 (-5)]; VEnum 0 []]; VTime 1 500000000 false] in
  ty_ok t = true /\ has_type t v = true /\
  dec Debug guards_fixed t (enc v ++ [xff]) = Ok (v, size v).
Proof. exact rt_example. Qed.
Print Assumptions C20_nonvacuous.
