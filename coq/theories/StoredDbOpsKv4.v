(* StoredDbOpsKv4.v — proofs (stored database): DbKeyValues::remove as a program over the storage, for an element
   that HAS a property vector (slot <> 0: every element inserted through the public API, which reserves capacity) or lies
   beyond the slot vector: the element's vector is freed (every out-of-line record of its pairs, the vector record), the
   slot vector is popped when it was the last slot, else the slot is set to 0 — DbModel's kvs_remove.
   (For a LAST slot that is 0 the code does nothing while kvs_remove pops it: excluded by the hypothesis so_slot_valid.) *)
From Coq Require Import Permutation.
From Agdb Require Import Bytes Graph DbModel StorageSpec Collections CollWp CollVecBase CollVec CollSep
  StoredDbRep StoredDbFrame StoredDbOps StoredDbOpsKv StoredDbOpsKv2.
From Coq Require Import ZifyBool ZifyNat ZifyN.
Ltac Zify.zify_post_hook ::= Z.div_mod_to_equations.
Open Scope N_scope.

(* DbModel.kvs_remove on a position n : nat instead of an id (kvs_remove_model: by computation), as kvs_ior *)
Definition kvs_remove_nth (s : kvstore) (n : nat) : kvstore :=
  if Nat.eqb (S n) (length s) then removelast s else if Nat.ltb n (length s) then kvs_set_nth s n [] else s.
Lemma kvs_remove_model s i : kvs_remove s i = kvs_remove_nth s (zabs_nat i).
Proof. reflexivity. Qed.

(* the element has a property vector, or lies beyond the slot vector *)
Definition so_slot_valid (vi : list N) (n : nat) : Prop := (length vi <= n)%nat \/ nth n vi 0 <> 0.

Lemma cl_remove_last {A} (a : list A) x : cl_remove (a ++ [x]) (length a) = a.
Proof. unfold cl_remove. rewrite firstn_app, Nat.sub_diag, firstn_all. cbn [firstn]. rewrite app_nil_r. rewrite skipn_all2; [apply app_nil_r|rewrite app_length; cbn; lia]. Qed.

Section KvRemove.
  Variable fl : bool.

  Theorem so_kv_remove_spec vh vs vi vw kvs index sp (Q : cres cv_vec -> spec -> Prop) :
    kvrep (hp sp) vh vs vi vw kvs -> so_slot_valid vi (N.to_nat index) ->
    (forall vh1 vs1 vi1 vw1 sp',
        kvrep (hp sp') vh1 vs1 vi1 vw1 (kvs_remove_nth kvs (N.to_nat index)) ->
        cv_index vh1 = cv_index vh -> sdepth sp' = sdepth sp ->
        frame (hp sp) (hp sp') (kvfoot vh vs vw) (kvfoot vh1 vs1 vw1) ->
        slot_keep_but (N.to_nat index) vi vi1 -> Q (CrOk vh1) sp') ->
    cwp fl (so_kv_remove vh index) sp Q.
  Proof.
    intros H Hval HQ. pose proof H as [A B C].
    destruct (sd_kv_rep_lengths _ _ _ _ B) as [L1 L2].
    pose proof (vr_len _ _ _ _ _ _ _ A) as Hlen. unfold lenN in Hlen.
    unfold so_kv_remove, so_kv_valid_index.
    apply cwp_bind. destruct (N.ltb_spec index (cv_len vh)) as [Hlt|Hge].
    2:{ cbn [cwp kont negb]. unfold kvs_remove_nth in HQ.
        destruct (Nat.eqb_spec (S (N.to_nat index)) (length kvs)); [lia|]. destruct (Nat.ltb_spec (N.to_nat index) (length kvs)); [lia|].
        eapply (HQ vh vs vi vw sp); [exact H|reflexivity|reflexivity|apply frame_refl; intros j; reflexivity
                                   |intros m _ X; exact X]. }
    assert (Hn : (N.to_nat index < length kvs)%nat) by lia.
    destruct (sd_kv_rep_at _ _ _ _ _ B Hn) as (ia & i & ib & a & w & b & ka & l & kb & Evi & Evw & Ekvs & Lia & La & Lka & Ba & Bs & Bb).
    subst vi vw kvs.
    assert (Ei : nth (N.to_nat index) (ia ++ i :: ib) 0 = i) by (rewrite <- Lia; apply nth_mid).
    destruct Hval as [X|Hnz]; [rewrite app_length in X; cbn [length] in X; lia|]. rewrite Ei in Hnz.
    apply cwp_bind. eapply cv_value_spec; [exact A|]. rewrite <- Lia, nth_error_mid. cbn [kont cwp].
    destruct w as [[k bss]|]; cbn [sd_kv_slot_rep] in Bs; [|destruct Bs as [X _]; contradiction].
    destruct Bs as (_ & Hki & HR). destruct (N.eqb_spec i 0) as [X|_]; [contradiction|]. cbn [negb].
    apply cwp_bind. unfold so_kv_kvs. apply cwp_bind. eapply cv_value_spec; [exact A|]. rewrite <- Lia, nth_error_mid. cbn [kont].
    rewrite <- Hki. eapply cv_from_storage_spec; [exact HR|]. intros k' HR' Hi' Hl'. cbn [kont].
    apply cwp_bind. eapply cv_remove_from_storage_spec; [exact HR'|]. intros sp1 D1 F1. cbn [kont].
    assert (F1' : frame (hp sp) (hp sp1) (slotfoot (Some (k, bss))) []).
    { cbn [slotfoot]. unfold foot in *. rewrite <- Hi'. exact F1. }
    destruct (kv_step_slot [] _ H Lia La Lka F1' (NoDup_nil _))
      as (A1 & Ba1 & Bb1 & N1 & Fr1).
    cbn [app] in N1, Fr1.
    assert (Hlive : live_all (hp sp1) (sd_kv_foot a ++ sd_kv_foot b)).
    { apply live_all_app. split; [eapply sd_kv_live; exact Ba1|eapply sd_kv_live; exact Bb1]. }
    rewrite app_length in Hlen. cbn [length] in Hlen.
    destruct (N.eqb_spec (cv_len vh - 1) index) as [Elast|Nlast].
    - (* the last slot: the slot vector is popped *)
      assert (Eib : ib = []) by (destruct ib; [reflexivity|cbn [length] in Hlen; lia]).
      assert (Eb : b = []) by (destruct b; [reflexivity|rewrite !app_length in L1; cbn [length] in L1; lia]).
      assert (Ekb : kb = []) by (destruct kb; [reflexivity|rewrite !app_length in L2; cbn [length] in L2; lia]).
      subst ib b kb.
      apply cwp_bind. eapply cv_remove_spec; [exact A1|]. rewrite <- Lia, nth_error_mid.
      intros vs2 sp2 R2 D2 F2. cbn [kont cwp fst]. rewrite cl_remove_last in R2.
      destruct (kv_step_vec_raw (hp sp1) (hp sp2) vh vs _ vs2 _ (sd_kv_foot a ++ sd_kv_foot []) N1 Hlive R2 F2) as (N2 & Fr2 & Same).
      cbn [sd_kv_foot] in *. rewrite app_nil_r in *.
      assert (Ek : kvs_remove_nth (ka ++ [l]) (N.to_nat index) = ka).
      { unfold kvs_remove_nth. rewrite app_length. cbn [length]. destruct (Nat.eqb_spec (S (N.to_nat index)) (length ka + 1)); [|lia]. apply removelast_last. }
      rewrite Ek in HQ.
      eapply (HQ _ vs2 ia a sp2); [|reflexivity|congruence| |].
      + constructor; [exact R2| |exact N2].
        eapply sd_transport_kv; [exact Ba1|]. intros j Hj. apply Same. exact Hj.
      + eapply frame_trans; [exact Fr1|]. unfold kvfoot. exact Fr2.
      + intros n Hne Hx. destruct (Nat.lt_ge_cases n (length ia)) as [L|L]; [rewrite app_nth1 in Hx by exact L; exact Hx|].
        rewrite nth_overflow in Hx; [contradiction Hx; reflexivity|]. rewrite app_length. cbn [length]. lia.
    - (* not the last slot: the slot becomes 0 *)
      apply cwp_bind. eapply cv_replace_spec; [exact A1|cbn; unfold two64; lia|]. rewrite <- Lia, nth_error_mid.
      intros vs2 sp2 R2 D2 F2. cbn [kont cwp]. rewrite cl_upd_mid in R2.
      destruct (kv_slot_write 0 None [] Ba1 Bb1 (fun x (X : In x []) => match X with end) N1 R2 F2) as [H2 Fr2].
      { intros g' _. split; reflexivity. }
      assert (Ek : kvs_remove_nth (ka ++ l :: kb) (N.to_nat index) = ka ++ [] :: kb).
      { unfold kvs_remove_nth. rewrite !app_length in *. cbn [length] in *.
        destruct (Nat.eqb_spec (S (N.to_nat index)) (length ka + S (length kb))); [lia|].
        destruct (Nat.ltb_spec (N.to_nat index) (length ka + S (length kb))); [|lia]. rewrite <- Lka, kvs_set_nth_mid. reflexivity. }
      rewrite Ek in HQ.
      eapply (HQ vh vs2 (ia ++ 0 :: ib) (a ++ None :: b) sp2); [exact H2|reflexivity|congruence| |].
      + eapply frame_trans; [exact Fr1|exact Fr2].
      + intros n Hne Hx. rewrite (nth_mid_other ia 0 i ib n 0) by lia. exact Hx.
  Qed.
End KvRemove.
