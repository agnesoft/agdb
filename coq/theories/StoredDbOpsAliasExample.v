(* StoredDbOpsAliasExample.v — non-vacuity of the insert_new_alias theorems, on the model of storage.rs.

   sa_  (so_alias_insert_new_stored: C05_db_insert_new_alias_preserves_stored_db_partial).  The alias tables of the
        HAND-BUILT example file (StoredDbExampleBase.v) have capacity 2 — below the minimum capacity of C19's invariant,
        and full (len 1 >= 2 * 15 / 16): an insertion would grow them.  Resizing both tables to capacity 4
        (DbMapData::resize, the program cm_step .. (MoResize 4), run on the model of storage.rs and replayed on the
        abstract record map) yields a record map that HOLDS THE SAME DATABASE sx_db with the tables
            [Empty; Valid "root" 1; Empty; Empty]   and   [Valid 1 "root"; Empty; Empty; Empty].
        For the hash functions hs = (fun _ => 1), hi = (fun _ => 0) (the theorem holds for every hash function) and
        minimum capacity 4 both tables satisfy PInv, and all hypotheses of the theorem hold TOGETHER for the new alias "k"
        and the id 2 (node 2 has no alias): not in use, no grow (1 < 4 * 15 / 16 = 3), no full probe cycle, valid elements.
   sb_  the program RUN: sb_prog = the two resizes, then so_alias_insert_new for the id 2 and the alias "k", with every
        unmodelled branch (grow, in-place rehash, removals) instantiated by CDead — a run that entered one of them would
        die.  The run on the file-like storage model (every answer replayed on the abstract record map) ENDS, and by
        so_alias_insert_new_stored the record map it reaches holds insert_new_alias sx_db 2 "k".
   sg_  the GROW path: sg_prog = DbMapData::new (an EMPTY table: capacity 0, what a new database has), then
        MapImpl::insert("k", 2) with the code's own grow and in-place rehash (so_map_code): len 0 >= max_len 0, so the
        table is resized to 64 slots, rehashed, and the pair is inserted.  The run from the initial state ENDS, and by
        so_map_insert_absent_full the record map it reaches represents a table that satisfies C19's invariant (minimum
        capacity 64) and holds exactly the pair ("k", 2). *)
From Coq Require Import List NArith ZArith Arith Bool Lia Permutation.
Import ListNotations.
From Agdb Require Import Bytes BytesProofs DbModel Storage StorageSpec StorageProofs Collections CollWp CollVecBase CollElems
  CollMap CollMapHist OpenMap OpenMapRefineBase OpenMapRefineStep StoredDbRep StoredDbProofs StoredDbExampleBase StoredDbOps
  StoredDbOpsDb StoredDbOpsExample StoredDbOpsAlias StoredDbOpsAlias2 StoredDbOpsAlias3 StoredDbOpsAlias7.
Open Scope N_scope.

Definition sa_new : bytes := [x6b].                                                                     (* "k" *)
Definition sa_hs : bytes -> N := fun _ => 1.
Definition sa_hi : Z -> N := fun _ => 0.

Definition sa_t1 : cm_table bytes Z :=
  {| ct_states := [StEmpty; StValid; StEmpty; StEmpty]; ct_keys := [[]; sx_alias; []; []]; ct_values := [0; 1; 0; 0]%Z; ct_len := 1 |}.
Definition sa_t2 : cm_table Z bytes :=
  {| ct_states := [StValid; StEmpty; StEmpty; StEmpty]; ct_keys := [1; 0; 0; 0]%Z; ct_values := [sx_alias; []; []; []]; ct_len := 1 |}.

Definition sa_prog : cprog (cm_data * cm_data) :=
  r1 <~ cm_step bytes Z ce_string ce_i64 [] 0%Z (mw_d (sw_a1 sx_wit)) (MoResize 4) ;;
  r2 <~ cm_step Z bytes ce_i64 ce_string 0%Z [] (mw_d (sw_a2 sx_wit)) (MoResize 4) ;;
  CRet (fst r1, fst r2).

Lemma sa_cwp fl :
  cwp fl sa_prog (sd_spec_of sx_store)
      (fun r sp' => exists a w', r = CrOk a /\ stored_db_w (hp sp') 1 sx_db w' /\ so_alias_handles a w' /\
                                 mw_t (sw_a1 w') = sa_t1 /\ mw_t (sw_a2 w') = sa_t2).
Proof.
  unfold sa_prog. pose proof sx_stored as H.
  change sx_g with (hp (sd_spec_of sx_store)) in H.
  destruct (sr_a1 _ _ _ _ H) as (HM1 & Hi1 & Hp1).
  apply cwp_bind.
  eapply (cm_step_spec bytes Z ce_string ce_i64 law_string law_i64 [] 0%Z so_str_nil_ok so_i64_zero_ok fl);
    [exact HM1|reflexivity|vm_compute; repeat split; reflexivity|].
  intros d1 ss1 ks1 vs1 sp1 HM1' Hidx1 Hd1 Hf1. cbn [kont fst snd].
  change (fst (ct_step bytes Z [] 0%Z (mw_t (sw_a1 sx_wit)) (MoResize 4))) with sa_t1 in HM1'.
  set (m1 := {| mw_d := d1; mw_ss := ss1; mw_ks := ks1; mw_vs := vs1; mw_t := sa_t1 |}).
  destruct (sd_a1_update _ (hp sp1) 1 sx_db sx_wit m1 (k2v (aliases sx_db)) H) as [H1 Fr1]; [| |exact Hf1|].
  { split; [exact HM1'|]. split; [cbn [m1 mw_d]; rewrite Hidx1; exact Hi1|]. vm_compute. apply Permutation_refl. }
  { exact (sr_a1_keys _ _ _ _ H). }
  destruct (sr_a2 _ _ _ _ H1) as (HM2 & Hi2 & Hp2).
  apply cwp_bind.
  eapply (cm_step_spec Z bytes ce_i64 ce_string law_i64 law_string 0%Z [] so_i64_zero_ok so_str_nil_ok fl);
    [exact HM2|exact Hd1|vm_compute; repeat split; reflexivity|].
  intros d2 ss2 ks2 vs2 sp2 HM2' Hidx2 Hd2 Hf2. cbn [kont fst snd cwp].
  change (fst (ct_step Z bytes 0%Z [] (mw_t (sw_a2 (sd_with_a1 sx_wit m1))) (MoResize 4))) with sa_t2 in HM2'.
  set (m2 := {| mw_d := d2; mw_ss := ss2; mw_ks := ks2; mw_vs := vs2; mw_t := sa_t2 |}).
  destruct (sd_a2_update _ (hp sp2) 1 _ (sd_with_a1 sx_wit m1) m2 (v2k (aliases sx_db)) H1) as [H2 Fr2]; [| |exact Hf2|].
  { split; [exact HM2'|]. split; [cbn [m2 mw_d]; rewrite Hidx2; exact Hi2|]. vm_compute. apply Permutation_refl. }
  { exact (sr_a2_keys _ _ _ _ H). }
  exists (d1, d2), (sd_with_a2 (sd_with_a1 sx_wit m1) m2). split; [reflexivity|]. split.
  { eapply stored_db_w_same; [exact H2| | | |]; reflexivity. }
  split; [split; reflexivity|]. split; reflexivity.
Qed.

Lemma sa_pinv1 : PInv bytes Z sa_hs 4 (ct_omap bytes Z sa_t1).
Proof.
  split.
  - split; [reflexivity|right; vm_compute; lia].
  - intros i k v Hi Hn j Hj Hd. unfold capacity in *. cbn in Hi, Hj.
    destruct i as [|[|[|[|i]]]]; try (cbn in Hn; discriminate); [|lia].
    cbn in Hn. injection Hn as <- <-. change (hpos bytes sa_hs sx_alias _) with 1%nat in Hd. rewrite dist_self in Hd. lia.
Qed.
Lemma sa_pinv2 : PInv Z bytes sa_hi 4 (ct_omap Z bytes sa_t2).
Proof.
  split.
  - split; [reflexivity|right; vm_compute; lia].
  - intros i k v Hi Hn j Hj Hd. unfold capacity in *. cbn in Hi, Hj.
    destruct i as [|[|[|[|i]]]]; try (cbn in Hn; discriminate); [|lia].
    cbn in Hn. injection Hn as <- <-. change (hpos Z sa_hi 1%Z _) with 0%nat in Hd. rewrite dist_self in Hd. lia.
Qed.

(* with these tables the side conditions of the theorem hold for the alias "k" and the id 2 *)
Lemma sa_hyps w : mw_t (sw_a1 w) = sa_t1 -> mw_t (sw_a2 w) = sa_t2 ->
  so_alias_tables_ok sa_hs sa_hi 4 w /\ so_alias_new_ok sa_hs sa_hi w 2%Z sa_new.
Proof.
  intros E1 E2. split; [unfold so_alias_tables_ok; rewrite E1, E2; split; [exact sa_pinv1|exact sa_pinv2]|].
  unfold so_alias_new_ok. rewrite E1, E2.
  split; [vm_compute; reflexivity|]. split; [vm_compute; reflexivity|].
  split; [intros r0 Hr; vm_compute in Hr; injection Hr as <-; reflexivity|].
  split; [intros r0 Hr; vm_compute in Hr; injection Hr as <-; reflexivity|].
  split; [split; [vm_compute; reflexivity|vm_compute; reflexivity]|].
  split; [apply so_i64_ok; lia|]. split; vm_compute; reflexivity.
Qed.

Definition sb_dead : so_map_rest := {| smr_grow := fun _ => CDead; smr_rehash_in_place := fun _ => CDead |}.
Definition sb_rest : so_alias_rest :=
  {| sar_k2v := sb_dead; sar_v2k := sb_dead; sar_remove_v2k := fun _ _ => CDead; sar_remove_k2v := fun _ _ => CDead |}.

Definition sb_prog : cprog (cm_data * cm_data) :=
  a <~ sa_prog ;; so_alias_insert_new sa_hs sa_hi sb_rest a 2%Z sa_new.

Lemma sb_cwp fl :
  cwp fl sb_prog (sd_spec_of sx_store)
      (fun r sp' => exists a' w', r = CrOk a' /\ stored_db_w (hp sp') 1 (insert_new_alias sx_db 2%Z sa_new) w').
Proof.
  unfold sb_prog. apply cwp_bind. eapply cwp_mono; [|apply sa_cwp].
  intros r sp1 (a & w1 & -> & H1 & Ha & E1 & E2). cbn [kont].
  destruct (sa_hyps w1 E1 E2) as [T N'].
  assert (Hmin : (4 <= 4)%nat) by lia.
  eapply cwp_mono; [|eapply (so_alias_insert_new_stored sa_hs sa_hi 4 Hmin fl sb_rest 1 sx_db w1
                               {| so_graph := sw_g w1; so_values := sw_vh w1 |} a 2%Z sa_new sp1 H1);
                      [split; reflexivity|exact Ha|exact T|reflexivity|reflexivity|exact N']].
  intros r sp' (a' & w' & -> & H' & _). exists a', w'. split; [reflexivity|exact H'].
Qed.

(* the one run on the example file: it ends; so does its first part, the two resizes *)
Lemma sb_ends : (if so_replay (st_step cdata ops_file) true sb_prog sx_state (sd_spec_of sx_store) then true else false) = true.
Proof. vm_compute. reflexivity. Qed.

Theorem sa_sample :
  exists sp w h a,
    stored_db_w (hp sp) 1 sx_db w /\ so_handles h w /\ so_alias_handles a w /\ so_alias_tables_ok sa_hs sa_hi 4 w /\
    imap_value (aliases sx_db) sa_new = None /\ imap_key (aliases sx_db) 2%Z = None /\
    so_alias_new_ok sa_hs sa_hi w 2%Z sa_new.
Proof.
  pose proof sb_ends as E. unfold sb_prog in E. apply so_replay_bind_ends in E.
  destruct (so_replay_ends (st_step cdata ops_file) true sa_prog sx_state (sd_spec_of sx_store) _ (sa_cwp true) E) as (r & sp' & a & w' & _ & H' & Ha & E1 & E2).
  exists sp', w', {| so_graph := sw_g w'; so_values := sw_vh w' |}, a.
  destruct (sa_hyps w' E1 E2) as [T N'].
  split; [exact H'|]. split; [split; reflexivity|]. split; [exact Ha|]. split; [exact T|].
  split; [reflexivity|]. split; [reflexivity|exact N'].
Qed.

Theorem sb_sample :
  exists sp w, stored_db_w (hp sp) 1 (insert_new_alias sx_db 2%Z sa_new) w /\
               imap_value (aliases (insert_new_alias sx_db 2%Z sa_new)) sa_new = Some 2%Z /\
               imap_key (aliases (insert_new_alias sx_db 2%Z sa_new)) 2%Z = Some sa_new /\
               imap_value (aliases (insert_new_alias sx_db 2%Z sa_new)) sx_alias = Some 1%Z.
Proof.
  destruct (so_replay_ends (st_step cdata ops_file) true sb_prog sx_state (sd_spec_of sx_store) _ (sb_cwp true) sb_ends) as (r & sp' & a & w' & _ & H').
  exists sp', w'. split; [exact H'|]. split; [reflexivity|]. split; reflexivity.
Qed.

Definition sg_prog : cprog (cm_data * option Z) :=
  d <~ cm_new ;;
  so_map_insert bytes Z ce_string ce_i64 bytes_eqb sa_hs (so_map_code bytes Z ce_string ce_i64 sa_hs [] 0%Z) d sa_new 2%Z.

Lemma sg_cwp fl sp :
  cwp fl sg_prog sp
      (fun r sp' => exists d' ss ks vs t',
         r = CrOk (d', None) /\ mrep bytes Z ce_string ce_i64 law_string law_i64 (hp sp') d' ss ks vs t' /\
         PInv bytes Z sa_hs 64 (ct_omap bytes Z t') /\ Permutation (sd_table_entries t') [(sa_new, 2%Z)]).
Proof.
  unfold sg_prog. apply cwp_bind. apply (cm_new_spec bytes Z ce_string ce_i64 law_string law_i64 fl).
  intros d sp1 HS Hl Hd1 _ _. cbn [kont].
  eapply (so_map_insert_absent_full bytes Z ce_string ce_i64 law_string law_i64 bytes_eqb Z.eqb sa_hs [] 0%Z fl bytes_eqb_eq Z.eqb_eq
            so_str_nil_ok so_i64_zero_ok d [] [] [] (ct_empty bytes Z)).
  - constructor; cbn [ct_empty ct_states ct_keys ct_values ct_len]; [exact HS|exact Hl|auto].
  - apply PInv_empty.
  - intros j k v Hj. cbn in Hj. destruct j; discriminate.
  - split; vm_compute; reflexivity.
  - apply so_i64_ok. lia.
  - vm_compute. reflexivity.
  - intros _. repeat split; vm_compute; reflexivity.
  - intros d' ss' ks' vs' t' sp' HM' _ HP' Hperm _ _. exists d', ss', ks', vs', t'. auto.
Qed.

Theorem sg_sample :
  exists sp d ss ks vs t,
    mrep bytes Z ce_string ce_i64 law_string law_i64 (hp sp) d ss ks vs t /\
    PInv bytes Z sa_hs 64 (ct_omap bytes Z t) /\ Permutation (sd_table_entries t) [(sa_new, 2%Z)] /\
    64 <= lenN (ct_states t).
Proof.
  destruct (so_replay_ends (st_step cdata ops_file) true sg_prog s_init _ _ (sg_cwp true spec_init))
    as (r & sp' & d' & ss & ks & vs & t' & _ & HM & HP & Hperm); [vm_compute; reflexivity|].
  exists sp', d', ss, ks, vs, t'. split; [exact HM|]. split; [exact HP|]. split; [exact Hperm|].
  destruct HP as [[Hcv Hc] _]. unfold capacity, ct_omap in Hc. cbn [slots len] in Hc.
  pose proof HM as [_ _ [SK SV]].
  rewrite ct_slots_length in Hc by auto. unfold lenN.
  destruct Hc as [Hc|Hc]; [|lia]. exfalso.
  unfold sd_table_entries in Hperm. destruct (ct_states t'); [|discriminate]. cbn in Hperm.
  apply Permutation_nil in Hperm. discriminate.
Qed.
