(* UndoObs.v — the observational equivalence of C13 ("a failed transaction or query
   leaves no observable effect"): same elements / ids / endpoints, same properties per
   element up to order, same aliases, same indexes up to order, same node count, same
   adjacency up to order.  Plus a sound boolean checker used for the concrete examples. *)
From Agdb Require Import Bytes BytesProofs DbValue Graph GraphArr DbModel UndoBase.
From Coq Require Import Permutation ZifyBool ZifyNat ZifyN.
Ltac Zify.zify_post_hook ::= Z.div_mod_to_equations.
Open Scope Z_scope.

(* what a slot is: free (also: beyond the capacity, or slot 0), a node, or an edge with its endpoints *)
Inductive skind := KFree | KNode | KEdge (f t : Z).

Definition slot_kind (g : graph) (i : Z) : skind :=
  if valid_index g i then
    if from g i <? 0 then KEdge (edge_from g i) (edge_to g i) else KNode
  else KFree.

(* the next n slots the allocator (get_free_index) would hand out *)
Fixpoint next_slots (n : nat) (g : graph) : list Z :=
  match n with
  | O => []
  | S k => let '(i, g1) := get_free_index g in i :: next_slots k g1
  end.

Definition idx_rel (a b : option (list (dbvalue * Z))) : Prop :=
  match a, b with
  | None, None => True
  | Some l, Some l' => Permutation l l'
  | _, _ => False
  end.

Record graph_obs_eq (g g' : graph) : Prop := {
  go_kind : forall i, slot_kind g i = slot_kind g' i;
  go_count : node_count g = node_count g';
  go_out : forall n, slot_kind g n = KNode -> Permutation (out_edges g n) (out_edges g' n);
  go_in : forall n, slot_kind g n = KNode -> Permutation (in_edges g n) (in_edges g' n)
}.

(* The equivalence the property allows. *)
Record obs_eq (d d' : db) : Prop := {
  oe_graph : graph_obs_eq (gr d) (gr d');
  oe_vals : forall i, Permutation (kvs_get (vals d) i) (kvs_get (vals d') i);
  oe_alias_value : forall a, imap_value (aliases d) a = imap_value (aliases d') a;
  oe_alias_key : forall i, imap_key (aliases d) i = imap_key (aliases d') i;
  oe_indexes : forall key, idx_rel (idx_find (indexes d) key) (idx_find (indexes d') key)
}.

(* The stronger relation the implementation-side oracle effectively checks (it also compares
   ids handed out later and the degree counters reported by select edge_count). *)
Record obs_eq_strong (d d' : db) : Prop := {
  os_obs : obs_eq d d';
  os_deg_from : forall n, slot_kind (gr d) n = KNode -> edge_count_from (gr d) n = edge_count_from (gr d') n;
  os_deg_to : forall n, slot_kind (gr d) n = KNode -> edge_count_to (gr d) n = edge_count_to (gr d') n;
  os_alloc : forall n, next_slots n (gr d) = next_slots n (gr d')
}.

Lemma idx_rel_refl a : idx_rel a a.
Proof. destruct a; cbn; auto. Qed.
Lemma idx_rel_sym a b : idx_rel a b -> idx_rel b a.
Proof. destruct a, b; cbn; auto. intros. symmetry. assumption. Qed.
Lemma idx_rel_trans a b c : idx_rel a b -> idx_rel b c -> idx_rel a c.
Proof. destruct a, b, c; cbn; auto; try tauto. intros. etransitivity; eassumption. Qed.

Lemma graph_obs_eq_refl g : graph_obs_eq g g.
Proof. constructor; intros; reflexivity. Qed.
Lemma graph_obs_eq_sym g g' : graph_obs_eq g g' -> graph_obs_eq g' g.
Proof.
  intros [Hk Hc Ho Hi]. constructor; intros; try (symmetry; auto; fail).
  - symmetry. apply Ho. rewrite Hk. assumption.
  - symmetry. apply Hi. rewrite Hk. assumption.
Qed.
Lemma graph_obs_eq_trans g1 g2 g3 : graph_obs_eq g1 g2 -> graph_obs_eq g2 g3 -> graph_obs_eq g1 g3.
Proof.
  intros [Hk Hc Ho Hi] [Hk' Hc' Ho' Hi']. constructor; intros.
  - rewrite Hk. apply Hk'.
  - rewrite Hc. apply Hc'.
  - rewrite Ho by assumption. apply Ho'. rewrite <- Hk. assumption.
  - rewrite Hi by assumption. apply Hi'. rewrite <- Hk. assumption.
Qed.

Lemma obs_eq_refl d : obs_eq d d.
Proof. constructor; intros; try reflexivity. apply graph_obs_eq_refl. apply idx_rel_refl. Qed.
Lemma obs_eq_sym d d' : obs_eq d d' -> obs_eq d' d.
Proof.
  intros [Hg Hv Ha Hk Hi]. constructor; intros; try (symmetry; auto; fail).
  - apply graph_obs_eq_sym, Hg.
  - apply idx_rel_sym, Hi.
Qed.
Lemma obs_eq_trans d1 d2 d3 : obs_eq d1 d2 -> obs_eq d2 d3 -> obs_eq d1 d3.
Proof.
  intros [Hg Hv Ha Hk Hi] [Hg' Hv' Ha' Hk' Hi']. constructor; intros.
  - eapply graph_obs_eq_trans; eassumption.
  - rewrite Hv. apply Hv'.
  - rewrite Ha. apply Ha'.
  - rewrite Hk. apply Hk'.
  - eapply idx_rel_trans; [apply Hi | apply Hi'].
Qed.

Lemma obs_eq_strong_refl d : obs_eq_strong d d.
Proof. constructor; intros; try reflexivity. apply obs_eq_refl. Qed.

(* the undo stack is not part of the observable state *)
Lemma obs_eq_clear_undo d : obs_eq (clear_undo d) d.
Proof. constructor; intros; cbn; try reflexivity. apply graph_obs_eq_refl. apply idx_rel_refl. Qed.

Definition skind_eqb (a b : skind) : bool :=
  match a, b with
  | KFree, KFree => true
  | KNode, KNode => true
  | KEdge f t, KEdge f' t' => (f =? f') && (t =? t')
  | _, _ => false
  end.
Lemma skind_eqb_eq a b : skind_eqb a b = true -> a = b.
Proof. destruct a, b; cbn; try discriminate; auto. intros H. apply andb_true_iff in H. f_equal; lia. Qed.

Lemma slot_kind_abs g i : slot_kind g (Z.abs i) = slot_kind g i.
Proof.
  unfold slot_kind, valid_index, edge_from, edge_to, from, to, fmeta. rewrite !get_abs, Z.abs_involutive.
  replace (Z.abs i =? 0) with (i =? 0) by lia. reflexivity.
Qed.


Lemma slot_kind_out g i : capacity g <= Z.abs i -> slot_kind g i = KFree.
Proof.
  intros H. unfold slot_kind, valid_index.
  replace (Z.abs i <? capacity g) with false by lia. rewrite andb_false_r. reflexivity.
Qed.

Definition gcap (g g' : graph) : nat := Nat.max (length (g_from g)) (length (g_from g')).

Definition graph_obs_eqb (g g' : graph) : bool :=
  forallb (fun k => let i := Z.of_nat k in
             skind_eqb (slot_kind g i) (slot_kind g' i) &&
             match slot_kind g i with
             | KNode => permb Z.eqb (out_edges g i) (out_edges g' i) && permb Z.eqb (in_edges g i) (in_edges g' i)
             | _ => true
             end) (seq 0 (gcap g g'))
  && (node_count g =? node_count g').

Lemma graph_obs_eqb_sound g g' : graph_obs_eqb g g' = true -> graph_obs_eq g g'.
Proof.
  unfold graph_obs_eqb. intros H. apply andb_true_iff in H. destruct H as [Hall Hc].
  rewrite forallb_forall in Hall.
  assert (Hslot : forall i : Z,
             (Z.abs i < Z.of_nat (gcap g g') ->
              skind_eqb (slot_kind g i) (slot_kind g' i) &&
              match slot_kind g i with
              | KNode => permb Z.eqb (out_edges g i) (out_edges g' i) && permb Z.eqb (in_edges g i) (in_edges g' i)
              | _ => true
              end = true)).
  { intros i Hi. specialize (Hall (Z.to_nat (Z.abs i))).
    rewrite Z2Nat.id in Hall by lia.
    rewrite !slot_kind_abs, !out_edges_abs, !in_edges_abs in Hall. apply Hall.
    apply in_seq. lia. }
  assert (Hbig : forall i : Z, Z.of_nat (gcap g g') <= Z.abs i ->
             slot_kind g i = KFree /\ slot_kind g' i = KFree).
  { intros i Hi. unfold gcap in Hi. split; apply slot_kind_out; unfold capacity; lia. }
  assert (Hperm : forall n, slot_kind g n = KNode ->
             permb Z.eqb (out_edges g n) (out_edges g' n) = true /\ permb Z.eqb (in_edges g n) (in_edges g' n) = true).
  { intros n Hn. destruct (Z_lt_le_dec (Z.abs n) (Z.of_nat (gcap g g'))) as [Hi|Hi].
    - specialize (Hslot n Hi). rewrite Hn in Hslot. apply andb_true_iff in Hslot. destruct Hslot as [_ Hp].
      apply andb_true_iff in Hp. exact Hp.
    - destruct (Hbig n Hi) as [E _]. congruence. }
  constructor.
  - intros i. destruct (Z_lt_le_dec (Z.abs i) (Z.of_nat (gcap g g'))) as [Hi|Hi].
    + specialize (Hslot i Hi). apply andb_true_iff in Hslot. apply skind_eqb_eq, Hslot.
    + destruct (Hbig i Hi) as [-> ->]. reflexivity.
  - lia.
  - intros n Hn. eapply permb_sound; [intros; apply Z.eqb_eq | apply (Hperm n Hn)].
  - intros n Hn. eapply permb_sound; [intros; apply Z.eqb_eq | apply (Hperm n Hn)].
Qed.

Definition vals_eqb (s s' : kvstore) : bool :=
  forallb (fun k => permb kv_eqb (nth k s []) (nth k s' [])) (seq 0 (Nat.max (length s) (length s'))).

Lemma vals_eqb_sound s s' : vals_eqb s s' = true -> forall i, Permutation (kvs_get s i) (kvs_get s' i).
Proof.
  unfold vals_eqb, kvs_get. intros H i. rewrite forallb_forall in H.
  destruct (Nat.lt_ge_cases (zabs_nat i) (Nat.max (length s) (length s'))) as [Hi|Hi].
  - eapply permb_sound; [apply kv_eqb_eq|]. apply H. apply in_seq. lia.
  - rewrite !nth_overflow by lia. constructor.
Qed.

Section AssocCheck.
  Context {K V : Type} (keqb : K -> K -> bool) (keqb_spec : forall x y, reflect (x = y) (keqb x y)).
  Context (veqb : V -> V -> bool) (veqb_eq : forall x y, veqb x y = true -> x = y).

  Definition opt_eqb (a b : option V) : bool :=
    match a, b with Some x, Some y => veqb x y | None, None => true | _, _ => false end.
  Lemma opt_eqb_eq a b : opt_eqb a b = true -> a = b.
  Proof. destruct a, b; cbn; try discriminate; auto. intros H. f_equal. auto. Qed.

  Lemma alookup_in_keys (m : list (K * V)) k v : alookup keqb m k = Some v -> In k (map fst m).
  Proof.
    induction m as [|[k0 v0] r IH]; cbn [alookup map fst]; [discriminate|].
    destruct (keqb_spec k0 k) as [->|N]; [left; reflexivity | right; auto].
  Qed.

  Definition aeqb (m m' : list (K * V)) : bool :=
    forallb (fun k => opt_eqb (alookup keqb m k) (alookup keqb m' k)) (map fst m ++ map fst m').

  Lemma aeqb_sound m m' : aeqb m m' = true -> forall k, alookup keqb m k = alookup keqb m' k.
  Proof.
    unfold aeqb. intros H k. rewrite forallb_forall in H.
    destruct (alookup keqb m k) eqn:E1.
    - rewrite <- E1. apply opt_eqb_eq, H, in_or_app. left. eapply alookup_in_keys, E1.
    - destruct (alookup keqb m' k) eqn:E2; [|reflexivity].
      rewrite <- E1, <- E2. apply opt_eqb_eq, H, in_or_app. right. eapply alookup_in_keys, E2.
  Qed.
End AssocCheck.

Definition idx_relb (a b : option (list (dbvalue * Z))) : bool :=
  match a, b with
  | None, None => true
  | Some l, Some l' => permb vid_eqb l l'
  | _, _ => false
  end.
Lemma idx_relb_sound a b : idx_relb a b = true -> idx_rel a b.
Proof.
  destruct a, b; cbn; try discriminate; auto. apply permb_sound, vid_eqb_eq.
Qed.

Lemma idx_find_in ix key l : idx_find ix key = Some l -> In key (map fst ix).
Proof.
  unfold idx_find. destruct (find _ ix) eqn:E; [|discriminate]. intros _.
  apply find_some in E. destruct E as [Hin Hk]. apply DbValueEqProofs.dbv_eqb_true in Hk. subst.
  apply in_map, Hin.
Qed.

Definition indexes_eqb (ix ix' : list index) : bool :=
  forallb (fun k => idx_relb (idx_find ix k) (idx_find ix' k)) (map fst ix ++ map fst ix').

Lemma indexes_eqb_sound ix ix' : indexes_eqb ix ix' = true -> forall key, idx_rel (idx_find ix key) (idx_find ix' key).
Proof.
  unfold indexes_eqb. intros H key. rewrite forallb_forall in H.
  destruct (idx_find ix key) eqn:E1.
  - rewrite <- E1. apply idx_relb_sound, H, in_or_app. left. eapply idx_find_in, E1.
  - destruct (idx_find ix' key) eqn:E2; [|exact I].
    rewrite <- E1, <- E2. apply idx_relb_sound, H, in_or_app. right. eapply idx_find_in, E2.
Qed.

Definition obs_eqb (d d' : db) : bool :=
  graph_obs_eqb (gr d) (gr d') &&
  vals_eqb (vals d) (vals d') &&
  aeqb bytes_eqb Z.eqb (k2v (aliases d)) (k2v (aliases d')) &&
  aeqb Z.eqb bytes_eqb (v2k (aliases d)) (v2k (aliases d')) &&
  indexes_eqb (indexes d) (indexes d').

Lemma obs_eqb_sound d d' : obs_eqb d d' = true -> obs_eq d d'.
Proof.
  unfold obs_eqb. rewrite !andb_true_iff. intros [[[[Hg Hv] Ha] Hk] Hi]. constructor.
  - apply graph_obs_eqb_sound, Hg.
  - apply vals_eqb_sound, Hv.
  - unfold imap_value. eapply aeqb_sound; [apply bytes_eqb_spec | | apply Ha]. intros; lia.
  - unfold imap_key. eapply aeqb_sound; [apply Z.eqb_spec | | apply Hk]. intros x y E. apply bytes_eqb_eq, E.
  - apply indexes_eqb_sound, Hi.
Qed.

(* the strong relation: allocation order is compared for `depth` allocations; degree counters *)
Definition obs_eq_strongb (depth : nat) (d d' : db) : bool :=
  obs_eqb d d' &&
  forallb (fun k => let i := Z.of_nat k in
             match slot_kind (gr d) i with
             | KNode => (edge_count_from (gr d) i =? edge_count_from (gr d') i) &&
                        (edge_count_to (gr d) i =? edge_count_to (gr d') i)
             | _ => true
             end) (seq 0 (gcap (gr d) (gr d')))
  && list_eqb Z.eqb (next_slots depth (gr d)) (next_slots depth (gr d')).
