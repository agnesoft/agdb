(* C17 — Path search returns a minimum-cost path.
   The statements, each proved in a few lines from the theorems of theories/PathProofs.v.

   Model: Search.v `path_loop` / `path_search` (graph_search/path_search.rs + PathHandler of
   db/db_search_handlers.rs).  The graph hypotheses are `adj_ok` (AdjOk.v).  The revision only
   enters through the value comparison inside `eval_conditions`; every theorem holds for every
   revision `rv`.

   Vocabulary (PathProofs.v):
     ecost rv d conds x   the cost PathHandler::process gives element x: 1 if x passes the
                          conditions, 2 if it does not, 0 if the conditions stop the search at x
                          (C17_ecost); `usable` = non-zero cost
     esel  rv d conds x   whether x passes the conditions (C17_esel)
     is_path g o w p      p = [o; e1; n1; ...; ek; w] alternates nodes and existing edges, each
                          edge leading from the node before it to the node after it; o is an
                          existing node (a walk: repeated nodes are allowed)
     cost p / usable_path p   sum of ecost / all ecost non-zero, over the elements after the origin
     dist_free conds      no `distance` condition and no `beyond` modifier at any depth: the
                          conditions do not look at the distance argument (C17_dist_free).
                          PathSearch passes |current path| + 1 as "distance" for both the edge
                          and the node it reaches, so for distance-dependent conditions the cost
                          of an element depends on the path it is reached by and "minimum cost"
                          has no path-independent meaning; optimality is stated for dist_free
                          condition lists. *)
From Agdb Require Import Bytes Graph DbModel Search Revisions AdjOk PathProofs.
From Agdb Require AdjOkWf.
From Coq Require Import ZifyBool ZifyNat.
Open Scope Z_scope.

(* ---- the vocabulary means what it says ---- *)

Theorem C17_ecost : forall rv d conds x,
  ecost rv d conds x = match eval_conditions rv d x 0 conds with
                       | Continue true => 1 | Continue false => 2 | _ => 0 end.
Proof.
  intros. unfold ecost, path_cost. destruct (eval_conditions rv d x 0 conds) as [b|b|b]; try destruct b; reflexivity.
Qed.
Print Assumptions C17_ecost.

Theorem C17_esel : forall rv d conds x, esel rv d conds x = sc_true (eval_conditions rv d x 0 conds).
Proof. intros. unfold esel, path_cost. destruct (eval_conditions rv d x 0 conds) as [b|b|b]; reflexivity. Qed.
Print Assumptions C17_esel.

Theorem C17_dist_free : forall rv d i k1 k2 conds,
  dist_free conds = true -> eval_conditions rv d i k1 conds = eval_conditions rv d i k2 conds.
Proof. exact eval_conditions_dist_free. Qed.
Print Assumptions C17_dist_free.

(* is_path (built from the origin by appending an edge and its target) read from the front:
   is_pathb g o w (x :: l) checks x = o, o is an existing node, and l = [e1; n1; ...; ek; nk]
   where every ei is an existing edge from the previous node to ni, ending at w *)
Theorem C17_is_path_checker : forall g o w p, adj_ok g -> (is_pathb g o w p = true <-> is_path g o w p).
Proof. exact is_pathb_spec. Qed.
Print Assumptions C17_is_path_checker.

(* ---- the internal result of the loop, started as path_search starts it ---- *)

(* the initial work list: the origin alone, cost 0, with the flag `add` of the origin; path_search
   runs the loop with add := esel o and returns  map fst (filter snd els) *)
Theorem C17_init : forall o add, init o add = {| p_elems := [(o, add)]; p_cost := 0 |}.
Proof. reflexivity. Qed.
Print Assumptions C17_init.

Theorem C17_path_search_unfold : forall rv d conds o dst,
  node_id (gr d) o = true -> node_id (gr d) dst = true -> o <> dst ->
  path_search rv d conds o dst =
  match path_loop rv d conds dst (path_fuel (gr d)) [init o (esel rv d conds o)] [] with
  | Some els => Some (map fst (filter snd els))
  | None => None
  end.
Proof. exact path_search_unfold. Qed.
Print Assumptions C17_path_search_unfold.

(* soundness: a non-empty result is a path from the origin to the destination, all of whose
   elements after the origin are usable, each carrying its own selection flag *)
Theorem C17_sound : forall rv d conds o dst add fuel els,
  adj_ok (gr d) -> dist_free conds = true -> node_id (gr d) o = true ->
  path_loop rv d conds dst fuel [init o add] [] = Some els -> els <> [] ->
  is_path (gr d) o dst (map fst els) /\ usable_path rv d conds (map fst els) /\
  flags_ok rv d conds add els.
Proof.
  intros rv d conds o dst add fuel els Hok Hdf Ho H Hne.
  destruct (path_loop_init_spec rv d conds o dst add fuel els Hok Hdf Ho H) as [[E _] | (H1 & H2 & H3 & _)];
    [contradiction | exact (conj H1 (conj H2 H3))].
Qed.
Print Assumptions C17_sound.

(* optimality (Dijkstra): no usable path from the origin to the destination is cheaper *)
Theorem C17_optimal : forall rv d conds o dst add fuel els,
  adj_ok (gr d) -> dist_free conds = true -> node_id (gr d) o = true ->
  path_loop rv d conds dst fuel [init o add] [] = Some els -> els <> [] ->
  forall q, is_path (gr d) o dst q -> usable_path rv d conds q ->
            cost rv d conds (map fst els) <= cost rv d conds q.
Proof.
  intros rv d conds o dst add fuel els Hok Hdf Ho H Hne.
  destruct (path_loop_init_spec rv d conds o dst add fuel els Hok Hdf Ho H) as [[E _] | (_ & _ & _ & H4)];
    [contradiction | exact H4].
Qed.
Print Assumptions C17_optimal.

(* the internal result is empty exactly when there is no usable path *)
Theorem C17_empty_iff : forall rv d conds o dst add fuel els,
  adj_ok (gr d) -> dist_free conds = true -> node_id (gr d) o = true ->
  path_loop rv d conds dst fuel [init o add] [] = Some els ->
  (els = [] <-> forall q, is_path (gr d) o dst q -> ~ usable_path rv d conds q).
Proof.
  intros rv d conds o dst add fuel els Hok Hdf Ho H.
  destruct (path_loop_init_spec rv d conds o dst add fuel els Hok Hdf Ho H) as [[E Hno] | (H1 & H2 & _)].
  - split; [intros _; exact Hno | intros _; exact E].
  - split.
    + intros E. subst els. exfalso. apply (is_path_not_nil _ _ _ H1).
    + intros Hno. exfalso. apply (Hno _ H1 H2).
Qed.
Print Assumptions C17_empty_iff.

(* with the fuel path_search supplies, the loop always answers (every condition list) *)
Theorem C17_loop_no_fuel : forall rv d conds dst,
  adj_ok (gr d) -> forall o add, node_id (gr d) o = true ->
  path_loop rv d conds dst (length (g_from (gr d)) * length (g_from (gr d)) + 2)
            [ {| p_elems := [(o, add)]; p_cost := 0 |} ] [] <> None.
Proof.
  intros rv d conds dst Hok o add Ho. apply (path_loop_init_fuel rv d conds dst Hok).
  pose proof (node_id_bounds _ _ Ho) as (Hpos & _). rewrite Z.abs_eq by lia. exact Ho.
Qed.
Print Assumptions C17_loop_no_fuel.

(* ---- path_search itself ---- *)

(* the fuel is never exhausted, for every condition list and all arguments *)
Theorem C17_no_fuel : forall rv d conds dst,
  adj_ok (gr d) -> forall o, path_search rv d conds o dst <> None.
Proof. exact path_search_no_fuel. Qed.
Print Assumptions C17_no_fuel.

(* For distinct existing nodes the search answers; the answer is either empty because no usable
   path exists, or the selected (condition-passing) elements, in order and the origin included,
   of a minimum-cost usable path.
   NOTE the final result can also be empty in the second case: when no element of the minimum-cost
   path passes the conditions (C17_nothing_selected below).  "Empty exactly when no usable path
   exists" therefore holds for the internal result (C17_empty_iff) and, at the level of
   path_search, when every element passes (C17_no_conditions_empty_iff). *)
Theorem C17_path_search : forall rv d conds o dst,
  adj_ok (gr d) -> dist_free conds = true ->
  node_id (gr d) o = true -> node_id (gr d) dst = true -> o <> dst ->
  exists r, path_search rv d conds o dst = Some r /\
    ((r = [] /\ forall q, is_path (gr d) o dst q -> ~ usable_path rv d conds q) \/
     (exists p, is_path (gr d) o dst p /\ usable_path rv d conds p /\
                r = filter (esel rv d conds) p /\
                forall q, is_path (gr d) o dst q -> usable_path rv d conds q ->
                          cost rv d conds p <= cost rv d conds q)).
Proof. exact path_search_total. Qed.
Print Assumptions C17_path_search.

(* a non-empty answer (ids as DbImpl resolves nodes: positive) *)
Theorem C17_path_search_sound : forall rv d conds o dst r,
  adj_ok (gr d) -> dist_free conds = true -> 0 < o -> 0 < dst ->
  path_search rv d conds o dst = Some r -> r <> [] ->
  exists p, is_path (gr d) o dst p /\ usable_path rv d conds p /\
            r = filter (esel rv d conds) p /\
            forall q, is_path (gr d) o dst q -> usable_path rv d conds q ->
                      cost rv d conds p <= cost rv d conds q.
Proof. exact path_search_sound. Qed.
Print Assumptions C17_path_search_sound.

(* for ANY condition list, also distance-dependent ones (where element costs depend on the path
   and only this part of the property is meaningful): a non-empty answer consists of the
   flagged elements of a directed path from the origin to the destination *)
Theorem C17_sound_any_conditions : forall rv d conds dst,
  adj_ok (gr d) -> forall o r, 0 < o -> 0 < dst ->
  path_search rv d conds o dst = Some r -> r <> [] ->
  exists els, r = map fst (filter snd els) /\ is_path (gr d) o dst (map fst els).
Proof. exact path_search_any_sound. Qed.
Print Assumptions C17_sound_any_conditions.

(* origin = destination, or an endpoint that is not a node: empty *)
Theorem C17_degenerate : forall rv d conds o dst,
  o = dst \/ is_node (gr d) o = false \/ is_node (gr d) dst = false ->
  path_search rv d conds o dst = Some [].
Proof. exact path_search_degenerate. Qed.
Print Assumptions C17_degenerate.

(* without conditions every element costs 1 and is selected: the result is empty exactly when the
   origin equals the destination, an endpoint is not an existing node, or no path exists ... *)
Theorem C17_no_conditions_empty_iff : forall rv d o dst,
  adj_ok (gr d) -> 0 < o -> 0 < dst ->
  (path_search rv d [] o dst = Some [] <->
   o = dst \/ node_id (gr d) o = false \/ node_id (gr d) dst = false \/
   forall q, ~ is_path (gr d) o dst q).
Proof. exact path_search_nil_empty_iff. Qed.
Print Assumptions C17_no_conditions_empty_iff.

(* ... and otherwise it is a complete path with the fewest elements *)
Theorem C17_no_conditions_shortest : forall rv d o dst r,
  adj_ok (gr d) -> 0 < o -> 0 < dst ->
  path_search rv d [] o dst = Some r -> r <> [] ->
  is_path (gr d) o dst r /\ forall q, is_path (gr d) o dst q -> (length r <= length q)%nat.
Proof.
  intros rv d o dst r Hok Hopos Hdpos H Hne.
  destruct (path_search_sound rv d [] o dst r Hok eq_refl Hopos Hdpos H Hne) as (p & H1 & _ & H3 & H4).
  rewrite filter_esel_nil in H3. subst p. split; [exact H1|].
  intros q Hq. specialize (H4 q Hq (usable_path_nil rv d q)). rewrite !cost_nil in H4.
  destruct (is_path_nonempty _ _ _ _ H1) as [t1 E1]. destruct (is_path_nonempty _ _ _ _ Hq) as [t2 E2].
  subst r q. cbn [tl length] in *. lia.
Qed.
Print Assumptions C17_no_conditions_shortest.

(* ---- non-vacuity (example_graph of AdjOk.v: 1 -(-4)-> 2, 1 -(-5)-> 3, 2 -(-6)-> 3, 3 -(-7)-> 1,
        2 -(-8)-> 2) ---- *)

Example C17_plain :
  adj_ok (gr dbg) /\ path_search rv_fixed dbg [] 1 3 = Some [1; -5; 3] /\
  is_path (gr dbg) 1 3 [1; -5; 3].
Proof. exact ex_plain. Qed.
Print Assumptions C17_plain.

(* graph5: 1 -(-6)-> 2 -(-7)-> 5 and 1 -(-8)-> 3 -(-9)-> 4 -(-10)-> 5; conds5 fails exactly
   2, -6, -7: the cheapest path (cost 6) has more hops than the shortest one (cost 7) *)
Example C17_cost_vs_hops :
  adj_ok (gr db5) /\ dist_free conds5 = true /\
  path_search rv_fixed db5 [] 1 5 = Some [1; -6; 2; -7; 5] /\
  path_search rv_fixed db5 conds5 1 5 = Some [1; -8; 3; -9; 4; -10; 5] /\
  is_pathb (gr db5) 1 5 [1; -6; 2; -7; 5] = true /\
  is_pathb (gr db5) 1 5 [1; -8; 3; -9; 4; -10; 5] = true /\
  cost rv_fixed db5 conds5 [1; -6; 2; -7; 5] = 7 /\
  cost rv_fixed db5 conds5 [1; -8; 3; -9; 4; -10; 5] = 6.
Proof. exact ex_cost_vs_hops. Qed.
Print Assumptions C17_cost_vs_hops.

(* an element at which the conditions stop the search is not used *)
Example C17_stop :
  dist_free [Cond LAnd MNotBeyond (CIds [QId (-5)])] = true /\
  ecost rv_fixed dbg [Cond LAnd MNotBeyond (CIds [QId (-5)])] (-5) = 0 /\
  path_search rv_fixed dbg [Cond LAnd MNotBeyond (CIds [QId (-5)])] 1 3 = Some [1; -4; 2; -6; 3] /\
  path_search rv_fixed dbg [Cond LAnd MNotBeyond (CIds [QId (-5); QId 2])] 1 3 = Some [].
Proof. exact ex_stop. Qed.
Print Assumptions C17_stop.

(* a usable minimum-cost path is found (internal result) but none of its elements passes the
   conditions, so the final result is empty *)
Example C17_nothing_selected :
  let cs := [Cond LAnd MNone (CIds [QId 2; QId (-6)])] in
  dist_free cs = true /\
  path_loop rv_fixed dbg cs 3 (path_fuel (gr dbg)) [init 1 (esel rv_fixed dbg cs 1)] [] =
    Some [(1, false); (-5, false); (3, false)] /\
  path_search rv_fixed dbg cs 1 3 = Some [].
Proof. exact ex_nothing_selected. Qed.
Print Assumptions C17_nothing_selected.

(* Why optimality and "empty iff no usable path" are stated for dist_free conditions.
   graph6: 1 -(-7)-> 2 -(-8)-> 3, 1 -(-9)-> 4 -(-10)-> 5 -(-11)-> 3, 3 -(-12)-> 6; conds6 =
   distance < 7 and "not one of 2, -7, -8".  Node 3 is settled through the cheaper 3-hop path;
   from there edge -12 is met at "distance" 8 and refused.  Along 1 -7 2 -8 3 -12 6 every
   element has a non-zero cost at the distance the search gives it, yet the result is empty. *)
Example C17_distance_dependent :
  adj_ok (gr db6) /\ dist_free conds6 = false /\
  path_search rv_fixed db6 conds6 1 6 = Some [] /\
  is_pathb (gr db6) 1 6 [1; -7; 2; -8; 3; -12; 6] = true /\
  map fst [path_cost rv_fixed db6 conds6 (-7) 2; path_cost rv_fixed db6 conds6 2 2;
           path_cost rv_fixed db6 conds6 (-8) 4; path_cost rv_fixed db6 conds6 3 4;
           path_cost rv_fixed db6 conds6 (-12) 6; path_cost rv_fixed db6 conds6 6 6] = [2; 2; 2; 1; 1; 1] /\
  path_search rv_fixed db6 [Cond LAnd MNone (CDistance (KLessThan 7))] 1 6 = Some [1; -7; 2; -8; 3; -12; 6].
Proof. exact ex_distance_dependent. Qed.
Print Assumptions C17_distance_dependent.

Example C17_degenerate_examples :
  path_search rv_fixed dbg [] 1 1 = Some [] /\ path_search rv_fixed dbg [] 1 9 = Some [] /\
  path_search rv_fixed dbg [] 9 1 = Some [].
Proof. exact ex_degenerate. Qed.
Print Assumptions C17_degenerate_examples.

(* ---- the hypothesis adj_ok is discharged by the graph invariant (AdjOkWf.v): wf holds after
   every history of graph operations from the empty graph (GraphSpec.grun_wf) ---- *)
Theorem C17_path_search_wf : forall rv d conds o dst,
  GraphSim.wf (gr d) -> dist_free conds = true ->
  node_id (gr d) o = true -> node_id (gr d) dst = true -> o <> dst ->
  exists r, path_search rv d conds o dst = Some r /\
    ((r = [] /\ forall q, is_path (gr d) o dst q -> ~ usable_path rv d conds q) \/
     (exists p, is_path (gr d) o dst p /\ usable_path rv d conds p /\
                r = filter (esel rv d conds) p /\
                forall q, is_path (gr d) o dst q -> usable_path rv d conds q ->
                          cost rv d conds p <= cost rv d conds q)).
Proof. intros rv d conds o dst Hwf. apply path_search_total, AdjOkWf.wf_adj_ok, Hwf. Qed.
Print Assumptions C17_path_search_wf.
