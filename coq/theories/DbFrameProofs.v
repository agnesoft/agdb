(* DbFrameProofs.v — which component of the database each DbModel-level function touches
   (frame lemmas), and generic fold principles.  Used by the C09 / C10 / C11 proofs. *)
From Agdb Require Import Bytes DbValue Graph DbModel.
Open Scope Z_scope.

Lemma fold_left_inv {A B} (P : A -> Prop) (f : A -> B -> A) (l : list B) (a : A) :
  P a -> (forall acc x, In x l -> P acc -> P (f acc x)) -> P (fold_left f l a).
Proof.
  revert a. induction l as [|x l IH]; cbn [fold_left]; intros a Ha Hf; [exact Ha|].
  apply IH.
  - apply Hf; [now left|exact Ha].
  - intros acc y Hy. apply Hf. now right.
Qed.

Section Frames.
  Variable rv : revision.

  Lemma index_insert_if_fields d k v id :
    gr (index_insert_if d k v id) = gr d /\ aliases (index_insert_if d k v id) = aliases d /\
    vals (index_insert_if d k v id) = vals d /\ undo (index_insert_if d k v id) = undo d.
  Proof. repeat split. Qed.

  Lemma index_remove_if_fields d k v id :
    gr (index_remove_if d k v id) = gr d /\ aliases (index_remove_if d k v id) = aliases d /\
    vals (index_remove_if d k v id) = vals d /\ undo (index_remove_if d k v id) = undo d.
  Proof. repeat split. Qed.

  (* key-value mutations leave graph and aliases alone *)
  Definition same_ga (d d' : db) : Prop := gr d' = gr d /\ aliases d' = aliases d.

  Lemma same_ga_refl d : same_ga d d.
  Proof. split; reflexivity. Qed.

  Lemma same_ga_trans d1 d2 d3 : same_ga d1 d2 -> same_ga d2 d3 -> same_ga d1 d3.
  Proof. intros [A B] [C D]. split; congruence. Qed.

  Lemma insert_key_value_ga d id x : same_ga d (insert_key_value d id x).
  Proof. split; reflexivity. Qed.

  Lemma insert_or_replace_key_value_ga d id x : same_ga d (insert_or_replace_key_value d id x).
  Proof.
    unfold insert_or_replace_key_value.
    destruct (kvs_insert_or_replace (vals d) id x) as [[old|] s]; split; reflexivity.
  Qed.

  Lemma reserve_kv_ga d id : same_ga d (reserve_kv d id).
  Proof. split; reflexivity. Qed.

  Lemma remove_all_values_ga d id : same_ga d (remove_all_values d id).
  Proof.
    unfold remove_all_values.
    set (f := fun acc (x : kv) => push_undo (index_remove_if acc (fst x) (snd x) id) (CInsertKeyValue id x)).
    assert (H : same_ga d (fold_left f (kvs_get (vals d) id) d)).
    { apply fold_left_inv; [apply same_ga_refl|].
      intros acc x _ Hacc. eapply same_ga_trans; [exact Hacc|]. split; reflexivity. }
    eapply same_ga_trans; [exact H|]. split; reflexivity.
  Qed.

  Lemma remove_keys_ga d id keys : same_ga d (snd (remove_keys d id keys)).
  Proof.
    unfold remove_keys.
    apply (fold_left_inv (fun acc : Z * db => same_ga d (snd acc))); [apply same_ga_refl|].
    intros [n a] x _ Hacc. cbn [snd] in *.
    destruct (mem dbv_eqb (fst x) keys); cbn [snd]; [|exact Hacc].
    eapply same_ga_trans; [exact Hacc|]. split; reflexivity.
  Qed.

  (* alias mutations leave graph, values and indexes alone *)
  Definition same_gvi (d d' : db) : Prop := gr d' = gr d /\ vals d' = vals d /\ indexes d' = indexes d.

  Lemma insert_new_alias_gvi d id a : same_gvi d (insert_new_alias d id a).
  Proof. repeat split. Qed.

  Lemma insert_alias_gvi d id a : same_gvi d (insert_alias rv d id a).
  Proof.
    unfold insert_alias.
    destruct (imap_key (aliases d) id) as [old|]; cbn zeta;
      destruct (fix_alias_steal_undo rv);
      repeat match goal with |- context [match ?x with Some _ => _ | None => _ end] => destruct x end;
      repeat split.
  Qed.

  Lemma remove_alias_gvi d a : same_gvi d (snd (remove_alias d a)).
  Proof. unfold remove_alias. destruct (imap_value (aliases d) a); repeat split. Qed.

  Lemma insert_node_db_fields d :
    aliases (snd (insert_node_db d)) = aliases d /\ vals (snd (insert_node_db d)) = vals d /\
    indexes (snd (insert_node_db d)) = indexes d /\
    gr (snd (insert_node_db d)) = snd (insert_node (gr d)) /\ fst (insert_node_db d) = fst (insert_node (gr d)).
  Proof. unfold insert_node_db. destruct (insert_node (gr d)) as [i g]. repeat split. Qed.

  Lemma insert_edge_db_fields d f t i d' :
    insert_edge_db d f t = ROk (i, d') ->
    exists g, insert_edge (gr d) f t = Some (i, g) /\ gr d' = g /\
              aliases d' = aliases d /\ vals d' = vals d /\ indexes d' = indexes d.
  Proof.
    unfold insert_edge_db. destruct (insert_edge (gr d) f t) as [[i0 g]|]; [|discriminate].
    intros H. inversion H; subst. exists g. repeat split.
  Qed.
End Frames.

(* remove_node_db drops the alias, removes the incident edges one by one (each with its values), then
   the node: a property of states that the first state has and the two kinds of steps keep holds of
   the result, wherever the cascade stops *)
Lemma remove_node_db_keeps (P : db -> Prop) d n alias :
  let d1 := match alias with
            | Some a => with_aliases (push_undo d (CInsertAlias n a)) (imap_remove_key (imap_remove_key (aliases d) a) a)
            | None => d
            end in
  P d1 ->
  (forall a ei f t g, In (ei, f, t) (node_edges d1 n) -> P a -> Graph.remove_edge (gr a) ei = Some g ->
                      P (remove_all_values (push_undo (with_gr a g) (CInsertEdge f t)) ei)) ->
  (forall a g, P a -> Graph.remove_node (gr a) n = Some g -> P (push_undo (with_gr a g) CInsertNode)) ->
  P (fst (remove_node_db d n alias)).
Proof.
  intros d1 H1 He Hn. unfold remove_node_db. cbv zeta. fold d1.
  destruct (negb (is_node (gr d1) n)); [exact H1|].
  match goal with |- context [fold_left ?f ?l ?a0] => assert (H2 : P (fst (fold_left f l a0))) end.
  { apply (fold_left_inv (fun acc : db * option errkind => P (fst acc))); [exact H1|].
    intros [a [k|]] [[ei f] t] Hin Hacc; cbn [fst] in *; [exact Hacc|].
    destruct (Graph.remove_edge (gr a) ei) as [g|] eqn:E; cbn [fst]; [|exact Hacc]. now apply (He a ei f t g Hin). }
  match goal with |- context [fold_left ?f ?l ?a0] => destruct (fold_left f l a0) as [d2 [k|]] end; [exact H2|].
  cbn [fst] in H2. destruct (Graph.remove_node (gr d2) n) as [g|] eqn:E; cbn [fst]; [now apply Hn|exact H2].
Qed.
