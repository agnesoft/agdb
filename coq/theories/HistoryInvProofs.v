(* HistoryInvProofs.v — the combined invariant along histories: sequences of queries each executed
   as its own transaction (`exec`) that do not fail; what it says of values, aliases and indexes. *)
From Agdb Require Import Bytes BytesProofs DbValue Graph DbModel Search Queries Revisions
  GraphSim GraphWf AliasProofs KvProofs KvDbProofs KvSelectProofs
  IndexProofs IndexDbProofs IndexDb3Proofs IndexDb4Proofs IndexInvProofs
  DbInvProofs QueryInvProofs SearchLiveProofs QStepProofs.
Open Scope Z_scope.

(* every query of the history is committed (returns a result, not an error) *)
Fixpoint all_succeed (rv : revision) (d : db) (qs : list query) : Prop :=
  match qs with
  | [] => True
  | q :: r => is_failure (snd (exec rv d q)) = false /\ all_succeed rv (fst (exec rv d q)) r
  end.

Lemma Inv_aliases d : Inv d -> alias_bij d /\ alias_nodes d.
Proof. intros (_ & H2 & H3 & _). now split. Qed.

Lemma Inv_distinct d : Inv d -> kvs_distinct (vals d).
Proof. intros (_ & _ & _ & H4 & _). exact H4. Qed.

Lemma Inv_index d : Inv d -> idx_exact d /\ vals_live d /\ idx_distinct d.
Proof. intros (_ & _ & _ & _ & H5). exact H5. Qed.

Lemma Inv_values d : Inv d -> kvs_distinct (vals d) /\ vals_live d.
Proof. intros H. split; [now apply Inv_distinct|apply (Inv_index _ H)]. Qed.

Lemma Inv_indexes d :
  Inv d ->
  idx_inv d /\
  (forall key ids value id, idx_find (indexes d) key = Some ids ->
     count_occ Z.eq_dec (map snd (filter (fun p : dbvalue * Z => dbv_eqb (fst p) value) ids)) id =
     if live d id then match kvs_value (vals d) id key with
                       | Some v' => b2nat (dbv_eqb v' value)
                       | None => 0%nat
                       end
     else 0%nat) /\
  (forall rv, exec_select rv d SelectIndexes =
    QOk (lenZ (indexes d))
        [ {| e_id := 0; e_from := 0; e_to := 0;
             e_values := map (fun ix : index => (fst ix, DU64 (N.of_nat (count_having d (fst ix))))) (indexes d) |} ]).
Proof.
  intros H. pose proof (Inv_index _ H) as (A & B & C). pose proof (Inv_distinct _ H) as K.
  split; [exact (conj A (conj B C))|]. split.
  - intros key ids value id Hf. now apply index_search_exact.
  - intros rv. now apply select_indexes_exact.
Qed.

Section SearchLive.
  Variable rv : revision.
  Hypothesis Hsearch : search_live rv.
  Hypothesis Hfix : fix_alias_nodes_only rv = true.

  Theorem history_Inv_sl qs : forall d,
    Forall query_ok qs -> Inv d -> all_succeed rv d qs -> Inv (exec_all rv d qs).
  Proof.
    induction qs as [|q r IH]; intros d Hq Hd Hs; [exact Hd|].
    inversion Hq as [|? ? Hq1 Hq2]; subst. destruct Hs as [Hs1 Hs2].
    unfold exec_all. cbn [fold_left]. fold (exec_all rv (fst (exec rv d q)) r).
    apply IH; [exact Hq2| |exact Hs2]. now apply (exec_ok_Inv rv Hsearch Hfix).
  Qed.

  Lemma history_from_new_sl qs :
    Forall query_ok qs -> all_succeed rv db_new qs -> Inv (exec_all rv db_new qs).
  Proof. intros Hq. exact (history_Inv_sl qs db_new Hq Inv_new). Qed.
End SearchLive.

(* under `traversal_live`, which implies `search_live` but is false of rv_fixed
   (TraversalLiveProofs.traversal_live_refuted): what the `_partial` theorems of Props/C09.v, C10.v, C11.v rest on *)
Section History.
  Variable rv : revision.
  Hypothesis Htrav : traversal_live rv.
  Hypothesis Hfix : fix_alias_nodes_only rv = true.

  Let Hsearch : search_live rv := search_live_of_traversal rv Htrav.

  Theorem transaction_commit_Inv d qs :
    Forall query_ok qs -> Inv d ->
    (let '(d1, results, all_ok) := txn_run rv d qs [] in
     existsb (fun r => match r with QPanic => true | _ => false end) results = false /\ all_ok = true) ->
    Inv (fst (transaction rv d qs false)).
  Proof. exact (transaction_commit_Inv_sl rv Hsearch Hfix d qs). Qed.

  (* the state inside a running transaction, after any prefix (a failing query included) *)
  Lemma transaction_state_Inv d qs acc :
    Forall query_ok qs -> Inv d -> Inv (fst (fst (txn_run rv d qs acc))).
  Proof. exact (txn_run_Inv_sl rv Hsearch Hfix qs d acc). Qed.
End History.
