(* UndoGraphBase.v — C13, slot-array algebra for Graph.v: accessors over setters,
   linked chains through an array (frame, determinism, unlinking, find_prev, edge_list). *)
From Agdb Require Import Bytes BytesProofs DbValue Graph GraphArr DbModel UndoBase UndoObs UndoKv.
From Coq Require Import Permutation ZifyBool ZifyNat ZifyN.
Ltac Zify.zify_post_hook ::= Z.div_mod_to_equations.
Open Scope Z_scope.

Lemma set_opp l i v : set l (- i) v = set l i v.
Proof. unfold set. rewrite zabs_nat_neg. reflexivity. Qed.

Definition lens_ok (g : graph) : Prop :=
  length (g_to g) = length (g_from g) /\ length (g_fmeta g) = length (g_from g) /\
  length (g_tmeta g) = length (g_from g).

Lemma from_opp g i : from g (- i) = from g i. Proof. apply get_neg. Qed.
Lemma to_opp g i : to g (- i) = to g i. Proof. apply get_neg. Qed.
Lemma fmeta_opp g i : fmeta g (- i) = fmeta g i. Proof. apply get_neg. Qed.
Lemma tmeta_opp g i : tmeta g (- i) = tmeta g i. Proof. apply get_neg. Qed.
Lemma set_from_opp g i v : set_from g (- i) v = set_from g i v.
Proof. unfold set_from. rewrite set_opp. reflexivity. Qed.
Lemma set_to_opp g i v : set_to g (- i) v = set_to g i v.
Proof. unfold set_to. rewrite set_opp. reflexivity. Qed.
Lemma set_fmeta_opp g i v : set_fmeta g (- i) v = set_fmeta g i v.
Proof. unfold set_fmeta. rewrite set_opp. reflexivity. Qed.
Lemma set_tmeta_opp g i v : set_tmeta g (- i) v = set_tmeta g i v.
Proof. unfold set_tmeta. rewrite set_opp. reflexivity. Qed.

(* an array read after a write to the same array, at non-negative slots within the capacity *)
Lemma get_set_pos l i v j :
  0 <= i < Z.of_nat (length l) -> 0 <= j -> get (set l i v) j = if i =? j then v else get l j.
Proof.
  intros Hi Hj. destruct (Z.eqb_spec i j) as [->|N]; [apply get_set_same | apply get_set_other]; lia.
Qed.

Section Setters.
  Variables (g : graph) (i v : Z).
  Hypothesis Hl : lens_ok g.
  Hypothesis Hi : 0 <= i < capacity g.

  Lemma from_set_from j : 0 <= j -> from (set_from g i v) j = if i =? j then v else from g j.
  Proof. apply get_set_pos, Hi. Qed.
  Lemma to_set_to j : 0 <= j -> to (set_to g i v) j = if i =? j then v else to g j.
  Proof. apply get_set_pos. destruct Hl as (E & _ & _). rewrite E. exact Hi. Qed.
  Lemma fmeta_set_fmeta j : 0 <= j -> fmeta (set_fmeta g i v) j = if i =? j then v else fmeta g j.
  Proof. apply get_set_pos. destruct Hl as (_ & E & _). rewrite E. exact Hi. Qed.
  Lemma tmeta_set_tmeta j : 0 <= j -> tmeta (set_tmeta g i v) j = if i =? j then v else tmeta g j.
  Proof. apply get_set_pos. destruct Hl as (_ & _ & E). rewrite E. exact Hi. Qed.
End Setters.

Section SettersFrame.
  Variables (g : graph) (i v : Z).
  Lemma from_set_to j : from (set_to g i v) j = from g j. Proof. reflexivity. Qed.
  Lemma from_set_fmeta j : from (set_fmeta g i v) j = from g j. Proof. reflexivity. Qed.
  Lemma from_set_tmeta j : from (set_tmeta g i v) j = from g j. Proof. reflexivity. Qed.
  Lemma to_set_from j : to (set_from g i v) j = to g j. Proof. reflexivity. Qed.
  Lemma to_set_fmeta j : to (set_fmeta g i v) j = to g j. Proof. reflexivity. Qed.
  Lemma to_set_tmeta j : to (set_tmeta g i v) j = to g j. Proof. reflexivity. Qed.
  Lemma fmeta_set_from j : fmeta (set_from g i v) j = fmeta g j. Proof. reflexivity. Qed.
  Lemma fmeta_set_to j : fmeta (set_to g i v) j = fmeta g j. Proof. reflexivity. Qed.
  Lemma fmeta_set_tmeta j : fmeta (set_tmeta g i v) j = fmeta g j. Proof. reflexivity. Qed.
  Lemma tmeta_set_from j : tmeta (set_from g i v) j = tmeta g j. Proof. reflexivity. Qed.
  Lemma tmeta_set_to j : tmeta (set_to g i v) j = tmeta g j. Proof. reflexivity. Qed.
  Lemma tmeta_set_fmeta j : tmeta (set_fmeta g i v) j = tmeta g j. Proof. reflexivity. Qed.

  Lemma cap_set_from : capacity (set_from g i v) = capacity g.
  Proof. unfold capacity, set_from. cbn [g_from]. rewrite length_set. reflexivity. Qed.
  Lemma cap_set_to : capacity (set_to g i v) = capacity g. Proof. reflexivity. Qed.
  Lemma cap_set_fmeta : capacity (set_fmeta g i v) = capacity g. Proof. reflexivity. Qed.
  Lemma cap_set_tmeta : capacity (set_tmeta g i v) = capacity g. Proof. reflexivity. Qed.

  Lemma lens_set_from : lens_ok g -> lens_ok (set_from g i v).
  Proof. unfold lens_ok, set_from. cbn [g_from g_to g_fmeta g_tmeta]. rewrite length_set. auto. Qed.
  Lemma lens_set_to : lens_ok g -> lens_ok (set_to g i v).
  Proof. unfold lens_ok, set_to. cbn [g_from g_to g_fmeta g_tmeta]. rewrite length_set. auto. Qed.
  Lemma lens_set_fmeta : lens_ok g -> lens_ok (set_fmeta g i v).
  Proof. unfold lens_ok, set_fmeta. cbn [g_from g_to g_fmeta g_tmeta]. rewrite length_set. auto. Qed.
  Lemma lens_set_tmeta : lens_ok g -> lens_ok (set_tmeta g i v).
  Proof. unfold lens_ok, set_tmeta. cbn [g_from g_to g_fmeta g_tmeta]. rewrite length_set. auto. Qed.
End SettersFrame.

Lemma from_grow g j : from (grow g) j = from g j. Proof. apply get_app0. Qed.
Lemma to_grow g j : to (grow g) j = to g j. Proof. apply get_app0. Qed.
Lemma fmeta_grow g j : fmeta (grow g) j = fmeta g j. Proof. apply get_app0. Qed.
Lemma tmeta_grow g j : tmeta (grow g) j = tmeta g j. Proof. apply get_app0. Qed.
Lemma cap_grow g : capacity (grow g) = capacity g + 1.
Proof. unfold capacity, grow. cbn [g_from]. rewrite app_length. cbn [length]. lia. Qed.
Lemma lens_grow g : lens_ok g -> lens_ok (grow g).
Proof.
  unfold lens_ok, grow. cbn [g_from g_to g_fmeta g_tmeta]. rewrite !app_length. cbn [length]. lia.
Qed.

(* beyond the capacity every accessor reads 0 *)
Lemma from_out g j : capacity g <= Z.abs j -> from g j = 0.
Proof. apply get_overflow. Qed.
Lemma to_out g j : lens_ok g -> capacity g <= Z.abs j -> to g j = 0.
Proof. intros (E & _ & _) H. apply get_overflow. unfold capacity in H. lia. Qed.
Lemma fmeta_out g j : lens_ok g -> capacity g <= Z.abs j -> fmeta g j = 0.
Proof. intros (_ & E & _) H. apply get_overflow. unfold capacity in H. lia. Qed.
Lemma tmeta_out g j : lens_ok g -> capacity g <= Z.abs j -> tmeta g j = 0.
Proof. intros (_ & _ & E) H. apply get_overflow. unfold capacity in H. lia. Qed.

(* chains of positive slots linked through `nx`, ending in 0            *)

Inductive chain (nx : Z -> Z) : Z -> list Z -> Prop :=
| chain_nil : chain nx 0 []
| chain_cons s l : 0 < s -> chain nx (nx s) l -> chain nx s (s :: l).

Lemma chain_det nx s l l' : chain nx s l -> chain nx s l' -> l = l'.
Proof.
  intros H. revert l'. induction H as [|s l Hs H IH]; intros l' H'; inversion H'; subst; try lia; auto.
  f_equal. apply IH. assumption.
Qed.

Lemma chain_pos nx s l : chain nx s l -> Forall (fun e => 0 < e) l.
Proof. induction 1; constructor; auto. Qed.

Lemma chain_ext nx nx' s l : chain nx s l -> (forall e, In e l -> nx' e = nx e) -> chain nx' s l.
Proof.
  induction 1 as [|s l Hs H IH]; intros E; constructor; auto.
  rewrite E by (left; reflexivity). apply IH. intros e He. apply E. right. assumption.
Qed.

Lemma chain_head nx s l : chain nx s l -> s = match l with [] => 0 | e :: _ => e end.
Proof. destruct 1; reflexivity. Qed.

Lemma chain_zero nx l : chain nx 0 l -> l = [].
Proof. inversion 1; [reflexivity | lia]. Qed.

Lemma chain_split nx s l1 e l2 :
  chain nx s (l1 ++ e :: l2) -> chain nx (nx e) l2.
Proof.
  revert s. induction l1 as [|x r IH]; intros s H; cbn [app] in H; inversion H; subst; eauto.
Qed.

(* unlinking element e (not the head): its predecessor p now points to nx e *)
Lemma chain_unlink nx nx' s l1 p e l2 :
  chain nx s (l1 ++ p :: e :: l2) -> NoDup (l1 ++ p :: e :: l2) ->
  nx' p = nx e -> (forall x, In x l1 \/ In x l2 -> nx' x = nx x) ->
  chain nx' s (l1 ++ p :: l2).
Proof.
  revert s. induction l1 as [|x r IH]; intros s H Hnd Hp Ho; cbn [app] in *.
  - inversion H as [|? ? Hs H1]. subst. inversion H1 as [|? ? He H2]. subst.
    constructor; [assumption|]. rewrite Hp.
    eapply chain_ext; [exact H2|]. intros y Hy. apply Ho. right. assumption.
  - inversion H as [|? ? Hs H1]. subst. inversion Hnd as [|? ? Hn1 Hnd1]. subst.
    constructor; [assumption|]. rewrite Ho by (left; left; reflexivity).
    apply IH; try assumption. intros y [Hy|Hy]; apply Ho; [left; right; assumption | right; assumption].
Qed.

(* unlinking the head *)
Lemma chain_unlink_head nx nx' e l :
  chain nx e (e :: l) -> NoDup (e :: l) -> (forall x, x <> e -> nx' x = nx x) -> chain nx' (nx e) l.
Proof.
  intros H Hnd Ho. inversion H as [|? ? Hs H1]. subst. inversion Hnd as [|? ? Hn Hnd1]. subst.
  eapply chain_ext; [exact H1|]. intros y Hy. apply Ho. intros ->. contradiction.
Qed.

(* find_prev finds the predecessor; `nx` may be read through a sign-insensitive accessor *)
Lemma find_prev_spec nx s l1 p e l2 fuel start :
  chain nx s (l1 ++ p :: e :: l2) -> NoDup (l1 ++ p :: e :: l2) ->
  (forall x, nx (- x) = nx x) ->
  (length l1 < fuel)%nat -> (start = s \/ start = - s) ->
  exists q, find_prev nx fuel start e = Some q /\ (q = p \/ q = - p).
Proof.
  revert s fuel start. induction l1 as [|x r IH]; intros s fuel start H Hnd Hsym Hf Hst; cbn [app] in *.
  - inversion H as [|? ? Hs H1]. subst. inversion H1 as [|? ? He H2]. subst.
    destruct fuel as [|fuel]; [cbn in Hf; lia|]. cbn [find_prev].
    assert (E : nx start = nx p) by (destruct Hst as [->| ->]; [reflexivity | apply Hsym]).
    rewrite E, Z.eqb_refl. exists start. split; [reflexivity | assumption].
  - inversion H as [|? ? Hs H1]. subst. inversion Hnd as [|? ? Hn1 Hnd1]. subst.
    destruct fuel as [|fuel]; [cbn in Hf; lia|]. cbn [find_prev].
    assert (E : nx start = nx x) by (destruct Hst as [->| ->]; [reflexivity | apply Hsym]).
    rewrite E.
    (* nx x is the head of the rest; it is not e because e occurs later and the list has no duplicates *)
    assert (Hne : nx x <> e).
    { intros Heq. pose proof (chain_head _ _ _ H1) as Hh. rewrite Heq in Hh.
      destruct r as [|y r']; cbn [app] in *.
      - subst. inversion Hnd1 as [|? ? Hn2 _]. apply Hn2. left. reflexivity.
      - subst. inversion Hnd1 as [|? ? Hn2 _]. apply Hn2. apply in_or_app. right. right. left. reflexivity. }
    destruct (Z.eqb_spec (nx x) e); [contradiction|].
    apply (IH (nx x) fuel (nx x)); auto. cbn [length] in Hf. lia.
Qed.

(* edge_list walks a chain of negated slots *)
Lemma edge_list_chain nx l : forall s fuel,
  chain nx s l -> (length l <= fuel)%nat -> (forall x, nx (- x) = nx x) ->
  edge_list (fun e => - nx e) fuel (- s) = map Z.opp l /\
  (fuel = O -> l = []).
Proof.
  induction l as [|e r IH]; intros s fuel H Hf Hsym.
  - inversion H. subst. split; [|auto]. destruct fuel; reflexivity.
  - inversion H as [|? ? Hs H1]. subst. destruct fuel as [|fuel]; [cbn in Hf; lia|].
    split; [|discriminate]. cbn [edge_list map].
    destruct (Z.eqb_spec (- e) 0); [lia|]. f_equal.
    rewrite Hsym. apply (IH (nx e) fuel); auto. cbn [length] in Hf. lia.
Qed.

Lemma NoDup_bounded_length (l : list Z) (n : nat) :
  NoDup l -> (forall e, In e l -> 0 <= e < Z.of_nat n) -> (length l <= n)%nat.
Proof.
  intros Hnd Hb.
  assert (Hincl : incl (map Z.to_nat l) (seq 0 n)).
  { intros k Hk. apply in_map_iff in Hk. destruct Hk as (e & <- & He). apply in_seq. specialize (Hb e He). lia. }
  assert (Hnd' : NoDup (map Z.to_nat l)).
  { clear Hincl. induction l as [|x r IH]; [constructor|]. inversion Hnd as [|? ? Hn Hr]. subst.
    cbn [map]. constructor.
    - intros Hin. apply in_map_iff in Hin. destruct Hin as (y & Ey & Hy). apply Hn.
      assert (x = y); [|subst; assumption].
      pose proof (Hb x (or_introl eq_refl)). pose proof (Hb y (or_intror Hy)). lia.
    - apply IH; [assumption|]. intros e He. apply Hb. right. assumption. }
  pose proof (NoDup_incl_length Hnd' Hincl) as Hlen. rewrite map_length, seq_length in Hlen. exact Hlen.
Qed.

(* the free chain: links stored negated, i64::MIN terminates            *)

Inductive fchain (nx : Z -> Z) : Z -> list Z -> Prop :=
| fchain_nil : fchain nx i64_min []
| fchain_cons s l : 0 < s -> - s <> i64_min -> fchain nx (nx s) l -> fchain nx (- s) (s :: l).

Lemma fchain_det nx h l l' : fchain nx h l -> fchain nx h l' -> l = l'.
Proof.
  intros H. revert l'. induction H as [|s l Hs Hm H IH]; intros l' H'.
  - inversion H' as [|s' ? ? ? ? E]; [reflexivity|]. subst. congruence.
  - inversion H' as [E|s' ? ? ? ? E]; subst; [congruence|].
    assert (s' = s) by lia. subst. f_equal. apply IH. assumption.
Qed.

Lemma fchain_ext nx nx' h l : fchain nx h l -> (forall e, In e l -> nx' e = nx e) -> fchain nx' h l.
Proof.
  induction 1 as [|s l Hs Hm H IH]; intros E; constructor; auto.
  rewrite E by (left; reflexivity). apply IH. intros e He. apply E. right. assumption.
Qed.

Lemma fchain_nil_iff nx h l : fchain nx h l -> (h = i64_min <-> l = []).
Proof. destruct 1; split; congruence. Qed.
