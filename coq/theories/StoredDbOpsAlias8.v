(* StoredDbOpsAlias8.v — DbImpl::insert_new_alias on a stored database with the CODE's grow and in-place rehash.

     so_alias_code hs hi rm1 rm2   the so_alias_rest whose two tables run multi_map.rs's own rehash(capacity * 2) and
                                   rehash_in_place (so_map_code, StoredDbOpsAlias7.v; the resize defaults are String::default()
                                   = "" and DbId::default() = 0); only the two removals IndexedMapImpl::insert performs after
                                   a REPLACED value / key stay parameters (rm1, rm2: not executed for a new alias and an id
                                   without alias)

   so_alias_insert_new_stored_full: as so_alias_insert_new_stored (StoredDbOpsAlias3.v) WITHOUT the side conditions "no grow"
   and "no full probe cycle": whatever the fill of the two tables — including the EMPTY tables of a new database (capacity 0:
   the first insertion grows them to 64 slots) — the program ends in a store holding insert_new_alias d id alias, the tables
   satisfying C19's invariant again (minimum capacity 64, the code's).  Assumed besides PInv: the alias is new, the id has
   no alias, both are valid elements, len + 1 < 2^64, and a table that grows stays below 2^64 bytes per vector
   (so_alias_new_ok2). *)
From Coq Require Import List NArith ZArith Arith Bool Lia Permutation.
Import ListNotations.
From Agdb Require Import Bytes BytesProofs DbModel StorageSpec Collections CollWp CollVecBase CollElems StoredDbRep
  StoredDbOpsDb StoredDbOpsAlias StoredDbOpsAlias2 StoredDbOpsAlias3 StoredDbOpsAlias7.
Open Scope N_scope.

Definition so_alias_code (hs : bytes -> N) (hi : Z -> N) (rm1 : cm_data -> Z -> cprog cm_data) (rm2 : cm_data -> bytes -> cprog cm_data)
  : so_alias_rest :=
  {| sar_k2v := so_map_code bytes Z ce_string ce_i64 hs [] 0%Z;
     sar_v2k := so_map_code Z bytes ce_i64 ce_string hi 0%Z [];
     sar_remove_v2k := rm1; sar_remove_k2v := rm2 |}.

Section AliasInsertFull.
  Variable hs : bytes -> N.
  Variable hi : Z -> N.
  Variable fl : bool.

  Definition so_alias_new_ok2 (w : sd_wit) (id : Z) (alias : bytes) : Prop :=
    (so_max_len (lenN (ct_states (mw_t (sw_a1 w)))) <= ct_len (mw_t (sw_a1 w)) -> so_grow_ok bytes Z ce_string ce_i64 (mw_t (sw_a1 w))) /\
    (so_max_len (lenN (ct_states (mw_t (sw_a2 w)))) <= ct_len (mw_t (sw_a2 w)) -> so_grow_ok Z bytes ce_i64 ce_string (mw_t (sw_a2 w))) /\
    el_valid law_string alias /\ el_valid law_i64 id /\
    ct_len (mw_t (sw_a1 w)) + 1 < two64 /\ ct_len (mw_t (sw_a2 w)) + 1 < two64.

  Theorem so_alias_insert_new_stored_full rm1 rm2 root d w h a id alias sp :
    stored_db_w (hp sp) root d w -> so_handles h w -> so_alias_handles a w -> so_alias_tables_ok hs hi 64 w ->
    imap_value (aliases d) alias = None -> imap_key (aliases d) id = None ->
    so_alias_new_ok2 w id alias ->
    cwp fl (so_alias_insert_new hs hi (so_alias_code hs hi rm1 rm2) a id alias) sp
        (so_alias_post hs hi 64 root d w h id alias sp).
  Proof.
    intros H Hh Ha [P1 P2] Hv Hk (G1 & G2 & VA & VI & L1 & L2).
    apply so_alias_insert_new_inserts; auto; intros d0 ss ks vs sp0 Q HM Habs HQ; cbn [so_alias_code sar_k2v sar_v2k].
    - eapply (so_map_insert_absent_full bytes Z ce_string ce_i64 law_string law_i64 bytes_eqb Z.eqb hs [] 0%Z fl bytes_eqb_eq Z.eqb_eq
                so_str_nil_ok so_i64_zero_ok); eauto.
    - eapply (so_map_insert_absent_full Z bytes ce_i64 ce_string law_i64 law_string Z.eqb bytes_eqb hi 0%Z [] fl Z.eqb_eq bytes_eqb_eq
                so_i64_zero_ok so_str_nil_ok); eauto.
  Qed.
End AliasInsertFull.
