(* UndoStepsKv.v — C13_step_inverse for the key-value primitives of DbModel.v: the generic step on
   (indexes, vals), insert_key_value, and the single removal step that remove_keys /
   remove_all_values fold (UndoStepsKv2.v). *)
From Agdb Require Import Bytes BytesProofs DbValue Graph DbModel Revisions UndoBase UndoObs UndoAlias UndoKv
  UndoGraphBase UndoGraph UndoAbs UndoDb.
From Coq Require Import Permutation ZifyBool ZifyNat ZifyN.
Open Scope Z_scope.

(* the index on the pair's key (if any) lists the pair for this element *)
Definition idx_has (d : db) (id : Z) (x : kv) : Prop :=
  forall ids, idx_find (indexes d) (fst x) = Some ids -> In (snd x, id) ids.

Definition omap {A B} (f : A -> B) (o : option A) : option B :=
  match o with Some a => Some (f a) | None => None end.

Lemma idx_find_update' ix key f key' :
  idx_find (idx_update ix key f) key' = if dbv_eqb key key' then omap f (idx_find ix key') else idx_find ix key'.
Proof. apply idx_find_update. Qed.

Lemma idx_rel_omap_l a b (f g : list (dbvalue * Z) -> list (dbvalue * Z)) :
  idx_rel a (omap g b) -> (forall la lb, Permutation la (g lb) -> Permutation (f la) lb) ->
  idx_rel (omap f a) b.
Proof. destruct a, b; cbn; auto. Qed.

Lemma idx_rel_omap2 a b (f g : list (dbvalue * Z) -> list (dbvalue * Z)) :
  idx_rel a b -> (forall la lb, Permutation la lb -> Permutation (f la) (g lb)) -> idx_rel (omap f a) (omap g b).
Proof. destruct a, b; cbn; auto. Qed.

(* generic step on (indexes, vals) with one pushed command, whose undo may depend on the state it is applied to *)
Section Steps.
  Variable rv : revision.
  Hypothesis Hrv : fix_rollback_replace rv = true.

  Lemma kv_step d ix1 s1 c :
    db_ok d -> isim ix1 ix1 -> vsim s1 s1 ->
    (forall e, isim (indexes e) ix1 -> vsim (vals e) s1 ->
       exists ix' s', undo_one e c = ROk (with_vals (with_indexes e ix') s') /\
                      isim ix' (indexes d) /\ vsim s' (vals d)) ->
    let d1 := {| gr := gr d; aliases := aliases d; vals := s1; indexes := ix1; undo := c :: undo d |} in
    db_ok d1 /\ undoable rv d d1.
  Proof.
    intros Hok Hi1 Hv1 Hop d1. destruct Hok as [G A V I]. split.
    - constructor; cbn; auto.
    - apply (undoable_one rv Hrv _ _ c); [reflexivity|]. intros e [Ge Ae Ve Ie]. cbn in Ge, Ae, Ve, Ie.
      destruct (Hop e Ie Ve) as (ix' & s' & Hun & Hi' & Hv'). rewrite Hun. eexists. split; [reflexivity|].
      constructor; cbn; auto.
  Qed.

  Lemma insert_key_value_fields d id x :
    insert_key_value d id x =
    {| gr := gr d; aliases := aliases d; vals := kvs_insert_value (vals d) id x;
       indexes := idx_insert_id (indexes d) (fst x) (snd x) id; undo := CRemoveKeyValue id x :: undo d |}.
  Proof. reflexivity. Qed.

  Lemma step_insert_key_value d id x :
    db_ok d -> ~ has_key (kvs_get (vals d) id) (fst x) ->
    db_ok (insert_key_value d id x) /\ undoable rv d (insert_key_value d id x).
  Proof.
    intros Hok Hfresh. rewrite insert_key_value_fields. pose proof Hok as [G A V I].
    destruct V as (Vok & _ & _). destruct I as (Iok & _ & _).
    apply (kv_step d _ _ (CRemoveKeyValue id x)); auto.
    - split; [|split]; try (apply idx_ok_update; assumption). intros k. apply idx_rel_refl.
    - assert (Hk : forall i, keys_ok (kvs_get (kvs_insert_value (vals d) id x) i)).
      { intros i. rewrite kvs_get_insert_value. destruct (same_slot id i) eqn:E; [|apply Vok].
        apply keys_ok_app_last; [apply Vok | assumption]. }
      split; [|split]; auto.
    - intros e (Ie1 & _ & Ie3) (Ve1 & _ & Ve3).
      exists (idx_remove_id (indexes e) (fst x) (snd x) id), (kvs_remove_value (vals e) id (fst x)).
      split; [reflexivity|]. split.
      + split; [apply idx_ok_update; assumption|]. split; [assumption|]. intros key.
        unfold idx_remove_id. rewrite idx_find_update'. specialize (Ie3 key).
        unfold idx_insert_id in Ie3. rewrite idx_find_update' in Ie3.
        destruct (dbv_eqb (fst x) key); [|exact Ie3].
        eapply idx_rel_omap_l; [exact Ie3|]. intros la lb P.
        rewrite (remove_first_pair_perm _ _ _ _ P). apply remove_first_pair_app_last.
      + split; [|split]; auto.
        * intros i. rewrite kvs_get_remove_value. destruct (same_slot id i); [|apply Ve1].
          apply remove_first_key_ok, Ve1.
        * intros i. rewrite kvs_get_remove_value. specialize (Ve3 i) as Ve3i.
          rewrite kvs_get_insert_value in Ve3i. destruct (same_slot id i) eqn:E; [|exact Ve3i].
          specialize (Ve3 id). rewrite kvs_get_insert_value, same_slot_refl in Ve3.
          rewrite (remove_first_key_perm _ _ (fst x) (Ve1 id) Ve3).
          rewrite remove_first_key_app_last by assumption. rewrite (kvs_get_same _ _ _ E). reflexivity.
  Qed.

  (* ---- removing one pair (the step of remove_keys / remove_all_values) ---- *)
  Definition remove_kv (d : db) (id : Z) (x : kv) : db :=
    {| gr := gr d; aliases := aliases d; vals := kvs_remove_value (vals d) id (fst x);
       indexes := idx_remove_id (indexes d) (fst x) (snd x) id; undo := CInsertKeyValue id x :: undo d |}.

  Lemma step_remove_kv d id x :
    db_ok d -> In x (kvs_get (vals d) id) -> idx_has d id x ->
    db_ok (remove_kv d id x) /\ undoable rv d (remove_kv d id x).
  Proof.
    intros Hok Hin Hhas. pose proof Hok as [G A V I].
    destruct V as (Vok & _ & _). destruct I as (Iok & _ & _).
    apply (kv_step d _ _ (CInsertKeyValue id x)); auto.
    - split; [|split]; try (apply idx_ok_update; assumption). intros k. apply idx_rel_refl.
    - assert (Hk : forall i, keys_ok (kvs_get (kvs_remove_value (vals d) id (fst x)) i)).
      { intros i. rewrite kvs_get_remove_value. destruct (same_slot id i); [|apply Vok].
        apply remove_first_key_ok, Vok. }
      split; [|split]; auto.
    - intros e (Ie1 & _ & Ie3) (Ve1 & _ & Ve3).
      assert (Hperm : Permutation (kvs_get (vals e) id ++ [x]) (kvs_get (vals d) id)).
      { specialize (Ve3 id). rewrite kvs_get_remove_value, same_slot_refl in Ve3. rewrite Ve3.
        apply remove_first_key_then_append; [apply Vok | assumption]. }
      exists (idx_insert_id (indexes e) (fst x) (snd x) id), (kvs_insert_value (vals e) id x).
      split; [reflexivity|]. split.
      + split; [apply idx_ok_update; assumption|]. split; [assumption|]. intros key.
        unfold idx_insert_id. rewrite idx_find_update'. specialize (Ie3 key).
        unfold idx_remove_id in Ie3. rewrite idx_find_update' in Ie3.
        destruct (dbv_eqb_spec (fst x) key) as [E|]; [|exact Ie3]. subst key.
        destruct (idx_find (indexes e) (fst x)) as [la|], (idx_find (indexes d) (fst x)) as [lb|] eqn:Eb;
          cbn [omap idx_rel] in Ie3 |- *; try tauto.
        rewrite Ie3. apply remove_first_pair_then_append. apply Hhas. exact Eb.
      + split; [|split]; auto.
        * intros i. rewrite kvs_get_insert_value. destruct (same_slot id i) eqn:E; [|apply Ve1].
          eapply keys_ok_perm; [symmetry; exact Hperm | apply Vok].
        * intros i. rewrite kvs_get_insert_value. specialize (Ve3 i) as Ve3i.
          rewrite kvs_get_remove_value in Ve3i. destruct (same_slot id i) eqn:E; [|exact Ve3i].
          rewrite Hperm. rewrite (kvs_get_same _ _ _ E). reflexivity.
  Qed.
End Steps.
