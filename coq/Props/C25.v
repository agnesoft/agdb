(* C25 — A server query batch is all-or-nothing and audited exactly.
   The statements; the lemmas they follow from are in theories/AuthProofs.v and AuthProofsBatch.v (here
   only the induction over the sequence, corollaries and evaluated examples).  The model (theories/Auth.v):
   exec_batch_mut = UserDb::exec_mut (transaction_mut over the batch, t_exec_mut per query, `:n`
   result injection, audit record per mutating query), exec_batch_read = UserDb::exec (t_exec),
   apply_db (OExecMut) = routes + DbPool::exec_mut (audit appended only after the transaction
   succeeded; a batch without mutating query goes through the read path).
   The notions of the statements (is_batch, audit_view, injected, audit_of_batch, contribution, contributions)
   are defined, each with what it means, in theories/AuthProofsBatch.v. *)
From Agdb Require Import Bytes Auth AuthProofs AuthProofsTokens AuthProofsPerm AuthProofsBatch
  AuthProofsMatrix AuthProofsExamples.
Open Scope N_scope.

(* A batch that is not answered with success (a query of it fails, a `:n` is dangling, the caller
   may not run it, the database does not exist) leaves the whole server state — content and audit
   log of every database — unchanged.  (That the real transaction rolls back completely is C13; the
   correspondence run compares dump and audit after every failed batch.) *)
Theorem C25_all_or_nothing :
  forall (s : state) (now : N) (tok : option N) (req : request),
    is_batch req = true -> resp_ok (fst (step s now tok req)) = false -> snd (step s now tok req) = s.
Proof. intros s now tok req _. apply step_err_unchanged. Qed.
Print Assumptions C25_all_or_nothing.

(* The read endpoint never changes anything, whatever it answers. *)
Theorem C25_exec_is_pure :
  forall (s : state) (now : N) (tok : option N) (o d : N) (qs : list query),
    snd (step s now tok (ReqDb o d (OExec qs))) = s /\ snd (step s now tok (ReqAdminDb o d (OExec qs))) = s.
Proof. exact exec_endpoint_pure. Qed.
Print Assumptions C25_exec_is_pure.

(* For every sequence of batches — any users, tokens, databases, both endpoints, allowed or not,
   succeeding or failing — the audit log of (o, d) afterwards is its log before followed, in order,
   by the mutating queries (after injection) of exactly the successful exec_mut batches on (o, d),
   each attributed to the user who submitted it. *)
Theorem C25_audit_exact :
  forall (tr : list event) (s : state) (o d : N) (au : list aentry),
    forallb (fun e => is_batch (snd e)) tr = true ->
    audit_view s o d = Some au ->
    audit_view (run s tr) o d = Some (au ++ contributions s tr o d).
Proof.
  induction tr as [|[[now tok] req] tr IH]; intros s o d au B H; cbn [run contributions].
  - rewrite app_nil_r. exact H.
  - cbn [forallb snd] in B. apply Bool.andb_true_iff in B. destruct B as [B1 B2].
    pose proof (batch_step_audit s now tok req o d B1) as S. rewrite H in S.
    rewrite (IH _ _ _ _ B2 S), app_assoc. reflexivity.
Qed.
Print Assumptions C25_audit_exact.

(* what a successful transaction hands to the audit writer is exactly that specification *)
Theorem C25_batch_audit_spec :
  forall (who : N) (qs : list query) (c : content) (rs : list qresult) (au : list aentry) c' rs' au',
    exec_batch_mut who c rs au qs = Some (c', rs', au') ->
    au' = au ++ map (fun q => (who, q)) (filter (fun q => kind_is_write (kind_of q)) (injected c rs qs)).
Proof. exact exec_batch_mut_audit. Qed.
Print Assumptions C25_batch_audit_spec.

(* read-only batches through exec_mut add nothing *)
Theorem C25_read_batch_not_audited :
  forall (who : N) (c : content) (qs : list query), batch_is_write qs = false -> audit_of_batch who c qs = [].
Proof. exact audit_of_read_batch. Qed.
Print Assumptions C25_read_batch_not_audited.

(* `:n` resolves to ALL ids of result n (spliced in place), literal ids stay, and a reference to a
   result that does not exist makes the query — hence the batch — fail *)
Theorem C25_injection :
  (forall rs ids, inject rs ids = if forallb (ref_ok rs) ids then Some (flat_map (ref_ids rs) ids) else None) /\
  (forall c rs ids m,
      forallb (ref_ok rs) ids = false ->
      exec_query c rs (QSetValue ids m) = None /\ exec_query c rs (QRemoveValue ids) = None /\
      exec_query c rs (QSelect ids) = None).
Proof.
  split; [exact inject_spec|]. intros c rs ids m H. cbn [exec_query]. rewrite inject_spec, H. auto.
Qed.
Print Assumptions C25_injection.

(* the classification the endpoints, the read-only transaction and the audit use is one table *)
Theorem C25_query_classification :
  forall k : qkind, kind_is_write k = negb (kind_read_allowed k) /\ kind_audited k = kind_is_write k.
Proof. exact kind_tables_agree. Qed.
Print Assumptions C25_query_classification.

(* six batches: a writer's mutating batch with `:0`, a failing batch, a denied batch (read role), a
   read-only batch through exec_mut, a read through exec, the server admin's batch: the audit log is
   exactly the four mutating queries of the two successful mutating batches, with the right users *)
Example C25_nonvacuous_batches :
  forallb (fun e => is_batch (snd e)) batch_trace = true /\
  audit_view mx_state 1 10 = Some [] /\
  contributions mx_state batch_trace 1 10 =
    [ (3, QInsertNode 5); (3, QSetValue [QId 2; QId 1] 6); (0, QRemoveValue [QId 1]); (0, QProbe PRemoveIndex) ] /\
  db_view (run mx_state batch_trace) 1 10 =
    Some (mkContent [None; Some 6] false,
          [ (3, QInsertNode 5); (3, QSetValue [QId 2; QId 1] 6); (0, QRemoveValue [QId 1]); (0, QProbe PRemoveIndex) ]).
Proof. vm_compute. repeat split; reflexivity. Qed.
Print Assumptions C25_nonvacuous_batches.

Example C25_nonvacuous_injection :
  inject [mkRes 1 [(4, [])]; mkRes 2 [(1, []); (2, [])]] [QRes 1; QId 9; QRes 0] = Some [1; 2; 9; 4] /\
  inject [mkRes 1 [(4, [])]] [QRes 1] = None /\
  exec_query (mkContent [Some 1] false) [mkRes 1 [(1, [])]] (QSetValue [QRes 3] 5) = None.
Proof. vm_compute. repeat split; reflexivity. Qed.
Print Assumptions C25_nonvacuous_injection.
