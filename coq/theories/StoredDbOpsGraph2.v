(* StoredDbOpsGraph2.v — proofs (stored database): GraphImpl::insert_edge as a program over the storage
   computes Graph.insert_edge on the arrays of a stored graph (validate_node twice, get_free_index, set_edge =
   set_from, set_to, update_from_edge, update_to_edge inside one storage transaction).  update_from_edge / update_to_edge
   are one program over the field selector (so_link); is_valid_index is shared by validate_node / validate_edge.

     so_edge_ok G f t    beyond so_graph_ok: the two degree counters the code increments stay i64 values (under C08's
                         well-formedness they are bounded by the number of edges) *)
From Agdb Require Import Bytes Graph StorageSpec Collections CollWp CollVecBase CollElems CollGraph StoredDbRep
  StoredDbOps StoredDbOpsGraph.
From Coq Require Import ZifyBool ZifyNat ZifyN.
Ltac Zify.zify_post_hook ::= Z.div_mod_to_equations.
Open Scope N_scope.

Lemma valid_index_range G i : valid_index G i = true -> (zabs_nat i < length (g_from G))%nat.
Proof.
  unfold valid_index, capacity. intros H. apply andb_prop in H. destruct H as [H _]. apply andb_prop in H. destruct H as [_ H].
  apply Z.ltb_lt in H. unfold zabs_nat. lia.
Qed.

Lemma is_node_range G i : is_node G i = true -> (zabs_nat i < length (g_from G))%nat.
Proof. intros H. apply valid_index_range. unfold is_node in H. apply andb_prop in H. apply H. Qed.

Definition so_link (g : cg_data) (f fm : cg_field) (node edge : Z) : cprog unit :=
  next <~ cg_get g f node ;;
  cg_set g fm edge next ;;~
  cg_set g f node (- edge) ;;~
  count <~ cg_get g fm node ;;
  cg_set g fm node (count + 1).

(* by computation: so_update_from_edge g = so_link g GfFrom GfFromMeta and Graph.update_from_edge G = g_link G GfFrom GfFromMeta;
   so_update_to_edge g = so_link g GfTo GfToMeta and Graph.update_to_edge G = g_link G GfTo GfToMeta: so_link_spec is applied
   to the two programs of StoredDbOps.v as they stand *)
Definition g_link (G : graph) (f fm : cg_field) (node edge : Z) : graph :=
  let g2 := gset (gset G fm edge (get (garr G f) node)) f node (- edge) in
  gset g2 fm node (get (garr g2 fm) node + 1).

Section EdgeOps.
  Variable fl : bool.

  Lemma so_is_valid_index_spec d s G i sp (Q : cres bool -> spec -> Prop) :
    grep (hp sp) d s (sd_arrays G) -> so_graph_ok G ->
    Q (CrOk (valid_index G i)) sp -> cwp fl (so_is_valid_index d i) sp Q.
  Proof.
    intros H OK HQ. pose proof (gst_init d s _ G sp H (glen_of_ok G OK)) as S0. pose proof (go_cap _ OK) as Hcap.
    unfold so_is_valid_index. unfold valid_index, capacity in HQ. rewrite (cap_of_grep _ _ _ _ H).
    destruct (Z.eqb_spec i 0) as [->|Hi]; [exact HQ|].
    destruct (N.leb_spec (lenN (g_from G)) (cg_as_u64 i)) as [Hle|Hlt];
      destruct (Z.ltb_spec (Z.abs i) (Z.of_nat (length (g_from G)))) as [X|X]; try (unfold lenN, cg_as_u64 in *; lia); cbn [negb andb] in HQ.
    - exact HQ.
    - apply cwp_bind. eapply (gst_get fl _ d s _ _ G GfFromMeta); [exact S0|unfold zabs_nat; lia|]. exact HQ.
  Qed.

  (* validate_node / validate_edge: is_valid_index, then a test of from[i] *)
  Lemma so_validate_spec (test : Z -> bool) d s G i sp (Q : cres bool -> spec -> Prop) :
    grep (hp sp) d s (sd_arrays G) -> so_graph_ok G ->
    Q (CrOk (valid_index G i && test (from G i))) sp ->
    cwp fl (v <~ so_is_valid_index d i ;; if v then f <~ cg_get d GfFrom i ;; CRet (test f) else CRet false) sp Q.
  Proof.
    intros H OK HQ.
    apply cwp_bind. eapply so_is_valid_index_spec; [exact H|exact OK|]. cbn [kont].
    destruct (valid_index G i) eqn:V; [|exact HQ].
    apply cwp_bind. eapply (gst_get fl _ d s _ _ G GfFrom); [exact (gst_init d s _ G sp H (glen_of_ok G OK))|exact (valid_index_range _ _ V)|]. exact HQ.
  Qed.

  Lemma so_validate_node_spec d s G i sp (Q : cres bool -> spec -> Prop) :
    grep (hp sp) d s (sd_arrays G) -> so_graph_ok G ->
    Q (CrOk (is_node G i)) sp -> cwp fl (so_validate_node d i) sp Q.
  Proof. exact (so_validate_spec (fun f => 0 <=? f)%Z d s G i sp Q). Qed.

  Lemma so_validate_edge_spec d s G i sp (Q : cres bool -> spec -> Prop) :
    grep (hp sp) d s (sd_arrays G) -> so_graph_ok G ->
    Q (CrOk (is_edge G i)) sp -> cwp fl (so_validate_edge d i) sp Q.
  Proof. exact (so_validate_spec (fun f => f <? 0)%Z d s G i sp Q). Qed.

  Lemma so_link_spec g0 d s0 n dep G f fm node edge sp (Q : cres unit -> spec -> Prop) :
    gst g0 d s0 n dep G sp -> (zabs_nat node < n)%nat -> (zabs_nat edge < n)%nat ->
    (Z.of_nat n <= 1152921504606846976)%Z ->
    i64_range (get (garr (gset (gset G fm edge (get (garr G f) node)) f node (- edge)) fm) node + 1) ->
    (forall sp', gst g0 d s0 n dep (g_link G f fm node edge) sp' -> Q (CrOk tt) sp') ->
    cwp fl (so_link d f fm node edge) sp Q.
  Proof.
    intros S Hn He Hcap Hcnt HQ. unfold so_link.
    apply cwp_bind. eapply gst_get; [exact S|exact Hn|]. cbn [kont].
    apply cwp_bind. eapply gst_set; [exact S|eapply gst_range; exact S|exact He|]. intros sp1 S1. cbn [kont].
    apply cwp_bind. eapply gst_set; [exact S1|exact (slot_neg_i64 _ _ He Hcap)|exact Hn|]. intros sp2 S2. cbn [kont].
    apply cwp_bind. eapply gst_get; [exact S2|exact Hn|]. cbn [kont].
    eapply gst_set; [exact S2|exact Hcnt|exact Hn|exact HQ].
  Qed.

  Definition so_edge_ok (G : graph) (f t : Z) : Prop :=
    let g1 := snd (get_free_index G) in
    let index := (- fst (get_free_index G))%Z in
    let g3 := set_to (set_from g1 index (- f)) index (- t) in
    let g4 := update_from_edge g3 f index in
    i64_range (fmeta (set_from (set_fmeta g3 index (from g3 f)) f (- index)) f + 1) /\
    i64_range (tmeta (set_to (set_tmeta g4 index (to g4 t)) t (- index)) t + 1).

  (* GraphImpl::insert_edge *)
  Theorem so_graph_insert_edge_spec d s G f t sp (Q : cres (cg_data * option Z) -> spec -> Prop) :
    grep (hp sp) d s (sd_arrays G) -> so_graph_ok G ->
    match insert_edge G f t with
    | None => Q (CrOk (d, None)) sp
    | Some (e, G') =>
      forall d' s' sp', grep (hp sp') d' s' (sd_arrays G') -> cg_index d' = cg_index d ->
        sdepth sp' = sdepth sp -> frame (hp sp) (hp sp') (gfoot d s) (gfoot d' s') -> Q (CrOk (d', Some e)) sp'
    end ->
    (insert_edge G f t <> None -> so_edge_ok G f t) ->
    cwp fl (so_graph_insert_edge d f t) sp Q.
  Proof.
    intros H OK HQ HE. unfold so_graph_insert_edge. unfold insert_edge in HQ, HE.
    apply cwp_bind. eapply so_validate_node_spec; [exact H|exact OK|]. cbn [kont].
    destruct (is_node G f) eqn:Nf; cbn [negb andb] in *; [|cbn [cwp]; exact HQ].
    apply cwp_bind. eapply so_validate_node_spec; [exact H|exact OK|]. cbn [kont].
    destruct (is_node G t) eqn:Nt; cbn [negb andb] in *; [|cbn [cwp]; exact HQ].
    apply is_node_range in Nf, Nt.
    destruct (get_free_index_glen G OK) as (n & HL1 & Hslot & Hn & Hcap & _).
    assert (HEok : so_edge_ok G f t) by (apply HE; destruct (get_free_index G); discriminate).
    pose proof HEok as [Hc1 Hc2]. destruct (get_free_index G) as [slot G1] eqn:EG. cbn [fst snd] in *.
    apply cwp_bind. apply hwp_transaction. intros sp0 Hm0 Hd0. cbn [kont].
    apply cwp_bind. eapply so_get_free_index_spec; [eapply grep_heq; [exact H|exact Hm0]|exact OK|].
    rewrite EG. cbn [fst snd]. intros d1 s1 sp1 H1 I1 D1 F1. cbn [kont fst snd].
    set (index := (- slot)%Z) in *.
    assert (Hidx : (zabs_nat index < n)%nat) by (unfold index; rewrite zabs_opp; exact Hslot).
    pose proof (gst_init d1 s1 n G1 sp1 H1 HL1) as S1.
    (* set_edge: from, to, then the two lists *)
    unfold so_set_edge.
    apply cwp_bind. apply cwp_bind.
    eapply gst_set; [exact S1|apply (slot_neg_i64 f n); [lia|exact Hcap]|exact Hidx|]. intros sp2 S2. cbn [kont].
    apply cwp_bind.
    eapply gst_set; [exact S2|apply (slot_neg_i64 t n); [lia|exact Hcap]|exact Hidx|]. intros sp3 S3. cbn [kont].
    apply cwp_bind.
    eapply (so_link_spec _ d1 s1 n _ _ GfFrom GfFromMeta f index); [exact S3|lia|exact Hidx|exact Hcap|exact Hc1|]. intros sp4 S4. cbn [kont].
    eapply (so_link_spec _ d1 s1 n _ _ GfTo GfToMeta t index); [exact S4|lia|exact Hidx|exact Hcap|exact Hc2|].
    intros sp5 (_ & D5 & s5 & H5 & F5). cbn [kont].
    apply cwp_bind. apply hwp_commit; [lia|lia|]. intros sp6 Hm6 Hd6. cbn [kont cwp].
    eapply HQ; [eapply grep_heq; [exact H5|exact Hm6]|exact I1|lia|].
    eapply frame_trans; [apply frame_refl; exact Hm0|]. eapply frame_trans; [exact F1|].
    eapply frame_trans; [exact F5|apply frame_refl; exact Hm6].
  Qed.
End EdgeOps.
