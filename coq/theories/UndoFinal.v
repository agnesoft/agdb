(* UndoFinal.v — C13: what the simulation means for an observer (the model's own read functions),
   rollback_restores in those terms, and a concrete non-trivial history satisfying the hypotheses. *)
From Agdb Require Import Bytes BytesProofs DbValue Graph DbModel Revisions UndoBase UndoObs UndoAlias UndoKv
  UndoGraphBase UndoGraph UndoGraphEdge UndoGraphOps UndoAbs UndoDb
  UndoStepsAlias UndoStepsKv UndoStepsKv2 UndoStepsGraph UndoBridge UndoMain.
From Coq Require Import Permutation ZifyBool ZifyNat ZifyN.
Ltac Zify.zify_post_hook ::= Z.div_mod_to_equations.
Open Scope Z_scope.

(* what `sim d' d` means for an observer *)
Lemma sim_observable d' d :
  sim d' d ->
  obs_eq d d' /\
  (forall n, slot_kind (gr d) n = KNode ->
     edge_count_from (gr d) n = edge_count_from (gr d') n /\ edge_count_to (gr d) n = edge_count_to (gr d') n) /\
  (forall k, capacity (gr d) + Z.of_nat k <= two63z -> capacity (gr d') + Z.of_nat k <= two63z ->
     next_slots k (gr d) = next_slots k (gr d')) /\
  db_ok d'.
Proof.
  intros S. pose proof (sim_sym _ _ S) as S'. split; [apply sim_obs_eq, S'|]. split; [|split].
  - intros n Hn. apply gsim_degrees; [apply (sim_g _ _ S') | assumption].
  - intros k Hb Hb'. destruct (sim_g _ _ S') as (a & a' & R & R' & E). eapply gsim_next_slots; eassumption.
  - eapply sim_ok_l, S.
Qed.

Section Final.
  Variable rv : revision.
  Hypothesis Hrv : fix_rollback_replace rv = true.
  Hypothesis Hsteal : fix_alias_steal_undo rv = true.

  Theorem rollback_restores_obs d d1 :
    db_ok d -> undo d = [] -> psteps rv d d1 -> capacity (gr d1) <= two63z ->
    exists d', rollback rv d1 = ROk d' /\
      obs_eq d d' /\
      (forall n, slot_kind (gr d) n = KNode ->
         edge_count_from (gr d) n = edge_count_from (gr d') n /\ edge_count_to (gr d) n = edge_count_to (gr d') n) /\
      (forall k, capacity (gr d) + Z.of_nat k <= two63z -> capacity (gr d') + Z.of_nat k <= two63z ->
         next_slots k (gr d) = next_slots k (gr d')) /\
      db_ok d'.
  Proof.
    intros Hok Hu Hs Hb. destruct (rollback_restores rv Hrv Hsteal d d1 Hok Hu Hs Hb) as (d' & Hr & S).
    exists d'. split; [assumption|]. apply sim_observable, S.
  Qed.
End Final.

(* ---- a concrete history: two nodes, an edge, an alias, a property, the edge removed again ---- *)
Definition ex_key : dbvalue := DString [x6b].
Definition ex_d1 : db := snd (insert_node_db db_new).
Definition ex_d2 : db := snd (insert_node_db ex_d1).
Definition ex_d3 : db := match insert_edge_db ex_d2 1 2 with ROk (_, d) => d | RErr _ => ex_d2 end.
Definition ex_d4 : db := insert_new_alias ex_d3 1 [x61].
Definition ex_d5 : db := insert_key_value ex_d4 1 (ex_key, DI64 1).
Definition ex_d6 : db := fst (remove_edge_db ex_d5 (-3)).
Definition ex_d7 : db := insert_or_replace_key_value ex_d6 1 (ex_key, DI64 2).

Lemma ex_psteps : psteps rv_fixed db_new ex_d7.
Proof.
  eapply pss_snoc. eapply pss_snoc. eapply pss_snoc. eapply pss_snoc. eapply pss_snoc. eapply pss_snoc. eapply pss_snoc.
  - apply pss_nil.
  - eapply (ps_insert_node rv_fixed db_new 1 ex_d1). reflexivity.
  - eapply (ps_insert_node rv_fixed ex_d1 2 ex_d2). reflexivity.
  - eapply (ps_insert_edge rv_fixed ex_d2 1 2 (-3) ex_d3); [lia | lia | reflexivity].
  - apply (ps_insert_new_alias rv_fixed ex_d3 1 [x61]); reflexivity.
  - apply (ps_insert_key_value rv_fixed ex_d4 1 (ex_key, DI64 1)). vm_compute. intros [].
  - apply (ps_remove_edge rv_fixed ex_d5 3 ex_d6); [lia | reflexivity |].
    unfold ex_d6. rewrite (surjective_pairing (remove_edge_db ex_d5 (-3))) at 1. f_equal. vm_compute. reflexivity.
  - apply (ps_insert_or_replace rv_fixed ex_d6 1 (ex_key, DI64 2)).
    intros old l' H ids Hids. vm_compute in Hids. discriminate.
Qed.
