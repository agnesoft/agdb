(* C22 — User types stored with the derive macros read back unchanged.
   The statements; proofs in theories/DeriveTypeProofs.v (the examples are evaluated here), the model in theories/DeriveType.v:
   struct descriptions (plain / Option / #[agdb(flatten)] / #[agdb(skip)] / db_id fields, rename = the
   description carries the stored key), DbType::to_db_values (`to_values`), DbType::from_db_element
   (`from_element`), DbType::db_keys (`db_keys`), the From / TryFrom<DbValue> tables (`to_dbvalue`,
   `from_dbvalue`; custom value types through the C20 codec).  f32 / Vec<f32> are not modelled. *)
From Agdb Require Import Bytes Utf8 Codec DbValue Graph DbModel Search Queries DeriveType DeriveTypeProofs.
From Agdb Require DbInvProofs.
Open Scope N_scope.

(* Conversions, every kind: converting the value of a field to a DbValue and back gives the value —
   checked narrowing (u32, i32, Vec<i32>, Vec<u32>) succeeds on widened values, bool and Vec<bool> come back
   from 0/1, a custom value type comes back from Bytes(serialize(v)), a vector of custom values from the
   serialized Vec<DbValue> and the EMPTY vector from Bytes([]) — for both build profiles. *)
Theorem C22_conversion_roundtrip :
  forall (p : profile) (k : fkind) (v : fval), fval_ok k v = true -> from_dbvalue p k (to_dbvalue v) = Ok v.
Proof. exact conv_roundtrip. Qed.
Print Assumptions C22_conversion_roundtrip.

(* The round trip, full strength: for every description whose stored keys are distinct (also through
   flatten) and every well-typed value, from_db_element on ANY pair list that answers the lookups of the
   struct's keys like the list of to_db_values does — extra unrelated pairs anywhere, any order that keeps the
   first occurrence of each of the struct's keys — is Ok of the value with db_id := Some(id) (`norm`; skipped
   fields are the unit value SSkip on both sides = "defaulted"). *)
Theorem C22_roundtrip :
  forall (p : profile) (id : Z) (fs : list fdesc) (l : list sval) (stored : list kv),
    NoDup (names fs) -> svals_ok fs l = true ->
    (forall n, In n (names fs) -> find_key n stored = find_key n (fields_values fs l)) ->
    from_element p id stored fs = Ok (norm id l).
Proof. exact roundtrip_lookup. Qed.
Print Assumptions C22_roundtrip.

(* instance: exactly what insert().element(&v) stores (with the "db_element_id" pair of a
   #[derive(DbElement)] type, provided no field is stored under that key) *)
Theorem C22_roundtrip_stored :
  forall (p : profile) (id : Z) (element : option bytes) (fs : list fdesc) (l : list sval),
    NoDup (names fs) -> svals_ok fs l = true ->
    (element = None \/ ~ In element_id_key (names fs)) ->
    from_element p id (to_values element fs l) fs = Ok (norm id l).
Proof. exact roundtrip. Qed.
Print Assumptions C22_roundtrip_stored.

(* instance: the struct's pairs between unrelated pairs of the same element *)
Theorem C22_roundtrip_in_context :
  forall (p : profile) (id : Z) (fs : list fdesc) (l : list sval) (pre post : list kv),
    NoDup (names fs) -> svals_ok fs l = true ->
    (forall n, In n (names fs) -> find_key n pre = None /\ find_key n post = None) ->
    from_element p id (pre ++ fields_values fs l ++ post) fs = Ok (norm id l).
Proof. exact roundtrip_context. Qed.
Print Assumptions C22_roundtrip_in_context.

(* Update through db_id, on the validated database model (theories/Queries.v), every revision:
   `insert().element(&v)` with db_id = Some(id) is InsertValuesQuery { ids: [id], values: Multi([to_db_values(v)]) }
   (query_builder/insert.rs).  On an existing element it succeeds, reports the number of pairs, returns no new
   element, leaves the graph and the aliases as they are, leaves the key-value list of EVERY other element as it is,
   and the element's own list is the insert-or-replace per key of the new pairs (a key already present keeps its
   position, a new key is appended, keys the value does not store — None options — keep their old pair). *)
Theorem C22_update_by_id :
  forall (rv : revision) (d : db) (id : Z) (kvs : list kv),
    graph_index (gr d) id = true ->
    exists d', exec rv d (InsertValues (Ids [QId id]) (Multi [kvs])) = (d', QOk (lenZ kvs) []) /\
      gr d' = gr d /\ aliases d' = aliases d /\
      (forall j, Z.abs id <> Z.abs j -> kvs_get (vals d') j = kvs_get (vals d) j) /\
      kvs_get (vals d') id = upsert_pairs (kvs_get (vals d) id) kvs.
Proof. exact update_by_id. Qed.
Print Assumptions C22_update_by_id.

(* "Selecting it back as that type": select().elements::<T>().ids(id) is SelectValuesQuery { keys: T::db_keys(), ids }
   (`select_pairs` = Queries.select_values on the element's pairs: [] = all pairs, otherwise the requested pairs in
   request order by DbModel.kvs_values_by_keys, NotFound if a key is missing), followed by from_db_element.  With the
   repaired db_keys (fixed = true = /repo after fix: 61eb706) the selection succeeds and the value reads back — for every
   description with distinct keys, every well-typed value and every stored pair list with the right lookups. *)
Theorem C22_select_roundtrip :
  forall (p : profile) (id : Z) (fs : list fdesc) (l : list sval) (stored : list kv),
    NoDup (names fs) -> svals_ok fs l = true ->
    (forall n, In n (names fs) -> find_key n stored = find_key n (fields_values fs l)) ->
    exists sel, select_pairs (db_keys true fs) stored = Ok sel /\ from_element p id sel fs = Ok (norm id l).
Proof. exact select_roundtrip. Qed.
Print Assumptions C22_select_roundtrip.

(* `select_pairs` is not a re-description: it IS the select query of the validated database model
   (Transaction::exec(SelectValuesQuery { keys, ids: [id] }) = Queries.exec_select) applied to an existing element. *)
Theorem C22_select_is_query :
  forall (rv : revision) (d : db) (id : Z) (keys : list bytes),
    graph_index (gr d) id = true ->
    exec_select rv d (SelectValues (map DString keys) (Ids [QId id])) =
    match select_pairs keys (kvs_get (vals d) id) with
    | Ok sel => QOk 1 [elem d id sel]
    | _ => QErr ENotFound
    end.
Proof. exact select_is_query. Qed.
Print Assumptions C22_select_is_query.

(* The property's first sentence, end to end on the validated database model, for every revision and every database
   state satisfying the C08-C11 state invariant (DbInvProofs.Inv: reachable states): `insert().element(&v)` with
   db_id = None is InsertValuesQuery { ids: [Id(0)], values: Multi([to_db_values(v)]) }; it creates a new node `id`
   whose pairs are exactly to_db_values(v) (a reused slot starts empty), and select().elements::<T>().ids(id) on the
   resulting database followed by from_db_element is Ok of the value with db_id := Some(id). *)
Theorem C22_insert_select_roundtrip :
  forall (rv : revision) (p : profile) (d : db) (element : option bytes) (fs : list fdesc) (l : list sval),
    DbInvProofs.Inv d ->
    NoDup (names fs) -> svals_ok fs l = true -> (element = None \/ ~ In element_id_key (names fs)) ->
    let kvs := to_values element fs l in
    exists id d1,
      exec rv d (InsertValues (Ids [QId 0]) (Multi [kvs])) = (d1, QOk (lenZ kvs) [elem d1 id []]) /\
      graph_index (gr d1) id = true /\ kvs_get (vals d1) id = kvs /\
      exists sel,
        exec_select rv d1 (SelectValues (map DString (db_keys true fs)) (Ids [QId id])) = QOk 1 [elem d1 id sel] /\
        from_element p id sel fs = Ok (norm id l).
Proof. exact insert_select_roundtrip. Qed.
Print Assumptions C22_insert_select_roundtrip.

(* The defect found by the check and repaired (known_findings.txt `fixed: property=C22 61eb706`): with the PINNED macro
   (fixed = false) a type without an own Option field that flattens a struct with one asks for too few keys — the
   flattened required field is missing (error), an all-optional flattened struct silently reads back as None; with the
   repaired db_keys (fixes/C22-flatten-option-keys.diff) both values read back. *)
Theorem C22_flatten_option_keys_pinned_refuted :
  db_keys false w_fs = [[x74]] /\ select_then_read false w_fs w_val = Err /\
  db_keys false w2_fs = [[x6b]] /\ select_then_read false w2_fs w2_val = Ok [SPlain (FU64 1); SFlat [SOpt None]] /\
  db_keys true w_fs = [] /\ select_then_read true w_fs w_val = Ok (norm 1 w_val) /\
  db_keys true w2_fs = [] /\ select_then_read true w2_fs w2_val = Ok (norm 1 w2_val).
Proof. vm_compute. repeat split. Qed.
Print Assumptions C22_flatten_option_keys_pinned_refuted.

(* non-vacuity: a #[derive(DbElement)] type with db_id, u32, renamed String, Vec<String>, a None option, Vec<bool>,
   a custom value, a vector of two custom values, an EMPTY vector of custom values, a skipped field and a flattened
   struct with an f64 (a NaN pattern) and a Some(Vec<u8>) option: hypotheses hold, 10 pairs are stored, the value
   reads back from them and from a reordered list with foreign pairs in front *)
Example C22_nonvacuous :
  NoDup (names ex_fs) /\ svals_ok ex_fs ex_val = true /\ ~ In element_id_key (names ex_fs) /\
  length (to_values (Some [x45]) ex_fs ex_val) = 10%nat /\
  from_element Release 5 (to_values (Some [x45]) ex_fs ex_val) ex_fs = Ok (norm 5 ex_val) /\
  from_element Debug 5 ((DI64 1, DU64 1) :: (DString [x7a; x7a], DI64 0) :: rev (to_values (Some [x45]) ex_fs ex_val)) ex_fs
    = Ok (norm 5 ex_val).
Proof.
  split; [cbv [names ex_fs flat_map names_f app]; repeat constructor; cbn [In]; intuition discriminate|].
  split; [vm_compute; reflexivity|]. split.
  - cbv [names ex_fs flat_map names_f app element_id_key]. cbn [In]. intuition discriminate.
  - vm_compute. repeat split.
Qed.
Print Assumptions C22_nonvacuous.

Example C22_update_nonvacuous :
  upsert_pairs [(DString [x6e], DU64 1); (DI64 9, DI64 9); (DString [x6f], DI64 (-3))]
               (to_values None [DId true; DPlain [x6e] KU32; DOpt [x6f] KI32; DPlain [x7a] KBool]
                          [SId (Some 4%Z); SPlain (FU32 2); SOpt None; SPlain (FBool true)])
  = [(DString [x6e], DU64 2); (DI64 9, DI64 9); (DString [x6f], DI64 (-3)); (DString [x7a], DU64 1)].
Proof. vm_compute. reflexivity. Qed.
Print Assumptions C22_update_nonvacuous.
