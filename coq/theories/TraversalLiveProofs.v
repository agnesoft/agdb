(* TraversalLiveProofs.v — the hypothesis of the history theorems of C09 / C10 / C11 discharged:
   on a well-formed graph the breadth-/depth-first searches (ANY condition list, ANY limit/offset
   handler) and the path search (ANY condition list) return only existing elements, hence
   `search_live rv_fixed` (every id returned by any search exists) holds outright.

   The path search's origin and destination must be existing elements (`traversal_live_on`; DbImpl
   resolves every id through db_id): the raw `path_search`, like the raw GraphImpl functions,
   looks only at |id|, and started from the negated id of a node it returns that negated id, so
   `traversal_live`, which does not ask for this, is false (`traversal_live_refuted`). *)
From Agdb Require Import Bytes Graph DbModel Search Queries Revisions
  AdjOk TraverseProofs PathProofs AdjOkWf GraphSim GraphLive
  DbInvProofs QueryInvProofs SearchLiveProofs.
From Coq Require Import ZifyBool ZifyNat ZifyN.
Ltac Zify.zify_post_hook ::= Z.div_mod_to_equations.
Open Scope Z_scope.

(* the hypothesis relative to existing origins / destinations (as DbImpl resolves them) *)
Definition traversal_live_on (rv : revision) : Prop :=
  (forall d a reverse origin conds h ids,
     wf (gr d) -> graph_index (gr d) origin = true ->
     graph_search rv d a reverse origin conds h = Some ids ->
     forall id, In id ids -> graph_index (gr d) id = true) /\
  (forall d conds origin dest ids,
     wf (gr d) -> graph_index (gr d) origin = true -> graph_index (gr d) dest = true ->
     path_search rv d conds origin dest = Some ids ->
     forall id, In id ids -> graph_index (gr d) id = true).

(* breadth / depth first: every condition list, every handler *)
Section Loop.
  Variable d : db.
  Hypothesis Hok : adj_ok (gr d).
  Variable a : algo.
  Variable reverse : bool.
  Variable origin : Z.

  Lemma search_loop_elems : forall conds h f W V c acc ids,
    Forall (item_ok d) W -> (forall x, In x acc -> elem_id (gr d) x = true) ->
    search_loop rv_fixed d a reverse origin conds h f W V c acc = Some ids ->
    forall x, In x ids -> elem_id (gr d) x = true.
  Proof.
    intros conds h. induction f as [|f IH]; intros W V c acc ids HW Hacc Hs; [discriminate|].
    destruct W as [|[x k] rest]; cbn [search_loop] in Hs.
    - injection Hs as <-. intros y Hy. apply Hacc. now apply in_rev.
    - pose proof (proj1 (Forall_inv HW)) as Hx. cbn [fst] in Hx.
      pose proof (fun follow => expand_ok d Hok a reverse origin x k rest follow HW) as Hexp.
      assert (Hacc' : forall add : bool, forall y, In y (if add then x :: acc else acc) -> elem_id (gr d) y = true).
      { intros [|] y Hy; [destruct Hy as [<-|Hy]; [exact Hx|now apply Hacc]|now apply Hacc]. }
      destruct (visited V x).
      + cbn [fix_visited_chain rv_fixed andb] in Hs. rewrite (expand_visited d a reverse origin x k rest Hx) in Hs.
        exact (IH _ _ _ _ _ (Hexp false) Hacc Hs).
      + destruct (handle h c (eval_conditions rv_fixed d x k conds)) as [control c'].
        destruct control as [add|add|add].
        * exact (IH _ _ _ _ _ (Hexp true) (Hacc' add) Hs).
        * injection Hs as <-. intros y Hy. apply (Hacc' add). now apply in_rev.
        * exact (IH _ _ _ _ _ (Hexp false) (Hacc' add) Hs).
  Qed.

  Lemma graph_search_elems conds h ids :
    graph_index (gr d) origin = true ->
    graph_search rv_fixed d a reverse origin conds h = Some ids ->
    forall x, In x ids -> graph_index (gr d) x = true.
  Proof.
    unfold graph_search. intros Ho Hs x Hx. rewrite graph_index_elem_id in *.
    destruct (is_node (gr d) origin || is_edge (gr d) origin).
    2:{ injection Hs as <-. destruct Hx. }
    apply (search_loop_elems conds h (search_fuel (gr d)) [(origin, 0)] [] 0 [] ids); try assumption.
    - constructor; [split; [exact Ho | reflexivity] | constructor].
    - intros y [].
  Qed.
End Loop.

(* path search: every condition list *)
Lemma is_path_elems g o w p : adj_ok g -> is_path g o w p -> forall x, In x p -> elem_id g x = true.
Proof.
  intros Hok H. induction H as [Ho|u p e H IH He Hf]; intros x Hx.
  - destruct Hx as [<-|[]]. unfold elem_id. now rewrite Ho.
  - apply in_app_or in Hx. destruct Hx as [Hx|[<-|[<-|[]]]]; [now apply IH| |]; unfold elem_id.
    + rewrite He. apply orb_true_r.
    + now rewrite (ao_to_node g Hok e He).
Qed.

Lemma path_search_elems rv d conds origin dest ids :
  adj_ok (gr d) -> 0 < origin -> 0 < dest ->
  path_search rv d conds origin dest = Some ids ->
  forall x, In x ids -> graph_index (gr d) x = true.
Proof.
  intros Hok Ho Hd Hs x Hx. rewrite graph_index_elem_id.
  assert (Hne : ids <> []) by (intros ->; destruct Hx).
  destruct (path_search_any_sound rv d conds dest Hok origin ids Ho Hd Hs Hne) as (els & -> & Hp).
  apply (is_path_elems (gr d) origin dest (map fst els) Hok Hp).
  apply in_map_iff in Hx. destruct Hx as [p [<- Hp']]. apply filter_In in Hp'. apply in_map. tauto.
Qed.

Theorem traversal_live_holds : traversal_live_on rv_fixed.
Proof.
  split.
  - intros d a reverse origin conds h ids Hwf Ho Hs. apply wf_adj_ok in Hwf.
    now apply (graph_search_elems d Hwf a reverse origin conds h ids).
  - intros d conds origin dest ids Hwf Ho Hd Hs id Hin.
    destruct (negb (origin =? dest) && is_node (gr d) origin && is_node (gr d) dest) eqn:E.
    + apply andb_prop in E. destruct E as [E E3]. apply andb_prop in E. destruct E as [_ E2].
      apply (path_search_elems rv_fixed d conds origin dest ids); try assumption.
      * now apply wf_adj_ok.
      * now apply (live_node_pos (gr d)).
      * now apply (live_node_pos (gr d)).
    + unfold path_search in Hs. rewrite E in Hs. injection Hs as <-. destruct Hin.
Qed.

Theorem search_live_of_traversal_on rv : traversal_live_on rv -> search_live rv.
Proof. intros [Hgs Hps]. exact (search_live_from rv Hgs Hps). Qed.

Theorem search_live_fixed : search_live rv_fixed.
Proof. exact (search_live_of_traversal_on rv_fixed traversal_live_holds). Qed.

(* two nodes, an edge 1 -> 2 (-3): the raw path search from -1 (the negated id of node 1, which
   is_node accepts because GraphImpl looks at |id| only) to 2 returns the id -1, not an element *)
Definition tl_db : db :=
  fst (exec rv_fixed (fst (exec rv_fixed db_new (InsertNodes 2 (Single []) [] (Ids []))))
            (InsertEdges (Ids [QId 1]) (Ids [QId 2]) (Single []) false (Ids []))).

Lemma traversal_live_refuted : ~ traversal_live rv_fixed.
Proof.
  intros [_ Hps].
  assert (Hwf : wf (gr tl_db)).
  { assert (Hi : Inv tl_db); [|exact (proj1 Hi)].
    unfold tl_db. apply (exec_ok_Inv rv_fixed search_live_fixed eq_refl); [exact I| |reflexivity].
    apply (exec_ok_Inv rv_fixed search_live_fixed eq_refl); [exact I|exact Inv_new|reflexivity]. }
  specialize (Hps tl_db [] (-1) 2 [-1; -3; 2] Hwf eq_refl (-1) (or_introl eq_refl)).
  vm_compute in Hps. discriminate.
Qed.
