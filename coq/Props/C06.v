(* C06 — All storage variants give identical query results.
   The statements, each proved in a few lines from the lemmas of theories/ByteStoresProofs.v, StorageSim.v and StoredDbProofs.v.

   FULL STATEMENT: for any sequence of queries the in-memory, file-only, memory-mapped and
   runtime-selected variants return identical results and identical success/failure.
   PROVED PART: the three byte-store back-ends (MemoryStorage, the data file of FileStorage, the
   memory + file pair of FileStorageMemoryMapped) compute the SAME byte store for every sequence of
   writes that start inside the store or at its end and of resizes — which is what the storage layer
   issues (checked on every generated program by the C01 check) — and reads agree; the mapped pair
   stays in sync.  Above the byte store this file states three more layers: Storage<D> over the three
   back-ends modelled literally (module StorageLevel), the collections on a file-like and on a
   memory-like storage, and the database loader on both.  What remains trusted: that DbImpl<D>'s
   queries, ONE generic piece of Rust code instantiated with each back-end (AnyStorage only
   delegates), behave alike on all variants; backed by the side-by-side runs of the check (every
   query of generated histories executed on DbMemory, DbFile, Db and the three DbAny kinds). *)
From Agdb Require Import Bytes FileWal ByteStores ByteStoresProofs.
Open Scope nat_scope.

Theorem C06_backends_agree_partial :
  forall (ops : list bop) (d : bytes),
    positioned d ops ->
    fold_left mem_step ops d = fold_left spec_step ops d /\
    fold_left file_step ops d = fold_left spec_step ops d /\
    fold_left mapped_step ops {| m_mem := d; m_file := d |} =
      {| m_mem := fold_left spec_step ops d; m_file := fold_left spec_step ops d |}.
Proof.
  intros ops. induction ops as [|o r IH]; intros d Hp; cbn [fold_left]; [repeat split|].
  destruct o as [p b|n]; cbn [positioned] in Hp; cbn [mem_step file_step mapped_step spec_step].
  - destruct Hp as [Hpos Hr]. unfold mapped_write. cbn [m_mem m_file].
    rewrite mem_write_spec, file_write_spec by exact Hpos. apply IH. exact Hr.
  - unfold mapped_resize, mem_resize, file_resize. cbn [m_mem m_file]. apply IH. exact Hp.
Qed.
Print Assumptions C06_backends_agree_partial.

Theorem C06_reads_agree : forall d pos len, mem_read d pos len = file_read d pos len.
Proof. reflexivity. Qed.
Print Assumptions C06_reads_agree.

(* also beyond the end of the store both back-ends zero-fill the gap *)
Theorem C06_gap_writes_agree :
  forall d pos bs, length d < pos -> bs <> [] -> mem_write d pos bs = file_write d pos bs.
Proof. intros. rewrite mem_write_gap, file_write_gap by assumption. reflexivity. Qed.
Print Assumptions C06_gap_writes_agree.

Example C06_nonvacuous :
  positioned [x01; x02; x03] [BWrite 1 [x0a]; BWrite 3 [x0b; x0c]; BResize 2; BResize 6; BWrite 4 []].
Proof. exact positioned_example. Qed.
Print Assumptions C06_nonvacuous.

(* the storage layer over the back-ends (models Storage.v, proofs StorageSim.v; see Props/C04.v) *)
Module StorageLevel.
From Agdb Require Import Records RecordsProofs RecordsTableProofs Storage StorageSpec
  StorageLayout StorageWp StorageOps StorageOps2 StorageRefine StorageReopen StorageOptimize StorageProofs StorageSim.
Open Scope N_scope.

(* each back-end, modelled literally, is a lawful byte store; Storage<D> is parametric in a lawful store;
   hence all three give the canonical observations for EVERY storage operation list *)
Theorem C06_instances_lawful :
  lawful bytes mem_raw ops_mem rd_mem /\ lawful cdata file_raw ops_file rd_file /\
  lawful (cdata * bytes) mapped_raw ops_file rd_mapped.
Proof. exact (conj mem_lawful (conj file_lawful mapped_lawful)). Qed.
Print Assumptions C06_instances_lawful.

(* Storage<D> is parametric in a lawful byte store: related states give equal observations for every
   operation list, as long as the canonical run stays inside the contract *)
Theorem C06_storage_parametric :
  forall (T : Type) (opsT : store_ops T) (opsC : store_ops cdata) (rd : T -> cdata -> Prop),
    canon opsC -> lawful T opsT opsC rd ->
    forall l s1 s2, srel T rd s1 s2 -> ~ In ObFault (st_run cdata opsC s2 l) ->
      st_run T opsT s1 l = st_run cdata opsC s2 l.
Proof. exact sim_run. Qed.
Print Assumptions C06_storage_parametric.

(* hence, from an empty store, the three back-ends produce exactly the observations of the canonical model
   (which C04 shows to be the abstract map's) for EVERY operation list; FileStorage and
   FileStorageMemoryMapped agree on everything; MemoryStorage agrees with them on every history that does
   not drop the storage (it has no persistence: a `reopen` is a backup + open there) *)
Theorem C06_backends_agree :
  forall l,
  st_run bytes mem_raw (fst (with_data bytes mem_raw [])) l = st_run cdata ops_mem (fst init_mem) l /\
  st_run cdata file_raw (fst (with_data cdata file_raw empty_cdata)) l = st_run cdata ops_file (fst init_file) l /\
  st_run (cdata * bytes) mapped_raw (fst (with_data (cdata * bytes) mapped_raw (empty_cdata, []))) l
    = st_run cdata ops_file (fst init_file) l.
Proof. exact StorageSim.backends_agree. Qed.
Print Assumptions C06_backends_agree.

Theorem C06_mem_file_agree :
  forall l, no_reopen l = true -> forall s, st_run cdata ops_mem s l = st_run cdata ops_file s l.
Proof. exact mem_file_agree. Qed.
Print Assumptions C06_mem_file_agree.

End StorageLevel.

(* the collection layer on both kinds of storage:
   PROVED HERE (theories/CollAgree.v; models as in Props/C05.v): for EVERY history of a storage-backed vector
   (any element class with elem_law: u64, i64, String, ...), of the MapData interface of a storage-backed map and
   of the GraphData interface of the graph storage — reloads and maintenance included — the run on the model of
   storage.rs over the FILE-like byte store (FileStorage, FileStorageMemoryMapped: a drop rolls an open transaction
   back) and the run over the MEMORY-like one (MemoryStorage) return the SAME list of observations, namely the
   one of the plain list / table / arrays; unless one of them dies by a panic of the storage (a request beyond
   2^64 bytes).  With C06_backends_agree (Props/C04.v: the three literal back-ends produce the observations of the
   canonical byte stores for every operation list) this carries the agreement of the variants from the byte store
   up through the collections.  NOT proved: the same for DbImpl's queries (L3); covered by the side-by-side runs. *)
From Agdb Require Import Storage StorageSpec StorageProofs Collections CollWp CollVecBase CollElems CollVecHist CollMap CollMapHist
  CollGraph CollGraphNew CollAgree.

Theorem C06_vec_variants_agree :
  forall (T : Type) (E : cv_elem T) (L : elem_law E) (l : list (cv_op T)), ops_ok T E L [] l ->
    let rf := cp_run (st_step cdata ops_file) (h <~ cv_new ;; cv_run T E h l) s_init in
    let rm := cp_run (st_step cdata ops_mem) (h <~ cv_new ;; cv_run T E h l) s_init in
    snd rf = CrDead \/ snd rm = CrDead \/
    exists hf hm, snd rf = CrOk (hf, snd (cl_run [] l)) /\ snd rm = CrOk (hm, snd (cl_run [] l)).
Proof. exact cv_variants_agree. Qed.
Print Assumptions C06_vec_variants_agree.

Theorem C06_map_variants_agree :
  forall (K V : Type) (EK : cv_elem K) (EV : cv_elem V) (LK : elem_law EK) (LV : elem_law EV) (kdef : K) (vdef : V),
    el_valid LK kdef -> el_valid LV vdef ->
  forall l : list (cm_op K V), Forall (mop_ok K V EK EV LK LV) l ->
    let p := d <~ cm_new ;; cm_run K V EK EV kdef vdef d l in
    let rf := cp_run (st_step cdata ops_file) p s_init in
    let rm := cp_run (st_step cdata ops_mem) p s_init in
    snd rf = CrDead \/ snd rm = CrDead \/
    exists df dm, snd rf = CrOk (df, snd (ct_run K V kdef vdef (ct_empty K V) l)) /\
                  snd rm = CrOk (dm, snd (ct_run K V kdef vdef (ct_empty K V) l)).
Proof. exact cm_variants_agree. Qed.
Print Assumptions C06_map_variants_agree.

Theorem C06_graph_variants_agree :
  forall l : list cg_op, gops_ok ga_init l ->
    let rf := cp_run (st_step cdata ops_file) (d <~ cg_new ;; cg_run d l) s_init in
    let rm := cp_run (st_step cdata ops_mem) (d <~ cg_new ;; cg_run d l) s_init in
    snd rf = CrDead \/ snd rm = CrDead \/
    exists df dm, snd rf = CrOk (df, snd (ga_run ga_init l)) /\ snd rm = CrOk (dm, snd (ga_run ga_init l)).
Proof. exact cg_variants_agree. Qed.
Print Assumptions C06_graph_variants_agree.

(* the database level: one database in a file-like and in a memory-like storage:
   (models, the relation stored_db and the loader load_db: see the L3 section of Props/C05.v; theories/StoredDb*.v)
   If the file-like and the memory-like model of storage.rs are each in a state (refining an abstract map) that holds
   the SAME database d, the loader program — DbImpl::new's loaders, every component read to the end — returns on both a
   database with the same graph arrays and the same property lists, and equal up to sd_eqv altogether (alias lookups,
   index keys in order, ids per index as multisets); hence (C05_db_eqv_queries) every order-independent read-only
   query has the same result on both.  Also for two plain record stores.
   _partial: that the two variants ARE in states holding the same database after the same history of queries is the
   simulation of db.rs's mutations (C05_db_operations_preserve_stored_db, the missing link named in Props/C05.v);
   covered by the side-by-side runs of this check. *)
From Agdb Require Import Bytes Records Graph DbModel StorageRefine StoredDb StoredDbRep StoredDbRun StoredDbLoad StoredDbProofs StoredDbExample.

Theorem C06_db_variants_agree_partial :
  (forall sf spf sm_ spm root d,
     Rel sf spf -> Rel sm_ spm -> stored_db (hp spf) root d -> stored_db (hp spm) root d ->
     let rf := cp_run (st_step cdata ops_file) (sd_load root) sf in
     let rm := cp_run (st_step cdata ops_mem) (sd_load root) sm_ in
     snd rf = CrDead \/ snd rm = CrDead \/
     exists df dm, snd rf = CrOk df /\ snd rm = CrOk dm /\ sd_eqv df dm /\ gr df = gr dm /\ vals df = vals dm) /\
  (forall m1 m2 root1 root2 d,
     stored_db (m_get m1) root1 d -> stored_db (m_get m2) root2 d ->
     exists d1 d2, load_db m1 root1 = Some d1 /\ load_db m2 root2 = Some d2 /\ sd_eqv d1 d2 /\
                   gr d1 = gr d2 /\ vals d1 = vals d2).
Proof.
  split.
  - intros sf spf sm_ spm root d RLf RLm Hf Hm rf rm.
    destruct (sd_load_on_storage ops_file true kind_file sf spf root d RLf Hf) as [D|(_ & df & Ef & _ & Hef)]; [left; exact D|].
    destruct (sd_load_on_storage ops_mem false kind_mem sm_ spm root d RLm Hm) as [D|(_ & dm & Em & _ & Hem)]; [right; left; exact D|].
    right. right. exists df, dm. split; [exact Ef|]. split; [exact Em|]. exact (sd_eqv_common d df dm Hef Hem).
  - intros m1 m2 root1 root2 d H1 H2.
    destruct (load_db_of_stored m1 root1 d H1) as (d1 & E1 & He1 & _).
    destruct (load_db_of_stored m2 root2 d H2) as (d2 & E2 & He2 & _).
    exists d1, d2. split; [exact E1|]. split; [exact E2|]. exact (sd_eqv_common d d1 d2 He1 He2).
Qed.
Print Assumptions C06_db_variants_agree_partial.

(* non-vacuity: the same creation program (theories/StoredDbExample.v) run on the file-like and on the memory-like model of
   storage.rs leaves the same record store, which holds the database and loads to it *)
Example C06_db_sample :
  sx_store_mem = sx_store /\ stored_db (m_get sx_store) 1 sx_db /\ load_db sx_store_mem 1 = Some sx_db.
Proof. destruct sx_sample as (_ & _ & H1 & H2 & _ & _ & _ & H3). rewrite H3. exact (conj eq_refl (conj H1 H2)). Qed.
Print Assumptions C06_db_sample.
