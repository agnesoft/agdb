(* RecordsProofs.v — lemmas about Records.v: the sorted association lists, the free
   space maps (agreement of free_pos_size and free_size_pos, selection rules of
   take_free / take_free_after) and the record table with its free-index list. *)
From Agdb Require Import Bytes BytesProofs Records.
From Coq Require Import ZifyBool ZifyNat ZifyN.
Ltac Zify.zify_post_hook ::= Z.div_mod_to_equations.
Open Scope N_scope.
Arguments N.add : simpl never.
Arguments N.mul : simpl never.
Arguments N.sub : simpl never.
Arguments N.of_nat : simpl never.
Arguments N.to_nat : simpl never.
Arguments N.eqb : simpl never.
Arguments N.ltb : simpl never.
Arguments N.leb : simpl never.

Fixpoint ksorted {V} (m : list (N * V)) : Prop :=
  match m with
  | [] => True
  | (k, _) :: r => (forall k', In k' (map fst r) -> k < k') /\ ksorted r
  end.

Lemma m_get_put V (m : list (N * V)) k v q :
  m_get (m_put m k v) q = if k =? q then Some v else m_get m q.
Proof.
  induction m as [|[a b] r IH]; cbn [m_put m_get].
  - reflexivity.
  - destruct (N.ltb_spec k a); cbn [m_get].
    + reflexivity.
    + destruct (N.eqb_spec k a); cbn [m_get].
      * subst a. destruct (N.eqb_spec k q); reflexivity.
      * rewrite IH. destruct (N.eqb_spec a q), (N.eqb_spec k q); try reflexivity. congruence.
Qed.

Lemma m_get_del V (m : list (N * V)) k q :
  m_get (m_del m k) q = if k =? q then None else m_get m q.
Proof.
  unfold m_del. induction m as [|[a b] r IH]; cbn [filter m_get fst].
  - destruct (k =? q); reflexivity.
  - destruct (N.eqb_spec a k); cbn [negb m_get].
    + subst a. rewrite IH. destruct (N.eqb_spec k q); reflexivity.
    + rewrite IH. destruct (N.eqb_spec a q), (N.eqb_spec k q); try reflexivity. congruence.
Qed.

Lemma keys_put V (m : list (N * V)) k v x :
  In x (map fst (m_put m k v)) -> x = k \/ In x (map fst m).
Proof.
  induction m as [|[a b] r IH]; cbn [m_put map fst In].
  - intros [H|[]]; auto.
  - destruct (N.ltb_spec k a); cbn [map fst In].
    + intros [H1|[H1|H1]]; auto.
    + destruct (N.eqb_spec k a); cbn [map fst In].
      * intros [H1|H1]; auto.
      * intros [H1|H1]; auto. destruct (IH H1); auto.
Qed.

Lemma ksorted_put V (m : list (N * V)) k v : ksorted m -> ksorted (m_put m k v).
Proof.
  induction m as [|[a b] r IH]; cbn [m_put ksorted].
  - intros _. split; [intros k' []|exact I].
  - intros [Ha Hr]. destruct (N.ltb_spec k a).
    + cbn [ksorted map fst In]. split; [|split; assumption].
      intros k' [<-|Hk]; [assumption|]. specialize (Ha _ Hk). lia.
    + destruct (N.eqb_spec k a).
      * subst a. cbn [ksorted]. split; assumption.
      * cbn [ksorted]. split; [|apply IH, Hr].
        intros k' Hk. destruct (keys_put _ _ _ _ _ Hk) as [->|Hk']; [lia|auto].
Qed.

Lemma keys_del V (m : list (N * V)) k x : In x (map fst (m_del m k)) -> In x (map fst m).
Proof.
  unfold m_del. induction m as [|[a b] r IH]; cbn [filter map fst In]; [tauto|].
  destruct (negb (a =? k)); cbn [map fst In]; tauto.
Qed.

Lemma ksorted_del V (m : list (N * V)) k : ksorted m -> ksorted (m_del m k).
Proof.
  induction m as [|[a b] r IH]; cbn [ksorted]; [tauto|].
  intros [Ha Hr]. unfold m_del in *. cbn [filter fst].
  destruct (negb (a =? k)); [|apply IH, Hr].
  cbn [ksorted]. split; [|apply IH, Hr].
  intros k' Hk. apply Ha. eapply keys_del. exact Hk.
Qed.

Lemma get_In V (m : list (N * V)) k v : m_get m k = Some v -> In (k, v) m.
Proof.
  induction m as [|[a b] r IH]; cbn [m_get In]; [discriminate|].
  destruct (N.eqb_spec a k); [intros [= <-]; subst; auto|auto].
Qed.

Lemma In_get V (m : list (N * V)) k v : ksorted m -> In (k, v) m -> m_get m k = Some v.
Proof.
  induction m as [|[a b] r IH]; cbn [ksorted m_get In]; [tauto|].
  intros [Ha Hr] [[= -> ->]|Hin].
  - now rewrite N.eqb_refl.
  - assert (a < k) by (apply Ha; change k with (fst (k, v)); now apply in_map).
    destruct (N.eqb_spec a k); [lia|auto].
Qed.

Lemma m_prev_In V (m : list (N * V)) k k' v : m_prev m k = Some (k', v) -> In (k', v) m /\ k' < k.
Proof.
  induction m as [|[a b] r IH]; cbn [m_prev In]; [discriminate|].
  destruct (N.ltb_spec a k); [|discriminate].
  destruct (m_prev r k) as [[x y]|].
  - intros [= -> ->]. destruct IH as [? ?]; auto.
  - intros [= -> ->]. auto.
Qed.

Lemma s_add_In s k x : In x (s_add s k) <-> x = k \/ In x s.
Proof.
  induction s as [|a r IH]; cbn [s_add In].
  - intuition.
  - destruct (N.ltb_spec k a); cbn [In]; [intuition|].
    destruct (N.eqb_spec k a); cbn [In]; [subst; intuition|]. rewrite IH. intuition.
Qed.

Lemma s_del_In s k x : In x (s_del s k) <-> x <> k /\ In x s.
Proof.
  unfold s_del. rewrite filter_In. destruct (N.eqb_spec x k); cbn [negb]; intuition; discriminate.
Qed.

(* the two free maps are sorted and agree: position p has size s in one iff p is among the
   positions of size s in the other *)
Definition fwf (rs : records) : Prop :=
  ksorted (fps rs) /\ ksorted (fsp rs) /\
  forall p s, m_get (fps rs) p = Some s <-> exists ps, m_get (fsp rs) s = Some ps /\ In p ps.

Lemma fwf_new : fwf records_new.
Proof. repeat split; cbn; try tauto; try discriminate. intros [ps [H _]]. discriminate. Qed.

Lemma fwf_clear rs : fwf (clear_free rs).
Proof. repeat split; cbn; try tauto; try discriminate. intros [ps [H _]]. discriminate. Qed.

Lemma fwf_set_recs rs l : fwf rs -> fwf (set_recs rs l).
Proof. exact (fun H => H). Qed.

Lemma fwf_mark_free rs pos size :
  fwf rs -> m_get (fps rs) pos = None -> fwf (mark_free rs pos size).
Proof.
  intros (S1 & S2 & AG) Hnew. unfold fwf, mark_free. cbn [fps fsp].
  split; [apply ksorted_put, S1|]. split; [apply ksorted_put, S2|].
  intros p s. rewrite m_get_put.
  destruct (N.eqb_spec pos p) as [->|Hp].
  - split.
    + intros [= <-]. rewrite m_get_put, N.eqb_refl. eexists; split; [reflexivity|].
      apply s_add_In. auto.
    + intros (ps & Hg & Hin). rewrite m_get_put in Hg.
      destruct (N.eqb_spec size s) as [->|Hs]; [reflexivity|].
      exfalso. assert (m_get (fps rs) p = Some s) by (apply AG; eauto). congruence.
  - rewrite AG. split; intros (ps & Hg & Hin).
    + rewrite m_get_put. destruct (N.eqb_spec size s) as [->|Hs].
      * eexists; split; [reflexivity|]. apply s_add_In. rewrite Hg. auto.
      * eauto.
    + rewrite m_get_put in Hg. destruct (N.eqb_spec size s) as [->|Hs].
      * injection Hg as <-. apply s_add_In in Hin. destruct Hin as [->|Hin]; [congruence|].
        destruct (m_get (fsp rs) s) as [ps0|] eqn:E; [eauto|destruct Hin].
      * eauto.
Qed.

Lemma fwf_remove_free rs pos size :
  fwf rs -> m_get (fps rs) pos = Some size -> fwf (remove_free rs pos).
Proof.
  intros (S1 & S2 & AG) Hin. unfold fwf, remove_free. rewrite Hin. cbn [fps fsp].
  split; [apply ksorted_del, S1|].
  destruct (proj1 (AG pos size) Hin) as (ps0 & Hps0 & Hpos0). rewrite Hps0.
  assert (HS : forall s ps, m_get (match s_del ps0 pos with [] => m_del (fsp rs) size | _ :: _ => m_put (fsp rs) size (s_del ps0 pos) end) s = Some ps
               <-> (if size =? s then ps = s_del ps0 pos /\ ps <> [] else m_get (fsp rs) s = Some ps)).
  { intros s ps. destruct (s_del ps0 pos) as [|a t] eqn:E.
    - rewrite m_get_del. destruct (size =? s); [|tauto]. split; [discriminate|intros [-> H]; congruence].
    - rewrite m_get_put. destruct (size =? s); [|tauto]. split; [intros [= <-]; split; congruence|intros [-> _]; reflexivity]. }
  split.
  { destruct (s_del ps0 pos); [apply ksorted_del, S2|apply ksorted_put, S2]. }
  intros p s. rewrite m_get_del.
  destruct (N.eqb_spec pos p) as [->|Hp].
  - split; [discriminate|]. intros (ps & Hg & Hi). exfalso. apply HS in Hg.
    destruct (N.eqb_spec size s) as [->|Hs].
    + destruct Hg as [-> _]. apply s_del_In in Hi. tauto.
    + assert (m_get (fps rs) p = Some s) by (apply AG; eauto). congruence.
  - rewrite AG. split; intros (ps & Hg & Hi).
    + destruct (N.eqb_spec size s) as [->|Hs].
      * exists (s_del ps0 pos). assert (ps = ps0) by congruence. subst ps. split.
        -- apply HS. rewrite N.eqb_refl. split; [reflexivity|].
           intros E. assert (In p (s_del ps0 pos)) by (apply s_del_In; auto). rewrite E in H. destruct H.
        -- apply s_del_In. auto.
      * exists ps. split; [|assumption]. apply HS. destruct (N.eqb_spec size s); [congruence|assumption].
    + apply HS in Hg. destruct (N.eqb_spec size s) as [->|Hs].
      * destruct Hg as [-> _]. apply s_del_In in Hi. exists ps0. tauto.
      * eauto.
Qed.

Lemma find_free_spec m k s ps :
  ksorted m -> find_free m k = Some (s, ps) ->
  m_get m s = Some ps /\ k <= s /\ (s = k \/ k + 16 <= s).
Proof.
  induction m as [|[a b] r IH]; cbn [find_free ksorted]; [discriminate|].
  intros [Ha Hr].
  destruct ((k <=? a) && ((a =? k) || (k + 16 <=? a))) eqn:E.
  - intros [= -> ->]. cbn [m_get]. rewrite N.eqb_refl. split; [reflexivity|]. lia.
  - intros H. destruct (IH Hr H) as (G & B1 & B2). split; [|auto].
    cbn [m_get]. assert (a < s).
    { apply Ha. apply get_In in G. change s with (fst (s, ps)). now apply in_map. }
    destruct (N.eqb_spec a s); [lia|assumption].
Qed.

Lemma take_free_spec rs k rs' p s :
  fwf rs -> take_free rs k = Some (rs', (p, s)) ->
  m_get (fps rs) p = Some s /\ k <= s /\ (s = k \/ k + 16 <= s) /\ rs' = remove_free rs p.
Proof.
  intros (S1 & S2 & AG). unfold take_free.
  destruct (find_free (fsp rs) k) as [[s0 [|p0 t]]|] eqn:E; try discriminate.
  intros [= <- <- <-]. destruct (find_free_spec _ _ _ _ S2 E) as (G & B1 & B2).
  split; [|auto]. apply AG. exists (p0 :: t). split; [assumption|left; reflexivity].
Qed.

Lemma take_free_after_spec rs e g rs' p s :
  take_free_after rs e g = Some (rs', (p, s)) ->
  p = e /\ m_get (fps rs) e = Some s /\ (16 + s = g \/ g <= s) /\ rs' = remove_free rs e.
Proof.
  unfold take_free_after. destruct (m_get (fps rs) e) as [sz|]; [|discriminate].
  destruct ((16 + sz =? g) || (g <=? sz)) eqn:E; [|discriminate].
  intros [= <- <- <-]. repeat split; auto. lia.
Qed.

Lemma fps_remove_free rs p q :
  m_get (fps (remove_free rs p)) q = if p =? q then None else m_get (fps rs) q.
Proof. unfold remove_free. cbn [fps]. apply m_get_del. Qed.

Lemma fps_mark_free rs p n q :
  m_get (fps (mark_free rs p n)) q = if p =? q then Some n else m_get (fps rs) q.
Proof. unfold mark_free. cbn [fps]. apply m_get_put. Qed.

Lemma upd_length {A} (l : list A) i x : length (upd l i x) = length l.
Proof. revert i; induction l as [|a r IH]; intros [|i]; cbn [upd length]; auto. Qed.

Lemma nth_error_upd {A} (l : list A) i x j :
  nth_error (upd l i x) j = if Nat.eqb j i then (if Nat.ltb i (length l) then Some x else None) else nth_error l j.
Proof.
  revert i j; induction l as [|a r IH]; intros i j.
  - destruct i, j; cbn [upd nth_error length Nat.eqb]; try reflexivity.
    destruct (Nat.eqb j i); reflexivity.
  - destruct i as [|i], j as [|j]; cbn [upd nth_error length Nat.eqb]; try reflexivity.
    rewrite IH. destruct (Nat.eqb j i); [|reflexivity].
    destruct (Nat.ltb_spec i (length r)), (Nat.ltb_spec (S i) (S (length r))); try reflexivity; lia.
Qed.

Lemma nth_error_nth {A} (l : list A) i d x : nth_error l i = Some x -> nth i l d = x.
Proof. revert i; induction l as [|a r IH]; intros [|i]; cbn [nth_error nth]; try discriminate; [now intros [= ->]|auto]. Qed.

