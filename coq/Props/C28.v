(* C28 — Committed cluster log entries agree on all nodes and never change.
   Statements, each proved in a few lines from the theorems of theories/RaftProofs.v, RaftInv.v (`run_from_inv` for
   (a), (b)), RaftLogProofs.v, RaftLogMatch.v, RaftLogLC.v, RaftLogCA.v, RaftLogAck.v; closed witnesses are evaluated
   here; model theories/Raft.v.

   `rv : raftrev` is the revision of raft.rs (Raft.v): `rr_pinned` before all repairs, `rr_before_ack_fix` after the
   two election repairs of C27, `rr_fixed` after these and the acknowledgement repair `fix_ack_term` ("a leader counts
   only acknowledgements of its current term", fixes/C28-count-only-current-term-acks.diff); the check compares the code
   with the model of the revision found in the source tree.

   FULL STATEMENT: for every cluster size and every event list of the adversary
     (a) the commit index of a node never decreases,
     (b) an entry at an index <= commit of a node is never removed or replaced there,
     (c) forall size evs, committed_agree (run rv size evs): no two nodes hold different entries at an index
         both have committed.
   (a), (b) are proved for every revision.  (c) is false of the faithful model of EVERY revision (`C28c_refuted*`):
   the election repairs remove the class `ack below voted term` (and the two election classes) but not the
   log-replication defects.  `classes h` = (double vote, stale vote counted, ack from diverged log, old-term
   commit, ack below voted term) are the decidable defect classes of a history; a THIRD log-replication class is
   `commit-without-quorum` (RaftLog.v); it is the class removed by
   the acknowledgement repair: its witnesses are stated for the revisions without that repair
   (`C28c_refuted_commit_noquorum`, `..._before_ack_fix`), the same event list is harmless under `rr_fixed`
   (`C28c_commit_noquorum_witness_harmless_fixed`).
   CONDITIONAL THEOREM `C28c_partial` for rr_fixed: if none of the three log-replication
   classes occurs in the run, (c) holds — these three classes are the only ways raft.rs (with the repairs)
   can commit different entries at one index. *)
From Coq Require Import NArith List Lia.
From Agdb Require Import Raft RaftWitness RaftProofs RaftInv RaftLog RaftLogProofs RaftLogMatch RaftLogLC RaftLogCA RaftLogAck.
Import ListNotations.
Open Scope N_scope.

(* (a) PROVED for every adversarial event list: the commit index of node i never decreases
   (`run size (evs ++ evs')` is any continuation of `run size evs`).  The degenerate one-node cluster, which
   exchanges no messages, is excluded (`size <> 1`). *)
Theorem C28a_commit_monotone : forall rv size evs evs' i,
  size <> 1 -> commit_of (run rv size evs) i <= commit_of (run rv size (evs ++ evs')) i.
Proof.
  intros rv size evs evs' i Hs. rewrite fold_run_app.
  destruct (run_from_inv rv evs (init_default size) (init_inv size Hs)) as [H1 _].
  destruct (run_from_inv rv evs' (run rv size evs) H1) as [_ S].
  unfold commit_of. destruct (nth_error (c_nodes (run rv size evs)) i) as [nd|] eqn:E; [|lia].
  destruct (S _ _ E) as [nd' [E' (_ & _ & _ & C & _)]]. rewrite E'. exact C.
Qed.
Print Assumptions C28a_commit_monotone.

(* (b) PROVED for every adversarial event list: an entry held at a committed index of node i is still there,
   unchanged, after any continuation (truncate-on-append never cuts at or below the commit index) *)
Theorem C28b_committed_stable : forall rv size evs evs' i idx e,
  size <> 1 ->
  idx <= commit_of (run rv size evs) i ->
  log_at (logs_of (run rv size evs) i) idx = Some e ->
  log_at (logs_of (run rv size (evs ++ evs')) i) idx = Some e.
Proof.
  intros rv size evs evs' i idx e Hs Hc Hl. rewrite fold_run_app.
  destruct (run_from_inv rv evs (init_default size) (init_inv size Hs)) as [H1 _].
  destruct (run_from_inv rv evs' (run rv size evs) H1) as [_ S].
  unfold commit_of, logs_of in *. destruct (nth_error (c_nodes (run rv size evs)) i) as [nd|] eqn:E.
  - destruct (S _ _ E) as [nd' [E' (_ & _ & _ & _ & K)]]. rewrite E'. apply K; auto.
  - cbn in Hl. unfold log_at in Hl. destruct (idx =? 0); [discriminate|]. destruct (N.to_nat (idx - 1)); discriminate.
Qed.
Print Assumptions C28b_committed_stable.

(* non-vacuity: a run in which node 0 has committed two entries *)
Example C28ab_nonvacuous : forall rv,
  let c := run rv w28_ack_diverged_n w28_ack_diverged in
  commit_of c 1 = 2 /\ log_at (logs_of c 1) 2 = Some (mkEntry 2 2 22).
Proof. intros [[|] [|] [|]]; vm_compute; auto. Qed.
Print Assumptions C28ab_nonvacuous.

(* (c) refuted, every revision: corpus/C28/ack_diverged.txt, 28 events, 3 nodes *)
Theorem C28c_refuted : forall rv, ~ (forall size evs, committed_agree (run rv size evs)).
Proof. exact C28c_refuted. Qed.
Print Assumptions C28c_refuted.

(* (c) fails in histories with one leader per term in which exactly one defect class occurs — independent
   causes.  1 (every revision): validate_log_append has no previous-entry check *)
Theorem C28c_refuted_ack_diverged : forall rv,
  exists size evs, let c := run rv size evs in
    election_safety (c_hist c) /\ classes (c_hist c) = (false, false, true, false, false) /\ ~ committed_agree c.
Proof. exact C28c_refuted_ack_diverged. Qed.
Print Assumptions C28c_refuted_ack_diverged.

(* 2 (every revision): the leader commits an entry of an older term by counting replicas *)
Theorem C28c_refuted_old_term_commit : forall rv,
  exists size evs, let c := run rv size evs in
    election_safety (c_hist c) /\ classes (c_hist c) = (false, false, false, true, false) /\ ~ committed_agree c.
Proof. exact C28c_refuted_old_term_commit. Qed.
Print Assumptions C28c_refuted_old_term_commit.

(* 3 (before the election repairs only; `C27_fixed_no_election_classes` shows the class cannot occur after them):
   a voter keeps its old term after voting and still acknowledges the old leader's Append *)
Theorem C28c_refuted_ack_below_vote :
  exists size evs, let c := run rr_pinned size evs in
    election_safety (c_hist c) /\ classes (c_hist c) = (false, false, false, false, true) /\ ~ committed_agree c.
Proof. exact C28c_refuted_ack_below_vote. Qed.
Print Assumptions C28c_refuted_ack_below_vote.

(* a THIRD log-replication class (RaftLog.v)
   `commit_noquorum_b rv size evs` (KnownClass commit-without-quorum): a Leader raised its commit index over an
   index at which fewer than size/2+1 nodes of its term hold its entry — commit() counts rows of the peer table
   that are not acknowledgements of the current term (rows are never reset on election, update_node writes them
   from the peer's own requests, response() accepts acknowledgements of any term).
   4 (every revision WITHOUT the acknowledgement repair, in particular `rr_before_ack_fix` = the code before the patch):
   a 5-node history with one leader per term in which NONE of the five classes of `classes` occurs ends with two nodes
   that have committed different entries at index 2 (corpus/C28/commit_noquorum.txt). *)
Theorem C28c_refuted_commit_noquorum : forall rv, fix_ack_term rv = false ->
  exists size evs, let c := run rv size evs in
    size <> 1 /\ election_safety (c_hist c) /\ classes (c_hist c) = (false, false, false, false, false) /\
    commit_noquorum_b rv size evs = true /\ ~ committed_agree c.
Proof. exact RaftLogProofs.C28c_refuted_commit_noquorum. Qed.
Print Assumptions C28c_refuted_commit_noquorum.

Theorem C28c_refuted_commit_noquorum_before_ack_fix :
  exists size evs, let c := run rr_before_ack_fix size evs in
    size <> 1 /\ election_safety (c_hist c) /\ classes (c_hist c) = (false, false, false, false, false) /\
    commit_noquorum_b rr_before_ack_fix size evs = true /\ ~ committed_agree c.
Proof. exact RaftLogProofs.C28c_refuted_commit_noquorum_before_ack_fix. Qed.
Print Assumptions C28c_refuted_commit_noquorum_before_ack_fix.

(* hence, before the acknowledgement repair, "no acknowledgement from a diverged log and no old-term commit" does NOT
   imply (c) *)
Theorem C28c_two_classes_not_enough : forall rv, fix_ack_term rv = false ->
  ~ (forall size evs, size <> 1 ->
       ack_diverged_b (c_hist (run rv size evs)) = false -> old_term_commit_b (c_hist (run rv size evs)) = false ->
       committed_agree (run rv size evs)).
Proof.
  intros rv Fa H. destruct (C28c_refuted_commit_noquorum rv Fa) as (size & evs & Hs & _ & C & _ & N). cbv zeta in *.
  apply N. apply H; auto; unfold classes in C; congruence.
Qed.
Print Assumptions C28c_two_classes_not_enough.

(* the SAME event lists (corpus/C28/commit_noquorum.txt, corpus/C29/commit_noquorum.txt) under the repaired revision:
   the stale row is cleared when the node becomes Leader, nothing is committed without a quorum, all nodes agree on
   what they committed, every leader holds every entry committed by an earlier leader, one leader per term *)
Example C28c_commit_noquorum_witness_harmless_fixed :
  (let c := run rr_fixed w28_commit_noquorum_n w28_commit_noquorum in
   committed_agree c /\ leader_completeness (c_hist c) /\ election_safety (c_hist c) /\
   commit_noquorum_b rr_fixed w28_commit_noquorum_n w28_commit_noquorum = false) /\
  (let c := run rr_fixed w29_commit_noquorum_n w29_commit_noquorum in
   committed_agree c /\ leader_completeness (c_hist c) /\ election_safety (c_hist c) /\
   commit_noquorum_b rr_fixed w29_commit_noquorum_n w29_commit_noquorum = false).
Proof. exact commit_noquorum_witnesses_harmless_fixed. Qed.
Print Assumptions C28c_commit_noquorum_witness_harmless_fixed.

(* the ROOT CAUSE of `commit-without-quorum`, and its repair
   `stale_ack_counted_b rv size evs` (RaftLog.v; a function of the run, reconstructed with a ghost that records for
   every row of every peer table whether it was written by `commit()` from an Ok answer to an Append/Heartbeat request
   of the leader's current term since the node became Leader): at a step that raises the commit index of a node that
   is and stays Leader, some row of ANOTHER node with log_index >= the new commit index — a row `commit()` counted —
   is not such an acknowledgement.  Unlike the semantic marker `commit_noquorum_b` it does not fire when a correct
   leader counts a follower that acknowledged and has since moved to a higher term.

   PROVED (RaftLogAck.v), every cluster size (1 included), every adversarial event list: with the acknowledgement
   repair the marker is never set — a Leader counts only acknowledgements of its current term.  Invariant: every row of
   another node in a Leader's table that is not a fresh acknowledgement has log_index 0 (cleared at election; written
   since by `commit()` only, which the guard of `response()` admits only for answers of the current term), and a row
   with log_index 0 is not counted at a step that raises the commit index. *)
Theorem C28c_no_stale_ack_fixed : forall size evs, stale_ack_counted_b rr_fixed size evs = false.
Proof. exact RaftLogAck.stale_ack_never_fixed. Qed.
Print Assumptions C28c_no_stale_ack_fixed.

(* the same for every revision with the acknowledgement repair, whatever the election flags *)
Theorem C28c_no_stale_ack_any_election_revision : forall rv size evs,
  fix_ack_term rv = true -> stale_ack_counted_b rv size evs = false.
Proof. exact RaftLogAck.stale_ack_never. Qed.
Print Assumptions C28c_no_stale_ack_any_election_revision.

(* non-vacuity / the defect before the repair: in both `commit_noquorum` corpus histories the leader of term 2
   counts the row of the deposed leader of term 1, written by `update_node` from that leader's own Append request *)
Example C28c_stale_ack_before_ack_fix :
  stale_ack_counted_b rr_before_ack_fix w28_commit_noquorum_n w28_commit_noquorum = true /\
  stale_ack_counted_b rr_before_ack_fix w29_commit_noquorum_n w29_commit_noquorum = true.
Proof. exact RaftLogAck.stale_ack_witnesses_before_ack_fix. Qed.
Print Assumptions C28c_stale_ack_before_ack_fix.

(* towards a conditional theorem for (c)
   LOG MATCHING, PROVED for the repaired code (rr_fixed), every cluster size other
   than 1 and every adversarial event list, under the single hypothesis that the class ack-from-diverged-log does
   not occur: if two nodes hold entries of the same term at index idx, their logs agree at every index <= idx
   (so an (index, term) pair determines the entry, data included).  Proof: RaftLogWf.v, RaftLogMatch.v (inductive
   invariant LI; C27_election_safety is used at every step).
   This is step (1) of the standard safety argument; steps (2) leader completeness and (3) agreement follow below. *)
Theorem C28_log_matching_partial : forall size evs,
  size <> 1 -> ack_diverged_b (c_hist (run rr_fixed size evs)) = false ->
  forall a b, In a (c_nodes (run rr_fixed size evs)) -> In b (c_nodes (run rr_fixed size evs)) ->
  forall idx ea eb, log_at (n_logs a) idx = Some ea -> log_at (n_logs b) idx = Some eb -> e_term ea = e_term eb ->
  forall j, j <= idx -> log_at (n_logs a) j = log_at (n_logs b) j.
Proof. exact RaftLogMatch.log_matching_partial. Qed.
Print Assumptions C28_log_matching_partial.

(* same hypothesis: every log is well formed — the entry at index idx carries index idx and a term <= the node's
   term, and terms are sorted along the log *)
Theorem C28_logs_wf_partial : forall size evs nd,
  size <> 1 -> ack_diverged_b (c_hist (run rr_fixed size evs)) = false -> In nd (c_nodes (run rr_fixed size evs)) ->
  (forall idx e, log_at (n_logs nd) idx = Some e -> e_index e = idx /\ e_term e <= n_term nd) /\
  (forall i j ei ej, i <= j -> log_at (n_logs nd) i = Some ei -> log_at (n_logs nd) j = Some ej -> e_term ei <= e_term ej).
Proof. exact RaftLogMatch.logs_wf_partial. Qed.
Print Assumptions C28_logs_wf_partial.

(* non-vacuity: a fault-free 3-node history (node 0 elected; two entries replicated to and committed on all three
   nodes) satisfies the hypothesis (and has no old-term commit) *)
Example C28_log_matching_nonvacuous :
  let c := run rr_fixed 3 RaftLogMatch.wlog_ok in
  ack_diverged_b (c_hist c) = false /\ old_term_commit_b (c_hist c) = false /\
  map n_commit (c_nodes c) = [2; 2; 2] /\
  map n_logs (c_nodes c) = [[mkEntry 1 1 11; mkEntry 2 1 12]; [mkEntry 1 1 11; mkEntry 2 1 12]; [mkEntry 1 1 11; mkEntry 2 1 12]].
Proof. exact RaftLogMatch.wlog_ok_facts. Qed.
Print Assumptions C28_log_matching_nonvacuous.

(* the CONDITIONAL THEOREM for (c)
   PROVED for the repaired code (rr_fixed), every cluster size other than 1 and every
   adversarial event list: if none of the three log-replication classes occurs in the run
        ack-from-diverged-log   ack_diverged_b (c_hist ..) = false
        old-term-commit         old_term_commit_b (c_hist ..) = false
        commit-without-quorum   commit_noquorum_b rr_fixed size evs = false
   then no two nodes hold different entries at an index both have committed.
   NOT DONE (hence `_partial`): the third hypothesis is still the SEMANTIC marker.  With the acknowledgement repair the
   root cause is gone (`C28c_no_stale_ack_fixed`), but the semantic marker can still be set in harmless histories of
   rr_fixed (a follower acknowledges and then votes in a higher term before the leader counts it), so the hypothesis
   cannot simply be dropped: that needs Raft's acknowledgement-history argument (an acknowledgement of (T, idx) by v
   precedes every vote of v for a term > T; quorum intersection between ackers and voters) in place of the present
   state invariant "a quorum of nodes of term T holds the entry at the commit step" — RAFT_NOTES.md, round 5.
   Proof: RaftLogWf.v, RaftLogMatch.v (log matching), RaftLogHand.v, RaftLogLC.v (leader completeness, invariant LC),
   RaftLogCA.v (invariant CA: every committed index of every node was committed by a leader with the entry the node
   holds; two leader commits of one index are commits of the same entry). *)
Theorem C28c_partial : forall size evs,
  size <> 1 ->
  ack_diverged_b (c_hist (run rr_fixed size evs)) = false ->
  old_term_commit_b (c_hist (run rr_fixed size evs)) = false ->
  commit_noquorum_b rr_fixed size evs = false ->
  committed_agree (run rr_fixed size evs).
Proof. intros size evs Hs A O Q. apply committed_agree_partial; [exact Hs | constructor; assumption]. Qed.
Print Assumptions C28c_partial.

(* same hypotheses: whatever a node has committed was committed by a leader, and the node holds that entry *)
Theorem C28c_committed_by_leader_partial : forall size evs nd idx,
  size <> 1 ->
  ack_diverged_b (c_hist (run rr_fixed size evs)) = false ->
  old_term_commit_b (c_hist (run rr_fixed size evs)) = false ->
  commit_noquorum_b rr_fixed size evs = false ->
  In nd (c_nodes (run rr_fixed size evs)) -> 1 <= idx -> idx <= n_commit nd ->
  exists i T e, In (GCommit i true T idx (Some e)) (c_hist (run rr_fixed size evs)) /\ log_at (n_logs nd) idx = Some e.
Proof. intros size evs nd idx Hs A O Q. apply committed_by_leader_partial; [exact Hs | constructor; assumption]. Qed.
Print Assumptions C28c_committed_by_leader_partial.

(* non-vacuity: the fault-free 3-node history `wlog_ok` (node 0 elected, two entries replicated to and committed on
   all three nodes) satisfies the three hypotheses *)
Example C28c_partial_nonvacuous :
  (ack_diverged_b (c_hist (run rr_fixed 3 RaftLogMatch.wlog_ok)) = false /\
   old_term_commit_b (c_hist (run rr_fixed 3 RaftLogMatch.wlog_ok)) = false /\
   commit_noquorum_b rr_fixed 3 RaftLogMatch.wlog_ok = false) /\
  RaftLogLC.late_leader_b (c_hist (run rr_fixed 3 RaftLogMatch.wlog_ok)) = false /\
  map n_commit (c_nodes (run rr_fixed 3 RaftLogMatch.wlog_ok)) = [2; 2; 2] /\
  leader_completeness_b (c_hist (run rr_fixed 3 RaftLogMatch.wlog_ok)) = true /\
  existsb (fun g => match g with GCommit _ true _ _ _ => true | _ => false end)
          (c_hist (run rr_fixed 3 RaftLogMatch.wlog_ok)) = true.
Proof. exact RaftLogCA.nonvacuous_stmt. Qed.
Print Assumptions C28c_partial_nonvacuous.
