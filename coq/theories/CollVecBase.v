(* CollVecBase.v — proofs (collections): the representation invariant of a
   storage-backed vector and the effect of each storage call on its record.

   heap        the abstract record map as a function index -> option bytes
   elem_law    what is required of an element class (VecValue): a representation predicate
               `el_rep g bs x` (the slot bytes bs stand for x in heap g), the records a slot
               owns (`el_own`; none for inline elements, the string record for String), and
               the three programs store / load / remove meeting it
   vinv        record g(idx) = le64 n ++ concat slots ++ spare (spare bytes unconstrained),
               slot i represents element i, the index and all owned records are pairwise
               distinct
   frame       the exact footprint change of an operation: records outside the old and the new
               footprint are untouched, records entering the footprint were free, records
               leaving it are freed (no leaks)
   hist_run, hist_on_storage
               the step from single operations to histories, and from the abstract record map to the
               model of storage.rs, once for the vector, the map data and the graph data *)
From Agdb Require Import Bytes BytesProofs Records RecordsProofs Storage StorageSpec StorageLayout StorageWp
  StorageRefine StorageProofs Collections CollWp CollBytes.
From Coq Require Import ZifyBool ZifyNat ZifyN.
Open Scope N_scope.

Definition heap := N -> option bytes.
Definition hp (sp : spec) : heap := m_get (sm sp).
Definition hupd (g : heap) (i : N) (v : bytes) : heap := fun j => if i =? j then Some v else g j.
Definition hdel (g : heap) (i : N) : heap := fun j => if i =? j then None else g j.
Definition heq (g g' : heap) : Prop := forall j, g j = g' j.

Section HeapRules.
  Variable fl : bool.

  (* the only freedom of the storage: the index of a new record *)
  Lemma hwp_insert bs sp (Q : cres N -> spec -> Prop) :
    (forall i sp', i <> 0 -> i < two64 -> hp sp i = None -> heq (hp sp') (hupd (hp sp) i bs) -> sdepth sp' = sdepth sp -> Q (CrOk i) sp') ->
    cwp fl (cp_insert bs) sp Q.
  Proof.
    intros HQ. cbn [cp_insert cp_num cwp]. intros v sp' H Hok. cbn [spec_step] in H.
    destruct v as [|i| | | |]; try discriminate H.
    destruct (N.eqb_spec i 0) as [->|Hi]; cbn [negb] in H; [discriminate|].
    destruct (m_get (sm sp) i) eqn:Hg; [discriminate|]. injection H as <-. cbn [cwp].
    apply HQ; auto. intros j. apply m_get_put.
  Qed.

  (* a call that leaves the map m and answers with the unit *)
  Lemma hwp_mutate o sp m (Q : cres unit -> spec -> Prop) :
    (forall v, spec_step fl sp o v = guard (is_unit v) (mutate sp m)) ->
    (forall sp', heq (hp sp') (m_get m) -> sdepth sp' = sdepth sp -> Q (CrOk tt) sp') ->
    cwp fl (cp_unit o) sp Q.
  Proof. intros E HQ. apply (cwp_unit fl o sp (mutate sp m) Q E). apply HQ; [intros j|]; reflexivity. Qed.

  Lemma hwp_insert_at i off bs sp x (Q : cres unit -> spec -> Prop) :
    hp sp i = Some x ->
    (forall sp', heq (hp sp') (hupd (hp sp) i (bs_write x (N.to_nat off) bs)) -> sdepth sp' = sdepth sp -> Q (CrOk tt) sp') ->
    cwp fl (cp_insert_at i off bs) sp Q.
  Proof.
    intros Hg HQ. apply (hwp_mutate _ _ (m_put (sm sp) i (v_insert_at x off bs))).
    - intros v. cbn [spec_step]. unfold hp in Hg. rewrite Hg. reflexivity.
    - intros sp' Hm Hd. apply HQ; [|exact Hd]. intros j. rewrite Hm. apply m_get_put.
  Qed.

  Lemma hwp_resize_value i n sp x (Q : cres unit -> spec -> Prop) :
    hp sp i = Some x ->
    (forall sp', heq (hp sp') (hupd (hp sp) i (pad_to x n)) -> sdepth sp' = sdepth sp -> Q (CrOk tt) sp') ->
    cwp fl (cp_resize_value i n) sp Q.
  Proof.
    intros Hg HQ. apply (hwp_mutate _ _ (m_put (sm sp) i (v_resize x n))).
    - intros v. cbn [spec_step]. unfold hp in Hg. rewrite Hg. reflexivity.
    - intros sp' Hm Hd. apply HQ; [|exact Hd]. intros j. rewrite Hm. apply m_get_put.
  Qed.

  Lemma hwp_move_at i from to n sp x (Q : cres unit -> spec -> Prop) :
    hp sp i = Some x -> from + n <= lenN x ->
    (forall sp', heq (hp sp') (hupd (hp sp) i (v_move x from to n)) -> sdepth sp' = sdepth sp -> Q (CrOk tt) sp') ->
    cwp fl (cp_move_at i from to n) sp Q.
  Proof.
    intros Hg Hb HQ. apply (hwp_mutate _ _ (m_put (sm sp) i (v_move x from to n))).
    - intros v. cbn [spec_step]. unfold hp in Hg. rewrite Hg.
      destruct (N.ltb_spec (lenN x) from); [lia|]. destruct (N.ltb_spec (lenN x) (from + n)); [lia|]. reflexivity.
    - intros sp' Hm Hd. apply HQ; [|exact Hd]. intros j. rewrite Hm. apply m_get_put.
  Qed.

  Lemma hwp_remove i sp x (Q : cres unit -> spec -> Prop) :
    hp sp i = Some x ->
    (forall sp', heq (hp sp') (hdel (hp sp) i) -> sdepth sp' = sdepth sp -> Q (CrOk tt) sp') ->
    cwp fl (cp_remove i) sp Q.
  Proof.
    intros Hg HQ. apply (hwp_mutate _ _ (m_del (sm sp) i)).
    - intros v. cbn [spec_step]. unfold hp in Hg. rewrite Hg. reflexivity.
    - intros sp' Hm Hd. apply HQ; [|exact Hd]. intros j. rewrite Hm. apply m_get_del.
  Qed.

  Lemma hwp_transaction sp (Q : cres N -> spec -> Prop) :
    (forall sp', heq (hp sp') (hp sp) -> sdepth sp' = sdepth sp + 1 -> Q (CrOk (sdepth sp + 1)) sp') ->
    cwp fl cp_transaction sp Q.
  Proof. intros HQ. eapply cwp_num; [intros v; reflexivity|]. apply HQ; [intros j|]; reflexivity. Qed.

  Lemma hwp_commit id sp (Q : cres unit -> spec -> Prop) :
    sdepth sp = id -> id <> 0 ->
    (forall sp', heq (hp sp') (hp sp) -> sdepth sp' = id - 1 -> Q (CrOk tt) sp') ->
    cwp fl (cp_commit id) sp Q.
  Proof.
    intros <- Hn HQ. eapply cwp_unit.
    - intros v. cbn [spec_step]. rewrite N.eqb_refl. destruct (N.eqb_spec (sdepth sp) 0); [contradiction|]. reflexivity.
    - apply HQ; [intros j|]; reflexivity.
  Qed.

  (* the commit that closes the transaction opened at depth d *)
  Lemma hwp_commit_tx d sp (Q : cres unit -> spec -> Prop) :
    sdepth sp = d + 1 ->
    (forall sp', heq (hp sp') (hp sp) -> sdepth sp' = d -> Q (CrOk tt) sp') ->
    cwp fl (cp_commit (d + 1)) sp Q.
  Proof. intros H HQ. apply hwp_commit; [exact H|lia|]. intros sp' Hm Hd. apply HQ; [exact Hm|lia]. Qed.

  (* the maintenance operations: with no transaction open they change neither the map nor the depth *)
  Lemma hwp_maint o sp (Q : cres unit -> spec -> Prop) :
    cv_is_maint o = true -> sdepth sp = 0 ->
    (forall sp', heq (hp sp') (hp sp) -> sdepth sp' = 0 -> Q (CrOk tt) sp') ->
    cwp fl (cp_unit o) sp Q.
  Proof.
    intros Hm Hd HQ. destruct o; try discriminate Hm; eapply cwp_unit.
    - intros v. reflexivity.
    - apply HQ; [intros j; reflexivity|exact Hd].
    - intros v. cbn [spec_step]. rewrite Hd. cbn [N.eqb negb andb]. rewrite andb_false_r. reflexivity.
    - apply HQ; [intros j|]; reflexivity.
    - intros v. reflexivity.
    - apply HQ; [intros j|]; reflexivity.
  Qed.
End HeapRules.

Definition frame (g g' : heap) (F F' : list N) : Prop :=
  (forall j, ~ In j F -> ~ In j F' -> g' j = g j) /\
  (forall j, In j F' -> ~ In j F -> g j = None) /\
  (forall j, In j F -> ~ In j F' -> g' j = None).

Lemma frame_refl g g' F : heq g' g -> frame g g' F F.
Proof. intros H. split; [|split]; intros j; try tauto. intros _ _. apply H. Qed.

Lemma in_dec_N (j : N) (F : list N) : In j F \/ ~ In j F.
Proof. destruct (in_dec N.eq_dec j F); auto. Qed.

Lemma frame_trans g g1 g2 F F1 F2 : frame g g1 F F1 -> frame g1 g2 F1 F2 -> frame g g2 F F2.
Proof.
  intros (A1 & A2 & A3) (B1 & B2 & B3). split; [|split]; intros j.
  - intros H H2. destruct (in_dec_N j F1) as [I|I].
    + rewrite (B3 j I H2). symmetry. apply A2; assumption.
    + rewrite (B1 j I H2). apply A1; assumption.
  - intros H2 H. destruct (in_dec_N j F1) as [I|I].
    + apply A2; assumption.
    + rewrite <- (A1 j H I). apply B2; assumption.
  - intros H H2. destruct (in_dec_N j F1) as [I|I].
    + apply B3; assumption.
    + rewrite (B1 j I H2). apply A3; assumption.
Qed.

(* an operation between the opening of a storage transaction and its commit *)
Lemma frame_tx g g0 g1 g' F F' : heq g0 g -> heq g' g1 -> frame g0 g1 F F' -> frame g g' F F'.
Proof. intros H0 H1 (A1 & A2 & A3). split; [|split]; intros j; rewrite ?H1, <- ?H0; auto. Qed.

(* footprints are compared as sets *)
Lemma frame_equiv g g' F F' G G' :
  (forall j, In j F <-> In j G) -> (forall j, In j F' <-> In j G') -> frame g g' F F' -> frame g g' G G'.
Proof.
  intros E E' (A1 & A2 & A3). split; [|split]; intros j; rewrite <- ?E, <- ?E'; auto.
Qed.

Lemma frame_at g g' F i : In i F -> (forall j, j <> i -> g' j = g j) -> frame g g' F F.
Proof.
  intros Hi H. split; [|split]; intros j; try tauto. intros Hj _. apply H. intros ->. contradiction.
Qed.

Lemma frame_hupd g g' F i v : In i F -> heq g' (hupd g i v) -> frame g g' F F.
Proof.
  intros Hi H. apply (frame_at _ _ _ i Hi). intros j Hj. rewrite H. unfold hupd.
  destruct (N.eqb_spec i j); [congruence|reflexivity].
Qed.

(* a wider footprint: nothing is said about the part common to both sides *)
Lemma frame_widen g g' F F' A B : frame g g' F F' -> frame g g' (A ++ F ++ B) (A ++ F' ++ B).
Proof.
  intros (A1 & A2 & A3). split; [|split]; intros j; rewrite !in_app_iff; intros H1 H2; [apply A1|apply A2|apply A3]; tauto.
Qed.

Lemma frame_fresh g g' X : (forall j, In j X -> g j = None) -> (forall j, ~ In j X -> g' j = g j) -> frame g g' [] X.
Proof. intros H1 H2. split; [|split]; intros j; [intros _; apply H2|intros H _; apply H1; exact H|intros []]. Qed.
Lemma frame_free g g' X : (forall j, In j X -> g' j = None) -> (forall j, ~ In j X -> g' j = g j) -> frame g g' X [].
Proof. intros H1 H2. split; [|split]; intros j; [intros H _; apply H2; exact H|intros []|intros H _; apply H1; exact H]. Qed.

Lemma frame_insert g g' i v : g i = None -> heq g' (hupd g i v) -> frame g g' [] [i].
Proof.
  intros Hn H. split; [|split]; intros j.
  - intros _ Hj. rewrite H. unfold hupd. destruct (N.eqb_spec i j); [subst; elim Hj; left; reflexivity|reflexivity].
  - intros [<-|[]] _. exact Hn.
  - intros [].
Qed.

(* an allocation after an operation: the records it takes were free from the start *)
Lemma frame_alloc g g1 g2 F F1 F2 : frame g g1 F F1 -> frame g1 g2 [] F2 -> frame g g2 F (F1 ++ F2).
Proof.
  intros H1 (B1 & B2 & _). eapply frame_trans; [exact H1|]. split; [|split]; intros j; rewrite in_app_iff.
  - intros H H'. apply B1; [intros []|tauto].
  - intros H H'. apply B2; [tauto|intros []].
  - tauto.
Qed.

(* The scheme shared by the vector, the map data and the graph data.  A handle h (storage index `idx h`)
   with slots s stands for a plain value a.  `hrefines h s sp p a' r`: started in sp the program p ends,
   whatever the storage answers, with the result r and a handle that stands for a', no transaction
   open, having changed exactly its footprint.  If every operation refines its plain counterpart in this
   sense, so does every history. *)
Section History.
  Variables (H S A O B : Type) (fl : bool).
  Variable rep : heap -> H -> S -> A -> Prop.
  Variable foot : H -> S -> list N.
  Variable idx : H -> N.

  Definition hrefines {R} h s sp (p : cprog (H * R)) (a' : A) (r : R) : Prop :=
    forall Q : cres (H * R) -> spec -> Prop,
      (forall h' s' sp', rep (hp sp') h' s' a' -> idx h' = idx h -> sdepth sp' = 0 ->
         frame (hp sp) (hp sp') (foot h s) (foot h' s') -> Q (CrOk (h', r)) sp') ->
      cwp fl p sp Q.

  Variable pstep : H -> O -> cprog (H * B).
  Variable astep : A -> O -> A * B.
  Variable ok : A -> O -> Prop.
  Hypothesis step_ok : forall h s a o sp, rep (hp sp) h s a -> sdepth sp = 0 -> ok a o ->
    hrefines h s sp (pstep h o) (fst (astep a o)) (snd (astep a o)).

  Variable prun : H -> list O -> cprog (H * list B).
  Variable arun : A -> list O -> A * list B.
  Variable oks : A -> list O -> Prop.
  Hypothesis prun_nil : forall h, prun h [] = CRet (h, []).
  Hypothesis prun_cons : forall h o t,
    prun h (o :: t) = (r <~ pstep h o ;; r' <~ prun (fst r) t ;; CRet (fst r', snd r :: snd r')).
  Hypothesis arun_nil : forall a, arun a [] = (a, []).
  Hypothesis arun_cons : forall a o t,
    arun a (o :: t) = (let '(a1, v) := astep a o in let '(a2, vs) := arun a1 t in (a2, v :: vs)).
  Hypothesis oks_cons : forall a o t, oks a (o :: t) -> ok a o /\ oks (fst (astep a o)) t.

  Theorem hist_run : forall ops h s a sp, rep (hp sp) h s a -> sdepth sp = 0 -> oks a ops ->
    hrefines h s sp (prun h ops) (fst (arun a ops)) (snd (arun a ops)).
  Proof.
    induction ops as [|o t IH]; intros h s a sp HR Hd Hok Q HQ.
    - rewrite prun_nil. rewrite arun_nil in HQ. apply (HQ h s sp); auto. apply frame_refl. intros j; reflexivity.
    - destruct (oks_cons _ _ _ Hok) as [Ho Ht]. pose proof (step_ok h s a o sp HR Hd Ho) as Hs.
      rewrite prun_cons. rewrite arun_cons in HQ. destruct (astep a o) as [a1 v]. cbn [fst snd] in Hs, Ht.
      apply cwp_bind. apply Hs. intros h1 s1 sp1 HR1 Hi1 Hd1 Hf1. cbn [kont fst snd].
      specialize (IH h1 s1 a1 sp1 HR1 Hd1 Ht). destruct (arun a1 t) as [a2 vs]. cbn [fst snd] in IH, HQ.
      apply cwp_bind. apply IH. intros h2 s2 sp2 HR2 Hi2 Hd2 Hf2. cbn [kont cwp fst snd].
      apply (HQ h2 s2 sp2); [exact HR2|congruence|exact Hd2|eapply frame_trans; eassumption].
  Qed.

  (* ... and on the model of storage.rs from a fresh storage, after the constructor pnew: nothing is
     assumed of the storage (cwp_sound) *)
  Theorem hist_on_storage {R} (pnew : cprog H) (a0 a' : A) (p : H -> cprog (H * R)) (r' : R) (ops : store_ops cdata) :
    kind ops fl ->
    (forall sp (Q : cres H -> spec -> Prop),
       (forall h s sp', rep (hp sp') h s a0 -> sdepth sp' = sdepth sp -> Q (CrOk h) sp') -> cwp fl pnew sp Q) ->
    (forall h s sp, rep (hp sp) h s a0 -> sdepth sp = 0 -> hrefines h s sp (p h) a' r') ->
    let r := cp_run (st_step cdata ops) (h <~ pnew ;; p h) s_init in
    snd r = CrDead \/ exists h' sp' s', snd r = CrOk (h', r') /\ Rel (fst r) sp' /\ rep (hp sp') h' s' a'.
  Proof.
    intros K Hnew Hrun r.
    destruct (cwp_sound ops fl K (h <~ pnew ;; p h) s_init spec_init
               (fun r sp' => exists h' s', r = CrOk (h', r') /\ rep (hp sp') h' s' a') Rel_init)
      as [D|(sp' & RL & h' & s' & Er & HR)]; [|left; exact D|right; exists h', sp', s'; auto].
    apply cwp_bind. apply Hnew. intros h s sp1 HR1 Hd1. cbn [kont].
    apply (Hrun h s sp1 HR1 Hd1). intros h' s' sp' HR' _ _ _. exists h', s'. auto.
  Qed.
End History.
Arguments hrefines {H S A} fl rep foot idx {R} h s sp p a' r.
Arguments hist_run {H S A O B} fl rep foot idx pstep astep ok step_ok prun arun oks.
Arguments hist_on_storage {H S A} fl rep foot idx {R} pnew a0 a' p r' ops.

(* hence the file-like and the memory-like storage give the same observations *)
Theorem hist_variants_agree {H S A R} (rep : heap -> H -> S -> A -> Prop) (foot : H -> S -> list N) (idx : H -> N) (pnew : cprog H) (a0 a' : A) (p : H -> cprog (H * R)) (r' : R) :
  (forall fl sp (Q : cres H -> spec -> Prop),
     (forall h (s : S) sp', rep (hp sp') h s a0 -> sdepth sp' = sdepth sp -> Q (CrOk h) sp') -> cwp fl pnew sp Q) ->
  (forall fl h s sp, rep (hp sp) h s a0 -> sdepth sp = 0 -> hrefines fl rep foot idx h s sp (p h) a' r') ->
  let rf := cp_run (st_step cdata ops_file) (h <~ pnew ;; p h) s_init in
  let rm := cp_run (st_step cdata ops_mem) (h <~ pnew ;; p h) s_init in
  snd rf = CrDead \/ snd rm = CrDead \/ exists hf hm, snd rf = CrOk (hf, r') /\ snd rm = CrOk (hm, r').
Proof.
  intros Hn Hr rf rm.
  destruct (hist_on_storage true rep foot idx pnew a0 a' p r' ops_file kind_file (Hn true) (Hr true))
    as [D|(hf & _ & _ & Ef & _)]; [left; exact D|].
  destruct (hist_on_storage false rep foot idx pnew a0 a' p r' ops_mem kind_mem (Hn false) (Hr false))
    as [D|(hm & _ & _ & Em & _)]; [right; left; exact D|].
  right. right. exists hf, hm. split; assumption.
Qed.

Lemma NoDup_app_iff {A} (a b : list A) : NoDup (a ++ b) <-> NoDup a /\ NoDup b /\ (forall x, In x a -> ~ In x b).
Proof.
  induction a as [|y t IH]; cbn [app].
  - split; [intros H; split; [constructor|split; [exact H|intros x []]]|tauto].
  - split.
    + intros H. inversion H as [|? ? Hy Ht]; subst. apply IH in Ht. destruct Ht as (T1 & T2 & T3).
      split; [constructor; [intros I; apply Hy, in_or_app; auto|exact T1]|]. split; [exact T2|].
      intros x [->|I]; [intros Ib; apply Hy, in_or_app; auto|apply T3; exact I].
    + intros (H1 & H2 & H3). inversion H1 as [|? ? Hy Ht]; subst. constructor.
      * intros I. apply in_app_or in I. destruct I as [I|I]; [contradiction|]. apply (H3 y); [left; reflexivity|exact I].
      * apply IH. split; [exact Ht|]. split; [exact H2|]. intros x I. apply H3. right; exact I.
Qed.

Record elem_law {T} (E : cv_elem T) := {
  el_valid : T -> Prop;
  el_rep : heap -> bytes -> T -> Prop;
  el_own : bytes -> list N;
  el_size_pos : 0 < ce_size E;
  el_len : forall g bs x, el_rep g bs x -> lenN bs = ce_size E;
  el_live : forall g bs x j, el_rep g bs x -> In j (el_own bs) -> g j <> None;
  el_nodup : forall g bs x, el_rep g bs x -> NoDup (el_own bs);
  el_local : forall g g' bs x, el_rep g bs x -> (forall j, In j (el_own bs) -> g' j = g j) -> el_rep g' bs x;
  el_store : forall fl x sp (Q : cres bytes -> spec -> Prop), el_valid x ->
    (forall bs sp', el_rep (hp sp') bs x -> sdepth sp' = sdepth sp ->
       (forall j, In j (el_own bs) -> hp sp j = None) ->
       (forall j, ~ In j (el_own bs) -> hp sp' j = hp sp j) -> Q (CrOk bs) sp') ->
    cwp fl (ce_store E x) sp Q;
  el_load : forall fl bs x sp (Q : cres T -> spec -> Prop),
    el_rep (hp sp) bs x -> Q (CrOk x) sp -> cwp fl (ce_load E bs) sp Q;
  el_remove : forall fl bs x sp (Q : cres unit -> spec -> Prop), el_rep (hp sp) bs x ->
    (forall sp', sdepth sp' = sdepth sp ->
       (forall j, In j (el_own bs) -> hp sp' j = None) ->
       (forall j, ~ In j (el_own bs) -> hp sp' j = hp sp j) -> Q (CrOk tt) sp') ->
    cwp fl (ce_remove E bs) sp Q
}.
Arguments el_valid {T E}. Arguments el_rep {T E}. Arguments el_own {T E}.

Section VecBase.
  Variable T : Type.
  Variable E : cv_elem T.
  Variable L : elem_law E.
  Variable fl : bool.

  Let sz := ce_size E.
  Let k := N.to_nat sz.

  Definition owned (bss : list bytes) : list N := flat_map (el_own L) bss.

  Lemma owned_app (a b : list bytes) : owned (a ++ b) = owned a ++ owned b.
  Proof. apply flat_map_app. Qed.
  Lemma owned_cons (b : bytes) (t : list bytes) : owned (b :: t) = el_own L b ++ owned t.
  Proof. reflexivity. Qed.
  Lemma owned_in (bss : list bytes) j : In j (owned bss) <-> exists b, In b bss /\ In j (el_own L b).
  Proof. apply in_flat_map. Qed.

  Record vinv (g : heap) (idx n : N) (bss : list bytes) (l : list T) : Prop := {
    vi_rec : exists spare, g idx = Some (le64 n ++ concat bss ++ spare);
    vi_elems : Forall2 (el_rep L g) bss l;
    vi_nodup : NoDup (idx :: owned bss)
  }.

  Lemma sz_pos : 0 < sz. Proof. apply (el_size_pos E L). Qed.
  Lemma k_eq : N.of_nat k = sz. Proof. unfold k. lia. Qed.

  Lemma rep_length g (b : bytes) x : el_rep L g b x -> length b = k.
  Proof. intros Hb. pose proof (el_len E L _ _ _ Hb) as HL. unfold lenN in HL. unfold k, sz. lia. Qed.

  Lemma elems_chunks g (bss : list bytes) l : Forall2 (el_rep L g) bss l -> chunks k bss.
  Proof. induction 1 as [|b x t l' Hb Ht IH]; constructor; [eapply rep_length; exact Hb|exact IH]. Qed.

  Lemma elems_length g (bss : list bytes) l : Forall2 (el_rep L g) bss l -> length bss = length l.
  Proof. induction 1; cbn [length]; auto. Qed.

  Lemma elems_transport g g' (bss : list bytes) l :
    Forall2 (el_rep L g) bss l -> (forall j, In j (owned bss) -> g' j = g j) -> Forall2 (el_rep L g') bss l.
  Proof.
    induction 1 as [|b x t l' Hb Ht IH]; intros H; constructor.
    - eapply (el_local E L); [exact Hb|]. intros j Hj. apply H. rewrite owned_cons. apply in_or_app; auto.
    - apply IH. intros j Hj. apply H. rewrite owned_cons. apply in_or_app; auto.
  Qed.

  Lemma elems_live g (bss : list bytes) l j : Forall2 (el_rep L g) bss l -> In j (owned bss) -> g j <> None.
  Proof.
    induction 1 as [|b x t l' Hb Ht IH]; cbn [owned flat_map]; [intros []|].
    intros I. apply in_app_or in I. destruct I as [I|I]; [eapply (el_live E L); eauto|apply IH; exact I].
  Qed.

  Lemma elems_nth g (bss : list bytes) l i x :
    Forall2 (el_rep L g) bss l -> nth_error l i = Some x -> el_rep L g (nth i bss []) x.
  Proof.
    intros H. revert i. induction H as [|b y t l' Hb Ht IH]; intros [|i]; cbn [nth_error nth]; try discriminate.
    - intros [= <-]. exact Hb.
    - apply IH.
  Qed.

  Lemma offset_nat i : N.to_nat (cv_offset T E i) = (length (le64 0) + k * N.to_nat i)%nat.
  Proof. unfold cv_offset. rewrite le64_length. fold sz. unfold k. lia. Qed.

  Lemma le64_len n : length (le64 n) = length (le64 0).
  Proof. rewrite !le64_length. reflexivity. Qed.

  Lemma rec_len n (bss : list bytes) (spare : bytes) : chunks k bss -> lenN (le64 n ++ concat bss ++ spare) = 8 + sz * lenN bss + lenN spare.
  Proof.
    intros H. rewrite !lenN_app, lenN_le64. unfold lenN at 1. rewrite (concat_length_chunks k) by exact H.
    unfold lenN. rewrite <- k_eq. lia.
  Qed.

  Lemma rd_slot idx n (bss : list bytes) (spare : bytes) i sp (Q : cres bytes -> spec -> Prop) :
    hp sp idx = Some (le64 n ++ concat bss ++ spare) -> chunks k bss -> (N.to_nat i < length bss)%nat ->
    Q (CrOk (nth (N.to_nat i) bss [])) sp ->
    cwp fl (cp_value_at_size idx (cv_offset T E i) sz) sp Q.
  Proof.
    intros Hg Hc Hi HQ. eapply cwp_value_at_size; [exact Hg| |].
    - rewrite rec_len by exact Hc. unfold cv_offset. fold sz.
      assert (sz * i + sz <= sz * lenN bss); [|lia].
      replace (sz * i + sz) with (sz * (i + 1)) by lia. apply N.mul_le_mono_l. unfold lenN. lia.
    - rewrite offset_nat, <- (le64_len n). fold k. rewrite slot_read by assumption. exact HQ.
  Qed.

  Lemma wr_slot idx n (bss : list bytes) (spare : bytes) i (b : bytes) sp (Q : cres unit -> spec -> Prop) :
    hp sp idx = Some (le64 n ++ concat bss ++ spare) -> chunks k bss -> (N.to_nat i < length bss)%nat -> length b = k ->
    (forall sp', heq (hp sp') (hupd (hp sp) idx (le64 n ++ concat (cl_upd bss (N.to_nat i) b) ++ spare)) ->
                 sdepth sp' = sdepth sp -> Q (CrOk tt) sp') ->
    cwp fl (cp_insert_at idx (cv_offset T E i) b) sp Q.
  Proof.
    intros Hg Hc Hi Hb HQ. eapply hwp_insert_at; [exact Hg|]. intros sp' Hm Hd. apply HQ; [|exact Hd].
    rewrite offset_nat, <- (le64_len n) in Hm. rewrite slot_write in Hm by assumption. exact Hm.
  Qed.

  Lemma wr_append idx n (bss : list bytes) (spare : bytes) i (b : bytes) sp (Q : cres unit -> spec -> Prop) :
    hp sp idx = Some (le64 n ++ concat bss ++ spare) -> chunks k bss -> i = lenN bss -> length b = k ->
    (forall sp', heq (hp sp') (hupd (hp sp) idx (le64 n ++ concat (bss ++ [b]) ++ skipn k spare)) ->
                 sdepth sp' = sdepth sp -> Q (CrOk tt) sp') ->
    cwp fl (cp_insert_at idx (cv_offset T E i) b) sp Q.
  Proof.
    intros Hg Hc -> Hb HQ. eapply hwp_insert_at; [exact Hg|]. intros sp' Hm Hd. apply HQ; [|exact Hd].
    rewrite offset_nat, <- (le64_len n) in Hm. unfold lenN in Hm. rewrite Nat2N.id in Hm.
    rewrite slot_append in Hm by assumption. exact Hm.
  Qed.

  Lemma wr_header idx n n' (R : bytes) sp (Q : cres unit -> spec -> Prop) :
    hp sp idx = Some (le64 n ++ R) ->
    (forall sp', heq (hp sp') (hupd (hp sp) idx (le64 n' ++ R)) -> sdepth sp' = sdepth sp -> Q (CrOk tt) sp') ->
    cwp fl (cp_insert_at idx 0 (le64 n')) sp Q.
  Proof.
    intros Hg HQ. eapply hwp_insert_at; [exact Hg|]. intros sp' Hm Hd. apply HQ; [|exact Hd].
    change (N.to_nat 0) with 0%nat in Hm. rewrite header_write in Hm by (rewrite !le64_length; reflexivity). exact Hm.
  Qed.

  Lemma wr_resize idx n (bss : list bytes) (spare : bytes) c sp (Q : cres unit -> spec -> Prop) :
    hp sp idx = Some (le64 n ++ concat bss ++ spare) -> chunks k bss -> lenN bss <= c ->
    (forall (spare' : bytes) sp', heq (hp sp') (hupd (hp sp) idx (le64 n ++ concat bss ++ spare')) ->
                 sdepth sp' = sdepth sp -> Q (CrOk tt) sp') ->
    cwp fl (cp_resize_value idx (8 + sz * c)) sp Q.
  Proof.
    intros Hg Hc Hle HQ. eapply hwp_resize_value; [exact Hg|]. intros sp' Hm Hd.
    destruct (pad_keep (le64 n ++ concat bss) spare (8 + sz * c)) as (spare' & Hp & _).
    { rewrite lenN_app, lenN_le64. unfold lenN at 1. rewrite (concat_length_chunks k) by exact Hc.
      assert (sz * lenN bss <= sz * c) by (apply N.mul_le_mono_l; exact Hle). unfold lenN in *. rewrite <- k_eq in *. lia. }
    rewrite <- app_assoc in Hp. rewrite Hp in Hm. rewrite <- app_assoc in Hm. eapply HQ; [exact Hm|exact Hd].
  Qed.

  (* DbVecData::remove: move the tail B down over the slot b *)
  Lemma wr_move_down idx n (A : list bytes) (b : bytes) (B : list bytes) (spare : bytes) sp (Q : cres unit -> spec -> Prop) :
    hp sp idx = Some (le64 n ++ concat (A ++ b :: B) ++ spare) -> chunks k (A ++ b :: B) ->
    (forall (spare' : bytes) sp', heq (hp sp') (hupd (hp sp) idx (le64 n ++ concat (A ++ B) ++ spare')) ->
                 sdepth sp' = sdepth sp -> Q (CrOk tt) sp') ->
    cwp fl (cp_move_at idx (cv_offset T E (lenN A + 1)) (cv_offset T E (lenN A)) (sz * (lenN (A ++ b :: B) - lenN A - 1))) sp Q.
  Proof.
    intros Hg Hc HQ. apply chunks_app in Hc. destruct Hc as [HcA HcB].
    pose proof (Forall_inv HcB) as Hb. pose proof (Forall_inv_tail HcB) as HcB'. cbn beta in Hb.
    assert (Hrec : le64 n ++ concat (A ++ b :: B) ++ spare = (le64 n ++ concat A) ++ b ++ concat B ++ spare).
    { rewrite concat_app. cbn [concat]. rewrite <- !app_assoc. reflexivity. }
    assert (HA : lenN (le64 n ++ concat A) = cv_offset T E (lenN A)).
    { rewrite lenN_app, lenN_le64. unfold lenN. rewrite (concat_length_chunks k) by exact HcA. unfold cv_offset. fold sz. rewrite <- k_eq. lia. }
    assert (HAB : lenN ((le64 n ++ concat A) ++ b) = cv_offset T E (lenN A + 1)).
    { rewrite lenN_app, HA. unfold lenN. rewrite Hb. unfold cv_offset. fold sz. rewrite <- k_eq. lia. }
    assert (HC : lenN (concat B) = sz * (lenN (A ++ b :: B) - lenN A - 1)).
    { replace (lenN (A ++ b :: B) - lenN A - 1) with (lenN B) by (rewrite lenN_app; unfold lenN; cbn [length]; lia).
      unfold lenN. rewrite (concat_length_chunks k) by exact HcB'. rewrite <- k_eq. lia. }
    rewrite Hrec in Hg. rewrite <- HAB, <- HA, <- HC.
    eapply hwp_move_at; [exact Hg|rewrite !lenN_app; lia|].
    intros sp' Hm Hd. rewrite v_move_down in Hm.
    eapply (HQ (skipn (length (concat B)) b ++ zeros (N.min (lenN b) (lenN (concat B))) ++ spare)); [|exact Hd].
    intros j. rewrite Hm. unfold hupd. destruct (idx =? j); [|reflexivity]. f_equal.
    rewrite concat_app, <- !app_assoc. reflexivity.
  Qed.

  (* DbVecData::swap: slot j onto slot i, the source zeroed *)
  Lemma wr_move_slot idx n (bss : list bytes) (spare : bytes) i j sp (Q : cres unit -> spec -> Prop) :
    hp sp idx = Some (le64 n ++ concat bss ++ spare) -> chunks k bss ->
    (N.to_nat i < length bss)%nat -> (N.to_nat j < length bss)%nat -> i <> j ->
    (forall sp', heq (hp sp') (hupd (hp sp) idx
                   (le64 n ++ concat (cl_upd (cl_upd bss (N.to_nat i) (nth (N.to_nat j) bss [])) (N.to_nat j) (zeros sz)) ++ spare)) ->
                 sdepth sp' = sdepth sp -> Q (CrOk tt) sp') ->
    cwp fl (cp_move_at idx (cv_offset T E j) (cv_offset T E i) sz) sp Q.
  Proof.
    intros Hg Hc Hi Hj Hij HQ.
    assert (Hzl : length (zeros sz) = k) by (rewrite zeros_length; reflexivity).
    eapply hwp_move_at; [exact Hg| |].
    - rewrite rec_len by exact Hc. unfold cv_offset. fold sz.
      assert (sz * j + sz <= sz * lenN bss); [|lia].
      replace (sz * j + sz) with (sz * (j + 1)) by lia. apply N.mul_le_mono_l. unfold lenN. lia.
    - intros sp' Hm Hd. apply HQ; [|exact Hd].
      rewrite v_move_disjoint in Hm.
      + rewrite !offset_nat, <- !(le64_len n) in Hm. fold k in Hm.
        rewrite slot_read in Hm by assumption.
        rewrite slot_write in Hm by (try assumption; apply chunks_nth; assumption).
        rewrite slot_write in Hm; [exact Hm|apply chunks_upd; [exact Hc|apply chunks_nth; assumption]|rewrite cl_upd_length; exact Hj|exact Hzl].
      + apply sz_pos.
      + unfold cv_offset. fold sz. pose proof sz_pos.
        destruct (N.lt_ge_cases i j) as [Lt|Ge]; [left|right; assert (j < i) by lia].
        * replace (sz * j) with (sz * i + sz * (j - i)) by nia. assert (sz * 1 <= sz * (j - i)) by (apply N.mul_le_mono_l; lia). lia.
        * replace (sz * i) with (sz * j + sz * (i - j)) by nia. assert (sz * 1 <= sz * (i - j)) by (apply N.mul_le_mono_l; lia). lia.
  Qed.
End VecBase.
