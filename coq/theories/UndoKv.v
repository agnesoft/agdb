(* UndoKv.v — C13, the per-element key-value lists and the indexes: pointwise
   specifications of the store operations, permutation congruence under unique keys,
   and the inverse lemmas used by rollback. *)
From Agdb Require Import Bytes BytesProofs DbValue DbValueProofs Graph DbModel KvProofs UndoBase UndoObs.
From Coq Require Import Permutation ZifyBool ZifyNat ZifyN.
Ltac Zify.zify_post_hook ::= Z.div_mod_to_equations.
Open Scope Z_scope.

(* two ids address the same slot *)
Definition same_slot (i j : Z) : bool := Nat.eqb (zabs_nat i) (zabs_nat j).

Lemma same_slot_refl i : same_slot i i = true.
Proof. apply Nat.eqb_refl. Qed.
Lemma same_slot_sym i j : same_slot i j = same_slot j i.
Proof. apply Nat.eqb_sym. Qed.
Lemma same_slot_spec i j : reflect (Z.abs i = Z.abs j) (same_slot i j).
Proof.
  unfold same_slot, zabs_nat. destruct (Nat.eqb_spec (Z.to_nat (Z.abs i)) (Z.to_nat (Z.abs j))); constructor; lia.
Qed.

Lemma same_slot_abs i j : same_slot i j = (Z.abs i =? Z.abs j).
Proof. destruct (same_slot_spec i j); lia. Qed.

(* the store of per-element lists, pointwise (KvProofs, with the slot test as same_slot) *)

Lemma kvs_get_set s i v j : kvs_get (kvs_set s i v) j = if same_slot i j then v else kvs_get s j.
Proof. rewrite same_slot_abs. apply KvProofs.kvs_get_set. Qed.

Lemma kvs_get_insert_value s i x j :
  kvs_get (kvs_insert_value s i x) j = if same_slot i j then kvs_get s i ++ [x] else kvs_get s j.
Proof. unfold kvs_insert_value. apply kvs_get_set. Qed.

Lemma kvs_get_remove_value s i k j :
  kvs_get (kvs_remove_value s i k) j = if same_slot i j then remove_first_key (kvs_get s i) k else kvs_get s j.
Proof. unfold kvs_remove_value. apply kvs_get_set. Qed.

Lemma kvs_get_same s i j : same_slot i j = true -> kvs_get s i = kvs_get s j.
Proof. unfold same_slot, kvs_get. intros H. apply Nat.eqb_eq in H. rewrite H. reflexivity. Qed.

Lemma kvs_get_remove s i j : kvs_get (kvs_remove s i) j = if same_slot i j then [] else kvs_get s j.
Proof. rewrite same_slot_abs. apply KvProofs.kvs_get_remove. Qed.

Definition keys_ok (l : list kv) : Prop := NoDup (map fst l).
Definition has_key (l : list kv) (k : dbvalue) : Prop := In k (map fst l).

Definition key_is (k : dbvalue) (y : kv) : bool := dbv_eqb (fst y) k.

Lemma remove_first_key_absent l k : ~ has_key l k -> remove_first_key l k = l.
Proof.
  unfold has_key. induction l as [|y r IH]; cbn [remove_first_key map In]; [reflexivity|].
  intros H. destruct (dbv_eqb_spec (fst y) k); [tauto|]. rewrite IH; tauto.
Qed.

Lemma remove_first_key_app_last l x : ~ has_key l (fst x) -> remove_first_key (l ++ [x]) (fst x) = l.
Proof.
  unfold has_key. induction l as [|y r IH]; cbn [remove_first_key map In app].
  - rewrite dbv_eqb_refl. reflexivity.
  - intros H. destruct (dbv_eqb_spec (fst y) (fst x)); [tauto|]. rewrite IH; tauto.
Qed.

Lemma remove_first_key_filter l k :
  keys_ok l -> remove_first_key l k = filter (fun y => negb (key_is k y)) l.
Proof.
  unfold keys_ok, key_is. induction l as [|y r IH]; cbn [remove_first_key map filter]; [reflexivity|].
  intros H. inversion H as [|? ? Hn Hr]. subst. destruct (dbv_eqb_spec (fst y) k) as [E|NE]; cbn [negb].
  - subst. rewrite <- IH by assumption. symmetry. apply remove_first_key_absent. exact Hn.
  - rewrite IH by assumption. reflexivity.
Qed.

Lemma keys_ok_perm l l' : Permutation l l' -> keys_ok l -> keys_ok l'.
Proof. unfold keys_ok. intros P. apply Permutation_NoDup, Permutation_map, P. Qed.

Lemma has_key_perm l l' k : Permutation l l' -> has_key l k -> has_key l' k.
Proof. unfold has_key. intros P. apply Permutation_in, Permutation_map, P. Qed.

Lemma remove_first_key_perm l l' k :
  keys_ok l -> Permutation l l' -> Permutation (remove_first_key l k) (remove_first_key l' k).
Proof.
  intros Hok P. rewrite !remove_first_key_filter; [apply Permutation_filter, P | eapply keys_ok_perm; eassumption | assumption].
Qed.

Lemma filter_keys_ok f l : keys_ok l -> keys_ok (filter f l).
Proof.
  unfold keys_ok. induction l as [|y r IH]; cbn [filter map]; [auto|].
  intros H. inversion H as [|? ? Hn Hr]. subst. destruct (f y); [|auto].
  cbn [map]. constructor; [|auto]. intros Hin. apply Hn.
  apply in_map_iff in Hin. destruct Hin as (z & Hz & Hin). apply filter_In in Hin.
  apply in_map_iff. exists z. tauto.
Qed.

Lemma remove_first_key_ok l k : keys_ok l -> keys_ok (remove_first_key l k).
Proof. intros H. rewrite remove_first_key_filter by assumption. apply filter_keys_ok, H. Qed.

Lemma remove_first_key_not_has l k : keys_ok l -> ~ has_key (remove_first_key l k) k.
Proof.
  intros H. rewrite remove_first_key_filter by assumption. unfold has_key. intros Hin.
  apply in_map_iff in Hin. destruct Hin as (z & Hz & Hin). apply filter_In in Hin.
  destruct Hin as [_ Hf]. unfold key_is in Hf. rewrite Hz, dbv_eqb_refl in Hf. discriminate.
Qed.

Lemma keys_ok_app_last l x : keys_ok l -> ~ has_key l (fst x) -> keys_ok (l ++ [x]).
Proof.
  unfold keys_ok, has_key. intros H Hn. rewrite map_app. cbn [map]. apply AssocProofs.nodup_snoc; assumption.
Qed.

Lemma remove_first_key_then_append l x :
  keys_ok l -> In x l -> Permutation (remove_first_key l (fst x) ++ [x]) l.
Proof.
  unfold keys_ok. induction l as [|y r IH]; cbn [remove_first_key map In]; [tauto|].
  intros H Hin. inversion H as [|? ? Hn Hr]. subst.
  destruct (dbv_eqb_spec (fst y) (fst x)) as [E|NE].
  - destruct Hin as [->|Hin].
    + symmetry. apply Permutation_cons_append.
    + exfalso. apply Hn. rewrite E. apply in_map, Hin.
  - destruct Hin as [->|Hin]; [congruence|]. cbn [app]. constructor. apply IH; assumption.
Qed.

Lemma replace_first_none l x : replace_first l x = None <-> ~ has_key l (fst x).
Proof.
  unfold has_key. induction l as [|y r IH]; cbn [replace_first map In]; [tauto|].
  destruct (dbv_eqb_spec (fst y) (fst x)) as [E|NE].
  - split; [discriminate | tauto].
  - destruct (replace_first r x) as [[old r']|].
    + split; [discriminate|]. intros H. exfalso. apply H. right. destruct IH as [_ IH].
      destruct (in_dec (fun a b => match dbv_eqb_spec a b with ReflectT _ e => left e | ReflectF _ n => right n end)
                       (fst x) (map fst r)); [assumption|]. specialize (IH n). discriminate.
    + split; [|reflexivity]. intros _. destruct IH as [IH _]. specialize (IH eq_refl). tauto.
Qed.

(* the inverse of a replacement is the replacement by the old pair — exactly *)
Lemma replace_first_inverse l x old l' :
  replace_first l x = Some (old, l') -> fst old = fst x /\ replace_first l' old = Some (x, l).
Proof.
  revert l'. induction l as [|y r IH]; intros l' H; cbn [replace_first] in H; [discriminate|].
  destruct (dbv_eqb_spec (fst y) (fst x)) as [E|NE].
  - inversion H. subst. split; [assumption|]. cbn [replace_first].
    destruct (dbv_eqb_spec (fst x) (fst old)); [reflexivity | congruence].
  - destruct (replace_first r x) as [[o r']|] eqn:Er; [|discriminate]. inversion H. subst.
    destruct (IH _ eq_refl) as [Ek Hr]. split; [assumption|].
    cbn [replace_first]. rewrite Ek. destruct (dbv_eqb_spec (fst y) (fst x)); [contradiction|].
    rewrite Hr. reflexivity.
Qed.

(* with unique keys a replacement is a map, and `old` is the pair with that key *)
Lemma replace_first_map l x old l' :
  keys_ok l -> replace_first l x = Some (old, l') ->
  In old l /\ fst old = fst x /\ l' = map (fun y => if key_is (fst x) y then x else y) l.
Proof.
  unfold keys_ok, key_is. revert l'. induction l as [|y r IH]; intros l' Hok H; cbn [replace_first] in H; [discriminate|].
  inversion Hok as [|? ? Hn Hr]. subst. cbn [map].
  destruct (dbv_eqb_spec (fst y) (fst x)) as [E|NE].
  - inversion H. subst. split; [left; reflexivity|]. split; [assumption|]. f_equal.
    symmetry. transitivity (map (fun y : kv => y) r); [|apply map_id]. apply map_ext_in. intros z Hz.
    destruct (dbv_eqb_spec (fst z) (fst x)) as [E2|]; [|reflexivity].
    exfalso. apply Hn. rewrite E, <- E2. apply in_map, Hz.
  - destruct (replace_first r x) as [[o r']|] eqn:Er; [|discriminate]. inversion H. subst.
    destruct (IH _ Hr eq_refl) as (Hin & Ek & El). split; [right; assumption|]. split; [assumption|].
    f_equal. assumption.
Qed.

Lemma keys_ok_same_key l (a b : kv) : keys_ok l -> In a l -> In b l -> fst a = fst b -> a = b.
Proof.
  unfold keys_ok. induction l as [|y r IH]; [contradiction|].
  intros Hok Ha Hb E. inversion Hok as [|? ? Hn Hr]. subst. cbn [map] in *.
  destruct Ha as [->|Ha], Hb as [->|Hb]; auto.
  - exfalso. apply Hn. rewrite E. apply in_map, Hb.
  - exfalso. apply Hn. rewrite <- E. apply in_map, Ha.
Qed.

Lemma replace_first_perm l1 l2 x old l1' :
  keys_ok l1 -> Permutation l1 l2 -> replace_first l1 x = Some (old, l1') ->
  exists l2', replace_first l2 x = Some (old, l2') /\ Permutation l1' l2'.
Proof.
  intros Hok P H. pose proof (keys_ok_perm _ _ P Hok) as Hok2.
  destruct (replace_first_map _ _ _ _ Hok H) as (Hin & Ek & El).
  destruct (replace_first l2 x) as [[old2 l2']|] eqn:E2.
  - destruct (replace_first_map _ _ _ _ Hok2 E2) as (Hin2 & Ek2 & El2).
    assert (Eo : old2 = old).
    { apply (Permutation_in _ (Permutation_sym P)) in Hin2.
      apply (keys_ok_same_key l1 old2 old Hok Hin2 Hin). congruence. }
    rewrite Eo. exists l2'. split; [reflexivity|]. rewrite El, El2. apply Permutation_map, P.
  - exfalso. apply replace_first_none in E2. apply E2. eapply has_key_perm; [exact P|].
    unfold has_key. rewrite <- Ek. apply in_map, Hin.
Qed.

Lemma replace_first_keys l x old l' : replace_first l x = Some (old, l') -> map fst l' = map fst l.
Proof.
  revert l'. induction l as [|y r IH]; intros l' H; cbn [replace_first] in H; [discriminate|].
  destruct (dbv_eqb_spec (fst y) (fst x)) as [E|NE].
  - inversion H. subst. cbn [map]. congruence.
  - destruct (replace_first r x) as [[o r']|] eqn:Er; [|discriminate]. inversion H. subst.
    cbn [map]. f_equal. apply IH. reflexivity.
Qed.

Lemma idx_find_update ix key f key' :
  idx_find (idx_update ix key f) key' =
  if dbv_eqb key key' then match idx_find ix key' with Some l => Some (f l) | None => None end
  else idx_find ix key'.
Proof. rewrite KvProofs.idx_find_update. destruct (dbv_eqb key key'), (idx_find ix key'); reflexivity. Qed.

Lemma idx_find_app_new ix key key' :
  idx_find (ix ++ [(key, [])]) key' =
  match idx_find ix key' with Some l => Some l | None => if dbv_eqb key key' then Some [] else None end.
Proof.
  unfold idx_find. induction ix as [|[k ids] r IH]; cbn [app find fst snd].
  - destruct (dbv_eqb key key'); reflexivity.
  - destruct (dbv_eqb k key'); [reflexivity | apply IH].
Qed.

Definition idx_ok (ix : list index) : Prop := NoDup (map fst ix).

Lemma idx_find_none ix key : idx_find ix key = None <-> ~ In key (map fst ix).
Proof.
  unfold idx_find. induction ix as [|[k ids] r IH]; cbn [find map fst snd In]; [tauto|].
  destruct (dbv_eqb_spec k key) as [->|NE]; [split; [discriminate | tauto]|].
  rewrite IH. tauto.
Qed.

Lemma idx_find_remove ix key key' :
  idx_ok ix ->
  idx_find (idx_remove ix key) key' = if dbv_eqb key key' then None else idx_find ix key'.
Proof.
  unfold idx_ok. induction ix as [|[k ids] r IH]; cbn [idx_remove map fst]; intros Hok.
  - destruct (dbv_eqb key key'); reflexivity.
  - inversion Hok as [|? ? Hn Hr]. subst. destruct (dbv_eqb_spec k key) as [->|NE].
    + unfold idx_find at 2. cbn [find fst snd]. destruct (dbv_eqb_spec key key') as [->|].
      * apply idx_find_none, Hn.
      * reflexivity.
    + specialize (IH Hr). unfold idx_find in *. cbn [find fst snd]. destruct (dbv_eqb_spec k key') as [->|NE2].
      * destruct (dbv_eqb_spec key key'); [congruence | reflexivity].
      * apply IH.
Qed.

Lemma idx_ok_update ix key f : idx_ok ix -> idx_ok (idx_update ix key f).
Proof. unfold idx_ok. rewrite idx_update_keys. auto. Qed.

Lemma idx_remove_keys_incl ix key k : In k (map fst (idx_remove ix key)) -> In k (map fst ix).
Proof.
  induction ix as [|[k0 ids] r IH]; cbn [idx_remove map fst In]; [auto|].
  destruct (dbv_eqb k0 key); cbn [map fst In]; tauto.
Qed.

Lemma idx_ok_remove ix key : idx_ok ix -> idx_ok (idx_remove ix key).
Proof.
  unfold idx_ok. induction ix as [|[k ids] r IH]; cbn [idx_remove map fst]; intros Hok; [constructor|].
  inversion Hok as [|? ? Hn Hr]. subst. destruct (dbv_eqb k key); [assumption|].
  cbn [map fst]. constructor; [|auto]. intros Hin. apply Hn. eapply idx_remove_keys_incl, Hin.
Qed.

Lemma idx_ok_app_new ix key : idx_ok ix -> idx_find ix key = None -> idx_ok (ix ++ [(key, [])]).
Proof.
  unfold idx_ok. intros Hok Hn. rewrite map_app. cbn [map fst]. apply AssocProofs.nodup_snoc; [assumption|].
  apply idx_find_none, Hn.
Qed.

Lemma remove_first_pair_app_last l v id : Permutation (remove_first_pair (l ++ [(v, id)]) v id) l.
Proof.
  induction l as [|[v' id'] r IH]; cbn [remove_first_pair app].
  - rewrite dbv_eqb_refl, Z.eqb_refl. constructor.
  - destruct (dbv_eqb_spec v' v) as [->|]; cbn [andb].
    + destruct (Z.eqb_spec id' id) as [->|].
      * symmetry. apply Permutation_cons_append.
      * constructor. apply IH.
    + constructor. apply IH.
Qed.

Lemma remove_first_pair_then_append l v id :
  In (v, id) l -> Permutation (remove_first_pair l v id ++ [(v, id)]) l.
Proof.
  induction l as [|[v' id'] r IH]; cbn [remove_first_pair In]; [tauto|].
  intros Hin. destruct (dbv_eqb_spec v' v) as [->|NE]; cbn [andb].
  - destruct (Z.eqb_spec id' id) as [->|NE2].
    + symmetry. apply Permutation_cons_append.
    + cbn [app]. constructor. apply IH. destruct Hin as [E|]; [congruence | assumption].
  - cbn [app]. constructor. apply IH. destruct Hin as [E|]; [congruence | assumption].
Qed.

Lemma remove_first_pair_absent l v id : ~ In (v, id) l -> remove_first_pair l v id = l.
Proof.
  induction l as [|[v' id'] r IH]; cbn [remove_first_pair In]; [reflexivity|].
  intros Hn. destruct (dbv_eqb_spec v' v) as [->|NE]; cbn [andb].
  - destruct (Z.eqb_spec id' id) as [->|NE2]; [tauto|]. rewrite IH; tauto.
  - rewrite IH; tauto.
Qed.

Lemma remove_first_pair_perm l l' v id :
  Permutation l l' -> Permutation (remove_first_pair l v id) (remove_first_pair l' v id).
Proof.
  intros P. destruct (in_dec (fun a b : dbvalue * Z =>
                       match bool_dec (vid_eqb a b) true with
                       | left e => left (proj1 (vid_eqb_eq a b) e)
                       | right n => right (fun e => n (proj2 (vid_eqb_eq a b) e)) end) (v, id) l) as [Hin|Hn].
  - apply (Permutation_app_inv_r [(v, id)]).
    rewrite remove_first_pair_then_append by assumption.
    rewrite remove_first_pair_then_append by (eapply Permutation_in; eassumption). assumption.
  - rewrite !remove_first_pair_absent; [assumption | | assumption].
    intros Hin. apply Hn. eapply Permutation_in; [symmetry|]; eassumption.
Qed.
