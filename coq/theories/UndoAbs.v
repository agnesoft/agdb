(* UndoAbs.v — C13, the abstract graph level: observational equivalence of abstract graphs
   (same kinds, same count, adjacency up to order, same allocation stream), congruence of the
   abstract operations for it, and the inverse lemmas (LIFO free list). *)
From Agdb Require Import Bytes BytesProofs DbValue Graph DbModel UndoBase UndoObs UndoKv UndoGraphBase UndoGraph
  UndoGraphEdge UndoGraphOps.
From Coq Require Import Permutation ZifyBool ZifyNat ZifyN.
Ltac Zify.zify_post_hook ::= Z.div_mod_to_equations.
Open Scope Z_scope.

(* the sequence of slots the allocator will hand out: the free list, then capacity, capacity+1, ... *)
Definition astream (fl : list Z) (cap : Z) (k : nat) : Z :=
  if Nat.ltb k (length fl) then nth k fl 0 else cap + Z.of_nat (k - length fl).

Lemma astream_nil cap k : astream [] cap k = cap + Z.of_nat k.
Proof. unfold astream. cbn [length]. destruct (Nat.ltb_spec k 0); [lia|]. f_equal. lia. Qed.
Lemma astream_cons0 s fl cap : astream (s :: fl) cap 0 = s.
Proof. reflexivity. Qed.
Lemma astream_consS s fl cap k : astream (s :: fl) cap (S k) = astream fl cap k.
Proof.
  unfold astream. cbn [length nth].
  destruct (Nat.ltb_spec (S k) (S (length fl))), (Nat.ltb_spec k (length fl)); try lia; reflexivity.
Qed.

Record aeqv (a a' : ag) : Prop := {
  ae_kind : forall i, 0 < i -> ak a i = ak a' i;
  ae_count : acount a = acount a';
  ae_out : forall n, 0 < n -> ak a n = KNode -> Permutation (aout a n) (aout a' n);
  ae_in : forall n, 0 < n -> ak a n = KNode -> Permutation (ain a n) (ain a' n);
  ae_alloc : forall k, astream (afree a) (acap a) k = astream (afree a') (acap a') k
}.

Lemma aeqv_refl a : aeqv a a.
Proof. constructor; intros; reflexivity. Qed.
Lemma aeqv_sym a a' : aeqv a a' -> aeqv a' a.
Proof.
  intros [Hk Hc Ho Hi Ha]. constructor; intros; try (symmetry; auto; fail).
  - symmetry. apply Ho; [assumption|]. rewrite Hk; assumption.
  - symmetry. apply Hi; [assumption|]. rewrite Hk; assumption.
Qed.
Lemma aeqv_trans a1 a2 a3 : aeqv a1 a2 -> aeqv a2 a3 -> aeqv a1 a3.
Proof.
  intros [Hk Hc Ho Hi Ha] [Hk' Hc' Ho' Hi' Ha']. constructor; intros.
  - rewrite Hk by assumption. auto.
  - congruence.
  - rewrite Ho by assumption. apply Ho'; [assumption|]. rewrite <- Hk; assumption.
  - rewrite Hi by assumption. apply Hi'; [assumption|]. rewrite <- Hk; assumption.
  - rewrite Ha. auto.
Qed.

Ltac updz := unfold upd in *;
  repeat match goal with
         | |- context [?x =? ?y] => destruct (Z.eqb_spec x y)
         | H : context [?x =? ?y] |- _ => destruct (Z.eqb_spec x y)
         end; subst; try congruence; try lia; auto.

Lemma aeqv_alloc a a' :
  aeqv a a' -> fst (a_alloc a) = fst (a_alloc a') /\ aeqv (snd (a_alloc a)) (snd (a_alloc a')).
Proof.
  intros [Hk Hc Ho Hi Ha].
  assert (E0 : match afree a with [] => acap a | s :: _ => s end = match afree a' with [] => acap a' | s :: _ => s end).
  { specialize (Ha O). destruct (afree a), (afree a'); rewrite ?astream_nil, ?astream_cons0 in Ha; lia. }
  assert (ES : forall k, astream (tl (afree a)) (match afree a with [] => acap a + 1 | _ => acap a end) k =
                         astream (tl (afree a')) (match afree a' with [] => acap a' + 1 | _ => acap a' end) k).
  { intros k. specialize (Ha (S k)).
    destruct (afree a) as [|s fl], (afree a') as [|s' fl']; cbn [tl];
      rewrite ?astream_consS, ?astream_nil in *; rewrite ?astream_nil; try lia; try assumption. }
  pose proof (a_alloc_spec a) as S1. pose proof (a_alloc_spec a') as S2.
  destruct (a_alloc a) as [e a1], (a_alloc a') as [e' a1']. cbn [fst snd].
  destruct S1 as (Ek & Eo & Ei & Ec & Ee & Ef & Ep). destruct S2 as (Ek' & Eo' & Ei' & Ec' & Ee' & Ef' & Ep').
  assert (E : e = e') by congruence. clear Ee Ee'. subst e'. split; [reflexivity|].
  constructor.
  - intros i Hi0. rewrite Ek, Ek'. unfold upd. destruct (Z.eqb_spec i e); auto.
  - congruence.
  - intros n Hn Hkn. rewrite Eo, Eo'. rewrite Ek in Hkn. unfold upd in *. destruct (Z.eqb_spec n e); auto.
  - intros n Hn Hkn. rewrite Ei, Ei'. rewrite Ek in Hkn. unfold upd in *. destruct (Z.eqb_spec n e); auto.
  - intros k. rewrite Ef, Ep, Ef', Ep'. apply ES.
Qed.

Lemma aeqv_release a a' s : aeqv a a' -> aeqv (a_release a s) (a_release a' s).
Proof.
  intros [Hk Hc Ho Hi Ha]. constructor; cbn [a_release ak aout ain acount afree acap]; intros; auto.
  - updz.
  - apply Ho; [assumption|]. updz.
  - apply Hi; [assumption|]. updz.
  - destruct k; [reflexivity|]. rewrite !astream_consS. apply Ha.
Qed.

Lemma aeqv_set_count a a' c : aeqv a a' -> aeqv (a_set_count a c) (a_set_count a' c).
Proof. intros [Hk Hc Ho Hi Ha]. constructor; cbn [a_set_count ak aout ain acount afree acap]; auto. Qed.

Lemma aeqv_make_edge a a' e f t : aeqv a a' -> aeqv (a_make_edge a e f t) (a_make_edge a' e f t).
Proof.
  intros [Hk Hc Ho Hi Ha]. constructor; cbn [a_make_edge ak aout ain acount afree acap]; intros; auto.
  - updz.
  - apply Ho; [assumption|]. updz.
  - apply Hi; [assumption|]. updz.
Qed.

Lemma aeqv_set_out a a' n l l' : aeqv a a' -> Permutation l l' -> aeqv (a_set_out a n l) (a_set_out a' n l').
Proof.
  intros [Hk Hc Ho Hi Ha] P. constructor; cbn [a_set_out ak aout ain acount afree acap]; intros; auto.
  unfold upd. destruct (Z.eqb_spec n0 n); auto.
Qed.
Lemma aeqv_set_in a a' n l l' : aeqv a a' -> Permutation l l' -> aeqv (a_set_in a n l) (a_set_in a' n l').
Proof.
  intros [Hk Hc Ho Hi Ha] P. constructor; cbn [a_set_in ak aout ain acount afree acap]; intros; auto.
  unfold upd. destruct (Z.eqb_spec n0 n); auto.
Qed.

Lemma aeqv_insert_node a a' :
  aeqv a a' -> fst (a_insert_node a) = fst (a_insert_node a') /\ aeqv (snd (a_insert_node a)) (snd (a_insert_node a')).
Proof.
  intros H. destruct (aeqv_alloc a a' H) as (E & H1). unfold a_insert_node.
  destruct (a_alloc a) as [e a1], (a_alloc a') as [e' a1']. cbn [fst snd] in *. split; [assumption|].
  rewrite (ae_count _ _ H1). apply aeqv_set_count, H1.
Qed.

Lemma aeqv_remove_node a a' n : aeqv a a' -> aeqv (a_remove_node a n) (a_remove_node a' n).
Proof.
  intros H. unfold a_remove_node. pose proof (aeqv_release a a' n H) as H1.
  rewrite (ae_count _ _ H1). apply aeqv_set_count, H1.
Qed.

Lemma aeqv_insert_edge a a' f t :
  aeqv a a' -> 0 < f -> 0 < t -> ak a f = KNode -> ak a t = KNode ->
  ak a (fst (a_alloc a)) = KFree ->
  fst (a_insert_edge a f t) = fst (a_insert_edge a' f t) /\ aeqv (snd (a_insert_edge a f t)) (snd (a_insert_edge a' f t)).
Proof.
  intros H Hf Ht Kf Kt Hfree. destruct (aeqv_alloc a a' H) as (E & H1). unfold a_insert_edge.
  pose proof (a_alloc_spec a) as Hsp.
  destruct (a_alloc a) as [e a1], (a_alloc a') as [e' a1']. cbn [fst snd] in *. subst e'.
  destruct Hsp as (Ek & _).
  split; [reflexivity|].
  assert (Hfe : f <> e) by (intros ->; congruence).
  assert (Hte : t <> e) by (intros ->; congruence).
  assert (K1f : ak a1 f = KNode) by (rewrite Ek, upd_other; assumption).
  assert (K1t : ak a1 t = KNode) by (rewrite Ek, upd_other; assumption).
  apply aeqv_set_in.
  - apply aeqv_set_out; [apply aeqv_make_edge, H1|]. constructor.
    cbn [a_make_edge aout]. apply (ae_out _ _ H1); assumption.
  - constructor. cbn [a_set_out a_make_edge ain]. apply (ae_in _ _ H1); assumption.
Qed.

Lemma aeqv_remove_edge a a' e f t :
  aeqv a a' -> 0 < e -> ak a e = KEdge f t -> 0 < f -> 0 < t -> ak a f = KNode -> ak a t = KNode ->
  aeqv (a_remove_edge a e) (a_remove_edge a' e).
Proof.
  intros H He Hk Hf Ht Kf Kt. unfold a_remove_edge. rewrite <- (ae_kind _ _ H) by assumption. rewrite Hk.
  apply aeqv_release. apply aeqv_set_in.
  - apply aeqv_set_out; [exact H|]. apply lrem_perm, (ae_out _ _ H); assumption.
  - cbn [a_set_out ain]. apply lrem_perm, (ae_in _ _ H); assumption.
Qed.

Lemma a_insert_remove_node a :
  let i := fst (a_insert_node a) in
  0 < i -> ak a i = KFree -> aeqv (a_remove_node (snd (a_insert_node a)) i) a.
Proof.
  cbv zeta. unfold a_insert_node, a_remove_node, a_alloc.
  destruct (afree a) as [|s fl] eqn:Efl; cbn [fst snd]; intros Hi Hfree;
    constructor; cbn [a_set_count a_release a_activate ak aout ain acount afree acap]; intros; try lia.
  - updz.
  - updz.
  - updz.
  - rewrite Efl. destruct k; [rewrite astream_cons0, astream_nil; lia|].
    rewrite astream_consS, !astream_nil. lia.
  - updz.
  - updz.
  - updz.
  - rewrite Efl. reflexivity.
Qed.

(* remove an isolated node, insert a node: the same slot comes back *)
Lemma a_remove_insert_node a n :
  0 < n -> ak a n = KNode -> aout a n = [] -> ain a n = [] ->
  fst (a_insert_node (a_remove_node a n)) = n /\ aeqv (snd (a_insert_node (a_remove_node a n))) a.
Proof.
  intros Hn Hk Ho Hi. unfold a_insert_node, a_remove_node, a_alloc.
  cbn [a_set_count a_release afree fst snd]. split; [reflexivity|].
  constructor; cbn [a_set_count a_release a_activate ak aout ain acount afree acap]; intros; try lia.
  - updz.
  - unfold upd. destruct (Z.eqb_spec n0 n) as [->|]; [rewrite Ho|]; reflexivity.
  - unfold upd. destruct (Z.eqb_spec n0 n) as [->|]; [rewrite Hi|]; reflexivity.
Qed.

Lemma perm_cons_lrem e l : NoDup l -> In e l -> Permutation (e :: lrem e l) l.
Proof.
  intros Hnd Hin. destruct (in_split _ _ Hin) as (l1 & l2 & ->).
  rewrite lrem_split by assumption. apply Permutation_middle.
Qed.

(* linking e at the head of f's list and unlinking it again leaves every list as it was *)
Lemma upd_link_unlink (l : Z -> list Z) e f n :
  f <> e -> n <> e -> ~ In e (l f) ->
  upd (upd (upd l e []) f (e :: upd l e [] f)) f (lrem e (upd (upd l e []) f (e :: upd l e [] f) f)) n = l n.
Proof.
  intros Hfe Hne Hno. rewrite upd_same, (upd_other l e [] f Hfe), lrem_cons_same by assumption.
  destruct (Z.eq_dec n f) as [->|Hnf]; [apply upd_same|]. rewrite !upd_other by assumption. reflexivity.
Qed.

Lemma a_insert_remove_edge a f t :
  let e := fst (a_insert_edge a f t) in
  0 < e -> ak a e = KFree -> 0 < f -> 0 < t -> ak a f = KNode -> ak a t = KNode ->
  ~ In e (aout a f) -> ~ In e (ain a t) ->
  aeqv (a_remove_edge (snd (a_insert_edge a f t)) e) a.
Proof.
  cbv zeta. unfold a_insert_edge. pose proof (a_alloc_spec a) as Hsp.
  destruct (a_alloc a) as [e a1]. cbn [fst snd]. destruct Hsp as (Ek & Eo & Ei & Ec & Ee & Ef & Ep).
  intros He Hfree Hf Ht Kf Kt Hno Hni.
  assert (Hfe : f <> e) by (intros ->; congruence). assert (Hte : t <> e) by (intros ->; congruence).
  unfold a_remove_edge. cbn [a_set_in a_set_out a_make_edge ak]. rewrite upd_same.
  constructor; cbn [a_release a_set_in a_set_out a_make_edge ak aout ain acount afree acap];
    rewrite ?Ek, ?Eo, ?Ei, ?Ec; intros.
  - unfold upd. destruct (Z.eqb_spec i e); [subst; congruence | reflexivity].
  - reflexivity.
  - rewrite upd_link_unlink; [reflexivity | assumption | intros ->; rewrite upd_same in *; discriminate | assumption].
  - rewrite upd_link_unlink; [reflexivity | assumption | intros ->; rewrite upd_same in *; discriminate | assumption].
  - (* the released slot is handed out first again *)
    rewrite Ef, Ep, Ee. destruct (afree a) as [|s fl]; cbn [tl]; [|reflexivity].
    destruct k; [rewrite astream_cons0, astream_nil; lia|]. rewrite astream_consS, !astream_nil. lia.
Qed.

(* remove an edge, insert it again between the same endpoints: the same slot comes back *)
Lemma a_remove_insert_edge a e f t :
  0 < e -> ak a e = KEdge f t -> ak a f = KNode -> ak a t = KNode ->
  In e (aout a f) -> In e (ain a t) -> NoDup (aout a f) -> NoDup (ain a t) ->
  fst (a_insert_edge (a_remove_edge a e) f t) = e /\ aeqv (snd (a_insert_edge (a_remove_edge a e) f t)) a.
Proof.
  intros He Hk Kf Kt Hio Hii Hndo Hndi.
  assert (Hfe : f <> e) by (intros ->; congruence).
  assert (Hte : t <> e) by (intros ->; congruence).
  unfold a_insert_edge, a_remove_edge, a_alloc. rewrite Hk.
  cbn [a_release a_set_in a_set_out afree fst snd]. split; [reflexivity|].
  constructor; cbn [a_set_in a_set_out a_make_edge a_release a_activate ak aout ain acount afree acap]; intros; try lia.
  - updz.
  - assert (n <> e) by (intros ->; updz).
    unfold upd at 1. destruct (Z.eqb_spec n f) as [->|].
    + rewrite upd_other by congruence. rewrite upd_same. apply perm_cons_lrem; assumption.
    + rewrite !upd_other by congruence. reflexivity.
  - assert (n <> e) by (intros ->; updz).
    unfold upd at 1. destruct (Z.eqb_spec n t) as [->|].
    + rewrite upd_other by congruence. rewrite upd_same. apply perm_cons_lrem; assumption.
    + rewrite !upd_other by congruence. reflexivity.
Qed.
