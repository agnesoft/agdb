(* UndoGraphEdge.v — C13: linking / unlinking an edge slot into / out of its source's
   out-list (update_from_edge, remove_from_edge) and its target's in-list (update_to_edge,
   remove_to_edge), and turning an isolated node slot into a detached edge slot. *)
From Agdb Require Import Bytes BytesProofs DbValue Graph GraphArr DbModel UndoBase UndoObs UndoKv UndoGraphBase UndoGraph.
From Coq Require Import Permutation ZifyBool ZifyNat ZifyN.
Ltac Zify.zify_post_hook ::= Z.div_mod_to_equations.
Open Scope Z_scope.

(* removing a slot from a list (GraphArr.zrem under the name the statements of C13 use) *)
Definition lrem (e : Z) (l : list Z) : list Z := filter (fun x => negb (x =? e)) l.

Lemma lrem_in e l x : In x (lrem e l) <-> In x l /\ x <> e.
Proof. exact (in_zrem e l x). Qed.

Lemma lrem_absent e l : ~ In e l -> lrem e l = l.
Proof. exact (zrem_notin e l). Qed.

Lemma lrem_split e l1 l2 : NoDup (l1 ++ e :: l2) -> lrem e (l1 ++ e :: l2) = l1 ++ l2.
Proof.
  intros Hnd. apply NoDup_remove_2 in Hnd. unfold lrem. rewrite filter_app. cbn [filter].
  rewrite Z.eqb_refl. cbn [negb]. fold (lrem e l1). fold (lrem e l2).
  rewrite !lrem_absent; [reflexivity | |]; intros H; apply Hnd, in_or_app; tauto.
Qed.

Lemma lrem_nodup e l : NoDup l -> NoDup (lrem e l).
Proof. exact (NoDup_zrem e l). Qed.

Lemma lrem_length e l : NoDup l -> In e l -> Z.of_nat (length (lrem e l)) = Z.of_nat (length l) - 1.
Proof. exact (zrem_length e l). Qed.

Lemma lrem_cons_same e l : ~ In e l -> lrem e (e :: l) = l.
Proof. intros H. unfold lrem. cbn [filter]. rewrite Z.eqb_refl. cbn [negb]. apply lrem_absent, H. Qed.

Lemma lrem_perm e l l' : Permutation l l' -> Permutation (lrem e l) (lrem e l').
Proof. apply Permutation_filter. Qed.

(* isolated node slot -> detached edge slot                             *)

Definition a_make_edge (a : ag) (e f t : Z) : ag :=
  {| ak := upd (ak a) e (KEdge f t); aout := aout a; ain := ain a; acount := acount a;
     afree := afree a; acap := acap a |}.

Lemma rep_make_edge g a e f t :
  rep g a -> 0 < e -> ak a e = KNode -> aout a e = [] -> ain a e = [] ->
  0 < f -> 0 < t -> f <> e -> t <> e -> ak a f = KNode -> ak a t = KNode ->
  rep_x (set_to (set_from g e (- f)) e (- t)) (a_make_edge a e f t) (eq e) (eq e).
Proof.
  unfold rep. intros R He Hk Ho Hi Hf Ht Hfe Hte Kf Kt.
  pose proof (r_lens _ _ _ _ R) as Hl. pose proof (r_cap _ _ _ _ R) as Hcap.
  destruct (rep_node_range _ _ _ _ R e He Hk) as (Her & Hefm & Hefr).
  set (g' := set_to (set_from g e (- f)) e (- t)).
  assert (Hfr : forall j, 0 <= j -> from g' j = if e =? j then - f else from g j).
  { intros j Hj. unfold g'. rewrite from_set_to. apply from_set_from; auto; lia. }
  assert (Hto : forall j, 0 <= j -> to g' j = if e =? j then - t else to g j).
  { intros j Hj. unfold g'. rewrite to_set_to by (auto using lens_set_from; rewrite ?cap_set_from; lia).
    rewrite to_set_from. reflexivity. }
  assert (Hfm : forall j, fmeta g' j = fmeta g j) by reflexivity.
  assert (Htm : forall j, tmeta g' j = tmeta g j) by reflexivity.
  assert (Hcp : capacity g' = capacity g) by (unfold g'; rewrite cap_set_to, cap_set_from; reflexivity).
  constructor; cbn [a_make_edge ak aout ain acount afree acap].
  - unfold g'. auto using lens_set_from, lens_set_to.
  - rewrite Hcp. assumption.
  - rewrite Hcp. apply (r_acap _ _ _ _ R).
  - apply (r_count _ _ _ _ R).
  - apply (r_free _ _ _ _ R).
  - apply (r_free_nd _ _ _ _ R).
  - intros x Hx. rewrite Hcp. destruct (r_free_in _ _ _ _ R x Hx) as (Hr & Hneg & H1 & H2 & H3).
    assert (x <> e) by (intros ->; lia).
    rewrite Hfr, Hto by lia. destruct (Z.eqb_spec e x); [congruence|]. auto.
  - intros i Hi'. destruct (Z.eq_dec i e) as [->|Hne].
    + rewrite upd_same. symmetry. apply slot_kind_edge; [assumption|].
      rewrite Hcp, Hfm, Hfr, Hto by lia. rewrite Z.eqb_refl. lia.
    + rewrite upd_other by assumption. rewrite (r_kind _ _ _ _ R) by assumption. symmetry.
      apply slot_kind_ext; auto.
      * rewrite Hcp. reflexivity.
      * rewrite Hfr by lia. destruct (Z.eqb_spec e i); [congruence | reflexivity].
      * rewrite Hto by lia. destruct (Z.eqb_spec e i); [congruence | reflexivity].
  - intros n Hn Hkn. destruct (Z.eq_dec n e) as [->|Hne]; [rewrite upd_same in Hkn; discriminate|].
    rewrite upd_other in Hkn by assumption. rewrite Hfr by lia. destruct (Z.eqb_spec e n); [congruence|].
    apply (r_out _ _ _ _ R); assumption.
  - intros n Hn Hkn. destruct (Z.eq_dec n e) as [->|Hne]; [rewrite upd_same in Hkn; discriminate|].
    rewrite upd_other in Hkn by assumption. rewrite Hto by lia. destruct (Z.eqb_spec e n); [congruence|].
    apply (r_in _ _ _ _ R); assumption.
  - intros n x Hn Hkn. destruct (Z.eq_dec n e) as [->|Hne]; [rewrite upd_same in Hkn; discriminate|].
    rewrite upd_other in Hkn by assumption. rewrite (r_out_mem _ _ _ _ R) by assumption.
    destruct (Z.eq_dec x e) as [->|Hxe].
    + rewrite upd_same. rewrite Hk. split; [intros (_ & (t' & Ht') & _); discriminate | intros (_ & _ & Hc); congruence].
    + rewrite upd_other by assumption. unfold xnone. intuition congruence.
  - intros n x Hn Hkn. destruct (Z.eq_dec n e) as [->|Hne]; [rewrite upd_same in Hkn; discriminate|].
    rewrite upd_other in Hkn by assumption. rewrite (r_in_mem _ _ _ _ R) by assumption.
    destruct (Z.eq_dec x e) as [->|Hxe].
    + rewrite upd_same. rewrite Hk. split; [intros (_ & (t' & Ht') & _); discriminate | intros (_ & _ & Hc); congruence].
    + rewrite upd_other by assumption. unfold xnone. intuition congruence.
  - intros x f' t' Hx Hkx. destruct (Z.eq_dec x e) as [->|Hxe].
    + rewrite upd_same in Hkx. injection Hkx as <- <-. rewrite !upd_other by assumption. auto.
    + rewrite upd_other in Hkx by assumption.
      destruct (r_edge _ _ _ _ R x f' t' Hx Hkx) as (Hf' & Ht' & Kf' & Kt').
      destruct (rep_edge_in_out g a x f' t' R Hx Hkx) as (H1 & H2).
      assert (f' <> e) by (intros ->; rewrite Ho in H1; contradiction).
      assert (t' <> e) by (intros ->; rewrite Hi in H2; contradiction).
      rewrite !upd_other by assumption. auto.
Qed.

(* linking a detached edge at the head of its source's out-list         *)

Definition a_set_out (a : ag) (n : Z) (l : list Z) : ag :=
  {| ak := ak a; aout := upd (aout a) n l; ain := ain a; acount := acount a; afree := afree a; acap := acap a |}.
Definition a_set_in (a : ag) (n : Z) (l : list Z) : ag :=
  {| ak := ak a; aout := aout a; ain := upd (ain a) n l; acount := acount a; afree := afree a; acap := acap a |}.

(* slot_kind depends on fmeta only through its sign *)
Lemma slot_kind_ext_sign g g' i : 0 < i ->
  ((i <? capacity g') = (i <? capacity g)) ->
  ((fmeta g' i <? 0) = (fmeta g i <? 0)) -> from g' i = from g i -> to g' i = to g i ->
  slot_kind g' i = slot_kind g i.
Proof.
  intros Hi Hc Hf Hfr Hto. unfold slot_kind, valid_index, edge_from, edge_to.
  rewrite Z.abs_eq by lia. rewrite Hc, Hf, Hfr, Hto. reflexivity.
Qed.

(* An operation on the out side only: `to`, `tmeta` (hence the count and the whole in side) are as
   before; `from` changes at most at the node f; `fmeta` changes at most at f and at edge slots with
   source f, where it keeps its sign (so kinds and the free list are as before).  Then only the new
   out-list of f has to be justified. *)
Lemma rep_out_side g a Xo Xi g' f l Xo' :
  rep_x g a Xo Xi -> 0 < f -> ak a f = KNode ->
  lens_ok g' -> capacity g' = capacity g ->
  (forall j, to g' j = to g j) -> (forall j, tmeta g' j = tmeta g j) ->
  (forall j, 0 <= j -> j <> f -> from g' j = from g j) ->
  (forall j, 0 <= j -> j <> f -> (forall t, 0 < j -> ak a j <> KEdge f t) -> fmeta g' j = fmeta g j) ->
  (forall j t, 0 < j -> ak a j = KEdge f t -> 0 <= fmeta g' j) ->
  0 <= from g' f ->
  chain (fmeta g') (from g' f) l -> NoDup l -> fmeta g' f = Z.of_nat (length l) ->
  (forall e, In e l <-> 0 < e /\ (exists t, ak a e = KEdge f t) /\ ~ Xo' e) ->
  (forall e n t, n <> f -> ak a e = KEdge n t -> (Xo' e <-> Xo e)) ->
  rep_x g' (a_set_out a f l) Xo' Xi.
Proof.
  intros R Hf Kf Hl' Hcp Hto Htm Hfr Hfm Hsg Hfr0 Hch Hnd Hdeg Hmem HX.
  assert (Hfree : forall x, In x (afree a) -> 0 <= x /\ x <> f /\ forall t, 0 < x -> ak a x <> KEdge f t).
  { intros x Hx. pose proof (rep_free_range _ _ _ _ R x Hx). pose proof (rep_free_kind _ _ _ _ R x Hx).
    repeat split; [lia | intros ->; congruence | intros t _; congruence]. }
  constructor; cbn [a_set_out ak aout ain acount afree acap].
  - exact Hl'.
  - rewrite Hcp. apply (r_cap _ _ _ _ R).
  - rewrite Hcp. apply (r_acap _ _ _ _ R).
  - rewrite (r_count _ _ _ _ R). unfold node_count. symmetry. apply Htm.
  - rewrite Hfm by lia. eapply fchain_ext; [apply (r_free _ _ _ _ R)|].
    intros x Hx. apply Hfm; apply (Hfree x Hx).
  - apply (r_free_nd _ _ _ _ R).
  - intros x Hx. destruct (Hfree x Hx) as (H0 & H1 & H2).
    rewrite Hcp, Hfm, Hfr, Hto, Htm by assumption. apply (r_free_in _ _ _ _ R x Hx).
  - intros i Hi. rewrite (r_kind _ _ _ _ R) by assumption. symmetry.
    destruct (Z.eq_dec i f) as [->|Hif].
    + rewrite <- (r_kind _ _ _ _ R), Kf by assumption. apply slot_kind_node; [assumption|].
      rewrite Hcp, Hdeg. pose proof (rep_node_range _ _ _ _ R f Hf Kf). lia.
    + apply slot_kind_ext_sign; auto; [rewrite Hcp; reflexivity | | apply Hfr; [lia | assumption]].
      assert (D : (exists t, ak a i = KEdge f t) \/ (forall t, 0 < i -> ak a i <> KEdge f t)).
      { destruct (ak a i) as [| |f' t']; [right; discriminate | right; discriminate |].
        destruct (Z.eq_dec f' f) as [->|]; [left; eauto | right; intros t _ [=]; congruence]. }
      destruct D as [(t & K)|D].
      * pose proof (Hsg i t Hi K). destruct (rep_edge_arrays _ _ _ _ R i f t Hi K) as (_ & Hifm & _).
        destruct (Z.ltb_spec (fmeta g' i) 0), (Z.ltb_spec (fmeta g i) 0); lia || reflexivity.
      * rewrite Hfm by first [assumption | lia]. reflexivity.
  - intros n Hn Kn. destruct (Z.eq_dec n f) as [->|Hnf]; [rewrite upd_same; auto|].
    rewrite upd_other by assumption. destruct (r_out _ _ _ _ R n Hn Kn) as (Hc & Hnd' & Hd).
    rewrite Hfr, Hfm by first [assumption | lia | intros t _; congruence].
    repeat split; try assumption. eapply chain_ext; [exact Hc|]. intros x Hx.
    pose proof (rep_out_range _ _ _ _ R n x Hn Kn Hx).
    destruct (rep_out_edge _ _ _ _ R n x Hn Kn Hx) as (t' & K).
    apply Hfm; [lia | intros ->; congruence | intros t'' _; congruence].
  - intros n Hn Kn. destruct (r_in _ _ _ _ R n Hn Kn) as (Hc & Hnd' & Hd).
    rewrite Hto, Htm. repeat split; try assumption. eapply chain_ext; [exact Hc|]. intros x _. apply Htm.
  - intros n e Hn Kn. destruct (Z.eq_dec n f) as [->|Hnf]; [rewrite upd_same; apply Hmem|].
    rewrite upd_other by assumption. rewrite (r_out_mem _ _ _ _ R) by assumption.
    split; intros (H0 & (t' & K) & Hx); (split; [assumption|]; split; [eauto|]).
    + rewrite (HX e n t' Hnf K). assumption.
    + rewrite <- (HX e n t' Hnf K). assumption.
  - apply (r_in_mem _ _ _ _ R).
  - apply (r_edge _ _ _ _ R).
Qed.

Lemma rep_link_out g a Xo Xi e f t :
  rep_x g a Xo Xi -> 0 < e -> ak a e = KEdge f t -> Xo e ->
  rep_x (update_from_edge g f (- e)) (a_set_out a f (e :: aout a f)) (fun x => Xo x /\ x <> e) Xi.
Proof.
  intros R He Hk Hx.
  pose proof (r_lens _ _ _ _ R) as Hl.
  destruct (rep_edge_arrays _ _ _ _ R e f t He Hk) as (Her & Hefm & Hefr & Heto & Hf & Ht).
  destruct (r_edge _ _ _ _ R e f t He Hk) as (_ & _ & Kf & Kt).
  destruct (rep_node_range _ _ _ _ R f Hf Kf) as (Hfr' & Hffm & Hffr).
  destruct (r_out _ _ _ _ R f Hf Kf) as (Hc & Hnd & Hdeg).
  assert (Hfe : f <> e) by (intros ->; congruence).
  set (g' := update_from_edge g f (- e)).
  assert (Hfr : forall j, 0 <= j -> from g' j = if f =? j then e else from g j).
  { intros j Hj. unfold g', update_from_edge. rewrite from_set_fmeta, set_fmeta_opp, Z.opp_involutive.
    rewrite from_set_from by (auto using lens_set_fmeta; rewrite ?cap_set_fmeta; lia). rewrite from_set_fmeta. reflexivity. }
  assert (Hfm : forall j, 0 <= j -> fmeta g' j = if f =? j then fmeta g f + 1 else if e =? j then from g f else fmeta g j).
  { intros j Hj. unfold g', update_from_edge. rewrite set_fmeta_opp, Z.opp_involutive.
    rewrite fmeta_set_fmeta by (auto using lens_set_fmeta, lens_set_from; rewrite ?cap_set_from, ?cap_set_fmeta; lia).
    rewrite !fmeta_set_from. rewrite !fmeta_set_fmeta by (auto; lia).
    destruct (Z.eqb_spec e f); [congruence|]. reflexivity. }
  (* the detached edge is in no out-list *)
  assert (Hnot : ~ In e (aout a f)) by (intros Hin; apply (r_out_mem _ _ _ _ R) in Hin; tauto).
  apply (rep_out_side g a Xo Xi); auto.
  - unfold g', update_from_edge. auto using lens_set_fmeta, lens_set_from.
  - unfold g', update_from_edge. rewrite cap_set_fmeta, cap_set_from, cap_set_fmeta. reflexivity.
  - intros j Hj Hjf. rewrite Hfr by assumption. destruct (Z.eqb_spec f j); [congruence | reflexivity].
  - intros j Hj Hjf Hk'. rewrite Hfm by assumption. destruct (Z.eqb_spec f j); [congruence|].
    destruct (Z.eqb_spec e j) as [<-|]; [|reflexivity]. elim (Hk' t He Hk).
  - intros j t' Hj Kj. rewrite Hfm by lia. destruct (Z.eqb_spec f j); [congruence|].
    destruct (Z.eqb_spec e j); [assumption|]. apply (rep_edge_arrays _ _ _ _ R j f t' Hj Kj).
  - rewrite Hfr, Z.eqb_refl by lia. lia.
  - rewrite Hfr, Z.eqb_refl by lia. constructor; [assumption|].
    rewrite Hfm by lia. destruct (Z.eqb_spec f e); [congruence|]. rewrite Z.eqb_refl.
    eapply chain_ext; [exact Hc|]. intros x Hin. pose proof (rep_out_range _ _ _ _ R f x Hf Kf Hin).
    destruct (rep_out_edge _ _ _ _ R f x Hf Kf Hin) as (t' & Kx).
    rewrite Hfm by lia. destruct (Z.eqb_spec f x); [congruence|]. destruct (Z.eqb_spec e x); [congruence | reflexivity].
  - constructor; assumption.
  - rewrite Hfm, Z.eqb_refl by lia. cbn [length]. lia.
  - intros x. cbn [In]. rewrite (r_out_mem _ _ _ _ R) by assumption. split.
    + intros [<-|(Hx0 & Hex & Hnx)]; [|tauto]. split; [assumption|]. split; [eauto | tauto].
    + intros (Hx0 & Hex & Hnx). destruct (Z.eq_dec x e) as [->|Hxe]; [left; reflexivity | right; tauto].
  - intros x n t' Hnf Kx. split; [tauto|]. intros Hxo. split; [assumption|]. intros ->. congruence.
Qed.

(* linking a detached edge at the head of its target's in-list (update_to_edge);
   mirror image of rep_link_out                                         *)

(* the same for an operation on the in side only (validity and the free list live in fmeta, which
   is untouched here; the node count tmeta[0] is outside every in-list) *)
Lemma rep_in_side g a Xo Xi g' t l Xi' :
  rep_x g a Xo Xi -> 0 < t -> ak a t = KNode ->
  lens_ok g' -> capacity g' = capacity g ->
  (forall j, from g' j = from g j) -> (forall j, fmeta g' j = fmeta g j) ->
  (forall j, 0 <= j -> j <> t -> to g' j = to g j) ->
  (forall j, 0 <= j -> j <> t -> (forall f, 0 < j -> ak a j <> KEdge f t) -> tmeta g' j = tmeta g j) ->
  chain (tmeta g') (to g' t) l -> NoDup l -> tmeta g' t = Z.of_nat (length l) ->
  (forall e, In e l <-> 0 < e /\ (exists f, ak a e = KEdge f t) /\ ~ Xi' e) ->
  (forall e f n, n <> t -> ak a e = KEdge f n -> (Xi' e <-> Xi e)) ->
  rep_x g' (a_set_in a t l) Xo Xi'.
Proof.
  intros R Ht Kt Hl' Hcp Hfr Hfm Hto Htm Hch Hnd Hdeg Hmem HX.
  constructor; cbn [a_set_in ak aout ain acount afree acap].
  - exact Hl'.
  - rewrite Hcp. apply (r_cap _ _ _ _ R).
  - rewrite Hcp. apply (r_acap _ _ _ _ R).
  - rewrite (r_count _ _ _ _ R). unfold node_count. symmetry. apply Htm; lia.
  - rewrite Hfm. eapply fchain_ext; [apply (r_free _ _ _ _ R)|]. intros x _. apply Hfm.
  - apply (r_free_nd _ _ _ _ R).
  - intros x Hx. pose proof (rep_free_range _ _ _ _ R x Hx). pose proof (rep_free_kind _ _ _ _ R x Hx).
    rewrite Hcp, Hfm, Hfr, Hto, Htm by first [lia | intros ->; congruence | intros f _; congruence].
    apply (r_free_in _ _ _ _ R x Hx).
  - intros i Hi. rewrite (r_kind _ _ _ _ R) by assumption. symmetry.
    destruct (Z.eq_dec i t) as [->|Hit].
    + rewrite <- (r_kind _ _ _ _ R), Kt by assumption. apply slot_kind_node; [assumption|].
      rewrite Hcp, Hfm, Hfr. apply (rep_node_range _ _ _ _ R t Ht Kt).
    + apply slot_kind_ext; auto; [rewrite Hcp; reflexivity | apply Hto; [lia | assumption]].
  - intros n Hn Kn. destruct (r_out _ _ _ _ R n Hn Kn) as (Hc & Hnd' & Hd).
    rewrite Hfr, Hfm. repeat split; try assumption. eapply chain_ext; [exact Hc|]. intros x _. apply Hfm.
  - intros n Hn Kn. destruct (Z.eq_dec n t) as [->|Hnt]; [rewrite upd_same; auto|].
    rewrite upd_other by assumption. destruct (r_in _ _ _ _ R n Hn Kn) as (Hc & Hnd' & Hd).
    rewrite Hto, Htm by first [assumption | lia | intros f _; congruence].
    repeat split; try assumption. eapply chain_ext; [exact Hc|]. intros x Hx.
    pose proof (rep_in_range _ _ _ _ R n x Hn Kn Hx).
    destruct (rep_in_edge _ _ _ _ R n x Hn Kn Hx) as (f' & K).
    apply Htm; [lia | intros ->; congruence | intros f'' _; congruence].
  - apply (r_out_mem _ _ _ _ R).
  - intros n e Hn Kn. destruct (Z.eq_dec n t) as [->|Hnt]; [rewrite upd_same; apply Hmem|].
    rewrite upd_other by assumption. rewrite (r_in_mem _ _ _ _ R) by assumption.
    split; intros (H0 & (f' & K) & Hx); (split; [assumption|]; split; [eauto|]).
    + rewrite (HX e f' n Hnt K). assumption.
    + rewrite <- (HX e f' n Hnt K). assumption.
  - apply (r_edge _ _ _ _ R).
Qed.

Lemma rep_link_in g a Xo Xi e f t :
  rep_x g a Xo Xi -> 0 < e -> ak a e = KEdge f t -> Xi e ->
  rep_x (update_to_edge g t (- e)) (a_set_in a t (e :: ain a t)) Xo (fun x => Xi x /\ x <> e).
Proof.
  intros R He Hk Hx.
  pose proof (r_lens _ _ _ _ R) as Hl.
  destruct (rep_edge_arrays _ _ _ _ R e f t He Hk) as (Her & Hefm & Hefr & Heto & Hf & Ht).
  destruct (r_edge _ _ _ _ R e f t He Hk) as (_ & _ & Kf & Kt).
  destruct (rep_node_range _ _ _ _ R t Ht Kt) as (Htr' & Htfm & Htfr).
  destruct (r_in _ _ _ _ R t Ht Kt) as (Hc & Hnd & Hdeg).
  assert (Hte : t <> e) by (intros ->; congruence).
  set (g' := update_to_edge g t (- e)).
  assert (Hto : forall j, 0 <= j -> to g' j = if t =? j then e else to g j).
  { intros j Hj. unfold g', update_to_edge. rewrite to_set_tmeta, set_tmeta_opp, Z.opp_involutive.
    rewrite to_set_to by (auto using lens_set_tmeta; rewrite ?cap_set_tmeta; lia). rewrite to_set_tmeta. reflexivity. }
  assert (Htm : forall j, 0 <= j -> tmeta g' j = if t =? j then tmeta g t + 1 else if e =? j then to g t else tmeta g j).
  { intros j Hj. unfold g', update_to_edge. rewrite set_tmeta_opp, Z.opp_involutive.
    rewrite tmeta_set_tmeta by (auto using lens_set_tmeta, lens_set_to; rewrite ?cap_set_to, ?cap_set_tmeta; lia).
    rewrite !tmeta_set_to. rewrite !tmeta_set_tmeta by (auto; lia).
    destruct (Z.eqb_spec e t); [congruence|]. reflexivity. }
  assert (Hnot : ~ In e (ain a t)) by (intros Hin; apply (r_in_mem _ _ _ _ R) in Hin; tauto).
  apply (rep_in_side g a Xo Xi); auto.
  - unfold g', update_to_edge. auto using lens_set_tmeta, lens_set_to.
  - intros j Hj Hjt. rewrite Hto by assumption. destruct (Z.eqb_spec t j); [congruence | reflexivity].
  - intros j Hj Hjt Hk'. rewrite Htm by assumption. destruct (Z.eqb_spec t j); [congruence|].
    destruct (Z.eqb_spec e j) as [<-|]; [|reflexivity]. elim (Hk' f He Hk).
  - rewrite Hto, Z.eqb_refl by lia. constructor; [assumption|].
    rewrite Htm by lia. destruct (Z.eqb_spec t e); [congruence|]. rewrite Z.eqb_refl.
    eapply chain_ext; [exact Hc|]. intros x Hin. pose proof (rep_in_range _ _ _ _ R t x Ht Kt Hin).
    destruct (rep_in_edge _ _ _ _ R t x Ht Kt Hin) as (f' & Kx).
    rewrite Htm by lia. destruct (Z.eqb_spec t x); [congruence|]. destruct (Z.eqb_spec e x); [congruence | reflexivity].
  - constructor; assumption.
  - rewrite Htm, Z.eqb_refl by lia. cbn [length]. lia.
  - intros x. cbn [In]. rewrite (r_in_mem _ _ _ _ R) by assumption. split.
    + intros [<-|(Hx0 & Hex & Hnx)]; [|tauto]. split; [assumption|]. split; [eauto | tauto].
    + intros (Hx0 & Hex & Hnx). destruct (Z.eq_dec x e) as [->|Hxe]; [left; reflexivity | right; tauto].
  - intros x f' n Hnt Kx. split; [tauto|]. intros Hxi. split; [assumption|]. intros ->. congruence.
Qed.

(* remove_from_edge unlinks an edge slot from its source's out-list (head case and
   find_prev case) and decrements the out-degree                        *)

Lemma chain_cons_inv nx s x l : chain nx s (x :: l) -> s = x /\ 0 < x /\ chain nx (nx x) l.
Proof. inversion 1. subst. auto. Qed.

(* every link of a chain is 0 or a positive slot *)
Lemma chain_next_nonneg nx s l x : chain nx s l -> In x l -> 0 <= nx x.
Proof.
  induction 1 as [|s l Hs H IH]; intros Hx; [destruct Hx|]. destruct Hx as [<-|Hx]; [|auto].
  rewrite (chain_head _ _ _ H). destruct H; lia.
Qed.

(* what remove_from_edge does to the arrays, given the position of e in the out-chain of its source f *)
Lemma remove_from_edge_arrays g e f l1 l2 :
  lens_ok g -> 0 < f < capacity g -> from g e = - f ->
  chain (fmeta g) (from g f) (l1 ++ e :: l2) -> NoDup (l1 ++ e :: l2) ->
  (forall x, In x (l1 ++ e :: l2) -> x < capacity g /\ x <> f) ->
  exists g', remove_from_edge g (- e) = Some g' /\ lens_ok g' /\ capacity g' = capacity g /\
    (forall j, to g' j = to g j) /\ (forall j, tmeta g' j = tmeta g j) /\
    chain (fmeta g') (from g' f) (l1 ++ l2) /\ fmeta g' f = fmeta g f - 1 /\ 0 <= from g' f /\
    (forall j, 0 <= j -> j <> f -> from g' j = from g j) /\
    (forall j, 0 <= j -> j <> f -> ~ In j l1 -> fmeta g' j = fmeta g j) /\
    (forall j, In j l1 -> 0 <= fmeta g' j).
Proof.
  intros Hl (Hf & Hfr') Hefr Hc Hnd Hm.
  pose proof (chain_pos _ _ _ Hc) as Hpos. rewrite Forall_forall in Hpos.
  assert (Hmem : forall x, In x (l1 ++ e :: l2) -> 0 < x < capacity g /\ x <> f /\ 0 <= fmeta g x).
  { intros x Hx. destruct (Hm x Hx). pose proof (Hpos x Hx). pose proof (chain_next_nonneg _ _ _ x Hc Hx). auto. }
  destruct (Hmem e) as ((He & _) & Hef & Hefm); [apply in_or_app; right; left; reflexivity|].
  assert (Hfe : f <> e) by congruence.
  assert (Hffr : 0 <= from g f).
  { pose proof (chain_head _ _ _ Hc) as Hh. destruct (l1 ++ e :: l2) as [|y r]; [lia|].
    specialize (Hpos y (or_introl eq_refl)). lia. }
  unfold remove_from_edge. rewrite !from_opp, fmeta_opp, Hefr, !from_opp, !Z.opp_involutive.
  destruct l1 as [|x0 l1r].
  - (* e is the head *)
    cbn [app] in *. pose proof (chain_head _ _ _ Hc) as Hh. cbn in Hh. rewrite Hh, Z.eqb_refl.
    eexists. split; [reflexivity|].
    set (g1 := set_from g f (fmeta g e)).
    assert (Hl1 : lens_ok g1) by (apply lens_set_from, Hl).
    destruct (chain_cons_inv _ _ _ _ Hc) as (_ & _ & Hc2).
    apply NoDup_cons_iff in Hnd. destruct Hnd as (Hne & Hnd2).
    assert (Hfm' : forall j, 0 <= j -> fmeta (set_fmeta g1 f (fmeta g1 f - 1)) j = if f =? j then fmeta g f - 1 else fmeta g j).
    { intros j Hj. rewrite fmeta_set_fmeta by (auto; unfold g1; rewrite ?cap_set_from; lia). reflexivity. }
    assert (Hfr2 : forall j, 0 <= j -> from (set_fmeta g1 f (fmeta g1 f - 1)) j = if f =? j then fmeta g e else from g j).
    { intros j Hj. rewrite from_set_fmeta. unfold g1. apply from_set_from; auto; lia. }
    split; [apply lens_set_fmeta, Hl1|]. split; [unfold g1; rewrite cap_set_fmeta, cap_set_from; reflexivity|].
    split; [reflexivity|]. split; [reflexivity|].
    split.
    { rewrite Hfr2 by lia. rewrite Z.eqb_refl. eapply chain_ext; [exact Hc2|]. intros x Hx.
      destruct (Hmem x (or_intror Hx)) as (Hxr & Hxf & _). rewrite Hfm' by lia.
      destruct (Z.eqb_spec f x); [congruence | reflexivity]. }
    split; [rewrite Hfm' by lia; rewrite Z.eqb_refl; reflexivity|].
    split; [rewrite Hfr2 by lia; rewrite Z.eqb_refl; assumption|].
    split; [intros j Hj Hne'; rewrite Hfr2 by lia; destruct (Z.eqb_spec f j); [congruence | reflexivity]|].
    split; [intros j Hj Hne' _; rewrite Hfm' by lia; destruct (Z.eqb_spec f j); [congruence | reflexivity]|].
    intros j [].
  - (* e has a predecessor p *)
    destruct (exists_last (l := x0 :: l1r)) as (l1' & p & El1); [discriminate|]. rewrite El1 in *.
    rewrite <- app_assoc in Hc, Hnd, Hmem. cbn [app] in Hc, Hnd, Hmem.
    assert (Hhead : from g f <> e).
    { pose proof (chain_head _ _ _ Hc) as Hh. intros E. rewrite E in Hh.
      assert (Hin : In e (l1' ++ [p])).
      { destruct l1' as [|y r]; cbn [app] in Hh |- *; left; congruence. }
      assert (Hnd' : NoDup ((l1' ++ [p]) ++ e :: l2)) by (rewrite <- app_assoc; exact Hnd).
      apply NoDup_remove_2 in Hnd'. apply Hnd'. apply in_or_app. left. exact Hin. }
    destruct (Z.eqb_spec (- from g f) (- e)) as [E|_]; [lia|].
    assert (Hlen : (length l1' < length (g_from g))%nat).
    { assert (Hle : (length (l1' ++ p :: e :: l2) <= length (g_from g))%nat).
      { apply NoDup_bounded_length; [exact Hnd|]. intros x Hx. destruct (Hmem x Hx). unfold capacity in *. lia. }
      rewrite app_length in Hle. cbn [length] in Hle. lia. }
    destruct (find_prev_spec (fun q => fmeta g q) (from g f) l1' p e l2 (length (g_from g)) (- from g f) Hc Hnd
                (fun x => fmeta_opp g x) Hlen (or_intror eq_refl)) as (q & Hq & Hqp).
    rewrite Hq.
    assert (Eq : set_fmeta g q (fmeta g e) = set_fmeta g p (fmeta g e)).
    { destruct Hqp as [->| ->]; [reflexivity | apply set_fmeta_opp]. }
    rewrite Eq. eexists. split; [reflexivity|].
    assert (Hpin : In p (l1' ++ p :: e :: l2)) by (apply in_or_app; right; left; reflexivity).
    destruct (Hmem p Hpin) as (Hpr & Hpf & Hpfm).
    set (g1 := set_fmeta g p (fmeta g e)).
    assert (Hl1 : lens_ok g1) by (apply lens_set_fmeta, Hl).
    assert (Hfm' : forall j, 0 <= j -> fmeta (set_fmeta g1 f (fmeta g1 f - 1)) j =
                     if f =? j then fmeta g f - 1 else if p =? j then fmeta g e else fmeta g j).
    { intros j Hj. rewrite fmeta_set_fmeta by (auto; unfold g1; rewrite ?cap_set_fmeta; lia).
      unfold g1. rewrite !fmeta_set_fmeta by (auto; lia). destruct (Z.eqb_spec p f); [congruence | reflexivity]. }
    split; [apply lens_set_fmeta, Hl1|]. split; [reflexivity|].
    split; [reflexivity|]. split; [reflexivity|].
    split.
    { rewrite from_set_fmeta. unfold g1. rewrite from_set_fmeta. rewrite <- app_assoc. cbn [app].
      eapply chain_unlink; [exact Hc | exact Hnd | |].
      - rewrite Hfm' by lia. destruct (Z.eqb_spec f p); [congruence|]. rewrite Z.eqb_refl. reflexivity.
      - intros x Hx.
        assert (Hx' : In x (l1' ++ p :: e :: l2)).
        { apply in_or_app. destruct Hx as [Hx|Hx]; [left; assumption | right; right; right; assumption]. }
        destruct (Hmem x Hx') as (Hxr & Hxf & _). rewrite Hfm' by lia.
        destruct (Z.eqb_spec f x); [congruence|].
        destruct (Z.eqb_spec p x) as [<-|]; [|reflexivity].
        exfalso. apply NoDup_remove_2 in Hnd. apply Hnd. apply in_or_app.
        destruct Hx as [Hx|Hx]; [left; assumption | right; right; assumption]. }
    split; [rewrite Hfm' by lia; rewrite Z.eqb_refl; reflexivity|].
    split; [assumption|].
    split; [reflexivity|].
    split.
    { intros j Hj Hne' Hnin. rewrite Hfm' by lia. destruct (Z.eqb_spec f j); [congruence|].
      destruct (Z.eqb_spec p j) as [<-|]; [|reflexivity]. exfalso. apply Hnin, in_or_app. right. left. reflexivity. }
    intros j Hj.
    assert (Hj' : In j (l1' ++ p :: e :: l2)).
    { apply in_app_or in Hj. apply in_or_app. destruct Hj as [Hj|[<-|[]]]; [left; assumption | right; left; reflexivity]. }
    destruct (Hmem j Hj') as (Hjr & Hjf & Hjfm). rewrite Hfm' by lia.
    destruct (Z.eqb_spec f j); [congruence|]. destruct (Z.eqb_spec p j); lia.
Qed.

Lemma rep_unlink_out g a Xo Xi e f t :
  rep_x g a Xo Xi -> 0 < e -> ak a e = KEdge f t -> ~ Xo e ->
  exists g', remove_from_edge g (- e) = Some g' /\
             rep_x g' (a_set_out a f (lrem e (aout a f))) (fun x => Xo x \/ x = e) Xi /\
             capacity g' = capacity g.
Proof.
  intros R He Hk Hnx.
  destruct (r_edge _ _ _ _ R e f t He Hk) as (Hf & Ht & Kf & Kt).
  destruct (r_out _ _ _ _ R f Hf Kf) as (Hc & Hnd & Hdeg).
  assert (Hin : In e (aout a f)).
  { apply (r_out_mem _ _ _ _ R); [assumption|assumption|]. split; [assumption|]. split; [eauto | assumption]. }
  destruct (in_split _ _ Hin) as (l1 & l2 & El).
  assert (Hl1 : forall x, In x (l1 ++ e :: l2) -> 0 < x < capacity g /\ exists t', ak a x = KEdge f t').
  { intros x Hx. rewrite <- El in Hx. split; [apply (rep_out_range _ _ _ _ R f x Hf Kf Hx) | apply (rep_out_edge _ _ _ _ R f x Hf Kf Hx)]. }
  destruct (remove_from_edge_arrays g e f l1 l2)
    as (g' & Hrm & Hl' & Hcp & Hto & Htm & Hch & Hdeg' & Hfr0 & Hfr & Hfm & Hfmp);
    [apply (r_lens _ _ _ _ R) | split; [assumption | apply (rep_node_range _ _ _ _ R f Hf Kf)]
    | apply (rep_edge_arrays _ _ _ _ R e f t He Hk) | rewrite <- El; exact Hc | rewrite <- El; exact Hnd | |].
  { intros x Hx. destruct (Hl1 x Hx) as (Hr & t' & K). split; [lia | intros ->; congruence]. }
  exists g'. split; [exact Hrm|]. split; [|exact Hcp].
  assert (Elr : lrem e (aout a f) = l1 ++ l2) by (rewrite El; apply lrem_split; rewrite <- El; exact Hnd).
  (* members of l1 are edges of f *)
  assert (Hl1k : forall x, In x l1 -> 0 < x /\ exists t', ak a x = KEdge f t').
  { intros x Hx. destruct (Hl1 x) as (Hr & K); [apply in_or_app; left; exact Hx|]. split; [lia | exact K]. }
  rewrite Elr. apply (rep_out_side g a Xo Xi); auto.
  - intros j Hj Hjf Hnk. apply Hfm; try assumption.
    intros Hjin. destruct (Hl1k j Hjin) as (Hj0 & t' & Ht'). exact (Hnk t' Hj0 Ht').
  - intros j t' Hj Kj. destruct (in_dec Z.eq_dec j l1) as [Hil|Hnil]; [apply Hfmp, Hil|].
    rewrite Hfm by first [assumption | lia | intros ->; congruence].
    apply (rep_edge_arrays _ _ _ _ R j f t' Hj Kj).
  - rewrite El in Hnd. apply NoDup_remove_1 in Hnd. exact Hnd.
  - rewrite Hdeg', Hdeg, El, !app_length. cbn [length]. lia.
  - intros x. rewrite <- Elr, lrem_in, (r_out_mem _ _ _ _ R) by assumption. tauto.
  - intros x n t' Hnf Kx. split; [intros [H| ->]; [assumption | congruence] | tauto].
Qed.

(* remove_to_edge is remove_from_edge on the transposed arrays *)
Definition gT (g : graph) : graph :=
  {| g_from := g_to g; g_to := g_from g; g_fmeta := g_tmeta g; g_tmeta := g_fmeta g |}.

Lemma lens_gT g : lens_ok g -> lens_ok (gT g).
Proof. unfold lens_ok. cbn [gT g_from g_to g_fmeta g_tmeta]. intros (A & B & C). repeat split; congruence. Qed.

Lemma cap_gT g : lens_ok g -> capacity (gT g) = capacity g.
Proof. intros (A & _). unfold capacity. cbn [gT g_from]. rewrite A. reflexivity. Qed.

Lemma remove_to_edge_gT g i : lens_ok g -> remove_to_edge g i = option_map gT (remove_from_edge (gT g) i).
Proof.
  intros (A & _). unfold remove_to_edge, remove_from_edge, from, to, fmeta, tmeta.
  cbn [gT g_from g_to g_fmeta g_tmeta]. rewrite A.
  destruct (_ =? i); [reflexivity|]. destruct (find_prev _ _ _ _); reflexivity.
Qed.

Lemma remove_to_edge_arrays g e t l1 l2 :
  lens_ok g -> 0 < t < capacity g -> to g e = - t ->
  chain (tmeta g) (to g t) (l1 ++ e :: l2) -> NoDup (l1 ++ e :: l2) ->
  (forall x, In x (l1 ++ e :: l2) -> x < capacity g /\ x <> t) ->
  exists g', remove_to_edge g (- e) = Some g' /\ lens_ok g' /\ capacity g' = capacity g /\
    (forall j, from g' j = from g j) /\ (forall j, fmeta g' j = fmeta g j) /\
    chain (tmeta g') (to g' t) (l1 ++ l2) /\ tmeta g' t = tmeta g t - 1 /\
    (forall j, 0 <= j -> j <> t -> to g' j = to g j) /\
    (forall j, 0 <= j -> j <> t -> ~ In j l1 -> tmeta g' j = tmeta g j).
Proof.
  intros Hl Ht Ee Hc Hnd Hm.
  destruct (remove_from_edge_arrays (gT g) e t l1 l2)
    as (g' & Hrm & Hl' & Hcp & H1 & H2 & H3 & H4 & _ & H5 & H6 & _);
    rewrite ?cap_gT by assumption; auto using lens_gT.
  exists (gT g'). rewrite remove_to_edge_gT, Hrm by assumption.
  rewrite cap_gT in Hcp by assumption.
  split; [reflexivity|]. split; [apply lens_gT, Hl'|]. split; [rewrite cap_gT; assumption|].
  repeat split; assumption.
Qed.

Lemma rep_unlink_in g a Xo Xi e f t :
  rep_x g a Xo Xi -> 0 < e -> ak a e = KEdge f t -> ~ Xi e ->
  exists g', remove_to_edge g (- e) = Some g' /\
             rep_x g' (a_set_in a t (lrem e (ain a t))) Xo (fun x => Xi x \/ x = e) /\
             capacity g' = capacity g.
Proof.
  intros R He Hk Hnx.
  destruct (r_edge _ _ _ _ R e f t He Hk) as (Hf & Ht & Kf & Kt).
  destruct (r_in _ _ _ _ R t Ht Kt) as (Hc & Hnd & Hdeg).
  assert (Hin : In e (ain a t)).
  { apply (r_in_mem _ _ _ _ R); [assumption|assumption|]. split; [assumption|]. split; [eauto | assumption]. }
  destruct (in_split _ _ Hin) as (l1 & l2 & El).
  assert (Hl1 : forall x, In x (l1 ++ e :: l2) -> 0 < x < capacity g /\ exists f', ak a x = KEdge f' t).
  { intros x Hx. rewrite <- El in Hx. split; [apply (rep_in_range _ _ _ _ R t x Ht Kt Hx) | apply (rep_in_edge _ _ _ _ R t x Ht Kt Hx)]. }
  destruct (remove_to_edge_arrays g e t l1 l2)
    as (g' & Hrm & Hl' & Hcp & Hfr & Hfm & Hch & Hdeg' & Hto & Htm);
    [apply (r_lens _ _ _ _ R) | split; [assumption | apply (rep_node_range _ _ _ _ R t Ht Kt)]
    | apply (rep_edge_arrays _ _ _ _ R e f t He Hk) | rewrite <- El; exact Hc | rewrite <- El; exact Hnd | |].
  { intros x Hx. destruct (Hl1 x Hx) as (Hr & f' & K). split; [lia | intros ->; congruence]. }
  exists g'. split; [exact Hrm|]. split; [|exact Hcp].
  assert (Elr : lrem e (ain a t) = l1 ++ l2) by (rewrite El; apply lrem_split; rewrite <- El; exact Hnd).
  assert (Hl1k : forall x, In x l1 -> 0 < x /\ exists f', ak a x = KEdge f' t).
  { intros x Hx. destruct (Hl1 x) as (Hr & K); [apply in_or_app; left; exact Hx|]. split; [lia | exact K]. }
  rewrite Elr. apply (rep_in_side g a Xo Xi); auto.
  - intros j Hj Hjt Hnk. apply Htm; try assumption.
    intros Hjin. destruct (Hl1k j Hjin) as (Hj0 & f' & Hf'). exact (Hnk f' Hj0 Hf').
  - rewrite El in Hnd. apply NoDup_remove_1 in Hnd. exact Hnd.
  - rewrite Hdeg', Hdeg, El, !app_length. cbn [length]. lia.
  - intros x. rewrite <- Elr, lrem_in, (r_in_mem _ _ _ _ R) by assumption. tauto.
  - intros x f' n Hnt Kx. split; [intros [H| ->]; [assumption | congruence] | tauto].
Qed.
