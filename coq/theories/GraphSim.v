(* GraphSim.v — the simulation relation between the slot arrays of Graph.v and an abstract
   directed multigraph, at the level of the four accessor functions (slot -> Z), and the
   generic preservation lemmas for the primitive steps (link, unlink, allocate, free).

   Abstract side: `nodes : list Z` (node slots = node ids, positive) and lists of abstract edges
   `(slot, (source, target))`, NEWEST FIRST (the edge's id is `- slot`).  The out-list of node m is
   `adj esrc E m` = the slots of the edges with source m in list order; the invariant says that it
   is exactly the chain threaded through from / from_meta starting at `from m` (same for in-lists
   through to / to_meta).

   The relation is relaxed by parameters so that it also describes the intermediate states of
   remove_edge / remove_node: `ER` = edges whose slot record exists, `EO` / `EI` = edges threaded in
   the out- / in-lists, `PO` / `PI` = nodes whose out- / in-list is currently maintained. *)
From Agdb Require Import Bytes Graph GraphArr.
From Coq Require Import ZifyBool ZifyNat ZifyN.
Ltac Zify.zify_post_hook ::= Z.div_mod_to_equations.
Open Scope Z_scope.

Definition aedge := (Z * (Z * Z))%type.
Definition eslot (x : aedge) : Z := fst x.
Definition esrc (x : aedge) : Z := fst (snd x).
Definition etgt (x : aedge) : Z := snd (snd x).

Definition adj (key : aedge -> Z) (E : list aedge) (m : Z) : list Z :=
  map eslot (filter (fun x => key x =? m) E).

Definition remE (s : Z) (E : list aedge) : list aedge := filter (fun x => negb (eslot x =? s)) E.

Definition upd (f : Z -> Z) (i v : Z) : Z -> Z := fun j => if j =? i then v else f j.

Lemma upd_same f i v : upd f i v i = v.
Proof. unfold upd. rewrite Z.eqb_refl. reflexivity. Qed.
Lemma upd_other f i v j : j <> i -> upd f i v j = f j.
Proof. unfold upd. destruct (Z.eqb_spec j i); congruence. Qed.

Lemma in_adj key E m y : In y (adj key E m) <-> exists x, In x E /\ eslot x = y /\ key x = m.
Proof.
  unfold adj. rewrite in_map_iff. split.
  - intros [x [Hx Hin]]. apply filter_In in Hin. destruct Hin as [Hin Hk]. exists x. repeat split; auto; lia.
  - intros [x [Hin [Hx Hk]]]. exists x. split; [assumption|]. apply filter_In. split; [assumption|lia].
Qed.

Lemma adj_cons key x E m :
  adj key (x :: E) m = if key x =? m then eslot x :: adj key E m else adj key E m.
Proof. unfold adj. cbn [filter]. destruct (key x =? m); reflexivity. Qed.

Lemma adj_remE key s E m : adj key (remE s E) m = zrem s (adj key E m).
Proof.
  unfold adj, remE, zrem. induction E as [|x r IH]; cbn [filter map]; [reflexivity|].
  destruct (Z.eqb_spec (eslot x) s) as [Hs|Hs]; cbn [negb].
  - destruct (key x =? m); cbn [map filter]; [|exact IH].
    destruct (Z.eqb_spec (eslot x) s); [|contradiction]. cbn [negb]. exact IH.
  - cbn [filter]. destruct (key x =? m); cbn [map filter]; [|exact IH].
    destruct (Z.eqb_spec (eslot x) s); [contradiction|]. cbn [negb]. f_equal. exact IH.
Qed.

Lemma in_remE s E x : In x (remE s E) <-> In x E /\ eslot x <> s.
Proof. unfold remE. rewrite filter_In. destruct (Z.eqb_spec (eslot x) s); cbn [negb]; intuition congruence. Qed.

Lemma map_eslot_remE s E : map eslot (remE s E) = zrem s (map eslot E).
Proof.
  unfold remE, zrem. induction E as [|x r IH]; cbn [filter map]; [reflexivity|].
  destruct (eslot x =? s); cbn [negb map]; [exact IH|f_equal; exact IH].
Qed.

Lemma NoDup_adj key E m : NoDup (map eslot E) -> NoDup (adj key E m).
Proof.
  unfold adj. induction E as [|x r IH]; cbn [map filter]; intros Hnd; [constructor|].
  apply NoDup_cons_iff in Hnd. destruct Hnd as [Hx Hr].
  destruct (key x =? m); cbn [map]; [|auto]. constructor; [|auto].
  intros Hin. apply Hx. apply in_map_iff in Hin. destruct Hin as [y [Hy Hin]].
  apply filter_In in Hin. apply in_map_iff. exists y. tauto.
Qed.

Lemma adj_notin key E m : (forall x, In x E -> key x <> m) -> adj key E m = [].
Proof.
  unfold adj. induction E as [|x r IH]; intros H; cbn [filter map]; [reflexivity|].
  destruct (Z.eqb_spec (key x) m) as [E|E].
  - exfalso. eapply H; [left; reflexivity|exact E].
  - apply IH. intros y Hy; apply H; right; assumption.
Qed.

Lemma remE_notin s E : ~ In s (map eslot E) -> remE s E = E.
Proof.
  unfold remE. induction E as [|x r IH]; intros H; cbn [filter]; [reflexivity|].
  destruct (Z.eqb_spec (eslot x) s) as [Hs|Hs]; cbn [negb].
  - exfalso. apply H. left. exact Hs.
  - f_equal. apply IH. intros Hi. apply H. right. exact Hi.
Qed.

(* an edge slot determines the abstract edge *)
Lemma slot_inj E x y : NoDup (map eslot E) -> In x E -> In y E -> eslot x = eslot y -> x = y.
Proof.
  induction E as [|z r IH]; intros Hnd Hx Hy Heq; [destruct Hx|].
  cbn [map] in Hnd. apply NoDup_cons_iff in Hnd. destruct Hnd as [Hz Hr].
  destruct Hx as [->|Hx], Hy as [->|Hy]; auto.
  - exfalso. apply Hz. rewrite Heq. apply in_map. assumption.
  - exfalso. apply Hz. rewrite <- Heq. apply in_map. assumption.
Qed.

(* The free list fl (slots, first to be reused first) as the arrays hold it: slot 0 of from_meta
   holds `- first`, each free slot holds `- next` in from_meta, and i64::MIN ends the list. *)
Definition fhead (fl : list Z) : Z := match fl with [] => i64_min | x :: _ => - x end.

Fixpoint fchain (next : Z -> Z) (fl : list Z) : Prop :=
  match fl with
  | [] => True
  | x :: r => next x = fhead r /\ fchain next r
  end.

Lemma fchain_ext next next' fl :
  (forall y, In y fl -> next' y = next y) -> fchain next fl -> fchain next' fl.
Proof.
  induction fl as [|x r IH]; intros Hext Hc; cbn [fchain] in *; [exact I|].
  destruct Hc as [Hx Hc]. split.
  - rewrite Hext; [assumption|left; reflexivity].
  - apply IH; [|assumption]. intros y Hy; apply Hext; right; assumption.
Qed.

(* what does not depend on the arrays: node slots and edge-record slots are duplicate-free,
   inside (0, n), disjoint from each other, and edges end in nodes *)
Record base (n : Z) (nodes : list Z) (ER : list aedge) : Prop := {
  b_nodes_nodup : NoDup nodes;
  b_nodes_range : forall m, In m nodes -> 0 < m < n;
  b_ER_nodup : NoDup (map eslot ER);
  b_ER_range : forall x, In x ER -> 0 < eslot x < n;
  b_disj : forall m, In m nodes -> ~ In m (map eslot ER);
  b_ends : forall x, In x ER -> In (esrc x) nodes /\ In (etgt x) nodes
}.

(* one direction: A = from (resp. to), M = from_meta (resp. to_meta), key = esrc (resp. etgt) *)
Record half (A M : Z -> Z) (nodes : list Z) (P : Z -> Prop) (key : aedge -> Z) (ER E : list aedge) : Prop := {
  h_nodup : NoDup (map eslot E);
  h_incl : incl E ER;
  h_rec : forall x, In x ER -> A (eslot x) = - key x /\ 0 <= M (eslot x);
  h_node : forall m, In m nodes -> 0 <= A m /\ 0 <= M m;
  h_chain : forall m, In m nodes -> P m ->
              chain M (A m) (adj key E m) /\ M m = Z.of_nat (length (adj key E m))
}.

Record freeS (n : Z) (F T FM TM : Z -> Z) (nodes : list Z) (ER : list aedge) (fl : list Z) (cnt : Z) : Prop := {
  f_from0 : F 0 = 0;
  f_to0 : T 0 = 0;
  f_cnt : TM 0 = cnt;
  f_head : FM 0 = fhead fl;
  f_chain : fchain FM fl;
  f_nodup : NoDup fl;
  f_fl : forall s, In s fl -> 0 < s < n /\ - s <> i64_min /\ ~ In s nodes /\ ~ In s (map eslot ER);
  f_unused : forall s, 0 < s < n -> ~ In s nodes -> ~ In s (map eslot ER) ->
               FM s < 0 /\ F s = 0 /\ T s = 0 /\ TM s = 0;
  (* no slot is leaked as long as the slot 2^63 (whose negation is i64::MIN = "no free slot") is not in play *)
  f_cover : n <= 9223372036854775808 ->
            forall s, 0 < s < n -> ~ In s nodes -> ~ In s (map eslot ER) -> In s fl
}.

Record rsimF (n : Z) (F T FM TM : Z -> Z) (nodes : list Z) (PO PI : Z -> Prop)
             (ER EO EI : list aedge) (fl : list Z) (cnt : Z) : Prop := {
  r_cap : 1 <= n;
  r_base : base n nodes ER;
  r_out : half F FM nodes PO esrc ER EO;
  r_in : half T TM nodes PI etgt ER EI;
  r_free : freeS n F T FM TM nodes ER fl cnt
}.

Lemma base_node_not_slot n nodes ER :
  base n nodes ER -> forall m x, In m nodes -> In x ER -> m <> eslot x.
Proof. intros B m x Hm Hx ->. apply (b_disj _ _ _ B _ Hm), in_map, Hx. Qed.

Definition wfl (g : graph) : Prop :=
  length (g_to g) = length (g_from g) /\ length (g_fmeta g) = length (g_from g) /\
  length (g_tmeta g) = length (g_from g).

Definition rsim (g : graph) (nodes : list Z) (PO PI : Z -> Prop) (ER EO EI : list aedge) (fl : list Z) (cnt : Z) : Prop :=
  wfl g /\ rsimF (capacity g) (from g) (to g) (fmeta g) (tmeta g) nodes PO PI ER EO EI fl cnt.

Definition allP : Z -> Prop := fun _ => True.

(* the abstract multigraph: node ids and edges (slot, (source, target)), newest first *)
Record agraph := { a_nodes : list Z; a_edges : list aedge }.

(* the full simulation: everything threaded, node count right; `fl` is the free list *)
Definition sim (g : graph) (a : agraph) (fl : list Z) : Prop :=
  rsim g (a_nodes a) allP allP (a_edges a) (a_edges a) (a_edges a) fl (Z.of_nat (length (a_nodes a))).

Definition wf (g : graph) : Prop := exists a fl, sim g a fl.

(* what the proofs about the operations read off the relation *)
Section Rsim.
  Context {g : graph} {nodes : list Z} {PO PI : Z -> Prop} {ER EO EI : list aedge} {fl : list Z} {cnt : Z}.
  Hypothesis RS : rsim g nodes PO PI ER EO EI fl cnt.

  Lemma rsim_base : base (capacity g) nodes ER.
  Proof. apply RS. Qed.

  Lemma rsim_node_range m : In m nodes -> 0 < m < capacity g.
  Proof. apply (b_nodes_range _ _ _ rsim_base). Qed.

  Lemma rsim_slot_range x : In x ER -> 0 < eslot x < capacity g.
  Proof. apply (b_ER_range _ _ _ rsim_base). Qed.

  Lemma rsim_slots_nodup : NoDup (map eslot ER).
  Proof. apply (b_ER_nodup _ _ _ rsim_base). Qed.

  Lemma rsim_ends x : In x ER -> In (esrc x) nodes /\ In (etgt x) nodes.
  Proof. apply (b_ends _ _ _ rsim_base). Qed.

  Lemma rsim_node_not_slot m x : In m nodes -> In x ER -> m <> eslot x.
  Proof. apply (base_node_not_slot _ _ _ rsim_base). Qed.
End Rsim.

Section Half.
  Variables (n : Z) (key : aedge -> Z).
  Implicit Types (A M : Z -> Z) (nodes : list Z) (P : Z -> Prop) (ER E : list aedge) (x : aedge).

  Lemma half_slots_pos A M nodes P ER E m :
    (forall x, In x ER -> 0 < eslot x < n) -> half A M nodes P key ER E ->
    forall y, In y (adj key E m) -> 0 < y < n.
  Proof.
    intros Hr H y Hy. apply in_adj in Hy. destruct Hy as [x [Hx [<- _]]].
    apply Hr. apply (h_incl _ _ _ _ _ _ _ H). assumption.
  Qed.

  (* extensionality: only the node slots and the record slots matter *)
  Lemma half_ext A M A' M' nodes P ER E :
    (forall j, In j nodes \/ In j (map eslot ER) -> A' j = A j /\ M' j = M j) ->
    half A M nodes P key ER E -> half A' M' nodes P key ER E.
  Proof.
    intros Hext [H1 H2 H3 H4 H5]. constructor; auto.
    - intros x Hx. destruct (Hext (eslot x)) as [-> ->]; [right; apply in_map; assumption|]. auto.
    - intros m Hm. destruct (Hext m) as [-> ->]; [left; assumption|]. auto.
    - intros m Hm HP. destruct (Hext m) as [-> ->]; [left; assumption|].
      destruct (H5 m Hm HP) as [Hc Hd]. split; [|assumption].
      eapply chain_ext; [|exact Hc]. intros y Hy. apply in_adj in Hy. destruct Hy as [x [Hx [<- _]]].
      apply Hext. right. apply in_map. apply H2. assumption.
  Qed.

  Lemma half_weaken A M nodes (P P' : Z -> Prop) ER E :
    (forall m, In m nodes -> P' m -> P m) ->
    half A M nodes P key ER E -> half A M nodes P' key ER E.
  Proof. intros HP [H1 H2 H3 H4 H5]. constructor; auto. Qed.

  (* The list of the one node k is rethreaded (E becomes E').  The rest of `half` carries over when
     the records keep A and a non-negative M, the other nodes keep A and M, and M is kept on the
     members of the other nodes' lists. *)
  Lemma half_rethread A M A' M' nodes P ER E E' k :
    half A M nodes P key ER E ->
    NoDup (map eslot E') -> incl E' ER ->
    (forall m, m <> k -> adj key E' m = adj key E m) ->
    (forall y, In y ER -> A' (eslot y) = A (eslot y) /\ 0 <= M' (eslot y)) ->
    (forall m, In m nodes -> m <> k -> A' m = A m /\ M' m = M m) ->
    (forall y, In y E -> key y <> k -> M' (eslot y) = M (eslot y)) ->
    (In k nodes -> 0 <= A' k /\ 0 <= M' k /\
       (P k -> chain M' (A' k) (adj key E' k) /\ M' k = Z.of_nat (length (adj key E' k)))) ->
    half A' M' nodes P key ER E'.
  Proof.
    intros [H1 H2 H3 H4 H5] Hnd Hincl Hadj Hrec Hnode Hmem Hk. constructor; try assumption.
    - intros y Hy. destruct (Hrec y Hy) as [-> ?]. split; [apply (H3 y Hy)|assumption].
    - intros m Hm. destruct (Z.eq_dec m k) as [->|Hne]; [destruct (Hk Hm) as (? & ? & _); auto|].
      destruct (Hnode m Hm Hne) as [-> ->]. auto.
    - intros m Hm HP. destruct (Z.eq_dec m k) as [->|Hne]; [apply (Hk Hm), HP|].
      destruct (Hnode m Hm Hne) as [-> ->]. rewrite (Hadj m Hne). destruct (H5 m Hm HP) as [Hc Hd].
      split; [|exact Hd]. eapply chain_ext; [|exact Hc].
      intros s Hs. apply in_adj in Hs. destruct Hs as (y & Hy & <- & Hky). apply Hmem; [exact Hy|congruence].
  Qed.

  (* the same when the edge x leaves the list of its key node *)
  Lemma half_unthread A M A' M' nodes P ER E x :
    half A M nodes P key ER E -> In x E ->
    (forall y, In y ER -> A' (eslot y) = A (eslot y) /\ 0 <= M' (eslot y)) ->
    (forall m, In m nodes -> m <> key x -> A' m = A m /\ M' m = M m) ->
    (forall y, In y E -> key y <> key x -> M' (eslot y) = M (eslot y)) ->
    (In (key x) nodes -> 0 <= A' (key x) /\ 0 <= M' (key x) /\
       (P (key x) -> let l := zrem (eslot x) (adj key E (key x)) in
                     chain M' (A' (key x)) l /\ M' (key x) = Z.of_nat (length l))) ->
    half A' M' nodes P key ER (remE (eslot x) E).
  Proof.
    intros H Hx Hrec Hnode Hmem Hk. pose proof (h_nodup _ _ _ _ _ _ _ H) as Hnd.
    apply (half_rethread A M A' M' nodes P ER E _ (key x) H); try assumption.
    - rewrite map_eslot_remE. apply NoDup_zrem, Hnd.
    - intros y Hy. apply in_remE in Hy. apply (h_incl _ _ _ _ _ _ _ H). tauto.
    - intros m Hne. rewrite adj_remE. apply zrem_notin. intros Hi. apply in_adj in Hi.
      destruct Hi as (y & Hy & Hs & Hky). rewrite (slot_inj E y x Hnd Hy Hx Hs) in Hky. congruence.
    - rewrite adj_remE. exact Hk.
  Qed.

  (* an edge whose key node is not maintained can be dropped from the threaded list *)
  Lemma half_drop A M nodes P ER E x :
    In x E -> ~ P (key x) -> half A M nodes P key ER E -> half A M nodes P key ER (remE (eslot x) E).
  Proof.
    intros Hx HnP H. apply (half_unthread A M A M nodes P ER E x H Hx); auto.
    - intros y Hy. split; [reflexivity|apply (h_rec _ _ _ _ _ _ _ H y Hy)].
    - intros Hk. destruct (h_node _ _ _ _ _ _ _ H _ Hk). tauto.
  Qed.

  (* link: the edge record x (not threaded yet) becomes the head of its key node's list *)
  Lemma half_link A M nodes P ER E x :
    base n nodes ER -> In (key x) nodes ->
    half A M nodes P key ER E -> In x ER -> ~ In (eslot x) (map eslot E) ->
    half (upd A (key x) (eslot x))
         (upd (upd M (eslot x) (A (key x))) (key x) (M (key x) + 1))
         nodes P key ER (x :: E).
  Proof.
    intros B Hk H Hx Hnx. pose proof H as [H1 H2 H3 H4 H5].
    pose proof (base_node_not_slot _ _ _ B) as Hns.
    assert (HE : forall y, In y E -> eslot y <> eslot x) by (intros y Hy E0; apply Hnx; rewrite <- E0; apply in_map, Hy).
    destruct (H4 _ Hk) as [HAk HMk].
    apply (half_rethread A M _ _ nodes P ER E _ (key x) H).
    - cbn [map]. constructor; assumption.
    - intros y [<-|Hy]; auto.
    - intros m Hne. rewrite adj_cons. destruct (Z.eqb_spec (key x) m); congruence.
    - intros y Hy. pose proof (Hns _ _ Hk Hy). rewrite (upd_other A), (upd_other _ (key x)) by auto.
      split; [reflexivity|]. unfold upd. destruct (eslot y =? eslot x); [assumption|apply (H3 y Hy)].
    - intros m Hm Hne. pose proof (Hns _ _ Hm Hx). rewrite !upd_other by assumption. auto.
    - intros y Hy _. pose proof (Hns _ _ Hk (H2 y Hy)). rewrite !upd_other by auto. reflexivity.
    - intros _. rewrite !upd_same. pose proof (b_ER_range _ _ _ B x Hx). split; [lia|]. split; [lia|].
      intros HP. destruct (H5 _ Hk HP) as [Hc Hd]. rewrite adj_cons, Z.eqb_refl. cbn [chain length]. split; [|lia].
      split; [reflexivity|]. rewrite (upd_other _ (key x)), upd_same by (apply not_eq_sym, Hns; assumption).
      eapply chain_ext; [|exact Hc]. intros s Hs. apply in_adj in Hs. destruct Hs as (y & Hy & <- & _).
      pose proof (Hns _ _ Hk (H2 y Hy)). rewrite !upd_other by auto. reflexivity.
  Qed.

  Lemma half_unlink_head A M nodes P ER E x :
    base n nodes ER -> In (key x) nodes -> P (key x) ->
    half A M nodes P key ER E -> In x E -> A (key x) = eslot x ->
    half (upd A (key x) (M (eslot x))) (upd M (key x) (M (key x) - 1)) nodes P key ER (remE (eslot x) E).
  Proof.
    intros B Hk HPk H Hx Hhead. pose proof H as [H1 H2 H3 H4 H5].
    assert (Hns : forall y, In y ER -> key x <> eslot y) by (intros y; apply (base_node_not_slot _ _ _ B), Hk).
    destruct (H5 _ Hk HPk) as [Hck Hdk].
    assert (Hin : In (eslot x) (adj key E (key x))) by (apply in_adj; eauto).
    pose proof (NoDup_adj key E (key x) H1) as Hndk.
    apply (half_unthread A M _ _ nodes P ER E x H Hx).
    - intros y Hy. rewrite !upd_other by (apply not_eq_sym; auto). split; [reflexivity|apply (H3 y Hy)].
    - intros m Hm Hne. rewrite !upd_other by assumption. auto.
    - intros y Hy _. apply upd_other, not_eq_sym; auto.
    - intros _. rewrite !upd_same. split; [apply (H3 x (H2 x Hx))|]. split.
      { rewrite Hdk. destruct (adj key E (key x)); [destruct Hin|cbn [length]; lia]. }
      intros _ l. split; [|unfold l; rewrite zrem_length by assumption; lia].
      destruct (adj key E (key x)) as [|s r] eqn:Eadj; [destruct Hin|].
      destruct Hck as [Hs Hck]. rewrite Hhead in Hs. subst s l. apply NoDup_cons_iff in Hndk.
      apply chain_unlink_head; [tauto| |split; [reflexivity|assumption]].
      intros s Hs. assert (Hs' : In s (adj key E (key x))) by (rewrite Eadj; right; exact Hs).
      apply in_adj in Hs'. destruct Hs' as (y & Hy & <- & _). apply upd_other, not_eq_sym; auto.
  Qed.

  (* unlink, inner case: find_prev returns the predecessor *)
  Lemma half_unlink_inner A M nodes P ER E x (fuel : nat) :
    (forall z, M (- z) = M z) ->
    base n nodes ER -> In (key x) nodes -> P (key x) -> n <= Z.of_nat fuel ->
    half A M nodes P key ER E -> In x E -> A (key x) <> eslot x ->
    exists p', find_prev M fuel (- A (key x)) (eslot x) = Some p' /\
      In (Z.abs p') (map eslot ER) /\
      half A (upd (upd M (Z.abs p') (M (eslot x))) (key x) (M (key x) - 1)) nodes P key ER (remE (eslot x) E).
  Proof.
    intros Heven B Hk HPk Hfuel H Hx Hnhead. pose proof H as [H1 H2 H3 H4 H5].
    pose proof (base_node_not_slot _ _ _ B) as Hns. pose proof (b_ER_range _ _ _ B) as Hrng.
    destruct (H5 _ Hk HPk) as [Hck Hdk].
    assert (Hin : In (eslot x) (adj key E (key x))) by (apply in_adj; eauto).
    pose proof (NoDup_adj key E (key x) H1) as Hndk.
    assert (Hpos : forall y, In y (adj key E (key x)) -> 0 < y < n).
    { intros y Hy. apply in_adj in Hy. destruct Hy as (z & Hz & <- & _). auto. }
    assert (Hlen : (length (adj key E (key x)) <= fuel)%nat).
    { destruct (NoDup_range_length (adj key E (key x)) (Z.to_nat n) Hndk) as [HL|[HL _]].
      - intros y Hy. specialize (Hpos y Hy). lia.
      - lia.
      - rewrite HL. cbn [length]. lia. }
    destruct (chain_unlink_inner M (eslot x) Heven (adj key E (key x)) fuel (A (key x)) (- A (key x)))
      as (p' & Hf & Hpin & Hps & Hnp & Hrest); auto.
    { intros y Hy. apply Hpos. assumption. }
    { destruct (H4 _ Hk). lia. }
    exists p'. split; [assumption|].
    apply in_adj in Hpin. destruct Hpin as (z & Hz & Hzp & Hzk).
    split; [rewrite <- Hzp; apply in_map; auto|].
    assert (Hpk : Z.abs p' <> key x) by (rewrite <- Hzp; apply not_eq_sym; auto).
    apply (half_unthread A M _ _ nodes P ER E x H Hx).
    - intros y Hy. rewrite (upd_other _ (key x)) by (apply not_eq_sym; auto). split; [reflexivity|].
      unfold upd. destruct (eslot y =? Z.abs p'); [apply (H3 x)|apply (H3 y)]; auto.
    - intros m Hm Hne. split; [reflexivity|]. rewrite !upd_other; auto.
      rewrite <- Hzp. apply Hns; auto.
    - intros y Hy Hne. rewrite !upd_other; auto; [|apply not_eq_sym; auto].
      intros E0. apply Hne. rewrite (slot_inj E y z H1 Hy Hz) by congruence. exact Hzk.
    - intros _. rewrite upd_same. destruct (H4 _ Hk) as [HA _]. split; [exact HA|]. split.
      { rewrite Hdk. destruct (adj key E (key x)); [destruct Hin|cbn [length]; lia]. }
      intros _ l. split; [|unfold l; rewrite zrem_length by assumption; lia].
      apply Hrest.
      + rewrite (upd_other _ (key x)) by assumption. apply upd_same.
      + intros s Hs Hsp Hsx. apply in_adj in Hs. destruct Hs as (y & Hy & <- & _).
        rewrite !upd_other; auto. apply not_eq_sym; auto.
  Qed.
  Lemma half_shrink A M nodes nodes' P ER ER' E :
    incl nodes' nodes -> incl ER' ER -> incl E ER' ->
    half A M nodes P key ER E -> half A M nodes' P key ER' E.
  Proof. intros Hn Hr He [H1 H2 H3 H4 H5]. constructor; auto. Qed.

  (* a new node with empty lists *)
  Lemma half_add_node A M nodes P ER E s :
    ~ In s nodes -> A s = 0 -> M s = 0 ->
    half A M nodes P key ER E -> (forall x, In x ER -> In (key x) nodes) ->
    half A M (s :: nodes) P key ER E.
  Proof.
    intros Hs HA HM [H1 H2 H3 H4 H5] Hends. constructor; auto.
    - intros m [<-|Hm]; [lia|auto].
    - intros m [<-|Hm] HP; [|auto].
      rewrite adj_notin.
      + cbn [chain length]. split; [assumption|lia].
      + intros x Hx E0. apply Hs. rewrite <- E0. apply Hends. auto.
  Qed.

  (* node s (no edges) becomes the record of the edge x = (s, ..) *)
  Lemma half_node_to_rec A M nodes P ER E x :
    base n (eslot x :: nodes) ER -> In (key x) nodes ->
    half A M (eslot x :: nodes) P key ER E ->
    half (upd A (eslot x) (- key x)) M nodes P key (x :: ER) E.
  Proof.
    intros B Hk [H1 H2 H3 H4 H5].
    pose proof (b_disj _ _ _ B) as Hdisj. pose proof (b_nodes_nodup _ _ _ B) as Hnd.
    apply NoDup_cons_iff in Hnd. destruct Hnd as [Hxn Hnd].
    constructor; auto.
    - intros y Hy. right. auto.
    - intros y [<-|Hy].
      + rewrite upd_same. split; [reflexivity|]. apply (H4 (eslot x)). left; reflexivity.
      + rewrite upd_other; [auto|]. intros E0. apply (Hdisj (eslot x)); [left; reflexivity|].
        rewrite <- E0. apply in_map. assumption.
    - intros m Hm. rewrite upd_other; [apply H4; right; assumption|]. intros ->. contradiction.
    - intros m Hm HP. rewrite upd_other; [apply H5; [right; assumption|assumption]|]. intros ->. contradiction.
  Qed.
End Half.

Lemma base_add_node n nodes ER s :
  base n nodes ER -> 0 < s < n -> ~ In s nodes -> ~ In s (map eslot ER) -> base n (s :: nodes) ER.
Proof.
  intros [H1 H2 H3 H4 H5 H6] Hr Hn He. constructor; auto.
  - constructor; assumption.
  - intros m [<-|Hm]; auto.
  - intros m [<-|Hm]; auto.
  - intros x Hx. destruct (H6 x Hx). split; right; assumption.
Qed.

Lemma base_grow n n' nodes ER : n <= n' -> base n nodes ER -> base n' nodes ER.
Proof.
  intros Hn [H1 H2 H3 H4 H5 H6]. constructor; auto.
  - intros m Hm. specialize (H2 m Hm). lia.
  - intros x Hx. specialize (H4 x Hx). lia.
Qed.

Lemma base_node_to_rec n nodes ER x :
  base n (eslot x :: nodes) ER -> In (esrc x) nodes -> In (etgt x) nodes ->
  (forall y, In y ER -> esrc y <> eslot x /\ etgt y <> eslot x) ->
  base n nodes (x :: ER).
Proof.
  intros [H1 H2 H3 H4 H5 H6] Hs Ht Hiso.
  apply NoDup_cons_iff in H1. destruct H1 as [Hxn Hnd]. constructor; auto.
  - intros m Hm. apply H2. right; assumption.
  - cbn [map]. constructor; [|assumption]. apply H5. left; reflexivity.
  - intros y [<-|Hy]; [apply H2; left; reflexivity|auto].
  - intros m Hm [E0|Hi]; [congruence|]. apply (H5 m); [right; assumption|assumption].
  - intros y [<-|Hy]; [split; assumption|].
    destruct (H6 y Hy) as [[E1|Ha] [E2|Hb]]; destruct (Hiso y Hy); try congruence. split; assumption.
Qed.

Lemma base_free_rec n nodes ER s : base n nodes ER -> base n nodes (remE s ER).
Proof.
  intros [H1 H2 H3 H4 H5 H6]. constructor; auto.
  - rewrite map_eslot_remE. apply NoDup_zrem. assumption.
  - intros x Hx. apply in_remE in Hx. apply H4. tauto.
  - intros m Hm. rewrite map_eslot_remE. intros Hi. apply in_zrem in Hi. apply (H5 m Hm). tauto.
  - intros x Hx. apply in_remE in Hx. apply H6. tauto.
Qed.

Lemma base_free_node n nodes ER m :
  base n nodes ER -> (forall y, In y ER -> esrc y <> m /\ etgt y <> m) -> base n (zrem m nodes) ER.
Proof.
  intros [H1 H2 H3 H4 H5 H6] Hiso. constructor; auto.
  - apply NoDup_zrem. assumption.
  - intros k Hk. apply in_zrem in Hk. apply H2. tauto.
  - intros k Hk. apply in_zrem in Hk. apply H5. tauto.
  - intros y Hy. destruct (H6 y Hy). destruct (Hiso y Hy). split; apply in_zrem; split; auto.
Qed.

Definition used (nodes : list Z) (ER : list aedge) (j : Z) : Prop := In j nodes \/ In j (map eslot ER).

Lemma freeS_ext n F T FM TM F' T' FM' TM' nodes ER nodes' ER' fl cnt :
  (forall j, used nodes' ER' j <-> used nodes ER j) ->
  (forall j, j = 0 \/ (0 < j < n /\ ~ used nodes ER j) ->
             F' j = F j /\ T' j = T j /\ FM' j = FM j /\ TM' j = TM j) ->
  freeS n F T FM TM nodes ER fl cnt -> freeS n F' T' FM' TM' nodes' ER' fl cnt.
Proof.
  intros Hu Hext [H1 H2 H3 H4 H5 H6 H7 H8 H9].
  destruct (Hext 0 (or_introl eq_refl)) as [E1 [E2 [E3 E4]]].
  assert (Hfree : forall s, In s fl -> 0 < s < n /\ ~ used nodes ER s).
  { intros s Hs. destruct (H7 s Hs) as [Hr [_ [Ha Hb]]]. split; [assumption|]. unfold used; tauto. }
  constructor.
  - congruence.
  - congruence.
  - congruence.
  - congruence.
  - eapply fchain_ext; [|exact H5]. intros y Hy. apply Hext. right. auto.
  - assumption.
  - intros s Hs. destruct (H7 s Hs) as [Hr [Hm [Ha Hb]]]. split; [lia|]. split; [assumption|]. split.
    + intros Hi. apply (proj2 (Hfree s Hs)). apply Hu. left; assumption.
    + intros Hi. apply (proj2 (Hfree s Hs)). apply Hu. right; assumption.
  - intros s Hr Ha Hb.
    assert (Hnu : ~ used nodes ER s).
    { intros Hi. apply Hu in Hi. destruct Hi; contradiction. }
    destruct (Hext s) as [-> [-> [-> ->]]]; [right; split; assumption|].
    apply H8; auto; intros Hi; apply Hnu; [left|right]; assumption.
  - intros Hn s Hr Ha Hb.
    assert (Hnu : ~ used nodes ER s).
    { intros Hi. apply Hu in Hi. destruct Hi; contradiction. }
    apply H9; auto; intros Hi; apply Hnu; [left|right]; assumption.
Qed.

Lemma freeS_cnt n F T FM TM nodes ER fl cnt c :
  freeS n F T FM TM nodes ER fl cnt -> freeS n F T FM (upd TM 0 c) nodes ER fl c.
Proof.
  intros [H1 H2 H3 H4 H5 H6 H7 H8 H9]. constructor; try assumption.
  - apply upd_same.
  - intros s Hr Ha Hb. rewrite upd_other by lia. auto.
Qed.

Lemma freeS_alloc_pop n F T FM TM nodes ER x rest cnt :
  freeS n F T FM TM nodes ER (x :: rest) cnt ->
  freeS n F T (upd (upd FM 0 (FM x)) x 0) TM (x :: nodes) ER rest cnt.
Proof.
  intros [H1 H2 H3 H4 H5 H6 H7 H8 H9].
  destruct (H7 x (or_introl eq_refl)) as [Hxr [Hxm [Hxn Hxe]]].
  cbn [fchain] in H5. destruct H5 as [Hx H5].
  apply NoDup_cons_iff in H6. destruct H6 as [Hxf H6].
  constructor; try assumption.
  - rewrite upd_other by lia. rewrite upd_same. assumption.
  - eapply fchain_ext; [|exact H5]. intros y Hy.
    destruct (H7 y (or_intror Hy)) as [Hyr _].
    assert (y <> x) by (intros ->; contradiction).
    rewrite !upd_other by lia. reflexivity.
  - intros s Hs. destruct (H7 s (or_intror Hs)) as [Hr [Hm [Ha Hb]]]. split; [lia|]. split; [assumption|]. split; [|assumption].
    intros [<-|Hi]; contradiction.
  - intros s Hr Ha Hb.
    assert (s <> x) by (intros ->; apply Ha; left; reflexivity).
    rewrite !upd_other by lia. apply H8; auto. intros Hi. apply Ha. right. assumption.
  - intros Hn s Hr Ha Hb.
    assert (s <> x) by (intros ->; apply Ha; left; reflexivity).
    destruct (H9 Hn s Hr) as [E|Hi]; [intros Hi; apply Ha; right; assumption|assumption|congruence|assumption].
Qed.

Lemma freeS_alloc_grow n F T FM TM nodes ER cnt :
  1 <= n -> freeS n F T FM TM nodes ER [] cnt -> freeS (n + 1) F T FM TM (n :: nodes) ER [] cnt.
Proof.
  intros Hn [H1 H2 H3 H4 H5 H6 H7 H8 H9]. constructor; try assumption.
  - intros s [].
  - intros s Hr Ha Hb. assert (s <> n) by (intros ->; apply Ha; left; reflexivity).
    apply H8; [lia| |assumption]. intros Hi. apply Ha. right. assumption.
  - intros Hn' s Hr Ha Hb. assert (s <> n) by (intros ->; apply Ha; left; reflexivity).
    apply H9; [lia|lia| |assumption]. intros Hi. apply Ha. right. assumption.
Qed.

Lemma freeS_free n F T FM TM nodes ER nodes' ER' fl cnt s :
  freeS n F T FM TM nodes ER fl cnt -> 0 < s < n -> used nodes ER s ->
  (forall j, used nodes' ER' j <-> (used nodes ER j /\ j <> s)) ->
  freeS n (upd F s 0) (upd T s 0) (upd (upd FM s (FM 0)) 0 (- s)) (upd TM s 0) nodes' ER'
        (if - s =? i64_min then [] else s :: fl) cnt.
Proof.
  intros [H1 H2 H3 H4 H5 H6 H7 H8 H9] Hs Hus Hu.
  assert (Hfw : forall j, In j nodes' \/ In j (map eslot ER') -> used nodes ER j /\ j <> s) by (intros j; apply Hu).
  assert (Hbw : forall j, j <> s -> ~ In j nodes' -> ~ In j (map eslot ER') -> ~ In j nodes /\ ~ In j (map eslot ER)).
  { intros j Hne Ha Hb.
    split; intros Hi; [destruct (proj2 (Hu j) (conj (or_introl Hi) Hne))|destruct (proj2 (Hu j) (conj (or_intror Hi) Hne))];
      contradiction. }
  assert (Hsf : ~ In s fl).
  { intros Hi. destruct (H7 s Hi) as (_ & _ & Ha & Hb). destruct Hus; contradiction. }
  assert (Hneg : fhead fl < 0).
  { destruct fl as [|x r]; cbn [fhead]; [unfold i64_min; lia|]. destruct (H7 x (or_introl eq_refl)). lia. }
  constructor.
  - rewrite upd_other by lia. assumption.
  - rewrite upd_other by lia. assumption.
  - rewrite upd_other by lia. assumption.
  - rewrite upd_same. destruct (Z.eqb_spec (- s) i64_min) as [E|E]; cbn [fhead]; congruence.
  - destruct (Z.eqb_spec (- s) i64_min) as [E|E]; cbn [fchain]; [exact I|]. split.
    + rewrite upd_other by lia. rewrite upd_same. assumption.
    + eapply fchain_ext; [|exact H5]. intros y Hy. destruct (H7 y Hy) as [Hr _].
      assert (y <> s) by (intros ->; contradiction).
      rewrite !upd_other by lia. reflexivity.
  - destruct (Z.eqb_spec (- s) i64_min); constructor; assumption.
  - intros y Hy.
    assert (Hy' : (y = s /\ - s <> i64_min) \/ In y fl).
    { destruct (Z.eqb_spec (- s) i64_min); [destruct Hy|]. destruct Hy as [<-|Hy]; auto. }
    destruct Hy' as [[-> Hm]|Hy'].
    + split; [lia|]. split; [assumption|].
      split; intros Hi; [destruct (Hfw s (or_introl Hi))|destruct (Hfw s (or_intror Hi))]; congruence.
    + destruct (H7 y Hy') as (Hr & Hm & Ha & Hb). split; [lia|]. split; [assumption|].
      split; intros Hi; [destruct (Hfw y (or_introl Hi)) as [[?|?] _]|destruct (Hfw y (or_intror Hi)) as [[?|?] _]];
        contradiction.
  - intros j Hr Ha Hb. destruct (Z.eq_dec j s) as [->|Hne].
    + rewrite !upd_same. rewrite upd_other by lia. rewrite upd_same. repeat split; auto; lia.
    + rewrite !upd_other by lia. destruct (Hbw j Hne Ha Hb). apply H8; auto.
  - intros Hn j Hr Ha Hb.
    destruct (Z.eqb_spec (- s) i64_min) as [E|E]; [unfold i64_min in E; lia|].
    destruct (Z.eq_dec j s) as [->|Hne]; [left; reflexivity|right].
    destruct (Hbw j Hne Ha Hb). apply H9; auto.
Qed.
