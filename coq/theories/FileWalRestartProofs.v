(* FileWalRestartProofs.v — C01: recovery is itself crash safe (restartable).
   Recovery of the repaired code is a sequence of file-system calls (FileWal.recovery_calls true: cut a
   torn tail; per record newest first: guard, undo, remove the record from the log; clear).  Every crash
   cut of that sequence — incl. a torn undo write — of a state left by a crash of normal operation is
   again such a state for the same committed content (Recoverable is closed under the cuts of recovery),
   so any number of interrupted recoveries end in the same content, the guard never firing. *)
From Agdb Require Import Bytes BytesProofs FileWal FileWalProofs FileWalGuardProofs.
From Coq Require Import ZifyBool ZifyNat ZifyN.
Ltac Zify.zify_post_hook ::= Z.div_mod_to_equations.
Open Scope nat_scope.
Arguments N.of_nat : simpl never.
Arguments N.to_nat : simpl never.
Arguments N.ltb : simpl never.

Lemma crash_cons_0 st c cs j : crash st (c :: cs) 0 j = apply_torn st c j.
Proof. reflexivity. Qed.

Lemma crash_cons_S st c cs k j : crash st (c :: cs) (S k) j = crash (apply_sys st c) cs k j.
Proof. reflexivity. Qed.

Lemma log_size_encs rs : log_size rs = length (encs rs).
Proof.
  induction rs as [|r rs IH]; [reflexivity|].
  rewrite encs_cons, app_length, enc_rec_length, <- IH. reflexivity.
Qed.

Lemma log_size_rev rs : log_size (rev rs) = log_size rs.
Proof.
  unfold log_size. induction rs as [|r rs IH]; [reflexivity|].
  cbn [rev]. rewrite map_app, list_sum_app, IH.
  change (list_sum (map rec_size [r])) with (rec_size r + 0).
  change (list_sum (map rec_size (r :: rs))) with (rec_size r + list_sum (map rec_size rs)). lia.
Qed.

Lemma set_len_prefix (a b : bytes) : set_len (a ++ b) (length a) = a.
Proof.
  unfold set_len. rewrite firstn_app, Nat.sub_diag, firstn_all, firstn_O, app_nil_r.
  replace (length a - length (a ++ b)) with 0 by (rewrite app_length; lia). cbn [repeat]. apply app_nil_r.
Qed.

Lemma set_len_0 (w : bytes) : set_len w 0 = [].
Proof. unfold set_len. cbn [firstn Nat.sub repeat app]. reflexivity. Qed.

Lemma incomplete_length_pos t : incomplete t -> t = [] \/ 0 < length t.
Proof. destruct t; [now left|right; cbn; lia]. Qed.

(* writing a value over a prefix of itself / over itself *)
Lemma write_at_over (d : bytes) p (v : bytes) j : p <= length d ->
  write_at (write_at d p (firstn j v)) p v = write_at d p v.
Proof.
  intros Hp.
  set (t := firstn j v). assert (Ht : length t <= length v) by (unfold t; rewrite firstn_length; lia).
  assert (L1 : length (write_at d p t) = Nat.max (length d) (p + length t)) by (apply write_at_length; exact Hp).
  apply (nth_ext _ _ x00 x00).
  - rewrite !write_at_length by lia. lia.
  - intros i Hi. rewrite !nth_write_at by lia.
    destruct (Nat.ltb_spec i p); [reflexivity|].
    destruct (Nat.ltb_spec i (p + length v)); [reflexivity|].
    destruct (Nat.ltb_spec i (p + length t)); [lia|reflexivity].
Qed.

(* applying an undo record on top of its own (complete or torn) application *)
Definition after_undo (d : bytes) (r : nat * bytes) (j : nat) : bytes :=
  match snd r with
  | [] => d
  | v => write_at d (fst r) (firstn j v)
  end.

Lemma apply_rec_over d r j : fst r <= length d ->
  apply_rec (after_undo d r j) r = apply_rec d r /\ fst r <= length (after_undo d r j).
Proof.
  intros Hp. destruct r as [p v]. unfold after_undo, apply_rec. cbn [fst snd] in *.
  destruct v as [|b v']; [split; [reflexivity|exact Hp]|].
  split; [now apply write_at_over|]. rewrite write_at_length by exact Hp. lia.
Qed.

Lemma apply_rec_idem d r : fst r <= length d ->
  apply_rec (apply_rec d r) r = apply_rec d r /\ fst r <= length (apply_rec d r).
Proof.
  intros Hp. destruct r as [p v]. unfold apply_rec. cbn [fst snd] in *.
  destruct v as [|b v'].
  - rewrite set_len_length. split; [|lia]. pose proof (set_len_same (set_len d p)) as E.
    now rewrite set_len_length in E.
  - split.
    + pose proof (write_at_over d p (b :: v') (length (b :: v')) Hp) as E. now rewrite firstn_all in E.
    + rewrite write_at_length by exact Hp. lia.
Qed.

Lemma undo_call_torn st r j :
  apply_torn st (undo_call r) j = {| data := after_undo (data st) r j; wal := wal st |}.
Proof.
  destruct r as [p v]. unfold undo_call, after_undo. cbn [fst snd].
  destruct v; cbn [apply_torn]; destruct st; reflexivity.
Qed.

Lemma undo_call_done st r :
  apply_sys st (undo_call r) = {| data := apply_rec (data st) r; wal := wal st |}.
Proof.
  destruct r as [p v]. unfold undo_call, apply_rec. cbn [fst snd].
  destruct v; cbn [apply_sys]; reflexivity.
Qed.

Lemma rec_of_parts d0 d rs :
  Forall ok_rec rs -> replay_nf rs d = d0 -> gok_nf rs d -> Recoverable d0 {| data := d; wal := encs rs |}.
Proof.
  intros Hok Hr Hg. apply (rec_tail d0 _ rs []); cbn [data wal];
    [now rewrite app_nil_r|apply incomplete_nil|exact Hok|exact Hr|exact Hg].
Qed.

Lemma undo_loop d0 rs : forall d,
  Forall ok_rec rs -> replay_nf rs d = d0 -> gok_nf rs d ->
  let st := {| data := d; wal := encs rs |} in
  exists cs, undo_calls true (rev rs) d = (cs, true) /\
             (forall k j, Recoverable d0 (crash st cs k j)) /\
             run_calls st cs = {| data := d0; wal := [] |}.
Proof.
  induction rs as [|r rs IH] using rev_ind; intros d Hok Hr Hg st; subst st.
  - exists []. cbn [rev undo_calls]. repeat split.
    + intros k j. rewrite crash_all by (cbn; lia). cbn [run_calls fold_left]. now apply rec_of_parts.
    + cbn [run_calls fold_left encs map concat]. unfold replay_nf in Hr. cbn in Hr. now rewrite Hr.
  - apply Forall_app in Hok as [Hok Hokr].
    rewrite replay_nf_app, replay_nf_one in Hr.
    apply gok_nf_app in Hg as [Hg1 Hg]. rewrite gok_nf_one in Hg1. rewrite replay_nf_one in Hg.
    destruct (IH (apply_rec d r) Hok Hr Hg) as (cs & Ecs & Scs & Rcs).
    rewrite rev_app_distr. cbn [rev app undo_calls andb].
    destruct (Nat.ltb_spec (length d) (fst r)) as [C|_]; [lia|].
    rewrite Ecs. cbn [app].
    exists (undo_call r :: WalSetLen (log_size (rev rs)) :: cs). split; [reflexivity|].
    set (st := {| data := d; wal := encs (rs ++ [r]) |}).
    (* the state with r undone, r still in the log *)
    assert (Mid : forall d', apply_rec d' r = apply_rec d r -> fst r <= length d' ->
                             Recoverable d0 {| data := d'; wal := encs (rs ++ [r]) |}).
    { intros d' E L. apply rec_of_parts.
      - apply Forall_app; split; [exact Hok|exact Hokr].
      - now rewrite replay_nf_app, replay_nf_one, E.
      - apply gok_nf_app. rewrite gok_nf_one, replay_nf_one, E. split; assumption. }
    assert (Cut : apply_sys (apply_sys st (undo_call r)) (WalSetLen (log_size (rev rs)))
                  = {| data := apply_rec d r; wal := encs rs |}).
    { rewrite undo_call_done. cbn [apply_sys data wal st]. f_equal.
      rewrite log_size_rev, log_size_encs, encs_app. apply set_len_prefix. }
    split.
    + intros k j. destruct k as [|[|k]].
      * rewrite crash_cons_0, undo_call_torn. cbn [data wal st].
        destruct (apply_rec_over d r j Hg1) as [E L]. now apply Mid.
      * rewrite crash_cons_S, crash_cons_0, undo_call_done. cbn [apply_torn data wal st].
        destruct (apply_rec_idem d r Hg1) as [E L]. now apply Mid.
      * rewrite !crash_cons_S, Cut. apply Scs.
    + cbn [run_calls fold_left]. fold (run_calls (apply_sys (apply_sys st (undo_call r)) (WalSetLen (log_size (rev rs)))) cs).
      rewrite Cut. exact Rcs.
Qed.

Theorem recovery_restartable d0 st :
  Recoverable d0 st ->
  exists cs, recovery_calls true st = (cs, true) /\
             (forall k j, Recoverable d0 (crash st cs k j)) /\
             run_calls st cs = {| data := d0; wal := [] |}.
Proof.
  intros HR. pose proof HR as (rs & t & Hw & Ht & Hok & Hr & Hg).
  unfold recovery_calls. rewrite Hw, records_encs by assumption. rewrite <- Hw.
  destruct (undo_loop d0 rs (data st) Hok Hr Hg) as (cs & Ecs & Scs & Rcs). cbv zeta in Scs, Rcs.
  rewrite Ecs. rewrite log_size_encs.
  set (rep := if Nat.ltb (length (encs rs)) (length (wal st)) then [WalSetLen (length (encs rs))] else []).
  exists (rep ++ cs ++ [WalSetLen 0]). split; [reflexivity|].
  (* after the repair the log is exactly the records *)
  assert (Rep : run_calls st rep = {| data := data st; wal := encs rs |}).
  { unfold rep. destruct (Nat.ltb_spec (length (encs rs)) (length (wal st))) as [L|L].
    - cbn [run_calls fold_left apply_sys]. f_equal. rewrite Hw. apply set_len_prefix.
    - cbn [run_calls fold_left]. rewrite Hw, app_length in L.
      assert (Z : t = []) by (apply length_zero_nil; lia). subst t. rewrite app_nil_r in Hw.
      destruct st as [dd ww]; cbn [data wal] in *. now rewrite Hw. }
  assert (Fin : Recoverable d0 {| data := d0; wal := [] |}) by apply good'_rec, good'_committed.
  split.
  - intros k j. rewrite crash_app.
    destruct (Nat.ltb_spec k (length rep)) as [K|K].
    + (* the cut is the repair call: a length change is atomic *)
      unfold rep in *. destruct (Nat.ltb (length (encs rs)) (length (wal st))); cbn [length] in K; [|lia].
      assert (k = 0) by lia. subst k. rewrite crash_cons_0. cbn [apply_torn]. exact HR.
    + rewrite Rep, crash_app.
      destruct (Nat.ltb_spec (k - length rep) (length cs)) as [K2|K2]; [apply Scs|].
      rewrite Rcs. destruct (k - length rep - length cs) as [|k3].
      * rewrite crash_cons_0. cbn [apply_torn]. exact Fin.
      * rewrite crash_all by (cbn; lia). cbn [run_calls fold_left apply_sys data wal]. now rewrite set_len_0.
  - rewrite !run_calls_app, Rep, Rcs. cbn [run_calls fold_left apply_sys data wal]. now rewrite set_len_0.
Qed.

(* any number of interrupted recoveries, each cut anywhere *)
Definition interrupted (st : fstate) (cut : nat * nat) : fstate :=
  crash st (fst (recovery_calls true st)) (fst cut) (snd cut).

Theorem interrupted_recoveries d0 cuts : forall st,
  Recoverable d0 st -> Recoverable d0 (fold_left interrupted cuts st).
Proof.
  induction cuts as [|[k j] cuts IH]; intros st HR; cbn [fold_left]; [exact HR|].
  apply IH. unfold interrupted. cbn [fst snd].
  destruct (recovery_restartable d0 st HR) as (cs & E & S & _). rewrite E. apply S.
Qed.

Lemma undo_calls_spec rr : forall d w,
  match undo_calls true rr d with
  | (cs, true) => apply_all_g rr d = Some (data (run_calls {| data := d; wal := w |} cs))
  | (_, false) => apply_all_g rr d = None
  end.
Proof.
  induction rr as [|r rest IH]; intros d w; cbn [undo_calls apply_all_g andb].
  - reflexivity.
  - unfold apply_rec_g. destruct (Nat.ltb (length d) (fst r)); [reflexivity|].
    specialize (IH (apply_rec d r) (set_len w (log_size rest))).
    destruct (undo_calls true rest (apply_rec d r)) as [cs [|]]; [|exact IH].
    rewrite IH. cbn [app run_calls fold_left]. rewrite undo_call_done. reflexivity.
Qed.

Lemma repair_keeps_data st n :
  exists w, run_calls st (if Nat.ltb n (length (wal st)) then [WalSetLen n] else []) = {| data := data st; wal := w |}.
Proof.
  destruct (Nat.ltb n (length (wal st))).
  - exists (set_len (wal st) n). reflexivity.
  - exists (wal st). destruct st; reflexivity.
Qed.

Theorem recovery_calls_spec st :
  match recovery_calls true st with
  | (cs, true) => recover_g walrev_fixed st = Some (run_calls st cs)
  | (_, false) => recover_g walrev_fixed st = None
  end.
Proof.
  unfold recovery_calls, recover_g, replay_g. cbn [w_newest_first walrev_fixed].
  set (rs := records (wal st)).
  destruct (repair_keeps_data st (log_size rs)) as [w Rep].
  pose proof (undo_calls_spec (rev rs) (data st) w) as S.
  destruct (undo_calls true (rev rs) (data st)) as [cs [|]]; [|now rewrite S].
  rewrite S. f_equal. rewrite !run_calls_app, Rep.
  cbn [run_calls fold_left apply_sys]. now rewrite set_len_0.
Qed.

(* not interrupted, the call sequence ends in the state the recovery function returns *)
Theorem recovery_calls_end st cs :
  recovery_calls true st = (cs, true) -> run_calls st cs = recover walrev_fixed st.
Proof.
  intros E. pose proof (recovery_calls_spec st) as S. rewrite E in S. now apply recover_g_some in S.
Qed.

(* the same for the code without guard and without progressive removal (g = false: /repo) *)
Lemma undo_calls_plain rr : forall d w,
  exists cs, undo_calls false rr d = (cs, true) /\
             run_calls {| data := d; wal := w |} cs = {| data := fold_left apply_rec rr d; wal := w |}.
Proof.
  induction rr as [|r rest IH]; intros d w; cbn [undo_calls andb fold_left].
  - exists []. split; reflexivity.
  - destruct (IH (apply_rec d r) w) as (cs & E & R). rewrite E. cbn [app].
    exists (undo_call r :: cs). split; [reflexivity|].
    cbn [run_calls fold_left]. rewrite undo_call_done. exact R.
Qed.

Theorem recovery_calls_plain_end st :
  snd (recovery_calls false st) = true /\
  run_calls st (fst (recovery_calls false st)) = recover walrev_fixed st.
Proof.
  unfold recovery_calls.
  set (rs := records (wal st)).
  destruct (repair_keeps_data st (log_size rs)) as [w Rep].
  destruct (undo_calls_plain (rev rs) (data st) w) as (cs & E & R). rewrite E. cbn [fst snd].
  split; [reflexivity|]. rewrite !run_calls_app, Rep, R.
  cbn [run_calls fold_left apply_sys data wal]. rewrite set_len_0.
  unfold recover, replay. cbn [w_newest_first walrev_fixed]. reflexivity.
Qed.
