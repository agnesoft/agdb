(* UndoBase.v — basic facts used by the rollback proofs (C13): the equality tests as `reflect`,
   a sound boolean permutation check, extensional equality of association lists. *)
From Agdb Require Import Bytes BytesProofs DbValue DbValueEqProofs Graph DbModel AssocProofs.
From Coq Require Import Permutation ZifyBool ZifyNat ZifyN.
Ltac Zify.zify_post_hook ::= Z.div_mod_to_equations.

Lemma dbv_eqb_spec a b : reflect (a = b) (dbv_eqb a b).
Proof. apply iff_reflect. symmetry. apply dbv_eqb_true. Qed.

Lemma dbv_eqb_neq a b : dbv_eqb a b = false <-> a <> b.
Proof. destruct (dbv_eqb_spec a b); split; congruence. Qed.

Lemma dbv_eqb_sym a b : dbv_eqb a b = dbv_eqb b a.
Proof. exact (DbValueProofs.dbv_eqb_sym a b). Qed.

Definition kv_eqb (x y : kv) : bool := dbv_eqb (fst x) (fst y) && dbv_eqb (snd x) (snd y).
Lemma kv_eqb_eq x y : kv_eqb x y = true <-> x = y.
Proof.
  unfold kv_eqb. destruct x, y; cbn [fst snd]. rewrite andb_true_iff, !dbv_eqb_true.
  split; [intros [-> ->] | intros [=]]; auto.
Qed.

Definition vid_eqb (x y : dbvalue * Z) : bool := dbv_eqb (fst x) (fst y) && (snd x =? snd y)%Z.
Lemma vid_eqb_eq x y : vid_eqb x y = true <-> x = y.
Proof.
  unfold vid_eqb. destruct x, y; cbn [fst snd]. rewrite andb_true_iff, dbv_eqb_true, Z.eqb_eq.
  split; [intros [-> ->] | intros [=]]; auto.
Qed.

Section PermCheck.
  Context {A : Type} (eqb : A -> A -> bool) (eqb_eq : forall x y, eqb x y = true <-> x = y).

  Fixpoint remove_one (x : A) (l : list A) : option (list A) :=
    match l with
    | [] => None
    | y :: r => if eqb x y then Some r
                else match remove_one x r with Some r' => Some (y :: r') | None => None end
    end.

  Fixpoint permb (l l' : list A) : bool :=
    match l with
    | [] => match l' with [] => true | _ => false end
    | x :: r => match remove_one x l' with Some l'' => permb r l'' | None => false end
    end.

  Lemma remove_one_perm x l l' : remove_one x l = Some l' -> Permutation l (x :: l').
  Proof.
    revert l'. induction l as [|y r IH]; intros l' H; cbn [remove_one] in H; [discriminate|].
    destruct (eqb x y) eqn:E.
    - apply eqb_eq in E. subst. inversion H. subst. reflexivity.
    - destruct (remove_one x r) eqn:R; [|discriminate]. inversion H. subst.
      rewrite (IH _ eq_refl). apply perm_swap.
  Qed.

  Lemma permb_sound l l' : permb l l' = true -> Permutation l l'.
  Proof.
    revert l'. induction l as [|x r IH]; intros l' H; cbn [permb] in H.
    - destruct l'; [constructor | discriminate].
    - destruct (remove_one x l') eqn:R; [|discriminate].
      apply remove_one_perm in R. rewrite R. constructor. apply IH, H.
  Qed.
End PermCheck.

Lemma eqb_of_reflect {K} (eqb : K -> K -> bool) :
  (forall x y, reflect (x = y) (eqb x y)) -> forall x y, eqb x y = true <-> x = y.
Proof. intros H x y. symmetry. apply reflect_iff, H. Qed.

Section AssocEq.
  Context {K V : Type} (keqb : K -> K -> bool) (keqb_spec : forall x y, reflect (x = y) (keqb x y)).

  Definition aeq (m m' : list (K * V)) : Prop := forall k, alookup keqb m k = alookup keqb m' k.

  Lemma aeq_aremove m m' k : aeq m m' -> aeq (aremove keqb m k) (aremove keqb m' k).
  Proof. intros H k'. rewrite !(alookup_aremove keqb (eqb_of_reflect keqb keqb_spec)), H. reflexivity. Qed.

  Lemma aeq_ainsert m m' k v : aeq m m' -> aeq (snd (ainsert keqb m k v)) (snd (ainsert keqb m' k v)).
  Proof. intros H k'. rewrite !(alookup_ainsert keqb (eqb_of_reflect keqb keqb_spec)), H. reflexivity. Qed.

  Lemma aremove_absent (m : list (K * V)) k : alookup keqb m k = None -> aremove keqb m k = m.
  Proof.
    induction m as [|[k0 v0] r IH]; cbn [alookup aremove]; [reflexivity|].
    destruct (keqb k0 k); [discriminate|]. intros H. rewrite IH; auto.
  Qed.
End AssocEq.
