(* StoredDbProbe.v — the link to C19.  `load_db` reads a table by scanning its
   slots; the CODE finds an alias by PROBING (MapImpl::value = MultiMapImpl::value: from hash(key) mod capacity, step
   +1, stop at an Empty slot / after a full cycle — OpenMap.v).  On every stored table that satisfies the invariant
   C19 proves of every reachable table (`PInv`: len = number of Valid slots, capacity 0 or >= mincap and len <
   capacity, the probe chain — C19_table_refines_multimap), for EVERY hash function, the probing lookup returns exactly
   the model's lookup: DbImpl::db_id(alias) = imap_value, DbImpl::alias(id) = imap_key on the reloaded database.
   (C19_lookup_finds_exactly_stored + the distinct keys of the alias lists.)

   Not stated for the id tables of the indexes: C19's theorems need a key equality test that decides Leibniz equality;
   for DbValue `dbv_eqb` does so on canonical values only (DbValueEqProofs.dbv_eqb_eq). *)
From Coq Require Import List NArith ZArith Bool Permutation.
Import ListNotations.
From Agdb Require Import Bytes BytesProofs DbModel Collections CollMapHist OpenMap OpenMapSpec OpenMapRefineBase
  OpenMapRefineStep OpenMapRefine StoredDb StoredDbRep StoredDbLoad.

Section Probe.
  Variables K V : Type.
  Variable keqb : K -> K -> bool.
  Variable veqb : V -> V -> bool.
  Variable h : K -> N.
  Variable mincap : nat.
  Variable rv : om_revision.
  Hypothesis keqb_eq : forall a b, keqb a b = true <-> a = b.
  Hypothesis veqb_eq : forall a b, veqb a b = true <-> a = b.
  Hypothesis Hfin : fix_iter_finished rv = true.

  (* the loader's slot scan = MapIterator over the table the interface stands for *)
  Lemma sd_entries_iter_all ss ks vs : sd_entries ss ks vs = iter_all K V {| slots := ct_slots K V ss ks vs; len := 0 |}.
  Proof.
    unfold iter_all. cbn [slots]. revert ks vs. induction ss as [|s ss IH]; intros [|k ks] [|v vs]; cbn [sd_entries ct_slots flat_map]; try reflexivity.
    rewrite IH. destruct s; reflexivity.
  Qed.

  Lemma sd_table_entries_iter_all (t : cm_table K V) : sd_table_entries t = iter_all K V (ct_omap K V t).
  Proof. unfold sd_table_entries. rewrite sd_entries_iter_all. reflexivity. Qed.

  Lemma sd_mm_values_nodup (l : list (K * V)) k : NoDup (map fst l) ->
    mm_values K V keqb k l = match alookup keqb l k with Some v => [v] | None => [] end.
  Proof.
    unfold mm_values. induction l as [|[k' v'] r IH]; cbn [filter map fst alookup]; [reflexivity|].
    intros ND. inversion ND as [|? ? Hn Hr]; subst. destruct (keqb k' k) eqn:E.
    - cbn [map snd]. f_equal. apply keqb_eq in E. subst k'.
      rewrite (IH Hr). destruct (alookup keqb r k) as [v|] eqn:Ea; [|reflexivity].
      exfalso. apply Hn. apply in_map_iff. exists (k, v). split; [reflexivity|]. apply (AssocProofs.alookup_in keqb keqb_eq). exact Ea.
    - apply IH. exact Hr.
  Qed.

  Theorem sd_probe_lookup (t : cm_table K V) (l : list (K * V)) k :
    PInv K V h mincap (ct_omap K V t) -> Permutation (sd_table_entries t) l -> NoDup (map fst l) ->
    value K V keqb h (ct_omap K V t) k = Done (alookup keqb l k).
  Proof.
    intros HP Hperm ND.
    destruct (lookup_finds_exactly_stored K V keqb veqb h mincap rv keqb_eq veqb_eq Hfin (ct_omap K V t) k HP)
      as (l0 & _ & Hv & HP0 & _).
    rewrite Hv. f_equal.
    rewrite <- sd_table_entries_iter_all in HP0.
    assert (HP1 : Permutation l0 (mm_values K V keqb k l)).
    { eapply Permutation_trans; [exact HP0|]. unfold mm_values. apply Permutation_map. apply Permutation_filter. exact Hperm. }
    rewrite (sd_mm_values_nodup l k ND) in HP1.
    destruct (alookup keqb l k) as [v|].
    - apply Permutation_sym, Permutation_length_1_inv in HP1. subst l0. reflexivity.
    - apply Permutation_sym, Permutation_nil in HP1. subst l0. reflexivity.
  Qed.
End Probe.

(* the alias lookups of the code on a stored database *)
Theorem sd_alias_lookups_by_probing (hs : bytes -> N) (hi : Z -> N) (mincap : nat) (rv : om_revision) g root d w :
  fix_iter_finished rv = true ->
  stored_db_w g root d w ->
  PInv bytes Z hs mincap (ct_omap bytes Z (mw_t (sw_a1 w))) ->
  PInv Z bytes hi mincap (ct_omap Z bytes (mw_t (sw_a2 w))) ->
  (forall a, value bytes Z bytes_eqb hs (ct_omap bytes Z (mw_t (sw_a1 w))) a = Done (imap_value (aliases d) a)) /\
  (forall i, value Z bytes Z.eqb hi (ct_omap Z bytes (mw_t (sw_a2 w))) i = Done (imap_key (aliases d) i)).
Proof.
  intros Hfin H P1 P2. destruct H as [_ _ _ _ _ (_ & _ & Hp1) Hk1 (_ & _ & Hp2) Hk2 _ _ _ _ _ _ _]. split.
  - intros a. unfold imap_value. eapply (sd_probe_lookup bytes Z bytes_eqb Z.eqb hs mincap rv bytes_eqb_eq Z.eqb_eq Hfin); eassumption.
  - intros i. unfold imap_key. eapply (sd_probe_lookup Z bytes Z.eqb bytes_eqb hi mincap rv Z.eqb_eq bytes_eqb_eq Hfin); eassumption.
Qed.
