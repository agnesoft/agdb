(* GraphProofs.v — the graph of Graph.v refines an abstract directed multigraph:
   classification of slots, well-formedness of the empty graph, and insert_node / insert_edge as
   simulation steps (the removals are in GraphRemove.v). *)
From Agdb Require Import Bytes Graph GraphArr GraphSim GraphOps.
From Coq Require Import ZifyBool ZifyNat ZifyN.
Ltac Zify.zify_post_hook ::= Z.div_mod_to_equations.
Open Scope Z_scope.

(* validity predicates only look at the slot |i| *)

Lemma valid_index_abs g i : valid_index g (Z.abs i) = valid_index g i.
Proof.
  unfold valid_index, fmeta. rewrite get_abs, Z.abs_involutive.
  destruct (Z.eqb_spec (Z.abs i) 0); destruct (Z.eqb_spec i 0); try lia; reflexivity.
Qed.

Lemma is_node_abs g i : is_node g (Z.abs i) = is_node g i.
Proof. unfold is_node, from. rewrite valid_index_abs, get_abs. reflexivity. Qed.

Lemma is_edge_abs g i : is_edge g (Z.abs i) = is_edge g i.
Proof. unfold is_edge, from. rewrite valid_index_abs, get_abs. reflexivity. Qed.

Section Class.
  Variables (g : graph) (nodes : list Z) (PO PI : Z -> Prop) (ER EO EI : list aedge) (fl : list Z) (cnt : Z).
  Hypothesis RS : rsim g nodes PO PI ER EO EI fl cnt.

  Let R := proj2 RS.
  Let B := r_base _ _ _ _ _ _ _ _ _ _ _ _ _ R.
  Let HO := r_out _ _ _ _ _ _ _ _ _ _ _ _ _ R.
  Let FS := r_free _ _ _ _ _ _ _ _ _ _ _ _ _ R.

  Lemma class_node m : In m nodes -> is_node g m = true /\ is_edge g m = false.
  Proof.
    intros Hm. pose proof (b_nodes_range _ _ _ B m Hm) as Hr.
    destruct (h_node _ _ _ _ _ _ _ HO m Hm) as [H1 H2].
    unfold is_node, is_edge, valid_index. lia.
  Qed.

  Lemma class_edge x : In x ER -> is_edge g (eslot x) = true /\ is_node g (eslot x) = false.
  Proof.
    intros Hx. pose proof (b_ER_range _ _ _ B x Hx) as Hr.
    destruct (h_rec _ _ _ _ _ _ _ HO x Hx) as [H1 H2].
    destruct (b_ends _ _ _ B x Hx) as [Hs _]. pose proof (b_nodes_range _ _ _ B _ Hs) as Hsr.
    unfold is_node, is_edge, valid_index. lia.
  Qed.

  Lemma class_unused s : 0 < s -> ~ In s nodes -> ~ In s (map eslot ER) -> valid_index g s = false.
  Proof.
    intros Hs Ha Hb. unfold valid_index.
    destruct (Z.ltb_spec (Z.abs s) (capacity g)) as [Hc|Hc].
    - destruct (f_unused _ _ _ _ _ _ _ _ _ FS s) as [H1 _]; try assumption; lia.
    - rewrite Bool.andb_false_r. reflexivity.
  Qed.

  (* a slot is a node, an edge record, or not valid *)
  Lemma class_cases s :
    0 <= s ->
    (In s nodes /\ is_edge g s = false) \/ (In s (map eslot ER) /\ is_node g s = false) \/ valid_index g s = false.
  Proof.
    intros Hs. destruct (In_dec Z.eq_dec s nodes) as [Hi|Hi]; [left; split; [assumption|apply class_node, Hi]|].
    destruct (In_dec Z.eq_dec s (map eslot ER)) as [He|He]; right; [left|right].
    - split; [assumption|]. apply in_map_iff in He. destruct He as (x & <- & Hx). apply class_edge, Hx.
    - destruct (Z.eq_dec s 0) as [->|]; [reflexivity|]. apply class_unused; [lia|assumption..].
  Qed.

  Lemma is_node_iff j : is_node g j = true <-> In (Z.abs j) nodes.
  Proof.
    rewrite <- is_node_abs. split; [|apply class_node]. intros H.
    destruct (class_cases (Z.abs j) (Z.abs_nonneg j)) as [[Hi _]|[[_ Hn]|Hv]]; [assumption|congruence|].
    unfold is_node in H. rewrite Hv in H. discriminate.
  Qed.

  Lemma is_edge_iff j : is_edge g j = true <-> In (Z.abs j) (map eslot ER).
  Proof.
    rewrite <- is_edge_abs. split.
    - intros H. destruct (class_cases (Z.abs j) (Z.abs_nonneg j)) as [[_ Hn]|[[Hi _]|Hv]]; [congruence|assumption|].
      unfold is_edge in H. rewrite Hv in H. discriminate.
    - intros H. apply in_map_iff in H. destruct H as (x & <- & Hx). apply class_edge, Hx.
  Qed.

  (* endpoints of an edge record, read from the arrays *)
  Lemma edge_ends x : In x ER -> edge_from g (- eslot x) = esrc x /\ edge_to g (- eslot x) = etgt x.
  Proof.
    intros Hx. destruct (h_rec _ _ _ _ _ _ _ HO x Hx) as [H1 _].
    destruct (h_rec _ _ _ _ _ _ _ (r_in _ _ _ _ _ _ _ _ _ _ _ _ _ R) x Hx) as [H2 _].
    unfold edge_from, edge_to, from, to in *. rewrite !get_neg. lia.
  Qed.
End Class.

Definition a_empty : agraph := {| a_nodes := []; a_edges := [] |}.

Lemma sim_new : sim graph_new a_empty [].
Proof.
  (* every component speaks of empty lists, or of slot 0 of the one-slot arrays *)
  split; [repeat split|]. cbn [a_nodes a_edges a_empty length].
  constructor; [cbn; lia|constructor; cbn [map]; first [intros ? []|constructor]..|].
  constructor; try reflexivity; [constructor|intros ? []|cbn; lia..].
Qed.

Lemma wf_new : wf graph_new.
Proof. exists a_empty, []. exact sim_new. Qed.

Lemma insert_node_sim g a fl :
  sim g a fl ->
  let '(x, g') := insert_node g in
  0 < x /\ ~ In x (a_nodes a) /\ ~ In x (map eslot (a_edges a)) /\
  (x = capacity g \/ In x fl) /\
  sim g' {| a_nodes := x :: a_nodes a; a_edges := a_edges a |} (tl fl).
Proof.
  intros HS. unfold insert_node. destruct (get_free_index g) as [x g1] eqn:E.
  destruct (alloc_spec HS x g1 E) as (H1 & H2 & H3 & H4 & S1).
  repeat (split; [assumption|]).
  rewrite (node_count_spec S1). unfold sim. cbn [a_nodes a_edges length].
  rewrite Nat2Z.inj_succ. apply (cnt_spec S1).
Qed.

Lemma insert_edge_sim g a fl f t :
  sim g a fl -> In f (a_nodes a) -> In t (a_nodes a) ->
  exists x g', insert_edge g f t = Some (- x, g') /\
    0 < x /\ ~ In x (a_nodes a) /\ ~ In x (map eslot (a_edges a)) /\
    (x = capacity g \/ In x fl) /\
    sim g' {| a_nodes := a_nodes a; a_edges := (x, (f, t)) :: a_edges a |} (tl fl).
Proof.
  intros HS Hf Ht. unfold insert_edge.
  pose proof (rsim_node_range HS f Hf). pose proof (rsim_node_range HS t Ht).
  rewrite (proj2 (is_node_iff _ _ _ _ _ _ _ _ _ HS f)), (proj2 (is_node_iff _ _ _ _ _ _ _ _ _ HS t))
    by (rewrite Z.abs_eq by lia; assumption).
  cbn [andb]. destruct (get_free_index g) as [x g1] eqn:E.
  destruct (alloc_spec HS x g1 E) as (H1 & H2 & H3 & H4 & S1).
  exists x. eexists. split; [reflexivity|]. repeat (split; [assumption|]).
  assert (Hiso : forall y, In y (a_edges a) -> esrc y <> x /\ etgt y <> x).
  { intros y Hy. destruct (rsim_ends HS y Hy). split; intros <-; contradiction. }
  pose proof (node_to_rec_spec _ _ _ _ _ _ _ _ _ x f t S1 Hf Ht Hiso) as S2.
  set (e := (x, (f, t)) : aedge) in *.
  assert (He : In e (e :: a_edges a)) by (left; reflexivity).
  exact (link_in_spec (link_out_spec S2 e He H3) e He H3).
Qed.

Lemma insert_edge_none g a fl f t :
  sim g a fl -> 0 <= f -> 0 <= t -> ~ (In f (a_nodes a) /\ In t (a_nodes a)) ->
  insert_edge g f t = None.
Proof.
  intros HS Hf Ht Hn. unfold insert_edge.
  destruct (is_node g f) eqn:Ef; [|reflexivity].
  destruct (is_node g t) eqn:Et; [|reflexivity].
  exfalso. apply Hn.
  apply (is_node_iff _ _ _ _ _ _ _ _ _ HS) in Ef. apply (is_node_iff _ _ _ _ _ _ _ _ _ HS) in Et.
  rewrite Z.abs_eq in Ef, Et by assumption. split; assumption.
Qed.
