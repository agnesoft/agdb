(* UndoAlias.v — C13, the alias map (IndexedMapImpl<String, DbId> as two association lists):
   function-level specification of imap_insert / imap_remove_key under the bijection invariant,
   congruence for extensional equality, and the inverse lemmas used by rollback. *)
From Agdb Require Import Bytes BytesProofs DbValue Graph DbModel ImapProofs UndoBase UndoObs.
From Coq Require Import Permutation ZifyBool ZifyNat ZifyN.
Ltac Zify.zify_post_hook ::= Z.div_mod_to_equations.
Open Scope Z_scope.

(* the two directions of the map are inverse to each other *)
Definition alias_ok (m : imap) : Prop :=
  forall a i, imap_value m a = Some i <-> imap_key m i = Some a.

Definition alias_eq (m m' : imap) : Prop :=
  (forall a, imap_value m a = imap_value m' a) /\ (forall i, imap_key m i = imap_key m' i).

Lemma alias_eq_refl m : alias_eq m m.
Proof. split; reflexivity. Qed.
Lemma alias_eq_sym m m' : alias_eq m m' -> alias_eq m' m.
Proof. intros [H1 H2]. split; intros; symmetry; auto. Qed.
Lemma alias_eq_trans m1 m2 m3 : alias_eq m1 m2 -> alias_eq m2 m3 -> alias_eq m1 m3.
Proof. intros [H1 H2] [H3 H4]. split; intros; [rewrite H1; apply H3 | rewrite H2; apply H4]. Qed.

Lemma alias_ok_eq m m' : alias_eq m m' -> alias_ok m -> alias_ok m'.
Proof. intros [H1 H2] Hok a i. rewrite <- H1, <- H2. apply Hok. Qed.

Lemma alias_ok_empty : alias_ok imap_empty.
Proof. intros a i. cbn. split; discriminate. Qed.

(* ---- function-level specification: each direction of the new map in terms of the same
        direction of the old one (ImapProofs states them through the other direction) ---- *)

Lemma imap_remove_value m a a' :
  imap_value (imap_remove_key m a) a' = if bytes_eqb a a' then None else imap_value m a'.
Proof. apply ImapProofs.imap_remove_key_value. Qed.

Lemma imap_remove_key_key m a i :
  alias_ok m ->
  imap_key (imap_remove_key m a) i =
  match imap_key m i with Some b => if bytes_eqb b a then None else Some b | None => None end.
Proof.
  intros Hok. rewrite ImapProofs.imap_remove_key_key.
  destruct (imap_key m i) as [b|] eqn:Eb.
  - destruct (bytes_eqb_spec b a) as [->|N].
    + apply Hok in Eb. rewrite Eb, Z.eqb_refl. reflexivity.
    + destruct (imap_value m a) as [v|] eqn:Ev; [|reflexivity].
      destruct (Z.eqb_spec v i) as [->|]; [|reflexivity]. apply Hok in Ev. congruence.
  - destruct (imap_value m a) as [v|]; [destruct (v =? i)|]; reflexivity.
Qed.

Lemma imap_insert_key m a i i' :
  alias_ok m ->
  imap_key (imap_insert m a i) i' =
  if i =? i' then Some a
  else match imap_key m i' with Some b => if bytes_eqb b a then None else Some b | None => None end.
Proof.
  intros Hok. rewrite ImapProofs.imap_insert_key, <- ImapProofs.imap_remove_key_key.
  rewrite imap_remove_key_key by assumption. reflexivity.
Qed.

Lemma imap_insert_value m a i a' :
  alias_ok m ->
  imap_value (imap_insert m a i) a' =
  if bytes_eqb a a' then Some i
  else match imap_value m a' with Some j => if j =? i then None else Some j | None => None end.
Proof.
  intros Hok. rewrite imap_insert_value_raw. unfold insert_old_k. cbv zeta.
  destruct (bytes_eqb_spec a a') as [->|Na].
  - (* the displaced alias of i, if any, is not a' itself *)
    destruct (imap_value m a') as [v|] eqn:Ev.
    + destruct (Z.eqb_spec v i) as [->|Nv]; [reflexivity|].
      destruct (imap_key m i) as [k|] eqn:Ek; [|reflexivity].
      destruct (bytes_eqb_spec k a') as [->|]; [|reflexivity]. apply Hok in Ek. congruence.
    + destruct (imap_key m i) as [k|] eqn:Ek; [|reflexivity].
      destruct (bytes_eqb_spec k a') as [->|]; [|reflexivity]. apply Hok in Ek. congruence.
  - (* a' loses its id exactly when that id is i *)
    assert (E : match imap_key m i with Some k => if bytes_eqb k a' then None else imap_value m a' | None => imap_value m a' end
                = match imap_value m a' with Some j => if j =? i then None else Some j | None => None end).
    { destruct (imap_value m a') as [j|] eqn:Ej.
      - destruct (Z.eqb_spec j i) as [->|Nj].
        + apply Hok in Ej. rewrite Ej, bytes_eqb_refl. reflexivity.
        + destruct (imap_key m i) as [k|] eqn:Ek; [|reflexivity].
          destruct (bytes_eqb_spec k a') as [->|]; [|reflexivity]. apply Hok in Ek. congruence.
      - destruct (imap_key m i) as [k|]; [destruct (bytes_eqb k a')|]; reflexivity. }
    destruct (imap_value m a) as [v|] eqn:Ev; [destruct (Z.eqb_spec v i) as [->|]|]; try exact E.
    (* a already names i: nothing is displaced, and no other alias names i *)
    destruct (imap_value m a') as [j|] eqn:Ej; [|reflexivity].
    destruct (Z.eqb_spec j i) as [->|]; [|reflexivity].
    apply Hok in Ev. apply Hok in Ej. congruence.
Qed.

Lemma alias_ok_remove m a : alias_ok m -> alias_ok (imap_remove_key m a).
Proof.
  intros Hok a' i. rewrite imap_remove_value, imap_remove_key_key by assumption.
  destruct (bytes_eqb_spec a a') as [->|N].
  - split; [discriminate|]. destruct (imap_key m i) as [b|] eqn:Eb; [|discriminate].
    destruct (bytes_eqb_spec b a'); [discriminate|]. congruence.
  - rewrite (Hok a' i). destruct (imap_key m i) as [b|]; [|tauto].
    destruct (bytes_eqb_spec b a) as [->|]; [|tauto]. split; [congruence | discriminate].
Qed.

Lemma alias_ok_insert m a i : alias_ok m -> alias_ok (imap_insert m a i).
Proof.
  intros Hok a' i'. rewrite imap_insert_value, imap_insert_key by assumption.
  destruct (bytes_eqb_spec a a') as [->|Na], (Z.eqb_spec i i') as [->|Ni].
  - tauto.
  - split; [congruence|]. destruct (imap_key m i') as [b|]; [|discriminate].
    destruct (bytes_eqb_spec b a'); [discriminate | congruence].
  - split; [|congruence]. destruct (imap_value m a') as [j|]; [|discriminate].
    destruct (Z.eqb_spec j i'); [discriminate | congruence].
  - assert (HL : match imap_value m a' with Some j => if j =? i then None else Some j | None => None end = Some i'
                 <-> imap_value m a' = Some i').
    { destruct (imap_value m a') as [j|]; [|tauto].
      destruct (Z.eqb_spec j i) as [->|]; [|tauto]. split; [discriminate | congruence]. }
    assert (HR : match imap_key m i' with Some b => if bytes_eqb b a then None else Some b | None => None end = Some a'
                 <-> imap_key m i' = Some a').
    { destruct (imap_key m i') as [b|]; [|tauto].
      destruct (bytes_eqb_spec b a) as [->|]; [|tauto]. split; [discriminate | congruence]. }
    rewrite HL, HR. apply Hok.
Qed.

Lemma alias_eq_remove m m' a :
  alias_ok m -> alias_ok m' -> alias_eq m m' -> alias_eq (imap_remove_key m a) (imap_remove_key m' a).
Proof.
  intros Hok Hok' [H1 H2]. split; intros.
  - rewrite !imap_remove_value, H1. reflexivity.
  - rewrite !imap_remove_key_key, H2 by assumption. reflexivity.
Qed.

Lemma alias_eq_insert m m' a i :
  alias_ok m -> alias_ok m' -> alias_eq m m' -> alias_eq (imap_insert m a i) (imap_insert m' a i).
Proof.
  intros Hok Hok' [H1 H2]. split; intros.
  - rewrite !imap_insert_value, H1 by assumption. reflexivity.
  - rewrite !imap_insert_key, H2 by assumption. reflexivity.
Qed.

Lemma alias_remove_twice m a : alias_ok m -> alias_eq (imap_remove_key (imap_remove_key m a) a) (imap_remove_key m a).
Proof.
  intros Hok. pose proof (alias_ok_remove m a Hok) as Hok1. split; intros.
  - rewrite !imap_remove_value. destruct (bytes_eqb a a0); reflexivity.
  - rewrite !imap_remove_key_key by assumption.
    destruct (imap_key m i) as [b|]; [|reflexivity].
    destruct (bytes_eqb b a) eqn:E; [reflexivity | rewrite E; reflexivity].
Qed.

Lemma alias_insert_then_remove m a i :
  alias_ok m -> imap_value m a = None -> imap_key m i = None ->
  alias_eq (imap_remove_key (imap_insert m a i) a) m.
Proof.
  intros Hok Ha Hi. pose proof (alias_ok_insert m a i Hok) as Hok1. split; intros.
  - rewrite imap_remove_value, imap_insert_value by assumption.
    destruct (bytes_eqb_spec a a0) as [->|]; [auto|].
    destruct (imap_value m a0) as [j|] eqn:Ej; [|reflexivity].
    destruct (Z.eqb_spec j i) as [->|]; [|reflexivity]. apply Hok in Ej. congruence.
  - rewrite imap_remove_key_key, imap_insert_key by assumption.
    destruct (Z.eqb_spec i i0) as [->|].
    + rewrite bytes_eqb_refl. auto.
    + destruct (imap_key m i0) as [b|] eqn:Eb; [|reflexivity].
      destruct (bytes_eqb_spec b a) as [->|E]; [apply Hok in Eb; congruence|].
      destruct (bytes_eqb_spec b a); [contradiction | reflexivity].
Qed.

Lemma alias_remove_then_insert m a i :
  alias_ok m -> imap_value m a = Some i ->
  alias_eq (imap_insert (imap_remove_key m a) a i) m.
Proof.
  intros Hok Ha. pose proof (alias_ok_remove m a Hok) as Hok1.
  pose proof (proj1 (Hok a i) Ha) as Hi. split; intros.
  - rewrite imap_insert_value, imap_remove_value by assumption.
    destruct (bytes_eqb_spec a a0) as [->|N]; [auto|].
    destruct (imap_value m a0) as [j|] eqn:Ej; [|reflexivity].
    destruct (Z.eqb_spec j i) as [->|]; [|reflexivity]. apply Hok in Ej. congruence.
  - rewrite imap_insert_key, imap_remove_key_key by assumption.
    destruct (Z.eqb_spec i i0) as [->|N]; [auto|].
    destruct (imap_key m i0) as [b|] eqn:Eb; [|reflexivity].
    destruct (bytes_eqb_spec b a) as [->|]; [apply Hok in Eb; congruence|].
    destruct (bytes_eqb_spec b a); [contradiction | reflexivity].
Qed.
