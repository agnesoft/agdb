(* C05 — Reopening and maintenance operations preserve the database.
   Statements, each proved in a few lines from the theorems of theories/ (storage layer: Storage*.v, FileWalProofs.v;
   collections: Coll*.v; database: StoredDb*.v); the samples are evaluated here.

   FULL STATEMENT: after any history of queries, closing and reopening, optimizing, shrinking to fit, backing up,
   copying, renaming, or reopening the file with a different file-backed variant yields a database on which every
   query returns exactly the same result as before (ids, result order, properties, aliases, indexes).
   PROVED PART (storage layer, L1): on every reachable storage state (`tiles s rg`: the file is tiled by the
   regions rg) backup + open, drop + open of a committed file and optimize_storage preserve the map
   index |-> bytes of live records EXACTLY (optimize only drops the free regions), and the byte-level reopen of a
   cleanly closed file is the identity (C01 with an empty log).
   L2 (the collection sections): every storage-backed collection, for every history with reloads and maintenance.
   L3 (the database sections): the WHOLE database as a relation `stored_db` over the record map, assembled from the L2
   invariants; a stored database LOADS to itself (C05_db_reload), maintenance of the storage keeps it stored and the
   loaded database identical (C05_db_maintenance), and every order-independent read-only query returns the same
   result afterwards (C05_db_queries_after_reopen).
   MUTATIONS.  The statement that would make C05 a theorem in full is

     C05_db_operations_preserve_stored_db :
       forall every DbImpl operation op (insert_node, insert_edge, insert_alias, insert_key_value, insert_index,
       remove_.., ... — db.rs written against GraphImpl / MultiMapImpl / DbKeyValues / DbIndexes over the storage),
         stored_db (hp sp) 1 d -> cwp fl (the program of op over the storage-backed collections) sp
           (fun r sp' => stored_db (hp sp') 1 (DbModel.op d) /\ r = the model's result)

   i.e. the simulation of db.rs's mutations: the state the code leaves in the storage after each operation represents
   the state DbModel.v computes ("after any history of queries").  With the operations modelled as programs over the
   storage (theories/StoredDbOps.v) it IS a theorem for
     - insert_node, insert_edge, reserve_key_value_capacity, insert_key_value, insert_or_replace_key_value on keys
       without an index, GraphImpl::remove_edge, remove_node of a node without edges (C05_db_.._preserves_stored_db;
       every history of the first five on the storage model: C05_db_core_operations_preserve_stored_db_partial), the
       graph side conditions being consequences of C08's wf and a capacity below 2^60
       (C05_db_graph_side_condition_from_wf, C05_db_edge_side_conditions_from_wf);
     - the queries built on them — insert nodes, insert values, insert edge, remove an id — each as one transaction of
       `exec` (C05_db_exec_..), and every history of such queries, also followed by maintenance and reload
       (C05_db_covered_histories_.., C05_db_covered2_histories_..);
     - insert_new_alias: MapImpl::insert over the two stored alias tables with the grow and the in-place rehash
       (C05_db_insert_new_alias_..), C19's invariant of the stored tables being an explicit hypothesis.
   It is NOT a theorem (hence the property stays partial) for: aliases inside queries (insertion with aliases, insert /
   remove aliases, removal of an aliased node), indexes (insert / remove index, any indexed key), cascading removals
   (a node with edges), multi-element queries, failing queries other than the rejected edge insertion (rollback),
   transactions of several queries, remove values, shrink_to_fit.  Each section below names the side conditions of
   its theorems; `_partial` in a name marks a theorem that covers a part of the statement above.
   The full statement is checked on every run: the extracted loader on the raw records of real database files against the reopened
   database, and each maintenance operation at random points of generated histories on DbFile, Db and the DbAny kinds
   with the full ORDERED dump plus a fixed battery of searches (result order included) before and after, the history
   continuing on the maintained database side by side with the in-memory one. *)
From Agdb Require Import FileWal FileWalProofs.
From Agdb Require Import Bytes Records RecordsProofs RecordsTableProofs Storage StorageSpec
  StorageLayout StorageWp StorageOps StorageOps2 StorageRefine StorageReopen StorageOptimize StorageProofs StorageSim.
Open Scope N_scope.

Theorem C05_storage_maintenance_partial :
  forall ops, canon ops -> forall s rg, tiles s rg ->
  (* backup + open *)
  (snd (reopen_copy cdata ops s) = ROk tt /\ tiles (fst (reopen_copy cdata ops s)) rg) /\
  (* drop + open *)
  (tx s = 0 -> dur (sdata s) = cur (sdata s) ->
   snd (reopen cdata ops s) = ROk tt /\ tiles (fst (reopen cdata ops s)) rg) /\
  (* optimize *)
  (snd (optimize_storage cdata ops s) = RPanic \/
   (snd (optimize_storage cdata ops s) = ROk tt /\ tiles (fst (optimize_storage cdata ops s)) (lmap rg) /\
    forall j, j <> 0 -> m_get (lmap rg) j = m_get rg j)).
Proof. exact storage_maintenance. Qed.
Print Assumptions C05_storage_maintenance_partial.

(* the byte level: opening a cleanly closed file (empty recovery log) changes nothing *)
Theorem C05_clean_reopen_identity :
  forall d : bytes, FileWal.recover walrev_fixed {| FileWal.data := d; FileWal.wal := [] |} = {| FileWal.data := d; FileWal.wal := [] |}.
Proof. intros d. reflexivity. Qed.
Print Assumptions C05_clean_reopen_identity.

(* ... also with the position guard of apply_wal_record (recover_g; None = error) *)
Theorem C05_clean_reopen_identity_guarded :
  forall d : bytes, FileWal.recover_g walrev_fixed {| FileWal.data := d; FileWal.wal := [] |} = Some {| FileWal.data := d; FileWal.wal := [] |}.
Proof. intros d. reflexivity. Qed.
Print Assumptions C05_clean_reopen_identity_guarded.

(* ======================= the collection layer (L2): storage-backed vectors =======================
   Model: theories/Collections.v — vec.rs line by line as PROGRAMS over the storage interface (cprog: a tree
   of Storage<D> calls branching on the storage's answers).  `cwp fl p sp Q` (CollWp.v): for every sequence of
   answers the abstract record map of C04 (StorageSpec.spec_step; free only in the u64 index an insert returns)
   accepts, p does not die and ends with a result and a map state satisfying Q.  `cwp_sound` transfers every
   cwp statement to the model of storage.rs over a canonical byte store through C04_step_refines — so nothing
   is assumed of the storage that C04 did not prove (C05_vec_history_on_storage_* below are such transfers).

   vrep g h slots l   (CollVec.v) the representation invariant: the record g(index h) is
                      le64 (len h) ++ concat slots ++ spare  (the spare capacity bytes are UNCONSTRAINED),
                      slot i represents l[i] (for String: the slot is the index of a record le64 len ++ utf8 that
                      the slot owns), len h = |l| <= capacity h, the index of the vector and the records owned by
                      its slots are pairwise distinct
   frame g g' F F'    the exact footprint change: records outside F and F' are untouched, records entering
                      the footprint were free, records leaving it are freed (no leaks)
   elem_law E         what is required of an element class (VecValue); proved for u64, i64, n raw inline bytes,
                      MapValueState, String (CollElems.v) *)
From Agdb Require Import Collections CollWp CollBytes CollVecBase CollVecOps CollVec CollElems CollVecHist.

(* the reload: on every state satisfying the invariant, DbVec::from_storage(index) succeeds and returns a handle
   with the same index and length for which the SAME slots represent the SAME list (its capacity is recomputed
   from the record size — it over-counts by 8 / size elements — and is only required to be >= len) *)
Theorem C05_vec_reload :
  forall (T : Type) (E : cv_elem T) (L : elem_law E) (fl : bool) h slots l sp (Q : cres cv_vec -> spec -> Prop),
    vrep T E L (hp sp) h slots l ->
    (forall h', vrep T E L (hp sp) h' slots l -> cv_index h' = cv_index h -> cv_len h' = cv_len h -> Q (CrOk h') sp) ->
    cwp fl (cv_from_storage T E (cv_index h)) sp Q.
Proof. exact cv_from_storage_spec. Qed.
Print Assumptions C05_vec_reload.

(* EVERY history (no bound): push, replace, remove, swap, resize, reserve, shrink_to_fit, value, iteration, len,
   interleaved at will with reloads (VoReload: the handle is dropped and rebuilt by from_storage) and with
   optimize_storage / drop + open / backup + open of the storage underneath (VoMaint) — started in a state
   satisfying the invariant with no transaction open, with representable values (op_ok) and a payload
   8 + size * len that stays a u64 (ops_ok) — yields exactly the observations of the plain list `cl_run`, in which
   reload and maintenance do nothing: a reloaded vector has the same length, the same elements, and every later
   operation behaves identically.  At the end the invariant holds for the final list, no transaction is open, and
   the history touched exactly its footprint (frame: no other record of the storage is read as changed, none is
   leaked).  Errors: only `Index out of bounds`, exactly when the list operation is out of range. *)
Theorem C05_vec_history :
  forall (T : Type) (E : cv_elem T) (L : elem_law E) (fl : bool) ops h slots l sp
         (Q : cres (cv_vec * list (cv_obs T)) -> spec -> Prop),
    vrep T E L (hp sp) h slots l -> sdepth sp = 0 -> ops_ok T E L l ops ->
    (forall h' slots' sp', vrep T E L (hp sp') h' slots' (fst (cl_run l ops)) -> cv_index h' = cv_index h -> sdepth sp' = 0 ->
        frame (hp sp) (hp sp') (foot T E L h slots) (foot T E L h' slots') -> Q (CrOk (h', snd (cl_run l ops))) sp') ->
    cwp fl (cv_run T E h ops) sp Q.
Proof. exact cv_run_spec. Qed.
Print Assumptions C05_vec_history.

(* the same on the model of storage.rs itself (C04), file-like and memory-like, from a fresh storage: DbVec::new
   followed by any history either dies by a panic of the storage (a request beyond 2^64 bytes) or returns the
   list's observations, in a storage state that refines an abstract map in which the invariant holds *)
Theorem C05_vec_history_on_storage_u64 :
  forall (ops : store_ops cdata) (fl : bool), kind ops fl ->
  forall l : list (cv_op N), ops_ok N ce_u64 law_u64 [] l ->
    let r := cp_run (st_step cdata ops) (h <~ cv_new ;; cv_run N ce_u64 h l) s_init in
    snd r = CrDead \/
    exists h' sp' slots', snd r = CrOk (h', snd (cl_run [] l)) /\ Rel (fst r) sp' /\
                          vrep N ce_u64 law_u64 (hp sp') h' slots' (fst (cl_run [] l)).
Proof. exact (cv_history_on_storage N ce_u64 law_u64). Qed.
Print Assumptions C05_vec_history_on_storage_u64.

Theorem C05_vec_history_on_storage_i64 :
  forall (ops : store_ops cdata) (fl : bool), kind ops fl ->
  forall l : list (cv_op Z), ops_ok Z ce_i64 law_i64 [] l ->
    let r := cp_run (st_step cdata ops) (h <~ cv_new ;; cv_run Z ce_i64 h l) s_init in
    snd r = CrDead \/
    exists h' sp' slots', snd r = CrOk (h', snd (cl_run [] l)) /\ Rel (fst r) sp' /\
                          vrep Z ce_i64 law_i64 (hp sp') h' slots' (fst (cl_run [] l)).
Proof. exact (cv_history_on_storage Z ce_i64 law_i64). Qed.
Print Assumptions C05_vec_history_on_storage_i64.

(* String elements live out of line (one record each, owned by the slot) *)
Theorem C05_vec_history_on_storage_string :
  forall (ops : store_ops cdata) (fl : bool), kind ops fl ->
  forall l : list (cv_op bytes), ops_ok bytes ce_string law_string [] l ->
    let r := cp_run (st_step cdata ops) (h <~ cv_new ;; cv_run bytes ce_string h l) s_init in
    snd r = CrDead \/
    exists h' sp' slots', snd r = CrOk (h', snd (cl_run [] l)) /\ Rel (fst r) sp' /\
                          vrep bytes ce_string law_string (hp sp') h' slots' (fst (cl_run [] l)).
Proof. exact (cv_history_on_storage bytes ce_string law_string). Qed.
Print Assumptions C05_vec_history_on_storage_string.

(* remove_from_storage frees exactly the footprint (the vector record and every record owned by a slot) *)
Theorem C05_vec_remove_from_storage :
  forall (T : Type) (E : cv_elem T) (L : elem_law E) (fl : bool) h slots l sp (Q : cres unit -> spec -> Prop),
    vrep T E L (hp sp) h slots l ->
    (forall sp', sdepth sp' = sdepth sp -> frame (hp sp) (hp sp') (foot T E L h slots) [] -> Q (CrOk tt) sp') ->
    cwp fl (cv_remove_from_storage T E h) sp Q.
Proof. exact cv_remove_from_storage_spec. Qed.
Print Assumptions C05_vec_remove_from_storage.

(* what makes the transfer possible: a cwp statement holds of every run on the storage model that does not panic *)
Theorem C05_cwp_sound :
  forall (ops : store_ops cdata) (fl : bool), kind ops fl ->
  forall (A : Type) (p : cprog A) s sp (Q : cres A -> spec -> Prop),
    Rel s sp -> cwp fl p sp Q ->
    snd (cp_run (st_step cdata ops) p s) = CrDead \/
    exists sp', Rel (fst (cp_run (st_step cdata ops) p s)) sp' /\ Q (snd (cp_run (st_step cdata ops) p s)) sp'.
Proof. exact (fun ops fl K A => cwp_sound ops fl K (A := A)). Qed.
Print Assumptions C05_cwp_sound.

(* ---- non-vacuity: concrete histories on the storage model, by evaluation ---- *)
Example C05_vec_sample_u64 :
  let l := [VoPush 5; VoPush 6; VoPush 7; VoRemove 0; VoValues; VoReload; VoPush 9; VoValues; VoSwap 0 2; VoValues;
            VoMaint SOptimize; VoMaint SReopen; VoReload; VoValues; VoReplace 7 1; VoResize 1 0; VoShrink; VoReload; VoValues] in
  ops_ok N ce_u64 law_u64 [] l /\
  exists h', snd (cp_run (st_step cdata ops_file) (h <~ cv_new ;; cv_run N ce_u64 h l) s_init) = CrOk (h', snd (cl_run [] l)) /\
             snd (cl_run [] l) = [VbUnit; VbUnit; VbUnit; VbVal 5; VbVals [6; 7]; VbUnit; VbUnit; VbVals [6; 7; 9]; VbUnit;
                                  VbVals [9; 7; 6]; VbUnit; VbUnit; VbUnit; VbVals [9; 7; 6]; VbErr CvIndex; VbUnit; VbUnit; VbUnit; VbVals [9]].
Proof.
  split.
  - vm_compute. repeat split.
  - eexists. split; vm_compute; reflexivity.
Qed.
Print Assumptions C05_vec_sample_u64.

Example C05_vec_sample_string :
  let l := [VoPush [x41]; VoPush [x42; x43]; VoPush []; VoRemove 0; VoReload; VoPush [x44]; VoSwap 0 2; VoMaint SReopenCopy;
            VoReload; VoReplace 1 [x45]; VoResize 1 []; VoValues] in
  exists h', snd (cp_run (st_step cdata ops_mem) (h <~ cv_new ;; cv_run bytes ce_string h l) s_init) = CrOk (h', snd (cl_run [] l)) /\
             last (snd (cl_run [] l)) VbUnit = VbVals [[x44]].
Proof. eexists. split; vm_compute; reflexivity. Qed.
Print Assumptions C05_vec_sample_string.

(* ======================= the collection layer (L2): map data, graph data, root record =======================
   mrep g d slots.. t   (CollMap.v) DbMapData: the index record g(index d) = le64 len ++ le64 states ++ le64 keys ++
                        le64 values, the three vectors (states: MapValueState, keys, values) each satisfying vrep for
                        the corresponding list of the table t, all footprints pairwise disjoint, cached len = t's len,
                        the three lists of one length (= capacity)
   grep g d slots a     (CollGraph.v) GraphDataStorage: the record with the four vector indexes and four DbVec<i64>
                        representing the slot arrays a (from, to, from_meta, to_meta — the arrays of Graph.v), disjoint *)
From Agdb Require Import CollSep CollMap CollMapHist CollGraph CollGraphNew CollAgree OpenMap.

(* (b) FULL for the MapData interface: EVERY history of set_state / set_key / set_value / set_len / resize (states,
   keys, values in this order) / swap / shrink_to_fit / state / key / value / capacity / len, with reloads
   (DbMapData::from_storage: the index record, then the three vectors) and maintenance of the storage at will, yields
   the observations of the plain table `ct_run`, in which reload and maintenance do nothing; at the end `mrep` holds
   for the final table.  The algorithms of multi_map.rs (MultiMapImpl: insert, insert_or_replace, remove_key,
   remove_value, value, values, iteration, rehash) are written against exactly this interface (trait MapData) and
   keep no state of their own, so on a reloaded map they compute what they compute on the live one: the reloaded
   interface is extensionally the same (same answers to every state / key / value / capacity / len, same effect
   of every mutator).  OpenMap.v (C19) is those algorithms on `ct_omap t`. *)
Theorem C05_map_history :
  forall (K V : Type) (EK : cv_elem K) (EV : cv_elem V) (LK : elem_law EK) (LV : elem_law EV) (kdef : K) (vdef : V),
    el_valid LK kdef -> el_valid LV vdef ->
  forall (fl : bool) ops d ss ks vs t sp (Q : cres (cm_data * list (cm_obs K V)) -> spec -> Prop),
    mrep K V EK EV LK LV (hp sp) d ss ks vs t -> sdepth sp = 0 -> Forall (mop_ok K V EK EV LK LV) ops ->
    (forall d' ss' ks' vs' sp', mrep K V EK EV LK LV (hp sp') d' ss' ks' vs' (fst (ct_run K V kdef vdef t ops)) ->
        cm_index d' = cm_index d -> sdepth sp' = 0 ->
        frame (hp sp) (hp sp') (mfoot K V EK EV LK LV d ss ks vs) (mfoot K V EK EV LK LV d' ss' ks' vs') ->
        Q (CrOk (d', snd (ct_run K V kdef vdef t ops))) sp') ->
    cwp fl (cm_run K V EK EV kdef vdef d ops) sp Q.
Proof. exact cm_run_spec. Qed.
Print Assumptions C05_map_history.

(* the reload alone: the same table through the reloaded interface *)
Theorem C05_map_reload :
  forall (fl : bool) (K V : Type) (EK : cv_elem K) (EV : cv_elem V) (LK : elem_law EK) (LV : elem_law EV) d ss ks vs t sp,
    mrep K V EK EV LK LV (hp sp) d ss ks vs t ->
    cwp fl (cm_from_storage K V EK EV (cm_index d)) sp
        (fun r sp' => exists d', r = CrOk d' /\ sp' = sp /\ mrep K V EK EV LK LV (hp sp) d' ss ks vs t).
Proof. exact map_loads. Qed.
Print Assumptions C05_map_reload.

(* on the model of storage.rs, from DbMapData::new on a fresh storage; instances: <u64,u64> (e.g. ids) and
   <String,u64> (the alias map's key type: every key is an out-of-line record owned by its slot) *)
Theorem C05_map_history_on_storage_u64 :
  forall (ops : store_ops cdata) (fl : bool), kind ops fl ->
  forall l : list (cm_op N N), Forall (mop_ok N N ce_u64 ce_u64 law_u64 law_u64) l ->
    let r := cp_run (st_step cdata ops) (d <~ cm_new ;; cm_run N N ce_u64 ce_u64 0 0 d l) s_init in
    snd r = CrDead \/
    exists d' sp' ss ks vs, snd r = CrOk (d', snd (ct_run N N 0 0 (ct_empty N N) l)) /\ Rel (fst r) sp' /\
       mrep N N ce_u64 ce_u64 law_u64 law_u64 (hp sp') d' ss ks vs (fst (ct_run N N 0 0 (ct_empty N N) l)).
Proof. exact (cm_history_on_storage N N ce_u64 ce_u64 law_u64 law_u64 0 0 eq_refl eq_refl). Qed.
Print Assumptions C05_map_history_on_storage_u64.

Theorem C05_map_history_on_storage_string :
  forall (ops : store_ops cdata) (fl : bool), kind ops fl ->
  forall l : list (cm_op bytes N), Forall (mop_ok bytes N ce_string ce_u64 law_string law_u64) l ->
    let r := cp_run (st_step cdata ops) (d <~ cm_new ;; cm_run bytes N ce_string ce_u64 [] 0 d l) s_init in
    snd r = CrDead \/
    exists d' sp' ss ks vs, snd r = CrOk (d', snd (ct_run bytes N [] 0 (ct_empty bytes N) l)) /\ Rel (fst r) sp' /\
       mrep bytes N ce_string ce_u64 law_string law_u64 (hp sp') d' ss ks vs (fst (ct_run bytes N [] 0 (ct_empty bytes N) l)).
Proof. exact (cm_history_on_storage bytes N ce_string ce_u64 law_string law_u64 [] 0 (conj eq_refl eq_refl) eq_refl). Qed.
Print Assumptions C05_map_history_on_storage_string.

(* (c) FULL for the GraphData interface: EVERY history of set / get of from, to, from_meta, to_meta at a graph index,
   grow (four pushes), shrink_to_fit, capacity, with reloads (GraphDataStorage::from_storage) and maintenance of
   the storage at will, yields the observations of the four plain arrays (ga_run; node_count / free_index are reads
   of to_meta[0] / from_meta[0]); the algorithms of graph.rs (GraphImpl) are written against this interface (trait
   GraphData) and keep no state of their own: Graph.v (C08) is those algorithms on the arrays. *)
Theorem C05_graph_history :
  forall (fl : bool) ops d s a sp (Q : cres (cg_data * list cg_obs) -> spec -> Prop),
    grep (hp sp) d s a -> sdepth sp = 0 -> gops_ok a ops ->
    (forall d' s' sp', grep (hp sp') d' s' (fst (ga_run a ops)) -> cg_index d' = cg_index d -> sdepth sp' = 0 ->
        frame (hp sp) (hp sp') (gfoot d s) (gfoot d' s') -> Q (CrOk (d', snd (ga_run a ops))) sp') ->
    cwp fl (cg_run d ops) sp Q.
Proof. exact cg_run_spec. Qed.
Print Assumptions C05_graph_history.

(* from GraphDataStorage::new (arrays [0] [0] [i64::MIN] [0]) on the model of storage.rs *)
Theorem C05_graph_history_on_storage :
  forall (ops : store_ops cdata) (fl : bool), kind ops fl ->
  forall l : list cg_op, gops_ok ga_init l ->
    let r := cp_run (st_step cdata ops) (d <~ cg_new ;; cg_run d l) s_init in
    snd r = CrDead \/
    exists d' sp' s, snd r = CrOk (d', snd (ga_run ga_init l)) /\ Rel (fst r) sp' /\ grep (hp sp') d' s (fst (ga_run ga_init l)).
Proof. exact cg_history_on_storage. Qed.
Print Assumptions C05_graph_history_on_storage.

(* the root record (DbStorageIndex at storage index 1): what try_new_with_storage stores is what the next open
   reads, for every record map in which record 1 holds it — hence after reopen / optimize / backup (L1) too.
   PARTIAL as a statement about DbImpl: the composition root -> graph + aliases (two maps) + indexes (a vector of
   (value index, multi-map index) pairs) + values (a vector of vector indexes) into ONE invariant of the whole
   database file is not assembled; each component is covered by the theorems above. *)
Theorem C05_root_roundtrip_partial :
  forall (fl : bool) r,
    cr_u64 r ->
    (forall x sp (Q : cres unit -> spec -> Prop), hp sp 1 = Some x -> lenN x = 48 ->
       (forall sp', heq (hp sp') (hupd (hp sp) 1 (cr_ser r)) -> sdepth sp' = sdepth sp -> Q (CrOk tt) sp') ->
       cwp fl (cr_store r) sp Q) /\
    (forall sp (Q : cres cr_root -> spec -> Prop), hp sp 1 = Some (cr_ser r) -> Q (CrOk r) sp -> cwp fl cr_load sp Q).
Proof. intros fl r Hb. split; [intros x sp Q; apply cr_store_spec|intros sp Q Hg; apply cr_load_spec; assumption]. Qed.
Print Assumptions C05_root_roundtrip_partial.

(* ---- non-vacuity ---- *)
Example C05_map_sample_string :
  let l : list (cm_op bytes N) :=
           [MoResize 3; MoSetKey 1 [x41; x42]; MoSetState 1 StValid; MoSetValue 1 7; MoSetLen 1;
            MoReload; MoSwap 1 2; MoMaint SOptimize; MoMaint SReopen; MoReload;
            MoKey 2; MoState 2; MoValue 2; MoCapLen; MoKey 5] in
  exists d', snd (cp_run (st_step cdata ops_file) (d <~ cm_new ;; cm_run bytes N ce_string ce_u64 [] 0 d l) s_init)
               = CrOk (d', snd (ct_run bytes N [] 0 (ct_empty bytes N) l)) /\
             skipn 10 (snd (ct_run bytes N [] 0 (ct_empty bytes N) l)) =
               [MbKey [x41; x42]; MbState StValid; MbVal 7; MbNums 3 1; MbErr CvIndex].
Proof. eexists. split; vm_compute; reflexivity. Qed.
Print Assumptions C05_map_sample_string.

Example C05_graph_sample :
  let l := [GoGrow; GoGrow; GoSet GfFrom 1 (-1); GoSet GfToMeta 0 1; GoReload; GoMaint SOptimize; GoMaint SReopenCopy; GoReload;
            GoGet GfFrom (-1); GoGet GfToMeta 0; GoGet GfFromMeta 0; GoCap; GoGet GfTo 3] in
  exists d', snd (cp_run (st_step cdata ops_mem) (d <~ cg_new ;; cg_run d l) s_init) = CrOk (d', snd (ga_run ga_init l)) /\
             skipn 8 (snd (ga_run ga_init l)) = [GbVal (-1); GbVal 1; GbVal cg_i64_min; GbNum 3; GbErr CvIndex].
Proof. eexists. split; vm_compute; reflexivity. Qed.
Print Assumptions C05_graph_sample.

(* ---- vectors of database values (db_index.rs: VecValue for DbValue; db_key_value.rs: VecValue for DbKeyValue) ----
   The slot is the 16-byte value index of C12 (values of up to 15 bytes inline, everything longer and all vectors in
   ONE record owned by the slot), a key-value pair is two of them.  CollValuesProofs.v derives `elem_law` for both from
   the theorems of C12 (C12_roundtrip through the bounds checks of the current load_db_value, the shape of the index
   store_db_value produces, C12_remove_frees_exactly) — so C05_vec_history holds for DbVec<DbValue> (the key vectors of
   the index multi-maps) and DbVec<DbKeyValue> (the property lists of the elements); here on the model of storage.rs.
   Values must be `wf_value` (what a Rust program can hold: i64 range, valid UTF-8, lengths < 2^60). *)
From Agdb Require Import DbValue ValueIndex CollValues CollValuesProofs.

Theorem C05_vec_history_on_storage_dbvalue :
  forall (ops : store_ops cdata) (fl : bool), StorageProofs.kind ops fl ->
  forall l : list (cv_op dbvalue), ops_ok dbvalue ce_dbvalue law_dbvalue [] l ->
    let r := cp_run (st_step cdata ops) (h <~ cv_new ;; cv_run dbvalue ce_dbvalue h l) s_init in
    snd r = CrDead \/
    exists h' sp' slots', snd r = CrOk (h', snd (cl_run [] l)) /\ Rel (fst r) sp' /\
                          vrep dbvalue ce_dbvalue law_dbvalue (hp sp') h' slots' (fst (cl_run [] l)).
Proof. exact (cv_history_on_storage dbvalue ce_dbvalue law_dbvalue). Qed.
Print Assumptions C05_vec_history_on_storage_dbvalue.

Theorem C05_vec_history_on_storage_dbkv :
  forall (ops : store_ops cdata) (fl : bool), StorageProofs.kind ops fl ->
  forall l : list (cv_op (dbvalue * dbvalue)), ops_ok (dbvalue * dbvalue) ce_dbkv law_dbkv [] l ->
    let r := cp_run (st_step cdata ops) (h <~ cv_new ;; cv_run (dbvalue * dbvalue) ce_dbkv h l) s_init in
    snd r = CrDead \/
    exists h' sp' slots', snd r = CrOk (h', snd (cl_run [] l)) /\ Rel (fst r) sp' /\
                          vrep (dbvalue * dbvalue) ce_dbkv law_dbkv (hp sp') h' slots' (fst (cl_run [] l)).
Proof. exact (cv_history_on_storage (dbvalue * dbvalue) ce_dbkv law_dbkv). Qed.
Print Assumptions C05_vec_history_on_storage_dbkv.

(* non-vacuity: a 16-byte string (out of line) and an inline integer as a pair, replaced, reloaded, removed *)
Example C05_vec_sample_dbkv :
  let big := DString [x30; x31; x32; x33; x34; x35; x36; x37; x38; x39; x61; x62; x63; x64; x65; x66] in
  let l := [VoPush (big, DI64 (-1)); VoPush (DU64 7, DVecI64 [1; 2]%Z); VoReload; VoMaint SOptimize; VoMaint SReopen; VoReload;
            VoReplace 0 (DString [x41], big); VoSwap 0 1; VoValues; VoRemove 0; VoValues] in
  exists h', snd (cp_run (st_step cdata ops_file) (h <~ cv_new ;; cv_run (dbvalue * dbvalue) ce_dbkv h l) s_init)
               = CrOk (h', snd (cl_run [] l)) /\
             last (snd (cl_run [] l)) VbUnit = VbVals [(DString [x41], big)].
Proof. eexists. split; vm_compute; reflexivity. Qed.
Print Assumptions C05_vec_sample_dbkv.

(* ======================= the database level (L3): the whole database in the record store =======================
   theories/StoredDb.v (executable, extracted), StoredDbRep.v (the relation), StoredDbRun/Load/Proofs/Queries/Obs/Final.v.

   load_db m root         the LOADER: the root record DbStorageIndex (record `root`, 1 in db.rs) -> the graph (index
                          record + four DbVec<i64>) -> the aliases (DbMapData<String, DbId>, DbMapData<DbId, String>) ->
                          the indexes (DbVec of 24-byte entries: value index of the key ++ index of a
                          DbMapData<DbValue, DbId>; each entry loaded) -> the values (DbVec<StorageIndex>, each non-zero
                          slot a DbVec<DbKeyValue>) — the L2 loaders composed in the order of DbImpl::try_new_with_storage,
                          each component read to the end with the calls the code uses to read it completely — run on a
                          record store m (index |-> bytes); the result is a `db` of DbModel.v (the model of DbImpl the
                          query-level theorems C08–C18 are about).
   stored_db g root d     the REPRESENTATION RELATION (StoredDbRep.v): heap g holds database d.  Built from the L2
                          predicates only (grep, mrep, vrep for i64 / u64 / 24 raw bytes / DbKeyValue, dbv_rep = C12):
                          root record with version 1 and six u64 fields; graph = EXACTLY the four arrays of gr d; the two
                          alias tables hold k2v / v2k of d as multisets (keys distinct); the index vector holds the
                          indexes of d in order, each key by its value index, each id table the ids as a multiset;
                          the values vector has one slot per element slot, 0 for an element without properties, else a
                          DbVec<DbKeyValue> holding EXACTLY its property list; all footprints pairwise distinct.
                          It assumes NOTHING else (no invariant of d: no well-formed graph, no alias/index consistency,
                          any table capacity, probe chains not required — the loader scans the slots).
   sd_eqv d d'            the equality a reload determines: same graph arrays, same property lists (order included),
                          same alias lookups in both directions, same index keys in the same order, each index's ids
                          as a multiset.  What it leaves open — the order of the alias list and of an index's ids — is
                          what a hash table does not keep.  It IMPLIES C13's obs_eq and obs_eq_strong (C05_db_eqv_is_observational). *)
From Coq Require Import Permutation.
From Agdb Require Import Graph DbModel Search Queries Revisions UndoObs
  StoredDb StoredDbRep StoredDbRun StoredDbLoad StoredDbProofs StoredDbQueries StoredDbObs StoredDbFinal StoredDbExample.

(* FULL (nothing assumed beyond stored_db): a record store that holds d LOADS, and what it loads is d up to sd_eqv, with
   an empty undo stack.  Assembles C05_vec_reload / C05_map_reload / the graph and root lemmas and C12 (law_dbvalue). *)
Theorem C05_db_reload :
  forall (m : vmap) (root : N) (d : db),
    stored_db (m_get m) root d ->
    exists d', load_db m root = Some d' /\ sd_eqv d d' /\ undo d' = [].
Proof. exact load_db_of_stored. Qed.
Print Assumptions C05_db_reload.

(* the loader PROGRAM (the composition of from_storage / value calls) run on the model of storage.rs (C04), file-like or
   memory-like, in a state refining an abstract map that holds d: it returns what load_db computes (or the storage
   panics: a request beyond 2^64 bytes) *)
Theorem C05_db_reload_on_storage :
  forall (ops : store_ops cdata) (fl : bool), StorageProofs.kind ops fl ->
  forall s sp root d, Rel s sp -> stored_db (hp sp) root d ->
    let r := cp_run (st_step cdata ops) (sd_load root) s in
    snd r = CrDead \/
    (Rel (fst r) sp /\ exists d', snd r = CrOk d' /\ load_db (sm sp) root = Some d' /\ sd_eqv d d').
Proof. exact sd_load_on_storage. Qed.
Print Assumptions C05_db_reload_on_storage.

(* MAINTENANCE: optimize_storage / drop + open / backup + open of the storage (SOptimize / SReopen / SReopenCopy), with
   no transaction open, on the model of storage.rs: the storage panics or the new state refines a map that STILL holds d
   (C04's step_refines carries C05_storage_maintenance_partial: same index -> same bytes), and load_db returns THE
   SAME database (Leibniz equality) before and after — reopen / optimize / backup+open preserve the database *)
Theorem C05_db_maintenance :
  forall (ops : store_ops cdata) (fl : bool), StorageProofs.kind ops fl ->
  forall s sp o root d,
    Rel s sp -> sdepth sp = 0 -> cv_is_maint o = true -> stored_db (hp sp) root d ->
    snd (st_step cdata ops s o) = ObPanic \/
    exists sp', Rel (fst (st_step cdata ops s o)) sp' /\ sdepth sp' = 0 /\
                stored_db (hp sp') root d /\
                exists d', load_db (sm sp) root = Some d' /\ load_db (sm sp') root = Some d' /\ sd_eqv d d'.
Proof. exact sd_maintenance_on_storage. Qed.
Print Assumptions C05_db_maintenance.

(* the relation is a property of the map index -> bytes alone *)
Theorem C05_db_stored_depends_on_map_only :
  forall g g' root d, heq g' g -> stored_db g root d -> stored_db g' root d.
Proof. intros g g' root d Hm [w H]. exists w. exact (stored_db_w_heq g g' root d w Hm H). Qed.
Print Assumptions C05_db_stored_depends_on_map_only.

(* QUERIES: `Queries.exec` is a function of the database; for every read-only query whose result does not depend on a
   hash table's iteration order (sd_query_ok: select values / keys / key_count / aliases / edge_count with explicit ids
   or a search, select indexes, select node_count, search — every algorithm except Index; excluded are exactly
   SelectAllAliases and the Index search, whose results list a table's content in the model's list order) the database
   loaded after the maintenance operation returns EXACTLY the result d returns (ids, result order, properties,
   aliases; d at rest: empty undo stack).  Mutating queries: see the sections on the mutations below. *)
Theorem C05_db_queries_after_reopen :
  forall (ops : store_ops cdata) (fl : bool), StorageProofs.kind ops fl ->
  forall rv s sp o root d,
    Rel s sp -> sdepth sp = 0 -> cv_is_maint o = true -> stored_db (hp sp) root d -> undo d = [] ->
    snd (st_step cdata ops s o) = ObPanic \/
    exists sp' d1, Rel (fst (st_step cdata ops s o)) sp' /\ sdepth sp' = 0 /\
                   stored_db (hp sp') root d /\
                   load_db (sm sp) root = Some d1 /\ load_db (sm sp') root = Some d1 /\ sd_eqv d d1 /\
                   forall q, sd_query_ok q -> snd (exec rv d1 q) = snd (exec rv d q).
Proof. exact sd_queries_after_maintenance. Qed.
Print Assumptions C05_db_queries_after_reopen.

(* the congruence behind it, for any two databases equal up to sd_eqv *)
Theorem C05_db_eqv_queries :
  forall rv d d', sd_eqv d d' -> forall q, sd_query_ok q -> undo d = [] -> undo d' = [] ->
    snd (exec rv d q) = snd (exec rv d' q) /\ sd_eqv (fst (exec rv d q)) (fst (exec rv d' q)).
Proof. exact sd_exec. Qed.
Print Assumptions C05_db_eqv_queries.

(* sd_eqv is at least as fine as the observational equivalences of C13 *)
Theorem C05_db_eqv_is_observational :
  forall d d', sd_eqv d d' -> obs_eq d d' /\ obs_eq_strong d d'.
Proof.
  intros d d' H. assert (Ho : obs_eq d d').
  { constructor.
    - rewrite (se_graph _ _ H). apply graph_obs_eq_refl.
    - intros i. rewrite (se_vals _ _ H). apply Permutation.Permutation_refl.
    - apply (se_alias_value _ _ H).
    - apply (se_alias_key _ _ H).
    - intros key. apply sd_idx_find. apply (se_indexes _ _ H). }
  split; [exact Ho|]. constructor; [exact Ho|..]; intros; rewrite (se_graph _ _ H); reflexivity.
Qed.
Print Assumptions C05_db_eqv_is_observational.

(* ---- non-vacuity: a database CREATED on the model of storage.rs by the programs of Collections.v (cr_create, cg_new +
   cg_run, cm_new + cm_run, cv_new / cv_push / cv_resize / cv_replace, ce_store, cr_store; theories/StoredDbExampleBase.v) — 2 nodes,
   1 edge, alias "root", properties ("k", 7), ("name", a 16-byte string: out of line), on the edge (1u64, [1, 2]i64: out
   of line), an index on "k" — its record store (every live index with its bytes), stored_db for the database that three
   queries produce from the empty database, load_db = exactly that database; after optimize / drop+open / backup+open of
   the storage model and on the memory-like storage the record store is the same. *)
Example C05_db_sample :
  fold_left (fun d q => fst (exec rv_fixed d q)) sx_queries db_new = sx_db /\
  (* sx_run = cp_run (st_step cdata ops_file) sx_build s_init *)
  snd sx_run = CrOk 1 /\
  live_values cdata ops_file (fst sx_run) = sx_store /\
  stored_db (m_get sx_store) 1 sx_db /\
  load_db sx_store 1 = Some sx_db /\
  sx_after SOptimize = sx_store /\ sx_after SReopen = sx_store /\ sx_after SReopenCopy = sx_store /\
  sx_store_mem = sx_store.
Proof. split; [exact sx_db_is|exact sx_sample]. Qed.
Print Assumptions C05_db_sample.

(* THE LINK TO C19: load_db reads a table by scanning its slots; the code looks an alias up by PROBING (MapImpl::value =
   MultiMapImpl::value of multi_map.rs, OpenMap.v).  If the two stored alias tables satisfy the invariant C19 proves of
   every reachable table (PInv — C19_table_refines_multimap, C19_map_unique_keys; for EVERY hash function and minimum
   capacity), the probing lookups on the stored tables return exactly the model's lookups: DbImpl::db_id(alias) =
   imap_value, DbImpl::alias(id) = imap_key on the reloaded database (from C19_lookup_finds_exactly_stored).  stored_db
   itself does not demand PInv (the loader does not need it); that the tables of a real file satisfy it is part of the
   statement about the mutations (it is what they maintain).  Not stated for the id tables of the indexes: C19 needs a key
   test deciding Leibniz equality, which dbv_eqb is on canonical values only. *)
From Agdb Require Import OpenMap OpenMapRefineStep CollMapHist StoredDbProbe.

Theorem C05_db_alias_lookups_by_probing :
  forall (hs : bytes -> N) (hi : Z -> N) (mincap : nat) (rv : om_revision) g root d w,
    fix_iter_finished rv = true ->
    stored_db_w g root d w ->
    PInv bytes Z hs mincap (ct_omap bytes Z (mw_t (sw_a1 w))) ->
    PInv Z bytes hi mincap (ct_omap Z bytes (mw_t (sw_a2 w))) ->
    (forall a, value bytes Z bytes_eqb hs (ct_omap bytes Z (mw_t (sw_a1 w))) a = Done (imap_value (aliases d) a)) /\
    (forall i, value Z bytes Z.eqb hi (ct_omap Z bytes (mw_t (sw_a2 w))) i = Done (imap_key (aliases d) i)).
Proof. exact sd_alias_lookups_by_probing. Qed.
Print Assumptions C05_db_alias_lookups_by_probing.

(* non-vacuity: the alias tables of the example database (2 slots; hashes sending "root" to slot 1 and id 1 to slot 0) *)
Example C05_db_sample_probe :
  (forall a, value bytes Z bytes_eqb (fun _ => 1) (ct_omap bytes Z sx_t1) a = Done (imap_value (aliases sx_db) a)) /\
  (forall i, value Z bytes Z.eqb (fun _ => 0) (ct_omap Z bytes sx_t2) i = Done (imap_key (aliases sx_db) i)).
Proof. exact sx_probe. Qed.
Print Assumptions C05_db_sample_probe.

(* One component replaced under a frame (theories/StoredDbFrame.v).  An operation on one
   component of a stored database that keeps the component's invariant and touches exactly its footprint — what every L2
   history theorem delivers (`frame`) — keeps the WHOLE database stored: the other components are untouched and stay
   disjoint, because all footprints of stored_db are pairwise distinct and live (C05_db_footprint_live).  For the graph:
   EVERY history of the GraphData interface (set / get of from, to, from_meta, to_meta, grow, shrink_to_fit, capacity,
   reload, maintenance: C05_graph_history) run on the graph of a stored database leaves a stored database whose graph
   arrays are the plain arrays' result and whose aliases, indexes and values are the same; the change is confined to the
   database's footprint.  graph.rs (GraphImpl: insert_node, insert_edge, the removals) is written against exactly this
   interface, so each of its operations is such a history; that the history it issues computes Graph.v's function is
   proved operation by operation in the sections on the mutations below. *)
From Agdb Require Import CollSep CollGraph StoredDbFrame.

Theorem C05_db_graph_histories_preserve_stored_db_partial :
  forall (fl : bool) ops root d w sp (Q : cres (cg_data * list cg_obs) -> spec -> Prop),
    stored_db_w (hp sp) root d w -> sdepth sp = 0 -> gops_ok (sd_arrays (gr d)) ops ->
    (forall dg' s' sp',
        stored_db_w (hp sp') root (with_gr d (sd_graph_of (fst (ga_run (sd_arrays (gr d)) ops)))) (sd_with_graph w dg' s') ->
        sdepth sp' = 0 ->
        frame (hp sp) (hp sp') (sd_foot root w) (sd_foot root (sd_with_graph w dg' s')) ->
        Q (CrOk (dg', snd (ga_run (sd_arrays (gr d)) ops))) sp') ->
    cwp fl (cg_run (sw_g w) ops) sp Q.
Proof.
  intros fl ops root d w sp Q H Hd Hok HQ.
  eapply cg_run_spec; [exact (sr_graph _ _ _ _ H)|exact Hd|exact Hok|].
  intros dg' s' sp' HG Hi Hd' Hf.
  rewrite <- (sd_arrays_of (fst (ga_run (sd_arrays (gr d)) ops))) in HG.
  destruct (sd_graph_update _ _ root d w dg' s' _ H Hi HG Hf) as [H' F'].
  apply (HQ dg' s' sp'); assumption.
Qed.
Print Assumptions C05_db_graph_histories_preserve_stored_db_partial.

Theorem C05_db_footprint_live :
  forall g root d w, stored_db_w g root d w -> live_all g (sd_foot root w).
Proof. exact stored_db_live. Qed.
Print Assumptions C05_db_footprint_live.

(* non-vacuity: the hypotheses hold of the example database for a history that grows the graph by one slot and
   counts a third node (what insert_node does when the free list is empty) *)
Example C05_db_sample_graph_history :
  stored_db_w (hp (sd_spec_of sx_store)) 1 sx_db sx_wit /\ sdepth (sd_spec_of sx_store) = 0 /\
  gops_ok (sd_arrays (gr sx_db)) [GoGet GfFromMeta 0; GoGrow; GoGet GfToMeta 0; GoSet GfToMeta 0 3]%Z /\
  sd_graph_of (fst (ga_run (sd_arrays (gr sx_db)) [GoGet GfFromMeta 0; GoGrow; GoGet GfToMeta 0; GoSet GfToMeta 0 3]%Z))
    = snd (insert_node (gr sx_db)).
Proof.
  split; [exact sx_stored|]. split; [reflexivity|]. split; [|vm_compute; reflexivity].
  cbn [gops_ok gop_ok]. unfold ga_fits, i64_range. repeat split; try lia; intros f; destruct f; vm_compute; reflexivity.
Qed.
Print Assumptions C05_db_sample_graph_history.

(* ======================= the database level (L3): the CORE MUTATIONS keep the database stored =======================
   theories/StoredDbOps.v (executable, extracted: the programs), StoredDbOpsGraph/Graph2/Kv/Kv2/Kv3/Db/Db2/Db3.v (proofs).

   C05_db_operations_preserve_stored_db for a core of DbImpl's mutations.  Each is modelled as a PROGRAM over the storage that
   issues the Storage<D> calls the code issues through the storage-backed collections, branching on what the storage
   answers (nothing read from the abstract state):
     so_insert_node                   DbImpl::insert_node = GraphImpl::insert_node over GraphDataStorage: one storage
                                      transaction around get_free_index (free_index() == i64::MIN: capacity as i64 + grow
                                      (four pushes), else pop the free list: from_meta(-index), set_from_meta(0, next),
                                      set_from_meta(-index, 0)), node_count, set_node_count(count + 1)
     so_insert_edge                   DbImpl::insert_edge = GraphImpl::insert_edge: validate_node twice (is_valid_index,
                                      is_valid_node, short-circuit), transaction, get_free_index, set_edge (set_from, set_to,
                                      update_from_edge, update_to_edge), commit; an invalid endpoint: Err, nothing written
     so_reserve_key_value_capacity    DbKeyValues::reserve_capacity: resize of the slot vector up to the index (new slots 0),
                                      value(index), DbVec::<DbKeyValue>::new + replace of the slot when it is 0 — the
                                      allocation of a property vector for an element without properties — else from_storage;
                                      reserve
     so_insert_key_value              DbImpl::insert_key_value for a key that is NOT indexed = DbKeyValues::insert_value:
                                      the same beginning, then reserve(len + 1), push (the pair's two value indexes of C12,
                                      out-of-line values in records owned by the slot)
     so_insert_or_replace_key_value   DbImpl::insert_or_replace_key_value, neither key indexed = DbKeyValues::
                                      insert_or_replace: valid_index, kvs (the slot again, from_storage), the lazy search for
                                      the first pair with an equal key (iter().enumerate().find), replace in place (the old
                                      pair's out-of-line records freed) or reserve + push; invalid index: insert_value
   The undo stack and `self.indexes.index_mut(&key)` are in memory (no storage call).  THEOREM SHAPE: in every state of the
   abstract record map holding d (stored_db_w with its witness w: handles and slot bytes) with the handles of DbImpl being
   those of the witness (so_handles; so_open builds them as try_new_with_storage does: C05_db_open_handles), under the
   explicit side conditions, for EVERY answer sequence the record map allows the program does not die, returns what
   DbModel's function returns, and ends in a state holding DbModel's result; the witness changes in the component
   operated on only (sd_with_graph / sd_with_values: all other handles, slot bytes, tables the SAME), and `frame` confines
   the change to the database's footprint (records outside untouched, records entering it were free, none leaked); the
   transaction depth is the one before (usable inside transaction_mut's storage transaction).
   SIDE CONDITIONS (explicit, nothing else assumed — stored_db demands no invariant of d):
     so_graph_ok G      four arrays of one length n, 1 <= n < 2^60; free-list head from_meta[0] = i64::MIN or of magnitude
                        < n; node count to_meta[0] in [0, 2^63 - 1)          (consequences of C08's wf + capacity bound)
     so_edge_ok G f t   the two degree counters insert_edge increments stay i64 values (under wf: <= number of edges)
     so_index_ok i      |id| < 2^60;   so_kv_fits: 8 + 32 * (len + 1) < 2^64 (u64 sizes);   el_valid law_dbkv x: both values
                        wf_value (i64 range, valid UTF-8, lengths < 2^60 — what a Rust program can hold)
     key not indexed    idx_find (indexes d) key = None (for insert_or_replace also the replaced pair's key) *)
From Agdb Require Import StoredDbOps StoredDbOpsGraph StoredDbOpsGraph2 StoredDbOpsKv StoredDbOpsKv2 StoredDbOpsKv3
  StoredDbOpsDb StoredDbOpsDb2 StoredDbOpsDb3 StoredDbOpsExample.

(* the handles of an existing file: root record, DbGraph::from_storage, DbKeyValues::from_storage; nothing is written *)
Theorem C05_db_open_handles :
  forall (fl : bool) root d w sp (Q : cres so_db -> spec -> Prop),
    stored_db_w (hp sp) root d w ->
    (forall h w', stored_db_w (hp sp) root d w' -> so_handles h w' -> sd_foot root w' = sd_foot root w -> Q (CrOk h) sp) ->
    cwp fl (so_open root) sp Q.
Proof. exact so_open_spec. Qed.
Print Assumptions C05_db_open_handles.

Theorem C05_db_insert_node_preserves_stored_db :
  forall (fl : bool) root d w h sp (Q : cres (so_db * Z) -> spec -> Prop),
    stored_db_w (hp sp) root d w -> so_handles h w -> so_graph_ok (gr d) ->
    (forall h' dg' s' sp',
        stored_db_w (hp sp') root (snd (insert_node_db d)) (sd_with_graph w dg' s') -> so_handles h' (sd_with_graph w dg' s') ->
        sdepth sp' = sdepth sp ->
        frame (hp sp) (hp sp') (sd_foot root w) (sd_foot root (sd_with_graph w dg' s')) ->
        Q (CrOk (h', fst (insert_node_db d))) sp') ->
    cwp fl (so_insert_node h) sp Q.
Proof. exact so_insert_node_stored. Qed.
Print Assumptions C05_db_insert_node_preserves_stored_db.

Theorem C05_db_insert_edge_preserves_stored_db :
  forall (fl : bool) root d w h f t sp (Q : cres (so_db * option Z) -> spec -> Prop),
    stored_db_w (hp sp) root d w -> so_handles h w -> so_graph_ok (gr d) ->
    (insert_edge (gr d) f t <> None -> so_edge_ok (gr d) f t) ->
    match insert_edge_db d f t with
    | DbModel.ROk (e, d') =>
      forall h' dg' s' sp',
        stored_db_w (hp sp') root d' (sd_with_graph w dg' s') -> so_handles h' (sd_with_graph w dg' s') ->
        sdepth sp' = sdepth sp ->
        frame (hp sp) (hp sp') (sd_foot root w) (sd_foot root (sd_with_graph w dg' s')) ->
        Q (CrOk (h', Some e)) sp'
    | DbModel.RErr _ => Q (CrOk (h, None)) sp
    end ->
    cwp fl (so_insert_edge h f t) sp Q.
Proof. exact so_insert_edge_stored. Qed.
Print Assumptions C05_db_insert_edge_preserves_stored_db.

Theorem C05_db_reserve_key_value_capacity_preserves_stored_db :
  forall (fl : bool) root d w h id len sp (Q : cres so_db -> spec -> Prop),
    stored_db_w (hp sp) root d w -> so_handles h w -> so_index_ok (cg_as_u64 id) ->
    (forall h' vh' vs' vi' vw' sp',
        stored_db_w (hp sp') root (reserve_kv d id) (sd_with_values w vh' vs' vi' vw') ->
        so_handles h' (sd_with_values w vh' vs' vi' vw') -> sdepth sp' = sdepth sp ->
        frame (hp sp) (hp sp') (sd_foot root w) (sd_foot root (sd_with_values w vh' vs' vi' vw')) ->
        Q (CrOk h') sp') ->
    cwp fl (so_reserve_key_value_capacity h id len) sp Q.
Proof. exact so_reserve_key_value_capacity_stored. Qed.
Print Assumptions C05_db_reserve_key_value_capacity_preserves_stored_db.

Theorem C05_db_insert_key_value_preserves_stored_db :
  forall (fl : bool) root d w h id x sp (Q : cres so_db -> spec -> Prop),
    stored_db_w (hp sp) root d w -> so_handles h w ->
    idx_find (indexes d) (fst x) = None ->
    so_index_ok (cg_as_u64 id) -> el_valid law_dbkv x ->
    8 + ce_size ce_dbkv * (lenN (kvs_get (vals d) id) + 1) < two64 ->
    (forall h' vh' vs' vi' vw' sp',
        stored_db_w (hp sp') root (insert_key_value d id x) (sd_with_values w vh' vs' vi' vw') ->
        so_handles h' (sd_with_values w vh' vs' vi' vw') -> sdepth sp' = sdepth sp ->
        frame (hp sp) (hp sp') (sd_foot root w) (sd_foot root (sd_with_values w vh' vs' vi' vw')) ->
        Q (CrOk h') sp') ->
    cwp fl (so_insert_key_value h id x) sp Q.
Proof. exact so_insert_key_value_stored. Qed.
Print Assumptions C05_db_insert_key_value_preserves_stored_db.

Theorem C05_db_insert_or_replace_key_value_preserves_stored_db :
  forall (fl : bool) root d w h id x sp (Q : cres (so_db * option kv) -> spec -> Prop),
    stored_db_w (hp sp) root d w -> so_handles h w ->
    so_not_indexed d id x -> so_index_ok (cg_as_u64 id) -> el_valid law_dbkv x -> so_kv_fits d id ->
    (forall h' vh' vs' vi' vw' sp',
        stored_db_w (hp sp') root (insert_or_replace_key_value d id x) (sd_with_values w vh' vs' vi' vw') ->
        so_handles h' (sd_with_values w vh' vs' vi' vw') -> sdepth sp' = sdepth sp ->
        frame (hp sp) (hp sp') (sd_foot root w) (sd_foot root (sd_with_values w vh' vs' vi' vw')) ->
        Q (CrOk (h', fst (kvs_insert_or_replace (vals d) id x))) sp') ->
    cwp fl (so_insert_or_replace_key_value h id x) sp Q.
Proof. intros fl root d w h id x sp Q H Hh Hn Hix Hx Hfit HQ. eapply so_insert_or_replace_key_value_stored'; eauto. Qed.
Print Assumptions C05_db_insert_or_replace_key_value_preserves_stored_db.

(* COMBINED, for EVERY HISTORY (no bound) of the five core operations (so_op: SoInsertNode, SoInsertEdge f t, SoReserve id len,
   SoInsertKeyValue id x, SoInsertOrReplace id x), transferred to the MODEL OF storage.rs (C04; file-like and memory-like):
   from any storage state refining a record map that holds d, opening the handles (so_open) and running the history
   (so_ops_run) either dies by a panic of the storage (a request beyond 2^64 bytes) or returns the outputs DbModel returns
   (ids, replaced pairs: so_ops_model) in a storage state refining a record map that HOLDS DbModel's final database, at
   the same transaction depth, the change confined to the database's footprint.  so_ops_ok = the side conditions above
   at every intermediate model state.  With C05_db_reload / C05_db_maintenance / C05_db_queries_after_reopen this gives, for
   these histories, "after any history ... reopening / optimizing / backing up yields a database on which the queries
   return the same".
   _partial: the five operations above only; the header of this file says what the later sections add. *)
Theorem C05_db_core_operations_preserve_stored_db_partial :
  forall (ops : store_ops cdata) (fl : bool), StorageProofs.kind ops fl ->
  forall s sp root d l, Rel s sp -> stored_db (hp sp) root d -> so_ops_ok d l ->
    let r := cp_run (st_step cdata ops) (h <~ so_open root ;; so_ops_run h l) s in
    snd r = CrDead \/
    exists sp' h' w w', Rel (fst r) sp' /\ snd r = CrOk (h', snd (so_ops_model d l)) /\
                        stored_db_w (hp sp) root d w /\ stored_db_w (hp sp') root (fst (so_ops_model d l)) w' /\
                        so_handles h' w' /\ sdepth sp' = sdepth sp /\
                        frame (hp sp) (hp sp') (sd_foot root w) (sd_foot root w').
Proof.
  intros ops fl K s sp root d l RL (w0 & H0) OK r.
  destruct (so_open_then_on_storage ops fl (fun h => so_ops_run h l)
              (fun r sp' => exists h' w w', r = CrOk (h', snd (so_ops_model d l)) /\
                   stored_db_w (hp sp) root d w /\ stored_db_w (hp sp') root (fst (so_ops_model d l)) w' /\
                   so_handles h' w' /\ sdepth sp' = sdepth sp /\
                   frame (hp sp) (hp sp') (sd_foot root w) (sd_foot root w')) K s sp root d w0 RL H0)
    as [D|(sp' & RL' & h' & w & w' & X)]; [|left; exact D|right; exists sp', h', w, w'; split; [exact RL'|exact X]].
  intros h w H Hh _. eapply cwp_mono; [|eapply so_ops_stored; eassumption].
  intros r0 sp' (h' & w' & -> & X). exists h', w, w'. auto.
Qed.
Print Assumptions C05_db_core_operations_preserve_stored_db_partial.

(* the same on the abstract record map, for every answer sequence it allows *)
Theorem C05_db_core_histories_preserve_stored_db :
  forall (fl : bool) root l d w h sp,
    stored_db_w (hp sp) root d w -> so_handles h w -> so_ops_ok d l ->
    cwp fl (so_ops_run h l) sp
        (fun r sp' => exists h' w', r = CrOk (h', snd (so_ops_model d l)) /\
                                    stored_db_w (hp sp') root (fst (so_ops_model d l)) w' /\ so_handles h' w' /\
                                    sdepth sp' = sdepth sp /\ frame (hp sp) (hp sp') (sd_foot root w) (sd_foot root w')).
Proof. exact so_ops_stored. Qed.
Print Assumptions C05_db_core_histories_preserve_stored_db.

(* non-vacuity, by evaluation ON THE STORAGE MODEL: from the example database of C05_db_sample (the storage state its
   creation ended in) the programs so_open; insert_node; reserve_key_value_capacity(id, 1); insert_key_value(id, ("q", a
   17-byte string: out of line)) are run by cp_run on the model of storage.rs; every answer of the storage model is
   replayed on the abstract record map (so_replay: each accepted by spec_step), so the theorems above apply to THIS run:
   the returned id is 4 = DbModel's, the record store the storage model ends with (sy_store = its live records) satisfies
   stored_db for DbModel's result sy_db = insert_key_value (reserve_kv (insert_node_db sx_db) 4) 4 ("q", ..), and load_db
   returns exactly it (with the empty undo stack). *)
Example C05_db_sample_core_operations :
  sy_id = 4%Z /\
  (exists h, snd sy_run = CrOk (h, 4%Z)) /\
  live_values cdata ops_file (fst sy_run) = sy_store /\
  stored_db (m_get sy_store) 1 sy_db /\
  load_db sy_store 1 = Some (clear_undo sy_db).
Proof. exact sy_sample. Qed.
Print Assumptions C05_db_sample_core_operations.

(* ---- graph.rs REMOVALS, graph component only (theories/StoredDbOpsGraph4.v) ----
   GraphImpl::remove_edge and GraphImpl::remove_node as programs over the storage (so_graph_remove_edge,
   so_graph_remove_node: validate_edge / validate_node — an invalid index is a no-op —, one storage transaction,
   remove_from_edge / remove_to_edge = three reads, the head case or the `while` walk to the predecessor (two reads per
   round, as the code), the degree counter; free_index = one read, five writes; node count - 1).  The `while` loops run on
   fuel = capacity, as in Graph.v (running out = CErr, standing for non-termination).  "Graph only": the properties and
   the alias of the removed element are removed by DbImpl (remove_all_values, aliases) — not covered; the statement is about
   with_gr d G' for G' = Graph.remove_edge / Graph.remove_node of gr d.
   remove_edge: FULL algorithm, every edge position in both lists.  Side condition so_remove_edge_ok (explicit; each part
   a consequence of C08's wf): the slots visited are inside the arrays (the edge, its source / target, every slot of the
   walk: prev_ok), the walks end within `capacity` rounds, the decremented counters stay i64 values.
   remove_node: for a node WITHOUT edges (from = to = 0: both unlink loops run zero times) and node count >= 1; the
   cascade over the node's edges (remove_from_edges / remove_to_edges are modelled in StoredDbOps.v) is NOT proved. *)
From Agdb Require Import StoredDbOpsGraph4.

Theorem C05_db_remove_edge_graph_preserves_stored_db :
  forall (fl : bool) root d w h e sp (Q : cres unit -> spec -> Prop),
    stored_db_w (hp sp) root d w -> so_handles h w -> so_graph_ok (gr d) -> so_remove_edge_ok (gr d) e ->
    (forall G', Graph.remove_edge (gr d) e = Some G' ->
       forall s' sp', stored_db_w (hp sp') root (with_gr d G') (sd_with_graph w (sw_g w) s') -> sdepth sp' = sdepth sp ->
         frame (hp sp) (hp sp') (sd_foot root w) (sd_foot root (sd_with_graph w (sw_g w) s')) -> Q (CrOk tt) sp') ->
    cwp fl (so_graph_remove_edge (so_graph h) e) sp Q.
Proof. exact so_remove_edge_stored. Qed.
Print Assumptions C05_db_remove_edge_graph_preserves_stored_db.

Theorem C05_db_remove_isolated_node_graph_preserves_stored_db :
  forall (fl : bool) root d w h index sp (Q : cres unit -> spec -> Prop),
    stored_db_w (hp sp) root d w -> so_handles h w -> so_graph_ok (gr d) ->
    (is_node (gr d) index = true -> from (gr d) index = 0%Z /\ to (gr d) index = 0%Z /\ (1 <= tmeta (gr d) 0)%Z) ->
    (forall G', remove_node (gr d) index = Some G' ->
       forall s' sp', stored_db_w (hp sp') root (with_gr d G') (sd_with_graph w (sw_g w) s') -> sdepth sp' = sdepth sp ->
         frame (hp sp) (hp sp') (sd_foot root w) (sd_foot root (sd_with_graph w (sw_g w) s')) -> Q (CrOk tt) sp') ->
    cwp fl (so_graph_remove_node (so_graph h) index) sp Q.
Proof. exact so_remove_isolated_node_stored. Qed.
Print Assumptions C05_db_remove_isolated_node_graph_preserves_stored_db.

(* non-vacuity: the hypotheses hold of the example database for its edge -3 (1 -> 2, the head of both lists) and
   Graph.remove_edge computes a result *)
Example C05_db_sample_remove_edge :
  so_graph_ok (gr sx_db) /\ so_remove_edge_ok (gr sx_db) (-3)%Z /\ is_edge (gr sx_db) (-3)%Z = true /\
  exists G', Graph.remove_edge (gr sx_db) (-3)%Z = Some G' /\ g_from G' = [0; 0; 0; 0]%Z /\ g_fmeta G' = [-3; 0; 0; -9223372036854775808]%Z.
Proof. exact sy_remove_edge_sample. Qed.
Print Assumptions C05_db_sample_remove_edge.

(* the side condition so_graph_ok is a consequence of C08's well-formedness (what every history of graph.rs operations from
   graph_new satisfies: C08_history_refines) and the capacity bound; so_edge_ok / so_remove_edge_ok (degree counters within
   i64, visited slots inside the arrays, walks that end) are NOT linked to wf here *)
From Agdb Require GraphSim StoredDbOpsLinkWf.
Theorem C05_db_graph_side_condition_from_wf :
  forall g, GraphSim.wf g -> (Graph.capacity g < 1152921504606846976)%Z -> so_graph_ok g.
Proof. exact StoredDbOpsLinkWf.wf_so_graph_ok. Qed.
Print Assumptions C05_db_graph_side_condition_from_wf.

(* ---- the programs of the correspondence run (theories/StoredDbOpsQuery.v) ----
   so_q_insert_node h l / so_q_insert_values h id l are the core operations as the PUBLIC QUERIES issue them inside
   transaction_mut's storage transaction (insert nodes values [l]: insert_node, reserve_key_value_capacity(id, |l|),
   insert_key_value for each pair; insert values [l] ids id: reserve_key_value_capacity, insert_or_replace_key_value for each
   pair) — the programs `hx_core ops` compares byte for byte with the real database.  They keep the database stored and
   compute the composition of DbModel's functions (mq_*: fold_left of insert_key_value / insert_or_replace_key_value);
   so_kvs_ok / so_iors_ok: the side conditions at every intermediate database. *)
From Agdb Require Import StoredDbOpsQuery.

Theorem C05_db_query_insert_node_preserves_stored_db :
  forall (fl : bool) root d w h l sp,
    stored_db_w (hp sp) root d w -> so_handles h w -> so_graph_ok (gr d) ->
    let id := fst (insert_node_db d) in
    let d2 := reserve_kv (snd (insert_node_db d)) id in
    so_index_ok (cg_as_u64 id) -> so_kvs_ok d2 id l ->
    cwp fl (so_q_insert_node h l) sp
        (fun r sp' => exists h' w', r = CrOk (h', id) /\ stored_db_w (hp sp') root (mq_insert_key_values d2 id l) w' /\
                                    so_handles h' w' /\ sdepth sp' = sdepth sp /\
                                    frame (hp sp) (hp sp') (sd_foot root w) (sd_foot root w')).
Proof. exact so_q_insert_node_stored. Qed.
Print Assumptions C05_db_query_insert_node_preserves_stored_db.

Theorem C05_db_query_insert_values_preserves_stored_db :
  forall (fl : bool) root d w h id l sp,
    stored_db_w (hp sp) root d w -> so_handles h w -> so_index_ok (cg_as_u64 id) ->
    so_iors_ok (reserve_kv d id) id l ->
    cwp fl (so_q_insert_values h id l) sp
        (fun r sp' => exists h' w', r = CrOk h' /\
                                    stored_db_w (hp sp') root (mq_insert_or_replace_key_values (reserve_kv d id) id l) w' /\
                                    so_handles h' w' /\ sdepth sp' = sdepth sp /\
                                    frame (hp sp) (hp sp') (sd_foot root w) (sd_foot root w')).
Proof. exact so_q_insert_values_stored. Qed.
Print Assumptions C05_db_query_insert_values_preserves_stored_db.

(* ---- DbKeyValues::remove and the PUBLIC REMOVAL OF AN EDGE (theories/StoredDbOpsKv4.v, StoredDbOpsRemove.v) ----
   so_kv_remove = DbKeyValues::remove: valid_index, kvs, remove_from_storage of the element's vector (the out-of-line
   records of every pair and the vector record are freed: the footprint shrinks, `frame ... []`), then the slot vector is
   popped (VecImpl::remove) when it was the last slot, else the slot is set to 0.  so_q_remove h e for an edge id e =
   what QueryBuilder::remove().ids(e) issues inside transaction_mut's storage transaction: DbImpl::remove_id =
   graph.remove_edge + remove_all_values (none of the edge's keys indexed).  It keeps the database stored and computes
   DbModel's remove_all_values (remove_edge_db d e).
   so_slot_valid (a condition on the WITNESS, i.e. on the file): the element has a property vector (slot <> 0 — every element
   inserted through the public API, which always reserves capacity) or lies beyond the slot vector.  It is needed: for a
   LAST slot holding 0 the code returns at valid_index and keeps the slot, while DbModel's kvs_remove pops the entry — a
   discrepancy between DbModel's `vals` length and the file that no query observes and no API history reaches. *)
From Agdb Require Import StoredDbOpsKv4 StoredDbOpsRemove.

Theorem C05_db_query_remove_edge_preserves_stored_db :
  forall (fl : bool) root d w h e sp,
    stored_db_w (hp sp) root d w -> so_handles h w -> (e < 0)%Z ->
    so_graph_ok (gr d) -> so_remove_edge_ok (gr d) e ->
    so_slot_valid (sw_vi w) (zabs_nat e) ->
    (forall x, In x (kvs_get (vals d) e) -> idx_find (indexes d) (fst x) = None) ->
    cwp fl (so_q_remove h e) sp
        (fun r sp' => exists G' h' w', Graph.remove_edge (gr d) e = Some G' /\ r = CrOk h' /\
                        stored_db_w (hp sp') root (remove_all_values (fst (remove_edge_db d e)) e) w' /\
                        so_handles h' w' /\ sdepth sp' = sdepth sp /\
                        frame (hp sp) (hp sp') (sd_foot root w) (sd_foot root w')).
Proof. exact so_q_remove_edge_stored. Qed.
Print Assumptions C05_db_query_remove_edge_preserves_stored_db.

(* the public removal of a NODE that has no edges and no alias (so_q_remove h n, n > 0: DbImpl::remove_id = remove_node with an
   empty node_edges list — no cascade —, graph.remove_node, remove_all_values): DbModel's remove_node_db d n None succeeds
   (no error) and the final store holds remove_all_values of its result *)
Theorem C05_db_query_remove_isolated_node_preserves_stored_db :
  forall (fl : bool) root d w h n sp,
    stored_db_w (hp sp) root d w -> so_handles h w -> (0 < n)%Z ->
    so_graph_ok (gr d) -> is_node (gr d) n = true ->
    from (gr d) n = 0%Z -> to (gr d) n = 0%Z -> (1 <= tmeta (gr d) 0)%Z ->
    so_slot_valid (sw_vi w) (zabs_nat n) ->
    (forall x, In x (kvs_get (vals d) n) -> idx_find (indexes d) (fst x) = None) ->
    cwp fl (so_q_remove h n) sp
        (fun r sp' => exists h' w', r = CrOk h' /\
                        stored_db_w (hp sp') root (remove_all_values (fst (remove_node_db d n None)) n) w' /\
                        snd (remove_node_db d n None) = None /\
                        so_handles h' w' /\ sdepth sp' = sdepth sp /\
                        frame (hp sp) (hp sp') (sd_foot root w) (sd_foot root w')).
Proof. exact so_q_remove_isolated_node_stored. Qed.
Print Assumptions C05_db_query_remove_isolated_node_preserves_stored_db.

(* ---- THE LINK TO THE VALIDATED QUERY SEMANTICS Queries.exec (theories/StoredDbOpsLink.v) ----
   The theorems above are stated against compositions of DbModel's functions; here the same programs are stated against
   `Queries.exec` — the query semantics compared with the real database on generated histories (C09-C16 correspondence).
   The query shapes the storage-program correspondence (`hx_core ops`) executes:
     lq_insert_node l      = InsertNodes 1 (Single l) [] (Ids [])                        insert().nodes().values([l])
     lq_insert_values id l = InsertValues (Ids [QId id]) (Single l)                      insert().values([l]).ids(id)
     lq_insert_edge f t    = InsertEdges (Ids [QId f]) (Ids [QId t]) (Single []) false (Ids [])   insert().edges().from(f).to(t)
     lq_remove id          = Remove (Ids [QId id])                                       remove().ids(id)
   C05_db_exec_step_shapes: for these shapes `exec_mut_step rv d q` (every revision rv: no flag matters) IS the composition of
   DbModel functions the so_q_* theorems mention, with result count and element ids; C05_db_exec_commits: a successful
   mutating `exec` = the step followed by commit (the undo stack, which stored_db does not look at, is cleared).
   C05_db_exec_*_preserves_stored_db: the program ends in a store that HOLDS `fst (exec rv d q)` and returns the id / count
   `snd (exec rv d q)` reports (qres_ids: result count and the ids of the result's elements). *)
From Agdb Require Import StoredDbOpsLink.

Theorem C05_db_exec_commits :
  forall rv d q d1 n els,
    is_mutating q = true -> exec_mut_step rv d q = StOk d1 (n, els) ->
    Queries.exec rv d q = (DbModel.commit d1, QOk n els).
Proof. exact exec_of_step. Qed.
Print Assumptions C05_db_exec_commits.

Theorem C05_db_exec_step_shapes :
  forall rv d,
    (forall l, let id := fst (insert_node_db d) in
               let d1 := mq_insert_key_values (reserve_kv (snd (insert_node_db d)) id) id l in
               exec_mut_step rv d (lq_insert_node l) = StOk d1 (1%Z, [elem d1 id []])) /\
    (forall id l, graph_index (gr d) id = true ->
               exec_mut_step rv d (lq_insert_values id l) =
               StOk (mq_insert_or_replace_key_values (reserve_kv d id) id l) (Queries.lenZ l, [])) /\
    (forall f t e d1, graph_index (gr d) f = true -> graph_index (gr d) t = true ->
               insert_edge_db d f t = DbModel.ROk (e, d1) ->
               exec_mut_step rv d (lq_insert_edge f t) = StOk (reserve_kv d1 e) (1%Z, [elem (reserve_kv d1 e) e []])) /\
    (forall e G', (e < 0)%Z -> is_edge (gr d) e = true -> Graph.remove_edge (gr d) e = Some G' ->
               exec_mut_step rv d (lq_remove e) = StOk (remove_all_values (fst (remove_edge_db d e)) e) (1%Z, [])) /\
    (forall n, (0 < n)%Z -> is_node (gr d) n = true -> imap_key (aliases d) n = None ->
               snd (remove_node_db d n None) = None ->
               exec_mut_step rv d (lq_remove n) = StOk (remove_all_values (fst (remove_node_db d n None)) n) (1%Z, [])).
Proof.
  intros rv d. split; [intros l; apply step_insert_node|]. split; [intros id l; apply step_insert_values|].
  split; [intros f t e d1; apply step_insert_edge|]. split; [intros e G'; apply step_remove_edge|].
  intros n; apply step_remove_isolated_node.
Qed.
Print Assumptions C05_db_exec_step_shapes.

(* insert().edges().from(f).to(t) as a storage program (so_q_insert_edge: insert_edge, reserve_key_value_capacity(e, 0) inside
   one storage transaction): stored, computing DbModel's insert_edge_db followed by reserve_kv; an invalid endpoint: None,
   the database as before *)
Theorem C05_db_query_insert_edge_preserves_stored_db :
  forall (fl : bool) root d w h f t sp,
    stored_db_w (hp sp) root d w -> so_handles h w -> so_graph_ok (gr d) ->
    (insert_edge (gr d) f t <> None -> so_edge_ok (gr d) f t) ->
    (forall e d1, insert_edge_db d f t = DbModel.ROk (e, d1) -> so_index_ok (cg_as_u64 e)) ->
    cwp fl (so_q_insert_edge h f t) sp
        (fun r sp' =>
           match insert_edge_db d f t with
           | DbModel.ROk (e, d1) =>
             exists h' w', r = CrOk (h', Some e) /\ stored_db_w (hp sp') root (reserve_kv d1 e) w' /\ so_handles h' w' /\
                           sdepth sp' = sdepth sp /\ frame (hp sp) (hp sp') (sd_foot root w) (sd_foot root w')
           | DbModel.RErr _ =>
             r = CrOk (h, None) /\ stored_db_w (hp sp') root d w /\ sdepth sp' = sdepth sp /\
             frame (hp sp) (hp sp') (sd_foot root w) (sd_foot root w)
           end).
Proof. exact so_q_insert_edge_stored. Qed.
Print Assumptions C05_db_query_insert_edge_preserves_stored_db.

Theorem C05_db_exec_insert_node_preserves_stored_db :
  forall (fl : bool) rv root d w h l sp,
    stored_db_w (hp sp) root d w -> so_handles h w -> so_graph_ok (gr d) ->
    let id := fst (insert_node_db d) in
    so_index_ok (cg_as_u64 id) -> so_kvs_ok (reserve_kv (snd (insert_node_db d)) id) id l ->
    let q := InsertNodes 1 (Single l) [] (Ids []) in
    cwp fl (so_q_insert_node h l) sp
        (fun r sp' => exists h' w', r = CrOk (h', id) /\ qres_ids (snd (Queries.exec rv d q)) = Some (1%Z, [id]) /\
                        stored_db_w (hp sp') root (fst (Queries.exec rv d q)) w' /\ so_handles h' w' /\
                        sdepth sp' = sdepth sp /\ frame (hp sp) (hp sp') (sd_foot root w) (sd_foot root w')).
Proof.
  intros fl rv root d w h l sp H Hh OK id Hix Hkv q.
  eapply cwp_mono; [|eapply so_q_insert_node_stored; [exact H|exact Hh|exact OK|exact Hix|exact Hkv]].
  intros r sp' (h' & w' & -> & H' & Hh' & D' & F').
  exact (so_xpost_intro rv root w sp d _ _ _ _ _ h' w' sp' (step_insert_node rv d l) eq_refl H' Hh' D' F').
Qed.
Print Assumptions C05_db_exec_insert_node_preserves_stored_db.

Theorem C05_db_exec_insert_values_preserves_stored_db :
  forall (fl : bool) rv root d w h id l sp,
    stored_db_w (hp sp) root d w -> so_handles h w -> graph_index (gr d) id = true ->
    so_index_ok (cg_as_u64 id) -> so_iors_ok (reserve_kv d id) id l ->
    let q := InsertValues (Ids [QId id]) (Single l) in
    cwp fl (so_q_insert_values h id l) sp
        (fun r sp' => exists h' w', r = CrOk h' /\ qres_ids (snd (Queries.exec rv d q)) = Some (Queries.lenZ l, []) /\
                        stored_db_w (hp sp') root (fst (Queries.exec rv d q)) w' /\ so_handles h' w' /\
                        sdepth sp' = sdepth sp /\ frame (hp sp) (hp sp') (sd_foot root w) (sd_foot root w')).
Proof.
  intros fl rv root d w h id l sp H Hh G Hix Hkv q.
  eapply cwp_mono; [|eapply so_q_insert_values_stored; [exact H|exact Hh|exact Hix|exact Hkv]].
  intros r sp' (h' & w' & -> & H' & Hh' & D' & F').
  exact (so_xpost_intro rv root w sp d _ _ _ _ _ h' w' sp' (step_insert_values rv d id l G) eq_refl H' Hh' D' F').
Qed.
Print Assumptions C05_db_exec_insert_values_preserves_stored_db.

Theorem C05_db_exec_insert_edge_preserves_stored_db :
  forall (fl : bool) rv root d w h f t sp,
    stored_db_w (hp sp) root d w -> so_handles h w -> so_graph_ok (gr d) ->
    is_node (gr d) f = true -> is_node (gr d) t = true -> (0 < f)%Z -> (0 < t)%Z ->
    so_edge_ok (gr d) f t ->
    let e := (- fst (get_free_index (gr d)))%Z in
    so_index_ok (cg_as_u64 e) ->
    let q := InsertEdges (Ids [QId f]) (Ids [QId t]) (Single []) false (Ids []) in
    cwp fl (so_q_insert_edge h f t) sp
        (fun r sp' => exists h' w', r = CrOk (h', Some e) /\ qres_ids (snd (Queries.exec rv d q)) = Some (1%Z, [e]) /\
                        stored_db_w (hp sp') root (fst (Queries.exec rv d q)) w' /\ so_handles h' w' /\
                        sdepth sp' = sdepth sp /\ frame (hp sp) (hp sp') (sd_foot root w) (sd_foot root w')).
Proof.
  intros fl rv root d w h f t sp H Hh OK Nf Nt Pf Pt Hedge e Hix q.
  destruct (insert_edge_db_nodes d f t Nf Nt) as (G' & _ & E). fold e in E.
  eapply cwp_mono; [|eapply so_q_insert_edge_stored'; [exact H|exact Hh|exact OK|exact Hedge|exact E|exact Hix]].
  intros r sp' (h' & w' & -> & H' & Hh' & D' & F' & _).
  exact (so_xpost_intro rv root w sp d _ _ _ _ _ h' w' sp'
           (step_insert_edge rv d f t e _ (graph_index_node _ _ Pf Nf) (graph_index_node _ _ Pt Nt) E) eq_refl H' Hh' D' F').
Qed.
Print Assumptions C05_db_exec_insert_edge_preserves_stored_db.

(* the REJECTED edge insertion: an endpoint (a positive id: a slot beyond the capacity, a removed slot, the slot of an edge) that
   is not a node, on a database at rest (empty undo stack): exec fails (no ids) and returns d itself; the program returns
   None and the store holds d with the SAME witness *)
Theorem C05_db_exec_insert_edge_rejected_preserves_stored_db :
  forall (fl : bool) rv root d w h f t sp,
    stored_db_w (hp sp) root d w -> so_handles h w -> so_graph_ok (gr d) ->
    (0 < f)%Z -> (0 < t)%Z -> is_node (gr d) f && is_node (gr d) t = false -> undo d = [] ->
    let q := InsertEdges (Ids [QId f]) (Ids [QId t]) (Single []) false (Ids []) in
    cwp fl (so_q_insert_edge h f t) sp
        (fun r sp' => r = CrOk (h, None) /\ qres_ids (snd (Queries.exec rv d q)) = None /\
                      fst (Queries.exec rv d q) = d /\
                      stored_db_w (hp sp') root d w /\ sdepth sp' = sdepth sp /\
                      frame (hp sp) (hp sp') (sd_foot root w) (sd_foot root w)).
Proof. exact so_exec_insert_edge_rejected_stored. Qed.
Print Assumptions C05_db_exec_insert_edge_rejected_preserves_stored_db.

Theorem C05_db_exec_remove_edge_preserves_stored_db :
  forall (fl : bool) rv root d w h e sp,
    stored_db_w (hp sp) root d w -> so_handles h w -> (e < 0)%Z -> is_edge (gr d) e = true ->
    so_graph_ok (gr d) -> so_remove_edge_ok (gr d) e ->
    so_slot_valid (sw_vi w) (zabs_nat e) ->
    (forall x, In x (kvs_get (vals d) e) -> idx_find (indexes d) (fst x) = None) ->
    let q := Remove (Ids [QId e]) in
    cwp fl (so_q_remove h e) sp
        (fun r sp' => exists h' w', r = CrOk h' /\ qres_ids (snd (Queries.exec rv d q)) = Some (1%Z, []) /\
                        stored_db_w (hp sp') root (fst (Queries.exec rv d q)) w' /\ so_handles h' w' /\
                        sdepth sp' = sdepth sp /\ frame (hp sp) (hp sp') (sd_foot root w) (sd_foot root w')).
Proof.
  intros fl rv root d w h e sp H Hh He Ie OK Hrm Hslot Hnix q.
  eapply cwp_mono; [|eapply so_q_remove_edge_stored; [exact H|exact Hh|exact He|exact OK|exact Hrm|exact Hslot|exact Hnix]].
  intros r sp' (G' & h' & w' & EG & -> & H' & Hh' & D' & F').
  exact (so_xpost_intro rv root w sp d _ _ _ _ _ h' w' sp' (step_remove_edge rv d e G' He Ie EG) eq_refl H' Hh' D' F').
Qed.
Print Assumptions C05_db_exec_remove_edge_preserves_stored_db.

Theorem C05_db_exec_remove_isolated_node_preserves_stored_db :
  forall (fl : bool) rv root d w h n sp,
    stored_db_w (hp sp) root d w -> so_handles h w -> (0 < n)%Z ->
    so_graph_ok (gr d) -> is_node (gr d) n = true -> imap_key (aliases d) n = None ->
    from (gr d) n = 0%Z -> to (gr d) n = 0%Z -> (1 <= tmeta (gr d) 0)%Z ->
    so_slot_valid (sw_vi w) (zabs_nat n) ->
    (forall x, In x (kvs_get (vals d) n) -> idx_find (indexes d) (fst x) = None) ->
    let q := Remove (Ids [QId n]) in
    cwp fl (so_q_remove h n) sp
        (fun r sp' => exists h' w', r = CrOk h' /\ qres_ids (snd (Queries.exec rv d q)) = Some (1%Z, []) /\
                        stored_db_w (hp sp') root (fst (Queries.exec rv d q)) w' /\ so_handles h' w' /\
                        sdepth sp' = sdepth sp /\ frame (hp sp) (hp sp') (sd_foot root w) (sd_foot root w')).
Proof.
  intros fl rv root d w h n sp H Hh Hn OK Nn Al Ef Et Hc Hslot Hnix q.
  eapply cwp_mono; [|eapply so_q_remove_isolated_node_stored;
                      [exact H|exact Hh|exact Hn|exact OK|exact Nn|exact Ef|exact Et|exact Hc|exact Hslot|exact Hnix]].
  intros r sp' (h' & w' & -> & H' & Er & Hh' & D' & F').
  exact (so_xpost_intro rv root w sp d _ _ _ _ _ h' w' sp' (step_remove_isolated_node rv d n Hn Nn Al Er) eq_refl H' Hh' D' F').
Qed.
Print Assumptions C05_db_exec_remove_isolated_node_preserves_stored_db.

(* ---- the graph side conditions FROM C08's well-formedness (theories/StoredDbOpsLinkWf.v) ----
   so_edge_ok (the two degree counters insert_edge increments stay i64 values) and so_remove_edge_ok (the edge, its source /
   target and every slot the two unlink walks visit are inside the arrays, the walks end within `capacity` rounds, the
   decremented counters stay i64 values) hold of every graph satisfying C08's wf (what every history of graph.rs operations
   from graph_new satisfies: C08_history_refines; a component of Inv) whose capacity is below 2^60; so do the index bounds of
   the ids insert_node / insert_edge hand out and of every existing id.  With C05_db_graph_side_condition_from_wf the
   graph hypotheses of the theorems above are wf and the capacity bound. *)
From Agdb Require Import StoredDbOpsLinkWf.

Theorem C05_db_edge_side_conditions_from_wf :
  forall g, GraphSim.wf g -> (Graph.capacity g < 1152921504606846976)%Z ->
    (forall f t, (0 < f)%Z -> (0 < t)%Z -> is_node g f = true -> is_node g t = true -> so_edge_ok g f t) /\
    (forall e, (e < 0)%Z -> so_remove_edge_ok g e) /\
    so_index_ok (cg_as_u64 (fst (insert_node g))) /\ so_index_ok (cg_as_u64 (- fst (get_free_index g))) /\
    (forall id, graph_index g id = true -> so_index_ok (cg_as_u64 id)).
Proof.
  intros g W Hcap. split; [intros f t; apply wf_so_edge_ok; assumption|]. split; [intros e; apply wf_so_remove_edge_ok; assumption|].
  split; [apply wf_new_ids_ok; assumption|]. split; [apply wf_new_ids_ok; assumption|].
  intros id G. eapply graph_index_ok; eassumption.
Qed.
Print Assumptions C05_db_edge_side_conditions_from_wf.

(* ---- COVERED QUERIES from the invariant, and their histories (theories/StoredDbOpsLinkHist.v, ..LinkHist2.v) ----
   so_cq = the covered query shapes: CqInsertNode l (insert().nodes().values([l])), CqInsertValues id l
   (insert().values([l]).ids(id)), CqInsertEdge f t (insert().edges().from(f).to(t)), CqRemove id (remove().ids(id));
   cq_query = the query of Queries.v, cq_run = the storage program (returning the id of the element it created).
   so_covered d c (every clause a decidable statement about d and c alone):
     capacity (gr d) < 2^60;
     CqInsertNode l      so_kvs_ok: at each pair the key is not indexed (idx_find = None), the pair is valid (el_valid law_dbkv:
                         i64 range, valid UTF-8, lengths < 2^60), the element's vector stays below 2^64 bytes
     CqInsertValues id l graph_index (gr d) id = true; so_iors_ok: the same, and a replaced pair's key is not indexed either
     CqInsertEdge f t    f, t > 0, both existing nodes — or (the rejected insertion the correspondence also runs) one of them
                         not a node and the undo stack empty: the query fails, the program writes nothing and returns None
     CqRemove id         id an edge, or a node with from = to = 0 (no edges) and no alias; none of its keys indexed; AT LEAST
                         ONE PROPERTY (then the file provably holds its property vector: so_slot_valid; for an element without
                         properties that fact lives in the witness only and the theorems above do not expose it)
   C05_db_covered_query_preserves_stored_db: wf (gr d) and so_covered d c suffice — the program ends in a store holding
   `fst (exec rv d q)` and returns the id `snd (exec rv d q)` reports (cq_out).
   C05_db_covered_histories_preserve_stored_db_partial: for EVERY list l of queries each covered in the database it runs on
   (so_covered_all: so_covered, query_ok = no key twice in an insert list — the side condition of C09 / C13 —, capacity
   < 2^60 afterwards), from a stored database satisfying HInv (Inv, db_ok, empty undo stack: what every history from
   db_new satisfies, C13_history_invariant) the programs in sequence end in a store holding the fold of `exec rv_fixed`
   (cq_model; cq_model_fold), return the ids exec reports, and HInv holds again.
   _partial — NOT COVERED: aliases (insert nodes / values with aliases, insert / remove aliases, removal of an aliased node),
   indexes (insert / remove index, any indexed key), cascading removals (a node with edges), removal of an element without
   properties, multi-element queries (count > 1, several ids, search-selected ids, Multi values, each), failing queries
   (rollback), transactions of several queries, remove values. *)
From Agdb Require Import StoredDbOpsLinkHist StoredDbOpsLinkHist2 StoredDbOpsLinkExample.
From Agdb Require HistoryAtomicProofs QueryInvProofs.

Theorem C05_db_covered_query_preserves_stored_db :
  forall (fl : bool) rv root d w h c sp,
    stored_db_w (hp sp) root d w -> so_handles h w -> GraphSim.wf (gr d) -> so_covered d c ->
    cwp fl (cq_run h c) sp
        (fun r sp' => exists h' w', r = CrOk (h', cq_out (snd (Queries.exec rv d (cq_query c)))) /\
                        stored_db_w (hp sp') root (fst (Queries.exec rv d (cq_query c))) w' /\ so_handles h' w' /\
                        sdepth sp' = sdepth sp /\ frame (hp sp) (hp sp') (sd_foot root w) (sd_foot root w')).
Proof. exact so_cq_stored. Qed.
Print Assumptions C05_db_covered_query_preserves_stored_db.

Theorem C05_db_covered_histories_preserve_stored_db_partial :
  forall (fl : bool) root l d w h sp,
    stored_db_w (hp sp) root d w -> so_handles h w -> HistoryAtomicProofs.HInv d -> so_covered_all rv_fixed d l ->
    cwp fl (cq_runs h l) sp
        (fun r sp' => exists h' w', r = CrOk (h', snd (cq_model rv_fixed d l)) /\
                        stored_db_w (hp sp') root (fst (cq_model rv_fixed d l)) w' /\ so_handles h' w' /\
                        HistoryAtomicProofs.HInv (fst (cq_model rv_fixed d l)) /\
                        sdepth sp' = sdepth sp /\ frame (hp sp) (hp sp') (sd_foot root w) (sd_foot root w')).
Proof. exact so_cqs_stored. Qed.
Print Assumptions C05_db_covered_histories_preserve_stored_db_partial.

Theorem C05_db_covered_model_is_exec_fold :
  forall rv l d, fst (cq_model rv d l) = fold_left (fun a c => fst (Queries.exec rv a (cq_query c))) l d.
Proof. intros rv l. induction l as [|c t IH]; intros d; cbn [cq_model fold_left fst]; [reflexivity|apply IH]. Qed.
Print Assumptions C05_db_covered_model_is_exec_fold.

(* non-vacuity on the example database of C05_db_sample (nodes 1, 2, edge -3 from 1 to 2 with one property, an index on a
   key of node 1): its graph is well-formed, the removal of the edge -3 and the insertion of an edge from 2 to 1 are covered,
   so is the two-query history, and exec reports the new edge -4 *)
Example C05_db_sample_covered :
  GraphSim.wf (gr sx_db) /\ so_covered sx_db (CqRemove (-3)) /\ so_covered sx_db (CqInsertEdge 2 1) /\
  so_covered_all rv_fixed sx_db [CqInsertEdge 2 1; CqRemove (-3)] /\
  snd (cq_model rv_fixed sx_db [CqInsertEdge 2 1; CqRemove (-3)]) = [Some (-4)%Z; None].
Proof. exact sx_link_sample. Qed.
Print Assumptions C05_db_sample_covered.

(* the hypotheses of the history theorem hold TOGETHER of the example: sx_db is what four public queries build from db_new
   (insert nodes with an alias and two values; insert nodes; insert edges with a value; insert index — run_items), hence
   HInv sx_db (C13_history_invariant); it lies in the record map sx_g (C05_db_sample) with the witness sx_wit; and the history
   [insert edge 2 -> 1; remove edge -3] is covered *)
Example C05_db_sample_covered_history :
  HistoryAtomicProofs.run_items rv_fixed db_new sx_history = sx_db /\
  HistoryAtomicProofs.HInv sx_db /\ stored_db_w sx_g 1 sx_db sx_wit /\
  so_covered_all rv_fixed sx_db [CqInsertEdge 2 1; CqRemove (-3)].
Proof. exact (conj sx_reached sx_link_sample_hinv). Qed.
Print Assumptions C05_db_sample_covered_history.

(* a rejected insertion is covered too: 3 is the slot of the edge -3, not a node; exec fails and returns sx_db *)
Example C05_db_sample_covered_rejected :
  so_covered sx_db (CqInsertEdge 1 3) /\
  Queries.exec rv_fixed sx_db (cq_query (CqInsertEdge 1 3)) = (sx_db, QErr ENotFound).
Proof. exact sx_covered_rejected. Qed.
Print Assumptions C05_db_sample_covered_rejected.

(* so_covered is decidable: the boolean so_coveredb computes it (theories/StoredDbOpsLinkDec.v) *)
From Agdb Require Import StoredDbOpsLinkDec.
Theorem C05_db_covered_decidable :
  forall d c, so_coveredb d c = true <-> so_covered d c.
Proof. exact so_coveredb_iff. Qed.
Print Assumptions C05_db_covered_decidable.

(* the covered histories on the MODEL OF storage.rs (C04; file-like and memory-like back-ends; theories/
   StoredDbOpsLinkFinal2.v): from any storage state refining a record map that holds d, so_open followed by the programs
   of the history either dies by a panic of the storage (a request beyond 2^64 bytes) or returns exec's ids in a storage
   state refining a record map that holds the fold of exec rv_fixed.  _partial as above. *)
From Agdb Require Import StoredDbOpsLinkFinal2.
Theorem C05_db_covered_histories_on_storage_partial :
  forall (ops : store_ops cdata) (fl : bool), StorageProofs.kind ops fl ->
  forall s sp root d l, Rel s sp -> stored_db (hp sp) root d -> HistoryAtomicProofs.HInv d -> so_covered_all rv_fixed d l ->
    let r := cp_run (st_step cdata ops) (h <~ so_open root ;; cq_runs h l) s in
    snd r = CrDead \/
    exists sp' h' w w', Rel (fst r) sp' /\ snd r = CrOk (h', snd (cq_model rv_fixed d l)) /\
                        stored_db_w (hp sp) root d w /\ stored_db_w (hp sp') root (fst (cq_model rv_fixed d l)) w' /\
                        so_handles h' w' /\ HistoryAtomicProofs.HInv (fst (cq_model rv_fixed d l)) /\ sdepth sp' = sdepth sp /\
                        frame (hp sp) (hp sp') (sd_foot root w) (sd_foot root w').
Proof. exact so_covered_on_storage. Qed.
Print Assumptions C05_db_covered_histories_on_storage_partial.

(* C05 END TO END for covered histories (theories/StoredDbOpsLinkFinal2.v): on the model of storage.rs, from a state (no
   transaction open) refining a record map that holds d (HInv d), run so_open and the programs of a covered history l, then
   a maintenance operation o (optimize_storage / drop + open / backup + open): unless the storage panics, the result is a
   state holding dN = the fold of exec rv_fixed over l, and the database LOADED from it (load_db: what DbImpl::open
   rebuilds) is dN up to sd_eqv and answers every order-independent read-only query (sd_query_ok) EXACTLY as dN does —
   "after any history of mutating queries, reopening / optimizing / backing up yields a database on which the queries
   return the same", for the covered histories.  _partial: as C05_db_covered_histories_preserve_stored_db_partial. *)
Theorem C05_db_covered_histories_then_reopen_partial :
  forall (ops : store_ops cdata) (fl : bool), StorageProofs.kind ops fl ->
  forall rv s sp root d l o,
    Rel s sp -> sdepth sp = 0 -> stored_db (hp sp) root d -> HistoryAtomicProofs.HInv d -> so_covered_all rv_fixed d l ->
    cv_is_maint o = true ->
    let r := cp_run (st_step cdata ops) (h <~ so_open root ;; cq_runs h l) s in
    let dN := fst (cq_model rv_fixed d l) in
    snd r = CrDead \/
    snd (st_step cdata ops (fst r) o) = ObPanic \/
    exists h' sp2 d1,
      snd r = CrOk (h', snd (cq_model rv_fixed d l)) /\
      Rel (fst (st_step cdata ops (fst r) o)) sp2 /\ sdepth sp2 = 0 /\ stored_db (hp sp2) root dN /\
      load_db (sm sp2) root = Some d1 /\ sd_eqv dN d1 /\
      forall q, sd_query_ok q -> snd (Queries.exec rv d1 q) = snd (Queries.exec rv dN q).
Proof.
  intros ops fl K rv s sp root d l o RL Hd H HI OK Hm r dN.
  destruct (so_covered_on_storage ops fl K s sp root d l RL H HI OK) as [D|(sp1 & h' & w & w' & RL1 & E & _ & H1 & _ & HI1 & D1 & _)];
    [left; exact D|right]. fold r in RL1, E. fold dN in H1, HI1.
  destruct (so_then_maintenance ops fl K rv (fst r) sp1 root dN o RL1 (eq_trans D1 Hd) (ex_intro _ w' H1) HI1 Hm)
    as [P|(sp2 & d1 & X)]; [left; exact P|right; exists h', sp2, d1; split; [exact E|exact X]].
Qed.
Print Assumptions C05_db_covered_histories_then_reopen_partial.

(* ---- COVERED HISTORIES WITHOUT THE PROPERTY RESTRICTION ON REMOVALS (theories/StoredDbOpsLinkHist2.v, ..LinkFinal2.v) ----
   The removal of an element WITHOUT properties needs to know that the element's property vector is allocated in the file
   (so_slot_valid: for a LAST slot holding 0 the code keeps the slot while DbModel pops the entry).  That fact is not a
   function of the database d — it is an invariant of the pair (d, witness):
     slots_ok d w   every existing element's slot of the DbKeyValues slot vector is <> 0
   (true of every file the real database writes: every public insertion reserves capacity for the element it creates).
   The DbKeyValues programs and the so_q programs are proved with the slot vector visible (so_q_*_stored': allocated slots stay
   allocated; insert_value / reserve_capacity / insert_or_replace leave the slot they work on allocated; remove frees the
   removed element's slot only), the set of elements changes by exactly the created / removed element (from C08's
   simulation), hence every covered query PRESERVES slots_ok:
   C05_db_covered2_query_preserves_stored_db: wf (gr d) + slots_ok d w + so_covered2 d c (as so_covered; a removal needs no
     property) => the program ends in a store holding fst (exec rv d q), with exec's id, and slots_ok again.
   C05_db_covered2_histories_preserve_stored_db_partial: every history of so_covered2 queries from a stored database with HInv
     and slots_ok: stored for the fold of exec rv_fixed, exec's ids, HInv and slots_ok again.
   C05_db_covered2_histories_then_reopen_partial: the same END TO END on the model of storage.rs (stored_db_slots g root d =
     exists w, stored_db_w g root d w /\ slots_ok d w): programs of the history, optimize_storage / drop + open / backup +
     open, load_db: the loaded database is the fold of exec up to sd_eqv and answers every sd_query_ok query as it does.
   _partial — NOT COVERED: aliases, indexes, cascading removals (a node with edges), multi-element queries, failing queries
   other than the rejected edge insertion, multi-query transactions, remove values / remove aliases / remove index. *)
From Agdb Require Import StoredDbOpsLinkHist2 StoredDbOpsLinkFinal2 StoredDbOpsLinkDec2
  StoredDbOpsLinkExample2.

Theorem C05_db_covered2_query_preserves_stored_db :
  forall (fl : bool) rv root d w h c sp,
    stored_db_w (hp sp) root d w -> so_handles h w -> GraphSim.wf (gr d) -> slots_ok d w -> so_covered2 d c ->
    cwp fl (cq_run h c) sp
        (fun r sp' => exists h' w', r = CrOk (h', cq_out (snd (Queries.exec rv d (cq_query c)))) /\
                        stored_db_w (hp sp') root (fst (Queries.exec rv d (cq_query c))) w' /\ so_handles h' w' /\
                        slots_ok (fst (Queries.exec rv d (cq_query c))) w' /\
                        sdepth sp' = sdepth sp /\ frame (hp sp) (hp sp') (sd_foot root w) (sd_foot root w')).
Proof. exact so_cq_stored2. Qed.
Print Assumptions C05_db_covered2_query_preserves_stored_db.

Theorem C05_db_covered2_histories_preserve_stored_db_partial :
  forall (fl : bool) root l d w h sp,
    stored_db_w (hp sp) root d w -> so_handles h w -> HistoryAtomicProofs.HInv d -> slots_ok d w ->
    so_covered_all2 rv_fixed d l ->
    cwp fl (cq_runs h l) sp
        (fun r sp' => exists h' w', r = CrOk (h', snd (cq_model rv_fixed d l)) /\
                        stored_db_w (hp sp') root (fst (cq_model rv_fixed d l)) w' /\ so_handles h' w' /\
                        HistoryAtomicProofs.HInv (fst (cq_model rv_fixed d l)) /\ slots_ok (fst (cq_model rv_fixed d l)) w' /\
                        sdepth sp' = sdepth sp /\ frame (hp sp) (hp sp') (sd_foot root w) (sd_foot root w')).
Proof. exact so_cqs_stored2. Qed.
Print Assumptions C05_db_covered2_histories_preserve_stored_db_partial.

Theorem C05_db_covered2_histories_on_storage_partial :
  forall (ops : store_ops cdata) (fl : bool), StorageProofs.kind ops fl ->
  forall s sp root d l, Rel s sp -> stored_db_slots (hp sp) root d -> HistoryAtomicProofs.HInv d -> so_covered_all2 rv_fixed d l ->
    let r := cp_run (st_step cdata ops) (h <~ so_open root ;; cq_runs h l) s in
    snd r = CrDead \/
    exists sp' h', Rel (fst r) sp' /\ snd r = CrOk (h', snd (cq_model rv_fixed d l)) /\
                   stored_db_slots (hp sp') root (fst (cq_model rv_fixed d l)) /\
                   HistoryAtomicProofs.HInv (fst (cq_model rv_fixed d l)) /\ sdepth sp' = sdepth sp.
Proof. exact so_covered_on_storage2. Qed.
Print Assumptions C05_db_covered2_histories_on_storage_partial.

Theorem C05_db_covered2_histories_then_reopen_partial :
  forall (ops : store_ops cdata) (fl : bool), StorageProofs.kind ops fl ->
  forall rv s sp root d l o,
    Rel s sp -> sdepth sp = 0%N -> stored_db_slots (hp sp) root d -> HistoryAtomicProofs.HInv d -> so_covered_all2 rv_fixed d l ->
    cv_is_maint o = true ->
    let r := cp_run (st_step cdata ops) (h <~ so_open root ;; cq_runs h l) s in
    let dN := fst (cq_model rv_fixed d l) in
    snd r = CrDead \/
    snd (st_step cdata ops (fst r) o) = ObPanic \/
    exists h' sp2 d1,
      snd r = CrOk (h', snd (cq_model rv_fixed d l)) /\
      Rel (fst (st_step cdata ops (fst r) o)) sp2 /\ sdepth sp2 = 0%N /\ stored_db (hp sp2) root dN /\
      load_db (sm sp2) root = Some d1 /\ sd_eqv dN d1 /\
      forall q, sd_query_ok q -> snd (Queries.exec rv d1 q) = snd (Queries.exec rv dN q).
Proof.
  intros ops fl K rv s sp root d l o RL Hd H HI OK Hm r dN.
  destruct (so_covered_on_storage2 ops fl K s sp root d l RL H HI OK) as [D|(sp1 & h' & RL1 & E & (w' & H1 & _) & HI1 & D1)];
    [left; exact D|right]. fold r in RL1, E. fold dN in H1, HI1.
  destruct (so_then_maintenance ops fl K rv (fst r) sp1 root dN o RL1 (eq_trans D1 Hd) (ex_intro _ w' H1) HI1 Hm)
    as [P|(sp2 & d1 & X)]; [left; exact P|right; exists h', sp2, d1; split; [exact E|exact X]].
Qed.
Print Assumptions C05_db_covered2_histories_then_reopen_partial.

Theorem C05_db_covered2_decidable :
  forall d c, (so_coveredb2 d c = true <-> so_covered2 d c) /\ (so_covered d c -> so_covered2 d c).
Proof.
  intros d c. split; [|apply so_covered_covered2]. destruct c as [l|id l|f t|id]; try apply so_coveredb_iff.
  unfold so_coveredb2, so_covered2, so_cap_ok. rewrite <- andb_assoc, andb_true_iff, remove_okb_iff, Z.ltb_lt. tauto.
Qed.
Print Assumptions C05_db_covered2_decidable.

(* non-vacuity.  In the HAND-BUILT example file node 2 has no property vector (slot 0): slots_ok fails there — no file written
   by the real database looks like that.  Running `insert values [] ids 2` on it (so_open; so_q_insert_values on the model
   of storage.rs, every answer replayed on the abstract record map) allocates the vector and changes nothing else: the
   record map reached HOLDS sx_db with slots_ok; sx_db satisfies HInv; and the history [insert edge 2 -> 1; remove that edge
   (-4, which has no property)] is covered *)
Example C05_db_sample_covered2_history :
  exists sp w, stored_db_w (hp sp) 1 sx_db w /\ slots_ok sx_db w /\ HistoryAtomicProofs.HInv sx_db /\
               so_covered_all2 rv_fixed sx_db [CqInsertEdge 2 1; CqRemove (-4)] /\
               kvs_get (vals (fst (Queries.exec rv_fixed sx_db (cq_query (CqInsertEdge 2 1))))) (-4) = [].
Proof. exact sz_sample. Qed.
Print Assumptions C05_db_sample_covered2_history.

(* ---- ALIASES: DbImpl::insert_new_alias as a storage program (theories/StoredDbOpsAlias.v, ..Alias2.v, ..Alias3.v) ----
   so_alias_insert_new hs hi x a id alias = DbImpl::insert_new_alias(db_id, alias): the undo push is in memory;
   self.aliases.insert = IndexedMapImpl::insert = keys_to_values.insert(alias, id) then values_to_keys.insert(id, alias),
   each MapImpl::insert = MultiMapImpl::insert_or_replace(|_| true): transaction; the probe loop from hash % capacity over
   data.state / data.key (on fuel = capacity: running out of it is CDead, which the theorem excludes); do_insert =
   set_state(Valid), set_key, set_value, set_len(len + 1); commit.  a = the two DbMapData handles (so_alias_handles: those
   of the witness).
   _partial — ASSUMED / NOT MODELLED:
     * the branches that are not executed under the hypotheses are PARAMETERS of the program (x : so_alias_rest; the theorem
       holds for every x): the grow `len >= max_len => rehash(capacity * 2)`, the in-place rehash after a full probe cycle,
       and the removals IndexedMapImpl::insert performs when an insertion replaced a previous value / key;
     * so_alias_tables_ok: C19's invariant PInv of the two STORED tables (what every history of multi_map.rs operations from
       the empty table satisfies — C19_table_refines_multimap; it is an explicit hypothesis here, and it is RE-ESTABLISHED
       for the new tables), for hash functions hs / hi (every function) and a minimum capacity >= 4 (64 in the code);
     * the alias is NEW (imap_value = None) and the id has NO alias (imap_key = None) — the situation in which db.rs
       calls insert_new_alias after its own lookups;
     * so_alias_new_ok: neither table grows (len < capacity * 15 / 16 — in particular the tables are not empty: the first
       insertion into an empty table always grows), neither probe comes back to its start (stated on OpenMap.v's ior_loop
       at the revision with the wrap guard: no in-place rehash), the alias / the id are valid elements (el_valid
       law_string / law_i64), len + 1 < 2^64.
   Conclusion: the store holds DbModel's insert_new_alias d id alias, the witness changed in the two alias components only
   (the graph / values handles stay valid), both tables satisfy PInv again, depth restored, frame. *)
From Agdb Require Import StoredDbOpsAlias StoredDbOpsAlias2 StoredDbOpsAlias3 StoredDbOpsAlias5.

Theorem C05_db_insert_new_alias_preserves_stored_db_partial :
  forall (hs : bytes -> N) (hi : Z -> N) (mincap : nat), (4 <= mincap)%nat ->
  forall (fl : bool) x root d w h a id alias sp,
    stored_db_w (hp sp) root d w -> so_handles h w -> so_alias_handles a w -> so_alias_tables_ok hs hi mincap w ->
    imap_value (aliases d) alias = None -> imap_key (aliases d) id = None ->
    so_alias_new_ok hs hi w id alias ->
    cwp fl (so_alias_insert_new hs hi x a id alias) sp
        (fun r sp' => exists a' w', r = CrOk a' /\ stored_db_w (hp sp') root (insert_new_alias d id alias) w' /\
                        so_handles h w' /\ so_alias_handles a' w' /\ so_alias_tables_ok hs hi mincap w' /\
                        (exists m1 m2, w' = sd_with_a2 (sd_with_a1 w m1) m2) /\
                        sdepth sp' = sdepth sp /\ frame (hp sp) (hp sp') (sd_foot root w) (sd_foot root w')).
Proof. exact so_alias_insert_new_stored. Qed.
Print Assumptions C05_db_insert_new_alias_preserves_stored_db_partial.

(* the generic step: MapImpl::insert of an ABSENT key on ANY represented DbMapData (also the id tables of the indexes), no grow
   and no full probe cycle: the table the program leaves is the one OpenMap.v's insert_or_replace computes — PInv again, the
   pairs are (key, value) :: the old ones as a multiset *)
Theorem C05_map_insert_absent_partial :
  forall (K V : Type) (EK : cv_elem K) (EV : cv_elem V) (LK : elem_law EK) (LV : elem_law EV)
         (keqb : K -> K -> bool) (veqb : V -> V -> bool) (hk : K -> N) (mincap : nat) (fl : bool),
    (forall a b, keqb a b = true <-> a = b) -> (forall a b, veqb a b = true <-> a = b) -> (4 <= mincap)%nat ->
  forall x d ss ks vs t key nv sp,
    mrep K V EK EV LK LV (hp sp) d ss ks vs t -> OpenMapRefineStep.PInv K V hk mincap (ct_omap K V t) ->
    so_key_absent K V keqb (ct_slots K V (ct_states t) (ct_keys t) (ct_values t)) key ->
    so_no_grow K V t -> so_no_full_cycle K V keqb hk t key nv ->
    el_valid LK key -> el_valid LV nv -> (ct_len t + 1 < two64)%N ->
    cwp fl (so_map_insert K V EK EV keqb hk x d key nv) sp
        (fun r sp' => exists d' ss' ks' vs' t',
           r = CrOk (d', None) /\ mrep K V EK EV LK LV (hp sp') d' ss' ks' vs' t' /\ cm_index d' = cm_index d /\
           OpenMapRefineStep.PInv K V hk mincap (ct_omap K V t') /\
           Permutation (sd_table_entries t') ((key, nv) :: sd_table_entries t) /\
           sdepth sp' = sdepth sp /\
           frame (hp sp) (hp sp') (mfoot K V EK EV LK LV d ss ks vs) (mfoot K V EK EV LK LV d' ss' ks' vs')).
Proof.
  intros K V EK EV LK LV keqb veqb hk mincap fl E1 E2 Hm x d ss ks vs t key nv sp HM HP Ha Hg Hf VK VV HL.
  eapply (so_map_insert_absent K V EK EV LK LV keqb veqb hk mincap fl E1 E2 Hm); eauto.
  intros d' ss' ks' vs' t' sp' A B C D E F. exists d', ss', ks', vs', t'. auto 10.
Qed.
Print Assumptions C05_map_insert_absent_partial.

(* non-vacuity (theories/StoredDbOpsAliasExample.v).  The alias tables of the HAND-BUILT example file have capacity 2: below the
   minimum capacity of C19's invariant and full, an insertion would grow them.  Resizing both to capacity 4 (DbMapData::resize
   run on the model of storage.rs, every answer replayed on the abstract record map) gives a record map that HOLDS THE SAME
   database sx_db; for the hash functions sa_hs = (fun _ => 1), sa_hi = (fun _ => 0) and minimum capacity 4 all hypotheses of
   C05_db_insert_new_alias_preserves_stored_db_partial hold TOGETHER for the new alias sa_new = "k" and the id 2 *)
From Agdb Require Import StoredDbOpsAliasExample.
Example C05_db_sample_insert_new_alias :
  exists sp w h a,
    stored_db_w (hp sp) 1 sx_db w /\ so_handles h w /\ so_alias_handles a w /\ so_alias_tables_ok sa_hs sa_hi 4 w /\
    imap_value (aliases sx_db) sa_new = None /\ imap_key (aliases sx_db) 2%Z = None /\
    so_alias_new_ok sa_hs sa_hi w 2%Z sa_new.
Proof. exact sa_sample. Qed.
Print Assumptions C05_db_sample_insert_new_alias.

(* ... and the program RUNS (theories/StoredDbOpsAliasExample.v): sb_prog = the two resizes, then so_alias_insert_new for the id 2
   and the alias "k" with EVERY unmodelled branch instantiated by CDead (entering one would kill the run).  On the file-like
   model of storage.rs the run ends (so_replay) and the record map it reaches holds insert_new_alias sx_db 2 "k": "k" names
   node 2, node 2 has the alias "k", the old alias still names node 1 *)
Example C05_db_sample_insert_new_alias_run :
  exists sp w, stored_db_w (hp sp) 1 (insert_new_alias sx_db 2%Z sa_new) w /\
               imap_value (aliases (insert_new_alias sx_db 2%Z sa_new)) sa_new = Some 2%Z /\
               imap_key (aliases (insert_new_alias sx_db 2%Z sa_new)) 2%Z = Some sa_new /\
               imap_value (aliases (insert_new_alias sx_db 2%Z sa_new)) sx_alias = Some 1%Z.
Proof. exact sb_sample. Qed.
Print Assumptions C05_db_sample_insert_new_alias_run.

(* ---- insert_new_alias with the CODE's grow and in-place rehash (theories/StoredDbOpsAlias4.v .. Alias8.v) ----
   so_rehash_loop / so_rehash_values = MultiMapImpl::rehash_values (state(i); Deleted below the new capacity -> set_state Empty;
   Valid not yet placed -> key(i), probe the in-memory occupancy bits from hash % new_capacity, swap(i, pos)), proved against
   OpenMap.v's rehash_loop (so_rehash_loop_spec: the table left has exactly the model's slot list); so_map_rip =
   rehash_in_place; so_map_rehash / so_map_grow = rehash(capacity * 2) = DbMapData::resize(max(2 * capacity, 64)) then
   rehash_values; so_map_code = these two as the so_map_rest of the code.
   C05_map_insert_absent_any_fill_partial: MapImpl::insert of an absent key with so_map_code on ANY represented DbMapData that
     satisfies C19's invariant (minimum capacity 64) — empty (capacity 0: grows to 64), full (grows to twice the capacity), or
     without an Empty slot (full probe cycle: inserts at the first Deleted slot and rehashes in place): the table left is the
     one OpenMap.v's insert_or_replace computes (PInv again, pairs = (key, value) :: old pairs as a multiset).
   C05_db_insert_new_alias_any_fill_preserves_stored_db_partial: so_alias_insert_new with so_alias_code (the code's grow /
     rehash for both tables) keeps the database stored, for ANY fill of the two alias tables.
   _partial — ASSUMED: so_alias_tables_ok (PInv of the two stored tables, explicit hypothesis, re-established); the alias
   is new and the id has no alias (then the two removals of IndexedMapImpl::insert are not executed: they stay parameters rm1,
   rm2); the elements are valid, len + 1 < 2^64, and a table that grows keeps its three vectors below 2^64 bytes
   (so_alias_new_ok2 / so_grow_ok); hash functions: every function. *)
From Agdb Require Import StoredDbOpsAlias4 StoredDbOpsAlias5 StoredDbOpsAlias7 StoredDbOpsAlias8.

Theorem C05_map_insert_absent_any_fill_partial :
  forall (K V : Type) (EK : cv_elem K) (EV : cv_elem V) (LK : elem_law EK) (LV : elem_law EV)
         (keqb : K -> K -> bool) (veqb : V -> V -> bool) (hk : K -> N) (kdef : K) (vdef : V) (fl : bool),
    (forall a b, keqb a b = true <-> a = b) -> (forall a b, veqb a b = true <-> a = b) ->
    el_valid LK kdef -> el_valid LV vdef ->
  forall d ss ks vs t key nv sp,
    mrep K V EK EV LK LV (hp sp) d ss ks vs t -> OpenMapRefineStep.PInv K V hk 64 (ct_omap K V t) ->
    so_key_absent K V keqb (ct_slots K V (ct_states t) (ct_keys t) (ct_values t)) key ->
    el_valid LK key -> el_valid LV nv -> (ct_len t + 1 < two64)%N ->
    ((so_max_len (lenN (ct_states t)) <= ct_len t)%N -> so_grow_ok K V EK EV t) ->
    cwp fl (so_map_insert K V EK EV keqb hk (so_map_code K V EK EV hk kdef vdef) d key nv) sp
        (fun r sp' => exists d' ss' ks' vs' t',
           r = CrOk (d', None) /\ mrep K V EK EV LK LV (hp sp') d' ss' ks' vs' t' /\ cm_index d' = cm_index d /\
           OpenMapRefineStep.PInv K V hk 64 (ct_omap K V t') /\
           Permutation (sd_table_entries t') ((key, nv) :: sd_table_entries t) /\
           sdepth sp' = sdepth sp /\
           frame (hp sp) (hp sp') (mfoot K V EK EV LK LV d ss ks vs) (mfoot K V EK EV LK LV d' ss' ks' vs')).
Proof.
  intros K V EK EV LK LV keqb veqb hk kdef vdef fl E1 E2 D1 D2 d ss ks vs t key nv sp HM HP Ha VK VV HL HG.
  eapply (so_map_insert_absent_full K V EK EV LK LV keqb veqb hk kdef vdef fl E1 E2 D1 D2); eauto.
  intros d' ss' ks' vs' t' sp' A B C D E F. exists d', ss', ks', vs', t'. auto 10.
Qed.
Print Assumptions C05_map_insert_absent_any_fill_partial.

Theorem C05_db_insert_new_alias_any_fill_preserves_stored_db_partial :
  forall (hs : bytes -> N) (hi : Z -> N) (fl : bool) rm1 rm2 root d w h a id alias sp,
    stored_db_w (hp sp) root d w -> so_handles h w -> so_alias_handles a w -> so_alias_tables_ok hs hi 64 w ->
    imap_value (aliases d) alias = None -> imap_key (aliases d) id = None ->
    so_alias_new_ok2 w id alias ->
    cwp fl (so_alias_insert_new hs hi (so_alias_code hs hi rm1 rm2) a id alias) sp
        (fun r sp' => exists a' w', r = CrOk a' /\ stored_db_w (hp sp') root (insert_new_alias d id alias) w' /\
                        so_handles h w' /\ so_alias_handles a' w' /\ so_alias_tables_ok hs hi 64 w' /\
                        (exists m1 m2, w' = sd_with_a2 (sd_with_a1 w m1) m2) /\
                        sdepth sp' = sdepth sp /\ frame (hp sp) (hp sp') (sd_foot root w) (sd_foot root w')).
Proof. exact so_alias_insert_new_stored_full. Qed.
Print Assumptions C05_db_insert_new_alias_any_fill_preserves_stored_db_partial.

(* non-vacuity of the GROW path (theories/StoredDbOpsAliasExample.v): sg_prog = DbMapData::new (an EMPTY table, capacity 0: what
   the alias tables of a new database are), then MapImpl::insert("k", 2) with so_map_code.  The run on the file-like model of
   storage.rs from the initial state ENDS (the table is resized to 64 slots, rehashed, the pair inserted) and the record map
   it reaches represents a table that satisfies C19's invariant with minimum capacity 64, has at least 64 slots and holds
   exactly the pair ("k", 2) *)
Example C05_map_sample_insert_into_empty_grows :
  exists sp d ss ks vs t,
    mrep bytes Z ce_string ce_i64 law_string law_i64 (hp sp) d ss ks vs t /\
    OpenMapRefineStep.PInv bytes Z sa_hs 64 (ct_omap bytes Z t) /\ Permutation (sd_table_entries t) [(sa_new, 2%Z)] /\
    (64 <= lenN (ct_states t))%N.
Proof. exact sg_sample. Qed.
Print Assumptions C05_map_sample_insert_into_empty_grows.

(* the size side conditions from ONE bound (theories/StoredDbOpsAlias9.v): both alias tables have fewer than 2^56 slots
   (so_cap_bound); then len + 1 < 2^64 follows from PInv and the grown vectors fit.  What is left to assume: PInv of the two
   stored tables, the alias is new, the id has no alias, the alias is a valid String element (valid UTF-8, 8 + length < 2^64),
   the id an i64 *)
From Agdb Require Import StoredDbOpsAlias9.
Theorem C05_db_insert_new_alias_bounded_preserves_stored_db_partial :
  forall (hs : bytes -> N) (hi : Z -> N) (fl : bool) rm1 rm2 root d w h a id alias sp,
    stored_db_w (hp sp) root d w -> so_handles h w -> so_alias_handles a w -> so_alias_tables_ok hs hi 64 w ->
    imap_value (aliases d) alias = None -> imap_key (aliases d) id = None ->
    (lenN (ct_states (mw_t (sw_a1 w))) < so_cap_bound)%N -> (lenN (ct_states (mw_t (sw_a2 w))) < so_cap_bound)%N ->
    el_valid law_string alias -> el_valid law_i64 id ->
    cwp fl (so_alias_insert_new hs hi (so_alias_code hs hi rm1 rm2) a id alias) sp
        (fun r sp' => exists a' w', r = CrOk a' /\ stored_db_w (hp sp') root (insert_new_alias d id alias) w' /\
                        so_handles h w' /\ so_alias_handles a' w' /\ so_alias_tables_ok hs hi 64 w' /\
                        (exists m1 m2, w' = sd_with_a2 (sd_with_a1 w m1) m2) /\
                        sdepth sp' = sdepth sp /\ frame (hp sp) (hp sp') (sd_foot root w) (sd_foot root w')).
Proof. exact so_alias_insert_new_stored_caps. Qed.
Print Assumptions C05_db_insert_new_alias_bounded_preserves_stored_db_partial.
