(* CollVec.v — proofs (collections): every operation of the storage-backed vector
   (vec.rs: DbVec::new / from_storage, VecImpl::push / remove / replace / swap / reserve /
   resize / shrink_to_fit / value / iter, DbVecData::remove_from_storage) refines the list
   operation it stands for, keeps the representation invariant `vrep`, leaves the transaction
   depth as it was and touches exactly its footprint (`frame`); hence a vector is not disturbed
   by an operation on a structure next to it (`vrep_frame`).

   vrep g h slots l:  the record g(index h) = le64 (len h) ++ concat slots ++ spare (spare
   bytes unconstrained), slot i represents l[i], len h = |l| <= capacity h, 8 + size * |l|
   fits in a u64, the index and the records owned by the slots are pairwise distinct. *)
From Agdb Require Import Bytes BytesProofs Storage StorageSpec StorageLayout Collections CollWp CollBytes
  CollVecBase CollSep CollVecOps.
From Coq Require Import ZifyBool ZifyNat ZifyN Permutation.
Open Scope N_scope.

Section Vec.
  Variable T : Type.
  Variable E : cv_elem T.
  Variable L : elem_law E.
  Variable fl : bool.

  Let sz := ce_size E.
  Let k := N.to_nat sz.

  Notation owned := (owned T E L).
  Notation vinv := (vinv T E L).
  Notation rep := (el_rep L).
  Notation own := (el_own L).

  Definition foot (h : cv_vec) (bss : list bytes) : list N := cv_index h :: owned bss.

  Record vrep (g : heap) (h : cv_vec) (bss : list bytes) (l : list T) : Prop := {
    vr_inv : vinv g (cv_index h) (cv_len h) bss l;
    vr_len : cv_len h = lenN l;
    vr_cap : cv_len h <= cv_cap h;
    vr_fits : 8 + sz * lenN l < two64
  }.

  Lemma vrep_lenN g h bss l : vrep g h bss l -> lenN bss = cv_len h.
  Proof. intros H. rewrite (vr_len _ _ _ _ H). unfold lenN. rewrite (vinv_lengths T E L _ _ _ _ _ (vr_inv _ _ _ _ H)). reflexivity. Qed.

  Lemma vrep_heq g g' h bss l : vrep g h bss l -> heq g' g -> vrep g' h bss l.
  Proof. intros [H1 H2 H3 H4] Hm. constructor; auto. eapply vinv_heq; eauto. Qed.

  Lemma cv_new_spec sp (Q : cres cv_vec -> spec -> Prop) :
    (forall h sp', vrep (hp sp') h [] [] -> cv_index h <> 0 -> cv_index h < two64 -> hp sp (cv_index h) = None -> sdepth sp' = sdepth sp ->
        frame (hp sp) (hp sp') [] (foot h []) -> Q (CrOk h) sp') ->
    cwp fl cv_new sp Q.
  Proof.
    intros HQ. unfold cv_new. apply cwp_bind. apply hwp_insert. intros i sp' Hi Hlt Hn Hm Hd. cbn [kont cwp].
    apply HQ; cbn [cv_index cv_len cv_cap]; auto.
    - constructor; cbn [cv_index cv_len cv_cap].
      + constructor.
        * exists []. rewrite Hm. cbn [concat app]. rewrite app_nil_r. apply hupd_same.
        * constructor.
        * cbn. constructor; [intros []|constructor].
      + reflexivity.
      + lia.
      + unfold lenN. cbn [length]. unfold two64. lia.
    - exact (frame_insert _ _ _ _ Hn Hm).
  Qed.

  Lemma cv_reallocate_spec h bss l c sp (Q : cres cv_vec -> spec -> Prop) :
    vrep (hp sp) h bss l -> cv_len h <= c ->
    (forall sp', vrep (hp sp') (cv_set_cap h c) bss l -> sdepth sp' = sdepth sp ->
        frame (hp sp) (hp sp') (foot h bss) (foot h bss) -> Q (CrOk (cv_set_cap h c)) sp') ->
    cwp fl (cv_reallocate T E h c) sp Q.
  Proof.
    intros HR Hc HQ. unfold cv_reallocate. apply cwp_bind.
    destruct (vinv_rec_get T E L _ _ _ _ _ (vr_inv _ _ _ _ HR)) as (spare & Hrec).
    eapply (wr_resize T E fl); [exact Hrec|eapply vinv_chunks; exact (vr_inv _ _ _ _ HR)|rewrite (vrep_lenN _ _ _ _ HR); exact Hc|].
    intros spare' sp' Hm Hd. cbn [kont cwp]. apply HQ; [|exact Hd|].
    - destruct HR as [H1 H2 H3 H4]. constructor; cbn [cv_set_cap cv_index cv_len cv_cap]; auto.
      eapply vinv_rewrite; eauto.
    - eapply frame_hupd; [|exact Hm]. left; reflexivity.
  Qed.

  Lemma cv_data_resize_spec h bss l new_len x sp (Q : cres cv_vec -> spec -> Prop) :
    vrep (hp sp) h bss l -> el_valid L x -> new_len <= cv_cap h -> 8 + sz * new_len < two64 ->
    (forall bss' sp', vrep (hp sp') (cv_set_len h new_len) bss' (cl_resize l (N.to_nat new_len) x) -> sdepth sp' = sdepth sp ->
        frame (hp sp) (hp sp') (foot h bss) (foot h bss') -> Q (CrOk (cv_set_len h new_len)) sp') ->
    cwp fl (cv_data_resize T E h new_len x) sp Q.
  Proof.
    intros HR Hv Hcap Hfit HQ. unfold cv_data_resize.
    pose proof (vrep_lenN _ _ _ _ HR) as HlenB. pose proof (vr_len _ _ _ _ HR) as HlenL.
    pose proof (vr_inv _ _ _ _ HR) as HI.
    apply cwp_bind. apply hwp_transaction. intros sp0 Hm0 Hd0. cbn [kont].
    assert (HI0 : vinv (hp sp0) (cv_index h) (cv_len h) bss l) by (eapply vinv_heq; eauto).
    destruct (N.le_gt_cases (cv_len h) new_len) as [Hge|Hlt].
    - apply cwp_bind. rewrite <- HlenB.
      eapply (fill_spec T E L fl x Hv); [exact HI0|]. intros bss2 sp1 Hl2 HI1 Hd1 Hf1. cbn [kont].
      replace (N.to_nat (lenN bss - new_len)) with 0%nat by lia. cbn [cv_drop cbind].
      apply cwp_bind. destruct (vinv_rec_get T E L _ _ _ _ _ HI1) as (spare1 & Hrec1).
      eapply wr_header; [exact Hrec1|]. intros sp2 Hm2 Hd2. cbn [kont].
      apply cwp_bind. apply hwp_commit_tx; [congruence|]. intros sp3 Hm3 Hd3. cbn [kont cwp].
      assert (Hl : cl_resize l (N.to_nat new_len) x = l ++ repeat x (N.to_nat (new_len - lenN bss))).
      { unfold cl_resize. rewrite firstn_all2 by (unfold lenN in *; lia). f_equal. f_equal. unfold lenN in *. lia. }
      apply (HQ (bss ++ bss2) sp3); [|exact Hd3|].
      + constructor; cbn [cv_set_len cv_index cv_len cv_cap].
        * rewrite Hl. eapply vinv_heq; [|exact Hm3]. eapply vinv_rewrite; [exact HI1|exact Hm2].
        * unfold lenN. rewrite cl_resize_length. lia.
        * exact Hcap.
        * unfold lenN. rewrite cl_resize_length. rewrite N2Nat.id. exact Hfit.
      + apply (frame_tx _ _ _ _ _ _ Hm0 Hm3). eapply frame_trans; [exact Hf1|].
        eapply frame_hupd; [left; reflexivity|exact Hm2].
    - replace (N.to_nat (new_len - cv_len h)) with 0%nat by lia. cbn [cv_fill cbind].
      assert (Hl : cl_resize l (N.to_nat new_len) x = firstn (N.to_nat new_len) l ++ []).
      { unfold cl_resize. replace (N.to_nat new_len - length l)%nat with 0%nat by (unfold lenN in *; lia). reflexivity. }
      destruct (vinv_rec_get T E L _ _ _ _ _ HI0) as (spare & Hrec0).
      pose proof (vinv_chunks T E L _ _ _ _ _ HI0) as Hc.
      rewrite <- (firstn_skipn (N.to_nat new_len) l) in HI0.
      destruct (vinv_split T E L _ _ _ _ _ _ HI0) as (A & B & -> & HLA & HP).
      rewrite firstn_length in HLA. rewrite lenN_app in HlenB.
      apply cwp_bind.
      replace (N.to_nat (cv_len h - new_len)) with (length B) by (unfold lenN in *; lia).
      replace new_len with (lenN A) at 1 by (unfold lenN in *; lia).
      eapply (drop_spec T E L fl B _ (cv_index h) (cv_len h) A A _ spare); [exact Hrec0|exact Hc|exact HP|].
      intros sp1 Hi1 HP1 Hd1 Hf1. cbn [kont].
      apply cwp_bind. eapply wr_header; [rewrite Hi1; exact Hrec0|]. intros sp2 Hm2 Hd2. cbn [kont].
      apply cwp_bind. apply hwp_commit_tx; [congruence|]. intros sp3 Hm3 Hd3. cbn [kont cwp].
      apply (HQ A sp3); [|exact Hd3|].
      + constructor; cbn [cv_set_len cv_index cv_len cv_cap].
        * (* the dropped slots count as spare bytes *)
          rewrite Hl, <- (app_nil_r A). eapply (parts_close T E L _ _ _ _ _ _ _ _ (concat B ++ spare)); [exact HP1| |].
          -- rewrite Hm3, Hm2, hupd_same. rewrite app_nil_r, concat_app, <- app_assoc. reflexivity.
          -- intros j Hj. rewrite Hm3, Hm2. apply hupd_other. congruence.
        * unfold lenN. rewrite cl_resize_length. lia.
        * exact Hcap.
        * unfold lenN. rewrite cl_resize_length. rewrite N2Nat.id. exact Hfit.
      + unfold foot. rewrite owned_app. change (owned []) with (@nil N) in Hf1. rewrite app_nil_r in Hf1.
        apply (frame_tx _ _ _ _ _ _ Hm0 Hm3). eapply frame_trans; [exact Hf1|].
        eapply frame_hupd; [left; reflexivity|exact Hm2].
  Qed.

  Lemma grow_cap_gt c : c < cv_grow_cap c.
  Proof.
    unfold cv_grow_cap. destruct (N.eqb_spec c 0); [lia|]. destruct (N.eqb_spec c 1); [lia|].
    assert (1 <= c / 2) by (apply N.div_le_lower_bound; lia). lia.
  Qed.

  Lemma cv_push_spec h bss l x sp (Q : cres cv_vec -> spec -> Prop) :
    vrep (hp sp) h bss l -> el_valid L x -> 8 + sz * (lenN l + 1) < two64 ->
    (forall h' bss' sp', vrep (hp sp') h' bss' (l ++ [x]) -> cv_index h' = cv_index h -> sdepth sp' = sdepth sp ->
        frame (hp sp) (hp sp') (foot h bss) (foot h' bss') -> Q (CrOk h') sp') ->
    cwp fl (cv_push T E h x) sp Q.
  Proof.
    intros HR Hv Hfit HQ. unfold cv_push. apply cwp_bind.
    pose proof (vr_len _ _ _ _ HR) as HlenL. pose proof (vr_cap _ _ _ _ HR) as Hcap.
    assert (Hres : forall l', cl_resize l (N.to_nat (lenN l + 1)) x = l' -> l' = l ++ [x]).
    { intros l' <-. unfold cl_resize. rewrite firstn_all2 by (unfold lenN; lia).
      replace (N.to_nat (lenN l + 1) - length l)%nat with 1%nat by (unfold lenN; lia). reflexivity. }
    destruct (N.eqb_spec (cv_len h) (cv_cap h)) as [Eq|Ne].
    - pose proof (grow_cap_gt (cv_cap h)) as Hg.
      eapply cv_reallocate_spec; [exact HR|lia|]. intros sp1 HR1 Hd1 Hf1. cbn [kont].
      eapply cv_data_resize_spec; [exact HR1|exact Hv|cbn [cv_set_cap cv_len cv_cap]; lia|cbn [cv_set_cap cv_len]; rewrite HlenL; exact Hfit|].
      intros bss' sp2 HR2 Hd2 Hf2. cbn [cv_set_cap cv_len] in HR2. rewrite HlenL in HR2.
      rewrite (Hres _ eq_refl) in HR2. cbn [cv_set_cap cv_len]. rewrite HlenL.
      eapply HQ; [exact HR2|reflexivity|congruence|]. eapply frame_trans; eassumption.
    - cbn [cwp kont].
      eapply cv_data_resize_spec; [exact HR|exact Hv|lia|rewrite HlenL; exact Hfit|].
      intros bss' sp2 HR2 Hd2 Hf2. rewrite HlenL in HR2. rewrite (Hres _ eq_refl) in HR2. rewrite HlenL.
      eapply HQ; [exact HR2|reflexivity|congruence|exact Hf2].
  Qed.

  Lemma cv_reserve_spec h bss l c sp (Q : cres cv_vec -> spec -> Prop) :
    vrep (hp sp) h bss l ->
    (forall h' sp', vrep (hp sp') h' bss l -> cv_index h' = cv_index h -> c <= cv_cap h' -> sdepth sp' = sdepth sp ->
        frame (hp sp) (hp sp') (foot h bss) (foot h' bss) -> Q (CrOk h') sp') ->
    cwp fl (cv_reserve T E h c) sp Q.
  Proof.
    intros HR HQ. unfold cv_reserve. pose proof (vr_cap _ _ _ _ HR) as Hcap.
    destruct (N.ltb_spec (cv_cap h) c) as [Lt|Ge].
    - eapply cv_reallocate_spec; [exact HR|lia|]. intros sp1 HR1 Hd1 Hf1.
      eapply HQ; [exact HR1|reflexivity|cbn [cv_set_cap cv_cap]; lia|exact Hd1|exact Hf1].
    - cbn [cwp]. eapply HQ; [exact HR|reflexivity|exact Ge|reflexivity|]. apply frame_refl. intros j; reflexivity.
  Qed.

  Lemma cv_resize_spec h bss l n x sp (Q : cres cv_vec -> spec -> Prop) :
    vrep (hp sp) h bss l -> el_valid L x -> 8 + sz * n < two64 ->
    (forall h' bss' sp', vrep (hp sp') h' bss' (cl_resize l (N.to_nat n) x) -> cv_index h' = cv_index h -> sdepth sp' = sdepth sp ->
        frame (hp sp) (hp sp') (foot h bss) (foot h' bss') -> Q (CrOk h') sp') ->
    cwp fl (cv_resize T E h n x) sp Q.
  Proof.
    intros HR Hv Hfit HQ. unfold cv_resize. apply cwp_bind.
    eapply cv_reserve_spec; [exact HR|]. intros h1 sp1 HR1 Hi1 Hc1 Hd1 Hf1. cbn [kont].
    eapply cv_data_resize_spec; [exact HR1|exact Hv|exact Hc1|exact Hfit|].
    intros bss' sp2 HR2 Hd2 Hf2.
    eapply HQ; [exact HR2|cbn [cv_set_len cv_index]; exact Hi1|congruence|].
    eapply frame_trans; [exact Hf1|]. exact Hf2.
  Qed.

  Lemma cv_shrink_spec h bss l sp (Q : cres cv_vec -> spec -> Prop) :
    vrep (hp sp) h bss l ->
    (forall h' sp', vrep (hp sp') h' bss l -> cv_index h' = cv_index h -> sdepth sp' = sdepth sp ->
        frame (hp sp) (hp sp') (foot h bss) (foot h' bss) -> Q (CrOk h') sp') ->
    cwp fl (cv_shrink_to_fit T E h) sp Q.
  Proof.
    intros HR HQ. unfold cv_shrink_to_fit. eapply cv_reallocate_spec; [exact HR|lia|].
    intros sp1 HR1 Hd1 Hf1. eapply HQ; [exact HR1|reflexivity|exact Hd1|exact Hf1].
  Qed.

  (* VecImpl::validate_index *)
  Lemma cv_validate_spec g h bss l i sp {A} (rest : cprog A) (Q : cres A -> spec -> Prop) :
    vrep g h bss l ->
    match nth_error l (N.to_nat i) with Some _ => cwp fl rest sp Q | None => Q (CrErr CvIndex) sp end ->
    cwp fl (cv_validate h i ;;~ rest) sp Q.
  Proof.
    intros HR H. unfold cv_validate. rewrite (vr_len _ _ _ _ HR), leb_nth_error.
    destruct (nth_error l (N.to_nat i)); exact H.
  Qed.

  Lemma cv_value_spec h bss l i sp (Q : cres T -> spec -> Prop) :
    vrep (hp sp) h bss l ->
    match nth_error l (N.to_nat i) with
    | Some x => Q (CrOk x) sp
    | None => Q (CrErr CvIndex) sp
    end ->
    cwp fl (cv_value T E h i) sp Q.
  Proof.
    intros HR HQ. unfold cv_value. eapply cv_validate_spec; [exact HR|].
    destruct (nth_error l (N.to_nat i)) as [x|] eqn:Hx; [|exact HQ].
    pose proof (vr_inv _ _ _ _ HR) as HI. destruct (vinv_rec_get T E L _ _ _ _ _ HI) as (spare & Hrec).
    apply cwp_bind. eapply (rd_slot T E fl); [exact Hrec|eapply vinv_chunks; exact HI| |].
    { rewrite (vinv_lengths T E L _ _ _ _ _ HI). eapply nth_error_Some_lt. exact Hx. }
    cbn [kont]. eapply (el_load E L); [eapply elems_nth; [exact (vi_elems _ _ _ _ _ _ _ _ HI)|exact Hx]|exact HQ].
  Qed.

  Lemma cv_iter_spec h bss l sp : vrep (hp sp) h bss l ->
    forall fuel i (Q : cres (list T) -> spec -> Prop),
    (length l - N.to_nat i < fuel)%nat -> Q (CrOk (skipn (N.to_nat i) l)) sp -> cwp fl (cv_iter T E h fuel i) sp Q.
  Proof.
    intros HR. induction fuel as [|f IH]; intros i Q Hf HQ; [lia|]. cbn [cv_iter].
    apply cwp_bind. apply cwp_try. eapply cv_value_spec; [exact HR|].
    destruct (nth_error l (N.to_nat i)) as [x|] eqn:En; cbn [kont cwp].
    - apply cwp_bind. apply IH.
      + apply nth_error_Some_lt in En. lia.
      + cbn [kont cwp]. replace (N.to_nat (i + 1)) with (S (N.to_nat i)) by lia.
        assert (Hs : skipn (N.to_nat i) l = x :: skipn (S (N.to_nat i)) l).
        { clear - En. revert En. generalize (N.to_nat i). intros n. revert l. induction n as [|n IHn]; intros [|y t]; cbn [nth_error skipn]; try discriminate.
          - intros [= ->]. reflexivity.
          - apply IHn. }
        rewrite Hs in HQ. exact HQ.
    - apply nth_error_None in En. rewrite skipn_all2 in HQ by exact En. exact HQ.
  Qed.

  Lemma cv_values_spec h bss l sp (Q : cres (list T) -> spec -> Prop) :
    vrep (hp sp) h bss l -> Q (CrOk l) sp -> cwp fl (cv_values T E h) sp Q.
  Proof.
    intros HR HQ. unfold cv_values. eapply cv_iter_spec; [exact HR| |exact HQ].
    pose proof (vr_len _ _ _ _ HR) as HL. unfold lenN in HL. lia.
  Qed.

  Lemma cv_from_storage_spec h bss l sp (Q : cres cv_vec -> spec -> Prop) :
    vrep (hp sp) h bss l ->
    (forall h', vrep (hp sp) h' bss l -> cv_index h' = cv_index h -> cv_len h' = cv_len h -> Q (CrOk h') sp) ->
    cwp fl (cv_from_storage T E (cv_index h)) sp Q.
  Proof.
    intros HR HQ. unfold cv_from_storage.
    pose proof (vr_inv _ _ _ _ HR) as HI. destruct (vinv_rec_get T E L _ _ _ _ _ HI) as (spare & Hrec).
    pose proof (vr_len _ _ _ _ HR) as HL. pose proof (vr_fits _ _ _ _ HR) as HF. fold sz in HF.
    pose proof (vrep_lenN _ _ _ _ HR) as HB. pose proof (sz_pos T E L) as Hsz. fold sz in Hsz.
    assert (Hc : chunks k bss) by (eapply vinv_chunks; exact HI).
    apply cwp_bind. eapply cwp_value; [exact Hrec|]. cbn [kont].
    apply cwp_bind. apply cwp_de64; [rewrite lenN_app, lenN_le64; lia|]. cbn [kont].
    rewrite firstn_app_exact by (rewrite le64_length; reflexivity).
    assert (Hlt : cv_len h < two64) by (rewrite HL; nia).
    rewrite (de_le64 _ Hlt).
    apply cwp_bind. eapply cwp_value_size; [exact Hrec|]. cbn [kont].
    rewrite (rec_len T E) by exact Hc. fold sz. rewrite HB.
    destruct (N.leb_spec two64 (cv_len h * sz)) as [X|_]; [nia|].
    destruct (N.leb_spec two64 (cv_len h * sz + 8)) as [X|_]; [nia|].
    destruct (N.ltb_spec (8 + sz * cv_len h + lenN spare) (cv_len h * sz + 8)) as [X|_]; [nia|].
    cbn [orb cwp]. apply HQ; cbn [cv_index cv_len cv_cap]; try reflexivity.
    constructor; cbn [cv_index cv_len cv_cap]; [exact HI|exact HL| |exact (vr_fits _ _ _ _ HR)].
    apply N.div_le_lower_bound; [lia|nia].
  Qed.

  Lemma cv_replace_spec h bss l i x sp (Q : cres T -> spec -> Prop) :
    vrep (hp sp) h bss l -> el_valid L x ->
    match nth_error l (N.to_nat i) with
    | Some old => forall bss' sp', vrep (hp sp') h bss' (cl_upd l (N.to_nat i) x) -> sdepth sp' = sdepth sp ->
                    frame (hp sp) (hp sp') (foot h bss) (foot h bss') -> Q (CrOk old) sp'
    | None => Q (CrErr CvIndex) sp
    end ->
    cwp fl (cv_replace T E h i x) sp Q.
  Proof.
    intros HR Hv HQ. unfold cv_replace. pose proof (vr_len _ _ _ _ HR) as HL.
    eapply cv_validate_spec; [exact HR|]. destruct (nth_error l (N.to_nat i)) as [old|] eqn:Hx; [|exact HQ].
    pose proof (vr_inv _ _ _ _ HR) as HI.
    destruct (vinv_at T E L _ _ _ _ _ _ _ HI Hx) as (A & bi & B & lA & lB & -> & -> & HiA & HilA & HP).
    assert (Hin : (N.to_nat i < length (A ++ bi :: B))%nat) by (rewrite app_length; cbn [length]; lia).
    destruct (vinv_rec_get T E L _ _ _ _ _ HI) as (spare & Hrec). pose proof (vinv_chunks T E L _ _ _ _ _ HI) as Hc.
    pose proof (vp_B _ _ _ _ _ _ _ _ _ HP) as HB. inversion HB as [|? ? ? ? Hrep _]; subst.
    apply cwp_bind. eapply (rd_slot T E fl); [exact Hrec|exact Hc|exact Hin|]. rewrite <- HiA, nth_middle. cbn [kont].
    apply cwp_bind. eapply (el_load E L); [exact Hrep|]. cbn [kont].
    apply cwp_bind. apply hwp_transaction. intros sp0 Hm0 Hd0. cbn [kont].
    apply cwp_bind. eapply parts_take; [exact (vparts_heq T E L _ _ _ _ _ _ _ HP Hm0)|]. intros sp1 HP1 Hi1 Hd1 Hf1. cbn [kont].
    apply cwp_bind. eapply parts_store; [exact HP1|exact Hv|]. intros b sp2 HP2 Hi2 Hd2 Hf2. cbn [kont].
    pose proof (vp_B _ _ _ _ _ _ _ _ _ HP2) as HB2. inversion HB2 as [|? ? ? ? Hb _]; subst.
    apply cwp_bind. eapply (wr_slot T E fl); [rewrite Hi2, Hi1, Hm0; exact Hrec|exact Hc|exact Hin|eapply rep_length; exact Hb|].
    rewrite <- HiA, cl_upd_app. intros sp3 Hm3 Hd3. cbn [kont].
    apply cwp_bind. apply hwp_commit_tx; [congruence|]. intros sp4 Hm4 Hd4. cbn [kont cwp].
    rewrite <- HilA, cl_upd_app in HQ.
    apply (HQ (A ++ b :: B) sp4); [|exact Hd4|].
    - pose proof (vr_fits _ _ _ _ HR) as HF. rewrite lenN_app in HL, HF.
      constructor; [|rewrite HL, lenN_app; reflexivity|exact (vr_cap _ _ _ _ HR)|rewrite lenN_app; exact HF].
      eapply parts_close; [exact HP2|rewrite Hm4, Hm3; apply hupd_same|intros j Hj; rewrite Hm4, Hm3; apply hupd_other; congruence].
    - unfold foot. rewrite !owned_app.
      apply (frame_tx _ _ _ _ _ _ Hm0 Hm4). eapply frame_trans; [exact Hf1|]. eapply frame_trans; [exact Hf2|].
      eapply frame_hupd; [left; reflexivity|exact Hm3].
  Qed.

  Lemma cv_remove_spec h bss l i sp (Q : cres (cv_vec * T) -> spec -> Prop) :
    vrep (hp sp) h bss l ->
    match nth_error l (N.to_nat i) with
    | Some old => forall bss' sp', vrep (hp sp') (cv_set_len h (cv_len h - 1)) bss' (cl_remove l (N.to_nat i)) ->
                    sdepth sp' = sdepth sp ->
                    frame (hp sp) (hp sp') (foot h bss) (foot h bss') -> Q (CrOk (cv_set_len h (cv_len h - 1), old)) sp'
    | None => Q (CrErr CvIndex) sp
    end ->
    cwp fl (cv_remove T E h i) sp Q.
  Proof.
    intros HR HQ. unfold cv_remove. pose proof (vr_len _ _ _ _ HR) as HL.
    eapply cv_validate_spec; [exact HR|]. destruct (nth_error l (N.to_nat i)) as [old|] eqn:Hx; [|exact HQ].
    pose proof (vr_inv _ _ _ _ HR) as HI. pose proof (vrep_lenN _ _ _ _ HR) as HB.
    destruct (vinv_at T E L _ _ _ _ _ _ _ HI Hx) as (A & bi & B & lA & lB & -> & -> & HiA & HilA & HP).
    assert (Hin : (N.to_nat i < length (A ++ bi :: B))%nat) by (rewrite app_length; cbn [length]; lia).
    destruct (vinv_rec_get T E L _ _ _ _ _ HI) as (spare & Hrec). pose proof (vinv_chunks T E L _ _ _ _ _ HI) as Hc.
    pose proof (vp_B _ _ _ _ _ _ _ _ _ HP) as HBs. inversion HBs as [|? ? ? ? Hrep _]; subst.
    apply cwp_bind. eapply (rd_slot T E fl); [exact Hrec|exact Hc|exact Hin|]. rewrite <- HiA, nth_middle. cbn [kont].
    apply cwp_bind. eapply (el_load E L); [exact Hrep|]. cbn [kont].
    apply cwp_bind. apply hwp_transaction. intros sp0 Hm0 Hd0. cbn [kont].
    apply cwp_bind. eapply parts_take; [exact (vparts_heq T E L _ _ _ _ _ _ _ HP Hm0)|]. intros sp1 HP1 Hi1 Hd1 Hf1. cbn [kont].
    apply cwp_bind. rewrite <- HB.
    replace i with (lenN A) by (unfold lenN; lia).
    eapply (wr_move_down T E fl); [rewrite Hi1, Hm0; exact Hrec|exact Hc|]. intros spare' sp2 Hm2 Hd2. cbn [kont].
    apply cwp_bind. cbn [cv_set_len cv_len].
    eapply wr_header; [rewrite Hm2; apply hupd_same|]. intros sp3 Hm3 Hd3. cbn [kont].
    apply cwp_bind. apply hwp_commit_tx; [congruence|]. intros sp4 Hm4 Hd4. cbn [kont cwp].
    rewrite <- HilA, cl_remove_app in HQ. rewrite HB.
    assert (H4 : forall j, j <> cv_index h -> hp sp4 j = hp sp1 j).
    { intros j Hj. rewrite Hm4, Hm3, hupd_other by congruence. rewrite Hm2. apply hupd_other. congruence. }
    apply (HQ (A ++ B) sp4); [|exact Hd4|].
    - pose proof (vr_fits _ _ _ _ HR) as HF. pose proof (vr_cap _ _ _ _ HR) as HC.
      rewrite lenN_app in HL, HF. unfold lenN in HL, HF. cbn [length] in HL, HF.
      constructor; cbn [cv_set_len cv_index cv_len cv_cap]; [|rewrite lenN_app; unfold lenN; lia|lia|].
      + eapply parts_close; [exact HP1|rewrite Hm4, Hm3, HB; apply hupd_same|exact H4].
      + rewrite lenN_app. unfold lenN.
        assert (ce_size E * (N.of_nat (length lA) + N.of_nat (length lB)) <= ce_size E * (N.of_nat (length lA) + N.of_nat (S (length lB))))
          by (apply N.mul_le_mono_l; lia). lia.
    - unfold foot. rewrite !owned_app.
      eapply frame_trans; [apply frame_refl; exact Hm0|]. eapply frame_trans; [exact Hf1|].
      apply (frame_at _ _ _ (cv_index h)); [left; reflexivity|exact H4].
  Qed.

  Lemma cv_swap_spec h bss l i j sp (Q : cres unit -> spec -> Prop) :
    vrep (hp sp) h bss l ->
    (if i =? j then Q (CrOk tt) sp
     else match nth_error l (N.to_nat i), nth_error l (N.to_nat j) with
          | Some a, Some b => forall bss' sp', vrep (hp sp') h bss' (cl_upd (cl_upd l (N.to_nat i) b) (N.to_nat j) a) ->
                                sdepth sp' = sdepth sp ->
                                frame (hp sp) (hp sp') (foot h bss) (foot h bss') -> Q (CrOk tt) sp'
          | _, _ => Q (CrErr CvIndex) sp
          end) ->
    cwp fl (cv_swap T E h i j) sp Q.
  Proof.
    intros HR HQ. unfold cv_swap. pose proof (vr_len _ _ _ _ HR) as HL.
    destruct (N.eqb_spec i j) as [Eij|Nij]; [exact HQ|].
    eapply cv_validate_spec; [exact HR|]. destruct (nth_error l (N.to_nat i)) as [a|] eqn:Ha; [|exact HQ].
    eapply cv_validate_spec; [exact HR|]. destruct (nth_error l (N.to_nat j)) as [b|] eqn:Hb; [|exact HQ].
    pose proof (vr_inv _ _ _ _ HR) as HI. pose proof (vinv_lengths T E L _ _ _ _ _ HI) as HLen.
    assert (Hin : (N.to_nat i < length bss)%nat) by (rewrite HLen; eapply nth_error_Some_lt; exact Ha).
    assert (Hjn : (N.to_nat j < length bss)%nat) by (rewrite HLen; eapply nth_error_Some_lt; exact Hb).
    set (bi := nth (N.to_nat i) bss []) in *. set (bj := nth (N.to_nat j) bss []) in *.
    assert (Hc : chunks k bss) by (eapply vinv_chunks; exact HI).
    destruct (vinv_rec_get T E L _ _ _ _ _ HI) as (spare & Hrec).
    apply cwp_bind. eapply (rd_slot T E fl); [exact Hrec|exact Hc|exact Hin|]. cbn [kont]. fold bi.
    apply cwp_bind. apply hwp_transaction. intros sp0 Hm0 Hd0. cbn [kont].
    apply cwp_bind. eapply (wr_move_slot T E L fl); [rewrite Hm0; exact Hrec|exact Hc|exact Hin|exact Hjn|exact Nij|].
    intros sp1 Hm1 Hd1. cbn [kont]. fold bj in Hm1.
    apply cwp_bind.
    eapply (wr_slot T E fl); [rewrite Hm1; apply hupd_same| | |apply chunks_nth; assumption|].
    { apply chunks_upd; [apply chunks_upd; [exact Hc|apply chunks_nth; assumption]|rewrite zeros_length; reflexivity]. }
    { rewrite !cl_upd_length. exact Hjn. }
    fold bi. rewrite cl_upd_upd. intros sp2 Hm2 Hd2. cbn [kont].
    apply hwp_commit_tx; [congruence|]. intros sp3 Hm3 Hd3.
    assert (H3 : forall x, x <> cv_index h -> hp sp3 x = hp sp x).
    { intros x Hx. rewrite Hm3, Hm2, hupd_other by congruence. rewrite Hm1, hupd_other by congruence. apply Hm0. }
    destruct (vinv_swap T E L _ (hp sp3) _ _ _ _ _ _ a b spare HI Ha Hb ltac:(lia)) as [HI3 Hown];
      [rewrite Hm3, Hm2; apply hupd_same|exact H3|].
    eapply (HQ (cl_upd (cl_upd bss (N.to_nat i) bj) (N.to_nat j) bi) sp3); [|exact Hd3|].
    - constructor; [exact HI3| | |].
      + rewrite HL. unfold lenN. rewrite !cl_upd_length. reflexivity.
      + exact (vr_cap _ _ _ _ HR).
      + unfold lenN. rewrite !cl_upd_length. exact (vr_fits _ _ _ _ HR).
    - eapply (frame_equiv _ _ (foot h bss) (foot h bss)); [intros x; reflexivity| |].
      + intros x. unfold foot. cbn [In]. pose proof (Hown x) as Hw. clear - Hw. tauto.
      + apply (frame_at _ _ _ (cv_index h)); [left; reflexivity|exact H3].
  Qed.

  Lemma cv_remove_from_storage_spec h bss l sp (Q : cres unit -> spec -> Prop) :
    vrep (hp sp) h bss l ->
    (forall sp', sdepth sp' = sdepth sp -> frame (hp sp) (hp sp') (foot h bss) [] -> Q (CrOk tt) sp') ->
    cwp fl (cv_remove_from_storage T E h) sp Q.
  Proof.
    intros HR HQ. unfold cv_remove_from_storage.
    pose proof (vr_inv _ _ _ _ HR) as HI. pose proof (vrep_lenN _ _ _ _ HR) as HB.
    apply cwp_bind. apply hwp_transaction. intros sp0 Hm0 Hd0. cbn [kont].
    destruct (vinv_rec_get T E L _ _ _ _ _ HI) as (spare & Hrec).
    assert (HP : vparts T E L (hp sp0) (cv_index h) [] bss [] l).
    { constructor; [rewrite Hm0; congruence|constructor| |exact (vi_nodup _ _ _ _ _ _ _ _ HI)].
      eapply elems_transport; [exact (vi_elems _ _ _ _ _ _ _ _ HI)|]. intros j _. apply Hm0. }
    apply cwp_bind.
    replace (N.to_nat (cv_len h)) with (length bss) by (unfold lenN in HB; lia).
    change 0 with (lenN (@nil bytes)).
    eapply (drop_spec T E L fl bss l (cv_index h) (cv_len h) [] [] [] spare); [rewrite Hm0; exact Hrec|eapply vinv_chunks; exact HI|exact HP|].
    intros sp1 Hi1 _ Hd1 Hf1. cbn [kont].
    apply cwp_bind. eapply hwp_remove; [rewrite Hi1, Hm0; exact Hrec|]. intros sp2 Hm2 Hd2. cbn [kont].
    apply hwp_commit_tx; [congruence|]. intros sp3 Hm3 Hd3.
    apply HQ; [exact Hd3|].
    eapply frame_trans; [apply (frame_refl _ _ (foot h bss)); exact Hm0|]. eapply frame_trans; [exact Hf1|].
    apply frame_free; intros j Hj; rewrite Hm3, Hm2; unfold hdel.
    - destruct Hj as [<-|[]]. rewrite N.eqb_refl. reflexivity.
    - destruct (N.eqb_spec (cv_index h) j); [subst; elim Hj; left; reflexivity|reflexivity].
  Qed.
End Vec.

Section VrepSep.
  Variable T : Type.
  Variable E : cv_elem T.
  Variable L : elem_law E.

  Lemma vrep_live g h bss l : vrep T E L g h bss l -> live_all g (foot T E L h bss).
  Proof.
    intros HR j [<-|Hj].
    - destruct (vinv_rec_get T E L _ _ _ _ _ (vr_inv _ _ _ _ _ _ _ HR)) as (s & Hs). congruence.
    - eapply elems_live; [exact (vi_elems _ _ _ _ _ _ _ _ (vr_inv _ _ _ _ _ _ _ HR))|exact Hj].
  Qed.

  Lemma vrep_transport g g' h bss l :
    vrep T E L g h bss l -> (forall j, In j (foot T E L h bss) -> g' j = g j) -> vrep T E L g' h bss l.
  Proof.
    intros [HI H2 H3 H4] Hs. constructor; auto. constructor.
    - destruct (vinv_rec_get T E L _ _ _ _ _ HI) as (s & Hrec). exists s. rewrite Hs; [exact Hrec|left; reflexivity].
    - eapply elems_transport; [exact (vi_elems _ _ _ _ _ _ _ _ HI)|]. intros j Hj. apply Hs. right. exact Hj.
    - exact (vi_nodup _ _ _ _ _ _ _ _ HI).
  Qed.

  Lemma vrep_nodup g h bss l : vrep T E L g h bss l -> NoDup (foot T E L h bss).
  Proof. intros HR. exact (vi_nodup _ _ _ _ _ _ _ _ (vr_inv _ _ _ _ _ _ _ HR)). Qed.

  (* a neighbour's operation with footprint F -> F' disjoint from this vector *)
  Lemma vrep_frame g g' F F' h bss l :
    vrep T E L g h bss l -> frame g g' F F' -> (forall j, In j (foot T E L h bss) -> ~ In j F) ->
    vrep T E L g' h bss l /\ (forall j, In j (foot T E L h bss) -> ~ In j F').
  Proof.
    intros HR Hf Hd. split.
    - eapply vrep_transport; [exact HR|]. intros j Hj.
      exact (proj1 (frame_keeps _ _ _ _ j Hf (Hd j Hj) (vrep_live _ _ _ _ HR j Hj))).
    - intros j Hj. exact (proj2 (frame_keeps _ _ _ _ j Hf (Hd j Hj) (vrep_live _ _ _ _ HR j Hj))).
  Qed.
End VrepSep.
Arguments vrep_frame {T E L g g' F F' h bss l}.
