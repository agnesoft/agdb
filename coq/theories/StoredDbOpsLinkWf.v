(* StoredDbOpsLinkWf.v — proofs (stored database): the graph side conditions of the storage-program theorems — so_graph_ok,
   so_remove_edge_ok (the slots the unlink walks visit are inside the arrays, the walks end, the decremented degree counters
   stay i64 values), so_edge_ok (the incremented degree counters stay i64 values) and the index bounds — are consequences of
   C08's well-formedness `wf g` (some abstract multigraph with a free list simulates the arrays: what every history of
   graph.rs operations from graph_new satisfies, C08_history_refines) and the capacity bound 2^60. *)
From Agdb Require Import Bytes Graph GraphArr GraphSim GraphProofs GraphRemove GraphSpec GraphWf.
From Agdb Require Import Collections CollElems StoredDbRep StoredDbOpsGraph StoredDbOpsGraph2 StoredDbOpsGraph4
  StoredDbOpsKv2.
From Coq Require Import ZifyBool ZifyNat ZifyN.
Ltac Zify.zify_post_hook ::= Z.div_mod_to_equations.
Open Scope Z_scope.

Theorem wf_so_graph_ok g : wf g -> capacity g < 1152921504606846976 -> so_graph_ok g.
Proof.
  intros W Hcap. pose proof (wf_node_count g W) as Hcnt. pose proof (wf_capacity_pos g W) as Hpos.
  destruct W as [a [fl [[L1 [L2 L3]] HS]]]. unfold capacity in *.
  constructor; try assumption; try lia.
  - (* the free-list head *)
    pose proof (r_free _ _ _ _ _ _ _ _ _ _ _ _ _ HS) as HF.
    rewrite (f_head _ _ _ _ _ _ _ _ _ HF). destruct fl as [|x r]; cbn [fhead]; [intros X; contradiction X; reflexivity|].
    intros _. destruct (f_fl _ _ _ _ _ _ _ _ _ HF x (or_introl eq_refl)) as [Hr _]. unfold zabs_nat. unfold capacity in Hr. lia.
  - unfold node_count in Hcnt. lia.
Qed.

(* every slot the walk to the predecessor visits is a member of the chain *)
Lemma chain_prev_ok (next : Z -> Z) (s : Z) (n : nat) :
  (forall z, next (- z) = next z) ->
  forall (l : list Z) (fuel : nat) (h h' : Z),
    (forall y, In y l -> 0 < y < Z.of_nat n) -> chain next h l -> Z.abs h' = h -> In s l -> h <> s ->
    prev_ok next n fuel h' s.
Proof.
  intros Heven.
  assert (Habs : forall z, next z = next (Z.abs z)).
  { intros z. destruct (Z.abs_spec z) as [[_ ->]|[_ ->]]; [reflexivity|]. symmetry; apply Heven. }
  induction l as [|x r IH]; intros fuel h h' Hpos Hc Hh' Hin Hne; [destruct Hin|].
  cbn [chain] in Hc. destruct Hc as [-> Hc].
  destruct Hin as [->|Hin]; [congruence|].
  destruct fuel as [|fuel]; cbn [prev_ok]; [exact I|].
  pose proof (Hpos x (or_introl eq_refl)) as Hx.
  split; [unfold zabs_nat; lia|].
  intros Hnq. rewrite (Habs h'), Hh' in Hnq |- *.
  destruct r as [|y r']; [destruct Hin|]. cbn [chain] in Hc. destruct Hc as [Hy Hc].
  pose proof (Hpos y (or_intror (or_introl eq_refl))) as Hyp.
  apply (IH fuel (next x) (next x)).
  - intros z Hz. apply Hpos. right. exact Hz.
  - cbn [chain]. split; [exact Hy|exact Hc].
  - rewrite Hy. lia.
  - exact Hin.
  - intros E. rewrite E, Z.eqb_refl in Hnq. discriminate.
Qed.

Lemma chain_next_in (next : Z -> Z) : forall (l : list Z) (h x : Z),
  chain next h l -> In x l -> next x = 0 \/ In (next x) l.
Proof.
  induction l as [|a r IH]; intros h x Hc Hin; [destruct Hin|].
  cbn [chain] in Hc. destruct Hc as [-> Hc]. destruct Hin as [->|Hin].
  - destruct r as [|y r']; cbn [chain] in Hc; [left; exact Hc|]. destruct Hc as [Hy _]. right. right. left. symmetry. exact Hy.
  - destruct (IH _ _ Hc Hin) as [E|E]; [left; exact E|right; right; exact E].
Qed.

Definition uarr_ok (A M : list Z) (n : nat) (index : Z) : Prop :=
  let node := - get A index in
  let first := - get A node in
  (zabs_nat index < n)%nat /\ (zabs_nat node < n)%nat /\
  ((first =? index) = false ->
     prev_ok (get M) n n first (- index) /\ find_prev (get M) n first (- index) <> None) /\
  0 <= get M node <= Z.of_nat n /\ 0 <= get M index <= Z.of_nat n.

Section HalfFacts.
  Variables (n : Z) (key : aedge -> Z).

  Lemma half_uarr (A M : list Z) nodes ER E x :
    base n nodes ER -> half (get A) (get M) nodes allP key ER E -> In x E -> In (key x) nodes ->
    uarr_ok A M (Z.to_nat n) (- eslot x).
  Proof.
    intros B H Hx Hk. pose proof H as [H1 H2 H3 H4 H5].
    assert (HxR : In x ER) by (apply H2; exact Hx).
    pose proof (b_ER_range _ _ _ B x HxR) as Hs. pose proof (b_nodes_range _ _ _ B _ Hk) as Hkr.
    destruct (H3 x HxR) as [Ha Hm0]. destruct (H5 _ Hk I) as [Hck Hdk].
    assert (Hin : In (eslot x) (adj key E (key x))) by (apply in_adj; exists x; auto).
    assert (Hndk : NoDup (adj key E (key x))) by (apply NoDup_adj; assumption).
    assert (Hpos : forall y, In y (adj key E (key x)) -> 0 < y < Z.of_nat (Z.to_nat n)).
    { intros y Hy. apply in_adj in Hy. destruct Hy as [z [Hz [<- _]]]. pose proof (b_ER_range _ _ _ B z (H2 z Hz)). lia. }
    assert (Hlen : (length (adj key E (key x)) <= Z.to_nat n)%nat).
    { destruct (NoDup_range_length (adj key E (key x)) (Z.to_nat n) Hndk Hpos) as [HL|[HL _]]; [lia|]. rewrite HL. cbn [length]. lia. }
    assert (Heven : forall z, get M (- z) = get M z) by (intros z; apply get_neg).
    unfold uarr_ok. cbv zeta. rewrite get_neg, Ha, !Z.opp_involutive.
    split; [unfold zabs_nat; lia|]. split; [unfold zabs_nat; lia|]. split; [|split].
    - intros Hne. assert (Hnh : get A (key x) <> eslot x) by (intros E0; rewrite E0, Z.eqb_refl in Hne; discriminate).
      split.
      + eapply (chain_prev_ok (get M) (eslot x) (Z.to_nat n) Heven (adj key E (key x)) (Z.to_nat n) (get A (key x))); auto.
        destruct (H4 _ Hk). lia.
      + destruct (half_unlink_inner n key (get A) (get M) nodes allP ER E x (Z.to_nat n) Heven B Hk I) as [p' [Hf _]]; auto; [lia|].
        rewrite Hf. discriminate.
    - rewrite Hdk. lia.
    - rewrite (get_neg M). destruct (chain_next_in (get M) _ _ _ Hck Hin) as [E0|E0]; [rewrite E0; lia|]. specialize (Hpos _ E0). lia.
  Qed.
End HalfFacts.

Lemma wf_uarr g e :
  wf g -> e < 0 -> is_edge g e = true ->
  uarr_ok (g_from g) (g_fmeta g) (length (g_from g)) e /\ uarr_ok (g_to g) (g_tmeta g) (length (g_from g)) e.
Proof.
  intros [a [fl HS]] He Ie. pose proof HS as [WL R].
  apply (is_edge_iff _ _ _ _ _ _ _ _ _ HS) in Ie. rewrite Z.abs_neq in Ie by lia.
  apply in_map_iff in Ie. destruct Ie as [x [Hx Hin]].
  destruct (b_ends _ _ _ (r_base _ _ _ _ _ _ _ _ _ _ _ _ _ R) x Hin) as [Hs Ht].
  replace e with (- eslot x) by lia. replace (length (g_from g)) with (Z.to_nat (capacity g)) by (unfold capacity; lia).
  split.
  - eapply (half_uarr (capacity g) esrc); [exact (r_base _ _ _ _ _ _ _ _ _ _ _ _ _ R)|exact (r_out _ _ _ _ _ _ _ _ _ _ _ _ _ R)|exact Hin|exact Hs].
  - eapply (half_uarr (capacity g) etgt); [exact (r_base _ _ _ _ _ _ _ _ _ _ _ _ _ R)|exact (r_in _ _ _ _ _ _ _ _ _ _ _ _ _ R)|exact Hin|exact Ht].
Qed.

Lemma unlink_counter G f fm e G' n :
  f <> fm -> length (garr G fm) = n -> uarr_ok (garr G f) (garr G fm) n e -> g_unlink G f fm e = Some G' ->
  -1 <= get (garr G' fm) (- get (garr G f) e) <= Z.of_nat n.
Proof.
  intros Hne HL (H1 & H2 & _ & H4 & H5) E. unfold g_unlink in E. set (node := - get (garr G f) e) in *.
  assert (Hr : Z.abs node < Z.of_nat (length (garr G fm))) by (unfold zabs_nat in *; lia).
  destruct (- get (garr G f) node =? e).
  - injection E as <-. rewrite garr_gset_same, garr_gset_other by exact Hne. rewrite get_set_same by (try reflexivity; exact Hr). lia.
  - destruct (find_prev _ _ _ _) as [p|]; [|discriminate]. injection E as <-.
    rewrite !garr_gset_same. rewrite get_set_same by (try reflexivity; rewrite length_set; exact Hr).
    rewrite get_set. destruct (_ && _); lia.
Qed.

Lemma uarr_unlink G f fm e :
  f <> fm -> length (garr G fm) = length (g_from G) -> Z.of_nat (length (g_from G)) < 1152921504606846976 ->
  uarr_ok (garr G f) (garr G fm) (length (g_from G)) e -> unlink_ok G (length (g_from G)) f fm e.
Proof.
  intros Hne HL Hcap U. pose proof U as (H1 & H2 & H3 & _).
  split; [exact H1|]. split; [exact H2|]. split; [exact H3|].
  intros G' EG. pose proof (unlink_counter G f fm e G' _ Hne HL U EG) as Hc. unfold i64_range. lia.
Qed.

(* remove_from_edge touches the from / from_meta arrays only *)
Lemma remove_from_edge_to G e G1 :
  remove_from_edge G e = Some G1 ->
  g_to G1 = g_to G /\ g_tmeta G1 = g_tmeta G /\ length (g_from G1) = length (g_from G).
Proof.
  unfold remove_from_edge. destruct (_ =? _).
  - intros [= <-]. unfold set_fmeta, set_from. cbn [g_to g_tmeta g_from]. rewrite length_set. auto.
  - destruct (find_prev _ _ _ _); [|discriminate]. intros [= <-]. unfold set_fmeta. cbn [g_to g_tmeta g_from]. auto.
Qed.

Theorem wf_so_remove_edge_ok g e :
  wf g -> capacity g < 1152921504606846976 -> e < 0 -> so_remove_edge_ok g e.
Proof.
  intros W Hcap He Ie. destruct (wf_uarr g e W He Ie) as [UF UT].
  destruct W as [a [fl [[L1 [L2 L3]] _]]]. unfold capacity in Hcap.
  split; [apply uarr_unlink; try assumption; discriminate|].
  intros G1 E1. destruct (remove_from_edge_to g e G1 E1) as (Et & Etm & El).
  rewrite <- El. apply uarr_unlink; [discriminate| | |]; cbn [garr ga_get sd_arrays ga_to ga_to_meta]; rewrite ?Et, ?Etm, ?El; assumption.
Qed.

Lemma get_free_index_lengths g :
  (length (g_fmeta g) <= length (g_fmeta (snd (get_free_index g))))%nat /\
  (length (g_tmeta g) <= length (g_tmeta (snd (get_free_index g))))%nat.
Proof.
  unfold get_free_index. destruct (fmeta g 0 =? i64_min); cbn [snd].
  - unfold grow. cbn [g_fmeta g_tmeta]. rewrite !app_length. cbn [length]. lia.
  - unfold set_fmeta. cbn [g_fmeta g_tmeta]. rewrite !length_set. lia.
Qed.

(* the two counters insert_edge writes are the degree counters of the result *)
Lemma insert_edge_counters g f t :
  is_node g f = true -> is_node g t = true ->
  length (g_fmeta g) = length (g_from g) -> length (g_tmeta g) = length (g_from g) ->
  let g1 := snd (get_free_index g) in
  let index := - fst (get_free_index g) in
  let g3 := set_to (set_from g1 index (- f)) index (- t) in
  let g4 := update_from_edge g3 f index in
  exists G', insert_edge g f t = Some (index, G') /\
    fmeta G' f = fmeta (set_from (set_fmeta g3 index (from g3 f)) f (- index)) f + 1 /\
    tmeta G' t = tmeta (set_to (set_tmeta g4 index (to g4 t)) t (- index)) t + 1.
Proof.
  intros Nf Nt L2 L3. cbv zeta. destruct (get_free_index_lengths g) as [LF LT].
  assert (Rf : Z.abs f < Z.of_nat (length (g_from g))).
  { unfold is_node, valid_index, capacity in Nf. lia. }
  assert (Rt : Z.abs t < Z.of_nat (length (g_from g))).
  { unfold is_node, valid_index, capacity in Nt. lia. }
  unfold insert_edge. rewrite Nf, Nt. cbn [andb].
  destruct (get_free_index g) as [slot g1]. cbn [fst snd] in *.
  eexists. split; [reflexivity|]. split.
  - unfold update_to_edge, update_from_edge. unfold fmeta at 1. unfold set_tmeta at 1. cbn [g_fmeta].
    unfold set_to at 1. cbn [g_fmeta]. unfold set_tmeta at 1. cbn [g_fmeta].
    unfold set_fmeta at 1. cbn [g_fmeta]. rewrite get_set_same; [reflexivity|reflexivity|].
    unfold set_from at 1. cbn [g_fmeta]. unfold set_fmeta at 1. cbn [g_fmeta]. rewrite length_set.
    unfold set_to, set_from. cbn [g_fmeta]. lia.
  - unfold update_to_edge. unfold tmeta at 1. unfold set_tmeta at 1. cbn [g_tmeta]. rewrite get_set_same; [reflexivity|reflexivity|].
    unfold set_to at 1. cbn [g_tmeta]. unfold set_tmeta at 1. cbn [g_tmeta]. rewrite length_set.
    unfold update_from_edge. unfold set_fmeta at 1. cbn [g_tmeta]. unfold set_from at 1. cbn [g_tmeta].
    unfold set_fmeta at 1. cbn [g_tmeta]. unfold set_to, set_from. cbn [g_tmeta]. lia.
Qed.

Theorem wf_so_edge_ok g f t :
  wf g -> capacity g < 1152921504606846976 -> 0 < f -> 0 < t -> is_node g f = true -> is_node g t = true ->
  so_edge_ok g f t.
Proof.
  intros W Hcap Pf Pt Nf Nt. destruct W as [a [fl HS]]. pose proof HS as [[L1 [L2 L3]] R].
  destruct (insert_edge_counters g f t Nf Nt L2 L3) as [G' [EI [EF ET]]]. cbv zeta in EI, EF, ET.
  unfold so_edge_ok. cbv zeta. rewrite <- EF, <- ET. clear EF ET.
  assert (OKop : GraphSpec.gop_ok (GInsertEdge f t)) by (split; lia).
  destruct (gstep_sim g a fl (GInsertEdge f t) HS OKop) as [g1 [out [a1 [fl1 [E1 [A1 S1]]]]]].
  cbn [gstep] in E1. rewrite EI in E1. injection E1 as <- <-.
  cbn [astep] in A1. destruct (_ && _) eqn:Ec in A1; [|discriminate]. injection A1 as <-.
  assert (Hf : In f (a_nodes a)).
  { apply (is_node_iff _ _ _ _ _ _ _ _ _ HS) in Nf. rewrite Z.abs_eq in Nf by lia. exact Nf. }
  assert (Ht : In t (a_nodes a)).
  { apply (is_node_iff _ _ _ _ _ _ _ _ _ HS) in Nt. rewrite Z.abs_eq in Nt by lia. exact Nt. }
  destruct (sim_out_edges _ _ _ S1 f Hf) as [_ CF]. destruct (sim_in_edges _ _ _ S1 t Ht) as [_ CT].
  unfold edge_count_from in CF. unfold edge_count_to in CT. unfold a_out in CF. unfold a_in in CT.
  rewrite map_length in CF, CT. cbn [a_edges] in CF, CT. rewrite adj_cons in CF, CT.
  pose proof (adj_length_le esrc (a_edges a) f (length (g_from g)) (sim_edges_nodup _ _ _ HS) (sim_edges_pos _ _ _ HS)) as BF.
  pose proof (adj_length_le etgt (a_edges a) t (length (g_from g)) (sim_edges_nodup _ _ _ HS) (sim_edges_pos _ _ _ HS)) as BT.
  unfold capacity in Hcap. unfold i64_range. split.
  - rewrite CF. destruct (esrc _ =? f); cbn [length]; lia.
  - rewrite CT. destruct (etgt _ =? t); cbn [length]; lia.
Qed.

Lemma get_free_index_bound g :
  wf g -> 0 < fst (get_free_index g) <= capacity g.
Proof.
  intros [a [fl HS]]. pose proof HS as [WL R]. pose proof (r_free _ _ _ _ _ _ _ _ _ _ _ _ _ R) as HF.
  pose proof (r_cap _ _ _ _ _ _ _ _ _ _ _ _ _ R) as Hc.
  unfold get_free_index. rewrite (f_head _ _ _ _ _ _ _ _ _ HF).
  destruct fl as [|x r]; cbn [fhead].
  - rewrite Z.eqb_refl. cbn [fst]. lia.
  - destruct (f_fl _ _ _ _ _ _ _ _ _ HF x (or_introl eq_refl)) as [Hr [Hm _]].
    destruct (Z.eqb_spec (- x) i64_min) as [E|_]; [contradiction|]. cbn [fst]. lia.
Qed.

Lemma wf_new_ids_ok g :
  wf g -> capacity g < 1152921504606846976 ->
  so_index_ok (cg_as_u64 (fst (insert_node g))) /\ so_index_ok (cg_as_u64 (- fst (get_free_index g))).
Proof.
  intros W Hcap. pose proof (get_free_index_bound g W) as B.
  unfold insert_node. destruct (get_free_index g) as [slot g1]. cbn [fst] in *.
  unfold so_index_ok, cg_as_u64. split; lia.
Qed.

Lemma graph_index_ok g id :
  graph_index g id = true -> capacity g < 1152921504606846976 -> so_index_ok (cg_as_u64 id).
Proof.
  unfold graph_index, is_edge, is_node, valid_index, so_index_ok, cg_as_u64. intros G Hcap.
  destruct (id <? 0); [lia|]. destruct (0 <? id); [lia|discriminate].
Qed.
