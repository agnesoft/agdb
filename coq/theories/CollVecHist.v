(* CollVecHist.v — proofs (collections): every history of a storage-backed vector.

   cv_run_spec        for EVERY list of operations — push, replace, remove, swap, resize, reserve,
                      shrink_to_fit, value, iteration, len, interleaved at will with RELOADS
                      (the handle is dropped and rebuilt by DbVec::from_storage) and with the
                      maintenance operations of the storage underneath (optimize, drop + open,
                      backup + open) — the observations are those of the plain list `cl_run`,
                      in which reload and maintenance do nothing; the representation invariant
                      holds at the end and the footprint changed exactly as `frame` says.
   cv_history_on_storage   the same on the model of storage.rs (C04) over a canonical byte
                      store, from a fresh storage: nothing is assumed of the storage. *)
From Agdb Require Import Bytes BytesProofs Records Storage StorageSpec StorageLayout StorageRefine StorageProofs
  Collections CollWp CollBytes CollVecBase CollVecOps CollVec.
From Coq Require Import ZifyBool ZifyNat ZifyN.
Open Scope N_scope.

Section Hist.
  Variable T : Type.
  Variable E : cv_elem T.
  Variable L : elem_law E.

  Notation vrep := (vrep T E L).
  Notation foot := (foot T E L).

  (* the values written are representable; the payload 8 + size * len stays a u64 *)
  Definition op_ok (o : cv_op T) : Prop :=
    match o with
    | VoPush x | VoReplace _ x | VoResize _ x => el_valid L x
    | _ => True
    end.
  Definition fits (l : list T) : Prop := 8 + ce_size E * lenN l < two64.
  Fixpoint ops_ok (l : list T) (ops : list (cv_op T)) : Prop :=
    match ops with
    | [] => True
    | o :: t => op_ok o /\ fits (fst (cl_step l o)) /\ ops_ok (fst (cl_step l o)) t
    end.

  Section Spec.
  Variable fl : bool.

  Lemma cv_step_spec h bss l o sp :
    vrep (hp sp) h bss l -> sdepth sp = 0 -> op_ok o /\ fits (fst (cl_step l o)) ->
    hrefines fl vrep foot cv_index h bss sp (cv_step T E h o) (fst (cl_step l o)) (snd (cl_step l o)).
  Proof.
    intros HR Hd [Hok Hfit] Q HQ.
    assert (Hrefl : frame (hp sp) (hp sp) (foot h bss) (foot h bss)) by (apply frame_refl; intros j; reflexivity).
    (* an operation that leaves the list, the handle and the storage as they are *)
    assert (HQ0 : forall v, v = snd (cl_step l o) -> fst (cl_step l o) = l -> Q (CrOk (h, v)) sp).
    { intros v -> El. eapply HQ; [rewrite El; exact HR|reflexivity|exact Hd|exact Hrefl]. }
    destruct o; cbn [cv_step cl_step fst snd op_ok] in *.
    - apply cwp_fin. eapply cv_push_spec; [exact HR|exact Hok| |].
      + unfold fits in Hfit. rewrite lenN_app in Hfit. unfold lenN in *. cbn [length] in Hfit. lia.
      + intros h' bss' sp' HR' Hi Hd' Hf. eapply HQ; [exact HR'|exact Hi|congruence|exact Hf].
    - apply cwp_fin. eapply cv_replace_spec; [exact HR|exact Hok|].
      destruct (nth_error l (N.to_nat i)); cbn [fst snd] in *.
      + intros bss' sp' HR' Hd' Hf. eapply HQ; [exact HR'|reflexivity|congruence|exact Hf].
      + apply HQ0; reflexivity.
    - apply cwp_fin. eapply cv_remove_spec; [exact HR|].
      destruct (nth_error l (N.to_nat i)); cbn [fst snd] in *.
      + intros bss' sp' HR' Hd' Hf. eapply HQ; [exact HR'|reflexivity|congruence|exact Hf].
      + apply HQ0; reflexivity.
    - apply cwp_fin. eapply cv_swap_spec; [exact HR|].
      destruct (N.eqb_spec i j); cbn [fst snd] in *; [apply HQ0; reflexivity|].
      destruct (nth_error l (N.to_nat i)); [destruct (nth_error l (N.to_nat j))|]; cbn [fst snd] in *.
      + intros bss' sp' HR' Hd' Hf. eapply HQ; [exact HR'|reflexivity|congruence|exact Hf].
      + apply HQ0; reflexivity.
      + apply HQ0; reflexivity.
    - apply cwp_fin. eapply cv_resize_spec; [exact HR|exact Hok| |].
      + unfold fits in Hfit. unfold lenN in Hfit. rewrite cl_resize_length in Hfit. rewrite N2Nat.id in Hfit. exact Hfit.
      + intros h' bss' sp' HR' Hi Hd' Hf. eapply HQ; [exact HR'|exact Hi|congruence|exact Hf].
    - apply cwp_fin. eapply cv_reserve_spec; [exact HR|].
      intros h' sp' HR' Hi _ Hd' Hf. eapply HQ; [exact HR'|exact Hi|congruence|exact Hf].
    - apply cwp_fin. eapply cv_shrink_spec; [exact HR|].
      intros h' sp' HR' Hi Hd' Hf. eapply HQ; [exact HR'|exact Hi|congruence|exact Hf].
    - apply cwp_fin. eapply cv_value_spec; [exact HR|].
      destruct (nth_error l (N.to_nat i)); cbn [fst snd] in *; apply HQ0; reflexivity.
    - apply cwp_fin. eapply cv_values_spec; [exact HR|]. apply HQ0; reflexivity.
    - cbn [cwp]. rewrite (vr_len _ _ _ _ _ _ _ HR). apply HQ0; reflexivity.
    - apply cwp_fin. eapply cv_from_storage_spec; [exact HR|].
      intros h' HR' Hi Hl. eapply HQ; [exact HR'|exact Hi|exact Hd|]. unfold foot. rewrite Hi. exact Hrefl.
    - destruct (cv_is_maint o) eqn:Em.
      + apply cwp_fin. apply hwp_maint; [exact Em|exact Hd|]. intros sp' Hm Hd'.
        eapply HQ; [eapply vrep_heq; [exact HR|exact Hm]|reflexivity|exact Hd'|apply frame_refl; exact Hm].
      + cbn [cwp]. apply HQ0; reflexivity.
  Qed.

  Theorem cv_run_spec : forall ops h bss l sp (Q : cres (cv_vec * list (cv_obs T)) -> spec -> Prop),
    vrep (hp sp) h bss l -> sdepth sp = 0 -> ops_ok l ops ->
    (forall h' bss' sp', vrep (hp sp') h' bss' (fst (cl_run l ops)) -> cv_index h' = cv_index h -> sdepth sp' = 0 ->
        frame (hp sp) (hp sp') (foot h bss) (foot h' bss') -> Q (CrOk (h', snd (cl_run l ops))) sp') ->
    cwp fl (cv_run T E h ops) sp Q.
  Proof.
    intros ops h bss l sp Q HR Hd Hok.
    exact (hist_run fl vrep foot cv_index (cv_step T E) cl_step _ cv_step_spec (cv_run T E) cl_run ops_ok
             (fun _ => eq_refl) (fun _ _ _ => eq_refl) (fun _ => eq_refl) (fun _ _ _ => eq_refl)
             (fun _ _ _ '(conj a (conj b c)) => conj (conj a b) c) ops h bss l sp HR Hd Hok Q).
  Qed.
  End Spec.

  Lemma cv_new_ok fl sp (Q : cres cv_vec -> spec -> Prop) :
    (forall h s sp', vrep (hp sp') h s [] -> sdepth sp' = sdepth sp -> Q (CrOk h) sp') -> cwp fl cv_new sp Q.
  Proof. intros HQ. apply (cv_new_spec T E L fl). intros h sp' HR _ _ _ Hd _. exact (HQ h [] sp' HR Hd). Qed.

  Lemma cv_run_ok fl l : ops_ok [] l -> forall h s sp, vrep (hp sp) h s [] -> sdepth sp = 0 ->
    hrefines fl vrep foot cv_index h s sp (cv_run T E h l) (fst (cl_run [] l)) (snd (cl_run [] l)).
  Proof. intros Hok h s sp HR Hd Q. exact (cv_run_spec fl l h s [] sp Q HR Hd Hok). Qed.

  Theorem cv_history_on_storage (ops : store_ops cdata) (fl : bool) : kind ops fl ->
    forall (l : list (cv_op T)), ops_ok [] l ->
    let r := cp_run (st_step cdata ops) (h <~ cv_new ;; cv_run T E h l) s_init in
    snd r = CrDead \/
    exists h' sp' bss',
      snd r = CrOk (h', snd (cl_run [] l)) /\
      Rel (fst r) sp' /\ vrep (hp sp') h' bss' (fst (cl_run [] l)).
  Proof.
    intros K l Hok.
    exact (hist_on_storage fl vrep foot cv_index cv_new [] _ (fun h => cv_run T E h l) _ ops K (cv_new_ok fl) (cv_run_ok fl l Hok)).
  Qed.
End Hist.
