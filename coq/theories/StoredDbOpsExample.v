(* StoredDbOpsExample.v — non-vacuity of the core-operation theorems: on the example database
   of StoredDbExampleBase.v (created on the model of storage.rs) the programs so_open; insert_node;
   reserve_key_value_capacity; insert_key_value are RUN on the storage model; the answers of the storage model are
   replayed on the abstract record map (`so_replay`: every answer is checked by spec_step, the acceptor C04 proves the
   storage to satisfy), so the theorems apply to this very run: the record store the storage model ends with satisfies
   stored_db for the database DbModel computes, and load_db returns it. *)
From Coq Require Import Permutation.
From Agdb Require Import Bytes BytesProofs Utf8 Codec DbValue ValueIndex Graph DbModel Records RecordsProofs Storage StorageSpec
  StorageLayout StorageWp StorageRefine StorageProofs Collections CollValues CollWp CollBytes CollVecBase CollVecOps CollVec
  CollElems CollSep CollMap CollMapHist CollGraph CollValuesProofs StoredDb StoredDbRep StoredDbRun StoredDbLoad StoredDbProofs
  StoredDbFrame StoredDbExampleBase StoredDbOps StoredDbOpsGraph StoredDbOpsDb StoredDbOpsKv StoredDbOpsKv2 StoredDbOpsDb2
  StoredDbOpsGraph2 StoredDbOpsGraph4.
From Coq Require Import ZifyBool ZifyNat ZifyN.
Open Scope N_scope.

Definition obs_okb (o : sop) (v : obs) : bool :=
  match o, v with
  | SInsert _, ObNum i => i <? two64
  | _, _ => true
  end.

Fixpoint so_replay {S A} (step : S -> sop -> S * obs) (fl : bool) (p : cprog A) (s : S) (sp : spec) : option (S * spec * cres A) :=
  match p with
  | CRet a => Some (s, sp, CrOk a)
  | CErr e => Some (s, sp, CrErr e)
  | CDead => None
  | CDo o k =>
    let '(s', v) := step s o in
    if obs_okb o v then
      match spec_step fl sp o v with
      | Some sp' => so_replay step fl (k v) s' sp'
      | None => None
      end
    else None
  end.

Lemma so_replay_sound {S A} (step : S -> sop -> S * obs) fl (p : cprog A) : forall s sp (Q : cres A -> spec -> Prop) s' sp' r,
  cwp fl p sp Q -> so_replay step fl p s sp = Some (s', sp', r) -> Q r sp'.
Proof.
  induction p as [a|e| |o k IH]; intros s sp Q s' sp' r H E; cbn [so_replay cwp] in *.
  - injection E as <- <- <-. exact H.
  - injection E as <- <- <-. exact H.
  - discriminate.
  - destruct (step s o) as [s1 v]. destruct (obs_okb o v) eqn:Eo; [|discriminate].
    destruct (spec_step fl sp o v) as [sp1|] eqn:Es; [|discriminate].
    eapply IH; [|exact E]. apply H; [exact Es|].
    destruct o; try exact I. destruct v; try exact I. cbn [obs_okb obs_ok] in *. apply N.ltb_lt. exact Eo.
Qed.

Lemma so_replay_run {S A} (step : S -> sop -> S * obs) fl (p : cprog A) : forall s sp s' sp' r,
  so_replay step fl p s sp = Some (s', sp', r) -> cp_run step p s = (s', r).
Proof.
  induction p as [a|e| |o k IH]; intros s sp s' sp' r E; cbn [so_replay cp_run] in *.
  - injection E as <- <- <-. reflexivity.
  - injection E as <- <- <-. reflexivity.
  - discriminate.
  - destruct (step s o) as [s1 v]. destruct (obs_okb o v); [|discriminate].
    destruct (spec_step fl sp o v) as [sp1|] eqn:Es; [|discriminate].
    pose proof (IH v _ _ _ _ _ E) as R.
    destruct (spec_no_panic fl sp o) as [NP NF].
    destruct v; try exact R; exfalso; congruence.
Qed.

(* a program whose replay ends: the postcondition proved of it holds of an abstract map.  The hypothesis is a boolean so
   that evaluating it leaves `true = true` and not the final state *)
Lemma so_replay_ends {S A} (step : S -> sop -> S * obs) fl (p : cprog A) s sp (Q : cres A -> spec -> Prop) :
  cwp fl p sp Q -> (if so_replay step fl p s sp then true else false) = true -> exists r sp', Q r sp'.
Proof.
  intros H E. destruct (so_replay step fl p s sp) as [[[s' sp'] r]|] eqn:ER; [|discriminate E].
  exists r, sp'. eapply so_replay_sound; eassumption.
Qed.

Lemma so_replay_bind_ends {S A B} (step : S -> sop -> S * obs) fl (p : cprog A) (f : A -> cprog B) : forall s sp,
  (if so_replay step fl (cbind p f) s sp then true else false) = true -> (if so_replay step fl p s sp then true else false) = true.
Proof.
  induction p as [a|e| |o k IH]; intros s sp H; cbn [cbind so_replay] in *; try reflexivity; [exact H|].
  destruct (step s o) as [s1 v]. destruct (obs_okb o v); [|exact H]. destruct (spec_step fl sp o v); [apply IH|]; exact H.
Qed.

Definition sy_kv : kv :=
  (DString [x71], DString [x41; x42; x43; x44; x45; x46; x47; x48; x49; x4a; x4b; x4c; x4d; x4e; x4f; x50; x51]).   (* "q" -> 17 bytes: out of line *)

Definition sy_id : Z := fst (insert_node_db sx_db).
Definition sy_db1 : db := snd (insert_node_db sx_db).
Definition sy_db2 : db := reserve_kv sy_db1 sy_id.
Definition sy_db : db := insert_key_value sy_db2 sy_id sy_kv.

Definition sy_prog : cprog (so_db * Z) :=
  h <~ so_open 1 ;;
  r <~ so_insert_node h ;;
  h1 <~ so_reserve_key_value_capacity (fst r) (snd r) 1 ;;
  h2 <~ so_insert_key_value h1 (snd r) sy_kv ;;
  CRet (h2, snd r).

Lemma sy_graph_ok : so_graph_ok (gr sx_db).
Proof.
  constructor; try reflexivity.
  - cbn. lia.
  - intros X. exfalso. apply X. reflexivity.
  - change (tmeta (gr sx_db) 0) with 2%Z. lia.
Qed.

Lemma sy_cwp fl :
  cwp fl sy_prog (sd_spec_of sx_store) (fun r sp' => (exists h, r = CrOk (h, sy_id)) /\ sdepth sp' = 0 /\ stored_db (hp sp') 1 sy_db).
Proof.
  unfold sy_prog.
  apply cwp_bind. eapply so_open_spec; [exact sx_stored|]. intros h w0 H0 Hh0 _. cbn [kont].
  apply cwp_bind. eapply so_insert_node_stored; [exact H0|exact Hh0|exact sy_graph_ok|].
  intros h1 dg1 s1 sp1 H1 Hh1 D1 _. cbn [kont fst snd]. fold sy_id. fold sy_db1 in H1.
  apply cwp_bind. eapply so_reserve_key_value_capacity_stored; [exact H1|exact Hh1|vm_compute; reflexivity|].
  intros h2 vh2 vs2 vi2 vw2 sp2 H2 Hh2 D2 _. cbn [kont]. fold sy_db2 in H2.
  apply cwp_bind. eapply so_insert_key_value_stored; [exact H2|exact Hh2|vm_compute; reflexivity|vm_compute; reflexivity| |vm_compute; reflexivity|].
  { split; vm_compute; reflexivity. }
  intros h3 vh3 vs3 vi3 vw3 sp3 H3 Hh3 D3 _. cbn [kont cwp]. fold sy_db in H3.
  split; [eexists; reflexivity|]. split; [cbn in *; congruence|]. eexists. exact H3.
Qed.

Definition sy_run := cp_run (st_step cdata ops_file) sy_prog (fst sx_run).
Definition sy_store : vmap := Eval vm_compute in live_values cdata ops_file (fst sy_run).

(* one replay of the run from the example file: the record store of the state it ends in, the abstract map at the end *)
Lemma sy_replayed :
  option_map (fun t : storage cdata * spec * cres (so_db * Z) => (live_values cdata ops_file (fst (fst t)), sm (snd (fst t))))
             (so_replay (st_step cdata ops_file) true sy_prog sx_state (sd_spec_of sx_store)) = Some (sy_store, sy_store).
Proof. vm_compute. reflexivity. Qed.

Lemma sy_id_eq : sy_id = 4%Z.
Proof. vm_compute. reflexivity. Qed.

Theorem sy_sample :
  sy_id = 4%Z /\
  (exists h, snd sy_run = CrOk (h, 4%Z)) /\
  live_values cdata ops_file (fst sy_run) = sy_store /\
  stored_db (m_get sy_store) 1 sy_db /\
  load_db sy_store 1 = Some (clear_undo sy_db).
Proof.
  split; [exact sy_id_eq|].
  pose proof sy_replayed as E.
  destruct (so_replay (st_step cdata ops_file) true sy_prog sx_state (sd_spec_of sx_store)) as [[[s' sp'] r]|] eqn:ER;
    [|discriminate E].
  cbn [option_map fst snd] in E. injection E as EL EA.
  destruct (so_replay_sound _ _ _ _ _ _ _ _ _ (sy_cwp true) ER) as ((h & Hr) & _ & HS).
  unfold sy_run. rewrite sx_run_eq. cbn [fst]. rewrite (so_replay_run _ _ _ _ _ _ _ _ ER). cbn [fst snd].
  split; [exists h; rewrite <- sy_id_eq; exact Hr|].
  split; [exact EL|].
  split; [|vm_compute; reflexivity].
  unfold hp in HS. rewrite EA in HS. exact HS.
Qed.

(* remove_edge: the hypotheses hold of the example's edge -3 *)
Lemma sy_unlink_ok_from : unlink_ok (gr sx_db) (length (g_from (gr sx_db))) GfFrom GfFromMeta (-3)%Z.
Proof.
  unfold unlink_ok. split; [vm_compute; lia|]. split; [vm_compute; lia|]. split.
  - intros X. vm_compute in X. discriminate X.
  - intros G' E. vm_compute in E. injection E as <-. unfold i64_range. vm_compute. split; [discriminate|reflexivity].
Qed.

Lemma sy_remove_edge_sample :
  so_graph_ok (gr sx_db) /\ so_remove_edge_ok (gr sx_db) (-3)%Z /\ is_edge (gr sx_db) (-3)%Z = true /\
  exists G', Graph.remove_edge (gr sx_db) (-3)%Z = Some G' /\ g_from G' = [0; 0; 0; 0]%Z /\ g_fmeta G' = [-3; 0; 0; -9223372036854775808]%Z.
Proof.
  split; [exact sy_graph_ok|]. split; [|split; [vm_compute; reflexivity|]].
  - intros _. split; [exact sy_unlink_ok_from|].
    intros G1 E1. vm_compute in E1. injection E1 as <-.
    unfold unlink_ok. split; [vm_compute; lia|]. split; [vm_compute; lia|]. split.
    + intros X. vm_compute in X. discriminate X.
    + intros G' E. vm_compute in E. injection E as <-. unfold i64_range. vm_compute. split; [discriminate|reflexivity].
  - eexists. split; [vm_compute; reflexivity|]. split; reflexivity.
Qed.
