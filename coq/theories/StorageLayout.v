(* StorageLayout.v — byte-list lemmas for the
   store primitives, the serialisation of a list of regions (the shape of the data
   file), its layout (position, index, size of every region) and the relation between
   a layout and the record table / free maps. *)
From Agdb Require Import Bytes BytesProofs Records RecordsProofs RecordsTableProofs Storage.
From Coq Require Import ZifyBool ZifyNat ZifyN.
Open Scope N_scope.

Lemma lenN_app {A} (a b : list A) : lenN (a ++ b) = lenN a + lenN b.
Proof. unfold lenN. rewrite app_length. lia. Qed.
Lemma to_nat_lenN {A} (a : list A) : N.to_nat (lenN a) = length a.
Proof. unfold lenN. lia. Qed.
Lemma lenN_le64 n : lenN (le64 n) = 8.
Proof. unfold lenN. rewrite le64_length. reflexivity. Qed.
Lemma zeros_length n : length (zeros n) = N.to_nat n.
Proof. apply repeat_length. Qed.
Lemma lenN_zeros n : lenN (zeros n) = n.
Proof. unfold lenN. rewrite zeros_length. lia. Qed.
Lemma lenN_0_nil {A} (l : list A) : lenN l = 0 -> l = [].
Proof. destruct l; [reflexivity|]. unfold lenN; cbn [length]. lia. Qed.

(* overwrite the middle part *)
Lemma bs_write_mid (a b c b' : bytes) p :
  p = length a -> length b' = length b -> bs_write (a ++ b ++ c) p b' = a ++ b' ++ c.
Proof.
  intros -> HL. unfold bs_write.
  rewrite firstn_app_exact by reflexivity.
  replace (length a - length (a ++ b ++ c))%nat with 0%nat by (rewrite !app_length; lia).
  cbn [repeat app]. f_equal. f_equal.
  rewrite app_assoc. apply skipn_app_exact. rewrite app_length. lia.
Qed.

(* overwrite the tail and extend *)
Lemma bs_write_tail (a b b' : bytes) p :
  p = length a -> (length b <= length b')%nat -> bs_write (a ++ b) p b' = a ++ b'.
Proof.
  intros -> HL. unfold bs_write.
  rewrite firstn_app_exact by reflexivity.
  replace (length a - length (a ++ b))%nat with 0%nat by (rewrite !app_length; lia).
  cbn [repeat app]. f_equal.
  rewrite skipn_all2 by (rewrite app_length; lia). apply app_nil_r.
Qed.

Lemma bs_write_end (a b' : bytes) p : p = length a -> bs_write a p b' = a ++ b'.
Proof. intros H. rewrite <- (app_nil_r a) at 1. apply bs_write_tail; [assumption|cbn; lia]. Qed.

Lemma bs_resize_prefix (a b : bytes) p : p = length a -> bs_resize (a ++ b) p = a.
Proof.
  intros ->. unfold bs_resize. rewrite firstn_app_exact by reflexivity.
  replace (length a - length (a ++ b))%nat with 0%nat by (rewrite app_length; lia). apply app_nil_r.
Qed.

Lemma bs_read_mid (a b c : bytes) p n : p = length a -> n = length b -> bs_read (a ++ b ++ c) p n = b.
Proof. intros -> ->. unfold bs_read. rewrite skipn_app_exact by reflexivity. apply firstn_app_exact. reflexivity. Qed.

Lemma bs_write_length d p bs : length (bs_write d p bs) = Nat.max (length d) (p + length bs).
Proof.
  unfold bs_write. rewrite !app_length, firstn_length, repeat_length, skipn_length. lia.
Qed.

Lemma pad_to_length bs n : length (pad_to bs n) = N.to_nat n.
Proof. unfold pad_to, bs_resize. rewrite app_length, firstn_length, repeat_length. lia. Qed.
Lemma lenN_pad_to bs n : lenN (pad_to bs n) = n.
Proof. unfold lenN. rewrite pad_to_length. lia. Qed.
Lemma pad_to_grow bs n : lenN bs <= n -> pad_to bs n = bs ++ zeros (n - lenN bs).
Proof.
  intros H. unfold pad_to, bs_resize, zeros, lenN in *. rewrite firstn_all2 by lia. f_equal. f_equal. lia.
Qed.
Lemma pad_to_shrink bs n : n <= lenN bs -> pad_to bs n = firstn (N.to_nat n) bs.
Proof.
  intros H. unfold pad_to, bs_resize, lenN in *.
  replace (N.to_nat n - length bs)%nat with 0%nat by lia. apply app_nil_r.
Qed.

Notation region := (N * bytes)%type.
Definition enc (r : region) : bytes := le64 (fst r) ++ le64 (lenN (snd r)) ++ snd r.
Fixpoint ser (rg : list region) : bytes :=
  match rg with [] => [] | r :: t => enc r ++ ser t end.
Definition slen (rg : list region) : N := lenN (ser rg).
Definition vrec : bytes := le64 0 ++ le64 8 ++ le64 1.

Lemma lenN_enc r : lenN (enc r) = 16 + lenN (snd r).
Proof. unfold enc. rewrite !lenN_app, !lenN_le64. lia. Qed.
Lemma lenN_vrec : lenN vrec = 24.
Proof. reflexivity. Qed.
Lemma ser_app a b : ser (a ++ b) = ser a ++ ser b.
Proof. induction a as [|r a IH]; cbn [ser app]; [reflexivity|]. now rewrite IH, app_assoc. Qed.
Lemma slen_app a b : slen (a ++ b) = slen a + slen b.
Proof. unfold slen. now rewrite ser_app, lenN_app. Qed.
Lemma slen_cons r a : slen (r :: a) = 16 + lenN (snd r) + slen a.
Proof. unfold slen. cbn [ser]. now rewrite lenN_app, lenN_enc. Qed.
Lemma slen_snoc a i (v : bytes) : slen (a ++ [(i, v)]) = slen a + 16 + lenN v.
Proof. rewrite slen_app, slen_cons. cbn [snd]. change (slen []) with 0. lia. Qed.
Lemma slen_nil : slen [] = 0.
Proof. reflexivity. Qed.
Lemma slen_0 a : slen a = 0 -> a = [].
Proof. destruct a as [|r a]; [reflexivity|]. rewrite slen_cons. lia. Qed.

(* position, index and size of every region, the first one at `pos` *)
Fixpoint layout (pos : N) (rg : list region) : list (N * N * N) :=
  match rg with
  | [] => []
  | (i, p) :: t => (pos, i, lenN p) :: layout (pos + 16 + lenN p) t
  end.

Lemma layout_app pos a b : layout pos (a ++ b) = layout pos a ++ layout (pos + slen a) b.
Proof.
  revert pos; induction a as [|[i p] a IH]; intros pos; cbn [layout app].
  - rewrite slen_nil. f_equal. lia.
  - rewrite IH, slen_cons. cbn [snd]. do 3 f_equal. lia.
Qed.

(* membership in the layout of an appended list, entry by entry *)
Ltac inl := rewrite ?layout_app, ?in_app_iff; cbn [layout In]; rewrite ?in_app_iff.

Lemma layout_range pos rg q i n : In (q, i, n) (layout pos rg) -> pos <= q /\ q + 16 + n <= pos + slen rg.
Proof.
  revert pos; induction rg as [|[j p] t IH]; intros pos; cbn [layout In]; [tauto|].
  rewrite slen_cons. cbn [snd]. intros [[= <- <- <-]|H]; [lia|]. apply IH in H. lia.
Qed.

Lemma layout_In pos rg q i n : In (q, i, n) (layout pos rg) -> exists v, In (i, v) rg /\ lenN v = n.
Proof.
  revert pos; induction rg as [|[j p] t IH]; intros pos; cbn [layout In]; [tauto|].
  intros [[= <- <- <-]|H]; [eauto|]. destruct (IH _ H) as (v & Hv & Hn). eauto.
Qed.

Lemma In_layout pos rg i v : In (i, v) rg -> exists q, In (q, i, lenN v) (layout pos rg).
Proof.
  revert pos; induction rg as [|[j p] t IH]; intros pos; cbn [layout In]; [tauto|].
  intros [[= -> ->]|H]; [eauto|]. destruct (IH (pos + 16 + lenN p) H) as (q & Hq). eauto.
Qed.

(* the entry that starts at the start is the head *)
Lemma layout_at_start pos rg i n : In (pos, i, n) (layout pos rg) ->
  exists p t, rg = (i, p) :: t /\ lenN p = n.
Proof.
  destruct rg as [|[j p] t]; cbn [layout In]; [tauto|].
  intros [[= <- <-]|H]; [eauto|]. apply layout_range in H. lia.
Qed.

(* the entry that ends at the end is the last *)
Lemma layout_at_end pos rg q i n : In (q, i, n) (layout pos rg) -> q + 16 + n = pos + slen rg ->
  exists a p, rg = a ++ [(i, p)] /\ lenN p = n /\ q = pos + slen a.
Proof.
  revert pos; induction rg as [|[j p] t IH]; intros pos; cbn [layout In]; [tauto|].
  rewrite slen_cons. cbn [snd]. intros [[= <- <- <-]|H] E.
  - assert (t = []) by (apply slen_0; lia). subst t. exists [], p. repeat split.
    assert (Z0 : slen (@nil (N * bytes)) = 0) by reflexivity. lia.
  - destruct (IH _ H ltac:(lia)) as (a & p' & -> & Hn & Hq).
    exists ((j, p) :: a), p'. rewrite slen_cons. cbn [snd app]. repeat split; [assumption|lia].
Qed.

Lemma m_get_app V (a b : list (N * V)) k :
  m_get (a ++ b) k = match m_get a k with Some v => Some v | None => m_get b k end.
Proof. induction a as [|[x y] a IH]; cbn [m_get app]; [reflexivity|]. destruct (x =? k); auto. Qed.

Lemma m_get_app_none V (a b : list (N * V)) k : m_get (a ++ b) k = None -> m_get a k = None /\ m_get b k = None.
Proof. rewrite m_get_app. destruct (m_get a k); [discriminate|auto]. Qed.

Lemma m_get_skip V (a b : list (N * V)) i x j : j <> i -> m_get (a ++ (i, x) :: b) j = m_get (a ++ b) j.
Proof. intros H. rewrite !m_get_app. cbn [m_get]. destruct (N.eqb_spec i j); [congruence|reflexivity]. Qed.

Lemma m_get_mid V (a b : list (N * V)) i x : m_get a i = None -> m_get (a ++ (i, x) :: b) i = Some x.
Proof. intros H. rewrite m_get_app, H. cbn [m_get]. now rewrite N.eqb_refl. Qed.

Lemma m_get_split V (m : list (N * V)) k v :
  m_get m k = Some v -> exists a b, m = a ++ (k, v) :: b /\ m_get a k = None.
Proof.
  induction m as [|[x y] m IH]; cbn [m_get]; [discriminate|].
  destruct (N.eqb_spec x k) as [->|Hx].
  - intros [= ->]. exists [], m. auto.
  - intros H. destruct (IH H) as (a & b & -> & Ha). exists ((x, y) :: a), b. split; [reflexivity|].
    cbn [m_get]. destruct (N.eqb_spec x k); [congruence|assumption].
Qed.

Lemma m_get_none_In V (m : list (N * V)) k v : m_get m k = None -> ~ In (k, v) m.
Proof.
  induction m as [|[x y] m IH]; cbn [m_get In]; [tauto|].
  destruct (N.eqb_spec x k); [discriminate|]. intros H [[= -> ->]|Hin]; [congruence|]. exact (IH H Hin).
Qed.

Lemma m_get_notin V (m : list (N * V)) k : (forall v, ~ In (k, v) m) -> m_get m k = None.
Proof.
  intros H. destruct (m_get m k) as [v|] eqn:E; [|reflexivity]. apply get_In in E. destruct (H v E).
Qed.

(* the table holds exactly the live entries of the layout, the free map exactly the free ones *)
Definition trel (rs : records) (L : list (N * N * N)) : Prop :=
  (forall q i n, i <> 0 -> (In (q, i, n) L <-> live_at (recs rs) i = Some (q, n))) /\
  (forall q n, In (q, 0, n) L <-> m_get (fps rs) q = Some n).

Definition rwf (rs : records) : Prop := twf (recs rs) /\ fwf rs.

Lemma rwf_new : rwf records_new.
Proof. split; [apply twf_new|apply fwf_new]. Qed.

Lemma length_vrec_ser A : length (vrec ++ ser A) = N.to_nat (24 + slen A).
Proof. rewrite app_length. change (length vrec) with 24%nat. unfold slen, lenN. lia. Qed.

(* a table operation that leaves the free maps alone *)
Lemma rwf_table rs rs' : rwf rs -> twf (recs rs') -> fps rs' = fps rs -> fsp rs' = fsp rs -> rwf rs'.
Proof. intros [_ FW] TW Hp Hs. split; [exact TW|]. unfold fwf. rewrite Hp, Hs. exact FW. Qed.

Lemma trel_new : trel records_new [].
Proof.
  split.
  - intros q i n Hi. cbn [In]. split; [tauto|].
    unfold live_at. cbn [recs records_new]. destruct (N.to_nat i) as [|[|k]] eqn:E; cbn [nth_error]; try discriminate.
    assert (i = 0) by lia. congruence.
  - intros q n. cbn. split; [tauto|discriminate].
Qed.

Lemma layout_split pos rg q i n : In (q, i, n) (layout pos rg) ->
  exists A v B, rg = A ++ (i, v) :: B /\ lenN v = n /\ q = pos + slen A.
Proof.
  revert pos; induction rg as [|[j p] t IH]; intros pos; cbn [layout In]; [tauto|].
  intros [[= <- <- <-]|H].
  - exists [], p, t. rewrite slen_nil. repeat split. lia.
  - destruct (IH _ H) as (A & v & B & -> & Hn & Hq). exists ((j, p) :: A), v, B.
    rewrite slen_cons. cbn [snd app]. repeat split; [assumption|lia].
Qed.

Lemma app_last_live (A0 : list region) i v A' F :
  A0 ++ [(i, v)] = A' ++ F -> (forall i v, In (i, v) F -> i = 0) -> i <> 0 -> F = [] /\ A' = A0 ++ [(i, v)].
Proof.
  intros E HF Hi. induction F as [|x F' _] using rev_ind.
  { rewrite app_nil_r in E. auto. }
  rewrite app_assoc in E. apply app_inj_tail in E. destruct E as [_ <-].
  exfalso. apply Hi. apply (HF i v). apply in_or_app. right. left. reflexivity.
Qed.

(* the entry of index j in a layout, if the table has one *)
Definition at_idx (j : N) (o : option (N * N)) (x : N * N * N) : Prop :=
  match o with Some (q, n) => x = (q, j, n) | None => False end.

Lemma at_idx_iff j o q i n : at_idx j o (q, i, n) <-> i = j /\ o = Some (q, n).
Proof. destruct o as [[q' n']|]; cbn [at_idx]; [|intuition discriminate]. split; [intros [= -> -> ->]|intros [-> [= -> ->]]]; auto. Qed.

Definition ents (j : N) (o : option (N * N)) : list (N * N * N) :=
  match o with Some (q, n) => [(q, j, n)] | None => [] end.

Lemma In_ents j o x : In x (ents j o) <-> at_idx j o x.
Proof. destruct o as [[q n]|]; cbn [ents at_idx In]; [|tauto]. split; [intros [H|[]]; auto|auto]. Qed.

(* the live half of trel.  L and L' are the old and the new layout, H what they share:
   all but the entry of j, which the table moves from `old` to `new` *)
Lemma lrel_live l l' j old new (H L L' : list (N * N * N)) :
  (forall q i n, i <> 0 -> (In (q, i, n) L <-> live_at l i = Some (q, n))) ->
  live_at l j = old -> (forall k, live_at l' k = if k =? j then new else live_at l k) ->
  (forall q i n, i <> 0 -> (In (q, i, n) L <-> at_idx j old (q, i, n) \/ In (q, i, n) H)) ->
  (forall x, at_idx j old x -> ~ In x H) ->
  (forall q i n, i <> 0 -> (In (q, i, n) L' <-> at_idx j new (q, i, n) \/ In (q, i, n) H)) ->
  forall q i n, i <> 0 -> (In (q, i, n) L' <-> live_at l' i = Some (q, n)).
Proof.
  intros TL Hold Hupd HL HH HL' q i n Hi. rewrite (HL' q i n Hi), Hupd, at_idx_iff.
  assert (HinH : In (q, i, n) H <-> live_at l i = Some (q, n) /\ ~ at_idx j old (q, i, n)).
  { rewrite <- (TL q i n Hi), (HL q i n Hi). specialize (HH (q, i, n)). tauto. }
  rewrite HinH, at_idx_iff. destruct (N.eqb_spec i j) as [->|Hij]; [|tauto].
  rewrite Hold. intuition congruence.
Qed.

Lemma trel_live rs rs' j old new (H L L' : list (N * N * N)) :
  trel rs L -> j <> 0 -> live_at (recs rs) j = old ->
  (forall k, live_at (recs rs') k = if k =? j then new else live_at (recs rs) k) -> fps rs' = fps rs ->
  (forall x, In x L <-> at_idx j old x \/ In x H) ->
  (forall x, at_idx j old x -> ~ In x H) ->
  (forall x, In x L' <-> at_idx j new x \/ In x H) ->
  trel rs' L'.
Proof.
  intros [TL TF] Hj Hold Hupd Hfps HL HH HL'. split.
  - apply (lrel_live (recs rs) _ j old new H L); auto.
  - intros q n. rewrite Hfps, <- (TF q n), HL, HL', !at_idx_iff. intuition congruence.
Qed.

(* a layout with a hole: regions A, G bytes that belong to no region, regions B *)
Lemma layout_mid A i v B G x : G = 16 + lenN v ->
  (In x (layout 24 (A ++ (i, v) :: B)) <-> x = (24 + slen A, i, lenN v) \/ In x (layout 24 A ++ layout (24 + slen A + G) B)).
Proof.
  intros ->. rewrite layout_app, !in_app_iff. cbn [layout In].
  replace (24 + slen A + 16 + lenN v) with (24 + slen A + (16 + lenN v)) by lia. intuition.
Qed.

Lemma layout_snoc A i v x :
  In x (layout 24 (A ++ [(i, v)])) <-> x = (24 + slen A, i, lenN v) \/ In x (layout 24 A).
Proof. rewrite layout_app, in_app_iff. cbn [layout In]. intuition. Qed.

Lemma layout_snoc_hole A i v G' B G x : G = 16 + lenN v + G' ->
  (In x (layout 24 (A ++ [(i, v)]) ++ layout (24 + slen (A ++ [(i, v)]) + G') B) <->
   x = (24 + slen A, i, lenN v) \/ In x (layout 24 A ++ layout (24 + slen A + G) B)).
Proof.
  intros ->. rewrite layout_app, slen_snoc, !in_app_iff. cbn [layout In].
  replace (24 + (slen A + 16 + lenN v) + G') with (24 + slen A + (16 + lenN v + G')) by lia. intuition.
Qed.

Lemma layout_hole A G B q i n :
  In (q, i, n) (layout 24 A ++ layout (24 + slen A + G) B) -> q + 16 + n <= 24 + slen A \/ 24 + slen A + G <= q.
Proof. intros H. apply in_app_or in H. destruct H as [H|H]; apply layout_range in H; lia. Qed.

Lemma skipn_skipn_add {A} (l : list A) x y : skipn x (skipn y l) = skipn (y + x) l.
Proof.
  revert l; induction y as [|y IH]; intros l; cbn [skipn Nat.add]; [reflexivity|].
  destruct l; [now rewrite !skipn_nil|apply IH].
Qed.

(* two consecutive writes: a 16-byte header and the payload, into a gap or at the end *)
Lemma place_in (pre g post hdr payload : bytes) P P2 :
  P = length pre -> length hdr = 16%nat -> (16 + length payload <= length g)%nat -> P2 = (P + 16)%nat ->
  bs_write (bs_write (pre ++ g ++ post) P hdr) P2 payload = pre ++ hdr ++ payload ++ skipn (16 + length payload) g ++ post.
Proof.
  intros -> Hh Hg ->.
  rewrite <- (firstn_skipn 16 g) at 1. rewrite <- app_assoc.
  rewrite bs_write_mid; [|reflexivity|rewrite firstn_length; lia].
  rewrite <- (firstn_skipn (length payload) (skipn 16 g)) at 1.
  rewrite <- app_assoc, (app_assoc pre hdr).
  rewrite bs_write_mid; [|rewrite app_length; lia|rewrite firstn_length, skipn_length; lia].
  rewrite <- app_assoc. do 3 f_equal. rewrite skipn_skipn_add. reflexivity.
Qed.

Lemma place_end (pre hdr payload : bytes) P P2 :
  P = length pre -> length hdr = 16%nat -> P2 = (P + 16)%nat ->
  bs_write (bs_write pre P hdr) P2 payload = pre ++ hdr ++ payload.
Proof.
  intros -> Hh ->. rewrite (bs_write_end pre hdr) by reflexivity.
  rewrite bs_write_end by (rewrite app_length; lia). now rewrite <- app_assoc.
Qed.

(* writes and reads inside a value *)
Lemma firstn_repeat {A} (x : A) n m : firstn n (repeat x m) = repeat x (Nat.min n m).
Proof.
  revert m; induction n as [|n IH]; intros [|m]; cbn [firstn repeat Nat.min]; try reflexivity. now rewrite IH.
Qed.

Lemma bs_write_within (b bs : bytes) off :
  (off + length bs <= length b)%nat -> bs_write b off bs = firstn off b ++ bs ++ skipn (off + length bs) b.
Proof. intros H. unfold bs_write. replace (off - length b)%nat with 0%nat by lia. reflexivity. Qed.

Lemma bs_write_within_length (b bs : bytes) off :
  (off + length bs <= length b)%nat -> length (bs_write b off bs) = length b.
Proof. intros H. rewrite bs_write_length. lia. Qed.

Lemma bs_write_inner (a b c bs : bytes) P off :
  P = (length a + off)%nat -> (off + length bs <= length b)%nat ->
  bs_write (a ++ b ++ c) P bs = a ++ bs_write b off bs ++ c.
Proof.
  intros -> H. rewrite (bs_write_within b) by assumption.
  rewrite <- (firstn_skipn off b) at 1.
  rewrite <- (firstn_skipn (length bs) (skipn off b)) at 1.
  rewrite skipn_skipn_add.
  replace (a ++ (firstn off b ++ firstn (length bs) (skipn off b) ++ skipn (off + length bs) b) ++ c)
    with ((a ++ firstn off b) ++ firstn (length bs) (skipn off b) ++ (skipn (off + length bs) b ++ c))
    by (rewrite <- !app_assoc; reflexivity).
  rewrite bs_write_mid.
  - rewrite <- !app_assoc. reflexivity.
  - rewrite app_length, firstn_length. lia.
  - rewrite firstn_length, skipn_length. lia.
Qed.

(* writing at `off` into the zero-extended value = writing into the value with zero fill *)
Lemma bs_write_pad (v bs : bytes) off :
  lenN v <= off + lenN bs ->
  bs_write (pad_to v (off + lenN bs)) (N.to_nat off) bs = bs_write v (N.to_nat off) bs.
Proof.
  intros H. rewrite pad_to_grow by assumption. unfold bs_write, zeros, lenN in *.
  set (Z := repeat x00 (N.to_nat (off + N.of_nat (length bs) - N.of_nat (length v)))).
  assert (HZ : length Z = (N.to_nat off + length bs - length v)%nat) by (unfold Z; rewrite repeat_length; lia).
  assert (E1 : skipn (N.to_nat off + length bs) (v ++ Z) = []) by (apply skipn_all2; rewrite app_length; lia).
  assert (E2 : skipn (N.to_nat off + length bs) v = []) by (apply skipn_all2; lia).
  assert (E3 : (N.to_nat off - length (v ++ Z) = 0)%nat) by (rewrite app_length; lia).
  assert (E4 : firstn (N.to_nat off) (v ++ Z) = firstn (N.to_nat off) v ++ repeat x00 (N.to_nat off - length v)).
  { rewrite firstn_app. f_equal. unfold Z. rewrite firstn_repeat. f_equal. lia. }
  rewrite E1, E2, E3, E4. cbn [repeat app]. now rewrite <- app_assoc.
Qed.

Lemma pad_to_same (v : bytes) : pad_to v (lenN v) = v.
Proof. rewrite pad_to_grow by lia. rewrite N.sub_diag. apply app_nil_r. Qed.

Lemma pad_to_write0 (v bs : bytes) : pad_to (bs_write v 0 bs) (lenN bs) = bs.
Proof.
  unfold bs_write. cbn [firstn Nat.sub repeat app Nat.add]. rewrite pad_to_shrink by (rewrite lenN_app; lia).
  apply firstn_app_exact. unfold lenN. lia.
Qed.

Lemma bs_read_inner (a b c : bytes) P off n :
  P = (length a + off)%nat -> (off + n <= length b)%nat -> bs_read (a ++ b ++ c) P n = bs_read b off n.
Proof.
  intros -> H. unfold bs_read. rewrite <- skipn_skipn_add, skipn_app_exact by reflexivity.
  rewrite skipn_app, firstn_app, skipn_length.
  replace (n - (length b - off))%nat with 0%nat by lia. cbn [firstn]. apply app_nil_r.
Qed.

Lemma layout_same_len pos A i v v' B : lenN v' = lenN v -> layout pos (A ++ (i, v') :: B) = layout pos (A ++ (i, v) :: B).
Proof. intros H. rewrite !layout_app. cbn [layout]. now rewrite H. Qed.
