(* ElementsGraphProofs.v — C18, graph part: positions in the element iteration, and the elements
   search returns existing elements only, whatever the handler. *)
From Agdb Require Import Bytes Graph DbModel Search ElementsSearchProofs GraphSim GraphSpec.
From Coq Require Import Sorted.
From Coq Require Import ZifyBool ZifyNat ZifyN.
Ltac Zify.zify_post_hook ::= Z.div_mod_to_equations.
Open Scope Z_scope.

Lemma elements_listed_exist g n i : nth_error (elements g) n = Some i -> graph_index g i = true.
Proof. intros H. apply elements_in. eapply nth_error_In. eassumption. Qed.

(* positions are ordered by the magnitude of the ids *)
Lemma sorted_nth {A} (R : A -> A -> Prop) (l : list A) :
  StronglySorted R l -> forall n m x y, (n < m)%nat -> nth_error l n = Some x -> nth_error l m = Some y -> R x y.
Proof.
  induction 1 as [|a l Hs IH Hf]; intros n m x y Hnm Hx Hy.
  - destruct n; discriminate.
  - destruct m as [|m]; [lia|]. cbn [nth_error] in Hy. destruct n as [|n]; cbn [nth_error] in Hx.
    + injection Hx as <-. rewrite Forall_forall in Hf. apply Hf. eapply nth_error_In. eassumption.
    + apply (IH n m); try assumption. lia.
Qed.

(* an id that is not an existing element is never returned, whatever the handler *)
Lemma elements_loop_incl rv d conds h els k c acc i :
  In i (elements_loop rv d conds h els k c acc) -> In i acc \/ In i els.
Proof.
  revert k c acc. induction els as [|x r IH]; intros k c acc H; cbn [elements_loop] in H.
  - left. apply in_rev. assumption.
  - destruct (handle h c (eval_conditions rv d x k conds)) as [control c0].
    assert (Hacc : forall l, In i l -> l = (if sc_true control then x :: acc else acc) -> In i acc \/ In i (x :: r)).
    { intros l Hl ->. destruct (sc_true control); [destruct Hl as [<-|Hl]|]; auto; right; left; reflexivity. }
    destruct control.
    + apply IH in H. destruct H as [H|H]; [eapply Hacc; [exact H|reflexivity]|right; right; assumption].
    + apply in_rev in H. eapply Hacc; [exact H|reflexivity].
    + apply IH in H. destruct H as [H|H]; [eapply Hacc; [exact H|reflexivity]|right; right; assumption].
Qed.

Lemma elements_search_existing rv d conds h i :
  In i (elements_search rv d conds h) -> graph_index (gr d) i = true.
Proof.
  unfold elements_search. intros H. apply elements_loop_incl in H.
  destruct H as [[]|H]. apply elements_in. assumption.
Qed.
