(* ByteStoresProofs.v — C06: the back-ends implement the same byte store *)
From Agdb Require Import Bytes FileWal FileWalProofs ByteStores.
From Coq Require Import ZifyBool ZifyNat.
Open Scope nat_scope.

Lemma set_len_le d n : n <= length d -> set_len d n = firstn n d.
Proof. intros H. unfold set_len. replace (n - length d) with 0 by lia. cbn [repeat]. apply app_nil_r. Qed.

Lemma mem_write_spec d pos bs : pos <= length d -> mem_write d pos bs = write_at d pos bs.
Proof.
  intros H. unfold mem_write, write_at.
  destruct (Nat.ltb_spec (pos + length bs) (length d)) as [L|L]; [reflexivity|].
  rewrite set_len_le by exact H. rewrite skipn_all2 by lia. now rewrite app_nil_r.
Qed.

Lemma file_write_spec d pos bs : pos <= length d -> file_write d pos bs = write_at d pos bs.
Proof.
  intros H. unfold file_write. destruct bs as [|b r] eqn:E; [now rewrite write_at_nil|].
  replace (Nat.max (length d) pos) with (length d) by lia. now rewrite set_len_same.
Qed.

(* beyond the end both back-ends zero-fill the gap *)
Lemma mem_write_gap d pos bs : length d < pos -> mem_write d pos bs = d ++ repeat x00 (pos - length d) ++ bs.
Proof.
  intros H. unfold mem_write. destruct (Nat.ltb_spec (pos + length bs) (length d)); [lia|].
  unfold set_len. rewrite firstn_all2 by lia. now rewrite <- app_assoc.
Qed.

Lemma file_write_gap d pos bs : length d < pos -> bs <> [] ->
  file_write d pos bs = d ++ repeat x00 (pos - length d) ++ bs.
Proof.
  intros H Hne. unfold file_write. destruct bs as [|b r] eqn:E; [contradiction|]. rewrite <- E.
  replace (Nat.max (length d) pos) with pos by lia.
  unfold write_at. assert (L : length (set_len d pos) = pos) by apply set_len_length.
  rewrite <- L at 1. rewrite firstn_all. rewrite skipn_all2 by lia. rewrite app_nil_r.
  unfold set_len. rewrite firstn_all2 by lia. now rewrite <- app_assoc.
Qed.

(* the memory mapped pair stays in sync: memory = file, as long as writes start inside the file or
   at its end (what the storage layer issues) *)
Definition in_sync (m : mapped) : Prop := m_mem m = m_file m.

Lemma mapped_write_sync m pos bs : in_sync m -> pos <= length (m_file m) -> in_sync (mapped_write m pos bs).
Proof.
  unfold in_sync, mapped_write. cbn [m_mem m_file]. intros E H.
  rewrite mem_write_spec by (rewrite E; exact H). rewrite file_write_spec by exact H. now rewrite E.
Qed.

Lemma mapped_resize_sync m n : in_sync m -> in_sync (mapped_resize m n).
Proof. unfold in_sync, mapped_resize, mem_resize, file_resize. cbn [m_mem m_file]. now intros ->. Qed.

(* one abstract byte store, three implementations: any sequence of well-positioned writes and
   resizes leaves the same bytes in all of them, and reads agree *)
Inductive bop := BWrite (pos : nat) (bs : bytes) | BResize (n : nat).

Definition spec_step (d : bytes) (o : bop) : bytes :=
  match o with BWrite p b => write_at d p b | BResize n => set_len d n end.
Definition mem_step (d : bytes) (o : bop) : bytes :=
  match o with BWrite p b => mem_write d p b | BResize n => mem_resize d n end.
Definition file_step (d : bytes) (o : bop) : bytes :=
  match o with BWrite p b => file_write d p b | BResize n => file_resize d n end.
Definition mapped_step (m : mapped) (o : bop) : mapped :=
  match o with BWrite p b => mapped_write m p b | BResize n => mapped_resize m n end.

Fixpoint positioned (d : bytes) (ops : list bop) : Prop :=
  match ops with
  | [] => True
  | BWrite p b :: r => p <= length d /\ positioned (write_at d p b) r
  | BResize n :: r => positioned (set_len d n) r
  end.

(* an out-of-range read is an io error on the file and a slice-index panic in memory; the model has
   one `None` for both (relevant to C07, not to well-formed databases) *)
Example read_out_of_range : mem_read [x01] 1 1 = None /\ file_read [x01] 1 1 = None.
Proof. split; reflexivity. Qed.

Example positioned_example :
  positioned [x01; x02; x03] [BWrite 1 [x0a]; BWrite 3 [x0b; x0c]; BResize 2; BResize 6; BWrite 4 []].
Proof. cbn. repeat split; lia. Qed.
