(* StorageWp.v — a weakest-precondition
   calculus for the state transformers of Storage.v over the canonical byte store,
   the tiling invariant (with a gap, stale table entries and taken free regions while an
   operation is under way), the steps an operation is made of (take a free region, give a
   region up, place a region in a gap or at the end) and free_a_region / mark_free_compact. *)
From Agdb Require Import Bytes BytesProofs Records RecordsProofs RecordsTableProofs Storage StorageLayout.
From Coq Require Import ZifyBool ZifyNat ZifyN.
Open Scope N_scope.

Notation ST := (storage cdata).
Notation MM := (M cdata).

(* a byte store that behaves like the canonical one on len / read / write / resize / flush *)
Record canon (ops : store_ops cdata) : Prop := {
  cn_len : so_len ops = c_len;
  cn_read : so_read ops = c_read;
  cn_write : so_write ops = c_write;
  cn_resize : so_resize ops = c_resize;
  cn_flush : so_flush ops = c_flush;
  cn_copy : so_copy ops = c_flush;
  cn_reopen : so_reopen ops = c_rollback \/ so_reopen ops = c_flush
}.

Lemma canon_file : canon ops_file.
Proof. constructor; try reflexivity. left; reflexivity. Qed.
Lemma canon_mem : canon ops_mem.
Proof. constructor; try reflexivity. right; reflexivity. Qed.

(* Q: postcondition of a normal return, E: of an error return; a panic (arithmetic
   overflow) ends the history and is always allowed, a fault never *)
Definition wp {A} (m : MM A) (s : ST) (Q : ST -> A -> Prop) (E : ST -> serr -> Prop) : Prop :=
  match m s with
  | (s', ROk a) => Q s' a
  | (s', RErr e) => E s' e
  | (_, RPanic) => True
  | (_, RFault) => False
  end.

Lemma wp_bind {A B} (m : MM A) (f : A -> MM B) s Q E :
  wp m s (fun s' a => wp (f a) s' Q E) E -> wp (bind cdata m f) s Q E.
Proof. unfold wp, bind. destruct (m s) as [s' [a|e| |]]; auto. Qed.

Lemma wp_ret {A} (a : A) s (Q : ST -> A -> Prop) E : Q s a -> wp (ret cdata a) s Q E.
Proof. exact (fun H => H). Qed.

Lemma wp_mono {A} (m : MM A) s (Q Q' : ST -> A -> Prop) (E E' : ST -> serr -> Prop) :
  wp m s Q E -> (forall s' a, Q s' a -> Q' s' a) -> (forall s' e, E s' e -> E' s' e) -> wp m s Q' E'.
Proof. unfold wp. destruct (m s) as [s' [a|e| |]]; auto. Qed.

Lemma wp_fail_err {A} e s (Q : ST -> A -> Prop) (E : ST -> serr -> Prop) : E s e -> wp (fail cdata (RErr e)) s Q E.
Proof. exact (fun H => H). Qed.
Lemma wp_fail_panic {A} s (Q : ST -> A -> Prop) E : wp (fail cdata (@RPanic A)) s Q E.
Proof. exact I. Qed.

Definition set_cur (s : ST) (c : bytes) : ST :=
  set_data cdata s {| cur := c; dur := dur (sdata s) |}.

(* the fields of a state built by the setters *)
Ltac st := cbn [sdata cur dur rtab tx version set_cur set_data set_rtab set_tx set_version].

(* from a wp to the observation of the operation (st_step) *)
Lemma wp_lift {A} (m : MM A) (f : A -> obs) s Q E (P : ST * obs -> Prop) :
  wp m s Q E -> (forall s' a, Q s' a -> P (s', f a)) -> (forall s' e, E s' e -> P (s', ObErr e)) ->
  (forall s', P (s', ObPanic)) -> P (lift cdata f (m s)).
Proof. unfold wp, lift. destruct (m s) as [s' [a|e| |]]; cbn [fst snd to_obs]; auto. intros []. Qed.

Section Canon.
  Variable ops : store_ops cdata.
  Hypothesis CN : canon ops.

  Lemma wp_get_len s (Q : ST -> N -> Prop) E : Q s (lenN (cur (sdata s))) -> wp (get_len cdata ops) s Q E.
  Proof. unfold wp, get_len. rewrite (cn_len _ CN). exact (fun H => H). Qed.

  Lemma wp_get_rtab s (Q : ST -> records -> Prop) E : Q s (rtab s) -> wp (get_rtab cdata) s Q E.
  Proof. exact (fun H => H). Qed.

  Lemma wp_put_rtab r s (Q : ST -> unit -> Prop) E : Q (set_rtab cdata s r) tt -> wp (put_rtab cdata r) s Q E.
  Proof. exact (fun H => H). Qed.

  Lemma wp_dwrite pos bs s (Q : ST -> unit -> Prop) E :
    pos <= lenN (cur (sdata s)) ->
    (pos + lenN bs < two64 -> Q (set_cur s (bs_write (cur (sdata s)) (N.to_nat pos) bs)) tt) ->
    wp (dwrite cdata ops pos bs) s Q E.
  Proof.
    intros Hp HQ. unfold wp, dwrite. destruct (N.leb_spec two64 (pos + lenN bs)); [exact I|].
    rewrite (cn_write _ CN). unfold c_write. destruct (N.leb_spec pos (lenN (cur (sdata s)))); [|lia].
    apply HQ. assumption.
  Qed.

  Lemma wp_dread pos n s (Q : ST -> bytes -> Prop) E :
    pos + n <= lenN (cur (sdata s)) ->
    Q s (bs_read (cur (sdata s)) (N.to_nat pos) (N.to_nat n)) ->
    wp (dread cdata ops pos n) s Q E.
  Proof.
    intros Hp HQ. unfold wp, dread. rewrite (cn_read _ CN). unfold c_read.
    destruct (N.leb_spec (pos + n) (lenN (cur (sdata s)))); [exact HQ|lia].
  Qed.

  Lemma wp_dresize n s (Q : ST -> unit -> Prop) E :
    Q (set_cur s (bs_resize (cur (sdata s)) (N.to_nat n))) tt -> wp (dresize cdata ops n) s Q E.
  Proof. unfold wp, dresize. rewrite (cn_resize _ CN). exact (fun H => H). Qed.

  Lemma wp_tx_begin s (Q : ST -> N -> Prop) E :
    (tx s + 1 < two64 -> Q (set_tx cdata s (tx s + 1)) (tx s + 1)) -> wp (tx_begin cdata) s Q E.
  Proof. intros H. unfold wp, tx_begin. destruct (N.leb_spec two64 (tx s + 1)); [exact I|auto]. Qed.

  (* the state after the commit that closes the transaction opened at depth `tx s - 1` *)
  Definition committed (s : ST) : ST :=
    let s' := set_tx cdata s (tx s - 1) in
    if tx s' =? 0 then set_data cdata s' (c_flush (sdata s')) else s'.

  Lemma wp_tx_commit id s (Q : ST -> unit -> Prop) E :
    tx s = id -> id <> 0 -> Q (committed s) tt -> wp (tx_commit cdata ops id) s Q E.
  Proof.
    intros <- Hid HQ. unfold wp, tx_commit. rewrite N.eqb_refl. cbn [negb].
    destruct (N.eqb_spec (tx s) 0); [congruence|].
    unfold committed in HQ. cbn zeta in HQ.
    destruct (tx (set_tx cdata s (tx s - 1)) =? 0); [|exact HQ].
    unfold dflush. rewrite (cn_flush _ CN). exact HQ.
  Qed.

  Lemma wp_opt_panic {A} (o : option A) s (Q : ST -> A -> Prop) E :
    (forall a, o = Some a -> Q s a) -> wp (opt_panic cdata o) s Q E.
  Proof. destruct o; cbn; [intros H; apply H; reflexivity|intros _; exact I]. Qed.

  (* derived rules for helpers of storage.rs *)
  Lemma wp_do_set_size i n s (Q : ST -> unit -> Prop) E :
    Q (set_rtab cdata s (set_size (rtab s) i n)) tt -> wp (do_set_size cdata i n) s Q E.
  Proof. exact (fun H => H). Qed.

  Lemma wp_do_set_pos i p s (Q : ST -> unit -> Prop) E :
    Q (set_rtab cdata s (set_pos (rtab s) i p)) tt -> wp (do_set_pos cdata i p) s Q E.
  Proof. exact (fun H => H). Qed.

  Lemma wp_is_at_end r s (Q : ST -> bool -> Prop) E :
    Q s (lenN (cur (sdata s)) =? r_end r) -> wp (is_at_end cdata ops r) s Q E.
  Proof. intros H. unfold is_at_end. apply wp_bind, wp_get_len, wp_ret. exact H. Qed.

  Lemma wp_update_record r p n s (Q : ST -> srec -> Prop) E :
    p <= lenN (cur (sdata s)) ->
    Q (set_cur (set_rtab cdata s (set_size (set_pos (rtab s) (r_index r) p) (r_index r) n))
               (bs_write (cur (sdata s)) (N.to_nat p) (le64 (r_index r) ++ le64 n)))
      {| r_index := r_index r; r_pos := p; r_size := n |} ->
    wp (update_record cdata ops r p n) s Q E.
  Proof.
    intros Hp HQ. unfold update_record. apply wp_bind, wp_do_set_pos. apply wp_bind, wp_do_set_size.
    apply wp_bind. unfold write_record. cbn [r_pos r_index r_size]. apply wp_dwrite; [exact Hp|].
    intros _. apply wp_ret. exact HQ.
  Qed.

  (* the file is the version record, the regions A, a gap g (bytes that belong to no
     region while an operation is under way), the regions B; the table and the free
     maps describe exactly the regions *)
  Definition gtiles (s : ST) (A : list region) (g : bytes) (B : list region) : Prop :=
    cur (sdata s) = vrec ++ ser A ++ g ++ ser B /\
    lenN (cur (sdata s)) < two64 /\
    trel (rtab s) (layout 24 A ++ layout (24 + slen A + lenN g) B) /\
    rwf (rtab s) /\ version s = 1.

  Definition tiles (s : ST) (rg : list region) : Prop := gtiles s rg [] [].

  Lemma gtiles_len s A g B : gtiles s A g B -> lenN (cur (sdata s)) = 24 + slen A + lenN g + slen B.
  Proof. intros (-> & _). rewrite !lenN_app, lenN_vrec. unfold slen. lia. Qed.

  Lemma tiles_intro s rg :
    cur (sdata s) = vrec ++ ser rg -> lenN (cur (sdata s)) < two64 ->
    trel (rtab s) (layout 24 rg) -> rwf (rtab s) -> version s = 1 -> tiles s rg.
  Proof.
    intros H1 H2 H3 H4 H5. unfold tiles, gtiles. cbn [ser layout]. rewrite !app_nil_r. auto.
  Qed.

  Lemma tiles_elim s rg : tiles s rg ->
    cur (sdata s) = vrec ++ ser rg /\ lenN (cur (sdata s)) < two64 /\
    trel (rtab s) (layout 24 rg) /\ rwf (rtab s) /\ version s = 1.
  Proof. unfold tiles, gtiles. cbn [ser layout]. rewrite !app_nil_r. auto. Qed.

  Definition all_free (F : list region) : Prop := forall i v, In (i, v) F -> i = 0.

  Lemma all_free_nil : all_free [].
  Proof. intros i v []. Qed.

  (* the free map describes the free regions of a layout, except at the positions XF
     (free regions that have been taken out of the maps and are being reused) *)
  Definition frelx (rs : records) (L : list (N * N * N)) (XF : N -> Prop) : Prop :=
    (forall q n, ~ XF q -> (In (q, 0, n) L <-> m_get (fps rs) q = Some n)) /\
    (forall q, XF q -> m_get (fps rs) q = None).

  Lemma trel_frelx rs L : trel rs L -> frelx rs L (fun _ => False).
  Proof. intros [_ TF]. split; [intros q n _; apply TF|intros q []]. Qed.

  (* while an operation is under way the table may still have live entries X for regions that
     the file has given up, and the free maps may lack the free regions at the positions XF
     (taken for reuse); otherwise table and maps describe the layout L *)
  Definition xrel (s : ST) (L X : list (N * N * N)) (XF : N -> Prop) : Prop :=
    lenN (cur (sdata s)) < two64 /\
    (forall q i n, i <> 0 -> (In (q, i, n) (X ++ L) <-> live_at (recs (rtab s)) i = Some (q, n))) /\
    (forall q i n, In (q, i, n) X -> i <> 0 /\ ~ In (q, i, n) L) /\
    frelx (rtab s) L XF /\ rwf (rtab s) /\ version s = 1.

  Definition xgtiles (s : ST) (A : list region) (g : bytes) (B : list region) X XF : Prop :=
    cur (sdata s) = vrec ++ ser A ++ g ++ ser B /\ xrel s (layout 24 A ++ layout (24 + slen A + lenN g) B) X XF.
  Definition xtiles (s : ST) (rg : list region) X XF : Prop :=
    cur (sdata s) = vrec ++ ser rg /\ xrel s (layout 24 rg) X XF.

  Lemma xrel_exact s L :
    xrel s L [] (fun _ => False) <-> lenN (cur (sdata s)) < two64 /\ trel (rtab s) L /\ rwf (rtab s) /\ version s = 1.
  Proof.
    unfold xrel. cbn [app]. split.
    - intros (Hl & HL & _ & [HF _] & RW & Hv). split; [exact Hl|]. split; [|auto]. split; [exact HL|].
      intros q n. apply HF. tauto.
    - intros (Hl & [TL TF] & RW & Hv). split; [exact Hl|]. split; [exact TL|]. split; [intros q i n []|].
      split; [apply trel_frelx; split; assumption|auto].
  Qed.

  Lemma gtiles_xg s A g B : gtiles s A g B <-> xgtiles s A g B [] (fun _ => False).
  Proof. unfold gtiles, xgtiles. rewrite xrel_exact. tauto. Qed.

  Lemma xgtiles_len s A g B X XF : xgtiles s A g B X XF -> lenN (cur (sdata s)) = 24 + slen A + lenN g + slen B.
  Proof. intros (-> & _). rewrite !lenN_app, lenN_vrec. unfold slen. lia. Qed.

  (* a free region is taken out of the maps *)
  Lemma xt_take s rg p n :
    tiles s rg -> m_get (fps (rtab s)) p = Some n -> xtiles (set_rtab cdata s (remove_free (rtab s) p)) rg [] (eq p).
  Proof.
    intros T Hp. destruct (tiles_elim _ _ T) as (Hcur & Hlen & [TL TF] & [TW FW] & Hv).
    split; [exact Hcur|]. unfold xrel. st. cbn [app]. split; [exact Hlen|]. split; [exact TL|]. split; [intros q i m []|].
    split; [|split; [split; [exact TW|exact (fwf_remove_free _ _ _ FW Hp)]|exact Hv]]. split.
    - intros q m Hq. rewrite fps_remove_free. destruct (N.eqb_spec p q); [congruence|apply TF].
    - intros q <-. rewrite fps_remove_free, N.eqb_refl. reflexivity.
  Qed.

  (* the entry e of a live region leaves the layout and stays in the table *)
  Lemma xrel_stale s L H X XF q i n :
    xrel s L X XF -> i <> 0 -> (forall x, In x L <-> x = (q, i, n) \/ In x H) -> ~ In (q, i, n) H ->
    xrel s H ((q, i, n) :: X) XF.
  Proof.
    intros (Hl & HL & HD & [HF HX] & RW & Hv) Hi HLH He. split; [exact Hl|]. split.
    { intros q' i' n' Hi'. rewrite <- (HL q' i' n' Hi'), !in_app_iff, HLH. cbn [In]. intuition congruence. }
    split.
    { intros q' i' n' [[= <- <- <-]|Hin]; [auto|]. destruct (HD _ _ _ Hin) as [Hi' Hn]. split; [exact Hi'|].
      intros Hh. apply Hn, HLH. auto. }
    split; [|auto]. split; [|exact HX].
    intros q' n' Hq. rewrite <- (HF q' n' Hq), HLH. split; [auto|intros [E|Hh]; [congruence|exact Hh]].
  Qed.

  (* the region of (i, v) is given up: its bytes are a gap, its entry is still in the table *)
  Lemma xt_give_up s A i v B X XF :
    xtiles s (A ++ (i, v) :: B) X XF -> i <> 0 -> xgtiles s A (enc (i, v)) B ((24 + slen A, i, lenN v) :: X) XF.
  Proof.
    intros [Hcur XR] Hi. split; [rewrite Hcur, ser_app; reflexivity|].
    apply (xrel_stale _ _ _ _ _ _ _ _ XR Hi).
    - intros x. apply layout_mid, lenN_enc.
    - intros Hin. apply layout_hole in Hin. rewrite lenN_enc in Hin. lia.
  Qed.

  (* a taken free region is regarded as a gap: nothing is amiss in the maps any more *)
  Lemma xrel_gap s L H X p n :
    xrel s L X (eq p) -> (forall x, In x L <-> x = (p, 0, n) \/ In x H) -> (forall m, ~ In (p, 0, m) H) ->
    xrel s H X (fun _ => False).
  Proof.
    intros (Hl & HL & HD & [HF HX] & RW & Hv) HLH Hp. split; [exact Hl|]. split.
    { intros q i m Hi. rewrite <- (HL q i m Hi), !in_app_iff, HLH. intuition congruence. }
    split.
    { intros q i m Hin. destruct (HD _ _ _ Hin) as [Hi Hn]. split; [exact Hi|]. intros Hh. apply Hn, HLH. auto. }
    split; [|auto]. split; [|intros q []].
    intros q m _. destruct (N.eqb_spec p q) as [<-|Hq].
    - rewrite (HX p eq_refl). split; [intros Hh; destruct (Hp m Hh)|discriminate].
    - rewrite <- (HF q m Hq), HLH. split; [auto|intros [E|Hh]; [congruence|exact Hh]].
  Qed.

  Lemma xt_taken_gap s A p B X :
    xtiles s (A ++ (0, p) :: B) X (eq (24 + slen A)) -> xgtiles s A (enc (0, p)) B X (fun _ => False).
  Proof.
    intros [Hcur XR]. split; [rewrite Hcur, ser_app; reflexivity|].
    apply (xrel_gap _ _ _ _ _ (lenN p) XR).
    - intros x. apply layout_mid, lenN_enc.
    - intros m Hin. apply layout_hole in Hin. rewrite lenN_enc in Hin. lia.
  Qed.

  Lemma merge_fwd_spec fuel XF : forall rs LA e B rs' e',
    fwf rs -> (forall q i n, In (q, i, n) LA -> q + 16 + n <= e) ->
    frelx rs (LA ++ layout e B) XF ->
    merge_fwd fuel rs e = (rs', e') ->
    exists F B', B = F ++ B' /\ all_free F /\ e' = e + slen F /\
      frelx rs' (LA ++ layout e' B') XF /\ fwf rs' /\ recs rs' = recs rs /\
      (forall q i n, In (q, i, n) (layout e F) -> ~ XF q).
  Proof.
    induction fuel as [|f IH]; intros rs LA e B rs' e' FW HLA TR; cbn [merge_fwd];
      (* where the merge stops nothing has been taken *)
      (assert (Stop : exists F B', B = F ++ B' /\ all_free F /\ e = e + slen F /\
                 frelx rs (LA ++ layout e B') XF /\ fwf rs /\ recs rs = recs rs /\
                 (forall q i n, In (q, i, n) (layout e F) -> ~ XF q))
         by (exists [], B; rewrite slen_nil, N.add_0_r; split; [reflexivity|]; split; [apply all_free_nil|]; split; [reflexivity|];
             split; [exact TR|]; split; [exact FW|]; split; [reflexivity|intros q0 i0 n0 []])).
    - intros [= <- <-]. exact Stop.
    - destruct (m_get (fps rs) e) as [n'|] eqn:Eg.
      2:{ intros [= <- <-]. exact Stop. }
      intros HM. pose proof TR as [TRf TRx].
      assert (HXe : ~ XF e) by (intros HX; apply TRx in HX; congruence).
      assert (Hin : In (e, 0, n') (LA ++ layout e B)) by (apply TRf; assumption).
      apply in_app_or in Hin. destruct Hin as [Hin|Hin]; [apply HLA in Hin; lia|].
      destruct (layout_at_start _ _ _ _ Hin) as (p & B1 & -> & Hp).
      assert (TR1 : frelx (remove_free rs e) (LA ++ layout (e + 16 + n') B1) XF).
      { split.
        - intros q n HXq. rewrite fps_remove_free.
          destruct (N.eqb_spec e q) as [<-|Hq].
          + split; [|discriminate]. rewrite in_app_iff. intros [H|H]; [apply HLA in H; lia|apply layout_range in H; lia].
          + rewrite <- (TRf q n HXq). cbn [layout]. rewrite Hp, !in_app_iff. cbn [In].
            split; [tauto|]. intros [H|[H|H]]; auto. injection H as H _. congruence.
        - intros q HXq. rewrite fps_remove_free. destruct (e =? q); [reflexivity|auto]. }
      destruct (IH (remove_free rs e) LA (e + 16 + n') B1 rs' e' (fwf_remove_free _ _ _ FW Eg)
                   ltac:(intros q i n H; apply HLA in H; lia) TR1 HM) as (F & B' & -> & HF & He' & TR' & FW' & HR & HNX).
      exists ((0, p) :: F), B'. split; [reflexivity|]. split.
      { intros i v [[= <- _]|H]; [reflexivity|eapply HF; eassumption]. }
      split; [rewrite slen_cons; cbn [snd]; lia|]. split; [assumption|]. split; [assumption|]. split; [exact HR|].
      cbn [layout]. intros q0 i0 n0 [[= <- _ _]|H]; [assumption|]. rewrite Hp in H. eapply HNX; eassumption.
  Qed.

  Lemma merge_bwd_spec fuel XF : forall rs A LB rs' p',
    fwf rs -> (forall q i n, In (q, i, n) LB -> 24 + slen A <= q) ->
    frelx rs (layout 24 A ++ LB) XF ->
    merge_bwd fuel rs (24 + slen A) = (rs', p') ->
    exists A' F, A = A' ++ F /\ all_free F /\ p' = 24 + slen A' /\
      frelx rs' (layout 24 A' ++ LB) XF /\ fwf rs' /\ recs rs' = recs rs /\
      (A' = A \/ ~ XF p') /\
      (forall q i n, In (q, i, n) (layout (24 + slen A') F) -> ~ XF q).
  Proof.
    induction fuel as [|f IH]; intros rs A LB rs' p' FW HLB TR; cbn [merge_bwd];
      (assert (Stop : exists A' F, A = A' ++ F /\ all_free F /\ 24 + slen A = 24 + slen A' /\
                 frelx rs (layout 24 A' ++ LB) XF /\ fwf rs /\ recs rs = recs rs /\
                 (A' = A \/ ~ XF (24 + slen A)) /\
                 (forall q i n, In (q, i, n) (layout (24 + slen A') F) -> ~ XF q))
         by (exists A, []; rewrite app_nil_r; split; [reflexivity|]; split; [apply all_free_nil|]; split; [reflexivity|];
             split; [exact TR|]; split; [exact FW|]; split; [reflexivity|]; split; [left; reflexivity|intros q0 i0 n0 []])).
    - intros [= <- <-]. exact Stop.
    - destruct (m_prev (fps rs) (24 + slen A)) as [[pp n']|] eqn:Eg.
      2:{ intros [= <- <-]. exact Stop. }
      destruct (N.eqb_spec (pp + 16 + n') (24 + slen A)) as [Eend|].
      2:{ intros [= <- <-]. exact Stop. }
      intros HM. pose proof TR as [TRf TRx]. pose proof FW as (KS & _).
      apply m_prev_In in Eg. destruct Eg as [Hin Hlt].
      assert (Eg : m_get (fps rs) pp = Some n') by (apply In_get; assumption).
      assert (HXp : ~ XF pp) by (intros HX; apply TRx in HX; congruence).
      assert (Hin2 : In (pp, 0, n') (layout 24 A ++ LB)) by (apply TRf; assumption).
      apply in_app_or in Hin2. destruct Hin2 as [Hin2|Hin2]; [|apply HLB in Hin2; lia].
      destruct (layout_at_end _ _ _ _ _ Hin2 Eend) as (A1 & p & -> & Hp & Hpp).
      assert (TR1 : frelx (remove_free rs (24 + slen A1)) (layout 24 A1 ++ LB) XF).
      { rewrite <- Hpp. rewrite layout_app in TRf. cbn [layout] in TRf. rewrite Hp, <- Hpp in TRf. split.
        - intros q n HXq. rewrite fps_remove_free.
          destruct (N.eqb_spec pp q) as [<-|Hq].
          + split; [|discriminate]. rewrite in_app_iff. intros [H|H]; [apply layout_range in H; lia|apply HLB in H].
            rewrite slen_app, slen_cons in H. lia.
          + rewrite <- (TRf q n HXq), !in_app_iff. cbn [In].
            split; [tauto|]. intros [[H|[H|[]]]|H]; auto. injection H as H _. congruence.
        - intros q HXq. rewrite fps_remove_free. destruct (pp =? q); [reflexivity|auto]. }
      rewrite Hpp in HM. rewrite Hpp in Eg.
      destruct (IH (remove_free rs (24 + slen A1)) A1 LB rs' p' (fwf_remove_free _ _ _ FW Eg)
                   ltac:(intros q i n H; apply HLB in H; rewrite slen_app in H; lia) TR1 HM) as (A' & F & -> & HF & He' & TR' & FW' & HR & HX' & HNX).
      exists A', (F ++ [(0, p)]). split; [now rewrite app_assoc|]. split.
      { intros i v H. apply in_app_or in H. destruct H as [H|[[= <- _]|[]]]; [eapply HF; eassumption|reflexivity]. }
      split; [assumption|]. split; [assumption|]. split; [assumption|]. split; [exact HR|]. split.
      { right. destruct HX' as [EA|HX']; [|assumption]. rewrite <- EA in Hpp. rewrite He', <- Hpp. assumption. }
      intros q0 i0 n0 H. rewrite layout_app, in_app_iff in H. destruct H as [H|H]; [eapply HNX; eassumption|].
      cbn [layout In] in H. destruct H as [[= <- _ _]|[]]. replace (24 + slen A' + slen F) with pp by (rewrite Hpp, slen_app; lia). assumption.
  Qed.

  (* the layout after merging: the entries of the live regions are where they were *)
  Lemma merge_layout_same A A' F1 B F2 B' X G :
    A = A' ++ F1 -> B = F2 ++ B' -> all_free F1 -> all_free F2 -> lenN X + 16 = slen F1 + G + slen F2 ->
    forall q i n, i <> 0 ->
      (In (q, i, n) (layout 24 (A' ++ (0, X) :: B')) <-> In (q, i, n) (layout 24 A ++ layout (24 + slen A + G) B)).
  Proof.
    intros -> -> HF1 HF2 HX q i n Hi.
    rewrite !layout_app. cbn [layout]. rewrite !in_app_iff. cbn [In]. rewrite ?in_app_iff, ?slen_app.
    assert (Z1 : forall P, ~ In (q, i, n) (layout P F1)).
    { intros P H. apply layout_In in H. destruct H as (v & H & _). apply HF1 in H. congruence. }
    assert (Z2 : forall P, ~ In (q, i, n) (layout P F2)).
    { intros P H. apply layout_In in H. destruct H as (v & H & _). apply HF2 in H. congruence. }
    replace (24 + slen A' + 16 + lenN X) with (24 + (slen A' + slen F1) + G + slen F2) by lia.
    split.
    - intros [H|[H|H]]; auto. injection H as _ <- _. congruence.
    - intros [[H|H]|[H|H]]; auto; [destruct (Z1 _ H)|destruct (Z2 _ H)].
  Qed.

  (* where the entries of the old layout are after a merge *)
  Lemma merge_layout_in A A' F1 B F2 B' X G q i n :
    A = A' ++ F1 -> B = F2 ++ B' -> lenN X + 16 = slen F1 + G + slen F2 ->
    In (q, i, n) (layout 24 A ++ layout (24 + slen A + G) B) ->
    In (q, i, n) (layout (24 + slen A') F1 ++ layout (24 + slen A + G) F2) \/ In (q, i, n) (layout 24 (A' ++ (0, X) :: B')).
  Proof.
    intros -> -> HX. rewrite !layout_app. cbn [layout]. rewrite !in_app_iff. cbn [In]. rewrite ?slen_app.
    replace (24 + slen A' + 16 + lenN X) with (24 + (slen A' + slen F1) + G + slen F2) by lia.
    intuition.
  Qed.

  (* free_a_region on a gap of at least 16 bytes: the gap and the free regions around it become one
     free region; nothing else changes (the live part of the table is not looked at); the taken free
     regions are not merged and stay where they are *)
  Lemma free_a_region_x s A g B X XF (Q : ST -> unit -> Prop) E :
    xgtiles s A g B X XF -> 16 <= lenN g -> ~ XF (24 + slen A) ->
    (forall s' A' F1 F2 B' Y,
        A = A' ++ F1 -> B = F2 ++ B' -> all_free F1 -> all_free F2 ->
        xtiles s' (A' ++ (0, Y) :: B') X XF ->
        (forall q n, XF q -> In (q, 0, n) (layout 24 A ++ layout (24 + slen A + lenN g) B) ->
                     In (q, 0, n) (layout 24 (A' ++ (0, Y) :: B'))) ->
        lenN (cur (sdata s')) = lenN (cur (sdata s)) ->
        tx s' = tx s -> dur (sdata s') = dur (sdata s) -> Q s' tt) ->
    wp (free_a_region cdata ops (24 + slen A) (lenN g - 16)) s Q E.
  Proof.
    intros (Hcur & Hlen & HL & HD & TR & [TW FW] & Hv) Hg HXP HQ0.
    (* what is to be shown of the state after the header of the merged region is written *)
    assert (HQ : forall s' A' F1 F2 B' Y,
        A = A' ++ F1 -> B = F2 ++ B' -> all_free F1 -> all_free F2 ->
        (forall q i n, In (q, i, n) (layout (24 + slen A') F1 ++ layout (24 + slen A + lenN g) F2) -> ~ XF q) ->
        cur (sdata s') = vrec ++ ser (A' ++ (0, Y) :: B') ->
        lenN Y + 16 = slen F1 + lenN g + slen F2 ->
        lenN (cur (sdata s')) = lenN (cur (sdata s)) ->
        fwf (rtab s') -> frelx (rtab s') (layout 24 (A' ++ (0, Y) :: B')) XF ->
        recs (rtab s') = recs (rtab s) ->
        tx s' = tx s -> dur (sdata s') = dur (sdata s) -> version s' = version s -> Q s' tt).
    { intros s' A' F1 F2 B' Y EA EB HF1 HF2 HNX Hcur' HX Hlen' FW' TR' HR Htx Hdur Hver.
      assert (HS := merge_layout_same A A' F1 B F2 B' Y (lenN g) EA EB HF1 HF2 HX).
      apply (HQ0 s' A' F1 F2 B' Y); auto.
      - split; [exact Hcur'|]. split; [congruence|]. split.
        { intros q i n Hi. rewrite HR, <- (HL q i n Hi), !(in_app_iff X), (HS q i n Hi). reflexivity. }
        split.
        { intros q i n Hin. destruct (HD _ _ _ Hin) as [Hi Hn]. split; [exact Hi|]. rewrite (HS q i n Hi). exact Hn. }
        split; [exact TR'|]. split; [split; [rewrite HR; exact TW|exact FW']|congruence].
      - intros q n Hq Hin.
        destruct (merge_layout_in A A' F1 B F2 B' Y (lenN g) q 0 n EA EB HX Hin) as [Hm|Hm]; [destruct (HNX _ _ _ Hm Hq)|exact Hm]. }
    clear HQ0.
    assert (HLEN : lenN (cur (sdata s)) = 24 + slen A + lenN g + slen B).
    { rewrite Hcur, !lenN_app, lenN_vrec. unfold slen. lia. }
    unfold free_a_region. apply wp_bind, wp_get_rtab.
    unfold mark_free_compact.
    replace (24 + slen A + 16 + (lenN g - 16)) with (24 + slen A + lenN g) by lia.
    destruct (merge_fwd (S (length (fps (rtab s)))) (rtab s) (24 + slen A + lenN g)) as [rs1 e] eqn:E1.
    assert (BA : forall q i n, In (q, i, n) (layout 24 A) -> q + 16 + n <= 24 + slen A + lenN g)
      by (intros q i n H; apply layout_range in H; lia).
    destruct (merge_fwd_spec _ _ _ _ _ _ _ _ FW BA TR E1)
      as (F2 & B' & -> & HF2 & He & TR1 & FW1 & HR1 & HNX2).
    destruct (merge_bwd (S (length (fps (rtab s)))) rs1 (24 + slen A)) as [rs2 p'] eqn:E2.
    assert (BB : forall q i n, In (q, i, n) (layout e B') -> 24 + slen A <= q)
      by (intros q i n H; apply layout_range in H; lia).
    destruct (merge_bwd_spec _ _ _ _ _ _ _ FW1 BB TR1 E2)
      as (A' & F1 & -> & HF1 & Hp' & TR2 & FW2 & HR2 & HX2 & HNX1).
    assert (HXp' : ~ XF p').
    { destruct HX2 as [EA|HX2]; [|assumption]. rewrite Hp', EA. assumption. }
    set (G := ser F1 ++ g ++ ser F2).
    assert (HG : lenN G = e - p').
    { unfold G. rewrite !lenN_app. rewrite slen_app in He. unfold slen in *. lia. }
    assert (HG16 : 16 <= lenN G) by (unfold G; rewrite !lenN_app; lia).
    set (size' := e - p' - 16).
    apply wp_bind, wp_put_rtab. unfold write_record. cbn [r_pos r_index r_size].
    assert (Hcur2 : cur (sdata s) = (vrec ++ ser A') ++ firstn 16 G ++ (skipn 16 G ++ ser B')).
    { rewrite Hcur, !ser_app. rewrite (app_assoc (firstn 16 G) (skipn 16 G) (ser B')), firstn_skipn.
      unfold G. rewrite <- !app_assoc. reflexivity. }
    assert (HF16 : length (firstn 16 G) = 16%nat) by (rewrite firstn_length; unfold lenN in HG16; lia).
    assert (HS : lenN (skipn 16 G) = size').
    { unfold lenN, size'. rewrite skipn_length. unfold lenN in HG. lia. }
    assert (HP16 : (N.to_nat p' + 16 <= length (cur (sdata s)))%nat).
    { rewrite Hcur2, !app_length, HF16. change (length vrec) with 24%nat. rewrite Hp'. unfold slen, lenN. lia. }
    apply wp_dwrite.
    { cbn [sdata set_rtab]. rewrite HLEN, slen_app. lia. }
    intros _. apply (HQ _ A' F1 F2 B' (skipn 16 G)); try reflexivity; try assumption.
    - intros q i n H. apply in_app_or in H. destruct H as [H|H]; [eapply HNX1|eapply HNX2]; eassumption.
    - st. rewrite Hcur2.
      rewrite bs_write_mid.
      + rewrite ser_app. cbn [ser]. unfold enc. cbn [fst snd]. rewrite HS, <- !app_assoc. reflexivity.
      + rewrite app_length. change (length vrec) with 24%nat. rewrite Hp'. unfold slen, lenN. lia.
      + rewrite app_length, !le64_length, HF16. reflexivity.
    - rewrite HS. unfold size'. rewrite slen_app in He. unfold G in HG. rewrite !lenN_app in HG. unfold slen in *. lia.
    - st. unfold lenN. rewrite bs_write_length, app_length, !le64_length. lia.
    - st. apply fwf_mark_free; [exact FW2|].
      destruct (m_get (fps rs2) p') as [n0|] eqn:En; [|reflexivity]. exfalso.
      apply (proj1 TR2 _ _ HXp') in En. apply in_app_or in En. destruct En as [H|H]; apply layout_range in H; lia.
    - st. rewrite layout_app. cbn [layout].
      rewrite HS, <- Hp'. replace (p' + 16 + size') with e by (unfold size'; lia).
      destruct TR2 as [TRf TRx]. split.
      + intros q n HXq. rewrite fps_mark_free.
        destruct (N.eqb_spec p' q) as [<-|Hq].
        * rewrite !in_app_iff. cbn [In]. split.
          -- intros [H|[H|H]].
             ++ apply layout_range in H. lia.
             ++ injection H as H. subst n. reflexivity.
             ++ apply layout_range in H. lia.
          -- intros [= <-]. right; left; reflexivity.
        * rewrite <- (TRf q n HXq), !in_app_iff. cbn [In].
          split; [|tauto]. intros [H|[H|H]]; auto. injection H as H _. congruence.
      + intros q HXq. rewrite fps_mark_free. destruct (N.eqb_spec p' q) as [<-|]; [contradiction|auto].
    - cbn [rtab set_cur set_data set_rtab recs mark_free]. rewrite HR2, HR1. reflexivity.
  Qed.

  Lemma tiles_xt s rg : tiles s rg <-> xtiles s rg [] (fun _ => False).
  Proof.
    unfold xtiles. rewrite xrel_exact. split; [apply tiles_elim|].
    intros (H1 & H2 & H3 & H4 & H5). apply tiles_intro; assumption.
  Qed.

  (* the usual case: nothing else is under way *)
  Lemma free_a_region_spec s A g B (Q : ST -> unit -> Prop) E :
    gtiles s A g B -> 16 <= lenN g ->
    (forall s' A' F1 F2 B' X,
        A = A' ++ F1 -> B = F2 ++ B' -> all_free F1 -> all_free F2 ->
        tiles s' (A' ++ (0, X) :: B') ->
        lenN (cur (sdata s')) = lenN (cur (sdata s)) ->
        tx s' = tx s -> dur (sdata s') = dur (sdata s) -> Q s' tt) ->
    wp (free_a_region cdata ops (24 + slen A) (lenN g - 16)) s Q E.
  Proof.
    intros GT Hg HQ. apply (free_a_region_x s A g B [] (fun _ => False)); [apply gtiles_xg; exact GT|exact Hg|tauto|].
    intros s' A' F1 F2 B' Y EA EB HF1 HF2 X1 _ Hlen' Htx Hdur. apply (HQ s' A' F1 F2 B' Y); auto. apply tiles_xt; exact X1.
  Qed.

  (* a region (j, w) is written at the start of the gap and entered into the table
     (new: old = None; moved here from a place it has given up: old = Some _) *)
  Lemma xg_place s s' A g B j old w m rs' :
    xgtiles s A g B (ents j old) (fun _ => False) -> j <> 0 -> live_at (recs (rtab s)) j = old ->
    (forall k, live_at (recs rs') k = if k =? j then Some (24 + slen A, m) else live_at (recs (rtab s)) k) ->
    twf (recs rs') -> fps rs' = fps (rtab s) -> fsp rs' = fsp (rtab s) ->
    lenN w = m -> 16 + m <= lenN g ->
    cur (sdata s') = bs_write (bs_write (cur (sdata s)) (N.to_nat (24 + slen A)) (le64 j ++ le64 m))
                              (N.to_nat (24 + slen A + 16)) w ->
    rtab s' = rs' -> version s' = version s ->
    gtiles s' (A ++ [(j, w)]) (skipn (16 + length w) g) B.
  Proof.
    intros (Hcur & Hlen & HL & HD & [HF _] & RW & Hv) Hj Hold Hupd TW' Hfp Hfs <- Hfit Hc' Hr' Hv'.
    set (g' := skipn (16 + length w) g).
    assert (Hg' : lenN g = 16 + lenN w + lenN g') by (unfold g', lenN in *; rewrite skipn_length; lia).
    assert (Ec : cur (sdata s') = vrec ++ ser (A ++ [(j, w)]) ++ g' ++ ser B).
    { rewrite Hc', Hcur, (app_assoc vrec), (place_in (vrec ++ ser A) g (ser B) (le64 j ++ le64 (lenN w)) w);
        [|symmetry; apply length_vrec_ser|rewrite app_length, !le64_length; reflexivity|unfold lenN in *; lia|lia].
      rewrite ser_app. cbn [ser]. rewrite app_nil_r. unfold enc. cbn [fst snd]. rewrite <- !app_assoc. reflexivity. }
    split; [exact Ec|]. split.
    { rewrite Hcur, !lenN_app, lenN_vrec in Hlen. rewrite Ec, !lenN_app, lenN_vrec. fold (slen (A ++ [(j, w)])).
      rewrite slen_snoc. unfold slen in *. lia. }
    rewrite Hr'. split; [|split; [apply (rwf_table (rtab s)); assumption|congruence]]. split.
    - apply (lrel_live (recs (rtab s)) _ j old _ (layout 24 A ++ layout (24 + slen A + lenN g) B) _ _ HL Hold Hupd).
      + intros q i n _. rewrite in_app_iff, In_ents. reflexivity.
      + intros [[q i] n] Hx. apply In_ents, HD in Hx. exact (proj2 Hx).
      + intros q i n _. apply layout_snoc_hole. exact Hg'.
    - intros q n. rewrite Hfp, (layout_snoc_hole A j w (lenN g') B (lenN g) (q, 0, n) Hg'), <- (HF q n (fun f => f)).
      split; [intros [E|Hin]; [congruence|exact Hin]|auto].
  Qed.

  (* ... or appended at the end of the file *)
  Lemma xt_place_end s s' rg j old w m rs' :
    xtiles s rg (ents j old) (fun _ => False) -> j <> 0 -> live_at (recs (rtab s)) j = old ->
    (forall k, live_at (recs rs') k = if k =? j then Some (lenN (cur (sdata s)), m) else live_at (recs (rtab s)) k) ->
    twf (recs rs') -> fps rs' = fps (rtab s) -> fsp rs' = fsp (rtab s) ->
    lenN w = m -> lenN (cur (sdata s)) + 16 + m < two64 ->
    cur (sdata s') = cur (sdata s) ++ (le64 j ++ le64 m) ++ w -> rtab s' = rs' -> version s' = version s ->
    tiles s' (rg ++ [(j, w)]).
  Proof.
    intros (Hcur & Hlen & HL & HD & [HF _] & RW & Hv) Hj Hold Hupd TW' Hfp Hfs <- Hov Hc' Hr' Hv'.
    assert (EL : lenN (cur (sdata s)) = 24 + slen rg) by (rewrite Hcur, lenN_app, lenN_vrec; reflexivity).
    rewrite EL in Hupd. apply tiles_intro.
    - rewrite Hc', Hcur, ser_app. cbn [ser]. rewrite app_nil_r. unfold enc. cbn [fst snd]. rewrite <- !app_assoc. reflexivity.
    - rewrite Hc', !lenN_app, !lenN_le64. lia.
    - rewrite Hr'. split.
      + apply (lrel_live (recs (rtab s)) _ j old _ (layout 24 rg) _ _ HL Hold Hupd).
        * intros q i n _. rewrite in_app_iff, In_ents. reflexivity.
        * intros [[q i] n] Hx. apply In_ents, HD in Hx. exact (proj2 Hx).
        * intros q i n _. apply layout_snoc.
      + intros q n. rewrite Hfp, layout_snoc, <- (HF q n (fun f => f)).
        split; [intros [E|Hin]; [congruence|exact Hin]|auto].
    - rewrite Hr'. apply (rwf_table (rtab s)); assumption.
    - congruence.
  Qed.
End Canon.
