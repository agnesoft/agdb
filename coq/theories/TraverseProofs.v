(* TraverseProofs.v — C14: the lazy work list of SearchImpl (Search.v search_loop / expand)
   against the eager textbook specification (TraverseSpec.v), and the properties of the
   specification: origin first, no duplicates, exactly the reachable elements, BFS
   distances, DFS pre-order, fuel. *)
From Agdb Require Import Bytes Graph DbModel Search Queries Revisions AdjOk TraverseSpec.
From Coq Require Import ZifyBool ZifyNat ZifyN Sorting.Sorted.
Ltac Zify.zify_post_hook ::= Z.div_mod_to_equations.
Open Scope Z_scope.

Lemma eval_conditions_nil : forall r d i k, eval_conditions r d i k [] = Continue true.
Proof. reflexivity. Qed.

Lemma search_loop_nil_O : forall r d a rv o W V c acc,
  search_loop r d a rv o [] HDefault O W V c acc = None.
Proof. reflexivity. Qed.

Lemma search_loop_nil_empty : forall r d a rv o f V c acc,
  search_loop r d a rv o [] HDefault (S f) [] V c acc = Some (rev acc).
Proof. reflexivity. Qed.

Lemma search_loop_nil_cons : forall r d a rv o f x k rest V c acc,
  search_loop r d a rv o [] HDefault (S f) ((x, k) :: rest) V c acc =
  if visited V x then
    search_loop r d a rv o [] HDefault f
      (if fix_visited_chain r && (x <? 0) then expand r (gr d) a rv o rest (x, k) false else rest) V c acc
  else
    search_loop r d a rv o [] HDefault f (expand r (gr d) a rv o rest (x, k) true) (Z.abs x :: V) c (x :: acc).
Proof. reflexivity. Qed.

(* The lazy work list is the eager work list with the sibling chains collapsed. *)

Section Lockstep.
  Variable d : db.
  Local Notation g := (gr d) (only parsing).
  Hypothesis Hok : adj_ok g.
  Variable a : algo.
  Variable rv : bool.
  Variable origin : Z.

  Definition first_of (x : Z) := if rv then first_edge_to g x else first_edge_from g x.
  Definition sibling_of (x : Z) := if rv then next_edge_to g x else next_edge_from g x.
  Definition target_of (x : Z) := if rv then edge_from g x else edge_to g x.
  Definition sibs (e : Z) : list Z := if rv then sibs_to g e else sibs_from g e.

  (* a pending edge item stands for the remaining sibling chain starting at it; the origin
     edge (distance 0) stands for itself only *)
  Definition abs_item (it : Z * Z) : list (Z * Z) :=
    let '(x, k) := it in
    if (0 <? x) || (k =? 0) then [(x, k)] else map (fun e => (e, k)) (sibs x).
  Definition abs_work (W : list (Z * Z)) : list (Z * Z) := flat_map abs_item W.

  Lemma abs_work_cons : forall it W, abs_work (it :: W) = abs_item it ++ abs_work W.
  Proof. reflexivity. Qed.

  Lemma abs_work_app : forall W1 W2, abs_work (W1 ++ W2) = abs_work W1 ++ abs_work W2.
  Proof. intros. apply flat_map_app. Qed.

  Lemma sibs_zero : sibs 0 = [].
  Proof. unfold sibs. destruct rv; [apply sibs_to_zero | apply sibs_from_zero]. Qed.

  Lemma sibs_edge : forall e, edge_id g e = true -> sibs e = e :: sibs (sibling_of e).
  Proof.
    intros e He. unfold sibs, sibling_of. destruct rv.
    - destruct (sibs_to_edge g Hok e He) as (l1 & _ & H). exact H.
    - destruct (sibs_from_edge g Hok e He) as (l1 & _ & H). exact H.
  Qed.

  Lemma succs_node : forall n, 0 < n -> succs g rv n = sibs (first_of n).
  Proof. intros n Hn. unfold succs, sibs, first_of. replace (0 <? n) with true by lia. destruct rv; reflexivity. Qed.

  Lemma succs_edge : forall e, e < 0 -> succs g rv e = [target_of e].
  Proof. intros e He. unfold succs. replace (0 <? e) with false by lia. reflexivity. Qed.

  Lemma first_of_elem : forall n, node_id g n = true -> first_of n <> 0 -> edge_id g (first_of n) = true.
  Proof.
    intros n Hn Hnz. unfold first_of in *. destruct rv.
    - apply (first_to_edge g Hok n Hn Hnz).
    - apply (first_from_edge g Hok n Hn Hnz).
  Qed.

  Lemma sibling_of_elem : forall e, edge_id g e = true -> sibling_of e <> 0 -> edge_id g (sibling_of e) = true.
  Proof.
    intros e He Hnz. unfold sibling_of in *. destruct rv.
    - apply (next_to_edge g Hok e He Hnz).
    - apply (next_from_edge g Hok e He Hnz).
  Qed.

  Lemma target_of_elem : forall e, edge_id g e = true -> node_id g (target_of e) = true.
  Proof.
    intros e He. unfold target_of. destruct rv.
    - apply (ao_from_node g Hok e He).
    - apply (ao_to_node g Hok e He).
  Qed.

  Lemma elem_cases : forall x, elem_id g x = true ->
    (node_id g x = true /\ 0 < x) \/ (edge_id g x = true /\ x < 0).
  Proof.
    intros x H. unfold elem_id in H. apply orb_prop in H. destruct H as [H|H].
    - left. split; [exact H | apply node_id_bounds in H; lia].
    - right. split; [exact H | apply edge_id_bounds in H; lia].
  Qed.

  (* the items of the lazy work list: existing elements at non-negative distances *)
  Definition item_ok (it : Z * Z) : Prop := elem_id g (fst it) = true /\ 0 <= snd it.

  (* the lazy visited set (slot numbers) and the eager one (ids) agree on existing elements *)
  Definition vis_rel (V : list Z) (acc : list (Z * Z)) : Prop :=
    forall y, elem_id g y = true -> visited V y = inb y (map fst acc).

  Lemma vis_rel_cons : forall V acc x k, elem_id g x = true -> vis_rel V acc ->
    vis_rel (Z.abs x :: V) ((x, k) :: acc).
  Proof.
    intros V acc x k Hx Hrel y Hy. specialize (Hrel y Hy). unfold visited, inb in *. cbn [existsb map fst].
    rewrite <- Hrel. f_equal.
    destruct (Z.abs y =? Z.abs x) eqn:E1; destruct (y =? x) eqn:E2; try reflexivity.
    - assert (y = x) by (apply (elem_id_abs_inj g); [assumption|assumption|lia]). lia.
    - assert (y = x) by lia. subst. lia.
  Qed.

  (* what an item stands for beside itself: the later siblings of an edge that is not the origin *)
  Definition pending (x k : Z) : list (Z * Z) :=
    if (0 <? x) || (k =? 0) then [] else map (fun e => (e, k)) (sibs (sibling_of x)).

  Lemma abs_item_elem : forall x k, elem_id g x = true -> abs_item (x, k) = (x, k) :: pending x k.
  Proof.
    intros x k Hx. unfold abs_item, pending. destruct ((0 <? x) || (k =? 0)) eqn:E; [reflexivity|].
    rewrite sibs_edge; [reflexivity|]. destruct (elem_cases x Hx) as [[_ H]|[H _]]; [lia | exact H].
  Qed.

  (* the head of a chain (the first edge of a node, the next sibling of an edge) is pushed unless
     it is 0, and stands for the whole chain either way *)
  Lemma abs_chain : forall e k, (e <> 0 -> edge_id g e = true) -> 0 < k ->
    abs_work (if negb (e =? 0) then [(e, k)] else []) = map (fun y => (y, k)) (sibs e) /\
    Forall item_ok (if negb (e =? 0) then [(e, k)] else []).
  Proof.
    intros e k He Hk. destruct (e =? 0) eqn:E; cbn [negb].
    - replace e with 0 by lia. rewrite sibs_zero. split; [reflexivity | constructor].
    - specialize (He ltac:(lia)). pose proof (edge_id_bounds g e He). split.
      + cbn [abs_work flat_map abs_item]. replace (0 <? e) with false by lia. replace (k =? 0) with false by lia.
        apply app_nil_r.
      + repeat constructor; cbn [fst snd]; [|lia]. unfold elem_id. rewrite He. apply orb_true_r.
  Qed.

  (* what expand pushes: the next sibling in front, the successors at the end the algorithm works from *)
  Lemma expand_shape : forall x k rest follow, elem_id g x = true -> 0 <= k ->
    exists sib new,
      expand rv_fixed g a rv origin rest (x, k) follow =
        match a with BFS => (sib ++ rest) ++ new | DFS => new ++ (sib ++ rest) end /\
      abs_work sib = pending x k /\
      abs_work new = (if follow then map (fun y => (y, k + 1)) (succs g rv x) else []) /\
      Forall item_ok sib /\ Forall item_ok new.
  Proof.
    intros x k rest follow Hx Hk. unfold expand, pending. fold (first_of x) (sibling_of x) (target_of x).
    destruct (elem_cases x Hx) as [[Hn Hpos]|[He Hneg]].
    - replace (0 <? x) with true by lia.
      exists [], (if follow && negb (first_of x =? 0) then [(first_of x, k + 1)] else []).
      split; [destruct a, (follow && negb (first_of x =? 0)); cbn [app]; rewrite ?app_nil_r; reflexivity|].
      split; [reflexivity|]. destruct follow; cbn [andb]; [|repeat split; constructor].
      rewrite (succs_node x Hpos).
      destruct (abs_chain (first_of x) (k + 1) (first_of_elem x Hn) ltac:(lia)) as [H1 H2].
      repeat split; [exact H1 | constructor | exact H2].
    - replace (0 <? x) with false by lia. cbn [fix_edge_origin rv_fixed andb orb].
      pose proof (target_of_elem x He) as Ht. pose proof (node_id_bounds g _ Ht) as Htp.
      exists (if negb (sibling_of x =? 0) && negb (k =? 0) then [(sibling_of x, k)] else []),
             (if follow then [(target_of x, k + 1)] else []).
      split; [destruct a, (negb (sibling_of x =? 0) && negb (k =? 0)), follow; cbn [app]; rewrite ?app_nil_r; reflexivity|].
      assert (Hnew : abs_work (if follow then [(target_of x, k + 1)] else []) =
                     (if follow then map (fun y => (y, k + 1)) (succs g rv x) else []) /\
                     Forall item_ok (if follow then [(target_of x, k + 1)] else [])).
      { destruct follow; [|split; [reflexivity | constructor]]. rewrite (succs_edge x Hneg). split.
        - cbn [abs_work flat_map abs_item map]. replace (0 <? target_of x) with true by lia. reflexivity.
        - repeat constructor; cbn [fst snd]; [|lia]. unfold elem_id. rewrite Ht. reflexivity. }
      destruct (k =? 0) eqn:Ek; cbn [negb].
      + rewrite andb_false_r. repeat split; try constructor; apply Hnew.
      + rewrite andb_true_r.
        destruct (abs_chain (sibling_of x) k (sibling_of_elem x He) ltac:(lia)) as [H1 H2].
        repeat split; [exact H1 | apply Hnew | exact H2 | apply Hnew].
  Qed.

  Lemma abs_expand : forall x k rest follow, elem_id g x = true -> 0 <= k ->
    abs_work (expand rv_fixed g a rv origin rest (x, k) follow) =
    match a with
    | BFS => (pending x k ++ abs_work rest) ++ (if follow then map (fun y => (y, k + 1)) (succs g rv x) else [])
    | DFS => (if follow then map (fun y => (y, k + 1)) (succs g rv x) else []) ++ (pending x k ++ abs_work rest)
    end.
  Proof.
    intros x k rest follow Hx Hk.
    destruct (expand_shape x k rest follow Hx Hk) as (sib & new & -> & <- & <- & _).
    destruct a; rewrite !abs_work_app; reflexivity.
  Qed.

  Lemma expand_ok : forall x k rest follow, Forall item_ok ((x, k) :: rest) ->
    Forall item_ok (expand rv_fixed g a rv origin rest (x, k) follow).
  Proof.
    intros x k rest follow H. apply Forall_cons_iff in H. destruct H as [[Hx Hk] Hr].
    destruct (expand_shape x k rest follow Hx Hk) as (sib & new & -> & _ & _ & Hs & Hn).
    destruct a; repeat (apply Forall_app; split); assumption.
  Qed.

  (* a visited item: nothing new, the chain goes on (for a node the loop keeps `rest`, which is
     what expand returns) *)
  Lemma expand_visited : forall x k rest, elem_id g x = true ->
    (if x <? 0 then expand rv_fixed g a rv origin rest (x, k) false else rest) =
    expand rv_fixed g a rv origin rest (x, k) false.
  Proof.
    intros x k rest Hx. destruct (elem_cases x Hx) as [[_ H]|[_ H]].
    - replace (x <? 0) with false by lia. unfold expand. replace (0 <? x) with true by lia. reflexivity.
    - replace (x <? 0) with true by lia. reflexivity.
  Qed.

  Lemma abs_expand_visited : forall x k rest, elem_id g x = true -> 0 <= k ->
    abs_work (expand rv_fixed g a rv origin rest (x, k) false) = pending x k ++ abs_work rest.
  Proof. intros x k rest Hx Hk. rewrite (abs_expand x k rest false Hx Hk). destruct a; [apply app_nil_r | reflexivity]. Qed.

  Lemma lockstep : forall f W V acc,
    Forall item_ok W -> vis_rel V acc ->
    search_loop rv_fixed d a rv origin [] HDefault f W V 0 (map fst acc) =
    option_map (map fst) (spec_run g a rv f (abs_work W) acc).
  Proof.
    induction f as [|f IH]; intros W V acc HW Hrel; [reflexivity|].
    destruct W as [|[x k] rest].
    { rewrite search_loop_nil_empty. cbn. rewrite map_rev. reflexivity. }
    destruct (Forall_inv HW) as [Hx Hk]. cbn [fst snd] in Hx, Hk.
    rewrite search_loop_nil_cons, (Hrel x Hx). cbn [fix_visited_chain rv_fixed andb].
    rewrite (expand_visited x k rest Hx), abs_work_cons, (abs_item_elem x k Hx).
    cbn [app spec_run spec_step]. destruct (inb x (map fst acc)).
    - rewrite <- (abs_expand_visited x k rest Hx Hk). apply IH; [apply expand_ok, HW | exact Hrel].
    - change (x :: map fst acc) with (map fst ((x, k) :: acc)).
      rewrite <- (abs_expand x k rest true Hx Hk). apply IH; [apply expand_ok, HW | apply vis_rel_cons; assumption].
  Qed.
End Lockstep.

Lemma inb_In : forall x l, inb x l = true <-> In x l.
Proof. intros. unfold inb. apply existsb_eqb_In. Qed.

Lemma inb_false : forall x l, inb x l = false <-> ~ In x l.
Proof.
  intros x l. split.
  - intros H Hin. apply inb_In in Hin. rewrite Hin in H. discriminate.
  - intros H. destruct (inb x l) eqn:E; [|reflexivity]. apply inb_In in E. contradiction.
Qed.

Lemma NoDup_app_intro : forall (A : Type) (l1 l2 : list A),
  NoDup l1 -> NoDup l2 -> (forall x, In x l1 -> ~ In x l2) -> NoDup (l1 ++ l2).
Proof.
  induction l1 as [|x l1 IH]; intros l2 H1 H2 Hd; cbn [app]; [exact H2|].
  inversion H1 as [|? ? Hx H1']; subst. constructor.
  - intros Hin. apply in_app_or in Hin. destruct Hin as [Hin|Hin]; [contradiction|].
    apply (Hd x); [left; reflexivity | exact Hin].
  - apply IH; [exact H1' | exact H2 |]. intros y Hy. apply Hd. right. exact Hy.
Qed.

Lemma NoDup_flat_map : forall (A B : Type) (f : A -> list B) (l : list A),
  NoDup l -> (forall x, In x l -> NoDup (f x)) ->
  (forall x y e, In x l -> In y l -> x <> y -> In e (f x) -> In e (f y) -> False) ->
  NoDup (flat_map f l).
Proof.
  induction l as [|x l IH]; intros Hl Hf Hd; cbn [flat_map]; [constructor|].
  inversion Hl as [|? ? Hx Hl']; subst. apply NoDup_app_intro.
  - apply Hf. left. reflexivity.
  - apply IH; [exact Hl' | |].
    + intros y Hy. apply Hf. right. exact Hy.
    + intros y z e Hy Hz. apply Hd; right; assumption.
  - intros e He Hin. apply in_flat_map in Hin. destruct Hin as (y & Hy & Hey).
    apply (Hd x y e); [left; reflexivity | right; exact Hy | | exact He | exact Hey].
    intros E. subst. contradiction.
Qed.

Lemma NoDup_map_inj_on : forall (A B : Type) (f : A -> B) (l : list A),
  NoDup l -> (forall x y, In x l -> In y l -> f x = f y -> x = y) -> NoDup (map f l).
Proof.
  induction l as [|x l IH]; intros Hl Hinj; cbn [map]; [constructor|].
  inversion Hl as [|? ? Hx Hl']; subst. constructor.
  - intros Hin. apply in_map_iff in Hin. destruct Hin as (y & Hfy & Hy).
    assert (y = x) by (apply Hinj; [right; exact Hy | left; reflexivity | exact Hfy]).
    subst. contradiction.
  - apply IH; [exact Hl'|]. intros y z Hy Hz. apply Hinj; right; assumption.
Qed.

Lemma elements_elem : forall g x, In x (elements g) -> elem_id g x = true.
Proof.
  intros g x H. unfold elements in H. apply in_flat_map in H. destruct H as (s & Hs & Hx).
  apply in_seq in Hs. unfold element_at in Hx.
  destruct (fmeta g (Z.of_nat s) <? 0) eqn:E1; [contradiction|].
  destruct (from g (Z.of_nat s) <? 0) eqn:E2; destruct Hx as [Hx|[]]; subst x.
  - unfold elem_id, edge_id, is_edge, valid_index, capacity. unfold fmeta, from in *. rewrite !get_opp.
    assert (H1 : (- Z.of_nat s <? 0) = true) by lia. rewrite H1.
    assert (H2 : (- Z.of_nat s =? 0) = false) by lia. rewrite H2.
    assert (H3 : (Z.abs (- Z.of_nat s) <? Z.of_nat (length (g_from g))) = true) by lia. rewrite H3.
    rewrite E1, E2. cbn. apply orb_true_r.
  - unfold elem_id, node_id, is_node, valid_index, capacity.
    assert (H1 : (0 <? Z.of_nat s) = true) by lia. rewrite H1.
    assert (H2 : (Z.of_nat s =? 0) = false) by lia. rewrite H2.
    assert (H3 : (Z.abs (Z.of_nat s) <? Z.of_nat (length (g_from g))) = true) by lia. rewrite H3.
    rewrite E1. assert (H4 : (0 <=? from g (Z.of_nat s)) = true) by lia. rewrite H4. reflexivity.
Qed.

Lemma elem_in_elements : forall g x, elem_id g x = true -> In x (elements g).
Proof.
  intros g x H. unfold elem_id in H. apply orb_prop in H. destruct H as [H|H].
  - apply node_id_in_elements. exact H.
  - apply edge_id_in_elements. exact H.
Qed.

Lemma elements_NoDup : forall g, NoDup (elements g).
Proof.
  intros g. unfold elements. apply NoDup_flat_map.
  - apply seq_NoDup.
  - intros s _. destruct (element_at g s); [|constructor]. constructor; [intros []|constructor].
  - intros s t e _ _ Hst Hs Ht. unfold element_at in *.
    destruct (fmeta g (Z.of_nat s) <? 0); [contradiction|].
    destruct (fmeta g (Z.of_nat t) <? 0); [contradiction|].
    destruct (from g (Z.of_nat s) <? 0); destruct (from g (Z.of_nat t) <? 0);
      destruct Hs as [Hs|[]]; destruct Ht as [Ht|[]]; lia.
Qed.

(* a duplicate-free list of existing elements is no longer than the number of slots *)
Lemma elems_length_bound : forall g l, NoDup l -> (forall x, In x l -> elem_id g x = true) ->
  (length l <= length (g_from g) - 1)%nat.
Proof.
  intros g l Hnd Hel.
  assert (H : NoDup (map (fun x => Z.to_nat (Z.abs x)) l)).
  { apply NoDup_map_inj_on; [exact Hnd|]. intros x y Hx Hy E.
    apply (elem_id_abs_inj g); [apply Hel; exact Hx | apply Hel; exact Hy | lia]. }
  assert (Hi : incl (map (fun x => Z.to_nat (Z.abs x)) l) (seq 1 (length (g_from g) - 1))).
  { intros s Hs. apply in_map_iff in Hs. destruct Hs as (x & <- & Hx).
    pose proof (elem_id_slot g x (Hel x Hx)). apply in_seq. lia. }
  pose proof (NoDup_incl_length H Hi) as Hlen. rewrite map_length, seq_length in Hlen. exact Hlen.
Qed.


Section SpecFacts.
  Variable g : graph.
  Hypothesis Hok : adj_ok g.
  Variable a : algo.
  Variable rv : bool.

  Lemma pos_elem_node : forall x, elem_id g x = true -> 0 < x -> node_id g x = true.
  Proof.
    intros x H Hx. unfold elem_id in H. apply orb_prop in H.
    destruct H as [H|H]; [exact H|]. apply edge_id_bounds in H. lia.
  Qed.

  Lemma succs_elem : forall x y, elem_id g x = true -> In y (succs g rv x) -> elem_id g y = true.
  Proof.
    intros x y Hx Hy. unfold succs in Hy. unfold elem_id in *. apply orb_prop in Hx.
    destruct Hx as [Hx|Hx].
    - pose proof (node_id_bounds g x Hx). replace (0 <? x) with true in Hy by lia.
      destruct rv; [rewrite (in_edge_edge g Hok x y Hx Hy) | rewrite (out_edge_edge g Hok x y Hx Hy)];
        apply orb_true_r.
    - pose proof (edge_id_bounds g x Hx). replace (0 <? x) with false in Hy by lia.
      destruct Hy as [<-|[]].
      destruct rv; [rewrite (ao_from_node g Hok x Hx) | rewrite (ao_to_node g Hok x Hx)]; reflexivity.
  Qed.

  Lemma spec_run_inv : forall (P : list (Z * Z) -> list (Z * Z) -> Prop),
    (forall E acc E' acc', P E acc -> spec_step g a rv E acc = Some (E', acc') -> P E' acc') ->
    forall f E acc r, P E acc -> spec_run g a rv f E acc = Some r -> P [] (rev r).
  Proof.
    intros P Hstep. induction f as [|f IH]; intros E acc r HP Hrun; cbn [spec_run] in Hrun; [discriminate|].
    destruct (spec_step g a rv E acc) as [[E' acc']|] eqn:Es.
    - apply (IH E' acc' r); [|exact Hrun]. apply (Hstep E acc); assumption.
    - injection Hrun as <-. rewrite rev_involutive. destruct E as [|[x k] rest]; [exact HP|].
      cbn [spec_step] in Es. destruct (inb x (map fst acc)); discriminate.
  Qed.

  Definition elems_ok (E : list (Z * Z)) : Prop := Forall (fun it => elem_id g (fst it) = true) E.

  Lemma elems_ok_step : forall E acc E' acc', elems_ok E -> spec_step g a rv E acc = Some (E', acc') -> elems_ok E'.
  Proof.
    intros E acc E' acc' HE Hs. destruct E as [|[x k] rest]; cbn [spec_step] in Hs; [discriminate|].
    apply Forall_cons_iff in HE. destruct HE as [Hx Hr]. cbn [fst] in Hx.
    destruct (inb x (map fst acc)); injection Hs as <- <-; [exact Hr|].
    assert (Hn : elems_ok (map (fun y => (y, k + 1)) (succs g rv x))).
    { apply Forall_map, Forall_forall. intros y Hy. exact (succs_elem x y Hx Hy). }
    destruct a; apply Forall_app; split; assumption.
  Qed.

  (* termination measure: the pending items, and for every element not yet seen itself and
     its successors (the items its visit will push) *)
  Definition weight (x : Z) : nat := S (length (succs g rv x)).
  Fixpoint unseen_weight (seen : Z -> bool) (U : list Z) : nat :=
    match U with
    | [] => 0
    | x :: r => (if seen x then 0 else weight x) + unseen_weight seen r
    end%nat.

  Lemma unseen_weight_mark : forall (seen seen' : Z -> bool) U x,
    (forall y, seen y = true -> seen' y = true) -> In x U -> seen x = false -> seen' x = true ->
    (unseen_weight seen' U + weight x <= unseen_weight seen U)%nat.
  Proof.
    intros seen seen' U x Hsub Hin Hx Hx'.
    assert (Hmono : forall U', (unseen_weight seen' U' <= unseen_weight seen U')%nat).
    { induction U' as [|y U' IH]; cbn [unseen_weight]; [lia|]. specialize (Hsub y).
      destruct (seen y); [rewrite Hsub by reflexivity; lia | destruct (seen' y); lia]. }
    induction U as [|y U IH]; [contradiction|]. cbn [unseen_weight]. destruct Hin as [->|Hin].
    - rewrite Hx, Hx'. specialize (Hmono U). lia.
    - specialize (IH Hin). specialize (Hsub y).
      destruct (seen y); [rewrite Hsub by reflexivity; lia | destruct (seen' y); lia].
  Qed.

  Definition todo (A : list Z) : nat := unseen_weight (fun y => inb y A) (elements g).
  Definition mu (E acc : list (Z * Z)) : nat := (length E + todo (map fst acc))%nat.

  Lemma todo_mark : forall A x, elem_id g x = true -> inb x A = false -> (todo (x :: A) + weight x <= todo A)%nat.
  Proof.
    intros A x Hx Hv. apply unseen_weight_mark; [|apply elem_in_elements, Hx | exact Hv|]; unfold inb; cbn [existsb].
    - intros y ->. apply orb_true_r.
    - rewrite Z.eqb_refl. reflexivity.
  Qed.

  Lemma mu_step : forall E acc E' acc', elems_ok E -> spec_step g a rv E acc = Some (E', acc') ->
    (mu E' acc' < mu E acc)%nat.
  Proof.
    intros E acc E' acc' HE Hs. destruct E as [|[x k] rest]; cbn [spec_step] in Hs; [discriminate|].
    pose proof (Forall_inv HE) as Hx. cbn [fst] in Hx.
    unfold mu. destruct (inb x (map fst acc)) eqn:Ev; injection Hs as <- <-; cbn [length map fst]; [lia|].
    pose proof (todo_mark (map fst acc) x Hx Ev) as Hm. unfold weight in Hm.
    destruct a; rewrite app_length, map_length; lia.
  Qed.

  Lemma spec_run_terminates : forall f E acc, elems_ok E -> (mu E acc < f)%nat ->
    exists r, spec_run g a rv f E acc = Some r.
  Proof.
    induction f as [|f IH]; intros E acc Hinv Hmu; [lia|]. cbn [spec_run].
    destruct (spec_step g a rv E acc) as [[E' acc']|] eqn:Es; [|eexists; reflexivity].
    apply IH.
    - apply (elems_ok_step E acc E' acc'); assumption.
    - pose proof (mu_step E acc E' acc' Hinv Es). lia.
  Qed.

  (* the initial measure fits the fuel: every slot holds at most one element, and every
     edge is a successor of one node only *)
  Definition adj_of (x : Z) : list Z := if 0 <? x then succs g rv x else [].

  Lemma adj_all_NoDup : NoDup (flat_map adj_of (elements g)).
  Proof.
    apply NoDup_flat_map.
    - apply elements_NoDup.
    - intros x Hx. unfold adj_of, succs. destruct (0 <? x) eqn:E; [|constructor].
      pose proof (pos_elem_node x (elements_elem g x Hx) ltac:(lia)) as Hn.
      destruct rv; [apply (ao_in_nodup g Hok x Hn) | apply (ao_out_nodup g Hok x Hn)].
    - intros x y e Hx Hy Hne He1 He2. unfold adj_of, succs in *.
      destruct (0 <? x) eqn:Ex; [|contradiction]. destruct (0 <? y) eqn:Ey; [|contradiction].
      pose proof (pos_elem_node x (elements_elem g x Hx) ltac:(lia)) as Hnx.
      pose proof (pos_elem_node y (elements_elem g y Hy) ltac:(lia)) as Hny.
      destruct rv.
      + apply (ao_in_spec g Hok x e Hnx) in He1. apply (ao_in_spec g Hok y e Hny) in He2. lia.
      + apply (ao_out_spec g Hok x e Hnx) in He1. apply (ao_out_spec g Hok y e Hny) in He2. lia.
  Qed.

  Lemma unseen_weight_fuel : forall seen, (S (unseen_weight seen (elements g)) < search_fuel g)%nat.
  Proof.
    intros seen. unfold search_fuel.
    assert (H1 : forall U, (unseen_weight seen U <= length U + (length (flat_map adj_of U) + length U))%nat).
    { induction U as [|x U IH]; cbn [unseen_weight flat_map length]; [lia|].
      rewrite app_length. unfold weight, adj_of at 1, succs.
      destruct (seen x), (0 <? x); cbn [length]; lia. }
    specialize (H1 (elements g)).
    pose proof (elems_length_bound g (elements g) (elements_NoDup g) (elements_elem g)) as H2.
    assert (H3 : (length (flat_map adj_of (elements g)) <= length (g_from g) - 1)%nat).
    { apply elems_length_bound; [apply adj_all_NoDup|].
      intros e He. apply in_flat_map in He. destruct He as (x & Hx & He).
      unfold adj_of in He. destruct (0 <? x); [|contradiction].
      apply (succs_elem x e (elements_elem g x Hx) He). }
    lia.
  Qed.

  Lemma search_spec_run : forall o, elem_id g o = true ->
    spec_run g a rv (search_fuel g) [(o, 0)] [] = Some (search_spec g a rv o).
  Proof.
    intros o Ho. unfold search_spec.
    destruct (spec_run_terminates (search_fuel g) [(o, 0)] []) as [r Hr].
    - repeat constructor. exact Ho.
    - apply unseen_weight_fuel.
    - rewrite Hr. reflexivity.
  Qed.
  (* induction over the run from the origin: an invariant of the work list and the visited list
     that holds at the start and is kept when the head item is skipped (already visited) and when
     it is visited (its successors pushed) holds at the end *)
  Lemma search_spec_ind : forall (P : list (Z * Z) -> list (Z * Z) -> Prop) o, elem_id g o = true ->
    P [(o, 0)] [] ->
    (forall x k rest acc, P ((x, k) :: rest) acc -> inb x (map fst acc) = true -> P rest acc) ->
    (forall x k rest acc, P ((x, k) :: rest) acc -> inb x (map fst acc) = false ->
       P (match a with
          | BFS => rest ++ map (fun y => (y, k + 1)) (succs g rv x)
          | DFS => map (fun y => (y, k + 1)) (succs g rv x) ++ rest
          end) ((x, k) :: acc)) ->
    P [] (rev (search_spec g a rv o)).
  Proof.
    intros P o Ho H0 Hskip Hvisit.
    refine (spec_run_inv P _ _ _ _ _ H0 (search_spec_run o Ho)).
    intros E acc E' acc' HP Hs. destruct E as [|[x k] rest]; cbn [spec_step] in Hs; [discriminate|].
    destruct (inb x (map fst acc)) eqn:Ev; injection Hs as <- <-; [eapply Hskip | apply Hvisit]; eassumption.
  Qed.
End SpecFacts.

Theorem lazy_eq_eager : forall d a reverse origin,
  adj_ok (gr d) -> graph_index (gr d) origin = true ->
  graph_search rv_fixed d a reverse origin [] HDefault = Some (map fst (search_spec (gr d) a reverse origin)).
Proof.
  intros d a rv o Hok Ho. rewrite graph_index_elem_id in Ho.
  unfold graph_search.
  assert (Hv : is_node (gr d) o || is_edge (gr d) o = true).
  { unfold elem_id, node_id, edge_id in Ho. apply orb_prop in Ho.
    destruct Ho as [H|H]; apply andb_prop in H; destruct H as [_ H]; rewrite H; [reflexivity | apply orb_true_r]. }
  rewrite Hv.
  change (@nil Z) with (map (@fst Z Z) []) at 2.
  rewrite (lockstep d Hok a rv o (search_fuel (gr d)) [(o, 0)] [] []).
  - cbn [abs_work flat_map abs_item]. rewrite orb_true_r. cbn [app].
    rewrite (search_spec_run (gr d) Hok a rv o Ho). reflexivity.
  - constructor; [split; [exact Ho | reflexivity] | constructor].
  - intros y _. reflexivity.
Qed.

(* The specification returns the origin first, no duplicates, exactly the reachable elements,
   with walk lengths as distances. *)

Section SpecProps.
  Variable g : graph.
  Hypothesis Hok : adj_ok g.
  Variable a : algo.
  Variable rv : bool.
  Variable o : Z.
  Hypothesis Ho : elem_id g o = true.

  Local Notation res := (search_spec g a rv o).
  Local Notation run_ind P := (search_spec_ind g Hok a rv P o Ho).

  Lemma walk_reach : forall x k, walk g rv o x k -> reach g rv o x.
  Proof. intros x k H. induction H; [constructor | econstructor; eassumption]. Qed.

  Lemma reach_walk : forall x, reach g rv o x -> exists k, walk g rv o x k.
  Proof.
    intros x H. induction H as [|x y _ [k IH] Hy]; [exists 0; constructor|].
    exists (k + 1). econstructor; eassumption.
  Qed.

  Lemma walk_nonneg : forall x k, walk g rv o x k -> 0 <= k.
  Proof. intros x k H. induction H; lia. Qed.

  Lemma reach_elem : forall x, reach g rv o x -> elem_id g x = true.
  Proof. intros x H. induction H; [exact Ho | eapply succs_elem; eassumption]. Qed.

  (* the origin is the oldest entry of the result *)
  Definition inv_first (E acc : list (Z * Z)) : Prop :=
    (acc = [] /\ E = [(o, 0)]) \/ exists acc0, acc = acc0 ++ [(o, 0)].

  Lemma first_end : inv_first [] (rev res).
  Proof.
    apply (run_ind inv_first).
    - left. split; reflexivity.
    - intros x k rest acc [[-> _]|[acc0 ->]] Ev; [discriminate Ev|]. right. exists acc0. reflexivity.
    - intros x k rest acc [[-> H]|[acc0 ->]] _; right.
      + injection H as -> -> _. exists []. reflexivity.
      + exists ((x, k) :: acc0). reflexivity.
  Qed.

  (* no duplicates *)
  Lemma nodup_end : NoDup (map fst (rev res)).
  Proof.
    apply (run_ind (fun _ acc => NoDup (map fst acc))).
    - constructor.
    - intros x k rest acc H _. exact H.
    - intros x k rest acc H Ev. cbn [map fst]. constructor; [apply inb_false; exact Ev | exact H].
  Qed.

  (* every pending or visited item is reached by a walk of the recorded length *)
  Definition inv_walk (E acc : list (Z * Z)) : Prop :=
    forall x k, In (x, k) E \/ In (x, k) acc -> walk g rv o x k.

  Lemma walk_end : inv_walk [] (rev res).
  Proof.
    apply (run_ind inv_walk).
    - intros x k [[H|[]]|[]]. injection H as <- <-. constructor.
    - intros x k rest acc H _ y j Hy. apply H.
      destruct Hy as [Hy|Hy]; [left; right; exact Hy | right; exact Hy].
    - intros x k rest acc H _ y j Hy.
      assert (Hx : walk g rv o x k) by (apply H; left; left; reflexivity).
      assert (Hnew : In (y, j) (map (fun z => (z, k + 1)) (succs g rv x)) -> walk g rv o y j).
      { intros Hin. apply in_map_iff in Hin. destruct Hin as (z & Hz & Hin). injection Hz as <- <-.
        econstructor; eassumption. }
      destruct Hy as [Hy|[Hy|Hy]].
      + destruct a; apply in_app_or in Hy; destruct Hy as [Hy|Hy]; auto; apply H; left; right; exact Hy.
      + injection Hy as <- <-. exact Hx.
      + apply H. right. exact Hy.
  Qed.

  (* the visited set is closed under successors up to the pending items *)
  Definition inv_closed (E acc : list (Z * Z)) : Prop :=
    (forall x y, In x (map fst acc) -> In y (succs g rv x) -> In y (map fst acc) \/ In y (map fst E)) /\
    (In o (map fst acc) \/ In o (map fst E)).

  Lemma closed_end : inv_closed [] (rev res).
  Proof.
    apply (run_ind inv_closed).
    - split; [intros x y []|]. right. left. reflexivity.
    - intros x k rest acc [Hc Hor] Ev. apply inb_In in Ev. split.
      + intros x' y Hx' Hy. destruct (Hc x' y Hx' Hy) as [H|[H|H]]; [left; exact H | subst; left; exact Ev | right; exact H].
      + destruct Hor as [H|[H|H]]; [left; exact H | cbn [fst] in H; subst; left; exact Ev | right; exact H].
    - intros x k rest acc [Hc Hor] _.
      assert (HE' : forall y, In y (map fst rest) \/ In y (succs g rv x) ->
                  In y (map fst (match a with
                                 | BFS => rest ++ map (fun z => (z, k + 1)) (succs g rv x)
                                 | DFS => map (fun z => (z, k + 1)) (succs g rv x) ++ rest end))).
      { intros y Hy.
        assert (Hn : In y (succs g rv x) -> In y (map fst (map (fun z => (z, k + 1)) (succs g rv x)))).
        { intros Hin. rewrite map_map. cbn [fst]. rewrite map_id. exact Hin. }
        destruct a; rewrite map_app; apply in_or_app; destruct Hy as [Hy|Hy]; auto. }
      split.
      + intros x' y Hx' Hy. cbn [map fst] in Hx'. destruct Hx' as [Hx'|Hx'].
        * subst x'. right. apply HE'. right. exact Hy.
        * destruct (Hc x' y Hx' Hy) as [H|[H|H]].
          -- left. right. exact H.
          -- cbn [fst] in H. subst. left. left. reflexivity.
          -- right. apply HE'. left. exact H.
      + destruct Hor as [H|[H|H]].
        * left. right. exact H.
        * cbn [fst] in H. subst. left. left. reflexivity.
        * right. apply HE'. left. exact H.
  Qed.

  Theorem search_spec_reachable :
    let r := search_spec g a rv o in
    (exists tl, r = (o, 0) :: tl) /\
    NoDup (map fst r) /\
    (forall x, In x (map fst r) <-> reach g rv o x) /\
    (forall x k, In (x, k) r -> walk g rv o x k).
  Proof.
    cbv zeta.
    assert (Hw : forall x k, In (x, k) res -> walk g rv o x k).
    { intros x k Hin. apply walk_end. right. apply in_rev in Hin. exact Hin. }
    repeat split.
    - destruct first_end as [[_ H]|[acc0 H]]; [discriminate|].
      exists (rev acc0). rewrite <- (rev_involutive res), H, rev_app_distr. reflexivity.
    - pose proof nodup_end as H. rewrite map_rev in H. apply NoDup_rev in H.
      rewrite rev_involutive in H. exact H.
    - intros Hin. apply in_map_iff in Hin. destruct Hin as ([y k] & Hy & Hin). cbn [fst] in Hy. subst y.
      eapply walk_reach. apply Hw. exact Hin.
    - intros Hreach. destruct closed_end as [Hc Hor].
      assert (Hin : forall y, reach g rv o y -> In y (map fst (rev res))).
      { intros y Hy. induction Hy as [|y z _ IH Hz].
        - destruct Hor as [H|[]]. exact H.
        - destruct (Hc y z IH Hz) as [H|[]]. exact H. }
      specialize (Hin x Hreach). rewrite map_rev in Hin. apply in_rev in Hin. exact Hin.
    - exact Hw.
  Qed.
End SpecProps.

(* Breadth-first: distances are non-decreasing and shortest. *)

Lemma SSorted_app : forall (A : Type) (R : A -> A -> Prop) (l1 l2 : list A),
  StronglySorted R l1 -> StronglySorted R l2 -> (forall x y, In x l1 -> In y l2 -> R x y) ->
  StronglySorted R (l1 ++ l2).
Proof.
  induction l1 as [|x l1 IH]; intros l2 H1 H2 H; cbn [app]; [exact H2|].
  apply StronglySorted_inv in H1. destruct H1 as [H1 Hx]. constructor.
  - apply IH; [exact H1 | exact H2 |]. intros y z Hy Hz. apply H; [right; exact Hy | exact Hz].
  - apply Forall_app. split; [exact Hx|]. apply Forall_forall. intros y Hy. apply H; [left; reflexivity | exact Hy].
Qed.

Lemma SSorted_all : forall (A : Type) (R : A -> A -> Prop) (l : list A),
  (forall x y, In x l -> In y l -> R x y) -> StronglySorted R l.
Proof.
  induction l as [|x l IH]; intros H; constructor.
  - apply IH. intros y z Hy Hz. apply H; right; assumption.
  - apply Forall_forall. intros y Hy. apply H; [left; reflexivity | right; exact Hy].
Qed.

Lemma SSorted_rev : forall (A : Type) (R : A -> A -> Prop) (l : list A),
  StronglySorted (fun x y => R y x) l -> StronglySorted R (rev l).
Proof.
  induction l as [|x l IH]; intros H; cbn [rev]; [constructor|].
  apply StronglySorted_inv in H. destruct H as [H Hx]. apply SSorted_app.
  - apply IH. exact H.
  - constructor; constructor.
  - intros y z Hy [Hz|[]]. subst z. rewrite Forall_forall in Hx. apply Hx. apply in_rev. exact Hy.
Qed.

Lemma SSorted_map : forall (A B : Type) (f : A -> B) (R : B -> B -> Prop) (l : list A),
  StronglySorted (fun x y => R (f x) (f y)) l -> StronglySorted R (map f l).
Proof.
  induction l as [|x l IH]; intros H; cbn [map]; [constructor|].
  apply StronglySorted_inv in H. destruct H as [H Hx]. constructor; [apply IH; exact H|].
  apply Forall_forall. intros y Hy. apply in_map_iff in Hy. destruct Hy as (z & <- & Hz).
  rewrite Forall_forall in Hx. apply Hx. exact Hz.
Qed.

Lemma SSorted_head_min : forall (A : Type) (R : A -> A -> Prop) (x : A) (l : list A),
  StronglySorted R (x :: l) -> forall y, In y l -> R x y.
Proof.
  intros A R x l H y Hy. apply StronglySorted_inv in H. destruct H as [_ H].
  rewrite Forall_forall in H. apply H. exact Hy.
Qed.

Section BfsProps.
  Variable g : graph.
  Hypothesis Hok : adj_ok g.
  Variable rv : bool.
  Variable o : Z.
  Hypothesis Ho : elem_id g o = true.

  Definition le_k (p q : Z * Z) : Prop := snd p <= snd q.

  Definition inv_bfs (E acc : list (Z * Z)) : Prop :=
    StronglySorted le_k E /\
    (forall p q, In p E -> In q E -> snd q <= snd p + 1) /\
    (forall p q, In p acc -> In q E -> snd p <= snd q) /\
    StronglySorted (fun p q => le_k q p) acc /\
    (forall x dx z, In (x, dx) acc -> In z (succs g rv x) ->
       (exists dz, In (z, dz) acc /\ dz <= dx + 1) \/ In (z, dx + 1) E).

  Lemma bfs_end : inv_bfs [] (rev (search_spec g BFS rv o)).
  Proof.
    apply (search_spec_ind g Hok BFS rv inv_bfs o Ho).
    - repeat split.
      + constructor; constructor.
      + intros p q [<-|[]] [<-|[]]. lia.
      + intros p q [].
      + constructor.
      + intros x dx z [].
    - (* already visited *)
      intros x k rest acc (Hs & Hspread & Hacc & Hsa & Hsucc) Ev.
      assert (Hrest : StronglySorted le_k rest) by (apply StronglySorted_inv in Hs; tauto).
      repeat split.
      + exact Hrest.
      + intros p q Hp Hq. apply Hspread; right; assumption.
      + intros p q Hp Hq. apply Hacc; [exact Hp | right; exact Hq].
      + exact Hsa.
      + intros x' dx z Hx' Hz. destruct (Hsucc x' dx z Hx' Hz) as [H|[H|H]].
        * left. exact H.
        * injection H as <- Hk. apply inb_In in Ev. apply in_map_iff in Ev.
          destruct Ev as ([x0 d0] & Hx0 & Hin). cbn [fst] in Hx0. subst x0.
          left. exists d0. split; [exact Hin|].
          pose proof (Hacc (x, d0) (x, k) Hin (or_introl eq_refl)) as Hle. cbn [snd] in Hle. lia.
        * right. exact H.
    - (* a new element *)
      intros x k rest acc (Hs & Hspread & Hacc & Hsa & Hsucc) _.
      assert (Hrest : StronglySorted le_k rest) by (apply StronglySorted_inv in Hs; tauto).
      assert (Hmin : forall q, In q rest -> k <= snd q).
      { intros q Hq. apply (SSorted_head_min _ le_k (x, k) rest Hs q Hq). }
      set (new := map (fun y => (y, k + 1)) (succs g rv x)).
      assert (Hnew : forall q, In q new -> snd q = k + 1).
      { intros q Hq. unfold new in Hq. apply in_map_iff in Hq. destruct Hq as (z & <- & _). reflexivity. }
      assert (Hrmax : forall q, In q rest -> snd q <= k + 1).
      { intros q Hq. apply (Hspread (x, k) q); [left; reflexivity | right; exact Hq]. }
      repeat split.
      + apply SSorted_app.
        * exact Hrest.
        * apply SSorted_all. intros p q Hp Hq. unfold le_k. rewrite (Hnew p Hp), (Hnew q Hq). lia.
        * intros p q Hp Hq. unfold le_k. rewrite (Hnew q Hq). apply Hrmax. exact Hp.
      + intros p q Hp Hq. apply in_app_or in Hp. apply in_app_or in Hq.
        assert (Hp' : k <= snd p) by (destruct Hp as [Hp|Hp]; [apply Hmin; exact Hp | rewrite (Hnew p Hp); lia]).
        assert (Hq' : snd q <= k + 1) by (destruct Hq as [Hq|Hq]; [apply Hrmax; exact Hq | rewrite (Hnew q Hq); lia]).
        lia.
      + intros p q Hp Hq. apply in_app_or in Hq.
        assert (Hq' : k <= snd q) by (destruct Hq as [Hq|Hq]; [apply Hmin; exact Hq | rewrite (Hnew q Hq); lia]).
        destruct Hp as [Hp|Hp].
        * subst p. exact Hq'.
        * pose proof (Hacc p (x, k) Hp (or_introl eq_refl)) as Hle. cbn [snd] in Hle. lia.
      + constructor; [exact Hsa|]. apply Forall_forall. intros p Hp. unfold le_k.
        apply (Hacc p (x, k) Hp). left. reflexivity.
      + intros x' dx z Hx' Hz. destruct Hx' as [Hx'|Hx'].
        * injection Hx' as <- <-. right. apply in_or_app. right. unfold new. apply in_map_iff.
          exists z. split; [reflexivity | exact Hz].
        * destruct (Hsucc x' dx z Hx' Hz) as [(dz & Hin & Hle)|[H|H]].
          -- left. exists dz. split; [right; exact Hin | exact Hle].
          -- injection H as <- Hk. left. exists k. split; [left; reflexivity | lia].
          -- right. apply in_or_app. left. exact H.
  Qed.

  Theorem bfs_spec_distances :
    let r := search_spec g BFS rv o in
    StronglySorted Z.le (map snd r) /\
    (forall x k, In (x, k) r -> shortest g rv o x k).
  Proof.
    intros r. pose proof bfs_end as H. fold r in H.
    destruct H as (_ & _ & _ & Hsa & Hsucc).
    destruct (search_spec_reachable g Hok BFS rv o Ho) as ((tl & Hhd) & Hnd & _ & Hw). fold r in Hhd, Hnd, Hw.
    split.
    - apply SSorted_map. apply SSorted_rev in Hsa. rewrite rev_involutive in Hsa. exact Hsa.
    - intros x k Hin. split; [apply Hw; exact Hin|].
      (* every walk of length j to y ends at an element recorded with a distance <= j *)
      assert (Hall : forall y j, walk g rv o y j -> exists dy, In (y, dy) r /\ dy <= j).
      { intros y j Hy. induction Hy as [|y z j _ (dy & Hiny & Hle) Hz].
        - exists 0. split; [rewrite Hhd; left; reflexivity | lia].
        - destruct (Hsucc y dy z (proj1 (in_rev r (y, dy)) Hiny) Hz) as [(dz & Hinz & Hle')|[]].
          exists dz. split; [apply in_rev; exact Hinz | lia]. }
      intros k' Hk'. destruct (Hall x k' Hk') as (dx & Hinx & Hle).
      (* the recorded distance is unique *)
      assert (dx = k).
      { clear - Hnd Hin Hinx. induction r as [|[y j] r' IH]; [contradiction|].
        cbn [map fst] in Hnd. inversion Hnd as [|? ? Hny Hnd']; subst.
        destruct Hin as [Hin|Hin]; destruct Hinx as [Hinx|Hinx].
        - congruence.
        - injection Hin as -> ->. exfalso. apply Hny. apply in_map_iff. exists (x, dx). split; [reflexivity | exact Hinx].
        - injection Hinx as -> ->. exfalso. apply Hny. apply in_map_iff. exists (x, k). split; [reflexivity | exact Hin].
        - apply IH; assumption. }
      lia.
  Qed.
End BfsProps.

(* Depth-first: the result is the pre-order of the recursive DFS. *)

Section DfsProps.
  Variable g : graph.
  Hypothesis Hok : adj_ok g.
  Variable rv : bool.

  (* several iterations of the eager loop *)
  Inductive steps : list (Z * Z) -> list (Z * Z) -> list (Z * Z) -> list (Z * Z) -> Prop :=
  | steps_refl : forall E acc, steps E acc E acc
  | steps_cons : forall E acc E1 acc1 E2 acc2,
      spec_step g DFS rv E acc = Some (E1, acc1) -> steps E1 acc1 E2 acc2 -> steps E acc E2 acc2.

  Lemma steps_trans : forall E acc E1 acc1 E2 acc2,
    steps E acc E1 acc1 -> steps E1 acc1 E2 acc2 -> steps E acc E2 acc2.
  Proof. intros E acc E1 acc1 E2 acc2 H. induction H; intros H2; [exact H2|]. econstructor; eauto. Qed.

  Lemma run_steps : forall E acc E' acc', steps E acc E' acc' ->
    forall f r, spec_run g DFS rv f E acc = Some r -> exists f', spec_run g DFS rv f' E' acc' = Some r.
  Proof.
    intros E acc E' acc' H. induction H as [|E acc E1 acc1 E2 acc2 Hs _ IH]; intros f r Hr; [exists f; exact Hr|].
    destruct f as [|f]; cbn [spec_run] in Hr; [discriminate|]. rewrite Hs in Hr. apply (IH f r Hr).
  Qed.

  Local Notation todo := (todo g rv).

  Lemma dfs_sim : forall fr x k rest acc, elem_id g x = true -> (todo (map fst acc) < fr)%nat ->
    exists acc', steps ((x, k) :: rest) acc rest acc' /\
                 map fst acc' = dfs_rec g rv fr x (map fst acc) /\
                 (todo (map fst acc') <= todo (map fst acc))%nat.
  Proof.
    induction fr as [|fr IH]; intros x k rest acc Hx Hfr; [lia|]. cbn [dfs_rec].
    destruct (inb x (map fst acc)) eqn:Ev.
    - exists acc. split; [|split; [reflexivity | lia]].
      econstructor; [|constructor]. cbn [spec_step]. rewrite Ev. reflexivity.
    - (* the successors, one after the other *)
      assert (Hfold : forall ys, (forall y, In y ys -> elem_id g y = true) ->
                forall acc1, (todo (map fst acc1) < fr)%nat ->
                exists acc2, steps (map (fun y => (y, k + 1)) ys ++ rest) acc1 rest acc2 /\
                             map fst acc2 = fold_left (fun s y => dfs_rec g rv fr y s) ys (map fst acc1) /\
                             (todo (map fst acc2) <= todo (map fst acc1))%nat).
      { induction ys as [|y ys IHys]; intros Hys acc1 Hacc1.
        - exists acc1. split; [constructor | split; [reflexivity | lia]].
        - cbn [map app fold_left].
          destruct (IH y (k + 1) (map (fun y => (y, k + 1)) ys ++ rest) acc1 (Hys y (or_introl eq_refl)) Hacc1)
            as (acc1' & Hst1 & Hm1 & Ht1).
          destruct (IHys (fun z Hz => Hys z (or_intror Hz)) acc1' ltac:(lia)) as (acc2 & Hst2 & Hm2 & Ht2).
          exists acc2. split; [eapply steps_trans; eassumption|]. split; [rewrite Hm2, Hm1; reflexivity | lia]. }
      pose proof (todo_mark g rv (map fst acc) x Hx Ev) as Hmark. unfold weight in Hmark.
      destruct (Hfold (succs g rv x) (fun y Hy => succs_elem g Hok rv x y Hx Hy) ((x, k) :: acc)) as (acc2 & Hst & Hm & Ht).
      { cbn [map fst]. lia. }
      exists acc2. split; [|split].
      + econstructor; [|exact Hst]. cbn [spec_step]. rewrite Ev. reflexivity.
      + exact Hm.
      + cbn [map fst] in Ht. lia.
  Qed.

  Theorem dfs_spec_preorder : forall o fr, elem_id g o = true -> (search_fuel g <= fr)%nat ->
    map fst (search_spec g DFS rv o) = rev (dfs_rec g rv fr o []).
  Proof.
    intros o fr Ho Hfr. pose proof (search_spec_run g Hok DFS rv o Ho) as Hrun.
    destruct (dfs_sim fr o 0 [] [] Ho) as (acc' & Hst & Hm & _).
    { pose proof (unseen_weight_fuel g Hok rv (fun y => inb y [])). cbn [map]. unfold TraverseProofs.todo. lia. }
    destruct (run_steps _ _ _ _ Hst _ _ Hrun) as (f' & Hf').
    destruct f' as [|f']; cbn [spec_run spec_step] in Hf'; [discriminate|]. injection Hf' as Hf'.
    rewrite <- Hf', map_rev, Hm. reflexivity.
  Qed.
End DfsProps.

Theorem traversal_exact : forall d a reverse origin,
  adj_ok (gr d) -> graph_index (gr d) origin = true ->
  exists r, graph_search rv_fixed d a reverse origin [] HDefault = Some (origin :: r) /\
            NoDup (origin :: r) /\
            (forall x, In x (origin :: r) <-> reach (gr d) reverse origin x).
Proof.
  intros d a rv o Hok Ho. rewrite (lazy_eq_eager d a rv o Hok Ho).
  rewrite graph_index_elem_id in Ho.
  destruct (search_spec_reachable (gr d) Hok a rv o Ho) as ((tl & Hhd) & Hnd & Hreach & _).
  exists (map fst tl). rewrite Hhd in *. cbn [map fst] in *. repeat split; try assumption; apply Hreach.
Qed.

(* the query level: SearchQuery::search with an origin only (forward) or a destination only (reverse) *)
Definition plain_query (alg : algorithm) (origin destination : Z) : search_query :=
  {| s_algorithm := alg; s_origin := QId origin; s_destination := QId destination;
     s_limit := 0; s_offset := 0; s_order_by := []; s_conditions := [] |}.

Theorem search_query_forward : forall d o, adj_ok (gr d) -> graph_index (gr d) o = true ->
  search rv_fixed d (plain_query ABreadthFirst o 0) = SOk (map fst (bfs_spec (gr d) false o)) /\
  search rv_fixed d (plain_query ADepthFirst o 0) = SOk (map fst (dfs_spec (gr d) false o)).
Proof.
  intros d o Hok Ho. unfold search, plain_query, bfs_spec, dfs_spec.
  cbn [s_algorithm s_origin s_destination s_limit s_offset s_order_by s_conditions is_zero_id db_id handler_of].
  rewrite Ho. cbn [Z.eqb andb]. rewrite !(lazy_eq_eager d _ false o Hok Ho). split; reflexivity.
Qed.

Theorem search_query_reverse : forall d o, adj_ok (gr d) -> graph_index (gr d) o = true ->
  search rv_fixed d (plain_query ABreadthFirst 0 o) = SOk (map fst (bfs_spec (gr d) true o)) /\
  search rv_fixed d (plain_query ADepthFirst 0 o) = SOk (map fst (dfs_spec (gr d) true o)).
Proof.
  intros d o Hok Ho.
  assert (Hnz : o <> 0).
  { pose proof Ho as H. rewrite graph_index_elem_id in H. apply elem_id_slot in H. lia. }
  pose proof (lazy_eq_eager d BFS true o Hok Ho) as Hb. pose proof (lazy_eq_eager d DFS true o Hok Ho) as Hd.
  unfold search, plain_query, bfs_spec, dfs_spec.
  cbn [s_algorithm s_origin s_destination s_limit s_offset s_order_by s_conditions db_id handler_of].
  change (handler_of 0 0) with HDefault.
  destruct o as [|p|p]; [lia| |]; cbn [is_zero_id]; rewrite Ho, Hb, Hd; split; reflexivity.
Qed.

Definition q_nodes (n : Z) : query := InsertNodes n (Single []) [] (Ids []).
Definition q_edge (f t : Z) : query := InsertEdges (Ids [QId f]) (Ids [QId t]) (Single []) false (Ids []).
Definition run_queries (r : revision) (qs : list query) : db := fold_left (fun d q => fst (exec r d q)) qs db_new.
Definition ids_of (r : qres) : option (list Z) :=
  match r with QOk _ els => Some (map e_id els) | _ => None end.

(* (1) before fix_edge_origin: a search from an edge also returned the edge's older siblings,
   which are not reachable from it.  Nodes 1 2, edges -3 : 1->2, -4 : 1->2. *)
Definition witness1 (r : revision) : db := run_queries r [q_nodes 2; q_edge 1 2; q_edge 1 2].

Lemma edge_origin_pinned_refuted :
  let d := witness1 rv_pinned in
  adj_ok (gr d) /\ graph_index (gr d) (-4) = true /\
  graph_search rv_pinned d BFS false (-4) [] HDefault = Some [-4; -3; 2] /\
  graph_search rv_pinned d DFS false (-4) [] HDefault = Some [-4; 2; -3] /\
  ids_of (snd (exec rv_pinned d (SearchQ (plain_query ABreadthFirst (-4) 0)))) = Some [-4; -3; 2] /\
  ~ reach (gr d) false (-4) (-3) /\
  graph_search rv_fixed (witness1 rv_fixed) BFS false (-4) [] HDefault = Some [-4; 2].
Proof.
  intros d. split; [apply adj_okb_sound; vm_compute; reflexivity|].
  split; [vm_compute; reflexivity|]. split; [vm_compute; reflexivity|]. split; [vm_compute; reflexivity|].
  split; [vm_compute; reflexivity|]. split; [|vm_compute; reflexivity].
  assert (H : forall x, reach (gr d) false (-4) x -> x = -4 \/ x = 2).
  { intros x Hx. induction Hx as [|x y _ IH Hy]; [left; reflexivity|].
    destruct IH as [->| ->]; vm_compute in Hy; [destruct Hy as [<-|[]]; right; reflexivity | contradiction]. }
  intros Hr. destruct (H _ Hr); discriminate.
Qed.

(* (2) with fix_edge_origin but before fix_visited_chain: the already visited origin edge cut the
   lazily expanded edge list of its node, so older siblings reachable through the node were lost.
   Node 1, self-loops -2 and -3.  (fix_empty_alias is off as well; the witness uses no alias, so
   that flag plays no part.) *)
Definition rv_no_visited_chain : revision :=
  {| fix_rollback_replace := true; fix_alias_steal_undo := true; fix_alias_nodes_only := true;
     fix_strict_order := true; fix_slice_clamp := true; fix_edge_origin := true;
     fix_visited_chain := false; fix_nodes_ids_alias := true; fix_empty_alias := false |}.

Definition witness2 (r : revision) : db := run_queries r [q_nodes 1; q_edge 1 1; q_edge 1 1].

Lemma visited_chain_refuted :
  let d := witness2 rv_no_visited_chain in
  adj_ok (gr d) /\ graph_index (gr d) (-3) = true /\
  graph_search rv_no_visited_chain d BFS false (-3) [] HDefault = Some [-3; 1] /\
  graph_search rv_no_visited_chain d DFS false (-3) [] HDefault = Some [-3; 1] /\
  graph_search rv_no_visited_chain d BFS true (-3) [] HDefault = Some [-3; 1] /\
  ids_of (snd (exec rv_no_visited_chain d (SearchQ (plain_query ABreadthFirst (-3) 0)))) = Some [-3; 1] /\
  reach (gr d) false (-3) (-2) /\
  graph_search rv_fixed (witness2 rv_fixed) BFS false (-3) [] HDefault = Some [-3; 1; -2].
Proof.
  intros d. split; [apply adj_okb_sound; vm_compute; reflexivity|].
  split; [vm_compute; reflexivity|]. split; [vm_compute; reflexivity|]. split; [vm_compute; reflexivity|].
  split; [vm_compute; reflexivity|]. split; [vm_compute; reflexivity|]. split; [|vm_compute; reflexivity].
  apply (reach_step _ _ _ 1).
  - apply (reach_step _ _ _ (-3)); [constructor|]. vm_compute. left. reflexivity.
  - vm_compute. right. left. reflexivity.
Qed.

(* non-vacuity of the positive theorems: searches on the example graph of AdjOk.v *)
Definition example_db : db := with_gr db_new example_graph.

Lemma example_searches :
  adj_ok (gr example_db) /\
  graph_search rv_fixed example_db BFS false 1 [] HDefault = Some [1; -5; -4; 3; 2; -7; -8; -6] /\
  graph_search rv_fixed example_db DFS false 1 [] HDefault = Some [1; -5; 3; -7; -4; 2; -8; -6] /\
  graph_search rv_fixed example_db BFS true 3 [] HDefault = Some [3; -5; -6; 1; 2; -7; -8; -4] /\
  graph_search rv_fixed example_db DFS false (-4) [] HDefault = Some [-4; 2; -8; -6; 3; -7; 1; -5] /\
  bfs_spec example_graph false 1 = [(1, 0); (-5, 1); (-4, 1); (3, 2); (2, 2); (-7, 3); (-8, 3); (-6, 3)].
Proof.
  split; [exact example_graph_adj_ok|]. vm_compute. repeat split.
Qed.

(* The fuel suffices for EVERY condition list and handler. *)

Section GenFuel.
  Variable d : db.
  Local Notation g := (gr d) (only parsing).
  Hypothesis Hok : adj_ok g.
  Variable a : algo.
  Variable rv : bool.
  Variable origin : Z.

  (* the measure of the eager loop, on the collapsed work list and the slots not yet visited *)
  Definition lazy_mu (W : list (Z * Z)) (V : list Z) : nat :=
    (length (abs_work d rv W) + unseen_weight g rv (visited V) (elements g))%nat.

  Lemma length_abs_expand : forall x k rest follow, item_ok d (x, k) ->
    (length (abs_work d rv (expand rv_fixed g a rv origin rest (x, k) follow)) + 1 =
     length (abs_work d rv ((x, k) :: rest)) + (if follow then length (succs g rv x) else 0))%nat.
  Proof.
    intros x k rest follow [Hx Hk]. cbn [fst snd] in Hx, Hk.
    rewrite (abs_expand d Hok a rv origin x k rest follow Hx Hk), abs_work_cons, (abs_item_elem d Hok rv x k Hx).
    destruct a, follow; cbn [length app]; rewrite ?app_length, ?map_length; cbn [length]; lia.
  Qed.

  Lemma search_loop_terminates : forall conds h f W V c acc,
    Forall (item_ok d) W -> (lazy_mu W V < f)%nat ->
    search_loop rv_fixed d a rv origin conds h f W V c acc <> None.
  Proof.
    intros conds h. induction f as [|f IH]; intros W V c acc HW Hmu; [lia|].
    destruct W as [|[x k] rest]; [discriminate|].
    cbn [search_loop].
    pose proof (Forall_inv HW) as Hx.
    pose proof (length_abs_expand x k rest true Hx) as Ht.
    pose proof (length_abs_expand x k rest false Hx) as Hf.
    pose proof (fun follow => expand_ok d Hok a rv origin x k rest follow HW) as Hok'.
    unfold lazy_mu in *.
    destruct (visited V x) eqn:Ev.
    - cbn [fix_visited_chain rv_fixed andb]. rewrite (expand_visited d a rv origin x k rest (proj1 Hx)).
      apply IH; [apply Hok' | lia].
    - assert (Hm : (unseen_weight g rv (visited (Z.abs x :: V)) (elements g) + weight g rv x
                    <= unseen_weight g rv (visited V) (elements g))%nat).
      { apply unseen_weight_mark; [|apply elem_in_elements, Hx | exact Ev|]; unfold visited; cbn [existsb].
        - intros y ->. apply orb_true_r.
        - rewrite Z.eqb_refl. reflexivity. }
      unfold weight in Hm.
      destruct (handle h c (eval_conditions rv_fixed d x k conds)) as [control c'].
      destruct control as [add|add|add]; [|discriminate|]; (apply IH; [apply Hok' | lia]).
  Qed.

  Theorem graph_search_no_fuel : forall conds h,
    graph_index g origin = true \/ is_node g origin || is_edge g origin = false ->
    graph_search rv_fixed d a rv origin conds h <> None.
  Proof.
    intros conds h [Ho|Ho]; unfold graph_search; [|rewrite Ho; discriminate].
    rewrite graph_index_elem_id in Ho.
    destruct (is_node g origin || is_edge g origin); [|discriminate].
    apply search_loop_terminates.
    - constructor; [split; [exact Ho | reflexivity] | constructor].
    - unfold lazy_mu. cbn [abs_work flat_map abs_item]. rewrite orb_true_r. cbn [app length].
      apply unseen_weight_fuel, Hok.
  Qed.
End GenFuel.

(* the fuel of the loop is never exhausted (origins as resolved by DbImpl: graph_index holds, or
   the id is no valid index at all and the search is not started) *)
Theorem search_no_fuel : forall d a reverse origin,
  adj_ok (gr d) ->
  graph_index (gr d) origin = true \/ is_node (gr d) origin || is_edge (gr d) origin = false ->
  graph_search rv_fixed d a reverse origin [] HDefault <> None.
Proof. intros d a rv o Hok. apply graph_search_no_fuel, Hok. Qed.
