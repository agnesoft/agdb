(* CollValuesProofs.v — proofs (collections): the element classes DbValue and DbKeyValue
   (CollValues.v) meet `elem_law`, from the theorems of C12 (ValueIndexProofs.v: the index `store`
   produces is well formed, is inline or names exactly the record inserted, loads back the value;
   ValueLoadProofs.v: also through the bounds checks of the current load_db_value); and the pair of two
   lawful classes is lawful. *)
From Agdb Require Import Bytes BytesProofs Utf8 Codec DbValue ValueIndex ValueIndexProofs ValueLoadProofs
  Records RecordsProofs Storage StorageSpec StorageLayout Collections CollWp CollBytes CollVecBase CollVecOps CollValues.
From Coq Require Import ZifyBool ZifyNat ZifyN.
Open Scope N_scope.

(* store_db_value on the empty store does not depend on the allocator except through the index it embeds *)
Lemma dbv_store_shape v i :
  snd (store_db_value (fun _ => i) v []) = match cv_dbv_payload v with None => [] | Some b => [(i, b)] end /\
  (cv_dbv_payload v = None -> fst (store_db_value (fun _ => i) v []) = fst (store_db_value (fun _ => 0) v [])).
Proof.
  unfold cv_dbv_payload.
  destruct v as [bs|z|n|b|bs|l|l|l|l]; cbn [store_db_value]; unfold store_inline_or, store_out, st_insert;
    try (destruct (set_value _ _) as [[|] ix]); cbn [fst snd]; split; try reflexivity; try discriminate.
Qed.

Definition dbv_rep (g : heap) (bs : bytes) (v : dbvalue) : Prop :=
  wf_value v = true /\
  exists i, i <> 0 /\ i < two64 /\ bs = fst (store_db_value (fun _ => i) v []) /\
            (forall b, cv_dbv_payload v = Some b -> g i = Some b).
Definition dbv_own (bs : bytes) : list N := if is_value bs then [] else [vi_index bs].

Lemma alloc_const_ok i : i <> 0 -> i < two64 -> alloc_ok (fun _ => i) [].
Proof. intros H1 H2. repeat split; auto. Qed.

Lemma dbv_index_facts v i : i <> 0 -> i < two64 ->
  let ix := fst (store_db_value (fun _ => i) v []) in
  wf_ix ix /\
  ((is_value ix = true /\ cv_dbv_payload v = None) \/
   (is_value ix = false /\ vi_index ix = i /\ exists b, cv_dbv_payload v = Some b)).
Proof.
  intros H1 H2 ix. destruct (store_shape (fun _ => i) v [] (alloc_const_ok i H1 H2)) as [Hw Hs]. fold ix in Hw, Hs.
  split; [exact Hw|]. destruct (dbv_store_shape v i) as [Es _].
  destruct Hs as [[Hv E]|(Hv & Hi & b & E)]; rewrite Es in E.
  - left. split; [exact Hv|]. destruct (cv_dbv_payload v); [discriminate|reflexivity].
  - right. split; [exact Hv|]. split; [exact Hi|]. destruct (cv_dbv_payload v) as [b'|]; [eauto|discriminate].
Qed.

Definition law_dbvalue : elem_law ce_dbvalue.
Proof.
  refine {| el_valid := fun v => wf_value v = true; el_rep := dbv_rep; el_own := dbv_own |}.
  - cbn. lia.
  - intros g bs v (_ & i & H1 & H2 & -> & _). destruct (dbv_index_facts v i H1 H2) as [Hw _].
    unfold wf_ix in Hw. unfold lenN. rewrite Hw. reflexivity.
  - intros g bs v j (_ & i & H1 & H2 & -> & Hg) Hj. unfold dbv_own in Hj.
    destruct (dbv_index_facts v i H1 H2) as [_ [[Hv _]|(Hv & Hi & b & Hb)]]; rewrite Hv in Hj; [destruct Hj|].
    destruct Hj as [<-|[]]. rewrite Hi, (Hg b Hb). discriminate.
  - intros g bs v _. unfold dbv_own. destruct (is_value bs); constructor; [intros []|constructor].
  - intros g g' bs v (Hwf & i & H1 & H2 & -> & Hg) Hsame. split; [exact Hwf|]. exists i. repeat split; auto.
    intros b Hb. rewrite <- (Hg b Hb). apply Hsame. unfold dbv_own.
    destruct (dbv_index_facts v i H1 H2) as [_ [[_ Hn]|(Hv & Hi & _)]]; [congruence|]. rewrite Hv, Hi. left; reflexivity.
  - (* store *)
    intros fl v sp Q Hwf HQ. cbn [ce_store ce_dbvalue]. destruct (cv_dbv_payload v) as [rec|] eqn:Ep.
    + apply cwp_bind. apply hwp_insert. intros i sp' Hi Hlt Hn Hm Hd. cbn [kont cwp].
      destruct (dbv_index_facts v i Hi Hlt) as [_ [[_ Hnone]|(Hv & Hix & _)]]; [congruence|].
      apply HQ; [|exact Hd| |]; unfold dbv_own; rewrite ?Hv, ?Hix.
      * split; [exact Hwf|]. exists i. repeat split; auto. intros b Hb. rewrite Hm, hupd_same. congruence.
      * intros j [<-|[]]. exact Hn.
      * intros j Hj. rewrite Hm. apply hupd_other. intros ->. apply Hj. left; reflexivity.
    + cbn [cwp]. destruct (dbv_store_shape v 1) as [_ E1]. rewrite <- (E1 Ep).
      destruct (dbv_index_facts v 1 ltac:(discriminate) ltac:(reflexivity)) as [_ [[Hv _]|(_ & _ & b & Hb)]]; [|congruence].
      apply HQ; [|reflexivity| |]; unfold dbv_own; rewrite ?Hv.
      * split; [exact Hwf|]. exists 1. repeat split; auto; [discriminate|]. intros b Hb. congruence.
      * intros j [].
      * intros j _. reflexivity.
  - (* load *)
    intros fl bs v sp Q (Hwf & i & H1 & H2 & -> & Hg) HQ. cbn [ce_load ce_dbvalue].
    pose proof (load_g_roundtrip vg_current (fun _ => i) v [] Hwf (alloc_const_ok i H1 H2)) as R.
    destruct (dbv_store_shape v i) as [Es _]. rewrite Es in R.
    destruct (dbv_index_facts v i H1 H2) as [Hw Hc]. remember (fst (store_db_value (fun _ => i) v [])) as ix eqn:Eix.
    rewrite (vi_deserialize_wf ix Hw). cbn [cp_of_outcome cbind].
    destruct Hc as [[Hv Hn]|(Hv & Hi & b & Hb)]; rewrite Hv.
    + rewrite Hn in R. rewrite R. exact HQ.
    + rewrite Hb in R. apply cwp_bind. eapply cwp_value; [rewrite Hi; exact (Hg b Hb)|]. cbn [kont].
      rewrite Hi, R. exact HQ.
  - (* remove *)
    intros fl bs v sp Q (Hwf & i & H1 & H2 & -> & Hg) HQ. cbn [ce_remove ce_dbvalue].
    destruct (dbv_index_facts v i H1 H2) as [Hw Hc]. remember (fst (store_db_value (fun _ => i) v [])) as ix eqn:Eix.
    rewrite (vi_deserialize_wf ix Hw). cbn [cp_of_outcome cbind]. unfold dbv_own in HQ.
    destruct Hc as [[Hv Hn]|(Hv & Hi & b & Hb)]; rewrite Hv in *.
    + cbn [cwp]. apply HQ; [reflexivity|intros j []|reflexivity].
    + rewrite Hi in *. eapply hwp_remove; [exact (Hg b Hb)|]. intros sp' Hm Hd. apply HQ; [exact Hd| |].
      * intros j [<-|[]]. rewrite Hm. unfold hdel. rewrite N.eqb_refl. reflexivity.
      * intros j Hj. rewrite Hm. unfold hdel. destruct (N.eqb_spec i j); [subst; exfalso; apply Hj; left; reflexivity|reflexivity].
Defined.

Section Pair.
  Variables A B : Type.
  Variable EA : cv_elem A.
  Variable EB : cv_elem B.
  Variable LA : elem_law EA.
  Variable LB : elem_law EB.

  Let ka := N.to_nat (ce_size EA).

  Definition pair_rep (g : heap) (bs : bytes) (p : A * B) : Prop :=
    exists ba bb, bs = ba ++ bb /\ el_rep LA g ba (fst p) /\ el_rep LB g bb (snd p) /\
                  (forall j, In j (el_own LA ba) -> ~ In j (el_own LB bb)).
  Definition pair_own (bs : bytes) : list N := el_own LA (firstn ka bs) ++ el_own LB (skipn ka bs).

  Lemma pair_split g ba bb a : el_rep LA g ba a -> firstn ka (ba ++ bb) = ba /\ skipn ka (ba ++ bb) = bb.
  Proof.
    intros H. pose proof (el_len EA LA _ _ _ H) as HL. unfold lenN in HL.
    split; [apply firstn_app_exact|apply skipn_app_exact]; unfold ka; lia.
  Qed.

  Definition law_pair : elem_law (ce_pair EA EB).
  Proof.
    refine {| el_valid := fun p => el_valid LA (fst p) /\ el_valid LB (snd p); el_rep := pair_rep; el_own := pair_own |}.
    - cbn [ce_size ce_pair]. pose proof (el_size_pos EA LA). lia.
    - intros g bs [a b] (ba & bb & -> & Ha & Hb & _). cbn [fst snd] in *. rewrite lenN_app.
      rewrite (el_len EA LA _ _ _ Ha), (el_len EB LB _ _ _ Hb). reflexivity.
    - intros g bs [a b] j (ba & bb & -> & Ha & Hb & _) Hj. cbn [fst snd] in *. unfold pair_own in Hj.
      destruct (pair_split g ba bb a Ha) as [E1 E2]. rewrite E1, E2 in Hj. apply in_app_or in Hj.
      destruct Hj as [Hj|Hj]; [eapply (el_live EA LA); eauto|eapply (el_live EB LB); eauto].
    - intros g bs [a b] (ba & bb & -> & Ha & Hb & Hd). cbn [fst snd] in *. unfold pair_own.
      destruct (pair_split g ba bb a Ha) as [E1 E2]. rewrite E1, E2. apply NoDup_app_iff.
      split; [eapply (el_nodup EA LA); eauto|]. split; [eapply (el_nodup EB LB); eauto|exact Hd].
    - intros g g' bs [a b] (ba & bb & -> & Ha & Hb & Hd) Hs. cbn [fst snd] in *.
      destruct (pair_split g ba bb a Ha) as [E1 E2]. unfold pair_own in Hs. rewrite E1, E2 in Hs.
      exists ba, bb. split; [reflexivity|]. cbn [fst snd]. split; [|split; [|exact Hd]].
      + eapply (el_local EA LA); [exact Ha|]. intros j Hj. apply Hs. apply in_or_app. auto.
      + eapply (el_local EB LB); [exact Hb|]. intros j Hj. apply Hs. apply in_or_app. auto.
    - (* store *)
      intros fl [a b] sp Q [Va Vb] HQ. cbn [fst snd] in *. cbn [ce_store ce_pair fst snd].
      apply cwp_bind. apply (el_store EA LA); [exact Va|]. intros ba sp1 Ra D1 Fa Sa. cbn [kont].
      apply cwp_bind. apply (el_store EB LB); [exact Vb|]. intros bb sp2 Rb D2 Fb Sb. cbn [kont cwp].
      assert (Hdis : forall j, In j (el_own LA ba) -> ~ In j (el_own LB bb)).
      { intros j Ja Jb. apply (el_live EA LA _ _ _ j Ra Ja). apply Fb. exact Jb. }
      assert (Ra2 : el_rep LA (hp sp2) ba a).
      { eapply (el_local EA LA); [exact Ra|]. intros j Hj. apply Sb. intros Jb. exact (Hdis j Hj Jb). }
      destruct (pair_split (hp sp2) ba bb a Ra2) as [E1 E2].
      apply HQ; [|congruence| |]; unfold pair_own; rewrite ?E1, ?E2.
      + exists ba, bb. cbn [fst snd]. auto.
      + intros j Hj. apply in_app_or in Hj. destruct Hj as [Hj|Hj]; [apply Fa; exact Hj|].
        rewrite <- (Sa j); [apply Fb; exact Hj|]. intros Ja. exact (Hdis j Ja Hj).
      + intros j Hj. rewrite Sb by (intros X; apply Hj; apply in_or_app; auto).
        apply Sa. intros X; apply Hj; apply in_or_app; auto.
    - (* load *)
      intros fl bs [a b] sp Q (ba & bb & -> & Ha & Hb & _) HQ. cbn [fst snd] in *. cbn [ce_load ce_pair].
      destruct (pair_split (hp sp) ba bb a Ha) as [E1 E2]. fold ka. rewrite E1, E2.
      apply cwp_bind. eapply (el_load EA LA); [exact Ha|]. cbn [kont].
      apply cwp_bind. eapply (el_load EB LB); [exact Hb|]. cbn [kont cwp]. exact HQ.
    - (* remove *)
      intros fl bs [a b] sp Q (ba & bb & -> & Ha & Hb & Hd) HQ. cbn [fst snd] in *. cbn [ce_remove ce_pair].
      destruct (pair_split (hp sp) ba bb a Ha) as [E1 E2]. fold ka. rewrite E1, E2.
      unfold pair_own in HQ. rewrite E1, E2 in HQ.
      apply cwp_bind. eapply (el_remove EA LA); [exact Ha|]. intros sp1 D1 Fa Sa. cbn [kont].
      assert (Hb1 : el_rep LB (hp sp1) bb b).
      { eapply (el_local EB LB); [exact Hb|]. intros j Hj. apply Sa. intros Ja. exact (Hd j Ja Hj). }
      eapply (el_remove EB LB); [exact Hb1|]. intros sp2 D2 Fb Sb.
      apply HQ; [congruence| |].
      + intros j Hj. apply in_app_or in Hj. destruct Hj as [Hj|Hj]; [|apply Fb; exact Hj].
        rewrite Sb by (intros Jb; exact (Hd j Hj Jb)). apply Fa. exact Hj.
      + intros j Hj. rewrite Sb by (intros X; apply Hj; apply in_or_app; auto).
        apply Sa. intros X; apply Hj; apply in_or_app; auto.
  Defined.
End Pair.

Definition law_dbkv : elem_law ce_dbkv := law_pair dbvalue dbvalue ce_dbvalue ce_dbvalue law_dbvalue law_dbvalue.
