(* ExecSchedProofs.v — lemmas about the execution scheduling model ExecSched.v (C31).
   Three invariants of `step`: counts_ok (how often an index occurs in each component of the state, both
   disciplines, restarts included), ordered (the trace is a prefix of the log: no restart, run steps take the head
   of the started entries) and worker_ok (the single worker across restarts: the trace stays weakly increasing). *)
From Coq Require Import List NArith Bool Lia Sorted.
From Coq Require Import ZifyBool ZifyNat ZifyN.
From Agdb Require Import ExecSched.
From Agdb Require BytesProofs.
Import ListNotations.
Import ExecM.
Open Scope N_scope.

Notation cnt i l := (count_occ N.eq_dec l i).

Lemma memN_In : forall i l, memN i l = true <-> In i l.
Proof.
  intros i l. unfold memN. rewrite existsb_exists. split.
  - now intros [x [Hin ->%N.eqb_eq]].
  - intros H. exists i. now rewrite N.eqb_refl.
Qed.

Lemma memN_spec : forall i l, reflect (1 <= cnt i l)%nat (memN i l).
Proof.
  intros i l. apply iff_reflect. rewrite memN_In, (count_occ_In N.eq_dec). lia.
Qed.

Lemma cnt_remove1 : forall i j l,
  memN i l = true -> cnt j l = (cnt j [i] + cnt j (remove1 i l))%nat.
Proof.
  intros i j l. induction l as [|x r IH]; cbn [memN existsb remove1]; [discriminate|].
  destruct (N.eqb_spec i x) as [->|Hne]; cbn [count_occ orb].
  - destruct (N.eq_dec x j); reflexivity.
  - intros H%IH. change (cnt j ([x] ++ r) = (cnt j [i] + cnt j ([x] ++ remove1 i r))%nat).
    rewrite !count_occ_app, H. apply PeanoNat.Nat.add_shuffle3.
Qed.

Lemma cnt_filter : forall (f : N -> bool) i l,
  cnt i (filter f l) = if f i then cnt i l else 0%nat.
Proof.
  intros f i l. induction l as [|x r IH]; cbn [filter count_occ].
  - now destruct (f i).
  - destruct (f x) eqn:Fx; cbn [count_occ]; destruct (N.eq_dec x i) as [->|Hne];
      rewrite IH, ?Fx; reflexivity.
Qed.

Lemma filter_none : forall (f : N -> bool) l, (forall x, In x l -> f x = false) -> filter f l = [].
Proof.
  intros f l. induction l as [|x l IH]; intros H; cbn [filter]; [reflexivity|].
  rewrite (H x (or_introl eq_refl)). apply IH. intros y Hy. apply H. now right.
Qed.

Lemma mem_single : forall i (l : list N), (length l <= 1)%nat -> memN i l = true -> l = [i].
Proof.
  intros i [|p [|q l]] Hlen M%memN_In; [destruct M| |cbn in Hlen; lia]. now destruct M as [->|[]].
Qed.

Lemma run_app : forall d lg evs1 evs2,
  run d lg (evs1 ++ evs2) = run_from d lg (run d lg evs1) evs2.
Proof. intros. apply fold_left_app. Qed.

Lemma run_from_inv : forall (P : state -> Prop) d lg,
  (forall s e, P s -> P (step d lg s e)) -> forall evs s, P s -> P (run_from d lg s evs).
Proof.
  intros P d lg Hstep evs. induction evs as [|e evs IH]; intros s H; [exact H|]. apply IH, Hstep, H.
Qed.

Lemma no_restart_cons : forall e evs,
  no_restart (e :: evs) = true -> is_restart e = false /\ no_restart evs = true.
Proof.
  unfold no_restart. cbn [forallb]. intros e evs [H1 H2]%andb_prop. now destruct (is_restart e).
Qed.

Lemma restarts_no_restart : forall evs, no_restart evs = true -> restarts evs = 0%nat.
Proof.
  induction evs as [|e evs IH]; [reflexivity|]. intros [H1 H2]%no_restart_cons.
  unfold restarts in *. cbn [filter]. rewrite H1. auto.
Qed.

Lemma reexec_budget_app : forall d lg evs1 evs2 s i,
  reexec_budget d lg s (evs1 ++ evs2) i =
  (reexec_budget d lg s evs1 i + reexec_budget d lg (run_from d lg s evs1) evs2 i)%nat.
Proof.
  intros d lg evs1. induction evs1 as [|e evs1 IH]; intros evs2 s i; cbn [app reexec_budget run_from fold_left].
  - reflexivity.
  - rewrite IH. unfold run_from. lia.
Qed.

Lemma reexec_budget_no_restart : forall d lg evs s i,
  no_restart evs = true -> reexec_budget d lg s evs i = 0%nat.
Proof.
  intros d lg evs. induction evs as [|e evs IH]; intros s i H; cbn [reexec_budget]; [reflexivity|].
  apply no_restart_cons in H as [-> H]. now rewrite IH.
Qed.

(* with exactly one crash the budget of an index is its number of occurrences among the entries pending then *)
Lemma reexec_budget_one_crash : forall d lg evs1 evs2 i,
  no_restart evs1 = true -> no_restart evs2 = true ->
  reexec_budget d lg init (evs1 ++ Restart :: evs2) i = cnt i (pending (run d lg evs1)).
Proof.
  intros d lg evs1 evs2 i H1 H2. rewrite reexec_budget_app. cbn [reexec_budget is_restart].
  rewrite !reexec_budget_no_restart by assumption. unfold run. lia.
Qed.

Lemma runnable_mem : forall d s i, runnable d s i = true -> memN i (tasks s) = true.
Proof.
  intros d s i. unfold runnable. destruct d; [auto|].
  destruct (tasks s) as [|j r]; [discriminate|]. destruct (pending s); [|discriminate].
  intros H. cbn [memN existsb]. now rewrite H.
Qed.

(* the single worker runs the head of the queue, and only when nothing is pending *)
Lemma fifo_runnable : forall s i,
  runnable FifoWorker s i = true -> pending s = [] /\ exists r, tasks s = i :: r.
Proof.
  intros s i. unfold runnable. destruct (tasks s) as [|j r]; [discriminate|].
  destruct (pending s); [|discriminate]. intros ->%N.eqb_eq. eauto.
Qed.

(* with the single worker at most one entry is pending at any time: a crash re-executes at most one entry *)
Lemma fifo_pending_step : forall lg s e,
  (length (pending s) <= 1)%nat -> (length (pending (step FifoWorker lg s e)) <= 1)%nat.
Proof.
  intros lg s e H. destruct e as [idx|i|i|]; cbn [step]; [exact H| | |cbn; lia].
  - destruct (runnable FifoWorker s i) eqn:R; [|exact H].
    apply fifo_runnable in R as [-> _]. cbn. lia.
  - destruct (memN i (pending s)) eqn:M; [|exact H].
    rewrite (mem_single _ _ H M). cbn. rewrite N.eqb_refl. cbn. lia.
Qed.

(* For one index i of a log without duplicate indices: i is committed at most once, every committed
   occurrence is queued, pending or marked executed, and nothing uncommitted has been executed. *)
Definition counts_ok (lg : log) (s : state) (i : N) : Prop :=
  cnt i (committed s) = (cnt i (tasks s) + cnt i (pending s) + cnt i (executed s))%nat /\
  (cnt i (committed s) <= cnt i (indices lg) <= 1)%nat /\
  (cnt i (committed s) = 0 -> cnt i (trace s) = 0)%nat.

Lemma counts_init : forall lg i, NoDup (indices lg) -> counts_ok lg init i.
Proof.
  intros lg i Hnd. pose proof (proj1 (NoDup_count_occ N.eq_dec _) Hnd i). unfold counts_ok. cbn. lia.
Qed.

Lemma counts_pending_le1 : forall lg s i, counts_ok lg s i -> (cnt i (pending s) <= 1)%nat.
Proof. unfold counts_ok. lia. Qed.

(* what a commit starts was not committed before *)
Lemma cnt_uncommitted : forall lg s idx i, counts_ok lg s i ->
  (cnt i (uncommitted lg s idx) + cnt i (committed s) <= cnt i (indices lg))%nat.
Proof.
  intros lg s idx i (_ & Hlog & _). unfold uncommitted. rewrite cnt_filter.
  destruct (i <=? idx), (memN_spec i (committed s)); cbn [andb negb]; lia.
Qed.

(* what a restart starts again is what was queued or pending *)
Lemma cnt_unexecuted : forall lg s i, counts_ok lg s i ->
  cnt i (unexecuted lg s) = (cnt i (tasks s) + cnt i (pending s))%nat.
Proof.
  intros lg s i (Hpart & Hlog & _). unfold unexecuted. rewrite cnt_filter.
  destruct (memN_spec i (committed s)), (memN_spec i (executed s)); cbn [andb negb]; lia.
Qed.

(* Besides counts_ok a step preserves the balance  trace + tasks - committed  of every index, except that a
   restart adds the pending occurrences: they are started again although their exec step has run. *)
Lemma counts_step : forall d lg s e i, counts_ok lg s i ->
  let s' := step d lg s e in
  counts_ok lg s' i /\ (cnt i (executed s) <= cnt i (executed s'))%nat /\
  (cnt i (trace s') + cnt i (tasks s') + cnt i (committed s) =
   cnt i (trace s) + cnt i (tasks s) + cnt i (committed s') +
   if is_restart e then cnt i (pending s) else 0)%nat.
Proof.
  intros d lg s e i HK. pose proof HK as (? & ? & ?).
  unfold counts_ok. destruct e as [idx|j|j|]; cbn [step is_restart].
  - pose proof (cnt_uncommitted lg s idx i HK).
    cbn [committed tasks pending trace executed]. rewrite !count_occ_app. lia.
  - destruct (runnable d s j) eqn:R; [|auto with arith].
    pose proof (cnt_remove1 j i _ (runnable_mem _ _ _ R)).
    cbn [committed tasks pending trace executed]. rewrite !count_occ_app. lia.
  - destruct (memN j (pending s)) eqn:M; [|auto with arith].
    pose proof (cnt_remove1 j i _ M).
    cbn [committed tasks pending trace executed]. rewrite !count_occ_app. lia.
  - cbn [committed tasks pending trace executed count_occ]. rewrite cnt_unexecuted by exact HK. lia.
Qed.

Lemma counts_run_from : forall d lg i evs s, counts_ok lg s i ->
  let s' := run_from d lg s evs in
  counts_ok lg s' i /\
  (cnt i (trace s') + cnt i (tasks s') + cnt i (committed s) =
   cnt i (trace s) + cnt i (tasks s) + cnt i (committed s') + reexec_budget d lg s evs i)%nat /\
  (reexec_budget d lg s evs i <= restarts evs)%nat.
Proof.
  intros d lg i evs. induction evs as [|e evs IH]; intros s HK; cbn [run_from fold_left reexec_budget].
  - cbn. auto with arith.
  - destruct (counts_step d lg s e i HK) as (HK1 & _ & E1). destruct (IH _ HK1) as (HK2 & E2 & R2).
    pose proof (counts_pending_le1 _ _ _ HK). split; [exact HK2|].
    unfold run_from, restarts in *. cbn [filter]. destruct (is_restart e); cbn [length]; lia.
Qed.

(* each index is executed at most 1 + (number of restarts at which it was pending) times *)
Lemma counts_run : forall d lg evs i, NoDup (indices lg) ->
  counts_ok lg (run d lg evs) i /\
  (cnt i (trace (run d lg evs)) <= 1 + reexec_budget d lg init evs i)%nat /\
  (reexec_budget d lg init evs i <= restarts evs)%nat.
Proof.
  intros d lg evs i Hnd.
  destruct (counts_run_from d lg i evs init (counts_init lg i Hnd)) as (HK & E & R). fold (run d lg evs) in *.
  split; [exact HK|split; [|exact R]]. destruct HK as (_ & ? & _). cbn in E. lia.
Qed.

(* an entry marked executed is never executed again, whatever happens later (restarts included) *)
Lemma marked_never_again_from : forall d lg i evs s,
  counts_ok lg s i -> In i (executed s) -> cnt i (trace (run_from d lg s evs)) = cnt i (trace s).
Proof.
  intros d lg i evs. induction evs as [|e evs IH]; intros s HK Hin; [reflexivity|].
  destruct (counts_step d lg s e i HK) as (HK1 & Hx & E).
  apply (count_occ_In N.eq_dec) in Hin.
  cbn [run_from fold_left]. unfold run_from in IH. rewrite IH; auto.
  - destruct HK as (? & ? & _), HK1 as (? & ? & _). destruct (is_restart e); lia.
  - apply (count_occ_In N.eq_dec). lia.
Qed.

Definition prefix (p l : list N) : Prop := exists r, l = p ++ r.

Lemma prefix_nil : forall l, prefix [] l.
Proof. intros l. now exists l. Qed.

Lemma prefix_app : forall a p l, prefix p l -> prefix (a ++ p) (a ++ l).
Proof. intros a p l [r ->]. exists r. apply app_assoc. Qed.

Lemma prefix_trans : forall a b c, prefix a b -> prefix b c -> prefix a c.
Proof. intros a b c [r ->] [r' ->]. exists (r ++ r'). symmetry. apply app_assoc. Qed.

(* the prefixes of one list are totally ordered *)
Lemma prefix_comparable : forall (a b l : list N), prefix a l -> prefix b l -> prefix a b \/ prefix b a.
Proof.
  induction a as [|x a IH]; intros b l [ra Ha] [rb Hb]; [left; apply prefix_nil|].
  destruct b as [|y b]; [right; apply prefix_nil|].
  subst l. injection Hb as <- Hb.
  destruct (IH b (a ++ ra)) as [H|H]; [now exists ra|now exists rb|left|right];
    exact (prefix_app [x] _ _ H).
Qed.

Lemma sorted_app_inv : forall (a b : list N),
  StronglySorted N.lt (a ++ b) ->
  StronglySorted N.lt a /\ StronglySorted N.lt b /\ (forall x y, In x a -> In y b -> x < y).
Proof.
  induction a as [|x a IH]; intros b H; cbn [app] in *.
  - repeat split; [constructor|exact H|intros ? ? []].
  - apply StronglySorted_inv in H as [Hs Hall]. destruct (IH _ Hs) as [Ha [Hb Hab]].
    rewrite Forall_app in Hall. destruct Hall as [Hxa Hxb].
    repeat split; [constructor; auto|exact Hb|].
    intros u v [->|Hu] Hv; [|auto]. rewrite Forall_forall in Hxb. auto.
Qed.

Lemma sorted_prefix : forall p l, prefix p l -> StronglySorted N.lt l -> StronglySorted N.lt p.
Proof. intros p l [r ->] H. now apply sorted_app_inv in H. Qed.

Lemma sorted_NoDup : forall l, StronglySorted N.lt l -> NoDup l.
Proof.
  induction l as [|x l IH]; intros H; [constructor|].
  apply StronglySorted_inv in H as [Hs Hall]. constructor; [|auto].
  intros Hin. rewrite Forall_forall in Hall. specialize (Hall _ Hin). lia.
Qed.

Lemma sorted_le_snoc : forall l x,
  StronglySorted N.le l -> (forall t, In t l -> t <= x) -> StronglySorted N.le (l ++ [x]).
Proof.
  induction l as [|a l IH]; intros x Hs Hb; cbn [app].
  - constructor; constructor.
  - apply StronglySorted_inv in Hs as [Hs Ha]. constructor.
    + apply IH; auto. intros t Ht. apply Hb. now right.
    + rewrite Forall_app. split; [exact Ha|]. constructor; [|constructor]. apply Hb. now left.
Qed.

Lemma sorted_filter_le_prefix : forall idx l,
  StronglySorted N.lt l -> prefix (filter (fun i => i <=? idx) l) l.
Proof.
  intros idx l. induction l as [|x l IH]; intros H; cbn [filter]; [apply prefix_nil|].
  apply StronglySorted_inv in H as [Hs Hall]. destruct (N.leb_spec x idx) as [Hle|Hgt].
  - exact (prefix_app [x] _ _ (IH Hs)).
  - rewrite filter_none; [apply prefix_nil|].
    intros y Hy. rewrite Forall_forall in Hall. specialize (Hall _ Hy). lia.
Qed.

Lemma sorted_app_not_mem : forall a b y, StronglySorted N.lt (a ++ b) -> In y b -> memN y a = false.
Proof.
  intros a b y (_ & _ & Hlt)%sorted_app_inv Hy. destruct (memN y a) eqn:M; [|reflexivity].
  apply memN_In in M. specialize (Hlt _ _ M Hy). lia.
Qed.

(* a commit extends the committed prefix of a sorted log by the next segment of it *)
Lemma uncommitted_prefix : forall lg s idx,
  StronglySorted N.lt (indices lg) -> prefix (committed s) (indices lg) ->
  prefix (committed s ++ uncommitted lg s idx) (indices lg).
Proof.
  intros lg s idx Hs [rest Heq]. unfold uncommitted. rewrite Heq in *.
  apply prefix_app. rewrite filter_app, filter_none.
  - erewrite filter_ext_in; [apply sorted_filter_le_prefix; now apply sorted_app_inv in Hs|].
    intros y Hy. cbn beta. rewrite (sorted_app_not_mem _ _ y Hs Hy). apply andb_true_r.
  - intros x Hx%memN_In. rewrite Hx. apply andb_false_r.
Qed.

(* a restart starts again exactly the entries that were pending or queued, in the same order *)
Lemma unexecuted_split : forall lg s,
  StronglySorted N.lt (indices lg) -> prefix (committed s) (indices lg) ->
  committed s = executed s ++ pending s ++ tasks s ->
  unexecuted lg s = pending s ++ tasks s.
Proof.
  intros lg s Hs [rest Hpre] Hsplit. unfold unexecuted. rewrite Hpre in *.
  rewrite filter_app, (filter_none _ rest), app_nil_r.
  2:{ intros x Hx. now rewrite (sorted_app_not_mem _ _ x Hs Hx). }
  apply sorted_app_inv in Hs as (Hc & _). rewrite Hsplit in Hc |- *.
  rewrite filter_app, filter_none, BytesProofs.filter_all; [reflexivity| |].
  - intros x Hx. rewrite (sorted_app_not_mem _ _ x Hc Hx). apply andb_true_iff. split; [|reflexivity].
    apply memN_In, in_or_app. now right.
  - intros x Hx%memN_In. rewrite Hx. apply andb_false_r.
Qed.

Record ordered (lg : log) (s : state) : Prop := {
  ordered_split : committed s = trace s ++ tasks s;
  ordered_prefix : prefix (committed s) (indices lg) }.

Lemma ordered_init : forall lg, ordered lg init.
Proof. intros lg. constructor; [reflexivity|apply prefix_nil]. Qed.

(* an event preserves the order invariant as soon as a run step takes the HEAD of the started entries *)
Lemma ordered_step : forall d lg s e,
  StronglySorted N.lt (indices lg) -> ordered lg s -> is_restart e = false ->
  (forall i, e = RunTask i -> runnable d s i = true -> exists r, tasks s = i :: r) ->
  ordered lg (step d lg s e).
Proof.
  intros d lg s e Hs [Hsplit Hpre] Hnr Hhead.
  destruct e as [idx|i|i|]; cbn [step]; try discriminate.
  - constructor; cbn [committed trace tasks].
    + rewrite Hsplit. symmetry. apply app_assoc.
    + now apply uncommitted_prefix.
  - destruct (runnable d s i) eqn:R; [|now constructor].
    destruct (Hhead i eq_refl R) as [r Hr].
    constructor; cbn [committed trace tasks]; [|exact Hpre].
    rewrite Hsplit, Hr. cbn [remove1]. rewrite N.eqb_refl. now rewrite <- app_assoc.
  - destruct (memN i (pending s)); now constructor.
Qed.

Lemma ordered_conclusion : forall lg s,
  StronglySorted N.lt (indices lg) -> ordered lg s ->
  prefix (trace s) (indices lg) /\ StronglySorted N.lt (trace s) /\ NoDup (trace s) /\
  committed s = trace s ++ tasks s.
Proof.
  intros lg s Hs [Hsplit Hpre].
  assert (Hp : prefix (trace s) (indices lg)).
  { apply prefix_trans with (committed s); [now exists (tasks s)|exact Hpre]. }
  pose proof (sorted_prefix _ _ Hp Hs). auto using sorted_NoDup.
Qed.

Lemma ordered_run_fifo : forall lg evs s,
  StronglySorted N.lt (indices lg) -> ordered lg s -> no_restart evs = true ->
  ordered lg (run_from FifoWorker lg s evs).
Proof.
  intros lg evs. induction evs as [|e evs IH]; intros s Hs HO Hnr; [exact HO|].
  apply no_restart_cons in Hnr as [H1 H2]. apply IH; auto.
  apply ordered_step; auto. intros i _. apply fifo_runnable.
Qed.

(* SpawnPerEntry under the pacing discipline: at most one entry is ever started and not yet run *)
Lemma ordered_run_paced : forall lg evs s,
  StronglySorted N.lt (indices lg) -> ordered lg s -> (length (tasks s) <= 1)%nat ->
  no_restart evs = true -> paced lg s evs ->
  ordered lg (run_from SpawnPerEntry lg s evs).
Proof.
  intros lg evs. induction evs as [|e evs IH]; intros s Hs HO Hlen Hnr Hp; [exact HO|].
  apply no_restart_cons in Hnr as [H1 H2]. destruct Hp as [Hp1 Hp2].
  apply IH; auto.
  - apply ordered_step; auto. intros i _ R. exists []. exact (mem_single _ _ Hlen R).
  - destruct e as [idx|i|i|]; cbn [step]; try discriminate.
    + destruct Hp1 as [Ht Hl]. cbn [tasks]. now rewrite Ht.
    + destruct (runnable SpawnPerEntry s i) eqn:R; auto.
      cbn [tasks]. rewrite (mem_single _ _ Hlen R). cbn [remove1]. rewrite N.eqb_refl. cbn. lia.
    + destruct (memN i (pending s)); auto.
Qed.

(* The single worker across restarts: the log is  executed ++ pending ++ tasks ++ (not yet committed), and
   everything in the trace is marked executed except possibly the entry at the head of pending ++ tasks
   (pending now, or queued again after a crash).  So a re-execution repeats that entry before anything later
   runs, and the trace stays weakly increasing. *)
Record worker_ok (lg : log) (s : state) : Prop := {
  worker_prefix : prefix (committed s) (indices lg);
  worker_split : committed s = executed s ++ pending s ++ tasks s;
  worker_pend : (length (pending s) <= 1)%nat;
  worker_sorted : StronglySorted N.le (trace s);
  worker_trace : incl (trace s) (executed s ++ firstn 1 (pending s ++ tasks s)) }.

Lemma worker_init : forall lg, worker_ok lg init.
Proof.
  intros lg. constructor; cbn; auto using prefix_nil, incl_nil_l. constructor.
Qed.

Lemma worker_step : forall lg s e,
  StronglySorted N.lt (indices lg) -> worker_ok lg s -> worker_ok lg (step FifoWorker lg s e).
Proof.
  intros lg s e Hs [Hpre Hsplit Hpend Hsorted Htrace].
  pose proof (fifo_pending_step lg s e Hpend) as Hpend'.
  destruct e as [idx|i|i|]; cbn [step] in *.
  - constructor; cbn [committed tasks pending trace executed]; auto using uncommitted_prefix.
    + rewrite Hsplit. now rewrite <- !app_assoc.
    + intros t [Ht|Ht]%Htrace%in_app_or; apply in_or_app; [now left|right].
      rewrite app_assoc. destruct (pending s ++ tasks s); [destruct Ht|exact Ht].
  - destruct (runnable FifoWorker s i) eqn:R; [|now constructor].
    apply fifo_runnable in R as [P [r T]]. rewrite P, T in *.
    cbn [remove1 app firstn] in *. rewrite N.eqb_refl.
    constructor; cbn [committed tasks pending trace executed app firstn]; auto.
    + (* the marked entries precede the head i of the queue in the log *)
      apply sorted_le_snoc; auto. intros t [Ht|[<-|[]]]%Htrace%in_app_or; [|apply N.le_refl].
      apply sorted_prefix in Hpre; [|exact Hs]. rewrite Hsplit in Hpre.
      apply sorted_app_inv in Hpre as (_ & _ & Hlt). apply N.lt_le_incl, Hlt; [exact Ht|now left].
    + apply incl_app; [exact Htrace|]. intros t [<-|[]]. apply in_or_app. right. now left.
  - destruct (memN i (pending s)) eqn:M; [|now constructor].
    rewrite (mem_single _ _ Hpend M) in *. cbn [remove1 app firstn] in *. rewrite N.eqb_refl in *.
    constructor; cbn [committed tasks pending trace executed app]; auto.
    + rewrite Hsplit. now rewrite <- app_assoc.
    + intros t Ht%Htrace. apply in_or_app. now left.
  - rewrite (unexecuted_split lg s Hs Hpre Hsplit).
    constructor; cbn [committed tasks pending trace executed app]; auto.
Qed.
