(* PstepOpsProofs.v — C13 for all query kinds.  First layer: every DbImpl-level operation used by the
   query layer, executed in a state satisfying the joint invariant `Inv` (C09 / C10 / C11 + graph wf),
   IS a sequence of the mutation primitives `pstep` of C13 with their side conditions met:
     - a replaced / removed indexed pair is listed in its index        (idx_has: from idx_exact, C11)
     - a slot handed out by the allocator has no values and no alias   (vals_live C09, alias_nodes C10)
     - the keys appended to a fresh element are distinct               (query_ok, C09's quantifier)
     - remove_node_db removes every incident edge before the node      (graph wf, C08).
   `reach d d1` packages "d1 is reached from d by primitives" so that it composes along folds without
   knowing the final capacity in advance: capacities only grow, and the decomposition itself holds
   whenever the C13 well-formedness `db_ok d` holds and the final capacity fits i64.
   Second layer (section QueryReach): every mutating query, executed in a state satisfying `Inv`,
   decomposes into the primitives — whatever its outcome: the partial state left by a failing query is
   reached by primitives too; same for every prefix of a transaction.  "Reached from d by primitives"
   is kept by every element operation, so the case analysis over the query kinds is that of
   QueryInvProofs.v (exec_mut_step_closed). *)
From Agdb Require Import Bytes BytesProofs DbValue Graph DbModel Search Queries Revisions
  GraphSim GraphWf GraphLive DbCascadeProofs AssocProofs ImapProofs DbFrameProofs AliasProofs
  DbValueEqProofs KvProofs KvDbProofs KvSelectProofs
  IndexProofs IndexDbProofs IndexDb2Proofs IndexDb3Proofs IndexDb4Proofs IndexInvProofs
  DbInvProofs QStepProofs QueryInvProofs.
From Agdb Require Import UndoBase UndoObs UndoAlias UndoKv UndoGraphBase UndoGraph UndoGraphEdge
  UndoGraphOps UndoAbs UndoDb UndoStepsAlias UndoStepsKv UndoStepsKv2 UndoStepsGraph UndoBridge
  UndoMain UndoFinal UndoLift UndoRemoveNode WfRepProofs.
From Coq Require Import Permutation ZifyBool ZifyNat ZifyN.
Ltac Zify.zify_post_hook ::= Z.div_mod_to_equations.
Open Scope Z_scope.

(* raw facts about the cascade of remove_node_db (no invariant needed) *)
Lemma cap_remove_node_db d n alias : capacity (gr (fst (remove_node_db d n alias))) = capacity (gr d).
Proof.
  apply (remove_node_db_keeps (fun a => capacity (gr a) = capacity (gr d))).
  - destruct alias; reflexivity.
  - intros a ei f t g _ Ha E. rewrite gr_remove_all_values. cbn [gr push_undo with_gr].
    now rewrite (cap_remove_edge _ _ _ E).
  - intros a g Ha E. cbn [gr push_undo with_gr]. now rewrite (cap_remove_node _ _ _ E).
Qed.

(* the indexed pairs of the node itself survive the cascade over its edges *)
Lemma remove_node_db_idx_has_all d n alias :
  (forall x, In x (node_edges d n) -> same_slot (ne_id x) n = false) ->
  idx_has_all d n -> idx_has_all (fst (remove_node_db d n alias)) n.
Proof.
  intros Hs Ha. apply (remove_node_db_keeps (fun a => idx_has_all a n)).
  - apply (idx_has_all_frame d); [destruct alias; reflexivity|destruct alias; reflexivity|exact Ha].
  - intros a ei f t g Hin Ha1 _. apply idx_has_all_after_remove_all.
    + destruct alias; exact (Hs _ Hin).
    + now apply (idx_has_all_frame a).
  - intros a g Ha1 _. now apply (idx_has_all_frame a).
Qed.

Section Ops.
  Variable rv : revision.
  Hypothesis Hrv : fix_rollback_replace rv = true.
  Hypothesis Hsteal : fix_alias_steal_undo rv = true.

  Notation psteps := (UndoMain.psteps rv).
  Notation pstep := (UndoMain.pstep rv).

  Definition reach (d d1 : db) : Prop :=
    capacity (gr d) <= capacity (gr d1) /\
    (db_ok d -> capacity (gr d1) <= two63z -> psteps d d1).

  Lemma reach_refl d : reach d d.
  Proof. split; [lia|]. intros _ _. apply pss_nil. Qed.

  Lemma reach_psteps d d1 : psteps d d1 -> reach d d1.
  Proof. intros H. split; [exact (psteps_cap rv Hsteal d d1 H)|]. intros _ _. exact H. Qed.

  Lemma reach_pstep d d1 : pstep d d1 -> reach d d1.
  Proof. intros H. apply reach_psteps. now apply (psteps_one rv). Qed.

  Lemma reach_trans d a b : reach d a -> reach a b -> reach d b.
  Proof.
    intros [C1 H1] [C2 H2]. split; [lia|]. intros Hok Hb.
    assert (Ha : psteps d a) by (apply H1; [exact Hok|lia]).
    destruct (psteps_ok rv Hrv Hsteal d a Hok Ha) as [Hoka _]; [lia|].
    exact (psteps_trans rv d a b Ha (H2 Hoka Hb)).
  Qed.

  Lemma insert_kvs_replace_psteps a id kvs :
    idx_inv a -> live a id = true -> psteps a (insert_kvs_replace a id kvs).
  Proof.
    intros Ha Hl. unfold insert_kvs_replace.
    assert (G : forall kvs b, idx_inv b -> live b id = true -> psteps a b ->
                psteps a (fold_left (fun a x => insert_or_replace_key_value a id x) kvs b)).
    { clear kvs. induction kvs as [|x r IH]; intros b Hb Hlb Hp; cbn [fold_left]; [exact Hp|].
      apply IH.
      - now apply insert_or_replace_key_value_inv.
      - unfold live. rewrite (proj1 (insert_or_replace_key_value_ga b id x)). exact Hlb.
      - eapply pss_snoc; [exact Hp|]. apply ps_insert_or_replace. intros old l' Hr.
        destruct (KvProofs.replace_first_some _ _ _ _ Hr) as (l1 & l2 & El & _).
        apply idx_has_of_exact; [apply Hb|exact Hlb|]. rewrite El. apply in_or_app. right. now left. }
    apply G.
    - now apply reserve_kv_inv.
    - exact Hl.
    - apply (psteps_one rv). apply ps_reserve.
  Qed.

  Lemma insert_kvs_new_psteps a id kvs :
    keys_ok (kvs_get (vals a) id ++ kvs) -> psteps a (insert_kvs_new a id kvs).
  Proof.
    intros Hk. unfold insert_kvs_new.
    assert (G : forall kvs b, keys_ok (kvs_get (vals b) id ++ kvs) -> psteps a b ->
                psteps a (fold_left (fun a x => insert_key_value a id x) kvs b)).
    { clear kvs Hk. induction kvs as [|x r IH]; intros b Hb Hp; cbn [fold_left]; [exact Hp|].
      apply IH.
      - rewrite insert_key_value_vals, UndoKv.kvs_get_insert_value, same_slot_refl, <- app_assoc. exact Hb.
      - eapply pss_snoc; [exact Hp|]. apply ps_insert_key_value.
        unfold keys_ok in Hb. rewrite map_app in Hb. cbn [map] in Hb. apply NoDup_remove_2 in Hb.
        unfold UndoKv.has_key. intros Hin. apply Hb. apply in_or_app. now left. }
    apply G.
    - rewrite reserve_kv_vals, kvs_get_reserve. exact Hk.
    - apply (psteps_one rv). apply ps_reserve.
  Qed.

  Lemma remove_keys_pstep a id keys : Inv a -> live a id = true -> pstep a (snd (remove_keys a id keys)).
  Proof. intros Ha Hl. apply ps_remove_keys. now apply idx_has_all_of_Inv. Qed.

  (* a slot handed out by the allocator carries no alias *)
  Lemma fresh_no_alias a id : Inv a -> live a id = false -> imap_key (aliases a) id = None.
  Proof.
    intros (_ & Hb & Hn & _) Hl. destruct (imap_key (aliases a) id) as [al|] eqn:E; [|reflexivity].
    exfalso. unfold imap_key in E. apply (proj1 Hb al id) in E.
    destruct (alias_nodes_live a al id Hn E) as [_ Hl']. congruence.
  Qed.

  Lemma insert_node_db_fresh a : Inv a -> live a (fst (insert_node_db a)) = false.
  Proof.
    intros Ha. destruct (insert_node_db_fields a) as (_ & _ & _ & _ & Ff). rewrite Ff.
    pose proof (insert_node_live (gr a) (proj1 Ha)) as L. destruct (insert_node (gr a)) as [x g'].
    cbn [fst]. unfold live. tauto.
  Qed.

  (* DbImpl's "new node (+ alias) + values" step of insert nodes / insert values *)
  Lemma insert_values_new_psteps a acc alias kvs :
    Inv a -> keys_distinct kvs ->
    match alias with Some al => imap_value (aliases a) al = None | None => True end ->
    psteps a (fst (insert_values_new a acc alias kvs)).
  Proof.
    intros Ha Hk Hal. unfold insert_values_new.
    pose proof (insert_node_db_Inv a Ha) as H. pose proof (insert_node_db_fresh a Ha) as Hf.
    destruct (insert_node_db_fields a) as (Fa & Fv & _).
    destruct (insert_node_db a) as [id a1] eqn:E. cbn [fst snd] in *.
    destruct H as (Ha1 & Hp & Hl & He & Hm).
    set (a2 := match alias with Some al => insert_new_alias a1 id al | None => a1 end).
    assert (H2 : psteps a a2 /\ vals a2 = vals a1).
    { unfold a2. destruct alias as [al|].
      - split; [|reflexivity]. eapply pss_snoc; [apply (psteps_one rv), (ps_insert_node rv a id a1 E)|].
        apply ps_insert_new_alias; rewrite Fa; [exact Hal|now apply fresh_no_alias].
      - split; [|reflexivity]. apply (psteps_one rv), (ps_insert_node rv a id a1 E). }
    destruct H2 as [Hp2 Hv2]. cbn [fst].
    eapply (psteps_trans rv); [exact Hp2|]. apply insert_kvs_new_psteps.
    rewrite Hv2, He. cbn [app]. now apply keys_distinct_iff.
  Qed.

  Lemma insert_edge_db_psteps a f t id a1 kvs :
    Inv a -> live a f = true -> live a t = true -> insert_edge_db a f t = ROk (id, a1) -> keys_distinct kvs ->
    psteps a (insert_kvs_new a1 id kvs).
  Proof.
    intros Ha Hf Ht Hi Hk.
    destruct (insert_edge_db_Inv a f t id a1 Ha Hf Ht Hi) as (_ & _ & _ & He & _).
    destruct (insert_edge_db_fields a f t id a1 Hi) as (g' & Eg & _).
    destruct (insert_edge_live (gr a) f t id g' (proj1 Ha) Hf Ht Eg) as (_ & _ & Hfp & Htp & _).
    eapply (psteps_trans rv); [apply (psteps_one rv), (ps_insert_edge rv a f t id a1 Hfp Htp Hi)|].
    apply insert_kvs_new_psteps. rewrite He. cbn [app]. now apply keys_distinct_iff.
  Qed.

  Lemma node_edges_other_slot a n x :
    wf (gr a) -> 0 < n -> is_node (gr a) n = true -> In x (node_edges a n) -> same_slot (ne_id x) n = false.
  Proof.
    intros Hwf Hn Hnode Hx. destruct (node_edges_edge a n x Hwf Hn Hnode Hx) as [Hneg He]. unfold ne_id.
    destruct (same_slot_spec (fst (fst x)) n) as [Hs|]; [|reflexivity].
    exfalso. pose proof (wf_node_edge_disjoint (gr a) n Hwf Hnode) as Hd.
    assert (En : fst (fst x) = - n) by lia. rewrite En, is_edge_opp in He. congruence.
  Qed.

  Lemma node_edges_live a n x :
    wf (gr a) -> 0 < n -> is_node (gr a) n = true -> In x (node_edges a n) -> live a (ne_id x) = true.
  Proof.
    intros Hwf Hn Hnode Hx. destruct (node_edges_edge a n x Hwf Hn Hnode Hx) as [Hneg He]. unfold ne_id.
    unfold live, graph_index. destruct (Z.ltb_spec (fst (fst x)) 0); [exact He|lia].
  Qed.

  Lemma remove_node_full_reach a n alias d0 :
    Inv a -> 0 < n -> live a n = true ->
    match alias with Some al => imap_value (aliases a) al = Some n | None => True end ->
    remove_node_db a n alias = (d0, None) ->
    reach a (remove_all_values d0 n).
  Proof.
    intros Ha Hn Hl Hal E.
    assert (Hnode : is_node (gr a) n = true) by (rewrite <- live_pos_node by exact Hn; exact Hl).
    split.
    - pose proof (cap_remove_node_db a n alias) as C. rewrite E in C. cbn [fst] in C.
      rewrite gr_remove_all_values, C. lia.
    - intros Hok _.
      destruct (remove_node_db_psteps rv Hrv Hsteal a n alias Hok Hn Hnode Hal) as (d1 & E1 & Hp & _).
      { intros x Hx. apply idx_has_all_of_Inv; [exact Ha|]. now apply (node_edges_live a n x (proj1 Ha)). }
      rewrite E in E1. injection E1 as <-.
      eapply pss_snoc; [exact Hp|]. apply ps_remove_all_values.
      replace d0 with (fst (remove_node_db a n alias)) by now rewrite E.
      apply remove_node_db_idx_has_all.
      + intros x Hx. now apply (node_edges_other_slot a n x (proj1 Ha)).
      + now apply idx_has_all_of_Inv.
  Qed.

  Lemma remove_id_reach a id : Inv a -> reach a (fst (remove_id a id)).
  Proof.
    intros Ha. unfold remove_id. destruct (graph_index (gr a) id) eqn:Hg; [|apply reach_refl].
    destruct (Z.ltb_spec 0 id) as [Hp|Hp].
    - destruct (remove_node_db_Inv a id (imap_key (aliases a) id) Ha Hp Hg) as (d0 & E & _).
      { intros x. apply drop_alias_of_id_gone. apply Ha. }
      rewrite E. cbn [fst]. apply (remove_node_full_reach a id (imap_key (aliases a) id) d0 Ha Hp Hg); [|exact E].
      destruct (imap_key (aliases a) id) as [al|] eqn:Ek; [|exact I].
      unfold imap_key in Ek. apply (proj1 (proj1 (proj2 Ha)) al id). exact Ek.
    - assert (Hneg : id < 0).
      { destruct (Z.eq_dec id 0) as [->|]; [cbn in Hg; discriminate|lia]. }
      unfold remove_edge_db.
      destruct (remove_edge_live (gr a) id (proj1 Ha) Hneg) as (g2 & E2 & _ & _). rewrite E2. cbn [fst].
      set (d1 := push_undo (with_gr a g2) (CInsertEdge (edge_from (gr a) id) (edge_to (gr a) id))).
      apply reach_psteps. eapply pss_snoc; [apply (psteps_one rv)|].
      + apply (ps_remove_edge rv a (- id) d1); [lia| |].
        * rewrite is_edge_opp. unfold graph_index in Hg. destruct (Z.ltb_spec id 0); [exact Hg|lia].
        * rewrite Z.opp_involutive. unfold remove_edge_db. rewrite E2. reflexivity.
      + apply ps_remove_all_values. apply (idx_has_all_frame a); [reflexivity|reflexivity|].
        now apply idx_has_all_of_Inv.
  Qed.

  Lemma remove_q_reach a q : Inv a -> reach a (fst (remove_q a q)).
  Proof.
    intros Ha. destruct q as [id|al]; [now apply remove_id_reach|]. cbn [remove_q].
    destruct (imap_value (aliases a) al) as [id|] eqn:Ea; [|apply reach_refl].
    destruct (alias_nodes_live a al id (proj1 (proj2 (proj2 Ha))) Ea) as [Hp Hl].
    destruct (remove_node_db_Inv a id (Some al) Ha Hp Hl) as (d0 & E & _).
    { intros x. apply drop_alias_named_gone; [apply Ha|exact Ea]. }
    rewrite E. cbn [fst]. now apply (remove_node_full_reach a id (Some al) d0 Ha Hp Hl Ea E).
  Qed.
End Ops.

Section QueryReach.
  Variable rv : revision.
  Hypothesis Hrv : fix_rollback_replace rv = true.
  Hypothesis Hsteal : fix_alias_steal_undo rv = true.
  Hypothesis Hfix : fix_alias_nodes_only rv = true.
  Hypothesis Hnia : fix_nodes_ids_alias rv = true.
  Hypothesis Hsearch : search_live rv.

  Notation reach := (reach rv).
  Notation pstep := (UndoMain.pstep rv).

  Let rtrans := reach_trans rv Hrv Hsteal.

  Lemma then_pstep d a b : pstep a b -> reach d a -> reach d b.
  Proof. intros Hp Hr. exact (rtrans d a b Hr (reach_pstep rv Hsteal a b Hp)). Qed.

  Theorem exec_in_txn_reach d q : query_ok q -> Inv d -> reach d (fst (exec_in_txn rv d q)).
  Proof.
    intros Hq Hd. destruct (liftable q) eqn:El.
    (* the liftable kinds decompose in any state, without the repair of InsertAliases (UndoLift.v) *)
    { destruct (exec_in_txn_light rv Hsteal d q El) as [Hp _]. now apply reach_psteps. }
    rewrite exec_in_txn_db. destruct (is_mutating q); [|apply reach_refl].
    apply (exec_mut_step_closed rv Hsearch (reach d));
      [..|intros ids als ->; discriminate El|exact Hq|split; [exact Hd|apply reach_refl]].
    (* the operations, in the order of section Closed *)
    - intros a id kvs Ha Hl Hr. apply (rtrans d a _ Hr), reach_psteps; [exact Hsteal|].
      apply insert_kvs_replace_psteps; [apply Ha|exact Hl].
    - intros a acc alias kvs Ha Hk Hal Hr. apply (rtrans d a _ Hr), reach_psteps; [exact Hsteal|].
      now apply insert_values_new_psteps.
    - intros a f t id a1 kvs Ha Hf Ht Hi Hk Hr. apply (rtrans d a _ Hr), reach_psteps; [exact Hsteal|].
      now apply (insert_edge_db_psteps rv a f t id a1 kvs).
    - intros a id al _ _ _. rewrite Hnia. apply then_pstep, ps_insert_alias.
    - intros a id al _ _ _. apply then_pstep, ps_insert_alias.
    - intros a al _. apply then_pstep, ps_remove_alias.
    - intros a id keys Ha Hl. now apply then_pstep, remove_keys_pstep.
    - intros a id Ha Hr. exact (rtrans d a _ Hr (remove_id_reach rv Hrv Hsteal a id Ha)).
    - intros a x Ha Hr. exact (rtrans d a _ Hr (remove_q_reach rv Hrv Hsteal a x Ha)).
    - intros a key n a1 _ Hi. now apply then_pstep, (ps_insert_index rv a key n).
    - intros a key _. apply then_pstep, ps_remove_index.
  Qed.

  Theorem txn_run_reach qs : forall d acc,
    Forall query_ok qs -> Inv d -> reach d (fst (fst (txn_run rv d qs acc))).
  Proof.
    induction qs as [|q r IH]; intros d acc Hq Hd; cbn [txn_run]; [apply reach_refl|].
    inversion Hq as [|? ? Hq1 Hq2]; subst.
    pose proof (exec_in_txn_reach d q Hq1 Hd) as Hr. pose proof (exec_in_txn_Inv rv Hsearch Hfix d q Hq1 Hd) as Hi.
    destruct (exec_in_txn rv d q) as [d1 res]. cbn [fst] in *.
    destruct (is_failure res); [exact Hr|]. exact (rtrans d d1 _ Hr (IH d1 (res :: acc) Hq2 Hi)).
  Qed.
End QueryReach.
