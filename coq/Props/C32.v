(* C32 — A failed write never corrupts or loses later committed work.
   The statements, each proved in a few lines from the theorems of theories/CrashProofs.v and CrashGuardProofs.v
   (on top of C01).

   FULL STATEMENT: for every history and every single injected write/resize failure — (a) the failing
   query returns an error and the observable state is unchanged, (b) the storage nesting counter is back
   at 0, hence (c) every later successful outermost transaction flushes and is present after close +
   reopen, (d) the reopened file loads.
   STATUS ON /repo: (a)–(c) are VIOLATED by the code (known finding, see known_findings.txt): every `?`
   early return between Storage::transaction() and commit() (storage.rs, vec.rs, multi_map.rs, graph.rs,
   db.rs) skips the commit, so the counter stays >= 1, and the in-memory tables have already been
   changed.  What is proved below is the exact consequence of such a leak (the defect, for ALL later
   histories), that the property holds whenever the counter is restored, and (d). *)
From Agdb Require Import Bytes FileWal FileWalProofs TxnNesting CrashProofs CrashGuardProofs.
Open Scope nat_scope.

(* the defect, characterised: with the counter left at n >= 1 no later operation flushes, and closing
   or crashing at ANY point returns the file to the content of the last flush *)
Theorem C32_leak_refuted_all_later_work_lost :
  forall (d0 : bytes) (n : nat) (later : list sevent) (k j : nat),
    1 <= n -> stays_open n later = true -> wp d0 (sd_ops n later) ->
    let st := {| data := d0; wal := [] |} in
    recover walrev_fixed (crash st (trace walrev_fixed st (sd_ops n later)) k j) = {| data := d0; wal := [] |}.
Proof. exact leaked_transaction_loses_later_work. Qed.
Print Assumptions C32_leak_refuted_all_later_work_lost.

(* (c) under the hypothesis that the counter is back at 0 (the known class excluded): a completed
   outermost transaction ends with a flush, and flushed work survives close + reopen *)
Theorem C32_flushed_work_is_kept_partial :
  forall (d0 : bytes) (ops : list op),
    wp d0 (ops ++ [OFlush]) ->
    let st := {| data := d0; wal := [] |} in
    let fin := run_calls st (trace walrev_fixed st (ops ++ [OFlush])) in
    recover walrev_fixed fin = {| data := data fin; wal := [] |}.
Proof.
  (* the flush has cleared the log, whatever came before it *)
  intros d0 ops _ st fin. subst fin. rewrite trace_app, run_calls_app. reflexivity.
Qed.
Print Assumptions C32_flushed_work_is_kept_partial.

(* (d) whatever failed, the reopened file is the file of some completed flush *)
Theorem C32_reopen_is_a_flush_point :
  forall (d0 : bytes) (ops : list op) (k j : nat),
    wp d0 ops ->
    let st := {| data := d0; wal := [] |} in
    In (data (recover walrev_fixed (crash st (trace walrev_fixed st ops) k j))) (d0 :: flush_points st ops).
Proof. exact crash_recovers_a_flush_point. Qed.
Print Assumptions C32_reopen_is_a_flush_point.

(* the three statements for the recovery WITH the position guard of apply_wal_record (recover_g; None = error):
   the guard never fires on these logs, so nothing changes *)
Theorem C32_leak_refuted_all_later_work_lost_guarded :
  forall (d0 : bytes) (n : nat) (later : list sevent) (k j : nat),
    1 <= n -> stays_open n later = true -> wp d0 (sd_ops n later) ->
    let st := {| data := d0; wal := [] |} in
    recover_g walrev_fixed (crash st (trace walrev_fixed st (sd_ops n later)) k j) = Some {| data := d0; wal := [] |}.
Proof.
  intros d0 n later k j Hn Hs H st. subst st. rewrite guarded_cut by exact H. f_equal.
  now apply leaked_transaction_loses_later_work.
Qed.
Print Assumptions C32_leak_refuted_all_later_work_lost_guarded.

Theorem C32_flushed_work_is_kept_guarded_partial :
  forall (d0 : bytes) (ops : list op),
    wp d0 (ops ++ [OFlush]) ->
    let st := {| data := d0; wal := [] |} in
    let fin := run_calls st (trace walrev_fixed st (ops ++ [OFlush])) in
    recover_g walrev_fixed fin = Some {| data := data fin; wal := [] |}.
Proof.
  intros d0 ops _ st fin. subst fin. rewrite trace_app, run_calls_app. reflexivity.
Qed.
Print Assumptions C32_flushed_work_is_kept_guarded_partial.

Theorem C32_reopen_is_a_flush_point_guarded :
  forall (d0 : bytes) (ops : list op) (k j : nat),
    wp d0 ops ->
    let st := {| data := d0; wal := [] |} in
    exists r, recover_g walrev_fixed (crash st (trace walrev_fixed st ops) k j) = Some r /\
              wal r = [] /\ In (data r) (d0 :: flush_points st ops).
Proof. exact crash_recovers_a_flush_point_g. Qed.
Print Assumptions C32_reopen_is_a_flush_point_guarded.

(* non-vacuity of the leak theorem: a later, well-nested transaction under a leaked counter *)
Example C32_leak_nonvacuous :
  let later := [SBegin; SData (OWrite 0 [x07]); SCommit; SBegin; SData (OResize 3); SCommit] in
  stays_open 1 later = true /\ sd_ops 1 later = [OWrite 0 [x07]; OResize 3] /\
  sd_ops 0 later = [OWrite 0 [x07]; OFlush; OResize 3; OFlush].
Proof. vm_compute. repeat split. Qed.
Print Assumptions C32_leak_nonvacuous.
