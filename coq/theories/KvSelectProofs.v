(* KvSelectProofs.v — C09: reading properties.  values_by_keys (a stable sort by request
   position) returns the requested pairs in request order; SelectValues and its missing-key error. *)
From Agdb Require Import Bytes DbValue DbModel Search Queries Revisions DbValueEqProofs KvProofs QStepProofs.
From Coq Require Import ZifyBool ZifyNat ZifyN.
Open Scope nat_scope.

(* The stable insertion sort is the concatenation of the key classes, `bucket 0 n l`, each in the
   order of l: inserting x puts it after every element with a key <= key x, that is at the end of
   its own class, and appending x to l does the same to the buckets (insert_by_bucket). *)
Section Sort.
  Context {A : Type} (key : A -> nat).

  Definition bucket (a n : nat) (l : list A) : list A :=
    flat_map (fun m => filter (fun y => Nat.eqb (key y) m) l) (seq a n).

  Lemma bucket_S a n l : bucket a (S n) l = filter (fun y => Nat.eqb (key y) a) l ++ bucket (S a) n l.
  Proof. reflexivity. Qed.

  Lemma bucket_nil a n : bucket a n [] = [].
  Proof. revert a. induction n as [|n IH]; intros a; [reflexivity|]. rewrite bucket_S. cbn [filter app]. apply IH. Qed.

  Lemma in_bucket a n l y : In y (bucket a n l) -> a <= key y < a + n /\ In y l.
  Proof.
    unfold bucket. rewrite in_flat_map. intros [m [Hm Hy]]. apply in_seq in Hm.
    apply filter_In in Hy. destruct Hy as [Hy Hk]. apply Nat.eqb_eq in Hk. split; [lia|exact Hy].
  Qed.

  Lemma bucket_snoc_out a n l x : key x < a \/ a + n <= key x -> bucket a n (l ++ [x]) = bucket a n l.
  Proof.
    revert a. induction n as [|n IH]; intros a Hx; [reflexivity|].
    rewrite !bucket_S, IH by lia. f_equal. rewrite filter_app. cbn [filter].
    destruct (Nat.eqb_spec (key x) a); [lia|]. apply app_nil_r.
  Qed.

  Lemma insert_by_lt l x : (forall y, In y l -> key x < key y) -> insert_by key x l = x :: l.
  Proof.
    destruct l as [|y l]; cbn [insert_by]; [reflexivity|]. intros H.
    specialize (H y (or_introl eq_refl)). destruct (Nat.ltb_spec (key x) (key y)); [reflexivity|lia].
  Qed.

  Lemma insert_by_app_le F R x :
    (forall y, In y F -> key y <= key x) -> insert_by key x (F ++ R) = F ++ insert_by key x R.
  Proof.
    induction F as [|y F IH]; intros H; cbn [app insert_by]; [reflexivity|].
    pose proof (H y (or_introl eq_refl)) as Hy.
    destruct (Nat.ltb_spec (key x) (key y)); [lia|]. f_equal. apply IH. intros z Hz. apply H. now right.
  Qed.

  Lemma insert_by_bucket n : forall a l x,
    a <= key x < a + n -> insert_by key x (bucket a n l) = bucket a n (l ++ [x]).
  Proof.
    induction n as [|n IH]; intros a l x Hx; [lia|].
    rewrite !bucket_S, insert_by_app_le.
    - rewrite filter_app. cbn [filter]. destruct (Nat.eqb_spec (key x) a) as [E|E].
      + rewrite bucket_snoc_out by lia. rewrite insert_by_lt.
        * now rewrite <- app_assoc.
        * intros y Hy. apply in_bucket in Hy. lia.
      + rewrite app_nil_r. f_equal. apply IH. lia.
    - intros y Hy. apply filter_In in Hy. destruct Hy as [_ Hy]. apply Nat.eqb_eq in Hy. lia.
  Qed.

  Lemma sort_by_key_snoc l x : sort_by_key key (l ++ [x]) = insert_by key x (sort_by_key key l).
  Proof. unfold sort_by_key. now rewrite fold_left_app. Qed.

  Lemma sort_by_key_bucket n l : (forall y, In y l -> key y < n) -> sort_by_key key l = bucket 0 n l.
  Proof.
    induction l as [|x l IH] using rev_ind; intros H.
    - now rewrite bucket_nil.
    - rewrite sort_by_key_snoc, IH.
      + apply insert_by_bucket. specialize (H x). rewrite in_app_iff in H. cbn [In] in H.
        assert (key x < n) by (apply H; tauto). lia.
      + intros y Hy. apply H. rewrite in_app_iff. now left.
  Qed.
End Sort.

Lemma position_bounds keys k : forall s n, position keys k s = Some n -> s <= n < s + length keys.
Proof.
  induction keys as [|x keys IH]; intros s n; cbn [position length]; [discriminate|].
  destruct (dbv_eqb x k).
  - intros H. inversion H. lia.
  - intros H. apply IH in H. lia.
Qed.

(* request position m is the FIRST position of the request whose key equals k *)
Definition pos_is (keys : list dbvalue) (k : dbvalue) (m : nat) : bool :=
  match position keys k 0 with Some n => Nat.eqb n m | None => false end.

Definition tag_of (keys : list dbvalue) (p : kv) : list (nat * kv) :=
  match position keys (fst p) 0 with Some n => [(n, p)] | None => [] end.

Lemma tagged_filter keys (l : list kv) m :
  map snd (filter (fun t : nat * kv => Nat.eqb (fst t) m) (flat_map (tag_of keys) l)) =
  filter (fun p => pos_is keys (fst p) m) l.
Proof.
  induction l as [|p l IH]; cbn [flat_map filter map]; [reflexivity|].
  rewrite filter_app, map_app, IH. unfold tag_of, pos_is.
  destruct (position keys (fst p) 0) as [n|]; cbn [filter fst]; [|reflexivity].
  destruct (Nat.eqb n m); reflexivity.
Qed.

Lemma map_flat_map {A B C} (f : B -> C) (g : A -> list B) (l : list A) :
  map f (flat_map g l) = flat_map (fun x => map f (g x)) l.
Proof. induction l as [|x l IH]; cbn [flat_map map]; [reflexivity|]. now rewrite map_app, IH. Qed.

(* exact characterisation, no side condition: for each request position in order, the element's
   pairs (in map order) whose key first occurs in the request at that position *)
Lemma kvs_values_by_keys_buckets s i keys :
  kvs_values_by_keys s i keys =
  flat_map (fun m => filter (fun p : kv => pos_is keys (fst p) m) (kvs_get s i)) (seq 0 (length keys)).
Proof.
  unfold kvs_values_by_keys. fold (tag_of keys).
  rewrite (sort_by_key_bucket (fun t : nat * kv => fst t) (length keys)).
  - unfold bucket. rewrite map_flat_map. apply flat_map_ext. intros m. apply tagged_filter.
  - intros [n p] Hin. apply in_flat_map in Hin. destruct Hin as [q [_ Hq]]. unfold tag_of in Hq.
    destruct (position keys (fst q) 0) as [n'|] eqn:E; [|destruct Hq].
    destruct Hq as [Hq|[]]. inversion Hq; subst. apply position_bounds in E. cbn [fst]. lia.
Qed.

(* request lists with pairwise different keys *)
Fixpoint vals_distinct (keys : list dbvalue) : Prop :=
  match keys with
  | [] => True
  | x :: r => mem dbv_eqb x r = false /\ vals_distinct r
  end.

Lemma mem_false_nth x r m d : mem dbv_eqb x r = false -> m < length r -> dbv_eqb (nth m r d) x = false.
Proof.
  revert m. induction r as [|y r IH]; intros m; cbn [mem length nth]; [lia|].
  intros H Hm. apply orb_false_iff in H. destruct H as [H1 H2].
  destruct m as [|m]; [exact H1|]. apply IH; [exact H2|lia].
Qed.

Lemma pos_from_distinct keys k d : forall s m,
  vals_distinct keys -> m < length keys ->
  match position keys k s with Some n => Nat.eqb n (s + m) | None => false end = dbv_eqb (nth m keys d) k.
Proof.
  induction keys as [|x keys IH]; intros s m; cbn [vals_distinct length position]; [lia|].
  intros [Hx Hd] Hm. destruct m as [|m]; cbn [nth].
  - destruct (dbv_eqb x k) eqn:E.
    + apply Nat.eqb_eq. lia.
    + destruct (position keys k (S s)) as [n|] eqn:P; [|reflexivity].
      apply position_bounds in P. apply Nat.eqb_neq. lia.
  - destruct (dbv_eqb x k) eqn:E.
    + rewrite <- (dbv_eqb_congr_r x k (nth m keys d) E).
      rewrite (mem_false_nth x keys m d Hx) by lia. apply Nat.eqb_neq. lia.
    + rewrite <- (IH (S s) m Hd) by lia. replace (S s + m) with (s + S m) by lia. reflexivity.
Qed.

Lemma pos_is_distinct keys k m d :
  vals_distinct keys -> m < length keys -> pos_is keys k m = dbv_eqb (nth m keys d) k.
Proof. intros Hd Hm. unfold pos_is. apply (pos_from_distinct keys k d 0 m Hd Hm). Qed.

Lemma filter_key_find (l : list kv) k :
  keys_distinct l ->
  filter (fun p : kv => dbv_eqb k (fst p)) l = match kv_find l k with Some p => [p] | None => [] end.
Proof.
  induction l as [|y l IH]; cbn [keys_distinct filter kv_find find]; [reflexivity|].
  intros [Hy Hd]. fold (kv_find l k). rewrite (dbv_eqb_sym k (fst y)).
  destruct (dbv_eqb (fst y) k) eqn:E.
  - f_equal. apply dbv_eqb_true in E as <-. apply (filter_const _ false).
    intros p Hp. rewrite dbv_eqb_sym. exact (has_key_false_in l _ p Hy Hp).
  - now apply IH.
Qed.

Lemma flat_map_nth_seq {A B} (f : A -> list B) (l : list A) (d : A) :
  flat_map (fun m => f (nth m l d)) (seq 0 (length l)) = flat_map f l.
Proof.
  induction l as [|x l IH]; [reflexivity|]. cbn [length seq flat_map nth]. f_equal.
  rewrite <- seq_shift, flat_map_concat_map, map_map, <- flat_map_concat_map. exact IH.
Qed.

Lemma flat_map_ext_in' {A B} (f g : A -> list B) (l : list A) :
  (forall x, In x l -> f x = g x) -> flat_map f l = flat_map g l.
Proof.
  induction l as [|x l IH]; intros H; cbn [flat_map]; [reflexivity|].
  rewrite (H x (or_introl eq_refl)), IH; [reflexivity|]. intros y Hy. apply H. now right.
Qed.

Definition found_pair (l : list kv) (k : dbvalue) : list kv :=
  match kv_find l k with Some p => [p] | None => [] end.

(* for element lists and requests with distinct keys: the pair of each requested key that is
   present, in request order *)
Lemma kvs_values_by_keys_distinct s i keys :
  keys_distinct (kvs_get s i) -> vals_distinct keys ->
  kvs_values_by_keys s i keys = flat_map (found_pair (kvs_get s i)) keys.
Proof.
  intros Hl Hk. rewrite kvs_values_by_keys_buckets.
  rewrite <- (flat_map_nth_seq (found_pair (kvs_get s i)) keys (DI64 0)).
  apply flat_map_ext_in'. intros m Hm. apply in_seq in Hm. unfold found_pair.
  rewrite <- (filter_key_find _ _ Hl). apply filter_ext. intros p.
  rewrite (pos_is_distinct keys (fst p) m (DI64 0) Hk) by lia. reflexivity.
Qed.

Lemma flat_map_found_length l keys :
  length (flat_map (found_pair l) keys) = length (filter (has_key l) keys).
Proof.
  induction keys as [|k keys IH]; cbn [flat_map filter]; [reflexivity|].
  rewrite app_length, IH, has_key_find. unfold found_pair. now destruct (kv_find l k).
Qed.

Lemma has_key_flat_map_found l keys k :
  In k keys -> has_key (flat_map (found_pair l) keys) k = has_key l k.
Proof.
  intros Hin. destruct (has_key l k) eqn:E.
  - rewrite has_key_find in E. destruct (kv_find l k) as [p|] eqn:F; [|discriminate].
    unfold has_key. apply existsb_exists. exists p. split; [|now apply (kv_find_some l k p)].
    apply in_flat_map. exists k. split; [exact Hin|]. unfold found_pair. rewrite F. now left.
  - destruct (has_key (flat_map (found_pair l) keys) k) eqn:E2; [|reflexivity].
    unfold has_key in E2. apply existsb_exists in E2. destruct E2 as [p [Hp Hk]].
    apply in_flat_map in Hp. destruct Hp as [k' [_ Hp]]. unfold found_pair in Hp.
    destruct (kv_find l k') as [q|] eqn:F; [|destruct Hp]. destruct Hp as [->|[]].
    apply kv_find_some in F. destruct F as [Hin' _].
    pose proof (has_key_false_in l k p E Hin'). congruence.
Qed.

Lemma filter_length_le {A} (f : A -> bool) l : length (filter f l) <= length l.
Proof. induction l as [|x l IH]; cbn [filter length]; [lia|]. destruct (f x); cbn [length]; lia. Qed.

Lemma filter_length_all {A} (f : A -> bool) l : length (filter f l) = length l <-> forallb f l = true.
Proof.
  induction l as [|x l IH]; cbn [filter length forallb]; [tauto|].
  pose proof (filter_length_le f l). destruct (f x); cbn [length andb].
  - rewrite <- IH. lia.
  - split; [lia|discriminate].
Qed.

Lemma existsb_negb {A} (f : A -> bool) l : existsb (fun x => negb (f x)) l = negb (forallb f l).
Proof. induction l as [|x l IH]; cbn [existsb forallb]; [reflexivity|]. now rewrite IH, negb_andb. Qed.

Lemma existsb_ext_in' {A} (f g : A -> bool) (l : list A) :
  (forall x, In x l -> f x = g x) -> existsb f l = existsb g l.
Proof.
  induction l as [|x l IH]; intros H; cbn [existsb]; [reflexivity|].
  rewrite (H x (or_introl eq_refl)), IH; [reflexivity|]. intros y Hy. apply H. now right.
Qed.

Open Scope Z_scope.
Section Select.
  Variable rv : revision.

  Definition values_of (d : db) (keys : list dbvalue) (id : Z) : list kv :=
    match keys with [] => kvs_get (vals d) id | _ => kvs_values_by_keys (vals d) id keys end.

  (* the error test of SelectValuesQuery as written in the code *)
  Definition missing_key (d : db) (keys : list dbvalue) (id : Z) : bool :=
    negb (Nat.eqb (length (values_of d keys id)) (length keys)) &&
    existsb (fun k => negb (has_key (values_of d keys id) k)) keys.

  Fixpoint sv_go (d : db) (keys : list dbvalue) (is_search : bool) (l : list Z) : res (list element) :=
    match l with
    | [] => ROk []
    | id :: r =>
      if negb is_search && missing_key d keys id then RErr ENotFound
      else match sv_go d keys is_search r with
           | RErr e => RErr e
           | ROk els => ROk (elem d id (values_of d keys id) :: els)
           end
    end.

  Lemma select_values_unfold d keys ids :
    select_values rv d keys ids =
    match resolve_ids rv d ids with
    | SErr e => QErr e
    | SPanic => QPanic
    | SOk db_ids =>
      match sv_go d keys (match ids with QSearch _ => true | _ => false end) db_ids with
      | RErr e => QErr e
      | ROk els => QOk (lenZ db_ids) els
      end
    end.
  Proof.
    unfold select_values. destruct (resolve_ids rv d ids) as [db_ids|e|]; try reflexivity.
    set (is_search := match ids with QSearch _ => true | _ => false end).
    match goal with |- match ?g db_ids with _ => _ end = _ => assert (H : forall l, g l = sv_go d keys is_search l) end.
    { induction l as [|id r IH]; [reflexivity|]. cbn [sv_go]. rewrite <- IH.
      unfold missing_key, values_of, has_key. rewrite andb_assoc. reflexivity. }
    now rewrite H.
  Qed.

  Lemma sv_go_spec d keys is_search l :
    sv_go d keys is_search l =
    if negb is_search && existsb (missing_key d keys) l then RErr ENotFound
    else ROk (map (fun id => elem d id (values_of d keys id)) l).
  Proof.
    induction l as [|id r IH]; cbn [sv_go existsb map].
    - now rewrite andb_false_r.
    - rewrite IH. destruct is_search; cbn [negb andb]; [reflexivity|].
      destruct (missing_key d keys id); cbn [orb]; [reflexivity|].
      now destruct (existsb (missing_key d keys) r).
  Qed.

  (* SelectValues with explicit ids: NotFound iff some id misses some requested key (as tested by
     the code); otherwise one element per id with `values_of` *)
  Lemma select_values_ids d keys l :
    select_values rv d keys (Ids l) =
    match resolve_all d l with
    | RErr e => QErr e
    | ROk ids =>
      if existsb (missing_key d keys) ids then QErr ENotFound
      else QOk (lenZ ids) (map (fun id => elem d id (values_of d keys id)) ids)
    end.
  Proof.
    rewrite select_values_unfold. cbn [resolve_ids].
    destruct (resolve_all d l) as [ids|e]; [|reflexivity].
    rewrite sv_go_spec. cbn [negb andb]. now destruct (existsb (missing_key d keys) ids).
  Qed.

  (* SelectValues over a search: missing keys are skipped silently *)
  Lemma select_values_search d keys s :
    select_values rv d keys (QSearch s) =
    match search rv d s with
    | SErr e => QErr e
    | SPanic => QPanic
    | SOk ids => QOk (lenZ ids) (map (fun id => elem d id (values_of d keys id)) ids)
    end.
  Proof.
    rewrite select_values_unfold. cbn [resolve_ids].
    destruct (search rv d s) as [ids|e|]; try reflexivity. now rewrite sv_go_spec.
  Qed.

  (* full selection never reports a missing key *)
  Lemma missing_key_all d id : missing_key d [] id = false.
  Proof. unfold missing_key. cbn [existsb]. apply andb_false_r. Qed.

  (* under the distinctness invariant the code's test is exactly "some requested key is absent" *)
  Lemma missing_key_distinct d keys id :
    keys <> [] -> keys_distinct (kvs_get (vals d) id) -> vals_distinct keys ->
    missing_key d keys id = existsb (fun k => negb (has_key (kvs_get (vals d) id) k)) keys.
  Proof.
    intros Hne Hl Hk. unfold missing_key.
    assert (Hv : values_of d keys id = flat_map (found_pair (kvs_get (vals d) id)) keys).
    { unfold values_of. destruct keys; [congruence|]. now apply kvs_values_by_keys_distinct. }
    rewrite Hv. set (l := kvs_get (vals d) id).
    assert (He : existsb (fun k => negb (has_key (flat_map (found_pair l) keys) k)) keys =
                 existsb (fun k => negb (has_key l k)) keys).
    { apply existsb_ext_in'. intros k Hin. now rewrite has_key_flat_map_found. }
    rewrite He, flat_map_found_length, existsb_negb.
    destruct (forallb (has_key l) keys) eqn:Ea; [apply andb_false_r|]. rewrite andb_true_r.
    apply negb_true_iff, Nat.eqb_neq. intros Hlen%filter_length_all. congruence.
  Qed.

End Select.

(* a concrete history (non-vacuity of the C09 statements) *)
Definition c09_k (n : Z) : dbvalue := DI64 n.
Definition c09_history : list query :=
  [InsertNodes 1 (Single [(c09_k 1, DI64 10); (c09_k 2, DI64 20); (c09_k 3, DI64 30)]) [] (Ids []);
   InsertValues (Ids [QId 1]) (Single [(c09_k 2, DI64 21); (c09_k 4, DI64 40)]);
   RemoveValues (Ids [QId 1]) [c09_k 1]].

