(* ElementsSearchProofs.v — C18 (search part): the elements search of Search.v is a
   positional filter of `elements (gr d)`.

   * condition evaluation never yields `Finish` (only the limit handlers do), so the
     elements loop with the default handler runs over the whole element list;
   * `elements_search rv d conds HDefault = ifilter p (elements (gr d)) 0` where
     `p i k` = "the conditions accept element i at distance k" and the distance of
     an element is its position in the element list (ElementSearch::search uses
     `graph.iter().enumerate()`);
   * `ifilter` keeps a sub-sequence (same order, nothing new, nothing duplicated)
     and is a plain `filter` when the predicate ignores the distance;
   * `zslice`, the limit/offset slice of a list (the streamed result is that slice of the
     filtered list: SliceProofs.v).

   Shared by the proofs about conditions and queries (CondProofs.v, PathProofs.v, SliceProofs.v,
   SearchLiveProofs.v): the induction principle of the nested type cond_data, and the shape of
   SearchQuery::search (`search_engine`). *)
From Agdb Require Import Bytes Graph DbModel Search.
From Coq Require Import ZifyBool ZifyNat Sorted.
Open Scope Z_scope.

Definition sc_nofinish (c : sc) : Prop := match c with Finish _ => False | _ => True end.

Lemma sc_and_nofinish : forall a b, sc_nofinish a -> sc_nofinish b -> sc_nofinish (sc_and a b).
Proof. intros [x|x|x] [y|y|y]; cbn; auto. Qed.

Lemma sc_or_nofinish : forall a b, sc_nofinish a -> sc_nofinish b -> sc_nofinish (sc_or a b).
Proof. intros [x|x|x] [y|y|y]; cbn; auto. Qed.

Lemma sc_flip_nofinish : forall a, sc_nofinish a -> sc_nofinish (sc_flip a).
Proof. intros [x|x|x]; cbn; auto. Qed.

Lemma compare_distance_nofinish : forall c right, sc_nofinish (compare_distance c right).
Proof. intros [n|n|n|n|n|n] right; cbn; destruct (right ?= n); cbn; auto. Qed.

Lemma sc_nofinish_neq : forall c, sc_nofinish c -> forall b, c <> Finish b.
Proof. intros [x|x|x] H b; cbn in H; [discriminate|contradiction|discriminate]. Qed.

Definition cond_payload (c : cond) : cond_data := match c with Cond _ _ d => d end.

Section CondInd.
  Variable P : cond_data -> Prop.
  Hypothesis HDistance : forall c, P (CDistance c).
  Hypothesis HEdge : P CEdge.
  Hypothesis HEdgeCount : forall c, P (CEdgeCount c).
  Hypothesis HEdgeCountFrom : forall c, P (CEdgeCountFrom c).
  Hypothesis HEdgeCountTo : forall c, P (CEdgeCountTo c).
  Hypothesis HIds : forall ids, P (CIds ids).
  Hypothesis HKeyValue : forall key op value, P (CKeyValue key op value).
  Hypothesis HKeys : forall keys, P (CKeys keys).
  Hypothesis HNode : P CNode.
  Hypothesis HWhere : forall conds, Forall (fun c => P (cond_payload c)) conds -> P (CWhere conds).

  Fixpoint cond_data_ind' (c : cond_data) : P c :=
    match c with
    | CDistance v => HDistance v
    | CEdge => HEdge
    | CEdgeCount v => HEdgeCount v
    | CEdgeCountFrom v => HEdgeCountFrom v
    | CEdgeCountTo v => HEdgeCountTo v
    | CIds ids => HIds ids
    | CKeyValue key op value => HKeyValue key op value
    | CKeys keys => HKeys keys
    | CNode => HNode
    | CWhere conds =>
        HWhere conds
          ((fix all (l : list cond) : Forall (fun c => P (cond_payload c)) l :=
              match l with
              | [] => Forall_nil _
              | Cond lg md data :: r =>
                  Forall_cons (Cond lg md data) (cond_data_ind' data) (all r)
              end) conds)
    end.
End CondInd.

(* the modifier step and the fold of evaluate_conditions, named *)
Definition apply_modifier (md : modifier) (distance : Z) (result control0 : sc) : sc :=
  match md with
  | MBeyond => if sc_true control0 || (distance =? 0) then Continue (sc_true result)
               else Stop (sc_true result)
  | MNot => sc_flip control0
  | MNotBeyond => if sc_true control0 then Stop (sc_true result)
                  else Continue (sc_true result)
  | MNone => control0
  end.

Definition apply_logic (lg : logic) (result control : sc) : sc :=
  match lg with LAnd => sc_and result control | LOr => sc_or result control end.

Fixpoint eval_list (rv : revision) (d : db) (index distance : Z) (cs : list cond) (result : sc) : sc :=
  match cs with
  | [] => result
  | Cond lg md data :: r =>
      eval_list rv d index distance r
        (apply_logic lg result (apply_modifier md distance result (eval_data rv d index distance data)))
  end.

Lemma eval_data_where : forall rv d index distance conds,
  eval_data rv d index distance (CWhere conds) = eval_list rv d index distance conds (Continue true).
Proof.
  intros rv d index distance conds. cbn [eval_data].
  generalize (Continue true) as result.
  induction conds as [|[lg md data] r IH]; intro result.
  - reflexivity.
  - cbn [eval_list]. rewrite <- IH. reflexivity.
Qed.

Lemma eval_conditions_eval_list : forall rv d index distance conds,
  eval_conditions rv d index distance conds = eval_list rv d index distance conds (Continue true).
Proof. intros. unfold eval_conditions. apply eval_data_where. Qed.

Lemma apply_modifier_nofinish : forall md distance result control0,
  sc_nofinish control0 -> sc_nofinish (apply_modifier md distance result control0).
Proof.
  intros md distance result control0 H. destruct md; cbn [apply_modifier].
  - exact H.
  - destruct (sc_true control0 || (distance =? 0)); exact I.
  - apply sc_flip_nofinish, H.
  - destruct (sc_true control0); exact I.
Qed.

Lemma apply_logic_nofinish : forall lg result control,
  sc_nofinish result -> sc_nofinish control -> sc_nofinish (apply_logic lg result control).
Proof. intros [|] result control Hr Hc; cbn [apply_logic]; [apply sc_and_nofinish|apply sc_or_nofinish]; assumption. Qed.

Lemma eval_list_nofinish : forall rv d index distance cs,
  Forall (fun c => sc_nofinish (eval_data rv d index distance (cond_payload c))) cs ->
  forall result, sc_nofinish result -> sc_nofinish (eval_list rv d index distance cs result).
Proof.
  intros rv d index distance cs Hall.
  induction Hall as [|[lg md data] r Hx Hr IH]; intros result Hres.
  - exact Hres.
  - cbn [eval_list]. apply IH. apply apply_logic_nofinish; [exact Hres|].
    apply apply_modifier_nofinish. exact Hx.
Qed.

Lemma eval_data_nofinish : forall rv d index distance c,
  sc_nofinish (eval_data rv d index distance c).
Proof.
  intros rv d index distance c.
  induction c as [v| |v|v|v|ids|key op value|keys| |conds IH] using cond_data_ind'.
  all: try exact I.
  - apply compare_distance_nofinish.
  - rewrite eval_data_where. apply eval_list_nofinish; [exact IH|exact I].
Qed.

Corollary eval_conditions_nofinish : forall rv d index distance conds,
  sc_nofinish (eval_conditions rv d index distance conds).
Proof. intros. unfold eval_conditions. apply eval_data_nofinish. Qed.

Corollary eval_conditions_not_finish : forall rv d index distance conds b,
  eval_conditions rv d index distance conds <> Finish b.
Proof. intros. apply sc_nofinish_neq, eval_conditions_nofinish. Qed.

Fixpoint ifilter (p : Z -> Z -> bool) (els : list Z) (k : Z) : list Z :=
  match els with
  | [] => []
  | i :: r => if p i k then i :: ifilter p r (k + 1) else ifilter p r (k + 1)
  end.

(* the predicate "the conditions accept element i at distance k" *)
Definition cond_pred (rv : revision) (d : db) (conds : list cond) : Z -> Z -> bool :=
  fun i k => sc_true (eval_conditions rv d i k conds).

Lemma elements_loop_default : forall rv d conds els k c acc,
  elements_loop rv d conds HDefault els k c acc =
  rev acc ++ ifilter (fun i k => sc_true (eval_conditions rv d i k conds)) els k.
Proof.
  intros rv d conds els.
  induction els as [|i r IH]; intros k c acc.
  - cbn [elements_loop ifilter]. rewrite app_nil_r. reflexivity.
  - cbn [elements_loop ifilter handle].
    pose proof (eval_conditions_nofinish rv d i k conds) as Hnf.
    destruct (eval_conditions rv d i k conds) as [b|b|b] eqn:E; cbn [sc_nofinish] in Hnf;
      [|contradiction|]; cbn [sc_true]; rewrite IH; destruct b; cbn [rev];
      rewrite <- ?app_assoc; reflexivity.
Qed.

Theorem elements_search_default : forall rv d conds,
  elements_search rv d conds HDefault =
  ifilter (fun i k => sc_true (eval_conditions rv d i k conds)) (elements (gr d)) 0.
Proof. intros. unfold elements_search. rewrite elements_loop_default. reflexivity. Qed.

Lemma ifilter_ext : forall p q els k,
  (forall i j, In i els -> p i j = q i j) -> ifilter p els k = ifilter q els k.
Proof.
  intros p q els. induction els as [|i r IH]; intros k H; cbn [ifilter].
  - reflexivity.
  - rewrite (H i k (or_introl eq_refl)), (IH (k + 1)); [reflexivity|].
    intros i' j Hin. apply H. right. exact Hin.
Qed.

Lemma ifilter_incl : forall p els k i, In i (ifilter p els k) -> In i els.
Proof.
  intros p els. induction els as [|x r IH]; intros k i Hin; cbn [ifilter] in Hin.
  - exact Hin.
  - destruct (p x k).
    + destruct Hin as [->|Hin]; [left; reflexivity|right; eapply IH; exact Hin].
    + right. eapply IH. exact Hin.
Qed.

(* exact membership: position n of the list is kept iff p accepts it at distance k + n *)
Lemma ifilter_In : forall p els k i,
  In i (ifilter p els k) <->
  exists n : nat, nth_error els n = Some i /\ p i (k + Z.of_nat n) = true.
Proof.
  intros p els. induction els as [|x r IH]; intros k i; cbn [ifilter].
  - split; [intros []|]. intros [[|n] [Hn _]]; discriminate.
  - split.
    + intro Hin. destruct (p x k) eqn:Epx.
      * destruct Hin as [<-|Hin].
        -- exists 0%nat. split; [reflexivity|]. rewrite Z.add_0_r. exact Epx.
        -- apply IH in Hin. destruct Hin as [n [Hn Hp]]. exists (S n). split; [exact Hn|].
           replace (k + Z.of_nat (S n)) with (k + 1 + Z.of_nat n) by lia. exact Hp.
      * apply IH in Hin. destruct Hin as [n [Hn Hp]]. exists (S n). split; [exact Hn|].
        replace (k + Z.of_nat (S n)) with (k + 1 + Z.of_nat n) by lia. exact Hp.
    + intros [[|n] [Hn Hp]].
      * cbn in Hn. injection Hn as ->. rewrite Z.add_0_r in Hp. rewrite Hp. left. reflexivity.
      * cbn [nth_error] in Hn.
        assert (Hin : In i (ifilter p r (k + 1))).
        { apply IH. exists n. split; [exact Hn|].
          replace (k + 1 + Z.of_nat n) with (k + Z.of_nat (S n)) by lia. exact Hp. }
        destruct (p x k); [right|]; exact Hin.
Qed.

(* order-preserving sub-sequence *)
Inductive sublist {A : Type} : list A -> list A -> Prop :=
| sublist_nil : sublist [] []
| sublist_skip : forall x l1 l2, sublist l1 l2 -> sublist l1 (x :: l2)
| sublist_keep : forall x l1 l2, sublist l1 l2 -> sublist (x :: l1) (x :: l2).

Lemma sublist_refl : forall (A : Type) (l : list A), sublist l l.
Proof. induction l; constructor; assumption. Qed.

Lemma sublist_In : forall (A : Type) (l1 l2 : list A), sublist l1 l2 -> forall x, In x l1 -> In x l2.
Proof.
  intros A l1 l2 H. induction H as [|y l1 l2 H IH|y l1 l2 H IH]; intros x Hin.
  - exact Hin.
  - right. apply IH, Hin.
  - destruct Hin as [->|Hin]; [left; reflexivity|right; apply IH, Hin].
Qed.

Lemma sublist_NoDup : forall (A : Type) (l1 l2 : list A), sublist l1 l2 -> NoDup l2 -> NoDup l1.
Proof.
  intros A l1 l2 H. induction H as [|y l1 l2 H IH|y l1 l2 H IH]; intro Hnd.
  - exact Hnd.
  - inversion Hnd; subst. apply IH. assumption.
  - inversion Hnd as [|? ? Hnotin Hnd']; subst. constructor.
    + intro Hin. apply Hnotin. eapply sublist_In; eassumption.
    + apply IH, Hnd'.
Qed.

Lemma sublist_length : forall (A : Type) (l1 l2 : list A), sublist l1 l2 -> (length l1 <= length l2)%nat.
Proof. intros A l1 l2 H. induction H; cbn [length]; lia. Qed.

(* a sub-sequence of a list sorted by a transitive relation is sorted *)
Lemma sublist_StronglySorted : forall (A : Type) (R : A -> A -> Prop) (l1 l2 : list A),
  sublist l1 l2 -> StronglySorted R l2 -> StronglySorted R l1.
Proof.
  intros A R l1 l2 H. induction H as [|y l1 l2 H IH|y l1 l2 H IH]; intro Hs.
  - exact Hs.
  - inversion Hs; subst. apply IH. assumption.
  - inversion Hs as [|? ? Hs' Hall]; subst. constructor.
    + apply IH, Hs'.
    + rewrite Forall_forall in *. intros x Hin. apply Hall. eapply sublist_In; eassumption.
Qed.

Lemma ifilter_sublist : forall p els k, sublist (ifilter p els k) els.
Proof.
  intros p els. induction els as [|i r IH]; intro k; cbn [ifilter].
  - constructor.
  - destruct (p i k); constructor; apply IH.
Qed.

Lemma ifilter_NoDup : forall p els k, NoDup els -> NoDup (ifilter p els k).
Proof. intros p els k. apply sublist_NoDup, ifilter_sublist. Qed.

(* The shape of SearchQuery::search for every algorithm but the index lookup.  The origin /
   destination ids select an engine (a breadth- or depth-first search, the path search, the
   elements scan) or fail to resolve; limit, offset and order_by only decide how the engine is
   run: with the streaming handler when the engine has one and nothing is to be sorted, else
   unlimited, its result then sorted and sliced. *)
Definition resliced (s : search_query) (limit offset : Z) (order : list key_order) : search_query :=
  {| s_algorithm := s_algorithm s; s_origin := s_origin s; s_destination := s_destination s;
     s_limit := limit; s_offset := offset; s_order_by := order; s_conditions := s_conditions s |}.

Definition sorted_slice (rv : revision) (d : db) (limit offset : Z) (order : list key_order) (r : sres) : sres :=
  match r with
  | SOk ids => slice_ids rv limit offset (stable_sort (order_cmp d order) ids)
  | e => e
  end.

(* engine rv d conds streams run: `run h` is the engine under handler h; `streams` = it takes one *)
Inductive engine (rv : revision) (d : db) (conds : list cond) : bool -> (handler_kind -> sres) -> Prop :=
| engine_graph : forall a reverse q origin, db_id d q = ROk origin ->
    engine rv d conds true (fun h => opt_ids (graph_search rv d a reverse origin conds h))
| engine_path : forall qo qd origin dest, db_id d qo = ROk origin -> db_id d qd = ROk dest ->
    engine rv d conds false (fun _ => opt_ids (path_search rv d conds origin dest))
| engine_elements : engine rv d conds true (fun h => SOk (elements_search rv d conds h)).

Lemma resliced_id : forall s, resliced s (s_limit s) (s_offset s) (s_order_by s) = s.
Proof. intros []. reflexivity. Qed.

Lemma search_engine : forall rv d s, s_algorithm s <> AIndex ->
  (exists e, forall limit offset order, search rv d (resliced s limit offset order) = SErr e) \/
  (exists streams run, engine rv d (s_conditions s) streams run /\
     forall limit offset order, search rv d (resliced s limit offset order) =
       if streams && match order with [] => true | _ => false end then run (handler_of limit offset)
       else sorted_slice rv d limit offset order (run HDefault)).
Proof.
  intros rv d [alg o dst lim off ord conds] Halg. unfold search, resliced, sorted_slice.
  cbn [s_algorithm s_origin s_destination s_limit s_offset s_order_by s_conditions] in *.
  pose (a := match alg with ABreadthFirst => BFS | _ => DFS end).
  destruct alg; [| |congruence|].
  (* breadth-first and depth-first alike *)
  1-2: destruct (is_zero_id dst); [|destruct (is_zero_id o)];
    [ destruct (db_id d o) as [origin|e] eqn:Eo; [|left; exists e; reflexivity];
      right; exists true, (fun h => opt_ids (graph_search rv d a false origin conds h));
      split; [exact (engine_graph rv d conds a false o origin Eo)|];
      intros limit offset [|k order]; reflexivity
    | destruct (db_id d dst) as [dest|e] eqn:Ed; [|left; exists e; reflexivity];
      right; exists true, (fun h => opt_ids (graph_search rv d a true dest conds h));
      split; [exact (engine_graph rv d conds a true dst dest Ed)|];
      intros limit offset [|k order]; reflexivity
    | destruct (db_id d o) as [origin|e] eqn:Eo; [|left; exists e; reflexivity];
      destruct (db_id d dst) as [dest|e] eqn:Ed; [|left; exists e; reflexivity];
      right; exists false, (fun _ => opt_ids (path_search rv d conds origin dest));
      split; [exact (engine_path rv d conds o dst origin dest Eo Ed)|]; reflexivity ].
  right. exists true, (fun h => SOk (elements_search rv d conds h)).
  split; [apply engine_elements|]. intros limit offset [|k order]; reflexivity.
Qed.

(* SearchQuery limit/offset semantics on a list: skip `offset`, then take `limit` (0 = no limit) *)
Definition zslice (limit offset : Z) (l : list Z) : list Z :=
  let l' := skipn (Z.to_nat offset) l in
  if limit =? 0 then l' else firstn (Z.to_nat limit) l'.

Lemma sc_set_nofinish : forall c v, sc_nofinish c -> sc_nofinish (sc_set c v).
Proof. intros [x|x|x] v H; exact H. Qed.

Lemma sc_true_set : forall c v, sc_true (sc_set c v) = v.
Proof. intros [x|x|x] v; reflexivity. Qed.

(* helpers to build a database with the model's own operations *)
Definition ex_node (d : db) : db := snd (insert_node_db d).
Definition ex_edge (d : db) (f t : Z) : db :=
  match insert_edge_db d f t with ROk (_, d') => d' | RErr _ => d end.
Definition ex_remove (d : db) (id : Z) : db := fst (remove_id d id).

Definition ex_query (limit offset : Z) (conds : list cond) : search_query :=
  {| s_algorithm := AElements; s_origin := QId 0; s_destination := QId 0;
     s_limit := limit; s_offset := offset; s_order_by := []; s_conditions := conds |}.

(* nodes 1 2 3, edges 1->2 (-4), 2->3 (-5), 3->3 (-6); node 2 is removed (with -4 and -5) and a new
   node reuses slot 2.  Conditions: (distance < 2) or edge — the distance is the position in
   the element list, so 1 and 2 pass by position, 3 is dropped, -6 passes as an edge. *)
Lemma elements_search_example :
  let d0 := ex_remove (ex_edge (ex_edge (ex_edge (ex_node (ex_node (ex_node db_new))) 1 2) 2 3) 3 3) 2 in
  let d := ex_node d0 in
  let conds := [Cond LAnd MNone (CDistance (KLessThan 2)); Cond LOr MNone CEdge] in
  elements (gr d0) = [1; 3; -6] /\
  elements (gr d) = [1; 2; 3; -6] /\
  forall rv,
    search rv d (ex_query 0 0 conds) = SOk [1; 2; -6] /\
    search rv d (ex_query 0 0 []) = SOk [1; 2; 3; -6] /\
    search rv d (ex_query 1 1 conds) = SOk [2] /\
    search rv d (ex_query 0 0 [Cond LAnd MNone (CEdgeCount (KGreaterThan 1))]) = SOk [3].
Proof. vm_compute. repeat split; reflexivity. Qed.
