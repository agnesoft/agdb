(* UndoGraph.v — C13, the graph (Graph.v slot arrays) seen through an abstract view:
   kind of every slot, out-/in-lists of every node, node count, the LIFO free list and the capacity.
   `rep g a` = the arrays g are well formed and represent the abstract graph a.
   Allocation and release of slots (get_free_index, free_index, insert_node, remove_node of an
   isolated node) are the operations of the abstract LIFO free list. *)
From Agdb Require Import Bytes BytesProofs DbValue Graph DbModel UndoBase UndoObs UndoKv UndoGraphBase.
From Coq Require Import Permutation ZifyBool ZifyNat ZifyN.
Ltac Zify.zify_post_hook ::= Z.div_mod_to_equations.
Open Scope Z_scope.

Definition two63z : Z := 9223372036854775808.

Record ag := {
  ak : Z -> skind;          (* kind of slot i (i > 0) *)
  aout : Z -> list Z;       (* out-list of node n: edge slots, newest first *)
  ain : Z -> list Z;        (* in-list *)
  acount : Z;               (* node count *)
  afree : list Z;           (* free list, next slot to be handed out first *)
  acap : Z                  (* capacity: first never-used slot *)
}.

Definition upd {A} (f : Z -> A) (i : Z) (v : A) : Z -> A := fun j => if j =? i then v else f j.

Lemma upd_same {A} (f : Z -> A) i v : upd f i v i = v.
Proof. unfold upd. rewrite Z.eqb_refl. reflexivity. Qed.
Lemma upd_other {A} (f : Z -> A) i v j : j <> i -> upd f i v j = f j.
Proof. unfold upd. intros. destruct (Z.eqb_spec j i); [contradiction | reflexivity]. Qed.

(* r_free_in: free_index zeroes from, to and tmeta of the slot it frees, and rep_activate relies on
   it when the slot becomes an isolated node again.  r_cap: ids are i64 and the free chain ends in
   i64::MIN, so slot 2^63 (stored negated) would collide with the sentinel.
   Xo / Xi: edge slots that are currently detached from their source's out-list / their
   target's in-list (only inside insert_edge / remove_edge; both empty otherwise) *)
Record rep_x (g : graph) (a : ag) (Xo Xi : Z -> Prop) : Prop := {
  r_lens : lens_ok g;
  r_cap : 1 <= capacity g <= two63z;
  r_acap : acap a = capacity g;
  r_count : acount a = node_count g;
  r_free : fchain (fmeta g) (fmeta g 0) (afree a);
  r_free_nd : NoDup (afree a);
  r_free_in : forall s, In s (afree a) ->
      0 < s < capacity g /\ fmeta g s < 0 /\ from g s = 0 /\ to g s = 0 /\ tmeta g s = 0;
  r_kind : forall i, 0 < i -> ak a i = slot_kind g i;
  r_out : forall n, 0 < n -> ak a n = KNode ->
      chain (fmeta g) (from g n) (aout a n) /\ NoDup (aout a n) /\ fmeta g n = Z.of_nat (length (aout a n));
  r_in : forall n, 0 < n -> ak a n = KNode ->
      chain (tmeta g) (to g n) (ain a n) /\ NoDup (ain a n) /\ tmeta g n = Z.of_nat (length (ain a n));
  r_out_mem : forall n e, 0 < n -> ak a n = KNode ->
      (In e (aout a n) <-> 0 < e /\ (exists t, ak a e = KEdge n t) /\ ~ Xo e);
  r_in_mem : forall n e, 0 < n -> ak a n = KNode ->
      (In e (ain a n) <-> 0 < e /\ (exists f, ak a e = KEdge f n) /\ ~ Xi e);
  r_edge : forall e f t, 0 < e -> ak a e = KEdge f t -> 0 < f /\ 0 < t /\ ak a f = KNode /\ ak a t = KNode
}.

Definition xnone : Z -> Prop := fun _ => False.
Definition rep (g : graph) (a : ag) : Prop := rep_x g a xnone xnone.

Lemma rep_x_ext g a Xo Xi Xo' Xi' :
  (forall x, Xo x <-> Xo' x) -> (forall x, Xi x <-> Xi' x) -> rep_x g a Xo Xi -> rep_x g a Xo' Xi'.
Proof.
  intros Eo Ei R. destruct R. constructor; auto.
  - intros n e Hn Hk. rewrite r_out_mem0 by assumption. rewrite Eo. reflexivity.
  - intros n e Hn Hk. rewrite r_in_mem0 by assumption. rewrite Ei. reflexivity.
Qed.

Lemma slot_kind_node g n : 0 < n ->
  (slot_kind g n = KNode <-> n < capacity g /\ 0 <= fmeta g n /\ 0 <= from g n).
Proof.
  intros Hn. unfold slot_kind, valid_index.
  destruct (Z.eqb_spec n 0); [lia|]. cbn [negb andb]. rewrite Z.abs_eq by lia.
  destruct (Z.ltb_spec n (capacity g)); cbn [andb]; [|split; [discriminate | lia]].
  destruct (Z.ltb_spec (fmeta g n) 0); cbn [negb]; [split; [discriminate | lia]|].
  destruct (Z.ltb_spec (from g n) 0); [split; [discriminate | lia] | split; [lia | reflexivity]].
Qed.

Lemma slot_kind_edge g e f t : 0 < e ->
  (slot_kind g e = KEdge f t <-> e < capacity g /\ 0 <= fmeta g e /\ from g e < 0 /\ f = - from g e /\ t = - to g e).
Proof.
  intros Hn. unfold slot_kind, valid_index, edge_from, edge_to.
  destruct (Z.eqb_spec e 0); [lia|]. cbn [negb andb]. rewrite Z.abs_eq by lia.
  destruct (Z.ltb_spec e (capacity g)); cbn [andb]; [|split; [discriminate | lia]].
  destruct (Z.ltb_spec (fmeta g e) 0); cbn [negb]; [split; [discriminate | lia]|].
  destruct (Z.ltb_spec (from g e) 0).
  - split; [intros [= -> ->]; lia | intros (_ & _ & _ & -> & ->); reflexivity].
  - split; [discriminate | lia].
Qed.

Lemma slot_kind_free g i : 0 < i ->
  (slot_kind g i = KFree <-> capacity g <= i \/ fmeta g i < 0).
Proof.
  intros Hn. unfold slot_kind, valid_index.
  destruct (Z.eqb_spec i 0); [lia|]. cbn [negb andb]. rewrite Z.abs_eq by lia.
  destruct (Z.ltb_spec i (capacity g)); cbn [andb]; [|split; [lia | reflexivity]].
  destruct (Z.ltb_spec (fmeta g i) 0); cbn [negb]; [split; [lia | reflexivity]|].
  destruct (Z.ltb_spec (from g i) 0); split; try discriminate; lia.
Qed.

(* slot_kind only depends on the capacity test and on fmeta/from/to at the slot *)
Lemma slot_kind_ext g g' i : 0 < i ->
  ((i <? capacity g') = (i <? capacity g)) ->
  fmeta g' i = fmeta g i -> from g' i = from g i -> to g' i = to g i ->
  slot_kind g' i = slot_kind g i.
Proof.
  intros Hi Hc Hf Hfr Hto. unfold slot_kind, valid_index, edge_from, edge_to.
  rewrite Z.abs_eq by lia. rewrite Hc, Hf, Hfr, Hto. reflexivity.
Qed.

Lemma is_node_kind g n : 0 < n -> is_node g n = true <-> slot_kind g n = KNode.
Proof.
  intros Hn. unfold is_node, slot_kind. destruct (valid_index g n); cbn [andb]; [|split; discriminate].
  destruct (Z.leb_spec 0 (from g n)), (Z.ltb_spec (from g n) 0); try lia; split; try discriminate; auto.
Qed.

Lemma is_edge_kind g e : 0 < e -> is_edge g e = true <-> exists f t, slot_kind g e = KEdge f t.
Proof.
  intros Hn. unfold is_edge, slot_kind. destruct (valid_index g e); cbn [andb].
  - destruct (Z.ltb_spec (from g e) 0); split; try discriminate; eauto. intros (f & t & Hk). discriminate.
  - split; [discriminate|]. intros (f & t & Hk). discriminate.
Qed.

Lemma valid_index_opp g i : valid_index g (- i) = valid_index g i.
Proof.
  unfold valid_index. rewrite fmeta_opp, Z.abs_opp. replace (- i =? 0) with (i =? 0) by lia. reflexivity.
Qed.
Lemma is_node_opp g i : is_node g (- i) = is_node g i.
Proof. unfold is_node. rewrite valid_index_opp, from_opp. reflexivity. Qed.
Lemma is_edge_opp g i : is_edge g (- i) = is_edge g i.
Proof. unfold is_edge. rewrite valid_index_opp, from_opp. reflexivity. Qed.

Section RepFacts.
  Variables (g : graph) (a : ag) (Xo Xi : Z -> Prop).
  Hypothesis R : rep_x g a Xo Xi.

  Lemma rep_free_range s : In s (afree a) -> 0 < s < capacity g.
  Proof. intros Hs. destruct (r_free_in _ _ _ _ R s Hs) as (Hr & _). exact Hr. Qed.

  Lemma rep_free_kind s : In s (afree a) -> ak a s = KFree.
  Proof.
    intros Hs. destruct (r_free_in _ _ _ _ R s Hs) as (Hr & Hf & _). rewrite (r_kind _ _ _ _ R) by lia.
    apply slot_kind_free; lia.
  Qed.

  Lemma rep_out_of_range i : capacity g <= i -> ak a i = KFree.
  Proof.
    intros Hi. pose proof (r_cap _ _ _ _ R). rewrite (r_kind _ _ _ _ R) by lia. apply slot_kind_free; lia.
  Qed.

  Lemma rep_node_range n : 0 < n -> ak a n = KNode -> n < capacity g /\ 0 <= fmeta g n /\ 0 <= from g n.
  Proof. intros Hn Hk. rewrite (r_kind _ _ _ _ R) in Hk by assumption. apply slot_kind_node in Hk; assumption. Qed.

  Lemma rep_edge_arrays e f t : 0 < e -> ak a e = KEdge f t ->
    e < capacity g /\ 0 <= fmeta g e /\ from g e = - f /\ to g e = - t /\ 0 < f /\ 0 < t.
  Proof.
    intros He Hk. destruct (r_edge _ _ _ _ R e f t He Hk) as (Hf & Ht & _).
    rewrite (r_kind _ _ _ _ R) in Hk by assumption. apply slot_kind_edge in Hk; [|assumption]. lia.
  Qed.

  Lemma rep_out_range n e : 0 < n -> ak a n = KNode -> In e (aout a n) -> 0 < e < capacity g.
  Proof.
    intros Hn Hk He. apply (r_out_mem _ _ _ _ R) in He; [|assumption|assumption]. destruct He as (He & (t & Ht) & _).
    pose proof (rep_edge_arrays e n t He Ht). lia.
  Qed.
  Lemma rep_in_range n e : 0 < n -> ak a n = KNode -> In e (ain a n) -> 0 < e < capacity g.
  Proof.
    intros Hn Hk He. apply (r_in_mem _ _ _ _ R) in He; [|assumption|assumption]. destruct He as (He & (f & Hf) & _).
    pose proof (rep_edge_arrays e f n He Hf). lia.
  Qed.

  Lemma rep_out_edge n e : 0 < n -> ak a n = KNode -> In e (aout a n) -> exists t, ak a e = KEdge n t.
  Proof. intros Hn Hk He. apply (r_out_mem _ _ _ _ R) in He; tauto. Qed.
  Lemma rep_in_edge n e : 0 < n -> ak a n = KNode -> In e (ain a n) -> exists f, ak a e = KEdge f n.
  Proof. intros Hn Hk He. apply (r_in_mem _ _ _ _ R) in He; tauto. Qed.

  Lemma rep_free_empty : fmeta g 0 = i64_min <-> afree a = [].
  Proof. eapply fchain_nil_iff, (r_free _ _ _ _ R). Qed.

  Lemma rep_out_length n : 0 < n -> ak a n = KNode -> (length (aout a n) <= length (g_from g))%nat.
  Proof.
    intros Hn Hk. destruct (r_out _ _ _ _ R n Hn Hk) as (_ & Hnd & _).
    apply NoDup_bounded_length; [assumption|]. intros e He. pose proof (rep_out_range n e Hn Hk He).
    unfold capacity in *. lia.
  Qed.
  Lemma rep_in_length n : 0 < n -> ak a n = KNode -> (length (ain a n) <= length (g_from g))%nat.
  Proof.
    intros Hn Hk. destruct (r_in _ _ _ _ R n Hn Hk) as (_ & Hnd & _).
    apply NoDup_bounded_length; [assumption|]. intros e He. pose proof (rep_in_range n e Hn Hk He).
    unfold capacity in *. lia.
  Qed.
End RepFacts.

Lemma rep_edge_in_out g a e f t : rep g a -> 0 < e -> ak a e = KEdge f t -> In e (aout a f) /\ In e (ain a t).
Proof.
  intros R He Hk. destruct (r_edge _ _ _ _ R e f t He Hk) as (Hf & Ht & Kf & Kt). split.
  - apply (r_out_mem _ _ _ _ R); [assumption|assumption|]. split; [assumption|]. split; [eauto | intros []].
  - apply (r_in_mem _ _ _ _ R); [assumption|assumption|]. split; [assumption|]. split; [eauto | intros []].
Qed.

Definition ag_new : ag :=
  {| ak := fun _ => KFree; aout := fun _ => []; ain := fun _ => []; acount := 0; afree := []; acap := 1 |}.

Lemma rep_new : rep graph_new ag_new.
Proof.
  constructor; cbn [ak aout ain acount afree acap ag_new]; try (intros; discriminate).
  - repeat split.
  - unfold two63z. cbn. lia.
  - reflexivity.
  - reflexivity.
  - constructor.
  - constructor.
  - intros s [].
  - intros i Hi. symmetry. apply slot_kind_free; [assumption|]. left. cbn. lia.
Qed.

(* activating a free slot as an isolated node: the common core of the two branches of rep_alloc
   (a slot popped from the free list, or the fresh slot after growing) *)

Definition a_activate (a : ag) (s : Z) (fl : list Z) (cap : Z) : ag :=
  {| ak := upd (ak a) s KNode; aout := upd (aout a) s []; ain := upd (ain a) s [];
     acount := acount a; afree := fl; acap := cap |}.

Lemma rep_activate g a Xo Xi g' s fl :
  rep_x g a Xo Xi ->
  lens_ok g' -> capacity g <= capacity g' <= two63z -> 0 < s < capacity g' ->
  (forall i, capacity g <= i < capacity g' -> i = s) ->
  ak a s = KFree ->
  from g s = 0 -> to g s = 0 -> tmeta g s = 0 ->
  (forall j, from g' j = from g j) -> (forall j, to g' j = to g j) -> (forall j, tmeta g' j = tmeta g j) ->
  (forall j, 0 < j -> j <> s -> fmeta g' j = fmeta g j) -> fmeta g' s = 0 ->
  fchain (fmeta g') (fmeta g' 0) fl -> NoDup fl -> (forall x, In x fl -> In x (afree a) /\ x <> s) ->
  rep_x g' (a_activate a s fl (capacity g')) Xo Xi.
Proof.
  intros R Hl Hcap Hs Hnew Hfree Hfs Hts Htms Hfrom Hto Htm Hfm Hfms Hch Hnd Hfl.
  assert (Hk' : forall i, 0 < i -> i <> s -> slot_kind g' i = slot_kind g i).
  { intros i Hi Hne. apply slot_kind_ext; auto.
    destruct (Z.ltb_spec i (capacity g)), (Z.ltb_spec i (capacity g')); try reflexivity; try lia.
    all: try (exfalso; apply Hne, Hnew; lia). }
  assert (Hnoedge : forall e f t, 0 < e -> ak a e = KEdge f t -> e <> s /\ f <> s /\ t <> s).
  { intros e f t He Hk. destruct (r_edge _ _ _ _ R e f t He Hk) as (_ & _ & Kf & Kt).
    repeat split; intros ->; congruence. }
  constructor; cbn [a_activate ak aout ain acount afree acap].
  - assumption.
  - pose proof (r_cap _ _ _ _ R). lia.
  - reflexivity.
  - rewrite (r_count _ _ _ _ R). unfold node_count. symmetry. apply Htm.
  - assumption.
  - assumption.
  - intros x Hx. destruct (Hfl x Hx) as (Hin & Hne).
    destruct (r_free_in _ _ _ _ R x Hin) as (Hr & Hf & H1 & H2 & H3).
    rewrite Hfm, Hfrom, Hto, Htm by lia. repeat split; try assumption; lia.
  - intros i Hi. destruct (Z.eq_dec i s) as [->|Hne].
    + rewrite upd_same. symmetry. apply slot_kind_node; [lia|]. rewrite Hfms, Hfrom, Hfs. lia.
    + rewrite upd_other by assumption. rewrite Hk' by assumption. apply (r_kind _ _ _ _ R). assumption.
  - intros n Hn Hk. destruct (Z.eq_dec n s) as [->|Hne].
    + rewrite upd_same. rewrite Hfrom, Hfs, Hfms. repeat split; constructor.
    + rewrite upd_other in Hk by assumption; rewrite ?upd_other by assumption. destruct (r_out _ _ _ _ R n Hn Hk) as (Hc & Hnd' & Hdeg).
      rewrite Hfrom, Hfm by assumption. repeat split; try assumption.
      eapply chain_ext; [exact Hc|]. intros e He.
      destruct (rep_out_edge _ _ _ _ R n e Hn Hk He) as (t & Ht).
      pose proof (rep_out_range _ _ _ _ R n e Hn Hk He).
      destruct (Hnoedge e n t) as (Hes & _); [lia | assumption|]. apply Hfm; lia.
  - intros n Hn Hk. destruct (Z.eq_dec n s) as [->|Hne].
    + rewrite upd_same. rewrite Hto, Hts, Htm, Htms. repeat split; constructor.
    + rewrite upd_other in Hk by assumption; rewrite ?upd_other by assumption. destruct (r_in _ _ _ _ R n Hn Hk) as (Hc & Hnd' & Hdeg).
      rewrite Hto, Htm. repeat split; try assumption.
      eapply chain_ext; [exact Hc|]. intros e He. apply Htm.
  - intros n e Hn Hk. destruct (Z.eq_dec n s) as [->|Hne].
    + rewrite upd_same. split; [intros []|]. intros (He & (t & Ht) & _). exfalso.
      destruct (Z.eq_dec e s) as [->|Hes]; [rewrite upd_same in Ht; discriminate|].
      rewrite upd_other in Ht by assumption. destruct (Hnoedge e s t He Ht) as (_ & Hc & _). congruence.
    + rewrite upd_other in Hk by assumption; rewrite ?upd_other by assumption. rewrite (r_out_mem _ _ _ _ R) by assumption.
      destruct (Z.eq_dec e s) as [->|Hes].
      * rewrite upd_same, Hfree. split; intros (_ & (t & Ht) & _); discriminate.
      * rewrite upd_other by assumption. reflexivity.
  - intros n e Hn Hk. destruct (Z.eq_dec n s) as [->|Hne].
    + rewrite upd_same. split; [intros []|]. intros (He & (f & Hf) & _). exfalso.
      destruct (Z.eq_dec e s) as [->|Hes]; [rewrite upd_same in Hf; discriminate|].
      rewrite upd_other in Hf by assumption. destruct (Hnoedge e f s He Hf) as (_ & _ & Hc). congruence.
    + rewrite upd_other in Hk by assumption; rewrite ?upd_other by assumption. rewrite (r_in_mem _ _ _ _ R) by assumption.
      destruct (Z.eq_dec e s) as [->|Hes].
      * rewrite upd_same, Hfree. split; intros (_ & (t & Ht) & _); discriminate.
      * rewrite upd_other by assumption. reflexivity.
  - intros e f t He Hk. destruct (Z.eq_dec e s) as [->|Hes]; [rewrite upd_same in Hk; discriminate|].
    rewrite upd_other in Hk by assumption. destruct (r_edge _ _ _ _ R e f t He Hk) as (Hf & Ht & Kf & Kt).
    destruct (Hnoedge e f t He Hk) as (_ & Hfs' & Hts').
    rewrite !upd_other by assumption. auto.
Qed.

Definition a_alloc (a : ag) : Z * ag :=
  match afree a with
  | [] => (acap a, a_activate a (acap a) [] (acap a + 1))
  | s :: fl => (s, a_activate a s fl (acap a))
  end.

Lemma rep_alloc g a Xo Xi i g' :
  rep_x g a Xo Xi -> get_free_index g = (i, g') -> capacity g' <= two63z ->
  i = fst (a_alloc a) /\ rep_x g' (snd (a_alloc a)) Xo Xi.
Proof.
  intros R Hg Hb. unfold get_free_index in Hg. unfold a_alloc.
  pose proof (r_lens _ _ _ _ R) as Hl. pose proof (r_cap _ _ _ _ R) as Hcap.
  destruct (Z.eqb_spec (fmeta g 0) i64_min) as [E|NE].
  - pose proof (proj1 (rep_free_empty _ _ _ _ R) E) as Hnil. rewrite Hnil.
    injection Hg as <- <-. rewrite (r_acap _ _ _ _ R). cbn [fst snd]. split; [reflexivity|].
    rewrite cap_grow in Hb. replace (capacity g + 1) with (capacity (grow g)) by apply cap_grow.
    apply (rep_activate g a Xo Xi); auto using lens_grow, from_grow, to_grow, tmeta_grow.
    + rewrite cap_grow. lia.
    + rewrite cap_grow. lia.
    + rewrite cap_grow. intros; lia.
    + eapply rep_out_of_range; [exact R | lia].
    + apply from_out. lia.
    + apply to_out; [assumption | lia].
    + apply tmeta_out; [assumption | lia].
    + intros. apply fmeta_grow.
    + rewrite fmeta_grow. apply fmeta_out; [assumption | lia].
    + rewrite fmeta_grow, E. constructor.
    + constructor.
    + intros x [].
  - pose proof (r_free _ _ _ _ R) as Hch. pose proof (r_free_nd _ _ _ _ R) as Hnd.
    pose proof (r_free_in _ _ _ _ R) as Hin.
    destruct (afree a) as [|s fl] eqn:Efl; inversion Hch as [E0|s' l' Hs Hm Hrest E0]; subst; [congruence|].
    rewrite <- E0 in Hg. rewrite !Z.opp_involutive in Hg. injection Hg as <- <-. cbn [fst snd]. split; [reflexivity|].
    inversion Hnd as [|? ? Hns Hnd']. subst.
    destruct (Hin s (or_introl eq_refl)) as (Hr & Hf & H1 & H2 & H3).
    assert (Hl1 : lens_ok (set_fmeta g 0 (fmeta g s))) by (apply lens_set_fmeta, Hl).
    set (g' := set_fmeta (set_fmeta g 0 (fmeta g s)) s 0).
    replace (acap a) with (capacity g') by (symmetry; apply (r_acap _ _ _ _ R)).
    apply (rep_activate g a Xo Xi); auto.
    + apply lens_set_fmeta, Hl1.
    + unfold g'. rewrite !cap_set_fmeta. lia.
    + unfold g'. rewrite !cap_set_fmeta. intros; lia.
    + eapply rep_free_kind; [exact R|]. rewrite Efl. left. reflexivity.
    + intros j Hj Hne. unfold g'. rewrite fmeta_set_fmeta by (auto; rewrite ?cap_set_fmeta; lia).
      destruct (Z.eqb_spec s j); [lia|]. rewrite fmeta_set_fmeta by (auto; lia).
      destruct (Z.eqb_spec 0 j); [lia | reflexivity].
    + unfold g'. rewrite fmeta_set_fmeta by (auto; rewrite ?cap_set_fmeta; lia). rewrite Z.eqb_refl. reflexivity.
    + assert (E1 : fmeta g' 0 = fmeta g s).
      { unfold g'. rewrite fmeta_set_fmeta by (auto; rewrite ?cap_set_fmeta; lia).
        destruct (Z.eqb_spec s 0); [lia|]. rewrite fmeta_set_fmeta by (auto; lia). rewrite Z.eqb_refl. reflexivity. }
      rewrite E1. eapply fchain_ext; [exact Hrest|]. intros x Hx.
      destruct (Hin x (or_intror Hx)) as (Hxr & _).
      unfold g'. rewrite fmeta_set_fmeta by (auto; rewrite ?cap_set_fmeta; lia).
      destruct (Z.eqb_spec s x); [subst; contradiction|]. rewrite fmeta_set_fmeta by (auto; lia).
      destruct (Z.eqb_spec 0 x); [lia | reflexivity].
    + intros x Hx. rewrite Efl. split; [right; assumption|]. intros ->. contradiction.
Qed.

(* releasing a slot nobody refers to (free_index) *)

Definition a_release (a : ag) (s : Z) : ag :=
  {| ak := upd (ak a) s KFree; aout := aout a; ain := ain a; acount := acount a;
     afree := s :: afree a; acap := acap a |}.

Lemma fchain_head_neg nx h l : fchain nx h l -> h < 0.
Proof. destruct 1; unfold i64_min in *; lia. Qed.

Section FreeIndex.
  Variables (g : graph) (s : Z).
  Hypothesis Hl : lens_ok g.
  Hypothesis Hs : 0 < s < capacity g.

  Lemma fmeta_free_index j : 0 <= j ->
    fmeta (free_index g s) j = if j =? 0 then - s else if j =? s then fmeta g 0 else fmeta g j.
  Proof.
    intros Hj. unfold free_index. rewrite fmeta_set_tmeta, fmeta_set_to, fmeta_set_from.
    rewrite fmeta_set_fmeta by (auto using lens_set_fmeta; rewrite ?cap_set_fmeta; lia).
    destruct (Z.eqb_spec 0 j), (Z.eqb_spec j 0); try lia.
    rewrite fmeta_set_fmeta by (auto; lia).
    destruct (Z.eqb_spec s j), (Z.eqb_spec j s); try lia; reflexivity.
  Qed.
  Lemma from_free_index j : 0 <= j -> from (free_index g s) j = if j =? s then 0 else from g j.
  Proof.
    intros Hj. unfold free_index. rewrite from_set_tmeta, from_set_to.
    rewrite from_set_from by (auto using lens_set_fmeta; rewrite ?cap_set_fmeta; lia).
    destruct (Z.eqb_spec s j), (Z.eqb_spec j s); try lia; reflexivity.
  Qed.
  Lemma to_free_index j : 0 <= j -> to (free_index g s) j = if j =? s then 0 else to g j.
  Proof.
    intros Hj. unfold free_index. rewrite to_set_tmeta.
    rewrite to_set_to by (auto using lens_set_fmeta, lens_set_from; rewrite ?cap_set_from, ?cap_set_fmeta; lia).
    destruct (Z.eqb_spec s j), (Z.eqb_spec j s); try lia; reflexivity.
  Qed.
  Lemma tmeta_free_index j : 0 <= j -> tmeta (free_index g s) j = if j =? s then 0 else tmeta g j.
  Proof.
    intros Hj. unfold free_index.
    rewrite tmeta_set_tmeta by (auto using lens_set_fmeta, lens_set_from, lens_set_to; rewrite ?cap_set_to, ?cap_set_from, ?cap_set_fmeta; lia).
    destruct (Z.eqb_spec s j), (Z.eqb_spec j s); try lia; reflexivity.
  Qed.
  Lemma cap_free_index : capacity (free_index g s) = capacity g.
  Proof. unfold free_index. rewrite cap_set_tmeta, cap_set_to, cap_set_from, !cap_set_fmeta. reflexivity. Qed.
  Lemma lens_free_index : lens_ok (free_index g s).
  Proof.
    unfold free_index. apply lens_set_tmeta, lens_set_to, lens_set_from, lens_set_fmeta, lens_set_fmeta, Hl.
  Qed.
End FreeIndex.

Lemma rep_release g a Xo Xi s :
  rep_x g a Xo Xi -> 0 < s < capacity g -> 0 <= fmeta g s ->
  (forall n, 0 < n -> ak a n = KNode -> ~ In s (aout a n) /\ ~ In s (ain a n)) ->
  (forall e f t, 0 < e -> e <> s -> ak a e = KEdge f t -> f <> s /\ t <> s) ->
  rep_x (free_index g s) (a_release a s) (fun x => Xo x /\ x <> s) (fun x => Xi x /\ x <> s).
Proof.
  intros R Hs Hv Hnol Hnoe.
  pose proof (r_lens _ _ _ _ R) as Hl. pose proof (r_cap _ _ _ _ R) as Hcap.
  assert (Hnf : ~ In s (afree a)).
  { intros Hin. destruct (r_free_in _ _ _ _ R s Hin) as (_ & Hneg & _). lia. }
  assert (Hfm : forall j, 0 < j -> j <> s -> fmeta (free_index g s) j = fmeta g j).
  { intros j Hj Hne. rewrite fmeta_free_index by (auto; lia).
    destruct (Z.eqb_spec j 0); [lia|]. destruct (Z.eqb_spec j s); [lia | reflexivity]. }
  assert (Hfr : forall j, 0 < j -> j <> s -> from (free_index g s) j = from g j).
  { intros j Hj Hne. rewrite from_free_index by (auto; lia). destruct (Z.eqb_spec j s); [lia | reflexivity]. }
  assert (Hto : forall j, 0 < j -> j <> s -> to (free_index g s) j = to g j).
  { intros j Hj Hne. rewrite to_free_index by (auto; lia). destruct (Z.eqb_spec j s); [lia | reflexivity]. }
  assert (Htm : forall j, 0 <= j -> j <> s -> tmeta (free_index g s) j = tmeta g j).
  { intros j Hj Hne. rewrite tmeta_free_index by (auto; lia). destruct (Z.eqb_spec j s); [lia | reflexivity]. }
  constructor; cbn [a_release ak aout ain acount afree acap].
  - apply lens_free_index, Hl.
  - rewrite cap_free_index. assumption.
  - rewrite cap_free_index. apply (r_acap _ _ _ _ R).
  - rewrite (r_count _ _ _ _ R). unfold node_count. symmetry. apply Htm; lia.
  - rewrite fmeta_free_index by (auto; lia). rewrite Z.eqb_refl. constructor; [lia | unfold i64_min, two63z in *; lia |].
    rewrite fmeta_free_index by (auto; lia). destruct (Z.eqb_spec s 0); [lia|]. rewrite Z.eqb_refl.
    eapply fchain_ext; [apply (r_free _ _ _ _ R)|]. intros x Hx.
    pose proof (rep_free_range _ _ _ _ R x Hx). apply Hfm; [lia|]. intros ->. contradiction.
  - constructor; [assumption | apply (r_free_nd _ _ _ _ R)].
  - rewrite cap_free_index. intros x [<-|Hx].
    + rewrite fmeta_free_index, from_free_index, to_free_index, tmeta_free_index by (auto; lia).
      destruct (Z.eqb_spec s 0); [lia|]. rewrite Z.eqb_refl.
      pose proof (fchain_head_neg _ _ _ (r_free _ _ _ _ R)). repeat split; lia.
    + destruct (r_free_in _ _ _ _ R x Hx) as (Hr & Hf & H1 & H2 & H3).
      assert (x <> s) by (intros ->; contradiction).
      rewrite Hfm, Hfr, Hto, Htm by lia. repeat split; try assumption; lia.
  - intros i Hi. destruct (Z.eq_dec i s) as [->|Hne].
    + rewrite upd_same. symmetry. apply slot_kind_free; [lia|]. right.
      rewrite fmeta_free_index by (auto; lia). destruct (Z.eqb_spec s 0); [lia|]. rewrite Z.eqb_refl.
      apply (fchain_head_neg _ _ _ (r_free _ _ _ _ R)).
    + rewrite upd_other by assumption. rewrite (r_kind _ _ _ _ R) by assumption. symmetry.
      apply slot_kind_ext; auto. rewrite cap_free_index. reflexivity.
  - intros n Hn Hk. destruct (Z.eq_dec n s) as [->|Hne]; [rewrite upd_same in Hk; discriminate|].
    rewrite upd_other in Hk by assumption. destruct (r_out _ _ _ _ R n Hn Hk) as (Hc & Hnd' & Hdeg).
    rewrite Hfr, Hfm by assumption. repeat split; try assumption.
    eapply chain_ext; [exact Hc|]. intros e He.
    pose proof (rep_out_range _ _ _ _ R n e Hn Hk He). apply Hfm; [lia|]. intros ->.
    apply (proj1 (Hnol n Hn Hk)), He.
  - intros n Hn Hk. destruct (Z.eq_dec n s) as [->|Hne]; [rewrite upd_same in Hk; discriminate|].
    rewrite upd_other in Hk by assumption. destruct (r_in _ _ _ _ R n Hn Hk) as (Hc & Hnd' & Hdeg).
    rewrite Hto, Htm by (assumption || lia). repeat split; try assumption.
    eapply chain_ext; [exact Hc|]. intros e He.
    pose proof (rep_in_range _ _ _ _ R n e Hn Hk He). apply Htm; [lia|]. intros ->.
    apply (proj2 (Hnol n Hn Hk)), He.
  - intros n e Hn Hk. destruct (Z.eq_dec n s) as [->|Hne]; [rewrite upd_same in Hk; discriminate|].
    rewrite upd_other in Hk by assumption. rewrite (r_out_mem _ _ _ _ R) by assumption.
    destruct (Z.eq_dec e s) as [->|Hes].
    + rewrite upd_same. split.
      * intros Hc. exfalso. apply (proj1 (Hnol n Hn Hk)). apply (r_out_mem _ _ _ _ R); assumption.
      * intros (_ & (t & Ht) & _). discriminate.
    + rewrite upd_other by assumption. tauto.
  - intros n e Hn Hk. destruct (Z.eq_dec n s) as [->|Hne]; [rewrite upd_same in Hk; discriminate|].
    rewrite upd_other in Hk by assumption. rewrite (r_in_mem _ _ _ _ R) by assumption.
    destruct (Z.eq_dec e s) as [->|Hes].
    + rewrite upd_same. split.
      * intros Hc. exfalso. apply (proj2 (Hnol n Hn Hk)). apply (r_in_mem _ _ _ _ R); assumption.
      * intros (_ & (t & Ht) & _). discriminate.
    + rewrite upd_other by assumption. tauto.
  - intros e f t He Hk. destruct (Z.eq_dec e s) as [->|Hes]; [rewrite upd_same in Hk; discriminate|].
    rewrite upd_other in Hk by assumption. destruct (r_edge _ _ _ _ R e f t He Hk) as (Hf & Ht & Kf & Kt).
    destruct (Hnoe e f t He Hes Hk) as (Hfs & Hts). rewrite !upd_other by assumption. auto.
Qed.

Definition a_set_count (a : ag) (c : Z) : ag :=
  {| ak := ak a; aout := aout a; ain := ain a; acount := c; afree := afree a; acap := acap a |}.

Lemma rep_set_count g a Xo Xi c :
  rep_x g a Xo Xi -> rep_x (set_tmeta g 0 c) (a_set_count a c) Xo Xi.
Proof.
  intros R. pose proof (r_lens _ _ _ _ R) as Hl. pose proof (r_cap _ _ _ _ R) as Hcap.
  assert (Htm : forall j, 0 < j -> tmeta (set_tmeta g 0 c) j = tmeta g j).
  { intros j Hj. rewrite tmeta_set_tmeta by (auto; lia). destruct (Z.eqb_spec 0 j); [lia | reflexivity]. }
  constructor; cbn [a_set_count ak aout ain acount afree acap];
    try (first [apply (r_acap _ _ _ _ R) | apply (r_free _ _ _ _ R) | apply (r_free_nd _ _ _ _ R)
               | apply (r_kind _ _ _ _ R) | apply (r_out _ _ _ _ R) | apply (r_out_mem _ _ _ _ R)
               | apply (r_in_mem _ _ _ _ R) | apply (r_edge _ _ _ _ R) ]; fail); auto using lens_set_tmeta.
  - unfold node_count. rewrite tmeta_set_tmeta by (auto; lia). reflexivity.
  - intros s Hs. destruct (r_free_in _ _ _ _ R s Hs) as (Hr & Hf & H1 & H2 & H3). rewrite Htm by lia. auto.
  - intros n Hn Hk. destruct (r_in _ _ _ _ R n Hn Hk) as (Hc & Hnd & Hdeg). rewrite Htm by assumption.
    repeat split; try assumption. eapply chain_ext; [exact Hc|]. intros e He.
    apply Htm. pose proof (chain_pos _ _ _ Hc) as Hp. rewrite Forall_forall in Hp. apply Hp, He.
Qed.

Definition a_insert_node (a : ag) : Z * ag :=
  let '(i, a1) := a_alloc a in (i, a_set_count a1 (acount a1 + 1)).

Lemma rep_insert_node g a i g' :
  rep g a -> insert_node g = (i, g') -> capacity g' <= two63z ->
  i = fst (a_insert_node a) /\ rep g' (snd (a_insert_node a)).
Proof.
  unfold insert_node, a_insert_node, rep. intros R Hg Hb.
  destruct (get_free_index g) as [i1 g1] eqn:Eg. injection Hg as <- <-.
  rewrite cap_set_tmeta in Hb. destruct (rep_alloc _ _ _ _ _ _ R Eg Hb) as (Ei & R1).
  destruct (a_alloc a) as [i2 a1]. cbn [fst snd] in *. split; [assumption|].
  rewrite (r_count _ _ _ _ R1). apply rep_set_count, R1.
Qed.

Lemma remove_from_edges_zero fuel g : remove_from_edges fuel g 0 = Some g.
Proof. destruct fuel; reflexivity. Qed.
Lemma remove_to_edges_zero fuel g : remove_to_edges fuel g 0 = Some g.
Proof. destruct fuel; reflexivity. Qed.

Definition a_remove_node (a : ag) (n : Z) : ag :=
  let a1 := a_release a n in a_set_count a1 (acount a1 - 1).

Lemma rep_remove_node g a n :
  rep g a -> 0 < n -> ak a n = KNode -> aout a n = [] -> ain a n = [] ->
  exists g', remove_node g n = Some g' /\ rep g' (a_remove_node a n) /\ capacity g' = capacity g.
Proof.
  unfold rep. intros R Hn Hk Ho Hi.
  pose proof (r_lens _ _ _ _ R) as Hl.
  destruct (rep_node_range _ _ _ _ R n Hn Hk) as (Hr & Hfm & Hfr).
  destruct (r_out _ _ _ _ R n Hn Hk) as (Hc & _). rewrite Ho in Hc. apply chain_head in Hc.
  destruct (r_in _ _ _ _ R n Hn Hk) as (Hc2 & _). rewrite Hi in Hc2. apply chain_head in Hc2.
  unfold remove_node.
  assert (Hin : is_node g n = true).
  { apply is_node_kind; [assumption|]. rewrite <- (r_kind _ _ _ _ R) by assumption. assumption. }
  rewrite Hin, Hc. cbn [Z.opp]. rewrite remove_from_edges_zero, Hc2. cbn [Z.opp]. rewrite remove_to_edges_zero.
  eexists. split; [reflexivity|]. split.
  - unfold a_remove_node.
    assert (R1 : rep_x (free_index g n) (a_release a n) xnone xnone).
    { eapply rep_x_ext; [| |apply (rep_release g a xnone xnone n R); try lia].
      - intros x. unfold xnone. tauto.
      - intros x. unfold xnone. tauto.
      - intros m Hm Hkm. split; intros Hc3.
        + destruct (rep_out_edge _ _ _ _ R m n Hm Hkm Hc3) as (t & Ht). congruence.
        + destruct (rep_in_edge _ _ _ _ R m n Hm Hkm Hc3) as (t & Ht). congruence.
      - intros e f t He Hne Hke. destruct (rep_edge_in_out g a e f t R He Hke) as (H1 & H2).
        split; intros ->; [rewrite Ho in H1 | rewrite Hi in H2]; contradiction. }
    rewrite (r_count _ _ _ _ R1). apply rep_set_count, R1.
  - rewrite cap_set_tmeta. apply cap_free_index.
Qed.
