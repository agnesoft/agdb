(* TraverseSpec.v — textbook EAGER breadth-first / depth-first specifications over the
   abstract adjacency of the graph (out_edges / edge_to forward, in_edges / edge_from in
   reverse), reachability, walks and distances.  Used by TraverseProofs.v (C14).

   The elements of the searched graph are the node ids (> 0) and the edge ids (< 0); one
   step of the successor relation goes from a node to each of its out-edges (newest first)
   and from an edge to its target node (reverse: in-edges / source node).  Every step counts
   1 in the distance.

   BFS: queue of (element, distance); when an unvisited element is dequeued it is appended to
        the result and ALL its successors are enqueued at the back (newest edge first).
   DFS: stack; when an unvisited element is popped it is appended to the result and ALL its
        successors are pushed so that the newest edge is on top.
   The visited test is made when an item is dequeued / popped. *)
From Agdb Require Import Bytes DbValue Graph DbModel Search.
Open Scope Z_scope.

Definition inb (x : Z) (l : list Z) : bool := existsb (Z.eqb x) l.

Section Spec.
  Variable g : graph.
  Variable a : algo.
  Variable rv : bool.      (* reverse search *)

  Definition succs (x : Z) : list Z :=
    if 0 <? x then (if rv then in_edges g x else out_edges g x)
    else [if rv then edge_from g x else edge_to g x].

  (* one iteration: None = the work list is empty *)
  Definition spec_step (E acc : list (Z * Z)) : option (list (Z * Z) * list (Z * Z)) :=
    match E with
    | [] => None
    | (x, k) :: rest =>
      if inb x (map fst acc) then Some (rest, acc)
      else
        let new := map (fun y => (y, k + 1)) (succs x) in
        Some (match a with BFS => rest ++ new | DFS => new ++ rest end, (x, k) :: acc)
    end.

  (* iterate; None = out of fuel (never happens with search_fuel: TraverseProofs.search_spec_run) *)
  Fixpoint spec_run (fuel : nat) (E acc : list (Z * Z)) : option (list (Z * Z)) :=
    match fuel with
    | O => None
    | S f =>
      match spec_step E acc with
      | None => Some (rev acc)
      | Some (E', acc') => spec_run f E' acc'
      end
    end.

  (* result: the visited elements with their distances, in visiting order *)
  Definition search_spec (origin : Z) : list (Z * Z) :=
    match spec_run (search_fuel g) [(origin, 0)] [] with
    | Some r => r
    | None => []
    end.

  (* ---- reachability, walks ---- *)
  Inductive reach (o : Z) : Z -> Prop :=
  | reach_refl : reach o o
  | reach_step : forall x y, reach o x -> In y (succs x) -> reach o y.

  (* walk o x k : x is reached from o by exactly k successor steps *)
  Inductive walk (o : Z) : Z -> Z -> Prop :=
  | walk_refl : walk o o 0
  | walk_step : forall x y k, walk o x k -> In y (succs x) -> walk o y (k + 1).

  (* k is the length of a shortest walk from o to x *)
  Definition shortest (o x k : Z) : Prop :=
    walk o x k /\ forall k', walk o x k' -> k <= k'.

  (* ---- the recursive textbook depth-first search (pre-order, newest edge first) ---- *)
  (* dfs_rec fuel x seen = seen extended by the pre-order of the DFS tree of x (first visits
     only), most recent first *)
  Fixpoint dfs_rec (fuel : nat) (x : Z) (seen : list Z) : list Z :=
    match fuel with
    | O => seen
    | S f =>
      if inb x seen then seen
      else fold_left (fun s y => dfs_rec f y s) (succs x) (x :: seen)
    end.
End Spec.

Definition bfs_spec (g : graph) (reverse : bool) (origin : Z) : list (Z * Z) := search_spec g BFS reverse origin.
Definition dfs_spec (g : graph) (reverse : bool) (origin : Z) : list (Z * Z) := search_spec g DFS reverse origin.
