(* StoredDbOpsLinkFinal2.v — proofs (stored database): the covered histories of StoredDbOpsLinkHist2.v on the MODEL OF storage.rs
   (C04; file-like and memory-like back-ends): from any storage state refining a record map that holds d (HInv d), so_open
   and the programs of a covered history either die by a panic of the storage (a request beyond 2^64 bytes) or return the
   ids `exec rv_fixed` reports in a state refining a record map that HOLDS the fold of `exec rv_fixed`; and what follows
   (so_then_maintenance): a maintenance operation and a reload — the loaded database answers every order-independent
   read-only query as the fold of exec does.  Twice: for so_covered_all (a removed element has a property), and for so_covered_all2 with the
   invariant slots_ok (stored_db_slots). *)
From Agdb Require Import Bytes DbModel Revisions Storage StorageSpec StorageRefine StorageProofs Collections CollWp
  CollVecBase StoredDb StoredDbRep StoredDbQueries StoredDbFinal StoredDbOps StoredDbOpsDb StoredDbOpsDb3
  StoredDbOpsLinkHist StoredDbOpsLinkHist2.
From Agdb Require HistoryAtomicProofs.
Open Scope N_scope.

(* a record map holds d with every existing element's property vector allocated *)
Definition stored_db_slots (g : heap) (root : N) (d : db) : Prop := exists w, stored_db_w g root d w /\ slots_ok d w.

Theorem so_covered_on_storage (ops : store_ops cdata) (fl : bool) : kind ops fl ->
  forall s sp root d l, Rel s sp -> stored_db (hp sp) root d -> HistoryAtomicProofs.HInv d -> so_covered_all rv_fixed d l ->
    let r := cp_run (st_step cdata ops) (h <~ so_open root ;; cq_runs h l) s in
    snd r = CrDead \/
    exists sp' h' w w', Rel (fst r) sp' /\ snd r = CrOk (h', snd (cq_model rv_fixed d l)) /\
                        stored_db_w (hp sp) root d w /\ stored_db_w (hp sp') root (fst (cq_model rv_fixed d l)) w' /\
                        so_handles h' w' /\ HistoryAtomicProofs.HInv (fst (cq_model rv_fixed d l)) /\ sdepth sp' = sdepth sp /\
                        frame (hp sp) (hp sp') (sd_foot root w) (sd_foot root w').
Proof.
  intros K s sp root d l RL (w0 & H0) HI OK r.
  destruct (so_open_then_on_storage ops fl (fun h => cq_runs h l)
              (fun r sp' => exists h' w w', r = CrOk (h', snd (cq_model rv_fixed d l)) /\
                   stored_db_w (hp sp) root d w /\ stored_db_w (hp sp') root (fst (cq_model rv_fixed d l)) w' /\
                   so_handles h' w' /\ HistoryAtomicProofs.HInv (fst (cq_model rv_fixed d l)) /\ sdepth sp' = sdepth sp /\
                   frame (hp sp) (hp sp') (sd_foot root w) (sd_foot root w')) K s sp root d w0 RL H0)
    as [D|(sp' & RL' & h' & w & w' & X)]; [|left; exact D|right; exists sp', h', w, w'; split; [exact RL'|exact X]].
  intros h w H Hh _. eapply cwp_mono; [|eapply so_cqs_stored; eassumption].
  intros r0 sp' (h' & w' & -> & X). exists h', w, w'. auto.
Qed.

Theorem so_covered_on_storage2 (ops : store_ops cdata) (fl : bool) : kind ops fl ->
  forall s sp root d l, Rel s sp -> stored_db_slots (hp sp) root d -> HistoryAtomicProofs.HInv d -> so_covered_all2 rv_fixed d l ->
    let r := cp_run (st_step cdata ops) (h <~ so_open root ;; cq_runs h l) s in
    snd r = CrDead \/
    exists sp' h', Rel (fst r) sp' /\ snd r = CrOk (h', snd (cq_model rv_fixed d l)) /\
                   stored_db_slots (hp sp') root (fst (cq_model rv_fixed d l)) /\
                   HistoryAtomicProofs.HInv (fst (cq_model rv_fixed d l)) /\ sdepth sp' = sdepth sp.
Proof.
  intros K s sp root d l RL (w0 & H0 & S0) HI OK r.
  destruct (so_open_then_on_storage ops fl (fun h => cq_runs h l)
              (fun r sp' => exists h', r = CrOk (h', snd (cq_model rv_fixed d l)) /\
                   stored_db_slots (hp sp') root (fst (cq_model rv_fixed d l)) /\
                   HistoryAtomicProofs.HInv (fst (cq_model rv_fixed d l)) /\ sdepth sp' = sdepth sp) K s sp root d w0 RL H0)
    as [D|(sp' & RL' & h' & X)]; [|left; exact D|right; exists sp', h'; split; [exact RL'|exact X]].
  intros h w H Hh Ev.
  assert (S1 : slots_ok d w) by (intros id G; rewrite Ev; apply S0; exact G).
  eapply cwp_mono; [|eapply so_cqs_stored2; eassumption].
  intros r0 sp' (h' & w' & -> & H' & Hh' & HI' & SO' & D' & F'). exists h'. split; [reflexivity|].
  split; [exists w'; split; assumption|]. split; assumption.
Qed.

(* after the run: a maintenance operation, then the reload *)
Lemma so_then_maintenance (ops : store_ops cdata) (fl : bool) : kind ops fl ->
  forall rv s1 sp1 root dN o, Rel s1 sp1 -> sdepth sp1 = 0 -> stored_db (hp sp1) root dN -> HistoryAtomicProofs.HInv dN ->
    cv_is_maint o = true ->
    snd (st_step cdata ops s1 o) = ObPanic \/
    exists sp2 d1,
      Rel (fst (st_step cdata ops s1 o)) sp2 /\ sdepth sp2 = 0 /\ stored_db (hp sp2) root dN /\
      load_db (sm sp2) root = Some d1 /\ sd_eqv dN d1 /\
      forall q, sd_query_ok q -> snd (Queries.exec rv d1 q) = snd (Queries.exec rv dN q).
Proof.
  intros K rv s1 sp1 root dN o RL1 D1 H1 (_ & _ & Hu) Hm.
  destruct (sd_queries_after_maintenance ops fl K rv s1 sp1 o root dN RL1 D1 Hm H1 Hu)
    as [P|(sp2 & d1 & RL2 & Hd2 & H2 & _ & E2 & He & Hq)]; [left; exact P|right].
  exists sp2, d1. auto 7.
Qed.
