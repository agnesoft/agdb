(* GraphRemove.v — remove_edge and remove_node as simulation steps; the loops of
   remove_node (remove_from_edges / remove_to_edges) never run out of fuel. *)
From Agdb Require Import Bytes Graph GraphArr GraphSim GraphOps GraphProofs.
From Coq Require Import ZifyBool ZifyNat ZifyN.
Ltac Zify.zify_post_hook ::= Z.div_mod_to_equations.
Open Scope Z_scope.

(* the free list after freeing slot s.  free_index writes `- s` as the new head; for s = 2^63 that
   is i64::MIN, which reads as "no free slot": the old list is lost (f_cover, the no-leak clause of
   freeS, is stated for capacities up to 2^63, where this cannot happen) *)
Definition free_push (s : Z) (fl : list Z) : list Z := if - s =? i64_min then [] else s :: fl.

Lemma notin_remE s E : ~ In s (map eslot (remE s E)).
Proof. rewrite map_eslot_remE. intros Hi. apply in_zrem in Hi. tauto. Qed.

Lemma remove_edge_sim g a fl e :
  sim g a fl -> In e (a_edges a) ->
  exists g', remove_edge g (- eslot e) = Some g' /\
    sim g' {| a_nodes := a_nodes a; a_edges := remE (eslot e) (a_edges a) |} (free_push (eslot e) fl).
Proof.
  intros HS He. unfold remove_edge. pose proof (rsim_slot_range HS e He).
  rewrite (proj2 (is_edge_iff _ _ _ _ _ _ _ _ _ HS (- eslot e)))
    by (rewrite Z.abs_opp, Z.abs_eq by lia; apply in_map, He).
  destruct (unlink_out_spec HS e He I) as (g1 & -> & S1 & _).
  destruct (unlink_in_spec S1 e He I) as (g2 & -> & S2 & _).
  eexists. split; [reflexivity|]. rewrite Z.opp_involutive.
  apply (free_rec_spec S2 e He); apply notin_remE.
Qed.

Lemma remove_edge_noop g a fl i :
  sim g a fl -> ~ In (Z.abs i) (map eslot (a_edges a)) -> remove_edge g i = Some g.
Proof.
  intros HS Hn. unfold remove_edge.
  destruct (is_edge g i) eqn:E; [|reflexivity].
  apply (is_edge_iff _ _ _ _ _ _ _ _ _ HS) in E. contradiction.
Qed.

(* any sign-correct id: the abstract removal of an absent edge is the identity *)
Lemma remove_edge_total g a fl e :
  sim g a fl -> e <= 0 ->
  exists g' fl', remove_edge g e = Some g' /\
    sim g' {| a_nodes := a_nodes a; a_edges := remE (- e) (a_edges a) |} fl'.
Proof.
  intros HS He. destruct (In_dec Z.eq_dec (- e) (map eslot (a_edges a))) as [Hi|Hi].
  - apply in_map_iff in Hi. destruct Hi as (x & Hx & Hi).
    destruct (remove_edge_sim g a fl x HS Hi) as (g' & E & S1). rewrite Hx, Z.opp_involutive in E. rewrite Hx in S1. eauto.
  - exists g, fl. split; [apply (remove_edge_noop g a fl e HS); rewrite Z.abs_neq by lia; exact Hi|].
    rewrite remE_notin by assumption. destruct a; exact HS.
Qed.

Lemma filter_remE (p : aedge -> bool) s E :
  (forall x, In x E -> eslot x = s -> p x = false) -> filter p (remE s E) = filter p E.
Proof.
  unfold remE. induction E as [|x r IH]; intros H; cbn [filter]; [reflexivity|].
  destruct (Z.eqb_spec (eslot x) s) as [Hs|Hs]; cbn [negb].
  - rewrite (H x (or_introl eq_refl) Hs). apply IH. intros y Hy; apply H; right; assumption.
  - cbn [filter]. destruct (p x); [f_equal|]; apply IH; intros y Hy; apply H; right; assumption.
Qed.

Lemma adj_length_le key E m (n : nat) :
  NoDup (map eslot E) -> (forall x, In x E -> 0 < eslot x < Z.of_nat n) -> (length (adj key E m) <= n)%nat.
Proof.
  intros Hnd Hr.
  destruct (NoDup_range_length (adj key E m) n) as [H|[H _]].
  - apply NoDup_adj. assumption.
  - intros y Hy. apply in_adj in Hy. destruct Hy as [x [Hx [<- _]]]. apply Hr. assumption.
  - lia.
  - rewrite H. cbn [length]. lia.
Qed.

(* the edges that do not have n at the `key` end *)
Definition away (key : aedge -> Z) (n : Z) (E : list aedge) : list aedge :=
  filter (fun x => negb (key x =? n)) E.

Lemma away_nil key n E : adj key E n = [] -> away key n E = E.
Proof.
  intros Hl. apply BytesProofs.filter_all. intros x Hx. destruct (Z.eqb_spec (key x) n) as [E0|]; [|reflexivity].
  assert (Hi : In (eslot x) (adj key E n)) by (apply in_adj; eauto). rewrite Hl in Hi. destruct Hi.
Qed.

(* the first edge of n's list: removing it leaves the rest of the list and the same `away` *)
Lemma adj_head key n E s r :
  NoDup (map eslot E) -> adj key E n = s :: r ->
  exists e, In e E /\ eslot e = s /\ key e = n /\ ~ In s r /\
    adj key (remE s E) n = r /\ away key n (remE s E) = away key n E.
Proof.
  intros Hnd Hl. assert (Hs : In s (adj key E n)) by (rewrite Hl; left; reflexivity).
  apply in_adj in Hs. destruct Hs as (e & He & Hes & Hen).
  pose proof (NoDup_adj key E n Hnd) as Hnd'. rewrite Hl in Hnd'. apply NoDup_cons_iff in Hnd'.
  exists e. repeat (split; [tauto|]). split.
  - rewrite adj_remE, Hl. cbn [zrem filter]. rewrite Z.eqb_refl. apply zrem_notin. tauto.
  - apply filter_remE. intros x Hx Hxs.
    rewrite (slot_inj E x e Hnd Hx He) by congruence. rewrite Hen, Z.eqb_refl. reflexivity.
Qed.

(* free_index writes slot s and slot 0 only *)
Lemma free_index_other g s y :
  0 < s -> 0 < y -> y <> s ->
  fmeta (free_index g s) y = fmeta g y /\ tmeta (free_index g s) y = tmeta g y.
Proof.
  intros Hs Hy Hne. unfold free_index, fmeta, tmeta, set_tmeta, set_to, set_from, set_fmeta.
  cbn [g_fmeta g_tmeta]. rewrite !get_set_other by lia. auto.
Qed.

Definition neqP (n : Z) : Z -> Prop := fun m => m <> n.

(* one round of the loops of remove_node.
   An edge whose list on one side is no longer maintained is unlinked on the other side and its
   slot is freed; the `next` pointers that the loop still has to follow are untouched. *)

Section Round.
  Context {g : graph} {nodes : list Z} {PO PI : Z -> Prop} {E : list aedge} {fl : list Z} {cnt : Z}.
  Hypothesis RS : rsim g nodes PO PI E E E fl cnt.
  Variable e : aedge.
  Hypothesis He : In e E.

  Let s := eslot e.

  Lemma round_out_dead :
    ~ PO (esrc e) -> PI (etgt e) ->
    exists g1, remove_to_edge g (- s) = Some g1 /\ fmeta g1 (- s) = fmeta g s /\
      (forall y, 0 < y -> y <> s -> fmeta (free_index g1 s) y = fmeta g y) /\
      rsim (free_index g1 s) nodes PO PI (remE s E) (remE s E) (remE s E) (free_push s fl) cnt.
  Proof.
    intros HnP HP. destruct (unlink_in_spec RS e He HP) as (g1 & E1 & S1 & Hfm).
    assert (Hf : forall y, fmeta g1 y = fmeta g y) by (intros y; unfold fmeta; rewrite Hfm; reflexivity).
    exists g1. split; [exact E1|]. split; [rewrite Hf; apply fmeta_even|]. split.
    - intros y H1 H2. rewrite <- Hf. apply free_index_other; [apply (rsim_slot_range RS e He)|assumption..].
    - apply (free_rec_spec (drop_out_spec S1 e He HnP) e He); apply notin_remE.
  Qed.

  Lemma round_in_dead :
    PO (esrc e) -> ~ PI (etgt e) ->
    exists g1, remove_from_edge g (- s) = Some g1 /\ tmeta g1 (- s) = tmeta g s /\
      (forall y, 0 < y -> y <> s -> tmeta (free_index g1 s) y = tmeta g y) /\
      rsim (free_index g1 s) nodes PO PI (remE s E) (remE s E) (remE s E) (free_push s fl) cnt.
  Proof.
    intros HP HnP. destruct (unlink_out_spec RS e He HP) as (g1 & E1 & S1 & Htm).
    assert (Hf : forall y, tmeta g1 y = tmeta g y) by (intros y; unfold tmeta; rewrite Htm; reflexivity).
    exists g1. split; [exact E1|]. split; [rewrite Hf; apply tmeta_even|]. split.
    - intros y H1 H2. rewrite <- Hf. apply free_index_other; [apply (rsim_slot_range RS e He)|assumption..].
    - apply (free_rec_spec (drop_in_spec S1 e He HnP) e He); apply notin_remE.
  Qed.
End Round.

Lemma remove_from_edges_sim n nodes cnt :
  forall (l : list Z) (fuel : nat) g E fl h,
    (length l <= fuel)%nat ->
    rsim g nodes (neqP n) allP E E E fl cnt ->
    l = adj esrc E n -> chain (fmeta g) h l ->
    exists g' fl', remove_from_edges fuel g (- h) = Some g' /\
      rsim g' nodes (neqP n) allP (away esrc n E) (away esrc n E) (away esrc n E) fl' cnt.
Proof.
  induction l as [|s r IH]; intros fuel g E fl h Hfuel RS Hl Hc; cbn [chain] in Hc.
  - subst h. exists g, fl. split; [destruct fuel; reflexivity|].
    rewrite away_nil by congruence. exact RS.
  - destruct Hc as [-> Hc]. destruct fuel as [|fuel]; [cbn [length] in Hfuel; lia|].
    destruct (adj_head esrc n E s r (rsim_slots_nodup RS)) as (e & He & <- & Hen & Hsr & Hr & Haw); [congruence|].
    pose proof (rsim_slot_range RS e He).
    cbn [remove_from_edges]. destruct (Z.eqb_spec (- eslot e) 0) as [|_]; [lia|].
    destruct (round_out_dead RS e He) as (g1 & -> & Hnx & Hfm & S2); [unfold neqP; tauto|exact I|].
    rewrite Z.opp_involutive, Hnx.
    destruct (IH fuel (free_index g1 (eslot e)) _ _ (fmeta g (eslot e))
                ltac:(cbn [length] in Hfuel; lia) S2 (eq_sym Hr)) as (g' & fl' & Hrun & RS').
    + eapply chain_ext; [|exact Hc]. intros y Hy. apply Hfm; [|intros ->; contradiction].
      assert (Hy' : In y (adj esrc E n)) by (rewrite <- Hl; right; assumption).
      apply in_adj in Hy'. destruct Hy' as (z & Hz & <- & _). apply (rsim_slot_range RS z Hz).
    + exists g', fl'. split; [exact Hrun|]. rewrite <- Haw. exact RS'.
Qed.

(* remove_to_edges: the in-list of node n (self-loops are already gone) *)

Lemma remove_to_edges_sim n nodes cnt :
  forall (l : list Z) (fuel : nat) g E fl h,
    (length l <= fuel)%nat ->
    rsim g nodes (neqP n) (neqP n) E E E fl cnt ->
    (forall x, In x E -> esrc x <> n) ->
    l = adj etgt E n -> chain (tmeta g) h l ->
    exists g' fl', remove_to_edges fuel g (- h) = Some g' /\
      rsim g' nodes (neqP n) (neqP n) (away etgt n E) (away etgt n E) (away etgt n E) fl' cnt.
Proof.
  induction l as [|s r IH]; intros fuel g E fl h Hfuel RS Hsrc Hl Hc; cbn [chain] in Hc.
  - subst h. exists g, fl. split; [destruct fuel; reflexivity|].
    rewrite away_nil by congruence. exact RS.
  - destruct Hc as [-> Hc]. destruct fuel as [|fuel]; [cbn [length] in Hfuel; lia|].
    destruct (adj_head etgt n E s r (rsim_slots_nodup RS)) as (e & He & <- & Hen & Hsr & Hr & Haw); [congruence|].
    pose proof (rsim_slot_range RS e He).
    cbn [remove_to_edges]. destruct (Z.eqb_spec (- eslot e) 0) as [|_]; [lia|].
    destruct (round_in_dead RS e He) as (g1 & -> & Hnx & Htm & S2); [apply Hsrc, He|unfold neqP; tauto|].
    rewrite Z.opp_involutive, Hnx.
    destruct (IH fuel (free_index g1 (eslot e)) _ _ (tmeta g (eslot e))
                ltac:(cbn [length] in Hfuel; lia) S2) as (g' & fl' & Hrun & RS').
    + intros x Hx. apply in_remE in Hx. apply Hsrc. tauto.
    + congruence.
    + eapply chain_ext; [|exact Hc]. intros y Hy. apply Htm; [|intros ->; contradiction].
      assert (Hy' : In y (adj etgt E n)) by (rewrite <- Hl; right; assumption).
      apply in_adj in Hy'. destruct Hy' as (z & Hz & <- & _). apply (rsim_slot_range RS z Hz).
    + exists g', fl'. split; [exact Hrun|]. rewrite <- Haw. exact RS'.
Qed.

Definition keep_edge (n : Z) (x : aedge) : bool := negb (esrc x =? n) && negb (etgt x =? n).

Lemma remove_node_sim g a fl n :
  sim g a fl -> In n (a_nodes a) ->
  exists g' fl', remove_node g n = Some g' /\
    sim g' {| a_nodes := zrem n (a_nodes a); a_edges := filter (keep_edge n) (a_edges a) |} fl'.
Proof.
  intros HS Hn. unfold remove_node. pose proof (rsim_node_range HS n Hn).
  rewrite (proj2 (is_node_iff _ _ _ _ _ _ _ _ _ HS n)) by (rewrite Z.abs_eq by lia; assumption).
  set (E := a_edges a) in *. set (nodes := a_nodes a) in *.
  assert (Hlen : forall key E', incl E' E -> NoDup (map eslot E') ->
            (length (adj key E' n) <= length (g_from g))%nat).
  { intros key E' Hi Hnd. apply adj_length_le; [exact Hnd|]. intros x Hx. apply (rsim_slot_range HS x), Hi, Hx. }
  (* the out-list of n: its maintenance is given up, the in-lists stay exact *)
  destruct (h_chain _ _ _ _ _ _ _ (r_out _ _ _ _ _ _ _ _ _ _ _ _ _ (proj2 HS)) n Hn I) as [Hc0 _].
  destruct (remove_from_edges_sim n nodes _ _ (length (g_from g)) g E fl _
              (Hlen esrc E (incl_refl _) (rsim_slots_nodup HS))
              (weaken_spec HS (neqP n) allP (fun _ _ _ => I) (fun _ _ _ => I)) eq_refl Hc0)
    as (g1 & fl1 & -> & S1).
  set (E1 := away esrc n E) in *.
  assert (Hsrc1 : forall x, In x E1 -> esrc x <> n).
  { intros x Hx. apply filter_In in Hx. lia. }
  (* the in-list of n: what is left of it has its source elsewhere *)
  destruct (h_chain _ _ _ _ _ _ _ (r_in _ _ _ _ _ _ _ _ _ _ _ _ _ (proj2 S1)) n Hn I) as [Hc1 _].
  destruct (remove_to_edges_sim n nodes _ _ (length (g_from g)) g1 E1 fl1 _
              (Hlen etgt E1 (incl_filter _ _) (rsim_slots_nodup S1))
              (weaken_spec S1 (neqP n) (neqP n) (fun _ _ H => H) (fun _ _ _ => I)) Hsrc1 eq_refl Hc1)
    as (g2 & fl2 & -> & S2).
  set (E2 := away etgt n E1) in *.
  (* free the node, fix the count *)
  assert (Hiso : forall y, In y E2 -> esrc y <> n /\ etgt y <> n).
  { intros y Hy. apply filter_In in Hy. split; [apply Hsrc1; tauto|lia]. }
  assert (S3 : rsim (free_index g2 n) (zrem n nodes) allP allP E2 E2 E2 (free_push n fl2) (Z.of_nat (length nodes))).
  { apply (weaken_spec (free_node_spec S2 n Hn Hiso)); intros m Hm _; apply in_zrem in Hm; unfold neqP; tauto. }
  rewrite (node_count_spec S3).
  eexists. exists (free_push n fl2). split; [reflexivity|].
  unfold sim. cbn [a_nodes a_edges].
  replace (filter (keep_edge n) E) with E2 by apply filter_filter.
  rewrite zrem_length by (apply (b_nodes_nodup _ _ _ (rsim_base HS)) || assumption).
  apply (cnt_spec S3).
Qed.

Lemma remove_node_noop g a fl i :
  sim g a fl -> ~ In (Z.abs i) (a_nodes a) -> remove_node g i = Some g.
Proof.
  intros HS Hn. unfold remove_node.
  destruct (is_node g i) eqn:E; [|reflexivity].
  apply (is_node_iff _ _ _ _ _ _ _ _ _ HS) in E. contradiction.
Qed.

(* any sign-correct id: the abstract removal of an absent node is the identity *)
Lemma remove_node_total g a fl n :
  sim g a fl -> 0 <= n ->
  exists g' fl', remove_node g n = Some g' /\
    sim g' {| a_nodes := zrem n (a_nodes a); a_edges := filter (keep_edge n) (a_edges a) |} fl'.
Proof.
  intros HS Hn. destruct (In_dec Z.eq_dec n (a_nodes a)) as [Hi|Hi]; [exact (remove_node_sim g a fl n HS Hi)|].
  exists g, fl. split; [apply (remove_node_noop g a fl n HS); rewrite Z.abs_eq by lia; exact Hi|].
  rewrite zrem_notin by assumption. rewrite BytesProofs.filter_all; [destruct a; exact HS|].
  intros x Hx. destruct (rsim_ends HS x Hx). unfold keep_edge.
  destruct (Z.eqb_spec (esrc x) n); [congruence|]. destruct (Z.eqb_spec (etgt x) n); [congruence|]. reflexivity.
Qed.
