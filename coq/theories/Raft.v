(* Raft.v — executable model of /repo/agdb_server/src/raft.rs (M9; properties C27–C30).

   Definitions only.  One Gallina function per Rust function of `impl Cluster`, same
   order of checks, same arithmetic.  What is abstracted, and how:

   * `Instant`/timers: every read of a timer (`elapsed()`) returns a value chosen by the
     adversary and carried by the event (`Tick i elapsed due`, `Deliver k elapsed`).  This is a
     superset of every real clock, so safety statements proved for all event lists hold for
     every timing.  The Duration fields of the struct (`first_election_timeout`,
     `election_timeout`, `heartbeat_timeout`, `term_timeout`) are kept as numbers (ms).
   * `hash`: all nodes of one cluster share one hash, `validate_hash` always passes; omitted.
   * `Storage`: in-memory log + commit index; `append` = `logs.truncate(index-1); push`
     (the test storage of raft.rs; ClusterStorage removes the *uncommitted* suffix from
     `log.index`, which is the same thing whenever `commit < log.index`, which the callers
     guarantee — `RaftInv.run_from_inv`, Props C28b_committed_stable); `commit` = `commit := index`; `logs(from)` = `skipn from`
     (ClusterLog::logs_since: the newest `count - from` entries).  Storage never fails, so
     `CommitError` does not occur.
   * `db_id`, the notifier, serde: omitted (not used by the protocol).
   * `nodes[i]` with `i` out of range panics in Rust; all indices the handlers use come from
     the node table or from messages built from it, so the totalising default of `nth` is
     never reached from `init` (`RaftInv.ninv`, `nodes_ok`, `cinv`; `init_inv`, `run_from_inv`).
   * The network is the list of in-flight messages; a response travels together with the
     request it answers (as in cluster.rs, where the sender awaits the HTTP response and
     calls `response(&request, &response)`).
   * `ClientAppend i d` calls `append` only when node `i` is `Leader` (forward.rs forwards
     client requests to `leader()`); otherwise it is a no-op. *)
From Coq Require Import NArith List Bool.
Import ListNotations.
Open Scope N_scope.

(* ------------------------------------------------------------------ revisions
   The model follows the source tree it is compared with; the checks read the tree and select the flags
   (checks/raft_common.py: detect_rev).
   * fix_vote_term  — `vote_request` adopts the request's term when it grants the vote (`self.term = request.term`);
   * fix_vote_match — `response()` counts a Vote/Ok answer only if it answers a request of the candidate's current
     term (`(Candidate, Vote, OK) if request.term == self.term`).
   * fix_ack_term   — a leader counts only acknowledgements of its current term (fixes/C28-count-only-current-term-acks.diff):
     `vote_received` clears `log_index/log_term/log_commit` of every other row of the peer table when the node becomes
     Leader, and `response()` passes an Append/Heartbeat Ok answer to `commit()` only if it answers a request of the
     leader's current term (`(Leader, Heartbeat | Append(_), OK) if request.term == self.term`).
   `rr_pinned` = raft.rs before all repairs (the `_refuted` witnesses of C27 are about it),
   `rr_before_ack_fix` = both election repairs, not the acknowledgement repair (the `commit-without-quorum` witnesses of
   C28c / C29 are about it), `rr_fixed` = all three repairs. *)
Record raftrev := mkRev { fix_vote_term : bool; fix_vote_match : bool; fix_ack_term : bool }.
Definition rr_fixed : raftrev := mkRev true true true.
Definition rr_before_ack_fix : raftrev := mkRev true true false.
Definition rr_pinned : raftrev := mkRev false false false.

(* ------------------------------------------------------------------ data *)

Inductive cstate := Candidate | Election | Follower (l : N) | Leader | Voted (t : N).

Record entry := mkEntry { e_index : N; e_term : N; e_data : N }.

Record peer := mkPeer { p_li : N; p_lt : N; p_lc : N; p_voted : bool }.

Inductive rkind := KAppend (logs : list entry) | KHeartbeat | KPreVote | KVote.

Record request := mkReq {
  q_from : N; q_to : N; q_term : N; q_li : N; q_lt : N; q_lc : N; q_kind : rkind }.

Inductive rresult :=
| ROk
| RLeaderMismatch (l : N)
| RTermMismatch (l r : N)
| RLogMismatch (il ir tl tr cl cr : N)
| RAlreadyVoted (l r : N).

Record response := mkResp { s_to : N; s_result : rresult }.

Record node := mkNode {
  n_index : N; n_size : N;
  n_state : cstate; n_term : N;
  n_peers : list peer;                 (* `nodes`, own row included *)
  n_logs : list entry; n_commit : N;   (* storage *)
  n_first : N; n_et : N; n_hb : N; n_tt : N   (* first_election / election / heartbeat / term timeouts, ms *) }.

Definition peer0 := mkPeer 0 0 0 false.

(* ------------------------------------------------------------------ small helpers *)

Definition entry_eqb (a b : entry) : bool :=
  (e_index a =? e_index b) && (e_term a =? e_term b) && (e_data a =? e_data b).

Fixpoint entries_eqb (a b : list entry) : bool :=
  match a, b with
  | [], [] => true
  | x :: a', y :: b' => entry_eqb x y && entries_eqb a' b'
  | _, _ => false
  end.

Definition oentry_eqb (a b : option entry) : bool :=
  match a, b with
  | Some x, Some y => entry_eqb x y
  | None, None => true
  | _, _ => false
  end.

Fixpoint upd_nth {A} (k : nat) (f : A -> A) (l : list A) : list A :=
  match l, k with
  | [], _ => []
  | x :: r, O => f x :: r
  | x :: r, S k' => x :: upd_nth k' f r
  end.

Fixpoint remove_nth {A} (k : nat) (l : list A) : list A :=
  match l, k with
  | [], _ => []
  | _ :: r, O => r
  | x :: r, S k' => x :: remove_nth k' r
  end.

Definition memN (x : N) (l : list N) : bool := existsb (N.eqb x) l.

Definition lenN {A} (l : list A) : N := N.of_nat (length l).

(* entry stored at (1-based) log index i *)
Definition log_at (l : list entry) (i : N) : option entry :=
  if i =? 0 then None else nth_error l (N.to_nat (i - 1)).

Definition node_at (nd : node) (i : N) : peer := nth (N.to_nat i) (n_peers nd) peer0.
Definition local (nd : node) : peer := node_at nd (n_index nd).

Definition set_peers (nd : node) (ps : list peer) : node :=
  mkNode (n_index nd) (n_size nd) (n_state nd) (n_term nd) ps (n_logs nd) (n_commit nd)
         (n_first nd) (n_et nd) (n_hb nd) (n_tt nd).
Definition set_state (nd : node) (s : cstate) : node :=
  mkNode (n_index nd) (n_size nd) s (n_term nd) (n_peers nd) (n_logs nd) (n_commit nd)
         (n_first nd) (n_et nd) (n_hb nd) (n_tt nd).
Definition set_term (nd : node) (t : N) : node :=
  mkNode (n_index nd) (n_size nd) (n_state nd) t (n_peers nd) (n_logs nd) (n_commit nd)
         (n_first nd) (n_et nd) (n_hb nd) (n_tt nd).
Definition set_et (nd : node) (e : N) : node :=
  mkNode (n_index nd) (n_size nd) (n_state nd) (n_term nd) (n_peers nd) (n_logs nd) (n_commit nd)
         (n_first nd) e (n_hb nd) (n_tt nd).
Definition set_storage (nd : node) (l : list entry) (c : N) : node :=
  mkNode (n_index nd) (n_size nd) (n_state nd) (n_term nd) (n_peers nd) l c
         (n_first nd) (n_et nd) (n_hb nd) (n_tt nd).

Definition upd_peer (nd : node) (i : N) (f : peer -> peer) : node :=
  set_peers nd (upd_nth (N.to_nat i) f (n_peers nd)).
Definition upd_local (nd : node) (f : peer -> peer) : node := upd_peer nd (n_index nd) f.

Definition p_set_log (li lt : N) (p : peer) : peer := mkPeer li lt (p_lc p) (p_voted p).
Definition p_set_commit (lc : N) (p : peer) : peer := mkPeer (p_li p) (p_lt p) lc (p_voted p).
Definition p_set_all (li lt lc : N) (p : peer) : peer := mkPeer li lt lc (p_voted p).
Definition p_set_voted (v : bool) (p : peer) : peer := mkPeer (p_li p) (p_lt p) (p_lc p) v.

(* indices of the other nodes, in table order: `.filter(|node| self.index != node.index)` *)
Definition indices (nd : node) : list N := map N.of_nat (seq 0 (length (n_peers nd))).
Definition others (nd : node) : list N := filter (fun j => negb (j =? n_index nd)) (indices nd).

Definition mk_req (nd : node) (target term : N) (k : rkind) : request :=
  mkReq (n_index nd) target term (p_li (local nd)) (p_lt (local nd)) (p_lc (local nd)) k.

Definition count_peers (f : peer -> bool) (nd : node) : N := lenN (filter f (n_peers nd)).

(* ------------------------------------------------------------------ storage *)

Definition st_append (nd : node) (log : entry) : node :=
  set_storage nd (firstn (N.to_nat (e_index log - 1)) (n_logs nd) ++ [log]) (n_commit nd).
Definition st_commit (nd : node) (index : N) : node := set_storage nd (n_logs nd) index.
Definition st_logs (nd : node) (from : N) : list entry := skipn (N.to_nat from) (n_logs nd).

(* Cluster::append_storage / commit_storage *)
Definition append_storage (nd : node) (log : entry) : node :=
  upd_local (st_append nd log) (p_set_log (e_index log) (e_term log)).
Definition commit_storage (nd : node) (index : N) : node :=
  upd_local (st_commit nd index) (p_set_commit index).

(* ------------------------------------------------------------------ Cluster::new *)

Definition new_node (size index factor hb tt : N) : node :=
  mkNode index size
         (if size =? 1 then Leader else Election)
         (if size =? 1 then 1 else 0)
         (map (fun i => mkPeer 0 0 0 (N.of_nat i =? index)) (seq 0 (N.to_nat size)))
         [] 0
         (factor * index) (factor * index) hb tt.

(* ------------------------------------------------------------------ Cluster::append *)

Definition append (nd : node) (data : N) : node * list request :=
  let nd1 := upd_local nd (fun p => p_set_log (p_li p + 1) (n_term nd) p) in
  let log := mkEntry (p_li (local nd1)) (n_term nd1) data in
  let reqs := map (fun j => mk_req nd1 j (n_term nd1) (KAppend [log])) (others nd1) in
  let nd2 := st_append nd1 log in
  let nd3 := if n_size nd2 =? 1 then commit_storage nd2 (p_li (local nd2)) else nd2 in
  (nd3, reqs).

(* ------------------------------------------------------------------ elections *)

(* `.filter(|node| self.index != node.index).for_each(|node| node.voted = false)` *)
Fixpoint clear_from (k self : N) (ps : list peer) : list peer :=
  match ps with
  | [] => []
  | p :: r => (if k =? self then p else p_set_voted false p) :: clear_from (k + 1) self r
  end.
Definition clear_votes (nd : node) : node := set_peers nd (clear_from 0 (n_index nd) (n_peers nd)).

Definition pre_election (nd : node) : node * list request :=
  let nd1 := clear_votes nd in
  (nd1, map (fun j => mk_req nd1 j (n_term nd1 + 1) KPreVote) (others nd1)).

Definition election (nd : node) : node * list request :=
  let nd1 := clear_votes (set_state (set_term nd (n_term nd + 1)) Candidate) in
  (nd1, map (fun j => mk_req nd1 j (n_term nd1) KVote) (others nd1)).

Definition heartbeat_no_timer (nd : node) : list request :=
  map (fun j => mk_req nd j (n_term nd) KHeartbeat) (others nd).

(* ------------------------------------------------------------------ Cluster::process
   `elapsed` = value returned by `self.local().timer.elapsed()` (ms);
   `due` = the peers j for which `self.node(j).timer.elapsed() > heartbeat_timeout`. *)

Definition is_election (s : cstate) : bool := match s with Election => true | _ => false end.
Definition is_leader (s : cstate) : bool := match s with Leader => true | _ => false end.
Definition is_candidate (s : cstate) : bool := match s with Candidate => true | _ => false end.

Definition process (nd : node) (elapsed : N) (due : list N) : node * list request :=
  match n_state nd with
  | Leader =>
      (nd, map (fun j => mk_req nd j (n_term nd) KHeartbeat)
               (filter (fun j => memN j due) (others nd)))
  | _ =>
      if is_election (n_state nd) && (n_et nd <=? elapsed) then
        let '(nd1, reqs) := pre_election nd in
        (set_et nd1 (n_hb nd1), reqs)
      else if n_tt nd <? elapsed then
        (set_et (set_state nd Election) (n_first nd), [])
      else (nd, [])
  end.

(* ------------------------------------------------------------------ validate_* *)

Definition ok (r : request) : response := mkResp (q_from r) ROk.

Definition log_mismatch (nd : node) (r : request) : response :=
  mkResp (q_from r)
         (RLogMismatch (p_li (local nd)) (q_li r) (p_lt (local nd)) (q_lt r)
                       (p_lc (local nd)) (q_lc r)).

Definition validate_vote_state (nd : node) (r : request) : option response :=
  match n_state nd with
  | Leader | Candidate => Some (mkResp (q_from r) (RLeaderMismatch (n_index nd)))
  | Follower l => Some (mkResp (q_from r) (RLeaderMismatch l))
  | Voted t => if q_term r <=? t then Some (mkResp (q_from r) (RAlreadyVoted t (q_term r))) else None
  | Election => None
  end.

Definition validate_log (nd : node) (r : request) : option response :=
  if negb (p_li (local nd) =? q_li r) || negb (p_lt (local nd) =? q_lt r)
  then Some (log_mismatch nd r) else None.

(* Ok(true) = inl true, Ok(false) = inl false, Err(resp) = inr resp *)
Definition validate_log_append (nd : node) (r : request) (log : entry) : bool + response :=
  let l := local nd in
  let err := inr (mkResp (q_from r)
                   (RLogMismatch (p_li l) (e_index log) (p_lt l) (e_term log) (p_lc l) (e_index log))) in
  if p_lt l =? e_term log then
    if e_index log <=? p_li l then inl false
    else if (p_lc l <? e_index log) && (p_li l + 1 =? e_index log) then inl true
    else err
  else if (p_lt l <? e_term log) && (p_lc l <? e_index log) && (e_index log <=? p_li l + 1)
  then inl true
  else err.

Definition validate_log_for_vote (nd : node) (r : request) : option response :=
  if (q_li r <? p_li (local nd)) || (q_lt r <? p_lt (local nd)) || (q_lc r <? p_lc (local nd))
  then Some (log_mismatch nd r) else None.

Definition validate_term_for_vote (nd : node) (r : request) : option response :=
  if q_term r <=? n_term nd then Some (mkResp (q_from r) (RTermMismatch (n_term nd) (q_term r)))
  else None.

Definition validate_term (nd : node) (r : request) : option response :=
  if q_term r <? n_term nd then Some (mkResp (q_from r) (RTermMismatch (n_term nd) (q_term r)))
  else None.

Definition become_follower (nd : node) (r : request) : node :=
  if n_term nd <=? q_term r then set_state (set_term nd (q_term r)) (Follower (q_from r)) else nd.

Definition update_node (nd : node) (r : request) : node :=
  upd_peer nd (q_from r) (p_set_all (q_li r) (q_lt r) (q_lc r)).

(* ------------------------------------------------------------------ request handlers *)

(* the `for log in logs` loop of append_request *)
Fixpoint append_logs (nd : node) (r : request) (logs : list entry) : node * response :=
  match logs with
  | [] => (nd, ok r)
  | log :: rest =>
      match validate_log_append nd r log with
      | inr resp => (nd, resp)
      | inl doit =>
          let nd1 := if doit then append_storage nd log else nd in
          let nd2 := if (e_index log <=? q_lc r) && (p_lc (local nd1) <? e_index log)
                     then commit_storage nd1 (e_index log) else nd1 in
          append_logs nd2 r rest
      end
  end.

Definition append_request (nd : node) (r : request) (logs : list entry) : node * response :=
  match validate_term nd r with
  | Some resp => (nd, resp)
  | None => append_logs (update_node (become_follower nd r) r) r logs
  end.

Definition heartbeat_request (nd : node) (r : request) : node * response :=
  match validate_term nd r with
  | Some resp => (nd, resp)
  | None =>
      let nd1 := become_follower nd r in
      match validate_log nd1 r with
      | Some resp => (nd1, resp)
      | None =>
          let nd2 := update_node nd1 r in
          let nd3 := if p_lc (local nd2) <? q_lc r then commit_storage nd2 (q_lc r) else nd2 in
          (nd3, ok r)
      end
  end.

(* `elapsed` = `self.local().timer.elapsed()` read by the Follower guard *)
Definition pre_vote_request (nd : node) (r : request) (elapsed : N) : node * response :=
  let other := match validate_log_for_vote nd r with Some resp => (nd, resp) | None => (nd, ok r) end in
  match n_state nd with
  | Leader => (nd, mkResp (q_from r) (RLeaderMismatch (n_index nd)))
  | Follower l => if elapsed <=? n_tt nd then (nd, mkResp (q_from r) (RLeaderMismatch l)) else other
  | _ => other
  end.

Definition vote_request (rv : raftrev) (nd : node) (r : request) : node * response :=
  match validate_vote_state nd r with
  | Some resp => (nd, resp)
  | None =>
  match validate_term_for_vote nd r with
  | Some resp => (nd, resp)
  | None =>
  match validate_log_for_vote nd r with
  | Some resp => (nd, resp)
  | None => (set_state (if fix_vote_term rv then set_term nd (q_term r) else nd) (Voted (q_term r)), ok r)
  end end end.

Definition handle_request (rv : raftrev) (nd : node) (r : request) (elapsed : N) : node * response :=
  match q_kind r with
  | KAppend logs => append_request nd r logs
  | KHeartbeat => heartbeat_request nd r
  | KPreVote => pre_vote_request nd r elapsed
  | KVote => vote_request rv nd r
  end.

(* ------------------------------------------------------------------ response handlers *)

Definition votes (nd : node) : N := count_peers p_voted nd.

Definition pre_vote_received (nd : node) (r : request) : node * list request :=
  let nd1 := upd_peer nd (q_to r) (p_set_voted true) in
  if n_size nd1 / 2 <? votes nd1 then election nd1 else (nd1, []).

(* `.filter(|node| self.index != node.index).for_each(|node| { node.log_index = 0; node.log_term = 0; node.log_commit = 0 })` *)
Fixpoint reset_from (k self : N) (ps : list peer) : list peer :=
  match ps with
  | [] => []
  | p :: r => (if k =? self then p else p_set_all 0 0 0 p) :: reset_from (k + 1) self r
  end.
Definition reset_rows (nd : node) : node := set_peers nd (reset_from 0 (n_index nd) (n_peers nd)).

Definition vote_received (rv : raftrev) (nd : node) (r : request) : node * list request :=
  let nd1 := upd_peer nd (q_to r) (p_set_voted true) in
  if n_size nd1 / 2 <? votes nd1 then
    let nd2 := set_term (set_state nd1 Leader) (q_term r) in
    let nd3 := if fix_ack_term rv then reset_rows nd2 else nd2 in
    (nd3, heartbeat_no_timer nd3)
  else (nd1, []).

Definition commit (nd : node) (r : request) : node * list request :=
  let nd1 := upd_peer nd (q_to r) (p_set_all (q_li r) (q_lt r) (q_lc r)) in
  let quorum := n_size nd1 / 2 + 1 in
  if (p_lc (local nd1) <? q_li r) && (quorum <=? count_peers (fun p => q_li r <=? p_li p) nd1)
  then let nd2 := commit_storage nd1 (q_li r) in (nd2, heartbeat_no_timer nd2)
  else (nd1, []).

Definition reconcile (nd : node) (r : request) (commit_local : N) : node * list request :=
  (nd, [mk_req nd (q_to r) (n_term nd) (KAppend (st_logs nd commit_local))]).

Definition is_append_or_hb (k : rkind) : bool :=
  match k with KAppend _ | KHeartbeat => true | _ => false end.

(* does the candidate count this Vote/Ok answer?  (the guard of the `(Candidate, Vote, OK)` arm of `response()`) *)
Definition vote_counts (rv : raftrev) (nd : node) (r : request) : bool :=
  negb (fix_vote_match rv) || (q_term r =? n_term nd).

(* does the leader count this Append/Heartbeat Ok answer?  (the guard of the `(Leader, Heartbeat | Append(_), OK)` arm) *)
Definition ack_counts (rv : raftrev) (nd : node) (r : request) : bool :=
  (q_term r =? n_term nd) || negb (fix_ack_term rv).

Definition handle_response (rv : raftrev) (nd : node) (r : request) (s : response) : node * list request :=
  match n_state nd, q_kind r, s_result s with
  | Election, KPreVote, ROk => pre_vote_received nd r
  | Candidate, KVote, ROk => if vote_counts rv nd r then vote_received rv nd r else (nd, [])
  | Leader, (KHeartbeat | KAppend _), ROk => if ack_counts rv nd r then commit nd r else (nd, [])
  | Leader, (KHeartbeat | KAppend _), RLogMismatch _ _ _ _ cl _ => reconcile nd r cl
  | _, _, RTermMismatch l _ =>
      if n_term nd <? l then (set_et (set_state (set_term nd l) Election) (n_first nd), [])
      else (nd, [])
  | _, _, _ => (nd, [])
  end.

(* ------------------------------------------------------------------ the cluster, events, run *)

Inductive msg := MReq (r : request) | MResp (r : request) (s : response).

(* ghost history, oldest first.  Never read by the handlers. *)
Inductive ghost :=
| GCand (i t : N)                                   (* i started an election for t (votes for itself) *)
| GVote (voter t cand : N)                          (* voter answered Ok to cand's Vote request of term t *)
| GLeader (i t : N) (log : list entry)              (* i became Leader with term t, holding log *)
| GCommit (i : N) (by_leader : bool) (t : N) (idx : N) (e : option entry)
                                                    (* i (at term t) committed index idx holding e *)
| GStaleVote (i req_term cur_term : N)              (* candidate i counted a Vote/Ok of another term *)
| GAckDiverged (f l : N)                            (* f answered Ok to l's Append/Heartbeat while its log up to
                                                       its log index differs from l's log *)
| GAckBelowVote (f req_term voted : N).             (* f answered Ok to an Append/Heartbeat of term req_term although it
                                                       had answered Ok to a Vote request of the higher term voted *)

Record cluster := mkCluster { c_nodes : list node; c_net : list msg; c_hist : list ghost }.

Inductive event :=
| Tick (i : N) (elapsed : N) (due : list N)   (* one `process()` call on node i *)
| Deliver (k : nat) (elapsed : N)             (* deliver the k-th in-flight message *)
| Drop (k : nat)
| Duplicate (k : nat)
| ClientAppend (i : N) (d : N).

Definition init (size factor hb tt : N) : cluster :=
  let nodes := map (fun i => new_node size (N.of_nat i) factor hb tt) (seq 0 (N.to_nat size)) in
  mkCluster nodes [] (if size =? 1 then [GLeader 0 1 []] else []).

(* the defaults of agdb_server/src/config.rs *)
Definition init_default (size : N) : cluster := init size 1000 1000 3000.

Definition get_node (c : cluster) (i : N) : option node := nth_error (c_nodes c) (N.to_nat i).
Definition put_node (c : cluster) (i : N) (nd : node) : list node :=
  upd_nth (N.to_nat i) (fun _ => nd) (c_nodes c).

Fixpoint range_from (a : N) (k : nat) : list N :=
  match k with O => [] | S k' => a :: range_from (a + 1) k' end.

(* ghost events read off one handler call on one node *)
Definition node_ghosts (old new : node) : list ghost :=
  (if is_candidate (n_state new) && negb (is_candidate (n_state old) && (n_term old =? n_term new))
   then [GCand (n_index new) (n_term new)] else []) ++
  (if is_leader (n_state new) && negb (is_leader (n_state old))
   then [GLeader (n_index new) (n_term new) (n_logs new)] else []) ++
  map (fun idx => GCommit (n_index new) (is_leader (n_state old) && is_leader (n_state new))
                          (n_term new) idx (log_at (n_logs new) idx))
      (range_from (n_commit old + 1) (N.to_nat (n_commit new - n_commit old))).

Definition is_vote (k : rkind) : bool := match k with KVote => true | _ => false end.
Definition is_ok (s : rresult) : bool := match s with ROk => true | _ => false end.

(* highest term in which `v` answered Ok to a Vote request *)
Definition voted_term (h : list ghost) (v : N) : N :=
  fold_left (fun m g => match g with GVote v' t _ => if v' =? v then N.max m t else m | _ => m end) h 0.

Definition request_ghosts (c : cluster) (new : node) (r : request) (s : response) : list ghost :=
  (if is_vote (q_kind r) && is_ok (s_result s) then [GVote (n_index new) (q_term r) (q_from r)] else []) ++
  (if is_append_or_hb (q_kind r) && is_ok (s_result s) && (q_term r <? voted_term (c_hist c) (n_index new))
   then [GAckBelowVote (n_index new) (q_term r) (voted_term (c_hist c) (n_index new))] else []) ++
  (if is_append_or_hb (q_kind r) && is_ok (s_result s) then
     match get_node c (q_from r) with
     | Some sender =>
         let k := N.to_nat (p_li (local new)) in
         if entries_eqb (firstn k (n_logs new)) (firstn k (n_logs sender)) then [] else [GAckDiverged (n_index new) (q_from r)]
     | None => []
     end
   else []).

Definition response_ghosts (rv : raftrev) (old : node) (r : request) (s : response) : list ghost :=
  if is_candidate (n_state old) && is_vote (q_kind r) && is_ok (s_result s) && vote_counts rv old r
     && negb (q_term r =? n_term old)
  then [GStaleVote (n_index old) (q_term r) (n_term old)] else [].

Definition step (rv : raftrev) (c : cluster) (ev : event) : cluster :=
  match ev with
  | Tick i elapsed due =>
      match get_node c i with
      | Some nd =>
          let '(nd', reqs) := process nd elapsed due in
          mkCluster (put_node c i nd') (c_net c ++ map MReq reqs) (c_hist c ++ node_ghosts nd nd')
      | None => c
      end
  | ClientAppend i d =>
      match get_node c i with
      | Some nd =>
          if is_leader (n_state nd) then
            let '(nd', reqs) := append nd d in
            mkCluster (put_node c i nd') (c_net c ++ map MReq reqs) (c_hist c ++ node_ghosts nd nd')
          else c
      | None => c
      end
  | Drop k => mkCluster (c_nodes c) (remove_nth k (c_net c)) (c_hist c)
  | Duplicate k =>
      match nth_error (c_net c) k with
      | Some m => mkCluster (c_nodes c) (c_net c ++ [m]) (c_hist c)
      | None => c
      end
  | Deliver k elapsed =>
      match nth_error (c_net c) k with
      | Some (MReq r) =>
          let net := remove_nth k (c_net c) in
          match get_node c (q_to r) with
          | Some nd =>
              let '(nd', s) := handle_request rv nd r elapsed in
              mkCluster (put_node c (q_to r) nd') (net ++ [MResp r s])
                        (c_hist c ++ request_ghosts c nd' r s ++ node_ghosts nd nd')
          | None => mkCluster (c_nodes c) net (c_hist c)
          end
      | Some (MResp r s) =>
          let net := remove_nth k (c_net c) in
          match get_node c (s_to s) with
          | Some nd =>
              let '(nd', reqs) := handle_response rv nd r s in
              mkCluster (put_node c (s_to s) nd') (net ++ map MReq reqs)
                        (c_hist c ++ response_ghosts rv nd r s ++ node_ghosts nd nd')
          | None => mkCluster (c_nodes c) net (c_hist c)
          end
      | None => c
      end
  end.

Definition run_from (rv : raftrev) (c : cluster) (evs : list event) : cluster := fold_left (step rv) evs c.
Definition run (rv : raftrev) (size : N) (evs : list event) : cluster := run_from rv (init_default size) evs.

(* ------------------------------------------------------------------ observations used by the properties *)

Definition leaders (h : list ghost) : list (N * N) :=
  flat_map (fun g => match g with GLeader i t _ => [(i, t)] | _ => [] end) h.

(* C27, as a boolean on the history: no two distinct nodes ever were Leader for one term *)
Definition election_safety_b (h : list ghost) : bool :=
  forallb (fun a => forallb (fun b => negb (snd a =? snd b) || (fst a =? fst b)) (leaders h)) (leaders h).

(* C28c on a state: any two nodes agree on every index both have committed *)
Definition committed_agree_b (c : cluster) : bool :=
  forallb (fun a => forallb (fun b =>
    let m := N.min (n_commit a) (n_commit b) in
    forallb (fun idx => oentry_eqb (log_at (n_logs a) idx) (log_at (n_logs b) idx))
            (range_from 1 (N.to_nat m))) (c_nodes c)) (c_nodes c).

(* C29 on the history: every entry committed by a leader is in the log of every later leader *)
Fixpoint leader_completeness_b (h : list ghost) : bool :=
  match h with
  | [] => true
  | GCommit _ true _ idx e :: rest =>
      forallb (fun g => match g with
                        | GLeader _ _ log => oentry_eqb (log_at log idx) e
                        | _ => true end) rest
      && leader_completeness_b rest
  | _ :: rest => leader_completeness_b rest
  end.

(* ------------------------------------------------------------------ KnownClass predicates (decidable, on the history) *)

Definition supports (h : list ghost) : list (N * N * N) :=   (* (voter, term, candidate) *)
  flat_map (fun g => match g with
                     | GVote v t c => [(v, t, c)]
                     | GCand i t => [(i, t, i)]
                     | _ => [] end) h.

(* some node supported two different candidates (itself included) in one term *)
Definition double_vote_b (h : list ghost) : bool :=
  existsb (fun a => existsb (fun b =>
    match a, b with (v1, t1, c1), (v2, t2, c2) => (v1 =? v2) && (t1 =? t2) && negb (c1 =? c2) end)
    (supports h)) (supports h).

(* a candidate counted a Vote/Ok response that answers a request of another term *)
Definition stale_vote_b (h : list ghost) : bool :=
  existsb (fun g => match g with GStaleVote _ _ _ => true | _ => false end) h.

(* a follower acknowledged (Ok) an Append/Heartbeat while its log is not the sender's log prefix *)
Definition ack_diverged_b (h : list ghost) : bool :=
  existsb (fun g => match g with GAckDiverged _ _ => true | _ => false end) h.

(* a leader committed (by counting acknowledgements) an entry of a term other than its own *)
Definition old_term_commit_b (h : list ghost) : bool :=
  existsb (fun g => match g with
                    | GCommit _ true t _ (Some e) => negb (e_term e =? t)
                    | GCommit _ true _ _ None => true
                    | _ => false end) h.

(* a node acknowledged an Append/Heartbeat of a term lower than a term it had already voted in
   (voting does not raise the voter's term) *)
Definition ack_below_vote_b (h : list ghost) : bool :=
  existsb (fun g => match g with GAckBelowVote _ _ _ => true | _ => false end) h.

Definition known_class_b (h : list ghost) : bool :=
  double_vote_b h || stale_vote_b h || ack_diverged_b h || old_term_commit_b h || ack_below_vote_b h.

(* ------------------------------------------------------------------ C30: fault-free schedules *)

(* quiescent goal state: exactly one Leader, every other node its Follower, all logs equal to
   the leader's, everything committed, and the log holds exactly `data` *)
Definition all_synced_b (c : cluster) (data : list N) : bool :=
  match filter (fun nd => is_leader (n_state nd)) (c_nodes c) with
  | [ld] =>
      forallb (fun nd =>
        (is_leader (n_state nd) || match n_state nd with Follower l => l =? n_index ld | _ => false end)
        && entries_eqb (n_logs nd) (n_logs ld)
        && (n_commit nd =? lenN (n_logs ld))) (c_nodes c)
      && (fix eq (a : list N) (b : list N) := match a, b with
            | [], [] => true | x :: a', y :: b' => (x =? y) && eq a' b' | _, _ => false end)
           (map e_data (n_logs ld)) data
  | _ => false
  end.

(* deliver everything in flight, oldest first, until the network is empty (fuel-bounded);
   `elapsed = 0`: no timer has expired at any receiver *)
Fixpoint drain (rv : raftrev) (fuel : nat) (c : cluster) : cluster :=
  match fuel with
  | O => c
  | S f => match c_net c with [] => c | _ => drain rv f (step rv c (Deliver 0 0)) end
  end.
