(* ImapProofs.v — C10: the alias map (IndexedMapImpl<String, DbId>) is a bijection between
   aliases and ids; exact semantics of insert / remove_key. *)
From Agdb Require Import Bytes BytesProofs DbValue Graph DbModel AssocProofs.
Open Scope Z_scope.

(* one-to-one: the two directions describe the same relation, and no key is listed twice *)
Definition bij (m : imap) : Prop :=
  (forall a id, alookup bytes_eqb (k2v m) a = Some id <-> alookup Z.eqb (v2k m) id = Some a)
  /\ NoDup (map fst (k2v m)) /\ NoDup (map fst (v2k m)).

Lemma bij_empty : bij imap_empty.
Proof. split; [|split]; cbn; [intros; split; discriminate|constructor|constructor]. Qed.

(* raw lookup equations of imap_insert (no invariant needed) *)
Lemma imap_insert_key m a id y :
  imap_key (imap_insert m a id) y =
  if id =? y then Some a
  else match imap_value m a with
       | Some v => if v =? y then None else imap_key m y
       | None => imap_key m y
       end.
Proof.
  unfold imap_key, imap_value, imap_insert.
  destruct (ainsert bytes_eqb (k2v m) a id) as [old_v k2v1] eqn:E1.
  destruct (ainsert Z.eqb _ id a) as [old_k v2k2] eqn:E2.
  cbn [v2k].
  change v2k2 with (snd (old_k, v2k2)). rewrite <- E2.
  rewrite (alookup_ainsert Z.eqb Z.eqb_eq).
  destruct (id =? y); [reflexivity|].
  assert (Hov : old_v = alookup bytes_eqb (k2v m) a) by (unfold ainsert in E1; congruence).
  rewrite <- Hov. destruct old_v as [v|]; [|reflexivity].
  now rewrite (alookup_aremove Z.eqb Z.eqb_eq).
Qed.

Definition insert_old_k (m : imap) (a : bytes) (id : Z) : option bytes :=
  match imap_value m a with
  | Some v => if v =? id then None else imap_key m id
  | None => imap_key m id
  end.

Lemma imap_insert_value_raw m a id x :
  imap_value (imap_insert m a id) x =
  let l1 := if bytes_eqb a x then Some id else imap_value m x in
  match insert_old_k m a id with
  | Some k => if bytes_eqb k x then None else l1
  | None => l1
  end.
Proof.
  unfold insert_old_k, imap_key, imap_value, imap_insert.
  destruct (ainsert bytes_eqb (k2v m) a id) as [old_v k2v1] eqn:E1.
  destruct (ainsert Z.eqb _ id a) as [old_k v2k2] eqn:E2.
  cbn [k2v].
  assert (Hov : old_v = alookup bytes_eqb (k2v m) a) by (unfold ainsert in E1; congruence).
  assert (Hk1 : forall x, alookup bytes_eqb k2v1 x = if bytes_eqb a x then Some id else alookup bytes_eqb (k2v m) x).
  { intros x0. change k2v1 with (snd (old_v, k2v1)). rewrite <- E1.
    apply (alookup_ainsert bytes_eqb bytes_eqb_eq). }
  assert (Hok : old_k = match old_v with
                        | Some v => if v =? id then None else alookup Z.eqb (v2k m) id
                        | None => alookup Z.eqb (v2k m) id end).
  { change old_k with (fst (old_k, v2k2)). rewrite <- E2. unfold ainsert. cbn [fst].
    destruct old_v as [v|]; [|reflexivity].
    now rewrite (alookup_aremove Z.eqb Z.eqb_eq). }
  rewrite <- Hov, <- Hok. cbv zeta.
  destruct old_k as [k|]; [|apply Hk1].
  rewrite (alookup_aremove bytes_eqb bytes_eqb_eq), Hk1. reflexivity.
Qed.

Lemma imap_remove_key_value m a x :
  imap_value (imap_remove_key m a) x = if bytes_eqb a x then None else imap_value m x.
Proof. unfold imap_value, imap_remove_key. cbn [k2v]. apply (alookup_aremove bytes_eqb bytes_eqb_eq). Qed.

Lemma imap_remove_key_key m a y :
  imap_key (imap_remove_key m a) y =
  match imap_value m a with
  | Some v => if v =? y then None else imap_key m y
  | None => imap_key m y
  end.
Proof.
  unfold imap_key, imap_value, imap_remove_key. cbn [v2k].
  destruct (alookup bytes_eqb (k2v m) a); [|reflexivity].
  apply (alookup_aremove Z.eqb Z.eqb_eq).
Qed.

Lemma bij_value_key m a id : bij m -> (imap_value m a = Some id <-> imap_key m id = Some a).
Proof. intros [H _]. apply H. Qed.

(* under the invariant: the key displaced on the id side is the previous alias of id, unless it is `a` itself *)
Lemma insert_old_k_bij m a id :
  bij m ->
  insert_old_k m a id = match imap_key m id with
                        | Some k => if bytes_eqb k a then None else Some k
                        | None => None
                        end.
Proof.
  intros Hb. unfold insert_old_k.
  destruct (imap_value m a) as [v|] eqn:Ev.
  - destruct (Z.eqb_spec v id) as [->|Hne].
    + apply (bij_value_key m a id Hb) in Ev. rewrite Ev.
      now rewrite bytes_eqb_refl.
    + destruct (imap_key m id) as [k|] eqn:Ek; [|reflexivity].
      destruct (bytes_eqb_spec k a) as [->|]; [|reflexivity].
      apply (bij_value_key m a id Hb) in Ek. congruence.
  - destruct (imap_key m id) as [k|] eqn:Ek; [|reflexivity].
    destruct (bytes_eqb_spec k a) as [->|]; [|reflexivity].
    apply (bij_value_key m a id Hb) in Ek. congruence.
Qed.

Lemma imap_insert_value m a id x :
  bij m ->
  imap_value (imap_insert m a id) x =
  if bytes_eqb a x then Some id
  else match imap_key m id with
       | Some k => if bytes_eqb k x then None else imap_value m x
       | None => imap_value m x
       end.
Proof.
  intros Hb. rewrite imap_insert_value_raw, (insert_old_k_bij m a id Hb). cbv zeta.
  destruct (imap_key m id) as [k|] eqn:Ek.
  - destruct (bytes_eqb_spec k a) as [->|Hka].
    + destruct (bytes_eqb a x); reflexivity.
    + destruct (bytes_eqb_spec k x) as [->|Hkx].
      * rewrite (bytes_eqb_neq a x); [reflexivity|congruence].
      * reflexivity.
  - reflexivity.
Qed.

Lemma bij_imap_insert m a id : bij m -> bij (imap_insert m a id).
Proof.
  intros Hb. split; [|split].
  - (* both lookups are given by case distinctions on tests a = x, id = y, "the old alias of id is x",
       "the old id of a is y"; in each case the equivalence follows from that of m at (x, y), (a, y), (x, id) *)
    intros x y. change (imap_value (imap_insert m a id) x = Some y <-> imap_key (imap_insert m a id) y = Some x).
    rewrite (imap_insert_value m a id x Hb), imap_insert_key.
    pose proof (bij_value_key m x y Hb) as Hxy. pose proof (bij_value_key m a y Hb) as Hay.
    pose proof (bij_value_key m x id Hb) as Hxi.
    destruct (bytes_eqb_spec a x) as [<-|Hax]; destruct (Z.eqb_spec id y) as [<-|Hiy];
      destruct (imap_key m id) as [k|] eqn:Ek; try destruct (bytes_eqb_spec k x) as [->|Hkx];
      destruct (imap_value m a) as [v|] eqn:Ev; try destruct (Z.eqb_spec v y) as [->|Hvy];
      intuition congruence.
  - destruct Hb as (_ & Hk & Hv). unfold imap_insert.
    destruct (ainsert bytes_eqb (k2v m) a id) as [old_v k2v1] eqn:E1.
    destruct (ainsert Z.eqb _ id a) as [old_k v2k2] eqn:E2. cbn [k2v].
    assert (Hn1 : NoDup (map fst k2v1)).
    { change k2v1 with (snd (old_v, k2v1)). rewrite <- E1. now apply (nodup_ainsert bytes_eqb bytes_eqb_eq). }
    destruct old_k; [now apply (nodup_aremove bytes_eqb bytes_eqb_eq)|assumption].
  - destruct Hb as (_ & Hk & Hv). unfold imap_insert.
    destruct (ainsert bytes_eqb (k2v m) a id) as [old_v k2v1] eqn:E1.
    destruct (ainsert Z.eqb _ id a) as [old_k v2k2] eqn:E2. cbn [v2k].
    change v2k2 with (snd (old_k, v2k2)). rewrite <- E2.
    apply (nodup_ainsert Z.eqb Z.eqb_eq).
    destruct old_v; [now apply (nodup_aremove Z.eqb Z.eqb_eq)|assumption].
Qed.

Lemma bij_imap_remove_key m a : bij m -> bij (imap_remove_key m a).
Proof.
  intros Hb. split; [|split].
  - intros x y. change (imap_value (imap_remove_key m a) x = Some y <-> imap_key (imap_remove_key m a) y = Some x).
    rewrite imap_remove_key_value, imap_remove_key_key.
    pose proof (bij_value_key m x y Hb) as Hxy. pose proof (bij_value_key m a y Hb) as Hay.
    destruct (bytes_eqb_spec a x) as [<-|Hax];
      destruct (imap_value m a) as [v|] eqn:Ev; try destruct (Z.eqb_spec v y) as [->|Hvy];
      intuition congruence.
  - destruct Hb as (_ & Hk & Hv). unfold imap_remove_key. cbn [k2v].
    now apply (nodup_aremove bytes_eqb bytes_eqb_eq).
  - destruct Hb as (_ & Hk & Hv). unfold imap_remove_key. cbn [v2k].
    destruct (alookup bytes_eqb (k2v m) a); [now apply (nodup_aremove Z.eqb Z.eqb_eq)|assumption].
Qed.

(* each alias names at most one id and each id has at most one alias: immediate, both sides are
   functions; the content of `bij` is that the two functions are inverse to each other *)
Lemma bij_injective m a b id :
  bij m -> imap_value m a = Some id -> imap_value m b = Some id -> a = b.
Proof.
  intros Hb Ha Hb'. apply (bij_value_key m a id Hb) in Ha. apply (bij_value_key m b id Hb) in Hb'. congruence.
Qed.
