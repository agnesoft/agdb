(* FileWalGuardProofs.v — C01 with the position guard of apply_wal_record (fixes/C07-wal-position.diff):
   on every log the storage itself wrote, at every crash cut, the guard never fires and the guarded
   recovery returns exactly what the unguarded one returns.  The invariant of FileWalProofs.v (Good) is
   strengthened by "every logged position is <= the length of the data at the moment that record is
   undone" (Good'); the induction over the operations is the one of FileWalProofs.v. *)
From Agdb Require Import Bytes BytesProofs FileWal FileWalProofs.
From Coq Require Import ZifyBool ZifyNat ZifyN.
Ltac Zify.zify_post_hook ::= Z.div_mod_to_equations.
Open Scope nat_scope.
Arguments N.of_nat : simpl never.
Arguments N.to_nat : simpl never.
Arguments N.ltb : simpl never.

Fixpoint gok (rs : list (nat * bytes)) (d : bytes) : Prop :=
  match rs with
  | [] => True
  | r :: rest => fst r <= length d /\ gok rest (apply_rec d r)
  end.

Lemma apply_all_g_ok rs : forall d, gok rs d -> apply_all_g rs d = Some (fold_left apply_rec rs d).
Proof.
  induction rs as [|r rs IH]; intros d H; cbn [apply_all_g fold_left]; [reflexivity|].
  destruct H as [H1 H2]. unfold apply_rec_g.
  destruct (Nat.ltb_spec (length d) (fst r)); [lia|]. now apply IH.
Qed.

Lemma apply_all_g_gok rs : forall d d', apply_all_g rs d = Some d' -> gok rs d.
Proof.
  induction rs as [|r rs IH]; intros d d' H; cbn [apply_all_g gok] in *; [exact I|].
  unfold apply_rec_g in H. destruct (Nat.ltb_spec (length d) (fst r)); [discriminate|].
  split; [lia|exact (IH _ _ H)].
Qed.

Lemma gok_app a : forall b d, gok (a ++ b) d <-> gok a d /\ gok b (fold_left apply_rec a d).
Proof.
  induction a as [|r a IH]; intros b d; cbn [app gok fold_left]; [tauto|]. rewrite IH. tauto.
Qed.

(* rs in log order, applied newest first *)
Definition gok_nf (rs : list (nat * bytes)) (d : bytes) : Prop := gok (rev rs) d.

Lemma gok_nf_app a b d : gok_nf (a ++ b) d <-> gok_nf b d /\ gok_nf a (replay_nf b d).
Proof. unfold gok_nf, replay_nf. rewrite rev_app_distr. apply gok_app. Qed.

Lemma gok_nf_one r d : gok_nf [r] d <-> fst r <= length d.
Proof. unfold gok_nf. cbn [rev app gok]. tauto. Qed.

Lemma replay_nf_one r d : replay_nf [r] d = apply_rec d r.
Proof. reflexivity. Qed.

Definition Good' (d0 : bytes) (st : fstate) : Prop :=
  exists rs, wal st = encs rs /\ Forall ok_rec rs /\ replay_nf rs (data st) = d0 /\ gok_nf rs (data st).

Definition GSafe (d0 : bytes) (st : fstate) : Prop :=
  recover_g walrev_fixed st = Some {| data := d0; wal := [] |}.

(* what a crash leaves: the log of a Good' state followed by a torn record *)
Definition Recoverable (d0 : bytes) (st : fstate) : Prop :=
  exists rs t, wal st = encs rs ++ t /\ incomplete t /\ Forall ok_rec rs /\
               replay_nf rs (data st) = d0 /\ gok_nf rs (data st).

Lemma good'_good d0 st : Good' d0 st -> Good d0 st.
Proof. intros (rs & Hw & Hok & Hr & _). exists rs. auto. Qed.

Lemma good'_committed d0 : Good' d0 {| data := d0; wal := [] |}.
Proof. exists []. cbn [data wal]. repeat split; constructor. Qed.

Lemma rec_tail d0 st rs t :
  wal st = encs rs ++ t -> incomplete t -> Forall ok_rec rs ->
  replay_nf rs (data st) = d0 -> gok_nf rs (data st) -> Recoverable d0 st.
Proof. intros. exists rs, t. auto. Qed.

Lemma rec_gsafe d0 st : Recoverable d0 st -> GSafe d0 st.
Proof.
  intros (rs & t & Hw & Ht & Hok & Hr & Hg). unfold GSafe, recover_g, replay_g. cbn [w_newest_first walrev_fixed].
  rewrite Hw, records_encs by assumption. rewrite apply_all_g_ok by exact Hg.
  unfold replay_nf in Hr. now rewrite Hr.
Qed.

Lemma rec_safe d0 st : Recoverable d0 st -> Safe d0 st.
Proof. intros (rs & t & Hw & Ht & Hok & Hr & Hg). now apply (safe_tail d0 st rs t). Qed.

Lemma good'_rec d0 st : Good' d0 st -> Recoverable d0 st.
Proof.
  intros (rs & Hw & Hok & Hr & Hg).
  apply (rec_tail d0 st rs []); [now rewrite app_nil_r|apply incomplete_nil|exact Hok|exact Hr|exact Hg].
Qed.

Lemma good'_extend d0 d w ex d' :
  Good' d0 {| data := d; wal := w |} -> undoes ex d' d -> Good' d0 {| data := d'; wal := w ++ encs ex |}.
Proof.
  intros (rs & Hw & Hok & Hr & Hg) Hu. pose proof (undoes_replay _ _ _ Hu) as E.
  cbn [data wal] in *. exists (rs ++ ex). cbn [data wal]. repeat split.
  - now rewrite Hw, encs_app.
  - apply Forall_app. split; [exact Hok|apply Hu].
  - now rewrite replay_nf_app, E.
  - apply gok_nf_app. rewrite E. split; [|exact Hg]. exact (apply_all_g_gok _ _ _ (proj2 Hu)).
Qed.

Lemma good'_torn d0 d w t :
  Good' d0 {| data := d; wal := w |} -> incomplete t -> Recoverable d0 {| data := d; wal := w ++ t |}.
Proof.
  intros (rs & Hw & Hok & Hr & Hg) Ht. cbn [data wal] in *. exists rs, t. cbn [data wal]. now rewrite Hw.
Qed.

Theorem crash_recoverable : forall ops st d0 k j,
  Good' d0 st -> wp (data st) ops ->
  Recoverable (expect d0 st ops k) (crash st (trace walrev_fixed st ops) k j).
Proof. exact (cuts_restore Good' Recoverable good'_extend good'_torn good'_committed). Qed.

Theorem recover_g_restores_state : forall ops st d0 k j,
  Good' d0 st -> wp (data st) ops ->
  GSafe (expect d0 st ops k) (crash st (trace walrev_fixed st ops) k j).
Proof. intros. now apply rec_gsafe, crash_recoverable. Qed.

(* the guard never fires on a log the storage wrote: guarded = unguarded recovery *)
Theorem recover_g_restores : forall ops st d0 k j,
  Good' d0 st -> wp (data st) ops ->
  recover_g walrev_fixed (crash st (trace walrev_fixed st ops) k j)
  = Some (recover walrev_fixed (crash st (trace walrev_fixed st ops) k j)).
Proof.
  intros ops st d0 k j HG Hwp.
  pose proof (recover_g_restores_state ops st d0 k j HG Hwp) as A.
  pose proof (recover_restores ops st d0 k j (good'_good _ _ HG) Hwp) as B.
  unfold GSafe in A. unfold Safe in B. now rewrite A, B.
Qed.

(* from a committed file with an empty log: exactly the hypotheses of recover_from_committed *)
Corollary recover_g_from_committed d0 ops k j :
  wp d0 ops ->
  let c := crash {| data := d0; wal := [] |} (trace walrev_fixed {| data := d0; wal := [] |} ops) k j in
  recover_g walrev_fixed c = Some (recover walrev_fixed c) /\
  recover_g walrev_fixed c = Some {| data := expect d0 {| data := d0; wal := [] |} ops k; wal := [] |}.
Proof.
  intros H c. subst c. split.
  - apply (recover_g_restores ops _ d0); [apply good'_committed|exact H].
  - apply (recover_g_restores_state ops _ d0); [apply good'_committed|exact H].
Qed.

(* whenever the guarded recovery succeeds — on ANY files — it returns what the unguarded one returns *)
Lemma recover_g_some rv st st' : recover_g rv st = Some st' -> st' = recover rv st.
Proof.
  unfold recover_g, recover, replay_g, replay.
  destruct (apply_all_g _ _) as [d|] eqn:E; [|discriminate].
  intros H. injection H as <-. apply apply_all_g_some in E. now rewrite E.
Qed.

