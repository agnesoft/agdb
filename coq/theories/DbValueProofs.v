(* DbValueProofs.v — the derived order of DbValue (dbv_cmp) is a total order
   (as a three-way comparison: antisymmetric, Eq is a congruence, Lt transitive),
   and the combinators that build SearchQuery::sort's comparator preserve that.
   Used by C15 (symmetry of key equality) and C16 (sort). *)
From Agdb Require Import Bytes DbValue.
From Coq Require Import ZifyBool ZifyNat ZifyN.
Open Scope Z_scope.

Record cmp_ok {A} (cmp : A -> A -> comparison) : Prop := {
  cmp_antisym : forall x y, cmp x y = CompOpp (cmp y x);
  cmp_eq_trans : forall x y z c, cmp x y = Eq -> cmp y z = c -> cmp x z = c;
  cmp_lt_trans : forall x y z, cmp x y = Lt -> cmp y z = Lt -> cmp x z = Lt
}.

Section Derived.
  Context {A} (cmp : A -> A -> comparison) (OK : cmp_ok cmp).

  Lemma cmp_refl x : cmp x x = Eq.
  Proof. pose proof (cmp_antisym cmp OK x x) as H. destruct (cmp x x); try reflexivity; discriminate. Qed.

  Lemma cmp_eq_sym x y : cmp x y = Eq -> cmp y x = Eq.
  Proof. intros H. rewrite (cmp_antisym cmp OK), H. reflexivity. Qed.

  Lemma cmp_gt_lt x y : cmp x y = Gt <-> cmp y x = Lt.
  Proof. rewrite (cmp_antisym cmp OK x y). destruct (cmp y x); cbn; split; congruence. Qed.

  Lemma cmp_trans_eq_r x y z c : cmp x y = c -> cmp y z = Eq -> cmp x z = c.
  Proof.
    intros H1 H2. rewrite (cmp_antisym cmp OK x z).
    rewrite (cmp_eq_trans cmp OK z y x (cmp y x)); [|apply cmp_eq_sym; exact H2|reflexivity].
    rewrite <- (cmp_antisym cmp OK x y). exact H1.
  Qed.

  Lemma cmp_gt_trans x y z : cmp x y = Gt -> cmp y z = Gt -> cmp x z = Gt.
  Proof.
    rewrite !cmp_gt_lt. intros H1 H2. exact (cmp_lt_trans cmp OK z y x H2 H1).
  Qed.

  (* "x <= y" := cmp x y <> Gt is a total preorder *)
  Lemma cmp_le_trans x y z : cmp x y <> Gt -> cmp y z <> Gt -> cmp x z <> Gt.
  Proof.
    intros H1 H2. destruct (cmp x y) eqn:E1; [| |congruence].
    - rewrite (cmp_eq_trans cmp OK x y z (cmp y z) E1 eq_refl). exact H2.
    - destruct (cmp y z) eqn:E2; [| |congruence].
      + rewrite (cmp_trans_eq_r x y z Lt E1 E2). discriminate.
      + rewrite (cmp_lt_trans cmp OK x y z E1 E2). discriminate.
  Qed.

  Lemma cmp_le_total x y : cmp x y <> Gt \/ cmp y x <> Gt.
  Proof.
    destruct (cmp x y) eqn:E; [left; discriminate|left; discriminate|right].
    apply cmp_gt_lt in E. rewrite E. discriminate.
  Qed.
End Derived.

Lemma Zcompare_ok : cmp_ok Z.compare.
Proof.
  split.
  - intros x y. apply Z.compare_antisym.
  - intros x y z c H <-. apply Z.compare_eq in H. now subst.
  - intros x y z. rewrite !Z.compare_lt_iff. lia.
Qed.

Lemma Ncompare_ok : cmp_ok N.compare.
Proof.
  split.
  - intros x y. apply N.compare_antisym.
  - intros x y z c H <-. apply N.compare_eq in H. now subst.
  - intros x y z. rewrite !N.compare_lt_iff. lia.
Qed.

Lemma cmp_ok_key {A B} (f : A -> B) (cmp : B -> B -> comparison) :
  cmp_ok cmp -> cmp_ok (fun x y => cmp (f x) (f y)).
Proof.
  intros OK. split.
  - intros x y. apply (cmp_antisym cmp OK).
  - intros x y z c. apply (cmp_eq_trans cmp OK).
  - intros x y z. apply (cmp_lt_trans cmp OK).
Qed.

Lemma cmp_ok_opp {A} (cmp : A -> A -> comparison) :
  cmp_ok cmp -> cmp_ok (fun x y => CompOpp (cmp x y)).
Proof.
  intros OK. split.
  - intros x y. rewrite (cmp_antisym cmp OK x y). reflexivity.
  - intros x y z c H1 H2.
    assert (E : cmp x y = Eq) by (destruct (cmp x y); cbn in H1; congruence).
    rewrite (cmp_eq_trans cmp OK x y z (cmp y z) E eq_refl). exact H2.
  - intros x y z H1 H2.
    assert (E1 : cmp x y = Gt) by (destruct (cmp x y); cbn in H1; congruence).
    assert (E2 : cmp y z = Gt) by (destruct (cmp y z); cbn in H2; congruence).
    rewrite (cmp_gt_trans cmp OK x y z E1 E2). reflexivity.
Qed.

(* lexicographic combination of two comparisons of the same things *)
Lemma cmp_then_eq c d : cmp_then c d = Eq <-> c = Eq /\ d = Eq.
Proof. destruct c, d; cbn; intuition congruence. Qed.

Lemma cmp_then_lt c d : cmp_then c d = Lt <-> c = Lt \/ (c = Eq /\ d = Lt).
Proof. destruct c, d; cbn; intuition congruence. Qed.

Lemma cmp_ok_then {A} (c1 c2 : A -> A -> comparison) :
  cmp_ok c1 -> cmp_ok c2 -> cmp_ok (fun x y => cmp_then (c1 x y) (c2 x y)).
Proof.
  intros O1 O2. split.
  - intros x y. rewrite (cmp_antisym c1 O1 x y), (cmp_antisym c2 O2 x y).
    destruct (c1 y x), (c2 y x); reflexivity.
  - intros x y z c H1 H2. apply cmp_then_eq in H1 as [E1 E2].
    rewrite (cmp_eq_trans c1 O1 x y z _ E1 eq_refl), (cmp_eq_trans c2 O2 x y z _ E2 eq_refl).
    exact H2.
  - intros x y z H1 H2. apply cmp_then_lt in H1 as [L1|[E1 L1]]; apply cmp_then_lt in H2 as [L2|[E2 L2]];
      apply cmp_then_lt.
    + left. exact (cmp_lt_trans c1 O1 x y z L1 L2).
    + left. exact (cmp_trans_eq_r c1 O1 x y z Lt L1 E2).
    + left. rewrite (cmp_eq_trans c1 O1 x y z _ E1 eq_refl). exact L2.
    + right. split.
      * rewrite (cmp_eq_trans c1 O1 x y z _ E1 eq_refl). exact E2.
      * exact (cmp_lt_trans c2 O2 x y z L1 L2).
Qed.

(* options with the absent value last *)
Definition opt_cmp {A} (cmp : A -> A -> comparison) (a b : option A) : comparison :=
  match a, b with
  | None, None => Eq
  | None, Some _ => Gt
  | Some _, None => Lt
  | Some x, Some y => cmp x y
  end.

Lemma cmp_ok_opt {A} (cmp : A -> A -> comparison) : cmp_ok cmp -> cmp_ok (opt_cmp cmp).
Proof.
  intros OK. split.
  - intros [x|] [y|]; cbn; try reflexivity. apply (cmp_antisym cmp OK).
  - intros [x|] [y|] [z|] c; cbn; try congruence. apply (cmp_eq_trans cmp OK).
  - intros [x|] [y|] [z|]; cbn; try congruence. apply (cmp_lt_trans cmp OK).
Qed.

(* lists, lexicographically *)
Lemma lex_cmp_ok {A} (cmp : A -> A -> comparison) : cmp_ok cmp -> cmp_ok (lex_cmp cmp).
Proof.
  intros OK. split.
  - induction x as [|a x IH]; destruct y as [|b y]; cbn [lex_cmp]; try reflexivity.
    rewrite (cmp_antisym cmp OK a b), IH. destruct (cmp b a), (lex_cmp cmp y x); reflexivity.
  - induction x as [|a x IH]; destruct y as [|b y]; destruct z as [|c' z]; cbn [lex_cmp]; intros c H1 H2;
      try discriminate; try exact H2.
    apply cmp_then_eq in H1 as [E1 E2].
    rewrite (cmp_eq_trans cmp OK a b c' _ E1 eq_refl).
    rewrite (IH y z (lex_cmp cmp y z) E2 eq_refl). exact H2.
  - induction x as [|a x IH]; destruct y as [|b y]; destruct z as [|c' z]; cbn [lex_cmp]; intros H1 H2;
      try discriminate; try reflexivity.
    apply cmp_then_lt in H1 as [L1|[E1 L1]]; apply cmp_then_lt in H2 as [L2|[E2 L2]]; apply cmp_then_lt.
    + left. exact (cmp_lt_trans cmp OK a b c' L1 L2).
    + left. exact (cmp_trans_eq_r cmp OK a b c' Lt L1 E2).
    + left. rewrite (cmp_eq_trans cmp OK a b c' _ E1 eq_refl). exact L2.
    + right. split.
      * rewrite (cmp_eq_trans cmp OK a b c' _ E1 eq_refl). exact E2.
      * exact (IH y z L1 L2).
Qed.

Lemma byte_cmp_ok : cmp_ok byte_cmp.
Proof. exact (cmp_ok_key b2n N.compare Ncompare_ok). Qed.
Lemma bytes_cmp_ok : cmp_ok bytes_cmp.
Proof. exact (lex_cmp_ok byte_cmp byte_cmp_ok). Qed.
Lemma f64_cmp_ok : cmp_ok f64_cmp.
Proof. exact (cmp_ok_key f64_key Z.compare Zcompare_ok). Qed.

Local Hint Resolve Zcompare_ok Ncompare_ok bytes_cmp_ok f64_cmp_ok lex_cmp_ok : cmpok.

Lemma dbv_cmp_antisym x y : dbv_cmp x y = CompOpp (dbv_cmp y x).
Proof.
  destruct x, y; try reflexivity; cbn [dbv_cmp];
    match goal with |- ?c _ _ = _ => apply (cmp_antisym c) end; auto with cmpok.
Qed.

Lemma dbv_cmp_eq_kind x y : dbv_cmp x y = Eq -> kind x = kind y.
Proof. destruct x, y; cbn [dbv_cmp kind]; intros H; try reflexivity; discriminate H. Qed.

Lemma dbv_cmp_eq_trans x y z c : dbv_cmp x y = Eq -> dbv_cmp y z = c -> dbv_cmp x z = c.
Proof.
  intros H1 H2.
  destruct x, y; try discriminate H1; destruct z; try exact H2; cbn [dbv_cmp] in *;
    match goal with |- ?c _ _ = _ => eapply (cmp_eq_trans c); eauto with cmpok end.
Qed.

Lemma dbv_cmp_lt_trans x y z : dbv_cmp x y = Lt -> dbv_cmp y z = Lt -> dbv_cmp x z = Lt.
Proof.
  intros H1 H2.
  destruct x, y; try discriminate H1; try (destruct z; first [discriminate H2|reflexivity]);
    destruct z; try discriminate H2; try reflexivity; cbn [dbv_cmp] in *;
    match goal with |- ?c _ _ = _ => eapply (cmp_lt_trans c); eauto with cmpok end.
Qed.

Theorem dbv_cmp_ok : cmp_ok dbv_cmp.
Proof. split; [exact dbv_cmp_antisym|exact dbv_cmp_eq_trans|exact dbv_cmp_lt_trans]. Qed.

Lemma dbv_eqb_sym x y : dbv_eqb x y = dbv_eqb y x.
Proof. unfold dbv_eqb. rewrite dbv_cmp_antisym. destruct (dbv_cmp y x); reflexivity. Qed.

Lemma dbv_eqb_refl x : dbv_eqb x x = true.
Proof. unfold dbv_eqb. rewrite (cmp_refl dbv_cmp dbv_cmp_ok). reflexivity. Qed.
