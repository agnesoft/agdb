(* UndoStepsGraph.v — C13_step_inverse for the graph primitives of DbModel.v:
   insert_node_db, insert_edge_db, remove_edge_db, and the removal of an isolated node
   (the last step of remove_node_db).  The LIFO free list gives the removed slot back. *)
From Agdb Require Import Bytes BytesProofs DbValue Graph DbModel Revisions UndoBase UndoObs UndoAlias UndoKv
  UndoGraphBase UndoGraph UndoGraphEdge UndoGraphOps UndoAbs UndoDb.
From Coq Require Import Permutation ZifyBool ZifyNat ZifyN.
Ltac Zify.zify_post_hook ::= Z.div_mod_to_equations.
Open Scope Z_scope.

Lemma cap_get_free_index g :
  capacity (snd (get_free_index g)) = if fmeta g 0 =? i64_min then capacity g + 1 else capacity g.
Proof.
  unfold get_free_index. destruct (fmeta g 0 =? i64_min); cbn [snd]; [apply cap_grow|].
  rewrite !cap_set_fmeta. reflexivity.
Qed.

Lemma cap_insert_node g : capacity (snd (insert_node g)) = capacity (snd (get_free_index g)).
Proof. unfold insert_node. destruct (get_free_index g). cbn [snd]. apply cap_set_tmeta. Qed.

Lemma cap_insert_edge g f t i g' : insert_edge g f t = Some (i, g') -> capacity g' = capacity (snd (get_free_index g)).
Proof.
  unfold insert_edge. destruct (is_node g f && is_node g t); [|discriminate].
  destruct (get_free_index g) as [s g1]. intros [= <- <-]. cbn [snd].
  rewrite cap_update_to_edge, cap_update_from_edge, cap_set_to, cap_set_from. reflexivity.
Qed.

(* re-allocating in a state whose allocation stream starts with a freed slot never exceeds the bound *)
Lemma alloc_bound g a a' s fl :
  rep g a -> aeqv a a' -> afree a' = s :: fl -> s < acap a' -> acap a' <= two63z ->
  capacity (snd (get_free_index g)) <= two63z.
Proof.
  unfold rep. intros R E Ef Hs Hb. rewrite cap_get_free_index. pose proof (r_cap _ _ _ _ R) as Hcap.
  destruct (Z.eqb_spec (fmeta g 0) i64_min) as [E0|]; [|lia].
  apply (rep_free_empty _ _ _ _ R) in E0. pose proof (ae_alloc _ _ E O) as H0.
  rewrite E0, Ef, astream_nil, astream_cons0, (r_acap _ _ _ _ R) in H0. lia.
Qed.

Lemma db_ok_rep d : db_ok d -> exists a, rep (gr d) a.
Proof. intros [G _ _ _]. destruct G as (a & _ & R & _). eauto. Qed.

(* the abstract view of a state similar to one with a known view *)
Lemma gsim_view ge g a : gsim ge g -> rep g a -> exists ae, rep ge ae /\ aeqv ae a.
Proof.
  intros (ae & a' & Re & R' & E) R. exists ae. split; [assumption|].
  eapply aeqv_trans; [exact E | apply (rep_unique g); assumption].
Qed.

Lemma sim_with_gr e d g' g :
  sim e d -> gsim g' g ->
  sim (with_gr e g') {| gr := g; aliases := aliases d; vals := vals d; indexes := indexes d; undo := undo d |}.
Proof. intros [G A V I] Hg. constructor; cbn; assumption. Qed.

Section Steps.
  Variable rv : revision.
  Hypothesis Hrv : fix_rollback_replace rv = true.

  (* generic graph step with one pushed command *)
  Lemma graph_step d g1 a1 c :
    db_ok d -> rep g1 a1 ->
    (forall e ae, sim e {| gr := g1; aliases := aliases d; vals := vals d; indexes := indexes d; undo := c :: undo d |} ->
        rep (gr e) ae -> aeqv ae a1 ->
        exists g', undo_one e c = ROk (with_gr e g') /\ gsim g' (gr d)) ->
    let d1 := {| gr := g1; aliases := aliases d; vals := vals d; indexes := indexes d; undo := c :: undo d |} in
    db_ok d1 /\ undoable rv d d1.
  Proof.
    intros Hok R1 Hop d1. pose proof Hok as [G A V I]. split.
    - constructor; cbn; eauto using gsim_of_rep.
    - apply (undoable_one rv Hrv _ _ c); [reflexivity|]. intros e He. pose proof He as [Ge Ae Ve Ie]. cbn in Ge, Ae, Ve, Ie.
      destruct (gsim_view _ _ _ Ge R1) as (ae & Re & Ee).
      destruct (Hop e ae He Re Ee) as (g' & Hun & Hg).
      rewrite Hun. eexists. split; [reflexivity|]. constructor; cbn; assumption.
  Qed.

  Lemma step_insert_node_db d i d1 :
    db_ok d -> insert_node_db d = (i, d1) -> capacity (gr d1) <= two63z ->
    db_ok d1 /\ undoable rv d d1 /\ capacity (gr d) <= capacity (gr d1) /\ 0 < i.
  Proof.
    intros Hok Hins Hb. destruct (db_ok_rep d Hok) as (a & R).
    unfold insert_node_db in Hins. destruct (insert_node (gr d)) as [i0 g] eqn:Eg. injection Hins as <- <-.
    cbn [gr push_undo with_gr] in Hb.
    destruct (rep_insert_node _ _ _ _ R Eg Hb) as (Ei & R1).
    destruct (rep_alloc_fresh _ _ _ _ R) as (Hipos & Hifree).
    pose proof (a_alloc_spec a) as Hsp. unfold a_insert_node in Ei, R1.
    destruct (a_alloc a) as [i1 a1] eqn:Ea. try (rewrite Ea in Hipos, Hifree). cbn [fst snd] in *. subst i0.
    destruct Hsp as (Ek & Eo & Ein & Ec & _ & _ & Ecap).
    assert (Hmono : capacity (gr d) <= capacity g).
    { unfold rep in R, R1. rewrite <- (r_acap _ _ _ _ R), <- (r_acap _ _ _ _ R1). cbn [a_set_count acap]. rewrite Ecap.
      destruct (afree a); lia. }
    destruct (graph_step d g _ (CRemoveNode i1) Hok R1) as (Hok1 & U1).
    { intros e ae He Re Ee.
      assert (Kn : ak ae i1 = KNode).
      { rewrite (ae_kind _ _ Ee) by assumption. cbn [a_set_count ak]. rewrite Ek. apply upd_same. }
      assert (Ho : aout ae i1 = []).
      { apply Permutation_nil. symmetry. rewrite (ae_out _ _ Ee) by assumption. cbn [a_set_count aout]. rewrite Eo, upd_same. reflexivity. }
      assert (Hin : ain ae i1 = []).
      { apply Permutation_nil. symmetry. rewrite (ae_in _ _ Ee) by assumption. cbn [a_set_count ain]. rewrite Ein, upd_same. reflexivity. }
      destruct (rep_remove_node _ _ i1 Re Hipos Kn Ho Hin) as (g' & Hrm & Rg' & _).
      exists g'. split; [cbn [undo_one]; rewrite Hrm; reflexivity|].
      exists (a_remove_node ae i1), a. split; [assumption|]. split; [assumption|].
      eapply aeqv_trans; [apply aeqv_remove_node, Ee|].
      pose proof (a_insert_remove_node a) as Hinv. unfold a_insert_node in Hinv. rewrite Ea in Hinv. cbn [fst snd] in Hinv.
      apply Hinv; assumption. }
    split; [exact Hok1|]. split; [exact U1|]. split; assumption.
  Qed.

  Lemma step_remove_isolated_node d a n :
    db_ok d -> rep (gr d) a -> 0 < n -> ak a n = KNode -> aout a n = [] -> ain a n = [] ->
    exists g', Graph.remove_node (gr d) n = Some g' /\
      let d1 := push_undo (with_gr d g') CInsertNode in
      db_ok d1 /\ undoable rv d d1 /\ capacity (gr d1) = capacity (gr d).
  Proof.
    intros Hok R Hn Kn Ho Hi. destruct (rep_remove_node _ _ n R Hn Kn Ho Hi) as (g' & Hrm & R1 & Hcap).
    exists g'. split; [assumption|]. cbv zeta.
    destruct (graph_step d g' _ CInsertNode Hok R1) as (Hok1 & U1).
    { intros e ae He Re Ee.
      destruct (insert_node (gr e)) as [i' g''] eqn:Eins.
      assert (Hb : capacity g'' <= two63z).
      { change g'' with (snd (i', g'')). rewrite <- Eins, cap_insert_node.
        eapply (alloc_bound _ _ _ n (afree a) Re Ee); [reflexivity | |].
        - cbn [a_remove_node a_set_count a_release acap]. unfold rep in R. rewrite (r_acap _ _ _ _ R).
          apply (rep_node_range _ _ _ _ R n Hn Kn).
        - cbn [a_remove_node a_set_count a_release acap]. unfold rep in R. rewrite (r_acap _ _ _ _ R).
          apply (r_cap _ _ _ _ R). }
      destruct (rep_insert_node _ _ _ _ Re Eins Hb) as (_ & Rg'').
      exists g''. split; [cbn [undo_one]; rewrite Eins; reflexivity|].
      exists (snd (a_insert_node ae)), a. split; [assumption|]. split; [assumption|].
      eapply aeqv_trans; [apply aeqv_insert_node, Ee|]. apply a_remove_insert_node; assumption. }
    split; [exact Hok1|]. split; [exact U1|]. exact Hcap.
  Qed.

  Lemma step_insert_edge_db d f t i d1 :
    db_ok d -> 0 < f -> 0 < t -> insert_edge_db d f t = ROk (i, d1) -> capacity (gr d1) <= two63z ->
    db_ok d1 /\ undoable rv d d1 /\ capacity (gr d) <= capacity (gr d1) /\ i < 0.
  Proof.
    intros Hok Hf Ht Hins Hb. destruct (db_ok_rep d Hok) as (a & R).
    unfold insert_edge_db in Hins. destruct (insert_edge (gr d) f t) as [[i0 g]|] eqn:Eg; [|discriminate].
    injection Hins as <- <-. cbn [gr push_undo with_gr] in Hb.
    assert (Hnodes : ak a f = KNode /\ ak a t = KNode).
    { unfold insert_edge in Eg. destruct (is_node (gr d) f && is_node (gr d) t) eqn:En; [|discriminate].
      apply andb_true_iff in En. destruct En as (En1 & En2). unfold rep in R.
      rewrite !(r_kind _ _ _ _ R) by assumption. split; apply is_node_kind; assumption. }
    destruct Hnodes as (Kf & Kt).
    destruct (rep_insert_edge _ _ _ _ _ _ R Hf Ht Kf Kt Eg Hb) as (Ei & R1).
    destruct (rep_alloc_fresh _ _ _ _ R) as (Hepos & Hefree).
    pose proof (a_alloc_spec a) as Hsp. unfold a_insert_edge in Ei, R1.
    destruct (a_alloc a) as [e0 a1] eqn:Ea. try (rewrite Ea in Hepos, Hefree). cbn [fst snd] in *. subst i0.
    destruct Hsp as (Ek & Eo & Ein & Ec & _ & _ & Ecap).
    assert (Hfe : f <> e0) by (intros ->; congruence).
    assert (Hte : t <> e0) by (intros ->; congruence).
    set (A1 := a_set_in (a_set_out (a_make_edge a1 e0 f t) f (e0 :: aout (a_make_edge a1 e0 f t) f)) t
                        (e0 :: ain (a_set_out (a_make_edge a1 e0 f t) f (e0 :: aout (a_make_edge a1 e0 f t) f)) t)) in *.
    assert (KA1 : ak A1 = upd (upd (ak a) e0 KNode) e0 (KEdge f t)).
    { unfold A1. cbn [a_set_in a_set_out a_make_edge ak]. rewrite Ek. reflexivity. }
    assert (Hmono : capacity (gr d) <= capacity g).
    { unfold rep in R, R1. rewrite <- (r_acap _ _ _ _ R), <- (r_acap _ _ _ _ R1). unfold A1.
      cbn [a_set_in a_set_out a_make_edge acap]. rewrite Ecap. destruct (afree a); lia. }
    destruct (graph_step d g _ (CRemoveEdge (- e0)) Hok R1) as (Hok1 & U1).
    { intros e ae He Re Ee.
      assert (Ke : ak ae e0 = KEdge f t) by (rewrite (ae_kind _ _ Ee) by assumption; rewrite KA1; apply upd_same).
      assert (Kfe : ak ae f = KNode) by (rewrite (ae_kind _ _ Ee) by assumption; rewrite KA1, !upd_other by assumption; assumption).
      assert (Kte : ak ae t = KNode) by (rewrite (ae_kind _ _ Ee) by assumption; rewrite KA1, !upd_other by assumption; assumption).
      destruct (rep_remove_edge _ _ e0 f t Re Hepos Ke) as (g' & Hrm & Rg' & _).
      exists g'. split; [cbn [undo_one]; rewrite Hrm; reflexivity|].
      exists (a_remove_edge ae e0), a. split; [assumption|]. split; [assumption|].
      eapply aeqv_trans; [apply (aeqv_remove_edge ae A1 e0 f t Ee); assumption|].
      pose proof (a_insert_remove_edge a f t) as Hinv. unfold a_insert_edge in Hinv. rewrite Ea in Hinv. cbn [fst snd] in Hinv.
      apply Hinv; try assumption.
      - intros Hin. destruct (rep_out_edge _ _ _ _ R f e0 Hf Kf Hin) as (t' & Ht'). congruence.
      - intros Hin. destruct (rep_in_edge _ _ _ _ R t e0 Ht Kt Hin) as (f' & Hf'). congruence. }
    split; [exact Hok1|]. split; [exact U1|]. split; [exact Hmono | lia].
  Qed.

  Lemma step_remove_edge_db d a e0 f t :
    db_ok d -> rep (gr d) a -> 0 < e0 -> ak a e0 = KEdge f t ->
    exists d1, remove_edge_db d (- e0) = (d1, None) /\
      db_ok d1 /\ undoable rv d d1 /\ capacity (gr d1) = capacity (gr d) /\
      aliases d1 = aliases d /\ vals d1 = vals d /\ indexes d1 = indexes d /\
      rep (gr d1) (a_remove_edge a e0).
  Proof.
    intros Hok R He Ke. destruct (rep_remove_edge _ _ e0 f t R He Ke) as (g' & Hrm & R1 & Hcap).
    unfold rep in R. destruct (rep_edge_arrays _ _ _ _ R e0 f t He Ke) as (Her & _ & Efr & Eto & Hf & Ht).
    destruct (r_edge _ _ _ _ R e0 f t He Ke) as (_ & _ & Kf & Kt).
    unfold remove_edge_db. rewrite Hrm. unfold edge_from, edge_to. rewrite from_opp, to_opp, Efr, Eto, !Z.opp_involutive.
    eexists. split; [reflexivity|].
    destruct (graph_step d g' _ (CInsertEdge f t) Hok R1) as (Hok1 & U1).
    { intros e ae He' Re Ee.
      assert (KA1 : ak (a_remove_edge a e0) = upd (ak a) e0 KFree).
      { unfold a_remove_edge. rewrite Ke. reflexivity. }
      assert (Hfe : f <> e0) by (intros ->; congruence).
      assert (Hte : t <> e0) by (intros ->; congruence).
      assert (Kfe : ak ae f = KNode) by (rewrite (ae_kind _ _ Ee) by assumption; rewrite KA1, upd_other by assumption; assumption).
      assert (Kte : ak ae t = KNode) by (rewrite (ae_kind _ _ Ee) by assumption; rewrite KA1, upd_other by assumption; assumption).
      destruct (insert_edge_some _ _ f t Re Hf Ht Kfe Kte) as (i' & g'' & Eins).
      assert (Hb : capacity g'' <= two63z).
      { rewrite (cap_insert_edge _ _ _ _ _ Eins).
        eapply (alloc_bound _ _ _ e0 (afree a) Re Ee).
        - unfold a_remove_edge. rewrite Ke. reflexivity.
        - unfold a_remove_edge. rewrite Ke. cbn [a_release a_set_in a_set_out acap]. rewrite (r_acap _ _ _ _ R). assumption.
        - unfold a_remove_edge. rewrite Ke. cbn [a_release a_set_in a_set_out acap]. rewrite (r_acap _ _ _ _ R).
          apply (r_cap _ _ _ _ R). }
      destruct (rep_insert_edge _ _ _ _ _ _ Re Hf Ht Kfe Kte Eins Hb) as (_ & Rg'').
      exists g''. split; [cbn [undo_one]; rewrite Eins; reflexivity|].
      exists (snd (a_insert_edge ae f t)), a. split; [assumption|]. split; [assumption|].
      destruct (rep_alloc_fresh _ _ _ _ Re) as (_ & Hfree).
      eapply aeqv_trans; [apply (aeqv_insert_edge ae (a_remove_edge a e0) f t Ee); assumption|].
      destruct (rep_edge_in_out _ _ e0 f t R He Ke) as (Hio & Hii).
      apply a_remove_insert_edge; try assumption.
      - apply (r_out _ _ _ _ R f Hf Kf).
      - apply (r_in _ _ _ _ R t Ht Kt). }
    split; [exact Hok1|]. split; [exact U1|]. split; [exact Hcap|]. repeat (split; [reflexivity|]). exact R1.
  Qed.
End Steps.
