(* SliceProofs.v — C16: limit / offset.  The streaming handlers (LimitHandler,
   OffsetHandler, LimitOffsetHandler) of the unordered searches return exactly the
   slice [offset, offset+limit) of the search without them; SearchQuery::slice (ordered and
   path searches) returns the same slice of the sorted full result and — after the
   fix_slice_clamp repair — never panics. *)
From Agdb Require Import Bytes BytesProofs DbValue Graph DbModel Search Revisions ElementsSearchProofs CondProofs SortProofs.
From Coq Require Import ZifyBool ZifyNat ZifyN.
Ltac Zify.zify_post_hook ::= Z.div_mod_to_equations.
Import DocSpec.
Open Scope Z_scope.

(* the elements at positions offset .. offset+limit-1 (limit 0 = unlimited), clipped to what exists *)
Definition clip (limit offset : Z) (l : list Z) : list Z :=
  (if limit =? 0 then (fun x => x) else firstn (Z.to_nat limit)) (skipn (Z.to_nat offset) l).

Lemma clip_nil limit offset : clip limit offset [] = [].
Proof. unfold clip. rewrite skipn_nil. destruct (limit =? 0); [reflexivity|apply firstn_nil]. Qed.

Lemma clip_0_0 l : clip 0 0 l = l.
Proof. reflexivity. Qed.

Lemma clip_zslice limit offset l : clip limit offset l = zslice limit offset l.
Proof. unfold clip, zslice. destruct (limit =? 0); reflexivity. Qed.

Lemma firstn_clamp (k : Z) (n : nat) (l : list Z) :
  (length l <= n)%nat -> firstn (Z.to_nat (Z.min k (Z.of_nat n))) l = firstn (Z.to_nat k) l.
Proof.
  intros Hn. destruct (Z.le_ge_cases k (Z.of_nat n)); [now rewrite Z.min_l|].
  rewrite Z.min_r by assumption. rewrite !firstn_all2 by lia. reflexivity.
Qed.

Lemma skipn_clamp (k : Z) (l : list Z) :
  skipn (Z.to_nat (Z.min k (Z.of_nat (length l)))) l = skipn (Z.to_nat k) l.
Proof.
  destruct (Z.le_ge_cases k (Z.of_nat (length l))); [now rewrite Z.min_l|].
  rewrite Z.min_r by assumption. rewrite !skipn_all2 by lia. reflexivity.
Qed.

Lemma slice_ids_clip rv limit offset ids :
  fix_slice_clamp rv = true -> slice_ids rv limit offset ids = SOk (clip limit offset ids).
Proof.
  intros Hrv. unfold slice_ids, clip. rewrite Hrv.
  rewrite !skipn_clamp, !firstn_clamp by (rewrite ?skipn_length; lia).
  destruct (Z.eqb_spec limit 0) as [->|Hl]; destruct (Z.eqb_spec offset 0) as [->|Ho]; cbn [andb].
  - reflexivity.
  - destruct (Z.leb_spec offset (Z.of_nat (length ids))); [reflexivity|].
    rewrite skipn_all2 by lia. reflexivity.
  - reflexivity.
  - destruct (offset + limit <=? Z.of_nat (length ids)); reflexivity.
Qed.

Lemma slice_ids_no_panic rv limit offset ids :
  fix_slice_clamp rv = true -> slice_ids rv limit offset ids <> SPanic.
Proof. intros Hrv. rewrite slice_ids_clip by exact Hrv. discriminate. Qed.

(* the defect of the pinned code: `ids[offset..]` / `ids[offset..offset+limit]` panic past the end;
   e.g. an ordered elements search with offset 1 on the empty database *)
Definition panic_query : search_query :=
  {| s_algorithm := AElements; s_origin := QId 0; s_destination := QId 0; s_limit := 0; s_offset := 1;
     s_order_by := [Asc (DI64 1)]; s_conditions := [] |}.

(* The handlers as one counter automaton *)

Definition lim_of (h : handler_kind) : option Z :=
  match h with HDefault | HOffset _ => None | HLimit l => Some l | HLimitOffset l _ => Some l end.
Definition off_of (h : handler_kind) : Z :=
  match h with HOffset o | HLimitOffset _ o => o | _ => 0 end.
Definition at_lim (L : option Z) (c : Z) : bool :=
  match L with Some l => c =? l | None => false end.

Lemma sc_set_kind c v : kind_of (sc_set c v) = kind_of c.
Proof. destruct c; reflexivity. Qed.
Lemma sc_set_follows c v : follows (sc_set c v) = follows c.
Proof. destruct c; reflexivity. Qed.
Lemma sc_set_id c : sc_set c (sc_true c) = c.
Proof. destruct c; reflexivity. Qed.

(* with `counter` = the number of selected elements so far: a selected element is number
   counter+1; it is recorded iff offset < counter+1, and the search finishes when
   counter+1 reaches the limit (+offset); a rejected element changes nothing *)
Lemma handle_spec h c control :
  h <> HDefault -> 0 <= c -> at_lim (lim_of h) c = false ->
  handle h c control =
  if sc_true control then
    ((if at_lim (lim_of h) (c + 1) then Finish (off_of h <? c + 1) else sc_set control (off_of h <? c + 1)), c + 1)
  else (control, c).
Proof.
  intros Hh Hc Hl. destruct h as [|l|o|l o]; [congruence| | |]; cbn [handle lim_of off_of at_lim] in *.
  - destruct (sc_true control) eqn:T.
    + replace (0 <? c + 1) with true by lia. rewrite <- T at 3. rewrite sc_set_id.
      destruct (c + 1 =? l); reflexivity.
    + rewrite Hl. reflexivity.
  - destruct (sc_true control); reflexivity.
  - destruct (sc_true control) eqn:T.
    + rewrite sc_true_set. destruct (c + 1 =? l); reflexivity.
    + rewrite Hl. reflexivity.
Qed.

(* what the automaton records of a list of selected elements, from counter c on *)
Fixpoint window (off : Z) (L : option Z) (c : Z) (l : list Z) : list Z :=
  match l with
  | [] => []
  | x :: r => (if off <? c + 1 then [x] else []) ++ (if at_lim L (c + 1) then [] else window off L (c + 1) r)
  end.

Lemma window_spec off L : forall l c,
  0 <= c -> (forall lim, L = Some lim -> c < lim) ->
  window off L c l =
  skipn (Z.to_nat (off - c)) (match L with Some lim => firstn (Z.to_nat (lim - c)) l | None => l end).
Proof.
  induction l as [|x r IH]; intros c Hc HL.
  - cbn [window]. destruct L; rewrite ?firstn_nil, skipn_nil; reflexivity.
  - cbn [window]. destruct L as [lim|]; cbn [at_lim].
    + specialize (HL lim eq_refl).
      replace (Z.to_nat (lim - c)) with (S (Z.to_nat (lim - (c + 1)))) by lia. cbn [firstn].
      destruct (Z.eqb_spec (c + 1) lim) as [E|E].
      * replace (Z.to_nat (lim - (c + 1))) with O by lia. cbn [firstn]. rewrite app_nil_r.
        destruct (Z.ltb_spec off (c + 1)).
        -- replace (Z.to_nat (off - c)) with O by lia. reflexivity.
        -- replace (Z.to_nat (off - c)) with (S (Z.to_nat (off - (c + 1)))) by lia. cbn [skipn].
           now rewrite skipn_nil.
      * rewrite IH by (try lia; intros ? [= <-]; lia).
        destruct (Z.ltb_spec off (c + 1)).
        -- replace (Z.to_nat (off - c)) with O by lia. replace (Z.to_nat (off - (c + 1))) with O by lia.
           reflexivity.
        -- replace (Z.to_nat (off - c)) with (S (Z.to_nat (off - (c + 1)))) by lia. reflexivity.
    + rewrite IH by (try lia; discriminate).
      destruct (Z.ltb_spec off (c + 1)).
      * replace (Z.to_nat (off - c)) with O by lia. replace (Z.to_nat (off - (c + 1))) with O by lia.
        reflexivity.
      * replace (Z.to_nat (off - c)) with (S (Z.to_nat (off - (c + 1)))) by lia. reflexivity.
Qed.

(* SearchQuery::search picks the handler; either there is none, or the automaton's window
   from counter 0 is the clip *)
Lemma handler_of_cases limit offset :
  0 <= limit -> 0 <= offset ->
  (limit = 0 /\ offset = 0 /\ handler_of limit offset = HDefault) \/
  (handler_of limit offset <> HDefault /\
   at_lim (lim_of (handler_of limit offset)) 0 = false /\
   forall l, window (off_of (handler_of limit offset)) (lim_of (handler_of limit offset)) 0 l = clip limit offset l).
Proof.
  intros Hl Ho. unfold handler_of, clip.
  destruct (Z.eqb_spec limit 0) as [->|Hl0]; destruct (Z.eqb_spec offset 0) as [->|Ho0]; cbn [andb].
  - left. repeat split.
  - right. split; [discriminate|]. split; [reflexivity|]. intros l.
    rewrite window_spec by (try lia; discriminate). cbn [lim_of off_of]. now rewrite Z.sub_0_r.
  - right. split; [discriminate|]. cbn [lim_of off_of at_lim]. split; [lia|]. intros l.
    rewrite window_spec by (try lia; intros ? [= <-]; lia). now rewrite !Z.sub_0_r.
  - right. split; [discriminate|]. cbn [lim_of off_of at_lim]. split; [lia|]. intros l.
    rewrite window_spec by (try lia; intros ? [= <-]; lia). rewrite !Z.sub_0_r.
    rewrite firstn_skipn_comm. f_equal. f_equal. lia.
Qed.

Section Stream.
  Variable rv : revision.
  Variable d : db.
  Variable conds : list cond.

  Lemma elements_default_cons index r distance c :
    elements_loop rv d conds HDefault (index :: r) distance c [] =
    (if sc_true (eval_conditions rv d index distance conds) then [index] else []) ++
    elements_loop rv d conds HDefault r (distance + 1) c [].
  Proof.
    rewrite !elements_loop_default. cbn [ifilter rev app].
    destruct (sc_true (eval_conditions rv d index distance conds)); reflexivity.
  Qed.

  Lemma elements_loop_window h :
    h <> HDefault ->
    forall els distance c c0 acc,
      0 <= c -> at_lim (lim_of h) c = false ->
      elements_loop rv d conds h els distance c acc =
      rev acc ++ window (off_of h) (lim_of h) c (elements_loop rv d conds HDefault els distance c0 []).
  Proof.
    intros Hh. induction els as [|index r IH]; intros distance c c0 acc Hc Hl.
    - cbn [elements_loop window rev]. now rewrite app_nil_r.
    - rewrite elements_default_cons. cbn [elements_loop].
      rewrite (handle_spec h c _ Hh Hc Hl).
      pose proof (eval_conditions_not_finish rv d index distance conds) as NF.
      destruct (eval_conditions rv d index distance conds) as [b|b|b];
        [|exfalso; exact (NF b eq_refl)|]; cbn [sc_true]; destruct b; cbn [app sc_true];
        try (apply IH; assumption).
      (* a selected element, under Continue and under Stop alike *)
      all: cbn [window]; destruct (at_lim (lim_of h) (c + 1)) eqn:L1; cbn [sc_true sc_set];
        [ destruct (off_of h <? c + 1); cbn [rev app]; now rewrite ?app_nil_r
        | rewrite (IH (distance + 1) (c + 1) c0) by (try lia; exact L1);
          destruct (off_of h <? c + 1); cbn [rev app]; rewrite <- ?app_assoc; reflexivity ].
  Qed.

  Theorem elements_stream_clip limit offset :
    0 <= limit -> 0 <= offset ->
    elements_search rv d conds (handler_of limit offset) =
    clip limit offset (elements_search rv d conds HDefault).
  Proof.
    intros Hl Ho. unfold elements_search.
    destruct (handler_of_cases limit offset Hl Ho) as [(-> & -> & _)|(Hh & L0 & W)]; [reflexivity|].
    rewrite (elements_loop_window _ Hh (elements (gr d)) 0 0 0 []) by (try lia; exact L0).
    cbn [rev app]. apply W.
  Qed.

  Variable a : algo.
  Variable reverse : bool.
  Variable origin : Z.

  Lemma search_default_acc : forall fuel work vis c c' acc,
    search_loop rv d a reverse origin conds HDefault fuel work vis c acc =
    option_map (app (rev acc)) (search_loop rv d a reverse origin conds HDefault fuel work vis c' []).
  Proof.
    induction fuel as [|f IH]; intros work vis c c' acc; [reflexivity|].
    destruct work as [|[index dist] rest].
    - cbn [search_loop option_map rev]. now rewrite app_nil_r.
    - cbn [search_loop handle]. destruct (visited vis index); [apply IH|].
      destruct (eval_conditions rv d index dist conds) as [b|b|b] eqn:E;
        [|exfalso; exact (eval_conditions_not_finish rv d index dist conds b E)|];
        rewrite (IH _ _ c c' (if b then index :: acc else acc)),
                (IH _ _ c' c' (if b then [index] else []));
        match goal with |- context [search_loop ?r ?dd ?aa ?rr ?oo ?cc ?hh ?ff ?ww ?vv ?c1 []] =>
          destruct (search_loop r dd aa rr oo cc hh ff ww vv c1 []) end;
        cbn [option_map]; try reflexivity;
        destruct b; cbn [rev app]; rewrite <- ?app_assoc; reflexivity.
  Qed.

  (* the simulation: from the same work list and visited set, the run with a limit/offset
     handler (counter c = number of elements selected so far) records the window of what
     the plain run selects; the control's kind — hence the traversal — is the same until
     the handler finishes *)
  Lemma search_loop_window h :
    h <> HDefault ->
    forall fuel work vis c c0 acc l,
      0 <= c -> at_lim (lim_of h) c = false ->
      search_loop rv d a reverse origin conds HDefault fuel work vis c0 [] = Some l ->
      search_loop rv d a reverse origin conds h fuel work vis c acc =
      Some (rev acc ++ window (off_of h) (lim_of h) c l).
  Proof.
    intros Hh. induction fuel as [|f IH]; intros work vis c c0 acc l Hc Hl Hbase; [discriminate|].
    destruct work as [|[index dist] rest].
    - cbn [search_loop] in *. injection Hbase as <-. cbn [window]. now rewrite app_nil_r.
    - destruct (visited vis index) eqn:V.
      + rewrite search_loop_visited in * by exact V. eapply IH; eassumption.
      + rewrite (search_loop_step rv d a reverse origin conds HDefault f index dist rest vis c0 []
                   _ _ V eq_refl) in Hbase.
        pose proof (eval_conditions_not_finish rv d index dist conds) as NF.
        pose proof (handle_spec h c (eval_conditions rv d index dist conds) Hh Hc Hl) as HS.
        set (e := eval_conditions rv d index dist conds) in *.
        assert (K : kind_of e <> KFinish)
          by (destruct e as [b|b|b]; [discriminate|exact (fun _ => NF b eq_refl)|discriminate]).
        cbv zeta in Hbase.
        assert (Hb : search_loop rv d a reverse origin conds HDefault f
                       (expand rv (gr d) a reverse origin rest (index, dist) (follows e))
                       (Z.abs index :: vis) c0 (if sc_true e then [index] else []) = Some l)
          by (destruct e; cbn [kind_of] in *; [exact Hbase|congruence|exact Hbase]).
        clear Hbase.
        rewrite (search_default_acc f _ _ c0 c0 (if sc_true e then [index] else [])) in Hb.
        destruct (search_loop rv d a reverse origin conds HDefault f
                    (expand rv (gr d) a reverse origin rest (index, dist) (follows e))
                    (Z.abs index :: vis) c0 []) as [l'|] eqn:Hl'; [|discriminate].
        cbn [option_map] in Hb. injection Hb as <-.
        destruct (sc_true e) eqn:T; cbn [rev app].
        * cbn [window]. destruct (at_lim (lim_of h) (c + 1)) eqn:L1.
          -- rewrite (search_loop_step rv d a reverse origin conds h f index dist rest vis c acc _ _ V HS).
             cbv zeta. cbn [kind_of sc_true].
             destruct (off_of h <? c + 1); cbn [rev app]; now rewrite ?app_nil_r.
          -- rewrite (search_loop_step rv d a reverse origin conds h f index dist rest vis c acc _ _ V HS).
             cbv zeta. rewrite sc_set_kind, sc_set_follows, sc_true_set.
             rewrite (IH _ _ (c + 1) c0 _ l') by (try lia; assumption).
             destruct (kind_of e); [| |congruence];
               destruct (off_of h <? c + 1); cbn [rev app]; rewrite <- ?app_assoc; reflexivity.
        * rewrite (search_loop_step rv d a reverse origin conds h f index dist rest vis c acc _ _ V HS).
          cbv zeta. rewrite T. rewrite (IH _ _ c c0 acc l') by assumption.
          destruct (kind_of e); [reflexivity|reflexivity|congruence].
  Qed.

  Theorem graph_search_stream_clip limit offset l :
    0 <= limit -> 0 <= offset ->
    graph_search rv d a reverse origin conds HDefault = Some l ->
    graph_search rv d a reverse origin conds (handler_of limit offset) = Some (clip limit offset l).
  Proof.
    intros Hl Ho. unfold graph_search.
    destruct (handler_of_cases limit offset Hl Ho) as [(-> & -> & _)|(Hh & L0 & W)]; [exact (fun H => H)|].
    destruct (is_node (gr d) origin || is_edge (gr d) origin).
    - intros Hbase. rewrite (search_loop_window _ Hh _ _ _ 0 0 [] l) by (try lia; assumption).
      cbn [rev app]. now rewrite W.
    - intros [= <-]. now rewrite clip_nil.
  Qed.
End Stream.

(* the same query without limit and offset *)
Definition unsliced (s : search_query) : search_query :=
  {| s_algorithm := s_algorithm s; s_origin := s_origin s; s_destination := s_destination s;
     s_limit := 0; s_offset := 0; s_order_by := s_order_by s; s_conditions := s_conditions s |}.

Lemma sorted_slice_clip rv d limit offset order (r : sres) l :
  fix_slice_clamp rv = true ->
  sorted_slice rv d 0 0 order r = SOk l ->
  sorted_slice rv d limit offset order r = SOk (clip limit offset l).
Proof.
  intros Hrv. destruct r as [ids|e|]; try discriminate. unfold sorted_slice.
  rewrite !slice_ids_clip by exact Hrv. intros [= <-]. reflexivity.
Qed.

(* an engine that takes a handler streams the clip of its unlimited result *)
Lemma engine_stream rv d conds streams run limit offset l :
  engine rv d conds streams run -> streams = true -> 0 <= limit -> 0 <= offset ->
  run HDefault = SOk l -> run (handler_of limit offset) = SOk (clip limit offset l).
Proof.
  intros Heng Hs Hl Ho. destruct Heng as [a reverse q origin _ | | ]; [|discriminate|].
  - destruct (graph_search rv d a reverse origin conds HDefault) as [l0|] eqn:E; [|discriminate].
    cbn [opt_ids]. intros [= <-].
    now rewrite (graph_search_stream_clip rv d conds a reverse origin limit offset l0 Hl Ho E).
  - intros [= <-]. now rewrite elements_stream_clip.
Qed.

Lemma engine_no_panic rv d conds streams run :
  engine rv d conds streams run -> forall h, run h <> SPanic.
Proof.
  intros [a reverse q origin _ | qo qd origin dest _ _ | ] h;
    [destruct (graph_search rv d a reverse origin conds h) | destruct (path_search rv d conds origin dest) | ];
    discriminate.
Qed.

(* every graph search (breadth-first, depth-first, forward or reverse, path, elements; ordered
   or not) with offset O and limit L returns the elements at positions O .. O+L-1 of the
   same search without them *)
Theorem search_clip rv d s l :
  fix_slice_clamp rv = true ->
  0 <= s_limit s -> 0 <= s_offset s -> s_algorithm s <> AIndex ->
  search rv d (unsliced s) = SOk l ->
  search rv d s = SOk (clip (s_limit s) (s_offset s) l).
Proof.
  intros Hrv Hl Ho Halg H0. change (unsliced s) with (resliced s 0 0 (s_order_by s)) in H0.
  rewrite <- (resliced_id s) at 1.
  destruct (search_engine rv d s Halg) as [[e H]|(streams & run & Heng & H)]; rewrite H in H0 |- *;
    [discriminate|].
  destruct (streams && _) eqn:E.
  - apply andb_prop in E as [E _]. exact (engine_stream _ _ _ _ _ _ _ l Heng E Hl Ho H0).
  - exact (sorted_slice_clip rv d _ _ _ _ l Hrv H0).
Qed.

(* ... and no limit / offset (however large) makes any search panic *)
Theorem search_no_panic rv d s :
  fix_slice_clamp rv = true -> search rv d s <> SPanic.
Proof.
  intros Hrv.
  assert (Halg : s_algorithm s = AIndex \/ s_algorithm s <> AIndex)
    by (destruct (s_algorithm s); (left; reflexivity) || (right; discriminate)).
  destruct Halg as [Ealg|Hne].
  - unfold search. rewrite Ealg.
    destruct (s_conditions s) as [|[lg md [| | | | | |k op v| | |]] r]; try discriminate.
    destruct (idx_find (indexes d) k); discriminate.
  - rewrite <- (resliced_id s).
    destruct (search_engine rv d s Hne) as [[e H]|(streams & run & Heng & H)]; rewrite H; [discriminate|].
    destruct (streams && _); [apply (engine_no_panic _ _ _ _ _ Heng)|].
    pose proof (engine_no_panic _ _ _ _ _ Heng HDefault) as Hr. unfold sorted_slice.
    destruct (run HDefault); [apply slice_ids_no_panic, Hrv | discriminate | congruence].
Qed.

(* ordered and path searches: the result is that slice of the stably sorted full result.
   `plain s` is the same search without limit, offset and ordering. *)
Definition plain (s : search_query) : search_query :=
  {| s_algorithm := s_algorithm s; s_origin := s_origin s; s_destination := s_destination s;
     s_limit := 0; s_offset := 0; s_order_by := []; s_conditions := s_conditions s |}.

Lemma stable_sort_noorder d l : stable_sort (order_cmp d []) l = l.
Proof.
  induction l as [|x l IH]; [reflexivity|]. rewrite stable_sort_cons, IH. destruct l; reflexivity.
Qed.

Theorem search_sorted_clip rv d s ids :
  fix_slice_clamp rv = true ->
  0 <= s_limit s -> 0 <= s_offset s -> s_algorithm s <> AIndex ->
  search rv d (plain s) = SOk ids ->
  search rv d s = SOk (clip (s_limit s) (s_offset s) (stable_sort (order_cmp d (s_order_by s)) ids)).
Proof.
  intros Hrv Hl Ho Halg H0. change (plain s) with (resliced s 0 0 []) in H0.
  rewrite <- (resliced_id s) at 1.
  destruct (search_engine rv d s Halg) as [[e H]|(streams & run & Heng & H)]; rewrite H in H0 |- *;
    [discriminate|].
  (* the plain search is the engine's unlimited run *)
  assert (Hr : run HDefault = SOk ids).
  { destruct streams; [exact H0|]. cbn [andb] in H0. destruct (run HDefault) as [l|e|]; try discriminate.
    unfold sorted_slice in H0. rewrite stable_sort_noorder in H0. exact H0. }
  clear H0. destruct (streams && _) eqn:E.
  - apply andb_prop in E as [E E']. destruct (s_order_by s); [|discriminate E']. rewrite stable_sort_noorder.
    exact (engine_stream _ _ _ _ _ _ _ ids Heng E Hl Ho Hr).
  - rewrite Hr. apply slice_ids_clip, Hrv.
Qed.

(* a concrete database: 1 -(-4)-> 2 -(-5)-> 3 *)

Definition ex_db : db :=
  let '(n1, d1) := insert_node_db db_new in
  let '(n2, d2) := insert_node_db d1 in
  let '(n3, d3) := insert_node_db d2 in
  match insert_edge_db d3 n1 n2 with
  | ROk (_, d4) => match insert_edge_db d4 n2 n3 with ROk (_, d5) => d5 | _ => d4 end
  | _ => d3
  end.

Definition ex_q alg o dst lim off ord conds : search_query :=
  {| s_algorithm := alg; s_origin := QId o; s_destination := QId dst; s_limit := lim; s_offset := off;
     s_order_by := ord; s_conditions := conds |}.

(* The code keeps `limit + offset` in a u64.  Before fix: commit ea4fd27 the sum was unchecked
   (debug: overflow panic; release: wrapped, e.g. offset 2, limit u64::MAX on 5 elements gave []
   instead of [3; 4; 5]); now it is `limit.saturating_add(offset)`.  The model adds in Z.  As long
   as fewer than 2^64 - 2 elements have been selected the saturated and the exact sum make the
   handler behave identically, so the theorems above transfer to the repaired code. *)
Definition u64_max : Z := 18446744073709551615.

