(* CollGraph.v — proofs (collections): GraphDataStorage of graph.rs — the record with
   the four vector indexes (from, to, from_meta, to_meta) and the four DbVec<i64>; and the
   root record DbStorageIndex of db.rs.

   grep g d slots a    the index record and the four vectors are represented (vrep for i64) by
                       the four slot arrays `a` (the g_from, g_to, g_fmeta, g_tmeta of Graph.v) and
                       pairwise disjoint
   cg_run_spec         every history of the GraphData interface (set / get of a field, grow,
                       shrink_to_fit, capacity) with reloads (GraphDataStorage::from_storage) and
                       maintenance of the storage at will yields the observations of the plain arrays *)
From Agdb Require Import Bytes BytesProofs Records Storage StorageSpec StorageLayout StorageRefine StorageProofs
  Collections CollWp CollBytes CollVecBase CollVecOps CollVec CollElems CollSep CollMap.
From Coq Require Import ZifyBool ZifyNat ZifyN.
Open Scope N_scope.

Notation vrepZ := (vrep Z ce_i64 law_i64).
Notation footZ := (foot Z ce_i64 law_i64).

Record cg_slots := { gs_from : list bytes; gs_to : list bytes; gs_from_meta : list bytes; gs_to_meta : list bytes }.
Definition gs_get (s : cg_slots) (f : cg_field) : list bytes :=
  match f with GfFrom => gs_from s | GfTo => gs_to s | GfFromMeta => gs_from_meta s | GfToMeta => gs_to_meta s end.
Definition gs_put (s : cg_slots) (f : cg_field) (l : list bytes) : cg_slots :=
  match f with
  | GfFrom => {| gs_from := l; gs_to := gs_to s; gs_from_meta := gs_from_meta s; gs_to_meta := gs_to_meta s |}
  | GfTo => {| gs_from := gs_from s; gs_to := l; gs_from_meta := gs_from_meta s; gs_to_meta := gs_to_meta s |}
  | GfFromMeta => {| gs_from := gs_from s; gs_to := gs_to s; gs_from_meta := l; gs_to_meta := gs_to_meta s |}
  | GfToMeta => {| gs_from := gs_from s; gs_to := gs_to s; gs_from_meta := gs_from_meta s; gs_to_meta := l |}
  end.
Definition cg_put (g : cg_data) (f : cg_field) (h : cv_vec) : cg_data :=
  match f with
  | GfFrom => cg_with g h (cg_to g) (cg_from_meta g) (cg_to_meta g)
  | GfTo => cg_with g (cg_from g) h (cg_from_meta g) (cg_to_meta g)
  | GfFromMeta => cg_with g (cg_from g) (cg_to g) h (cg_to_meta g)
  | GfToMeta => cg_with g (cg_from g) (cg_to g) (cg_from_meta g) h
  end.

Definition gfoot (d : cg_data) (s : cg_slots) : list N :=
  cg_index d :: footZ (cg_from d) (gs_from s) ++ footZ (cg_to d) (gs_to s) ++
                footZ (cg_from_meta d) (gs_from_meta s) ++ footZ (cg_to_meta d) (gs_to_meta s).

Record grep (g : heap) (d : cg_data) (s : cg_slots) (a : cg_arrays) : Prop := {
  gr_rec : g (cg_index d) = Some (cg_index_ser (cv_index (cg_from d)) (cv_index (cg_to d)) (cv_index (cg_from_meta d)) (cv_index (cg_to_meta d)));
  gr_vec : forall f, vrepZ g (cg_vec d f) (gs_get s f) (ga_get a f);
  gr_bounds : forall f, cv_index (cg_vec d f) < two64;
  gr_nodup : NoDup (gfoot d s)
}.

Lemma grep_live g d s a : grep g d s a -> live_all g (gfoot d s).
Proof.
  intros H. unfold gfoot. intros j [<-|Hj].
  - rewrite (gr_rec _ _ _ _ H). discriminate.
  - apply in_app_or in Hj. destruct Hj as [Hj|Hj]; [exact (vrep_live _ _ _ _ _ _ _ (gr_vec _ _ _ _ H GfFrom) j Hj)|].
    apply in_app_or in Hj. destruct Hj as [Hj|Hj]; [exact (vrep_live _ _ _ _ _ _ _ (gr_vec _ _ _ _ H GfTo) j Hj)|].
    apply in_app_or in Hj. destruct Hj as [Hj|Hj]; [exact (vrep_live _ _ _ _ _ _ _ (gr_vec _ _ _ _ H GfFromMeta) j Hj)|
                                                   exact (vrep_live _ _ _ _ _ _ _ (gr_vec _ _ _ _ H GfToMeta) j Hj)].
Qed.

Lemma grep_heq g g' d s a : grep g d s a -> heq g' g -> grep g' d s a.
Proof.
  intros [H1 H2 H3 H4] Hm. constructor; auto; [rewrite Hm; exact H1|]. intros f. eapply vrep_heq; [apply H2|exact Hm].
Qed.

(* the footprint as  A ++ (field f) ++ B : the index record and the fields before f, the fields behind f *)
Definition ffoot (d : cg_data) (s : cg_slots) (f : cg_field) : list N := footZ (cg_vec d f) (gs_get s f).
Definition fields_before (f : cg_field) : list cg_field :=
  match f with GfFrom => [] | GfTo => [GfFrom] | GfFromMeta => [GfFrom; GfTo] | GfToMeta => [GfFrom; GfTo; GfFromMeta] end.
Definition fields_after (f : cg_field) : list cg_field :=
  match f with GfFrom => [GfTo; GfFromMeta; GfToMeta] | GfTo => [GfFromMeta; GfToMeta] | GfFromMeta => [GfToMeta] | GfToMeta => [] end.
Definition g_before (d : cg_data) (s : cg_slots) (f : cg_field) : list N := cg_index d :: flat_map (ffoot d s) (fields_before f).
Definition g_after (d : cg_data) (s : cg_slots) (f : cg_field) : list N := flat_map (ffoot d s) (fields_after f).

Lemma gfoot_split d s f : gfoot d s = g_before d s f ++ footZ (cg_vec d f) (gs_get s f) ++ g_after d s f.
Proof.
  destruct f; unfold gfoot, g_before, g_after, ffoot; cbn [fields_before fields_after flat_map cg_vec gs_get app];
    rewrite ?app_nil_r, <- ?app_assoc; reflexivity.
Qed.

Lemma g_sides_put d s f h l : g_before (cg_put d f h) (gs_put s f l) f = g_before d s f /\ g_after (cg_put d f h) (gs_put s f l) f = g_after d s f /\
                              cg_vec (cg_put d f h) f = h /\ gs_get (gs_put s f l) f = l /\ cg_index (cg_put d f h) = cg_index d.
Proof. destruct f; repeat split. Qed.

Lemma other_in_sides d s f f' j : f' <> f -> In j (footZ (cg_vec d f') (gs_get s f')) -> In j (g_before d s f ++ g_after d s f).
Proof.
  intros Hne Hj. assert (Hf : In f' (fields_before f ++ fields_after f)) by (destruct f, f'; try congruence; cbn; auto 6).
  unfold g_before, g_after. cbn [app]. right. rewrite <- flat_map_app. apply in_flat_map. exists f'. split; [exact Hf|exact Hj].
Qed.

Lemma other_put d s f f' h l : f' <> f -> cg_vec (cg_put d f h) f' = cg_vec d f' /\ gs_get (gs_put s f l) f' = gs_get s f'.
Proof. intros Hne. destruct f, f'; try congruence; split; reflexivity. Qed.

Definition field_eq_dec (a b : cg_field) : {a = b} + {a <> b}.
Proof. decide equality. Defined.

Lemma grep_update g g' d s a f h' sl' l' :
  grep g d s a -> cv_index h' = cv_index (cg_vec d f) ->
  vrepZ g' h' sl' l' -> frame g g' (footZ (cg_vec d f) (gs_get s f)) (footZ h' sl') ->
  grep g' (cg_put d f h') (gs_put s f sl') (ga_put a f l') /\ frame g g' (gfoot d s) (gfoot (cg_put d f h') (gs_put s f sl')).
Proof.
  intros H Hi HR' Hf.
  destruct (g_sides_put d s f h' sl') as (Eb & Ea & Ev & Es & Ei).
  assert (E' : gfoot (cg_put d f h') (gs_put s f sl') = g_before d s f ++ footZ h' sl' ++ g_after d s f)
    by (rewrite (gfoot_split _ _ f), Eb, Ea, Ev, Es; reflexivity).
  destruct (sep_update_at g g' _ _ _ _ _ _ (grep_live _ _ _ _ H) (gr_nodup _ _ _ _ H) (gfoot_split d s f) E' Hf
              (vrep_nodup _ _ _ _ _ _ _ HR')) as (N' & F' & Same).
  assert (Hidx : In (cg_index d) (g_before d s f ++ g_after d s f)) by (left; reflexivity).
  split.
  - constructor.
    + rewrite Ei. rewrite Same by exact Hidx.
      replace (cg_index_ser _ _ _ _) with (cg_index_ser (cv_index (cg_from d)) (cv_index (cg_to d)) (cv_index (cg_from_meta d)) (cv_index (cg_to_meta d)));
        [exact (gr_rec _ _ _ _ H)|].
      destruct f; cbn [cg_put cg_with cg_from cg_to cg_from_meta cg_to_meta cg_vec] in *; rewrite Hi; reflexivity.
    + intros f'. destruct (field_eq_dec f' f) as [->|Hne].
      * rewrite Ev, Es. destruct f; cbn [ga_put ga_get]; exact HR'.
      * destruct (other_put d s f f' h' sl' Hne) as [E1 E2]. rewrite E1, E2.
        replace (ga_get (ga_put a f l') f') with (ga_get a f') by (destruct f, f'; try congruence; reflexivity).
        eapply vrep_transport; [apply (gr_vec _ _ _ _ H)|]. intros j Hj. apply Same. eapply other_in_sides; eauto.
    + intros f'. destruct (field_eq_dec f' f) as [->|Hne].
      * rewrite Ev, Hi. apply (gr_bounds _ _ _ _ H).
      * destruct (other_put d s f f' h' sl' Hne) as [E1 _]. rewrite E1. apply (gr_bounds _ _ _ _ H).
    + exact N'.
  - exact F'.
Qed.

Section GraphHist.
  Variable fl : bool.

  Definition ga_fits (a : cg_arrays) : Prop := forall f, 8 + 8 * lenN (ga_get a f) < two64.
  Definition gop_ok (o : cg_op) : Prop := match o with GoSet _ _ v => i64_range v | _ => True end.
  Fixpoint gops_ok (a : cg_arrays) (l : list cg_op) : Prop :=
    match l with
    | [] => True
    | o :: t => gop_ok o /\ ga_fits (fst (ga_step a o)) /\ gops_ok (fst (ga_step a o)) t
    end.

  Lemma cg_put_same d f : cg_put d f (cg_vec d f) = cg_with d (cg_from d) (cg_to d) (cg_from_meta d) (cg_to_meta d).
  Proof. destruct f; reflexivity. Qed.
  Lemma gs_put_get s f f' l : gs_get (gs_put s f l) f' = if field_eq_dec f' f then l else gs_get s f'.
  Proof. destruct f, f'; reflexivity. Qed.

  Lemma cg_set_spec d s a f i v sp (Q : cres unit -> spec -> Prop) :
    grep (hp sp) d s a -> i64_range v ->
    (if lenN (ga_get a f) <=? cg_as_u64 i then Q (CrErr CvIndex) sp
     else forall s' sp', grep (hp sp') (cg_with d (cg_from d) (cg_to d) (cg_from_meta d) (cg_to_meta d)) s' (ga_put a f (cl_upd (ga_get a f) (N.to_nat (cg_as_u64 i)) v)) ->
            sdepth sp' = sdepth sp -> frame (hp sp) (hp sp') (gfoot d s) (gfoot d s') -> Q (CrOk tt) sp') ->
    cwp fl (cg_set d f i v) sp Q.
  Proof.
    intros H Hv HQ. unfold cg_set. apply cwp_bind.
    eapply cv_replace_spec; [exact (gr_vec _ _ _ _ H f)|exact Hv|].
    destruct (nth_error (ga_get a f) (N.to_nat (cg_as_u64 i))) eqn:En.
    - destruct (N.leb_spec (lenN (ga_get a f)) (cg_as_u64 i)) as [X|_]; [apply nth_error_Some_lt in En; unfold lenN in X; lia|].
      intros sl' sp' HR' Hd' Hf. cbn [kont cwp].
      destruct (grep_update _ _ _ _ _ f _ _ _ H eq_refl HR' Hf) as [H' Hf']. rewrite cg_put_same in H', Hf'.
      eapply HQ; [exact H'|exact Hd'|]. unfold gfoot in *. cbn [cg_with cg_index cg_from cg_to cg_from_meta cg_to_meta] in *. exact Hf'.
    - cbn [kont]. apply nth_error_None in En. destruct (N.leb_spec (lenN (ga_get a f)) (cg_as_u64 i)) as [_|X]; [exact HQ|unfold lenN in X; lia].
  Qed.

  Lemma cg_step_spec d s a o sp :
    grep (hp sp) d s a -> sdepth sp = 0 -> gop_ok o /\ ga_fits (fst (ga_step a o)) ->
    hrefines fl grep gfoot cg_index d s sp (cg_step d o) (fst (ga_step a o)) (snd (ga_step a o)).
  Proof.
    intros H Hd [Hok Hfit] Q HQ. destruct d as [di hf ht hfm htm].
    set (d := {| cg_index := di; cg_from := hf; cg_to := ht; cg_from_meta := hfm; cg_to_meta := htm |}) in *.
    assert (HQ0 : forall v, v = snd (ga_step a o) -> fst (ga_step a o) = a -> Q (CrOk (d, v)) sp).
    { intros v -> El. eapply HQ; [rewrite El; exact H|reflexivity|exact Hd|apply frame_refl; intros j; reflexivity]. }
    destruct o; cbn [cg_step ga_step fst snd gop_ok] in *.
    - apply cwp_fin. eapply cg_set_spec; [exact H|exact Hok|].
      destruct (N.leb_spec (lenN (ga_get a f)) (cg_as_u64 i)).
      + apply HQ0; reflexivity.
      + intros s' sp' H' Hd' Hf. cbn [fst snd] in *. eapply HQ; [exact H'|reflexivity|congruence|exact Hf].
    - apply cwp_fin. unfold cg_get. eapply cv_value_spec; [exact (gr_vec _ _ _ _ H f)|].
      destruct (nth_error (ga_get a f) (N.to_nat (cg_as_u64 i))); cbn [fst snd]; apply HQ0; reflexivity.
    - apply cwp_fin. unfold cg_grow. cbn [fst] in Hfit.
      assert (Hf4 : forall f, 8 + ce_size ce_i64 * (lenN (ga_get a f) + 1) < two64).
      { intros f. specialize (Hfit f). destruct f; cbn [ga_get ga_from ga_to ga_from_meta ga_to_meta] in *; rewrite lenN_app in Hfit;
          unfold lenN in *; cbn [length ce_size ce_i64] in *; lia. }
      assert (Z0ok : i64_range 0%Z) by (unfold i64_range; lia).
      apply cwp_bind. eapply cv_push_spec; [exact (gr_vec _ _ _ _ H GfFrom)|exact Z0ok|apply (Hf4 GfFrom)|].
      intros h1 s1 sp1 R1 I1 D1 F1. cbn [kont].
      destruct (grep_update _ _ _ _ _ GfFrom _ _ _ H I1 R1 F1) as [H1 Ff1].
      apply cwp_bind. eapply cv_push_spec; [exact (gr_vec _ _ _ _ H1 GfTo)|exact Z0ok|apply (Hf4 GfTo)|].
      intros h2 s2 sp2 R2 I2 D2 F2. cbn [kont].
      destruct (grep_update _ _ _ _ _ GfTo _ _ _ H1 I2 R2 F2) as [H2 Ff2].
      apply cwp_bind. eapply cv_push_spec; [exact (gr_vec _ _ _ _ H2 GfFromMeta)|exact Z0ok|apply (Hf4 GfFromMeta)|].
      intros h3 s3 sp3 R3 I3 D3 F3. cbn [kont].
      destruct (grep_update _ _ _ _ _ GfFromMeta _ _ _ H2 I3 R3 F3) as [H3 Ff3].
      apply cwp_bind. eapply cv_push_spec; [exact (gr_vec _ _ _ _ H3 GfToMeta)|exact Z0ok|apply (Hf4 GfToMeta)|].
      intros h4 s4 sp4 R4 I4 D4 F4. cbn [kont cwp].
      destruct (grep_update _ _ _ _ _ GfToMeta _ _ _ H3 I4 R4 F4) as [H4 Ff4].
      eapply HQ; [exact H4|reflexivity|congruence|].
      eapply frame_trans; [exact Ff1|]. eapply frame_trans; [exact Ff2|]. eapply frame_trans; [exact Ff3|exact Ff4].
    - apply cwp_fin. unfold cg_shrink_to_fit.
      apply cwp_bind. eapply cv_shrink_spec; [exact (gr_vec _ _ _ _ H GfFrom)|].
      intros h1 sp1 R1 I1 D1 F1. cbn [kont].
      destruct (grep_update _ _ _ _ _ GfFrom _ _ _ H I1 R1 F1) as [H1 Ff1].
      apply cwp_bind. eapply cv_shrink_spec; [exact (gr_vec _ _ _ _ H1 GfTo)|].
      intros h2 sp2 R2 I2 D2 F2. cbn [kont].
      destruct (grep_update _ _ _ _ _ GfTo _ _ _ H1 I2 R2 F2) as [H2 Ff2].
      apply cwp_bind. eapply cv_shrink_spec; [exact (gr_vec _ _ _ _ H2 GfFromMeta)|].
      intros h3 sp3 R3 I3 D3 F3. cbn [kont].
      destruct (grep_update _ _ _ _ _ GfFromMeta _ _ _ H2 I3 R3 F3) as [H3 Ff3].
      apply cwp_bind. eapply cv_shrink_spec; [exact (gr_vec _ _ _ _ H3 GfToMeta)|].
      intros h4 sp4 R4 I4 D4 F4. cbn [kont cwp].
      destruct (grep_update _ _ _ _ _ GfToMeta _ _ _ H3 I4 R4 F4) as [H4 Ff4].
      eapply HQ; [|reflexivity|congruence|eapply frame_trans; [exact Ff1|]; eapply frame_trans; [exact Ff2|]; eapply frame_trans; [exact Ff3|exact Ff4]].
      destruct a; exact H4.
    - cbn [cwp]. unfold cg_capacity. pose proof (vr_len _ _ _ _ _ _ _ (gr_vec _ _ _ _ H GfFrom)) as E. cbn [cg_vec ga_get] in E. rewrite E. apply HQ0; reflexivity.
    - apply cwp_fin. unfold cg_from_storage.
      assert (HF : Forall (fun z => z < two64) [cv_index hf; cv_index ht; cv_index hfm; cv_index htm]).
      { repeat constructor; [exact (gr_bounds _ _ _ _ H GfFrom)|exact (gr_bounds _ _ _ _ H GfTo)|
                             exact (gr_bounds _ _ _ _ H GfFromMeta)|exact (gr_bounds _ _ _ _ H GfToMeta)]. }
      apply cwp_bind. eapply cwp_value; [exact (gr_rec _ _ _ _ H)|]. cbn [kont].
      apply (cwp_de64_field fl (cv_index hf) [cv_index ht; cv_index hfm; cv_index htm] 0 _ _ _ _ eq_refl HF).
      apply (cwp_de64_field fl (cv_index hf) [cv_index ht; cv_index hfm; cv_index htm] 1 _ _ _ _ eq_refl HF).
      apply (cwp_de64_field fl (cv_index hf) [cv_index ht; cv_index hfm; cv_index htm] 2 _ _ _ _ eq_refl HF).
      apply (cwp_de64_field fl (cv_index hf) [cv_index ht; cv_index hfm; cv_index htm] 3 _ _ _ _ eq_refl HF).
      apply cwp_bind. eapply cv_from_storage_spec; [exact (gr_vec _ _ _ _ H GfFrom)|]. intros h1 R1 I1 L1. cbn [kont].
      apply cwp_bind. eapply cv_from_storage_spec; [exact (gr_vec _ _ _ _ H GfTo)|]. intros h2 R2 I2 L2. cbn [kont].
      apply cwp_bind. eapply cv_from_storage_spec; [exact (gr_vec _ _ _ _ H GfFromMeta)|]. intros h3 R3 I3 L3. cbn [kont].
      apply cwp_bind. eapply cv_from_storage_spec; [exact (gr_vec _ _ _ _ H GfToMeta)|]. intros h4 R4 I4 L4. cbn [kont cwp].
      cbn [d cg_vec cg_from cg_to cg_from_meta cg_to_meta cg_index] in *.
      set (d' := {| cg_index := di; cg_from := h1; cg_to := h2; cg_from_meta := h3; cg_to_meta := h4 |}).
      assert (Ef : gfoot d' s = gfoot d s).
      { unfold gfoot, foot. cbn [d d' cg_index cg_from cg_to cg_from_meta cg_to_meta]. rewrite I1, I2, I3, I4. reflexivity. }
      eapply (HQ d' s sp); [|reflexivity|exact Hd|rewrite Ef; apply frame_refl; intros j; reflexivity].
      constructor.
      + cbn [d' cg_index cg_from cg_to cg_from_meta cg_to_meta]. rewrite I1, I2, I3, I4. exact (gr_rec _ _ _ _ H).
      + intros f; destruct f; cbn [d' cg_vec cg_from cg_to cg_from_meta cg_to_meta]; assumption.
      + intros f; destruct f; cbn [d' cg_vec cg_from cg_to cg_from_meta cg_to_meta]; [rewrite I1|rewrite I2|rewrite I3|rewrite I4];
          [apply (gr_bounds _ _ _ _ H GfFrom)|apply (gr_bounds _ _ _ _ H GfTo)|apply (gr_bounds _ _ _ _ H GfFromMeta)|apply (gr_bounds _ _ _ _ H GfToMeta)].
      + rewrite Ef. exact (gr_nodup _ _ _ _ H).
    - destruct (cv_is_maint o) eqn:Em.
      + apply cwp_fin. apply hwp_maint; [exact Em|exact Hd|]. intros sp' Hm Hd'.
        eapply HQ; [eapply grep_heq; [exact H|exact Hm]|reflexivity|exact Hd'|apply frame_refl; exact Hm].
      + cbn [cwp]. apply HQ0; reflexivity.
  Qed.

  Theorem cg_run_spec : forall ops d s a sp (Q : cres (cg_data * list cg_obs) -> spec -> Prop),
    grep (hp sp) d s a -> sdepth sp = 0 -> gops_ok a ops ->
    (forall d' s' sp', grep (hp sp') d' s' (fst (ga_run a ops)) -> cg_index d' = cg_index d -> sdepth sp' = 0 ->
        frame (hp sp) (hp sp') (gfoot d s) (gfoot d' s') -> Q (CrOk (d', snd (ga_run a ops))) sp') ->
    cwp fl (cg_run d ops) sp Q.
  Proof.
    intros ops d s a sp Q H Hd Hok.
    exact (hist_run fl grep gfoot cg_index cg_step ga_step _ cg_step_spec cg_run ga_run gops_ok
             (fun _ => eq_refl) (fun _ _ _ => eq_refl) (fun _ => eq_refl) (fun _ _ _ => eq_refl)
             (fun _ _ _ '(conj a (conj b c)) => conj (conj a b) c) ops d s a sp H Hd Hok Q).
  Qed.
End GraphHist.

Definition cr_u64 (r : cr_root) : Prop :=
  cr_version r < two64 /\ cr_graph r < two64 /\ cr_aliases1 r < two64 /\ cr_aliases2 r < two64 /\ cr_indexes r < two64 /\ cr_values r < two64.

Lemma cr_de_ser fl r sp (Q : cres cr_root -> spec -> Prop) :
  cr_u64 r -> Q (CrOk r) sp -> cwp fl (cr_de (cr_ser r)) sp Q.
Proof.
  intros (B1 & B2 & B3 & B4 & B5 & B6) HQ. unfold cr_de.
  set (l := [cr_graph r; cr_aliases1 r; cr_aliases2 r; cr_indexes r; cr_values r]).
  assert (HF : Forall (fun z => z < two64) (cr_version r :: l)) by (repeat constructor; assumption).
  apply (cwp_de64_field fl (cr_version r) l 0 _ _ _ _ eq_refl HF).
  apply (cwp_de64_field fl (cr_version r) l 1 _ _ _ _ eq_refl HF).
  apply (cwp_de64_field fl (cr_version r) l 2 _ _ _ _ eq_refl HF).
  apply (cwp_de64_field fl (cr_version r) l 3 _ _ _ _ eq_refl HF).
  apply (cwp_de64_field fl (cr_version r) l 4 _ _ _ _ eq_refl HF).
  apply (cwp_de64_field fl (cr_version r) l 5 _ _ _ _ eq_refl HF).
  destruct r; exact HQ.
Qed.

(* what DbImpl::new reads back is what try_new_with_storage stored, also after any maintenance of the storage
   (Props/C05.v, C05_storage_maintenance_partial: the record map is preserved) *)
Lemma cr_load_spec fl r sp (Q : cres cr_root -> spec -> Prop) :
  hp sp 1 = Some (cr_ser r) -> cr_u64 r -> Q (CrOk r) sp -> cwp fl cr_load sp Q.
Proof.
  intros Hg Hb HQ. unfold cr_load. apply cwp_bind. eapply cwp_value; [exact Hg|]. cbn [kont]. apply cr_de_ser; assumption.
Qed.

Lemma cr_store_spec fl r x sp (Q : cres unit -> spec -> Prop) :
  hp sp 1 = Some x -> lenN x = 48 ->
  (forall sp', heq (hp sp') (hupd (hp sp) 1 (cr_ser r)) -> sdepth sp' = sdepth sp -> Q (CrOk tt) sp') ->
  cwp fl (cr_store r) sp Q.
Proof.
  intros Hg Hl HQ. unfold cr_store. eapply hwp_insert_at; [exact Hg|]. intros sp' Hm Hd. apply HQ; [|exact Hd].
  change (N.to_nat 0) with 0%nat in Hm.
  assert (E : bs_write x 0 (cr_ser r) = cr_ser r).
  { rewrite <- (app_nil_r x) at 1. rewrite header_write; [apply app_nil_r|].
    unfold cr_ser. rewrite !app_length, !le64_length. unfold lenN in Hl. lia. }
  rewrite E in Hm. exact Hm.
Qed.
