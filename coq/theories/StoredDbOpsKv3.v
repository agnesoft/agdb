(* StoredDbOpsKv3.v — proofs (stored database): DbKeyValues::insert_or_replace as a program over the storage
   computes DbModel's kvs_insert_or_replace on the values component of a stored database: valid_index, kvs (the slot
   read again, from_storage), the lazy search for the first pair with an equal key, replace in place / reserve + push. *)
From Coq Require Import Permutation.
From Agdb Require Import Bytes DbValue Graph DbModel StorageSpec Collections CollValues CollWp CollBytes CollVecBase
  CollVec CollValuesProofs StoredDbRep StoredDbOps StoredDbOpsKv StoredDbOpsKv2.
From Coq Require Import ZifyBool ZifyNat ZifyN.
Ltac Zify.zify_post_hook ::= Z.div_mod_to_equations.
Open Scope N_scope.

(* position and value of the first pair with an equal key *)
Fixpoint kv_pos (l : list kv) (key : dbvalue) : option (nat * kv) :=
  match l with
  | [] => None
  | y :: r => if dbv_eqb (fst y) key then Some (O, y)
              else match kv_pos r key with Some (n, z) => Some (S n, z) | None => None end
  end.

Lemma replace_first_pos l x :
  replace_first l x = match kv_pos l (fst x) with Some (n, old) => Some (old, cl_upd l n x) | None => None end.
Proof.
  induction l as [|y r IH]; cbn [replace_first kv_pos]; [reflexivity|].
  destruct (dbv_eqb (fst y) (fst x)); [reflexivity|]. rewrite IH. destruct (kv_pos r (fst x)) as [[n old]|]; reflexivity.
Qed.

Lemma kv_pos_nth l key n old : kv_pos l key = Some (n, old) -> nth_error l n = Some old.
Proof.
  revert n. induction l as [|y r IH]; intros n; cbn [kv_pos]; [discriminate|].
  destruct (dbv_eqb (fst y) key); [intros [= <- <-]; reflexivity|].
  destruct (kv_pos r key) as [[m z]|]; [|discriminate]. intros [= <- <-]. cbn [nth_error]. apply IH. reflexivity.
Qed.

Lemma skipn_nth_error {A} (l : list A) n x : nth_error l n = Some x -> skipn n l = x :: skipn (S n) l.
Proof.
  revert l. induction n as [|n IH]; intros [|y t]; cbn [nth_error skipn]; try discriminate.
  - intros [= ->]. reflexivity.
  - apply IH.
Qed.

(* DbModel.kvs_insert_or_replace on a position n : nat instead of an id (kvs_ior_model: by computation): the programs and kvrep
   work on N.to_nat of the slot index, DbModel on zabs_nat of the id *)
Definition kvs_ior (s : kvstore) (n : nat) (x : kv) : option kv * kvstore :=
  match replace_first (nth n s []) x with
  | Some (old, l') => (Some old, kvs_set_nth s n l')
  | None => (None, kvs_set_nth s n (nth n s [] ++ [x]))
  end.

Lemma kvs_ior_model s i x : kvs_insert_or_replace s i x = kvs_ior s (zabs_nat i) x.
Proof. reflexivity. Qed.

Section KvOps3.
  Variable fl : bool.

  Lemma so_kv_find_spec k bss l key sp : vrepK (hp sp) k bss l ->
    forall fuel i (Q : cres (option (N * kv)) -> spec -> Prop),
    (length l - N.to_nat i < fuel)%nat ->
    match kv_pos (skipn (N.to_nat i) l) key with
    | Some (n, y) => Q (CrOk (Some (i + N.of_nat n, y))) sp
    | None => Q (CrOk None) sp
    end ->
    cwp fl (so_kv_find k key fuel i) sp Q.
  Proof.
    intros HR. induction fuel as [|f IH]; intros i Q Hf HQ; [lia|]. cbn [so_kv_find].
    apply cwp_bind. apply cwp_try. eapply cv_value_spec; [exact HR|].
    destruct (nth_error l (N.to_nat i)) as [y|] eqn:En.
    - cbn [kont]. rewrite (skipn_nth_error _ _ _ En) in HQ. cbn [kv_pos] in HQ.
      destruct (dbv_eqb (fst y) key).
      + cbn [cwp]. replace (i + N.of_nat 0) with i in HQ by lia. exact HQ.
      + apply IH; [apply BytesProofs.nth_error_Some_lt in En; lia|]. replace (N.to_nat (i + 1)) with (S (N.to_nat i)) by lia.
        destruct (kv_pos (skipn (S (N.to_nat i)) l) key) as [[n z]|]; [|exact HQ].
        replace (i + 1 + N.of_nat n) with (i + N.of_nat (S n)) by lia. exact HQ.
    - cbn [kont cwp]. apply nth_error_None in En. rewrite skipn_all2 in HQ by exact En. exact HQ.
  Qed.

  Theorem so_kv_insert_or_replace_spec vh vs vi vw kvs index x sp (Q : cres (cv_vec * option kv) -> spec -> Prop) :
    kvrep (hp sp) vh vs vi vw kvs -> so_index_ok index -> el_valid law_dbkv x ->
    8 + ce_size ce_dbkv * (lenN (nth (N.to_nat index) kvs []) + 1) < two64 ->
    (forall vh1 vs1 vi1 vw1 sp',
        kvrep (hp sp') vh1 vs1 vi1 vw1 (snd (kvs_ior kvs (N.to_nat index) x)) ->
        cv_index vh1 = cv_index vh -> sdepth sp' = sdepth sp ->
        frame (hp sp) (hp sp') (kvfoot vh vs vw) (kvfoot vh1 vs1 vw1) ->
        slot_keep vi vi1 -> nth (N.to_nat index) vi1 0 <> 0 ->
        Q (CrOk (vh1, fst (kvs_ior kvs (N.to_nat index) x))) sp') ->
    cwp fl (so_kv_insert_or_replace vh index x) sp Q.
  Proof.
    intros H Hix Hx Hfit HQ. pose proof H as [A B C].
    destruct (sd_kv_rep_lengths _ _ _ _ B) as [L1 L2].
    pose proof (vr_len _ _ _ _ _ _ _ A) as Hlen. unfold lenN in Hlen.
    unfold so_kv_insert_or_replace, so_kv_valid_index.
    (* the branch that appends through insert_value *)
    assert (Hins : nth (N.to_nat index) kvs [] = [] ->
                   cwp fl (vh' <~ so_kv_insert_value vh index x ;; CRet (vh', None)) sp Q).
    { intros El. apply cwp_bind. eapply so_kv_insert_value_spec; [exact H|exact Hix|exact Hx|exact Hfit|].
      intros vh1 vs1 vi1 vw1 sp' H1 I1 D1 F1 K1 Hnz. cbn [kont cwp].
      unfold kvs_ior in HQ. rewrite El in HQ. cbn [replace_first fst snd] in HQ. rewrite El in H1. cbn [app] in *.
      eapply HQ; eassumption. }
    apply cwp_bind. destruct (N.ltb_spec index (cv_len vh)) as [Hlt|Hge].
    2:{ cbn [cwp kont negb]. apply Hins. apply nth_overflow. lia. }
    assert (Hn : (N.to_nat index < length kvs)%nat) by lia. set (n := N.to_nat index) in *.
    destruct (kvrep_view _ _ _ _ _ _ n H Hn) as (i & w & Ei & Ew & Bs).
    apply cwp_bind. eapply cv_value_spec; [exact A|]. fold n. rewrite Ei. cbn [kont cwp].
    destruct w as [[k bss]|]; cbn [sd_kv_slot_rep] in Bs.
    2:{ destruct Bs as [-> El]. rewrite N.eqb_refl. cbn [negb]. apply Hins. exact El. }
    destruct Bs as (Hnz & Hki & HR). destruct (N.eqb_spec i 0) as [X|_]; [contradiction|]. cbn [negb].
    assert (Hnz' : nth n vi 0 <> 0) by (rewrite (nth_error_nth _ _ 0 Ei); exact Hnz).
    apply cwp_bind. unfold so_kv_kvs. apply cwp_bind. eapply cv_value_spec; [exact A|]. fold n. rewrite Ei. cbn [kont].
    rewrite <- Hki. eapply cv_from_storage_spec; [exact HR|]. intros k' HR' Hi' Hl'. cbn [kont].
    apply cwp_bind. eapply so_kv_find_spec; [exact HR'|pose proof (vr_len _ _ _ _ _ _ _ HR') as X; unfold lenN in X; lia|].
    change (N.to_nat 0) with 0%nat. cbn [skipn].
    unfold kvs_ior in HQ. fold n in HQ. rewrite replace_first_pos in HQ. set (l := nth n kvs []) in *.
    destruct (kv_pos l (fst x)) as [[m old]|] eqn:Ep; cbn [kont fst snd] in *.
    - (* replace in place *)
      apply cwp_bind. eapply cv_replace_spec; [exact HR'|exact Hx|].
      replace (N.to_nat (0 + N.of_nat m)) with m by lia. rewrite (kv_pos_nth _ _ _ _ Ep).
      intros bss2 sp2 HR2 D2 F2. cbn [kont cwp]. rewrite (footK_index _ _ _ Hi') in F2.
      destruct (kvrep_slot_update _ _ _ _ _ _ _ _ _ _ _ _ _ H Ew HR2 Hi' F2) as [H3 F3].
      eapply HQ; [exact H3|reflexivity|exact D2|exact F3|apply slot_keep_refl|exact Hnz'].
    - (* append: reserve + push *)
      apply cwp_bind. eapply cv_reserve_spec; [exact HR'|]. intros k1 sp2 HR1 Ik1 _ D2 F2. cbn [kont].
      apply cwp_bind. eapply cv_push_spec; [exact HR1|exact Hx|exact Hfit|].
      intros k2 bss2 sp3 HR2 Ik2 D3 F3. cbn [kont cwp]. rewrite (footK_index _ _ _ Hi') in F2.
      destruct (kvrep_slot_update _ _ _ _ _ _ _ _ _ _ _ _ _ H Ew HR2) as [H3 Fr3];
        [congruence|eapply frame_trans; eassumption|].
      eapply HQ; [exact H3|reflexivity|congruence|exact Fr3|apply slot_keep_refl|exact Hnz'].
  Qed.
End KvOps3.
