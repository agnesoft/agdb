(* StoredDbOpsAlias2.v — DbImpl::insert_new_alias as a PROGRAM over the storage and its proof on a stored database
   (layer L3), for an alias that is NEW and an id that has no alias, when neither table grows nor rehashes in place.

     so_imap_insert        IndexedMapImpl::insert (indexed_map.rs): keys_to_values.insert(key, value); if it returned the
                           previous value v: [values_to_keys.remove(v)]; values_to_keys.insert(value, key); if it returned
                           the previous key k: [keys_to_values.remove(k)].  MapImpl::insert = so_map_insert
                           (StoredDbOpsAlias.v).  The bracketed removals and the grow / in-place rehash branches of the
                           two insertions are NOT modelled: they are parameters (so_alias_rest) and the theorem holds for
                           every choice of them, because under its hypotheses they are not executed.
     so_alias_insert_new   DbImpl::insert_new_alias(db_id, alias): undo_stack.push (memory, no storage call);
                           self.aliases.insert(storage, alias, db_id)
     the handles           DbIndexedMap<String, DbId> = the two DbMapData handles (cm_data); so_alias_handles a w: they are
                           the ones of the witness
     so_alias_tables_ok    C19's invariant PInv of the two stored tables (what every history of multi_map.rs operations from
                           the empty table satisfies: C19_table_refines_multimap), for the hash functions hs / hi
                           (StableHash of String / DbId: parameters, every function) and a minimum capacity >= 4

   sd_a1_update / sd_a2_update: one alias table of a stored database replaced under a frame (the shape of
   StoredDbFrame.sd_graph_update).  The theorems about so_alias_insert_new are in StoredDbOpsAlias3.v (from the two
   insertions; tables with room), StoredDbOpsAlias8.v (any fill) and StoredDbOpsAlias9.v (one bound on the capacities). *)
From Coq Require Import List NArith ZArith Arith Bool Lia Permutation.
Import ListNotations.
From Agdb Require Import Bytes DbModel Collections CollVecBase CollVec CollElems CollSep CollMap CollMapHist CollGraph
  OpenMapRefineStep StoredDbRep StoredDbFrame StoredDbOpsDb2 StoredDbOpsAlias.
Open Scope N_scope.

Record so_alias_rest := {
  sar_k2v : so_map_rest; sar_v2k : so_map_rest;
  sar_remove_v2k : cm_data -> Z -> cprog cm_data;          (* values_to_keys.remove(&v) *)
  sar_remove_k2v : cm_data -> bytes -> cprog cm_data       (* keys_to_values.remove(&k) *)
}.

Section AliasProg.
  Variable hs : bytes -> N.      (* <String as StableHash>::stable_hash *)
  Variable hi : Z -> N.          (* <DbId as StableHash>::stable_hash *)

  Definition so_imap_insert (x : so_alias_rest) (a : cm_data * cm_data) (key : bytes) (value : Z) : cprog (cm_data * cm_data) :=
    r1 <~ so_map_insert bytes Z ce_string ce_i64 bytes_eqb hs (sar_k2v x) (fst a) key value ;;
    a2 <~ match snd r1 with Some v => sar_remove_v2k x (snd a) v | None => CRet (snd a) end ;;
    r2 <~ so_map_insert Z bytes ce_i64 ce_string Z.eqb hi (sar_v2k x) a2 value key ;;
    a1 <~ match snd r2 with Some k => sar_remove_k2v x (fst r1) k | None => CRet (fst r1) end ;;
    CRet (a1, fst r2).

  Definition so_alias_insert_new (x : so_alias_rest) (a : cm_data * cm_data) (id : Z) (alias : bytes) : cprog (cm_data * cm_data) :=
    so_imap_insert x a alias id.
End AliasProg.

Definition so_alias_handles (a : cm_data * cm_data) (w : sd_wit) : Prop := fst a = mw_d (sw_a1 w) /\ snd a = mw_d (sw_a2 w).

Definition so_alias_tables_ok (hs : bytes -> N) (hi : Z -> N) (mincap : nat) (w : sd_wit) : Prop :=
  PInv bytes Z hs mincap (ct_omap bytes Z (mw_t (sw_a1 w))) /\ PInv Z bytes hi mincap (ct_omap Z bytes (mw_t (sw_a2 w))).

(* the elements of the tables: an i64 is valid when it is one; so are the defaults the code resizes with, "" and 0 *)
Lemma so_i64_ok z : (- 9223372036854775808 <= z < 9223372036854775808)%Z -> el_valid law_i64 z.
Proof. intros H. exact H. Qed.
Lemma so_i64_zero_ok : el_valid law_i64 0%Z.
Proof. apply so_i64_ok. lia. Qed.
Lemma so_str_nil_ok : el_valid law_string ([] : bytes).
Proof. split; [reflexivity|]. vm_compute. reflexivity. Qed.

Definition sd_with_a1 (w : sd_wit) (m : sd_mapw bytes Z) : sd_wit :=
  {| sw_root := sw_root w; sw_g := sw_g w; sw_gs := sw_gs w; sw_a1 := m; sw_a2 := sw_a2 w;
     sw_ih := sw_ih w; sw_is := sw_is w; sw_ie := sw_ie w; sw_iw := sw_iw w;
     sw_vh := sw_vh w; sw_vs := sw_vs w; sw_vi := sw_vi w; sw_vw := sw_vw w |}.
Definition sd_with_a2 (w : sd_wit) (m : sd_mapw Z bytes) : sd_wit :=
  {| sw_root := sw_root w; sw_g := sw_g w; sw_gs := sw_gs w; sw_a1 := sw_a1 w; sw_a2 := m;
     sw_ih := sw_ih w; sw_is := sw_is w; sw_ie := sw_ie w; sw_iw := sw_iw w;
     sw_vh := sw_vh w; sw_vs := sw_vs w; sw_vi := sw_vi w; sw_vw := sw_vw w |}.

Definition sd_rest2 (w : sd_wit) : list N :=
  foot bytes (ce_raw 24) sd_law24 (sw_ih w) (sw_is w) ++ sd_ix_foot (sw_ie w) (sw_iw w) ++
  foot N ce_u64 law_u64 (sw_vh w) (sw_vs w) ++ sd_kv_foot (sw_vw w).

Lemma sd_foot_split1 root w :
  sd_foot root w = (root :: gfoot (sw_g w) (sw_gs w)) ++ sd_foot_a1 (sw_a1 w) ++ (sd_foot_a2 (sw_a2 w) ++ sd_rest2 w).
Proof. unfold sd_foot, sd_rest2. cbn [app]. reflexivity. Qed.
Lemma sd_foot_split2 root w :
  sd_foot root w = (root :: gfoot (sw_g w) (sw_gs w) ++ sd_foot_a1 (sw_a1 w)) ++ sd_foot_a2 (sw_a2 w) ++ sd_rest2 w.
Proof. unfold sd_foot, sd_rest2. cbn [app]. rewrite <- app_assoc. reflexivity. Qed.

Lemma live_all_sub g (A B : list N) : live_all g A -> (forall j, In j B -> In j A) -> live_all g B.
Proof. intros H S j Hj. apply H. apply S. exact Hj. Qed.

(* both alias tables replaced; of the heap the other components need only that it is the same on their footprints *)
Lemma sd_aliases_replace g g' root d w m1 m2 l1 l2 :
  stored_db_w g root d w ->
  (forall j, In j (root :: gfoot (sw_g w) (sw_gs w)) -> g' j = g j) -> (forall j, In j (sd_rest2 w) -> g' j = g j) ->
  sd_rep_a1 g' m1 (cr_aliases1 (sw_root w)) l1 -> NoDup (map fst l1) ->
  sd_rep_a2 g' m2 (cr_aliases2 (sw_root w)) l2 -> NoDup (map fst l2) ->
  NoDup (sd_foot root (sd_with_a2 (sd_with_a1 w m1) m2)) ->
  stored_db_w g' root (with_aliases d {| k2v := l1; v2k := l2 |}) (sd_with_a2 (sd_with_a1 w m1) m2).
Proof.
  intros [Hroot Hu64 Hver Hg Hgi _ _ _ _ Hiv Hii Hix Hvv Hvi Hv _] SameG SameR R1 N1 R2 N2 ND.
  unfold sd_rest2 in SameR.
  constructor; cbn [sd_with_a1 sd_with_a2 sw_root sw_g sw_gs sw_a1 sw_a2 sw_ih sw_is sw_ie sw_iw sw_vh sw_vs sw_vi sw_vw with_aliases
                    gr aliases vals indexes k2v v2k]; try assumption.
  - rewrite SameG; [exact Hroot|left; reflexivity].
  - eapply grep_transport; [exact Hg|]. intros j Hj. apply SameG. right. exact Hj.
  - eapply vrep_transport; [exact Hiv|]. intros j Hj. apply SameR. apply in_or_app. left. exact Hj.
  - eapply sd_transport_ix; [exact Hix|]. intros j Hj. apply SameR. apply in_or_app; right. apply in_or_app. left. exact Hj.
  - eapply vrep_transport; [exact Hvv|]. intros j Hj. apply SameR. do 2 (apply in_or_app; right). apply in_or_app. left. exact Hj.
  - eapply sd_transport_kv; [exact Hv|]. intros j Hj. apply SameR. do 3 (apply in_or_app; right). exact Hj.
Qed.

Theorem sd_a1_update g g' root d w m' l' :
  stored_db_w g root d w -> sd_rep_a1 g' m' (cr_aliases1 (sw_root w)) l' -> NoDup (map fst l') ->
  frame g g' (sd_foot_a1 (sw_a1 w)) (sd_foot_a1 m') ->
  stored_db_w g' root (with_aliases d {| k2v := l'; v2k := v2k (aliases d) |}) (sd_with_a1 w m') /\
  frame g g' (sd_foot root w) (sd_foot root (sd_with_a1 w m')).
Proof.
  intros H HR ND Hf.
  pose proof (sr_nodup _ _ _ _ H) as Hnd. rewrite sd_foot_split1 in Hnd.
  pose proof (stored_db_live _ _ _ _ H) as Hlive. rewrite sd_foot_split1 in Hlive.
  assert (Hl : live_all g ((root :: gfoot (sw_g w) (sw_gs w)) ++ sd_foot_a2 (sw_a2 w) ++ sd_rest2 w)).
  { eapply live_all_sub; [exact Hlive|]. intros j Hj. apply in_app_or in Hj. apply in_or_app.
    destruct Hj as [Hj|Hj]; [left; exact Hj|right; apply in_or_app; right; exact Hj]. }
  assert (NF' : NoDup (sd_foot_a1 m')).
  { destruct HR as ([[_ _ _ _ _ X] _ _] & _). exact X. }
  destruct (sep_update g g' (root :: gfoot (sw_g w) (sw_gs w)) _ _ (sd_foot_a2 (sw_a2 w) ++ sd_rest2 w) Hf Hnd Hl NF') as (N' & F' & Same).
  split; [|rewrite !sd_foot_split1; exact F'].
  assert (SameR : forall j, In j (sd_foot_a2 (sw_a2 w) ++ sd_rest2 w) -> g' j = g j).
  { intros j Hj. apply Same. apply in_or_app. right. exact Hj. }
  refine (sd_aliases_replace g g' root d w m' (sw_a2 w) l' (v2k (aliases d)) H _ _ HR ND _ (sr_a2_keys _ _ _ _ H) _).
  - intros j Hj. apply Same. apply in_or_app. left. exact Hj.
  - intros j Hj. apply SameR. apply in_or_app. right. exact Hj.
  - eapply sd_transport_map; [exact (sr_a2 _ _ _ _ H)|]. intros j Hj. apply SameR. apply in_or_app. left. exact Hj.
  - change (NoDup (sd_foot root (sd_with_a1 w m'))). rewrite sd_foot_split1. exact N'.
Qed.

Theorem sd_a2_update g g' root d w m' l' :
  stored_db_w g root d w -> sd_rep_a2 g' m' (cr_aliases2 (sw_root w)) l' -> NoDup (map fst l') ->
  frame g g' (sd_foot_a2 (sw_a2 w)) (sd_foot_a2 m') ->
  stored_db_w g' root (with_aliases d {| k2v := k2v (aliases d); v2k := l' |}) (sd_with_a2 w m') /\
  frame g g' (sd_foot root w) (sd_foot root (sd_with_a2 w m')).
Proof.
  intros H HR ND Hf.
  pose proof (sr_nodup _ _ _ _ H) as Hnd. rewrite sd_foot_split2 in Hnd.
  pose proof (stored_db_live _ _ _ _ H) as Hlive. rewrite sd_foot_split2 in Hlive.
  assert (Hl : live_all g ((root :: gfoot (sw_g w) (sw_gs w) ++ sd_foot_a1 (sw_a1 w)) ++ sd_rest2 w)).
  { eapply live_all_sub; [exact Hlive|]. intros j Hj. apply in_app_or in Hj. apply in_or_app.
    destruct Hj as [Hj|Hj]; [left; exact Hj|right; apply in_or_app; right; exact Hj]. }
  assert (NF' : NoDup (sd_foot_a2 m')).
  { destruct HR as ([[_ _ _ _ _ X] _ _] & _). exact X. }
  destruct (sep_update g g' (root :: gfoot (sw_g w) (sw_gs w) ++ sd_foot_a1 (sw_a1 w)) _ _ (sd_rest2 w) Hf Hnd Hl NF') as (N' & F' & Same).
  split; [|rewrite !sd_foot_split2; exact F'].
  assert (SameG : forall j, In j (root :: gfoot (sw_g w) (sw_gs w) ++ sd_foot_a1 (sw_a1 w)) -> g' j = g j).
  { intros j Hj. apply Same. apply in_or_app. left. exact Hj. }
  refine (sd_aliases_replace g g' root d w (sw_a1 w) m' (k2v (aliases d)) l' H _ _ _ (sr_a1_keys _ _ _ _ H) HR ND _).
  - intros j [<-|Hj]; apply SameG; [left; reflexivity|right; apply in_or_app; left; exact Hj].
  - intros j Hj. apply Same. apply in_or_app. right. exact Hj.
  - eapply sd_transport_map; [exact (sr_a1 _ _ _ _ H)|]. intros j Hj. apply SameG. right. apply in_or_app. right. exact Hj.
  - change (NoDup (sd_foot root (sd_with_a2 w m'))). rewrite sd_foot_split2. exact N'.
Qed.
