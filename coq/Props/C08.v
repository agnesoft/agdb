(* C08 — Graph mutations behave like an abstract directed multigraph.
   The statements; they rest on theories/GraphArr.v GraphSim.v GraphOps.v GraphProofs.v
   GraphRemove.v GraphSpec.v GraphWf.v GraphC08.v (graph level) and theories/DbCascadeProofs.v (DbImpl level).

   MODEL.  theories/Graph.v is the slot-array graph of agdb/src/graph.rs (four arrays from / to /
   from_meta / to_meta, free list threaded through from_meta, per-node out-/in-lists threaded through
   from_meta / to_meta; the unlink loops run on fuel = capacity and return None when it runs out).

   ABSTRACT MULTIGRAPH (theories/GraphSim.v, GraphSpec.v).
     agraph = {| a_nodes : list Z;  a_edges : list (slot, (source, target)) |}, edges NEWEST FIRST;
     the id of an edge is `- slot`.  a_out a n / a_in a n = the ids of the edges whose source / target is n,
     in that order (a self-loop is in both) — C08_a_out_def, C08_a_in_def.
     astep a op out = the abstract step that ACCEPTS the id `out` chosen by the implementation
     (C08_astep_def): a new node must get a positive id whose magnitude is used by no node and no edge, a
     new edge a negative one, and goes to the head of its endpoints' lists; an edge insertion with a missing
     endpoint must fail and change nothing; removing a node removes it with all incident edges (a self-loop
     once); removals of absent elements change nothing.
     grun g a ops runs the implementation (gstep) and the acceptor side by side; None = a loop ran out of
     fuel or the specification rejected an id.
     sim g a fl = the simulation relation (fl = the free list): all arrays have the same length >= 1, slot 0
     holds the free-list head and the node count, the free list is duplicate-free and consists of unused slots
     (from = to = to_meta = 0, from_meta < 0), every node's out-/in-list is exactly the chain of the abstract
     adjacency, the stored degrees are the list lengths, edge endpoints are nodes.   wf g = exists a fl, sim g a fl.

   SIGNS.  ids are passed with the sign of their kind (gop_ok): DbImpl resolves every id through
   db_id / graph_index, which dispatch on the sign.  The raw GraphImpl functions look only at |id|
   (C08_raw_negative_endpoint_witness shows why the restriction is needed). *)
From Agdb Require Import Bytes DbValue Graph DbModel GraphArr GraphSim GraphProofs GraphRemove GraphSpec GraphWf GraphC08 DbCascadeProofs.
From Coq Require Import Sorted Permutation.
Open Scope Z_scope.

(* ---- the specification, spelled out ---- *)

Theorem C08_astep_def :
  forall (a : agraph) (op : gop) (out : option Z),
    astep a op out =
    match op, out with
    | GInsertNode, Some i =>
        if (0 <? i) && a_fresh a i then Some {| a_nodes := i :: a_nodes a; a_edges := a_edges a |} else None
    | GInsertEdge f t, Some i =>
        if (i <? 0) && a_fresh a (- i) && zmem f (a_nodes a) && zmem t (a_nodes a)
        then Some {| a_nodes := a_nodes a; a_edges := (- i, (f, t)) :: a_edges a |} else None
    | GInsertEdge f t, None =>
        if zmem f (a_nodes a) && zmem t (a_nodes a) then None else Some a
    | GRemoveNode n, None =>
        Some {| a_nodes := zrem n (a_nodes a); a_edges := filter (keep_edge n) (a_edges a) |}
    | GRemoveEdge e, None =>
        Some {| a_nodes := a_nodes a; a_edges := remE (- e) (a_edges a) |}
    | _, _ => None
    end.
Proof. destruct op, out; reflexivity. Qed.
Print Assumptions C08_astep_def.

Theorem C08_a_fresh_def :
  forall a s, a_fresh a s = true <-> ~ In s (a_nodes a) /\ ~ In s (map eslot (a_edges a)).
Proof. exact a_fresh_def. Qed.
Print Assumptions C08_a_fresh_def.

Theorem C08_gstep_def :
  forall (g : graph) (op : gop),
    gstep g op =
    match op with
    | GInsertNode => let '(i, g') := insert_node g in Some (g', Some i)
    | GInsertEdge f t => match insert_edge g f t with
                         | Some (i, g') => Some (g', Some i)
                         | None => Some (g, None)
                         end
    | GRemoveNode n => match remove_node g n with Some g' => Some (g', None) | None => None end
    | GRemoveEdge e => match remove_edge g e with Some g' => Some (g', None) | None => None end
    end.
Proof. destruct op; reflexivity. Qed.
Print Assumptions C08_gstep_def.

Theorem C08_grun_def :
  forall (g : graph) (a : agraph) (ops : list gop),
    grun g a ops =
    match ops with
    | [] => Some (g, a)
    | op :: r =>
      match gstep g op with
      | None => None
      | Some (g', out) => match astep a op out with None => None | Some a' => grun g' a' r end
      end
    end.
Proof. destruct ops; reflexivity. Qed.
Print Assumptions C08_grun_def.

Theorem C08_zrem_def : forall s l y, In y (zrem s l) <-> In y l /\ y <> s.
Proof. exact in_zrem. Qed.
Print Assumptions C08_zrem_def.

Theorem C08_a_out_def :
  forall a n e, In e (a_out a n) <-> exists x, In x (a_edges a) /\ e = - eslot x /\ esrc x = n.
Proof. intros a. apply in_adj_ids. Qed.
Print Assumptions C08_a_out_def.

Theorem C08_a_in_def :
  forall a n e, In e (a_in a n) <-> exists x, In x (a_edges a) /\ e = - eslot x /\ etgt x = n.
Proof. intros a. apply in_adj_ids. Qed.
Print Assumptions C08_a_in_def.

(* a new edge is the head of its source's out-list and of its target's in-list; removing an edge
   deletes it from the lists and keeps the order of the others; removing a node keeps exactly the
   edges that do not touch it *)
Theorem C08_adjacency_insert :
  forall nodes E s f t n,
    a_out {| a_nodes := nodes; a_edges := (s, (f, t)) :: E |} n =
      (if f =? n then - s :: a_out {| a_nodes := nodes; a_edges := E |} n
       else a_out {| a_nodes := nodes; a_edges := E |} n) /\
    a_in {| a_nodes := nodes; a_edges := (s, (f, t)) :: E |} n =
      (if t =? n then - s :: a_in {| a_nodes := nodes; a_edges := E |} n
       else a_in {| a_nodes := nodes; a_edges := E |} n).
Proof.
  intros. unfold a_out, a_in. cbn [a_edges]. rewrite !adj_cons. cbn [esrc etgt eslot fst snd].
  destruct (f =? n), (t =? n); auto.
Qed.
Print Assumptions C08_adjacency_insert.

Theorem C08_adjacency_remove :
  forall nodes E s n,
    a_out {| a_nodes := nodes; a_edges := remE s E |} n = zrem (- s) (a_out {| a_nodes := nodes; a_edges := E |} n) /\
    a_in {| a_nodes := nodes; a_edges := remE s E |} n = zrem (- s) (a_in {| a_nodes := nodes; a_edges := E |} n).
Proof. intros. unfold a_out, a_in. cbn [a_edges]. rewrite !adj_remE, !map_opp_zrem. auto. Qed.
Print Assumptions C08_adjacency_remove.

Theorem C08_remove_node_edges :
  forall n E x, In x (filter (keep_edge n) E) <-> In x E /\ esrc x <> n /\ etgt x <> n.
Proof.
  intros n E x. rewrite filter_In. unfold keep_edge.
  destruct (Z.eqb_spec (esrc x) n); destruct (Z.eqb_spec (etgt x) n); cbn [negb andb]; intuition congruence.
Qed.
Print Assumptions C08_remove_node_edges.

(* ---- the invariant ---- *)

Theorem C08_wf_new : sim graph_new a_empty [] /\ wf graph_new.
Proof. exact new_wf. Qed.
Print Assumptions C08_wf_new.

(* what the simulation means for everything the graph API can observe: node count, existence and
   sign of every id, element iteration, both adjacency iterators in order, both degree counts (a
   self-loop is in a_out and a_in of its node, hence counted on both sides), edge endpoints *)
Theorem C08_observations :
  forall g a fl, sim g a fl ->
    (node_count g = Z.of_nat (length (a_nodes a)) /\
     (forall i, graph_index g i = true <-> (0 < i /\ In i (a_nodes a)) \/ (i < 0 /\ In i (a_edge_ids a))) /\
     (forall i, In i (elements g) <-> In i (a_nodes a) \/ In i (a_edge_ids a)) /\
     (forall n, In n (a_nodes a) ->
        out_edges g n = a_out a n /\ edge_count_from g n = Z.of_nat (length (a_out a n)) /\
        in_edges g n = a_in a n /\ edge_count_to g n = Z.of_nat (length (a_in a n))) /\
     (forall x, In x (a_edges a) -> edge_from g (- eslot x) = esrc x /\ edge_to g (- eslot x) = etgt x)) /\
    (NoDup (a_nodes a) /\ (forall n, In n (a_nodes a) -> 0 < n) /\
     NoDup (a_edge_ids a) /\ (forall e, In e (a_edge_ids a) -> e < 0) /\
     (forall n, In n (a_nodes a) -> ~ In (- n) (a_edge_ids a)) /\
     (forall x, In x (a_edges a) -> In (esrc x) (a_nodes a) /\ In (etgt x) (a_nodes a))).
Proof. exact sim_observations. Qed.
Print Assumptions C08_observations.

(* the abstract graph is determined by the arrays: its nodes and edges are those of the canonical
   abstraction `abs g` (read off the element iteration), the per-node orders are fixed by C08_observations *)
Theorem C08_abs_unique :
  forall g a fl, sim g a fl ->
    Permutation (a_nodes a) (a_nodes (abs g)) /\ Permutation (a_edges a) (a_edges (abs g)).
Proof. exact sim_abs. Qed.
Print Assumptions C08_abs_unique.

(* the free list `fl` of the simulation: threaded through from_meta from slot 0 (fhead [] = i64::MIN,
   fhead (x :: _) = - x; fchain next (x :: r) = (next x = fhead r /\ fchain next r)), duplicate-free, made of
   cleared unused slots; below capacity 2^63 (whose negation is i64::MIN) no slot is ever leaked: the free
   list is exactly the set of slots with from_meta < 0 *)
Theorem C08_free_list :
  forall g a fl, sim g a fl ->
    fmeta g 0 = fhead fl /\ fchain (fmeta g) fl /\ NoDup fl /\
    (forall s, In s fl -> 0 < s < capacity g /\ fmeta g s < 0 /\ from g s = 0 /\ to g s = 0 /\ tmeta g s = 0 /\
                          ~ In s (a_nodes a) /\ ~ In s (map eslot (a_edges a))) /\
    (capacity g <= 9223372036854775808 -> forall s, 0 < s < capacity g -> (fmeta g s < 0 <-> In s fl)).
Proof.
  intros g a fl HS. pose proof (proj2 HS) as [_ _ HO _ FS].
  split; [apply (f_head _ _ _ _ _ _ _ _ _ FS)|]. split; [apply (f_chain _ _ _ _ _ _ _ _ _ FS)|].
  split; [apply (f_nodup _ _ _ _ _ _ _ _ _ FS)|]. split.
  - intros s Hs. destruct (f_fl _ _ _ _ _ _ _ _ _ FS s Hs) as [Hr [_ [Ha Hb]]].
    destruct (f_unused _ _ _ _ _ _ _ _ _ FS s Hr Ha Hb) as [U1 [U2 [U3 U4]]]. auto 10.
  - intros Hcap s Hr. split.
    + (* a used slot has from_meta >= 0 *)
      intros Hneg. apply (f_cover _ _ _ _ _ _ _ _ _ FS Hcap s Hr).
      * intros Hi. destruct (h_node _ _ _ _ _ _ _ HO s Hi). lia.
      * intros Hi. apply in_map_iff in Hi. destruct Hi as [x [<- Hx]]. destruct (h_rec _ _ _ _ _ _ _ HO x Hx). lia.
    + intros Hs. destruct (f_fl _ _ _ _ _ _ _ _ _ FS s Hs) as [_ [_ [Ha Hb]]].
      apply (f_unused _ _ _ _ _ _ _ _ _ FS s Hr Ha Hb).
Qed.
Print Assumptions C08_free_list.

(* ---- the four mutations are simulation steps ---- *)

(* insert_node: the new id is positive, its magnitude is used by no node and no edge, it is the next
   free-list entry or the first slot beyond the arrays, and exactly that node is added *)
Theorem C08_insert_node :
  forall g a fl, sim g a fl ->
    let '(x, g') := insert_node g in
    0 < x /\ ~ In x (a_nodes a) /\ ~ In x (map eslot (a_edges a)) /\
    (x = capacity g \/ In x fl) /\
    sim g' {| a_nodes := x :: a_nodes a; a_edges := a_edges a |} (tl fl).
Proof. exact insert_node_sim. Qed.
Print Assumptions C08_insert_node.

(* insert_edge between existing nodes: succeeds, the id is negative with an unused magnitude, exactly
   that edge is added, as the newest one *)
Theorem C08_insert_edge :
  forall g a fl f t, sim g a fl -> In f (a_nodes a) -> In t (a_nodes a) ->
    exists x g', insert_edge g f t = Some (- x, g') /\
      0 < x /\ ~ In x (a_nodes a) /\ ~ In x (map eslot (a_edges a)) /\
      (x = capacity g \/ In x fl) /\
      sim g' {| a_nodes := a_nodes a; a_edges := (x, (f, t)) :: a_edges a |} (tl fl).
Proof. exact insert_edge_sim. Qed.
Print Assumptions C08_insert_edge.

(* insert_edge with a missing endpoint fails; no new graph is produced (no effect) *)
Theorem C08_insert_edge_missing :
  forall g a fl f t, sim g a fl -> 0 <= f -> 0 <= t ->
    ~ (In f (a_nodes a) /\ In t (a_nodes a)) -> insert_edge g f t = None.
Proof. exact insert_edge_none. Qed.
Print Assumptions C08_insert_edge_missing.

(* remove_edge: never out of fuel; removes exactly that edge; absent ids are a no-op *)
Theorem C08_remove_edge :
  forall g a fl e, sim g a fl -> In e (a_edges a) ->
    exists g', remove_edge g (- eslot e) = Some g' /\
      sim g' {| a_nodes := a_nodes a; a_edges := remE (eslot e) (a_edges a) |} (free_push (eslot e) fl).
Proof. exact remove_edge_sim. Qed.
Print Assumptions C08_remove_edge.

Theorem C08_remove_edge_absent :
  forall g a fl i, sim g a fl -> ~ In (Z.abs i) (map eslot (a_edges a)) -> remove_edge g i = Some g.
Proof. exact remove_edge_noop. Qed.
Print Assumptions C08_remove_edge_absent.

(* remove_node: neither loop runs out of fuel; removes exactly the node and every edge that has it
   as source or target (a self-loop once); absent ids are a no-op *)
Theorem C08_remove_node :
  forall g a fl n, sim g a fl -> In n (a_nodes a) ->
    exists g' fl', remove_node g n = Some g' /\
      sim g' {| a_nodes := zrem n (a_nodes a); a_edges := filter (keep_edge n) (a_edges a) |} fl'.
Proof. exact remove_node_sim. Qed.
Print Assumptions C08_remove_node.

Theorem C08_remove_node_absent :
  forall g a fl i, sim g a fl -> ~ In (Z.abs i) (a_nodes a) -> remove_node g i = Some g.
Proof. exact remove_node_noop. Qed.
Print Assumptions C08_remove_node_absent.

(* ---- all histories ---- *)

(* for every history of (sign-correct) insertions and removals from the empty graph: no loop runs out
   of fuel, every id returned by the implementation is accepted by the abstract multigraph (positive /
   negative, not in use), failed edge insertions change nothing, and the final graph is well-formed and
   observably equal to the abstract multigraph reached by the same operations *)
Theorem C08_history_refines :
  forall ops : list gop, Forall gop_ok ops ->
    exists g a, grun graph_new a_empty ops = Some (g, a) /\ wf g /\ observations_agree g a /\ agraph_ok a.
Proof. exact history_refines. Qed.
Print Assumptions C08_history_refines.

Theorem C08_history_sim :
  forall ops : list gop, Forall gop_ok ops ->
    forall g a fl, sim g a fl -> exists g' a' fl', grun g a ops = Some (g', a') /\ sim g' a' fl'.
Proof. exact grun_sim. Qed.
Print Assumptions C08_history_sim.

(* ---- consequences of wf alone (no abstract graph in the statement) ---- *)

Theorem C08_wf_preserved :
  forall g, wf g ->
    wf (snd (insert_node g)) /\
    (forall f t i g', 0 <= f -> 0 <= t -> insert_edge g f t = Some (i, g') -> wf g') /\
    (forall e, e <= 0 -> exists g', remove_edge g e = Some g' /\ wf g') /\
    (forall n, 0 <= n -> exists g', remove_node g n = Some g' /\ wf g').
Proof.
  intros g H. split; [exact (wf_insert_node g H)|]. split; [intros f t i g'; exact (wf_insert_edge g f t i g' H)|].
  split; [intros e; exact (wf_remove_edge g e H)|intros n; exact (wf_remove_node g n H)].
Qed.
Print Assumptions C08_wf_preserved.

(* the adjacency iterators (edge_list on fuel = capacity) list exactly the edges of the node, each
   once, and the stored degree is their number *)
Theorem C08_wf_adjacency :
  forall g n, wf g -> 0 < n -> is_node g n = true ->
    (NoDup (out_edges g n) /\
     (forall e, In e (out_edges g n) <-> e < 0 /\ is_edge g e = true /\ edge_from g e = n) /\
     edge_count_from g n = Z.of_nat (length (out_edges g n))) /\
    (NoDup (in_edges g n) /\
     (forall e, In e (in_edges g n) <-> e < 0 /\ is_edge g e = true /\ edge_to g e = n) /\
     edge_count_to g n = Z.of_nat (length (in_edges g n))).
Proof. exact wf_adjacency. Qed.
Print Assumptions C08_wf_adjacency.

Theorem C08_wf_edge_ends :
  forall g e, wf g -> is_edge g e = true ->
    0 < edge_from g e /\ is_node g (edge_from g e) = true /\
    0 < edge_to g e /\ is_node g (edge_to g e) = true.
Proof. exact wf_edge_ends. Qed.
Print Assumptions C08_wf_edge_ends.

(* ---- DbImpl level: the cascade of remove (theories/DbModel.v remove_id / remove_q / remove_node_db) ----
   `remove_id d id` is DbImpl::remove_id: a node is removed with its alias, every edge listed by node_edges
   (out-list, then in-list without self-loops) is removed one by one with its values, then the node and its
   values.  On a well-formed graph it never fails (no EFuel, no NotFound) and afterwards the node and every
   incident edge are no longer elements, their key-value lists are empty, the node's alias does not resolve,
   no element appeared, and the node count dropped by one. *)

Theorem C08_db_cascade :
  forall (d : db) (n : Z),
    wf (gr d) -> 0 < n -> graph_index (gr d) n = true ->
    exists d',
      remove_id d n = (d', ROk true) /\
      wf (gr d') /\
      graph_index (gr d') n = false /\ kvs_get (vals d') n = [] /\
      (forall e, In e (out_edges (gr d) n) \/ In e (in_edges (gr d) n) ->
         graph_index (gr d') e = false /\ kvs_get (vals d') e = []) /\
      (forall al, imap_key (aliases d) n = Some al -> imap_value (aliases d') al = None) /\
      (forall i, graph_index (gr d') i = true -> graph_index (gr d) i = true) /\
      node_count (gr d') = node_count (gr d) - 1.
Proof. exact remove_id_node_cascade. Qed.
Print Assumptions C08_db_cascade.

(* the same through the alias (remove_q (QAlias a)): afterwards the alias does not resolve *)
Theorem C08_db_cascade_alias :
  forall (d : db) (a : bytes) (n : Z),
    wf (gr d) -> imap_value (aliases d) a = Some n -> 0 < n -> graph_index (gr d) n = true ->
    exists d',
      remove_q d (QAlias a) = (d', ROk true) /\
      wf (gr d') /\
      graph_index (gr d') n = false /\ kvs_get (vals d') n = [] /\
      (forall e, In e (out_edges (gr d) n) \/ In e (in_edges (gr d) n) ->
         graph_index (gr d') e = false /\ kvs_get (vals d') e = []) /\
      imap_value (aliases d') a = None /\
      (forall i, graph_index (gr d') i = true -> graph_index (gr d) i = true) /\
      node_count (gr d') = node_count (gr d) - 1.
Proof.
  intros d a n Hwf Ha Hn Hgi.
  destruct (remove_node_db_cascade d n (Some a) Hwf Hn Hgi) as [d0 [d' [E [-> [H1 [H2 [H3 [H4 [H5 H6]]]]]]]]].
  exists (remove_all_values d0 n). unfold remove_q. rewrite Ha, E. split; [reflexivity|].
  split; [exact H1|]. split; [exact H2|]. split; [exact H3|]. split; [exact H4|].
  split; [apply H5; reflexivity|exact H6].
Qed.
Print Assumptions C08_db_cascade_alias.

(* removing an edge: exactly that element disappears, with its values *)
Theorem C08_db_cascade_edge :
  forall (d : db) (e : Z),
    wf (gr d) -> e < 0 -> graph_index (gr d) e = true ->
    exists d',
      remove_id d e = (d', ROk true) /\
      wf (gr d') /\
      graph_index (gr d') e = false /\ kvs_get (vals d') e = [] /\
      (forall i, graph_index (gr d') i = true <-> graph_index (gr d) i = true /\ i <> e) /\
      node_count (gr d') = node_count (gr d).
Proof. exact remove_id_edge_cascade. Qed.
Print Assumptions C08_db_cascade_edge.

(* remove_id never fails on a well-formed graph, whatever the id; DbImpl's graph mutations keep wf *)
Theorem C08_db_remove_total :
  forall (d : db) (id : Z),
    wf (gr d) -> exists d' b, remove_id d id = (d', ROk b) /\ wf (gr d') /\ graph_index (gr d') id = false.
Proof. exact remove_id_total. Qed.
Print Assumptions C08_db_remove_total.

Theorem C08_db_mutations_wf :
  forall d : db, wf (gr d) ->
    wf (gr (snd (insert_node_db d))) /\
    (forall f t i d', 0 <= f -> 0 <= t -> insert_edge_db d f t = ROk (i, d') -> wf (gr d')) /\
    (forall id, wf (gr (fst (remove_id d id)))).
Proof.
  intros d Hwf. split; [|split].
  - unfold insert_node_db. pose proof (wf_insert_node (gr d) Hwf) as H.
    destruct (insert_node (gr d)) as [i g]. exact H.
  - intros f t i d' Hf Ht E. unfold insert_edge_db in E.
    destruct (insert_edge (gr d) f t) as [[i0 g]|] eqn:E0; [|discriminate].
    injection E as <- <-. cbn [gr push_undo with_gr]. exact (wf_insert_edge (gr d) f t i0 g Hwf Hf Ht E0).
  - intros id. destruct (remove_id_total d id Hwf) as [d' [b [E [W _]]]]. rewrite E. exact W.
Qed.
Print Assumptions C08_db_mutations_wf.

(* nodes 1 2 3 (1 aliased "a"), edges 1->2 (-4), 2->1 (-5), 1->1 (-6), 2->3 (-7), values on node 1 and on
   edges -4 -6 -7; removing node 1 removes -4 -5 -6, their values and the alias; 2, 3, -7 and its value stay *)
Example C08_db_cascade_nonvacuous :
  elements (gr ex_db) = [1; 2; 3; -4; -5; -6; -7] /\
  imap_value (aliases ex_db) [x61] = Some 1 /\
  out_edges (gr ex_db) 1 = [-6; -4] /\ in_edges (gr ex_db) 1 = [-6; -5] /\
  match remove_id ex_db 1 with
  | (d', ROk true) =>
      elements (gr d') = [2; 3; -7] /\ node_count (gr d') = 2 /\
      imap_value (aliases d') [x61] = None /\
      kvs_get (vals d') 1 = [] /\ kvs_get (vals d') (-4) = [] /\ kvs_get (vals d') (-6) = [] /\
      kvs_get (vals d') (-7) = [(DI64 7, DI64 70)] /\
      out_edges (gr d') 2 = [-7] /\ in_edges (gr d') 2 = []
  | _ => False
  end.
Proof. vm_compute. repeat split; reflexivity. Qed.
Print Assumptions C08_db_cascade_nonvacuous.

(* ---- non-vacuity and the sign witness ---- *)

(* insertions, a failing edge insertion (endpoint 9 missing), an edge removal with slot reuse, removal
   of node 2 which has a self-loop, an incoming and an outgoing edge, reuse of the freed slots, parallel edges *)
Example C08_nonvacuous :
  match grun graph_new a_empty
          [GInsertNode; GInsertNode; GInsertNode; GInsertEdge 1 2; GInsertEdge 2 2; GInsertEdge 3 2;
           GInsertEdge 1 9; GRemoveEdge (-4); GInsertEdge 2 1; GRemoveNode 2; GInsertNode; GInsertEdge 2 2;
           GInsertEdge 1 2; GInsertEdge 1 2] with
  | Some (g, a) =>
      elements g = [1; 2; 3; -4; -5; -6] /\ a_nodes a = [2; 3; 1] /\
      a_edges a = [(4, (1, 2)); (5, (1, 2)); (6, (2, 2))] /\
      out_edges g 1 = [-4; -5] /\ in_edges g 2 = [-4; -5; -6] /\ out_edges g 2 = [-6] /\
      edge_count_from g 2 = 1 /\ edge_count_to g 2 = 3 /\ node_count g = 3
  | None => False
  end.
Proof. vm_compute. repeat split; reflexivity. Qed.
Print Assumptions C08_nonvacuous.

(* the raw insert_edge accepts the negated id of a node as an endpoint and then writes a slot that is
   not an edge: ids must carry the sign of their kind (DbImpl guarantees it) *)
Example C08_raw_negative_endpoint_witness :
  let g2 := snd (insert_node (snd (insert_node graph_new))) in
  match insert_edge g2 (-1) 2 with
  | Some (i, g3) => i = -3 /\ is_edge g3 (-3) = false /\ is_node g3 3 = true
  | None => False
  end.
Proof. vm_compute. repeat split; reflexivity. Qed.
Print Assumptions C08_raw_negative_endpoint_witness.

(* ---- DbImpl level, all histories -------------------------------------------------------------
   FULL STATEMENT: after EVERY history of queries and transactions from the empty database (failing
   ones and their rollback included) the graph of the database is well formed (wf), i.e. every query of
   Queries.v reaches the graph only through steps that the abstract multigraph accepts.

   PROVED (C08_db_history_wf_partial; theories/HistoryAtomicProofs.v, via the joint invariant of
   C09/C10/C11 + C13): wf (gr d) after every history of
     HQuery q            (Db::exec / exec_mut: one query as its own transaction, rolled back when it fails)
     HTxn qs fail_at_end (transaction_mut: the queries qs, then commit, or rollback when one of them fails or
                          a failure is injected at the end)
   of ALL query kinds.  Rollback is covered: every undo command reaches the graph only through
   insert_node / insert_edge / remove_edge / remove_node with the sign of the id's kind
   (C08_db_rollback_wf).  C08_db_query_wf: the state after any single query inside a transaction
   (whatever its outcome) is wf.
   MISSING for the full statement: histories containing an insert list that names a key twice
   (`item_ok` = C09's quantifier: the proof goes through the joint invariant, whose unique-keys and
   exact-index components are needed to know that the ids returned by index searches exist);
   `bounded` = the capacity stays <= 2^63 (ids fit i64; beyond it the model's unbounded slot numbers
   collide with the free-list sentinel i64::MIN, so this hypothesis is part of the model's validity). *)
From Agdb Require Import Queries Revisions DbInvProofs QueryInvProofs AliasProofs TraversalLiveProofs DbInvariantProofs
  RollbackInvProofs HistoryAtomicProofs.

Theorem C08_db_query_wf :
  forall d q, query_ok q -> Inv d -> wf (gr (fst (exec_in_txn rv_fixed d q))).
Proof.
  intros d q Hq Hd. apply (QueryInvProofs.exec_in_txn_Inv rv_fixed search_live_fixed eq_refl d q Hq Hd).
Qed.
Print Assumptions C08_db_query_wf.

Theorem C08_db_rollback_wf :
  forall d d', rollback rv_fixed d = ROk d' -> uok d -> wf (gr d) -> alias_bij d -> wf (gr d').
Proof. intros d d' H Hu Hw Hb. exact (proj1 (rollback_wf_bij rv_fixed d d' H Hu Hw Hb)). Qed.
Print Assumptions C08_db_rollback_wf.

Theorem C08_db_history_wf_partial :
  forall its, Forall item_ok its -> bounded rv_fixed db_new its -> wf (gr (run_items rv_fixed db_new its)).
Proof. exact history_wf_fixed. Qed.
Print Assumptions C08_db_history_wf_partial.
