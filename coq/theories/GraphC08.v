(* GraphC08.v — what the simulation means for an observer of the graph API (C08 / C18, graph part):
   the bundle of observations, the canonical abstraction `abs`, and the statement over all histories. *)
From Agdb Require Import Bytes Graph GraphSim GraphProofs GraphSpec GraphWf.
From Coq Require Import Sorted Permutation FinFun.
From Coq Require Import ZifyBool ZifyNat ZifyN.
Ltac Zify.zify_post_hook ::= Z.div_mod_to_equations.
Open Scope Z_scope.

(* everything observable agrees with the abstract multigraph *)

Definition observations_agree (g : graph) (a : agraph) : Prop :=
  node_count g = Z.of_nat (length (a_nodes a)) /\
  (forall i, graph_index g i = true <-> (0 < i /\ In i (a_nodes a)) \/ (i < 0 /\ In i (a_edge_ids a))) /\
  (forall i, In i (elements g) <-> In i (a_nodes a) \/ In i (a_edge_ids a)) /\
  (forall n, In n (a_nodes a) ->
     out_edges g n = a_out a n /\ edge_count_from g n = Z.of_nat (length (a_out a n)) /\
     in_edges g n = a_in a n /\ edge_count_to g n = Z.of_nat (length (a_in a n))) /\
  (forall x, In x (a_edges a) -> edge_from g (- eslot x) = esrc x /\ edge_to g (- eslot x) = etgt x).

Definition agraph_ok (a : agraph) : Prop :=
  NoDup (a_nodes a) /\ (forall n, In n (a_nodes a) -> 0 < n) /\
  NoDup (a_edge_ids a) /\ (forall e, In e (a_edge_ids a) -> e < 0) /\
  (forall n, In n (a_nodes a) -> ~ In (- n) (a_edge_ids a)) /\
  (forall x, In x (a_edges a) -> In (esrc x) (a_nodes a) /\ In (etgt x) (a_nodes a)).

Lemma in_edge_ids a i : In i (a_edge_ids a) <-> In (- i) (map eslot (a_edges a)).
Proof.
  unfold a_edge_ids. rewrite !in_map_iff. split; intros [x [Hx H]]; exists x; split; auto; lia.
Qed.

Lemma sim_observations g a fl : sim g a fl -> observations_agree g a /\ agraph_ok a.
Proof.
  intros HS. split.
  - split; [apply (sim_node_count _ _ _ HS)|]. split.
    { intros i. rewrite (sim_graph_index _ _ _ HS), in_edge_ids. reflexivity. }
    split; [intros i; apply (sim_elements _ _ _ i HS)|]. split.
    { intros n Hn. destruct (sim_out_edges _ _ _ HS n Hn). destruct (sim_in_edges _ _ _ HS n Hn). auto. }
    intros x Hx. apply (sim_edge_ends _ _ _ HS x Hx).
  - split; [apply (sim_nodes_nodup _ _ _ HS)|]. split.
    { intros n Hn. apply (sim_nodes_pos _ _ _ HS n Hn). }
    split.
    { unfold a_edge_ids. rewrite <- (map_map eslot Z.opp).
      apply Injective_map_NoDup; [intros x y; lia|]. apply (sim_edges_nodup _ _ _ HS). }
    split.
    { intros e He. unfold a_edge_ids in He. apply in_map_iff in He. destruct He as [x [<- Hx]].
      pose proof (sim_edges_pos _ _ _ HS x Hx). lia. }
    split.
    { intros n Hn Hi. apply in_edge_ids in Hi. rewrite Z.opp_involutive in Hi.
      apply (sim_disjoint _ _ _ HS n Hn Hi). }
    intros x Hx. apply (sim_ends _ _ _ HS x Hx).
Qed.

(* the canonical abstraction: what can be recovered from the arrays alone *)

Definition abs_nodes (g : graph) : list Z := filter (fun i => 0 <? i) (elements g).
Definition abs_edges (g : graph) : list aedge :=
  map (fun e => (- e, (edge_from g e, edge_to g e))) (filter (fun i => i <? 0) (elements g)).
(* nodes and edges in slot order; the out-/in-lists are out_edges g / in_edges g themselves *)
Definition abs (g : graph) : agraph := {| a_nodes := abs_nodes g; a_edges := abs_edges g |}.

(* any abstract graph that simulates g has the same nodes and edges as `abs g` (as sets; the
   per-node order is fixed by sim_observations: a_out a n = out_edges g n) *)
Lemma sim_abs g a fl :
  sim g a fl -> Permutation (a_nodes a) (abs_nodes g) /\ Permutation (a_edges a) (abs_edges g).
Proof.
  intros HS. split.
  - apply NoDup_Permutation.
    + apply (sim_nodes_nodup _ _ _ HS).
    + apply NoDup_filter, elements_nodup.
    + intros i. unfold abs_nodes. rewrite filter_In, (sim_elements _ _ _ i HS). split.
      * intros Hi. pose proof (sim_nodes_pos _ _ _ HS i Hi). split; [left; assumption|lia].
      * intros [[Hi|Hi] Hp]; [assumption|].
        unfold a_edge_ids in Hi. apply in_map_iff in Hi. destruct Hi as [x [<- Hx]].
        pose proof (sim_edges_pos _ _ _ HS x Hx). lia.
  - apply NoDup_Permutation.
    + apply (NoDup_map_inv eslot). apply (sim_edges_nodup _ _ _ HS).
    + unfold abs_edges. apply Injective_map_NoDup.
      * intros x y H. injection H. lia.
      * apply NoDup_filter, elements_nodup.
    + intros x. unfold abs_edges. rewrite in_map_iff. split.
      * intros Hx. exists (- eslot x). pose proof (sim_edges_pos _ _ _ HS x Hx).
        destruct (sim_edge_ends _ _ _ HS x Hx) as [-> ->]. rewrite Z.opp_involutive.
        split; [destruct x as [s [f t]]; reflexivity|].
        apply filter_In. split; [|lia]. apply (sim_elements _ _ _ _ HS). right.
        unfold a_edge_ids. apply in_map_iff. exists x. auto.
      * intros [e [<- He]]. apply filter_In in He. destruct He as [He Hn].
        apply (sim_elements _ _ _ _ HS) in He. destruct He as [He|He].
        { pose proof (sim_nodes_pos _ _ _ HS e He). lia. }
        unfold a_edge_ids in He. apply in_map_iff in He. destruct He as [x [<- Hx]].
        destruct (sim_edge_ends _ _ _ HS x Hx) as [-> ->]. rewrite Z.opp_involutive.
        destruct x as [s [f t]]. exact Hx.
Qed.

(* histories: the final graph is observably the abstract multigraph *)

Theorem history_refines ops :
  Forall gop_ok ops ->
  exists g a, grun graph_new a_empty ops = Some (g, a) /\ wf g /\ observations_agree g a /\ agraph_ok a.
Proof.
  intros H. destruct (grun_new ops H) as [g [a [fl [E HS]]]].
  exists g, a. split; [exact E|]. split; [exists a, fl; exact HS|]. apply (sim_observations g a fl HS).
Qed.

Lemma wf_adjacency g n :
  wf g -> 0 < n -> is_node g n = true ->
  (NoDup (out_edges g n) /\
   (forall e, In e (out_edges g n) <-> e < 0 /\ is_edge g e = true /\ edge_from g e = n) /\
   edge_count_from g n = Z.of_nat (length (out_edges g n))) /\
  (NoDup (in_edges g n) /\
   (forall e, In e (in_edges g n) <-> e < 0 /\ is_edge g e = true /\ edge_to g e = n) /\
   edge_count_to g n = Z.of_nat (length (in_edges g n))).
Proof. intros H Hn Hi. split; [exact (wf_out_edges g n H Hn Hi)|exact (wf_in_edges g n H Hn Hi)]. Qed.

Lemma new_wf : sim graph_new a_empty [] /\ wf graph_new.
Proof. split; [exact sim_new|exact wf_new]. Qed.
