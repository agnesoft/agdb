(* IndexExample.v — a concrete history for C11 (non-vacuity): data inserted before the index is
   created, a replacement, a removed element. *)
From Agdb Require Import Bytes DbValue Graph DbModel Search Queries Revisions QStepProofs
  KvProofs KvDbProofs IndexProofs IndexDbProofs IndexDb3Proofs IndexDb4Proofs IndexInvProofs.
Open Scope Z_scope.

Definition c11_key : dbvalue := DString [x6b].
Definition c11_search (v : dbvalue) : search_query :=
  {| s_algorithm := AIndex; s_origin := QId 0; s_destination := QId 0; s_limit := 0; s_offset := 0;
     s_order_by := []; s_conditions := [Cond LAnd MNone (CKeyValue c11_key CEqual v)] |}.

Definition c11_history : list query :=
  [InsertNodes 3 (Multi [[(c11_key, DI64 1)]; [(c11_key, DI64 2)]; [(c11_key, DI64 1)]]) [] (Ids []);
   InsertIndex c11_key;
   InsertValues (Ids [QId 2]) (Single [(c11_key, DI64 1)]);
   Remove (Ids [QId 1])].

