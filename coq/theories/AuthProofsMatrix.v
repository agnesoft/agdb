(* AuthProofsMatrix.v — the scenario, requests and sequences on which C24 evaluates the documented
   permission matrix as a finite table. *)
From Agdb Require Import Bytes Auth.
Open Scope N_scope.

(* scenario: server admin 0; user 1 owns database (1, 10); 2 is db admin, 3 writer, 4 and 6 readers,
   5 has no role; everybody holds a live token whose id is the user's number *)
Definition mx_state : state :=
  mkState 0 3600
    [(0, 1); (1, 101); (2, 102); (3, 103); (4, 104); (5, 105); (6, 106)]
    [mkTok 0 0 1000; mkTok 1 1 1000; mkTok 2 2 1000; mkTok 3 3 1000; mkTok 4 4 1000; mkTok 5 5 1000; mkTok 6 6 1000] 7
    [mkDb 1 10 KMapped [(1, RoAdmin); (2, RoAdmin); (3, RoWrite); (4, RoRead); (6, RoRead)]
          (mkContent [Some 7] false) [] (Some (empty_content, []))]
    [].

Definition caller_of (h : holds) : N :=
  match h with HOwner => 1 | HAdmin => 2 | HWrite => 3 | HRead => 4 | HNone => 5 end.

(* a representative request per endpoint: generic arguments (fresh target names, a third user) *)
Definition rep (t : optag) : N * dbop :=
  match t with
  | TAdd => (11, OAdd KMapped)           (* a database that does not exist yet, in user 1's name space *)
  | TAudit => (10, OAudit)
  | TBackup => (10, OBackup)
  | TClear => (10, OClear ResAll)
  | TConvert => (10, OConvert KFile)
  | TCopy => (10, OCopy 0 12)
  | TDelete => (10, ODelete)
  | TExec => (10, OExec [QCount; QSelect [QId 1]])
  | TExecMut => (10, OExecMut [QInsertNode 5])
  | TOptimize => (10, OOptimize)
  | TRemove => (10, ORemove)
  | TRename => (10, ORename 0 12)
  | TRestore => (10, ORestore)
  | TRollback => (10, ORollback)
  | TUserAdd => (10, OUserAdd 5 RoWrite)
  | TUserList => (10, OUserList)
  | TUserRemove => (10, OUserRemove 6)   (* a third user, not the caller *)
  end.

(* does `authorize` let the scenario's caller holding h through on the representative request of endpoint t *)
Definition matrix_cell (t : optag) (h : holds) : bool :=
  is_allow (authorize mx_state 0 (Some (caller_of h)) (ReqDb 1 (fst (rep t)) (snd (rep t)))).

Lemma scenario_tags : forall t, tag_of (snd (rep t)) = t.
Proof. destruct t; reflexivity. Qed.

(* one request per admin endpoint (C24_admin_matrix: refused to every caller of the scenario but the
   server admin) *)
Definition admin_reqs : list request :=
  [ ReqAdminDbList; ReqAdminUserList; ReqAdminStatus; ReqAdminUserLogoutAll;
    ReqAdminUserAdd 8 108; ReqAdminUserChangePassword 3 203; ReqAdminUserDelete 5;
    ReqAdminUserLogout 3 LoAll; ReqAdminUserLogout 3 (LoSession 3);
    ReqAdminDb 1 11 (OAdd KMapped); ReqAdminDb 1 10 OAudit; ReqAdminDb 1 10 OBackup; ReqAdminDb 1 10 (OClear ResDb);
    ReqAdminDb 1 10 (OConvert KFile); ReqAdminDb 1 10 (OCopy 2 12); ReqAdminDb 1 10 ODelete;
    ReqAdminDb 1 10 (OExec [QCount]); ReqAdminDb 1 10 (OExecMut [QInsertNode 5]); ReqAdminDb 1 10 OOptimize;
    ReqAdminDb 1 10 ORemove; ReqAdminDb 1 10 (ORename 2 12); ReqAdminDb 1 10 ORestore; ReqAdminDb 1 10 ORollback;
    ReqAdminDb 1 10 (OUserAdd 5 RoRead); ReqAdminDb 1 10 OUserList; ReqAdminDb 1 10 (OUserRemove 4) ].

(* a reader, a user without role and a missing token issue requests (some succeed: reads, a copy, a
   self-removal) *)
Definition weak_trace : list event :=
  [ (0, Some 4, ReqDb 1 10 (OExec [QCount]));
    (0, Some 4, ReqDb 1 10 (OExecMut [QInsertNode 9]));
    (0, Some 4, ReqDb 1 10 (OCopy 0 12));
    (0, Some 5, ReqDb 1 10 ODelete);
    (0, None, ReqDb 1 10 (OClear ResAll));
    (0, Some 4, ReqDb 1 10 (OUserRemove 4));
    (0, Some 4, ReqDb 1 10 (OExec [QCount]));
    (0, Some 5, ReqAdminDb 1 10 ODelete) ].
