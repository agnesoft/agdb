(* C18 — Elements search visits every existing element once in id-slot order.
   The statements, each proved in a few lines from the theorems of theories/ElementsSearchProofs.v,
   SliceProofs.v (search part)
   and theories/GraphSpec.v, ElementsGraphProofs.v (graph part, at the end of this file).

   SEARCH PART.  The elements search (graph_search/element_search.rs, model:
   Search.elements_search) walks the list `elements (gr d)` from the front; the
   "distance" handed to the conditions is the position of the element in that list
   (`graph.iter().enumerate()`), starting at 0.  Definitions used below
   (theories/ElementsSearchProofs.v):

     sc_nofinish c  :=  match c with Finish _ => False | _ => True end
     ifilter p els k :=  the positional filter: keeps element i at position n of els
                         iff p i (k + n) = true     (C18_ifilter_def, C18_ifilter_In)
     sublist l1 l2  :=  l1 is an order-preserving sub-sequence of l2 (inductive: nil / skip / keep)
     zslice limit offset l := skip `offset`, then take `limit` (0 = no limit)   (C18_zslice_def) *)
From Agdb Require Import Bytes Graph DbModel Search ElementsSearchProofs SliceProofs.
From Coq Require Import Sorted.
Open Scope Z_scope.

(* ---- conditions never finish a search: only the limit handlers do ---- *)

Theorem C18_eval_data_nofinish :
  forall (rv : revision) (d : db) (index distance : Z) (c : cond_data),
    sc_nofinish (eval_data rv d index distance c).
Proof. exact eval_data_nofinish. Qed.
Print Assumptions C18_eval_data_nofinish.

Theorem C18_conditions_never_finish :
  forall (rv : revision) (d : db) (index distance : Z) (conds : list cond) (b : bool),
    eval_conditions rv d index distance conds <> Finish b.
Proof. exact eval_conditions_not_finish. Qed.
Print Assumptions C18_conditions_never_finish.

(* ---- the positional filter ---- *)

Theorem C18_ifilter_def :
  forall p : Z -> Z -> bool,
    (forall k, ifilter p [] k = []) /\
    (forall i r k, ifilter p (i :: r) k = if p i k then i :: ifilter p r (k + 1) else ifilter p r (k + 1)).
Proof. intro p. split; reflexivity. Qed.
Print Assumptions C18_ifilter_def.

(* With the default handler (no limit, no offset) the elements search examines every
   element of `elements (gr d)` exactly once, front to back, and returns exactly those
   the conditions accept — for every revision, every database and every condition list. *)
Theorem C18_elements_search_is_filter :
  forall (rv : revision) (d : db) (conds : list cond),
    elements_search rv d conds HDefault =
    ifilter (fun i k => sc_true (eval_conditions rv d i k conds)) (elements (gr d)) 0.
Proof. exact elements_search_default. Qed.
Print Assumptions C18_elements_search_is_filter.

(* exact membership: the element at position n is returned iff accepted at distance k + n *)
Theorem C18_ifilter_In :
  forall (p : Z -> Z -> bool) (els : list Z) (k i : Z),
    In i (ifilter p els k) <->
    exists n : nat, nth_error els n = Some i /\ p i (k + Z.of_nat n) = true.
Proof. exact ifilter_In. Qed.
Print Assumptions C18_ifilter_In.

(* nothing but listed elements is returned (so never a removed element, given the graph part) *)
Theorem C18_ifilter_incl :
  forall (p : Z -> Z -> bool) (els : list Z) (k i : Z), In i (ifilter p els k) -> In i els.
Proof. exact ifilter_incl. Qed.
Print Assumptions C18_ifilter_incl.

(* the result is an order-preserving sub-sequence of the element list *)
Theorem C18_ifilter_sublist :
  forall (p : Z -> Z -> bool) (els : list Z) (k : Z), sublist (ifilter p els k) els.
Proof. exact ifilter_sublist. Qed.
Print Assumptions C18_ifilter_sublist.

Theorem C18_ifilter_mask :
  forall (p : Z -> Z -> bool) (els : list Z) (k : Z),
    exists bs : list bool,
      length bs = length els /\ ifilter p els k = map fst (filter snd (combine els bs)).
Proof.
  intros p els. induction els as [|i r IH]; intro k; cbn [ifilter].
  - exists []. split; reflexivity.
  - destruct (IH (k + 1)) as [bs [Hlen Heq]]. exists (p i k :: bs). split.
    + cbn [length]. rewrite Hlen. reflexivity.
    + cbn [combine filter snd]. destruct (p i k); cbn [map fst]; rewrite Heq; reflexivity.
Qed.
Print Assumptions C18_ifilter_mask.

(* each element at most once when the element list has no duplicates *)
Theorem C18_ifilter_NoDup :
  forall (p : Z -> Z -> bool) (els : list Z) (k : Z), NoDup els -> NoDup (ifilter p els k).
Proof. exact ifilter_NoDup. Qed.
Print Assumptions C18_ifilter_NoDup.

(* when the predicate ignores the distance the result is a plain filter *)
Theorem C18_ifilter_const :
  forall (p : Z -> Z -> bool) (els : list Z) (k : Z),
    (forall i k k', In i els -> p i k = p i k') ->
    ifilter p els k = filter (fun i => p i 0) els.
Proof.
  intros p els. induction els as [|i r IH]; intros k H; cbn [ifilter filter].
  - reflexivity.
  - rewrite (H i k 0 (or_introl eq_refl)), (IH (k + 1)); [reflexivity|].
    intros i' j j' Hin. apply H. right. exact Hin.
Qed.
Print Assumptions C18_ifilter_const.

(* sub-sequences inherit membership, duplicate-freeness and any (strong) sortedness —
   to be combined with the graph part: `elements g` is strictly increasing in |id| *)
Theorem C18_sublist_In :
  forall (A : Type) (l1 l2 : list A), sublist l1 l2 -> forall x, In x l1 -> In x l2.
Proof. exact sublist_In. Qed.
Print Assumptions C18_sublist_In.

Theorem C18_sublist_NoDup :
  forall (A : Type) (l1 l2 : list A), sublist l1 l2 -> NoDup l2 -> NoDup l1.
Proof. exact sublist_NoDup. Qed.
Print Assumptions C18_sublist_NoDup.

Theorem C18_sublist_StronglySorted :
  forall (A : Type) (R : A -> A -> Prop) (l1 l2 : list A),
    sublist l1 l2 -> StronglySorted R l2 -> StronglySorted R l1.
Proof. exact sublist_StronglySorted. Qed.
Print Assumptions C18_sublist_StronglySorted.

(* ---- the query level (SearchQuery::search with the Elements algorithm) ---- *)

Theorem C18_search_elements_plain :
  forall (rv : revision) (d : db) (s : search_query),
    s_algorithm s = AElements -> s_limit s = 0 -> s_offset s = 0 -> s_order_by s = [] ->
    search rv d s =
    SOk (ifilter (fun i k => sc_true (eval_conditions rv d i k (s_conditions s))) (elements (gr d)) 0).
Proof.
  intros rv d s Halg Hlim Hoff Hord. unfold search.
  rewrite Halg, Hlim, Hoff, Hord. cbn [handler_of Z.eqb andb].
  rewrite elements_search_default. reflexivity.
Qed.
Print Assumptions C18_search_elements_plain.

Theorem C18_zslice_def :
  forall (limit offset : Z) (l : list Z),
    zslice limit offset l =
    if limit =? 0 then skipn (Z.to_nat offset) l else firstn (Z.to_nat limit) (skipn (Z.to_nat offset) l).
Proof. reflexivity. Qed.
Print Assumptions C18_zslice_def.

(* limit/offset without order_by are applied on the fly by the Limit/Offset/LimitOffset
   handlers; the streamed result is the slice of the filtered list (limit and offset are u64
   in the code, hence non-negative) *)
Theorem C18_elements_search_limit_offset :
  forall (rv : revision) (d : db) (conds : list cond) (limit offset : Z),
    0 <= limit -> 0 <= offset ->
    elements_search rv d conds (handler_of limit offset) =
    zslice limit offset
      (ifilter (fun i k => sc_true (eval_conditions rv d i k conds)) (elements (gr d)) 0).
Proof.
  intros rv d conds limit offset Hl Ho.
  rewrite (elements_stream_clip rv d conds limit offset Hl Ho), elements_search_default. apply clip_zslice.
Qed.
Print Assumptions C18_elements_search_limit_offset.

Theorem C18_search_elements_unordered :
  forall (rv : revision) (d : db) (s : search_query),
    s_algorithm s = AElements -> s_order_by s = [] -> 0 <= s_limit s -> 0 <= s_offset s ->
    search rv d s =
    SOk (zslice (s_limit s) (s_offset s)
           (ifilter (fun i k => sc_true (eval_conditions rv d i k (s_conditions s))) (elements (gr d)) 0)).
Proof.
  intros rv d s Halg Hord Hl Ho. unfold search. rewrite Halg, Hord.
  rewrite (elements_stream_clip rv d _ _ _ Hl Ho), elements_search_default, clip_zslice. reflexivity.
Qed.
Print Assumptions C18_search_elements_unordered.

(* with order_by: the whole filtered list is sorted (stable) and then sliced eagerly *)
Theorem C18_search_elements_ordered :
  forall (rv : revision) (d : db) (s : search_query),
    s_algorithm s = AElements -> s_order_by s <> [] ->
    search rv d s =
    slice_ids rv (s_limit s) (s_offset s)
      (stable_sort (order_cmp d (s_order_by s))
         (ifilter (fun i k => sc_true (eval_conditions rv d i k (s_conditions s))) (elements (gr d)) 0)).
Proof.
  intros rv d s Halg Hord. unfold search. rewrite Halg.
  destruct (s_order_by s) as [|o os] eqn:E; [contradiction|].
  rewrite elements_search_default. reflexivity.
Qed.
Print Assumptions C18_search_elements_ordered.

(* the eager slice (with the clamp fix of SearchQuery::slice) is the same slice function *)
Theorem C18_slice_ids_is_zslice :
  forall (rv : revision) (limit offset : Z) (ids : list Z),
    fix_slice_clamp rv = true -> 0 <= limit -> 0 <= offset ->
    slice_ids rv limit offset ids = SOk (zslice limit offset ids).
Proof. intros rv limit offset ids Hfix _ _. rewrite (slice_ids_clip rv limit offset ids Hfix), clip_zslice. reflexivity. Qed.
Print Assumptions C18_slice_ids_is_zslice.

(* ---- non-vacuity: a concrete history with a removal and slot reuse ----
   nodes 1 2 3, edges 1->2 (-4), 2->3 (-5), 3->3 (-6); node 2 is removed (edges -4 -5 go with
   it) and a new node reuses slot 2.  The conditions `distance < 2 or edge` keep 1 and 2 (by
   position), drop 3, keep -6; with limit 1 offset 1 the result is [2]; `edge_count > 1` keeps only
   node 3 (its self-loop counts on both sides).
   ex_node d = snd (insert_node_db d);  ex_edge d f t = the db after insert_edge_db d f t;
   ex_remove d id = fst (remove_id d id);  ex_query limit offset conds = the Elements query. *)
Example C18_nonvacuous :
  let d0 := ex_remove (ex_edge (ex_edge (ex_edge (ex_node (ex_node (ex_node db_new))) 1 2) 2 3) 3 3) 2 in
  let d := ex_node d0 in
  let conds := [Cond LAnd MNone (CDistance (KLessThan 2)); Cond LOr MNone CEdge] in
  elements (gr d0) = [1; 3; -6] /\
  elements (gr d) = [1; 2; 3; -6] /\
  forall rv,
    search rv d (ex_query 0 0 conds) = SOk [1; 2; -6] /\
    search rv d (ex_query 0 0 []) = SOk [1; 2; 3; -6] /\
    search rv d (ex_query 1 1 conds) = SOk [2] /\
    search rv d (ex_query 0 0 [Cond LAnd MNone (CEdgeCount (KGreaterThan 1))]) = SOk [3].
Proof. vm_compute. repeat split; reflexivity. Qed.
Print Assumptions C18_nonvacuous.

(* GRAPH PART (theories/GraphSpec.v, ElementsGraphProofs.v, GraphC08.v).
   `elements g` is the model of GraphIterator / next_element.  "existing element" is
   `graph_index g i = true` (DbImpl::graph_index: the sign of the id selects the node / edge check).
   The first six statements hold for EVERY graph value, by the definition of the iteration alone;
   C18_elements_abstract ties them to the abstract multigraph of C08 on every reachable graph. *)
From Agdb Require Import GraphSim GraphSpec ElementsGraphProofs.

(* exactly the existing nodes and edges, with the sign of their kind *)
Theorem C18_elements_exact :
  forall (g : graph) (i : Z), In i (elements g) <-> graph_index g i = true.
Proof. exact elements_in. Qed.
Print Assumptions C18_elements_exact.

(* in strictly increasing magnitude of the ids (= slot order), hence each once *)
Theorem C18_elements_sorted :
  forall g : graph, StronglySorted (fun x y => Z.abs x < Z.abs y) (elements g).
Proof. exact elements_sorted. Qed.
Print Assumptions C18_elements_sorted.

Theorem C18_elements_nodup : forall g : graph, NoDup (elements g).
Proof. exact elements_nodup. Qed.
Print Assumptions C18_elements_nodup.

(* every existing element is visited at exactly one position, earlier positions have smaller |id| *)
Theorem C18_elements_once :
  forall (g : graph) (i : Z), graph_index g i = true ->
    exists n, nth_error (elements g) n = Some i /\ forall m, nth_error (elements g) m = Some i -> m = n.
Proof.
  intros g i H. apply elements_in in H. apply In_nth_error in H. destruct H as [n Hn].
  exists n. split; [assumption|]. intros m Hm.
  pose proof (elements_nodup g) as Hnd. rewrite NoDup_nth_error in Hnd.
  apply Hnd; [|congruence]. apply nth_error_Some. congruence.
Qed.
Print Assumptions C18_elements_once.

Theorem C18_elements_order :
  forall (g : graph) (n m : nat) (x y : Z),
    (n < m)%nat -> nth_error (elements g) n = Some x -> nth_error (elements g) m = Some y -> Z.abs x < Z.abs y.
Proof. intros. eapply (sorted_nth abs_lt); eauto using elements_sorted. Qed.
Print Assumptions C18_elements_order.

(* never a freed slot (from_meta < 0), never slot 0 or a slot beyond the arrays; nodes positive, edges negative *)
Theorem C18_elements_not_freed :
  forall (g : graph) (i : Z), In i (elements g) ->
    (0 <= fmeta g i /\ i <> 0 /\ Z.abs i < capacity g) /\
    ((0 < i /\ is_node g i = true) \/ (i < 0 /\ is_edge g i = true)).
Proof. intros g i H. split; [exact (elements_not_freed g i H)|exact (elements_sign g i H)]. Qed.
Print Assumptions C18_elements_not_freed.

(* on every graph related to an abstract multigraph (C08: every graph reachable by a history of
   insertions and removals): exactly the abstract nodes and the abstract edge ids *)
Theorem C18_elements_abstract :
  forall g a fl i, sim g a fl -> (In i (elements g) <-> In i (a_nodes a) \/ In i (a_edge_ids a)).
Proof. exact sim_elements. Qed.
Print Assumptions C18_elements_abstract.

(* the elements search (default handler): element i at position n is returned iff the conditions
   accept it at distance n; the result is an order-preserving selection of the iteration, hence in
   strictly increasing |id|, duplicate-free, and consists of existing elements only *)
Theorem C18_elements_search_result :
  forall (rv : revision) (d : db) (conds : list cond),
    let r := elements_search rv d conds HDefault in
    (forall i, In i r <-> exists n, nth_error (elements (gr d)) n = Some i /\
                                    sc_true (eval_conditions rv d i (Z.of_nat n) conds) = true) /\
    sublist r (elements (gr d)) /\
    StronglySorted (fun x y => Z.abs x < Z.abs y) r /\ NoDup r /\
    (forall i, In i r -> graph_index (gr d) i = true).
Proof.
  intros rv d conds r. unfold r. rewrite elements_search_default.
  split; [|split; [|split; [|split]]].
  - intros i. rewrite ifilter_In. cbn [Z.add]. reflexivity.
  - apply ifilter_sublist.
  - eapply sublist_StronglySorted; [apply ifilter_sublist|apply elements_sorted].
  - apply ifilter_NoDup, elements_nodup.
  - intros i Hi. apply elements_in. eapply ifilter_incl. eassumption.
Qed.
Print Assumptions C18_elements_search_result.

(* with any handler (limit / offset): only existing elements are ever returned — in particular
   never a removed one (C08_db_cascade: a removed element is no longer `graph_index`) *)
Theorem C18_elements_search_existing :
  forall (rv : revision) (d : db) (conds : list cond) (h : handler_kind) (i : Z),
    In i (elements_search rv d conds h) -> graph_index (gr d) i = true.
Proof. exact elements_search_existing. Qed.
Print Assumptions C18_elements_search_existing.
