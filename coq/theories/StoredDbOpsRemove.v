(* StoredDbOpsRemove.v — proofs (stored database): the removal of an EDGE, or of a NODE without edges and alias, through the
   public API (DbImpl::remove_id: graph.remove_edge / graph.remove_node, then remove_all_values = DbKeyValues::remove; none of
   the element's keys indexed) as the program so_q_remove (inside transaction_mut's storage transaction) keeps the database
   stored and computes DbModel's remove_edge_db / remove_node_db followed by remove_all_values; only the removed element's
   slot of the slot vector is freed. *)
From Coq Require Import Permutation.
From Agdb Require Import Bytes DbValue Graph DbModel StorageSpec Collections CollWp CollVecBase StoredDbRep StoredDbProofs StoredDbOps
  StoredDbOpsGraph StoredDbOpsGraph4 StoredDbOpsDb StoredDbOpsKv StoredDbOpsKv4 StoredDbOpsDb2 StoredDbOpsQuery.
From Coq Require Import ZifyBool ZifyNat ZifyN.
Ltac Zify.zify_post_hook ::= Z.div_mod_to_equations.
Open Scope N_scope.

(* remove_all_values when none of the element's keys is indexed: only the values (and the undo stack) change *)
Lemma remove_all_values_fold id : forall (l : list kv) (d : db),
  (forall x, In x l -> idx_find (indexes d) (fst x) = None) ->
  let d1 := fold_left (fun acc (x : kv) => push_undo (index_remove_if acc (fst x) (snd x) id) (CInsertKeyValue id x)) l d in
  gr d1 = gr d /\ aliases d1 = aliases d /\ vals d1 = vals d /\ indexes d1 = indexes d.
Proof.
  induction l as [|x t IH]; intros d Hn; cbn [fold_left]; [repeat split|].
  assert (E : indexes (push_undo (index_remove_if d (fst x) (snd x) id) (CInsertKeyValue id x)) = indexes d).
  { unfold index_remove_if, idx_remove_id. cbn [push_undo with_indexes indexes]. apply idx_update_not_indexed. apply Hn. left. reflexivity. }
  destruct (IH (push_undo (index_remove_if d (fst x) (snd x) id) (CInsertKeyValue id x))) as (E1 & E2 & E3 & E4).
  { intros y Hy. rewrite E. apply Hn. right. exact Hy. }
  cbn zeta in *. rewrite E1, E2, E3, E4. unfold index_remove_if. cbn [push_undo with_indexes gr aliases vals]. repeat split. exact E.
Qed.

Lemma remove_all_values_fields d id :
  (forall x, In x (kvs_get (vals d) id) -> idx_find (indexes d) (fst x) = None) ->
  gr (remove_all_values d id) = gr d /\ aliases (remove_all_values d id) = aliases d /\
  vals (remove_all_values d id) = kvs_remove (vals d) id /\ indexes (remove_all_values d id) = indexes d.
Proof.
  intros Hn. unfold remove_all_values. destruct (remove_all_values_fold id (kvs_get (vals d) id) d Hn) as (E1 & E2 & E3 & E4).
  cbn zeta in *. cbn [with_vals gr aliases vals indexes]. rewrite E3. repeat split; assumption.
Qed.

Lemma edge_list_zero next fuel : edge_list next fuel 0 = [].
Proof. destruct fuel; reflexivity. Qed.

Lemma node_edges_isolated d n : from (gr d) n = 0%Z -> to (gr d) n = 0%Z -> node_edges d n = [].
Proof.
  intros Ef Et. unfold node_edges, out_edges, in_edges, first_edge_from, first_edge_to. rewrite Ef, Et.
  change (- 0)%Z with 0%Z. rewrite !edge_list_zero. reflexivity.
Qed.

(* the removal of a node without edges in DbModel *)
Lemma remove_isolated_node_db d n G' :
  is_node (gr d) n = true -> from (gr d) n = 0%Z -> to (gr d) n = 0%Z -> remove_node (gr d) n = Some G' ->
  remove_node_db d n None = (push_undo (with_gr d G') CInsertNode, None).
Proof.
  intros Nn Ef Et EG. unfold remove_node_db. rewrite Nn. cbn [negb]. rewrite (node_edges_isolated d n Ef Et). cbn [fold_left].
  rewrite EG. reflexivity.
Qed.

Section Remove.
  Variable fl : bool.

  (* DbImpl::remove_all_values = DbKeyValues::remove, none of the element's keys indexed: every allocated slot but the
     element's stays allocated *)
  Lemma so_remove_all_values_stored' root d w vh id sp (Q : cres cv_vec -> spec -> Prop) :
    stored_db_w (hp sp) root d w -> vh = sw_vh w -> so_slot_valid (sw_vi w) (zabs_nat id) ->
    (forall x, In x (kvs_get (vals d) id) -> idx_find (indexes d) (fst x) = None) ->
    (forall vh' vs' vi' vw' sp',
        stored_db_w (hp sp') root (remove_all_values d id) (sd_with_values w vh' vs' vi' vw') -> sdepth sp' = sdepth sp ->
        frame (hp sp) (hp sp') (sd_foot root w) (sd_foot root (sd_with_values w vh' vs' vi' vw')) ->
        slot_keep_but (zabs_nat id) (sw_vi w) vi' -> Q (CrOk vh') sp') ->
    cwp fl (so_kv_remove vh (cg_as_u64 id)) sp Q.
  Proof.
    intros H -> Hslot Hnix HQ.
    eapply so_kv_remove_spec; [exact (stored_kvrep _ _ _ _ H)|rewrite zabs_as_u64; exact Hslot|].
    rewrite zabs_as_u64, <- kvs_remove_model. intros vh2 vs2 vi2 vw2 sp2 HK I2 D2 F2 K2.
    destruct (remove_all_values_fields d id Hnix) as (E1 & E2 & E3 & E4).
    destruct (stored_values_update _ _ root d (remove_all_values d id) w vh2 vs2 vi2 vw2 _ H I2 HK F2 E1 E2 E3 E4) as [H2 Fr2].
    eapply HQ; eassumption.
  Qed.

  (* remove ids e for an edge *)
  Theorem so_q_remove_edge_stored' root d w h e sp :
    stored_db_w (hp sp) root d w -> so_handles h w -> (e < 0)%Z ->
    so_graph_ok (gr d) -> so_remove_edge_ok (gr d) e ->
    so_slot_valid (sw_vi w) (zabs_nat e) ->
    (forall x, In x (kvs_get (vals d) e) -> idx_find (indexes d) (fst x) = None) ->
    cwp fl (so_q_remove h e) sp
        (fun r sp' => exists G', Graph.remove_edge (gr d) e = Some G' /\
           so_spost root w sp (remove_all_values (fst (remove_edge_db d e)) e) (fun h' => h') (slot_keep_but (zabs_nat e)) r sp').
  Proof.
    intros H Hh He OK Hrm Hslot Hnix. unfold so_q_remove.
    apply cwp_bind. eapply so_begin; [exact H|]. intros sp0 H0 D0 F0. cbn [kont].
    destruct (Z.ltb_spec e 0) as [_|X]; [|lia].
    apply cwp_bind. eapply so_remove_edge_stored; [exact H0|exact Hh|exact OK|exact Hrm|].
    intros G' EG s1 sp1 H1 D1 F1. cbn [kont].
    apply (stored_db_w_same _ _ _ (fst (remove_edge_db d e))) in H1; [|unfold remove_edge_db; rewrite EG; reflexivity..].
    apply cwp_bind. eapply so_remove_all_values_stored'; [exact H1|exact (proj2 Hh)|exact Hslot| |].
    { unfold remove_edge_db. rewrite EG. exact Hnix. }
    intros vh2 vs2 vi2 vw2 sp2 H2 D2 F2 K2. cbn [kont].
    eapply cwp_mono; [intros r sp' X; exists G'; exact (conj EG X)|].
    apply (so_commit fl root w sp _ (fun h' => h') _ (so_with_values h vh2) _ sp2 H2); [split; [exact (proj1 Hh)|reflexivity]|lia| |exact K2].
    eapply frame_trans; [exact F0|]. eapply frame_trans; [exact F1|exact F2].
  Qed.

  Theorem so_q_remove_edge_stored root d w h e sp :
    stored_db_w (hp sp) root d w -> so_handles h w -> (e < 0)%Z ->
    so_graph_ok (gr d) -> so_remove_edge_ok (gr d) e ->
    so_slot_valid (sw_vi w) (zabs_nat e) ->
    (forall x, In x (kvs_get (vals d) e) -> idx_find (indexes d) (fst x) = None) ->
    cwp fl (so_q_remove h e) sp
        (fun r sp' => exists G' h' w', Graph.remove_edge (gr d) e = Some G' /\ r = CrOk h' /\
                        stored_db_w (hp sp') root (remove_all_values (fst (remove_edge_db d e)) e) w' /\
                        so_handles h' w' /\ sdepth sp' = sdepth sp /\
                        frame (hp sp) (hp sp') (sd_foot root w) (sd_foot root w')).
  Proof.
    intros H Hh He OK Hrm Hslot Hnix. eapply cwp_mono; [|eapply so_q_remove_edge_stored'; eassumption].
    intros r sp' (G' & EG & h' & w' & E & H' & Hh' & D' & F' & _). exists G', h', w'. auto 6.
  Qed.

  (* remove ids n for a node without edges and alias *)
  Theorem so_q_remove_isolated_node_stored' root d w h n sp :
    stored_db_w (hp sp) root d w -> so_handles h w -> (0 < n)%Z ->
    so_graph_ok (gr d) -> is_node (gr d) n = true ->
    from (gr d) n = 0%Z -> to (gr d) n = 0%Z -> (1 <= tmeta (gr d) 0)%Z ->
    so_slot_valid (sw_vi w) (zabs_nat n) ->
    (forall x, In x (kvs_get (vals d) n) -> idx_find (indexes d) (fst x) = None) ->
    cwp fl (so_q_remove h n) sp
        (fun r sp' => snd (remove_node_db d n None) = None /\
           so_spost root w sp (remove_all_values (fst (remove_node_db d n None)) n) (fun h' => h') (slot_keep_but (zabs_nat n)) r sp').
  Proof.
    intros H Hh Hn OK Nn Ef Et Hc Hslot Hnix. unfold so_q_remove.
    apply cwp_bind. eapply so_begin; [exact H|]. intros sp0 H0 D0 F0. cbn [kont].
    destruct (Z.ltb_spec n 0) as [X|_]; [lia|].
    apply cwp_bind. eapply so_remove_isolated_node_stored; [exact H0|exact Hh|exact OK|intros _; auto|].
    intros G' EG s1 sp1 H1 D1 F1. cbn [kont].
    rewrite (remove_isolated_node_db d n G' Nn Ef Et EG). cbn [fst snd].
    apply (stored_db_w_same _ _ _ (push_undo (with_gr d G') CInsertNode)) in H1; [|reflexivity..].
    apply cwp_bind. eapply so_remove_all_values_stored'; [exact H1|exact (proj2 Hh)|exact Hslot|exact Hnix|].
    intros vh2 vs2 vi2 vw2 sp2 H2 D2 F2 K2. cbn [kont].
    eapply cwp_mono; [intros r sp' X; exact (conj eq_refl X)|].
    apply (so_commit fl root w sp _ (fun h' => h') _ (so_with_values h vh2) _ sp2 H2); [split; [exact (proj1 Hh)|reflexivity]|lia| |exact K2].
    eapply frame_trans; [exact F0|]. eapply frame_trans; [exact F1|exact F2].
  Qed.

  Theorem so_q_remove_isolated_node_stored root d w h n sp :
    stored_db_w (hp sp) root d w -> so_handles h w -> (0 < n)%Z ->
    so_graph_ok (gr d) -> is_node (gr d) n = true ->
    from (gr d) n = 0%Z -> to (gr d) n = 0%Z -> (1 <= tmeta (gr d) 0)%Z ->
    so_slot_valid (sw_vi w) (zabs_nat n) ->
    (forall x, In x (kvs_get (vals d) n) -> idx_find (indexes d) (fst x) = None) ->
    cwp fl (so_q_remove h n) sp
        (fun r sp' => exists h' w', r = CrOk h' /\
                        stored_db_w (hp sp') root (remove_all_values (fst (remove_node_db d n None)) n) w' /\
                        snd (remove_node_db d n None) = None /\
                        so_handles h' w' /\ sdepth sp' = sdepth sp /\
                        frame (hp sp) (hp sp') (sd_foot root w) (sd_foot root w')).
  Proof.
    intros H Hh Hn OK Nn Ef Et Hc Hslot Hnix. eapply cwp_mono; [|eapply so_q_remove_isolated_node_stored'; eassumption].
    intros r sp' (Er & h' & w' & E & H' & Hh' & D' & F' & _). exists h', w'. auto 6.
  Qed.
End Remove.
