(* AuthProofsBatch.v — query batches: result injection, the audit records a batch produces, and the
   audit log after one batch request (C25; all-or-nothing is AuthProofs.step_err_unchanged). *)
From Agdb Require Import Bytes Auth AuthProofs AuthProofsPerm.
From Coq Require Import Lia ZifyBool ZifyN.
Open Scope N_scope.

(* what ":k" / literal ids stand for *)
Definition ref_ids (rs : list qresult) (r : qref) : list N :=
  match r with
  | QId n => [n]
  | QRes k => match nth_error rs k with Some x => res_ids x | None => [] end
  end.
Definition ref_ok (rs : list qresult) (r : qref) : bool :=
  match r with QId _ => true | QRes k => Nat.ltb k (length rs) end.

Theorem inject_spec : forall rs ids,
  inject rs ids = if forallb (ref_ok rs) ids then Some (flat_map (ref_ids rs) ids) else None.
Proof.
  intros rs ids. induction ids as [|r t IH]; cbn [inject forallb flat_map]; [reflexivity|].
  destruct r as [n|k]; cbn [ref_ok ref_ids].
  - rewrite IH. cbn. destruct (forallb (ref_ok rs) t); reflexivity.
  - rewrite IH. destruct (PeanoNat.Nat.ltb_spec k (length rs)) as [L|L].
    + apply nth_error_Some in L. destruct (nth_error rs k); [|congruence].
      cbn. destruct (forallb (ref_ok rs) t); reflexivity.
    + apply nth_error_None in L. rewrite L. reflexivity.
Qed.

(* the queries of a batch in the form they have after result injection, as far as the batch runs *)
Fixpoint injected (c : content) (rs : list qresult) (qs : list query) : list query :=
  match qs with
  | [] => []
  | q :: t =>
    match exec_query c rs q with
    | Some (c1, r, q') => q' :: injected c1 (rs ++ [r]) t
    | None => []
    end
  end.

(* specification of the audit records of a successful batch: its mutating queries, in order, after
   injection, attributed to the submitting user *)
Definition audit_of_batch (who : N) (c : content) (qs : list query) : list aentry :=
  map (fun q => (who, q)) (filter (fun q => kind_is_write (kind_of q)) (injected c [] qs)).

Lemma exec_batch_mut_audit : forall who qs c rs au c' rs' au',
  exec_batch_mut who c rs au qs = Some (c', rs', au') ->
  au' = au ++ map (fun q => (who, q)) (filter (fun q => kind_is_write (kind_of q)) (injected c rs qs)).
Proof.
  intros who qs. induction qs as [|q t IH]; intros c rs au c' rs' au' H; cbn [exec_batch_mut injected] in *.
  - inversion H; subst. cbn. rewrite app_nil_r. reflexivity.
  - destruct (exec_query c rs q) as [[[c1 r] q']|] eqn:E; [|discriminate H].
    apply IH in H. rewrite H. cbn [filter].
    rewrite (exec_query_kind _ _ _ _ _ _ E).
    destruct (kind_tables_agree (kind_of q)) as [_ K]. rewrite K.
    destruct (kind_is_write (kind_of q)); cbn [map]; [rewrite <- app_assoc; reflexivity|reflexivity].
Qed.

Lemma audit_of_read_batch : forall who c qs, batch_is_write qs = false -> audit_of_batch who c qs = [].
Proof.
  intros who c qs. unfold audit_of_batch. generalize (@nil qresult). revert c.
  induction qs as [|q t IH]; intros c rs H; cbn [injected]; [reflexivity|].
  cbn [batch_is_write existsb] in H. apply Bool.orb_false_iff in H. destruct H as [H1 H2].
  destruct (exec_query c rs q) as [[[c1 r] q']|] eqn:E; [|reflexivity].
  cbn [filter]. rewrite (exec_query_kind _ _ _ _ _ _ E), H1. apply IH. exact H2.
Qed.

(* exec / exec_mut on the user or the admin endpoint *)
Definition is_batch (req : request) : bool :=
  match req with
  | ReqDb _ _ (OExec _) | ReqDb _ _ (OExecMut _) | ReqAdminDb _ _ (OExec _) | ReqAdminDb _ _ (OExecMut _) => true
  | _ => false
  end.

(* the user a batch is attributed to *)
Definition submitter (s : state) (now : N) (tok : option N) (req : request) : N :=
  match req with
  | ReqAdminDb _ _ _ => s_admin s
  | _ => match user_of_token s now tok with Some u => u | None => 0 end
  end.

(* what one request contributes to the audit log of (o, d): the audit of its batch if it is a
   successful exec_mut on (o, d), nothing otherwise *)
Definition contribution (s : state) (now : N) (tok : option N) (req : request) (o d : N) : list aentry :=
  match req with
  | ReqDb o' d' (OExecMut qs) | ReqAdminDb o' d' (OExecMut qs) =>
    if (o' =? o) && (d' =? d) && resp_ok (fst (step s now tok req)) then
      match find_db (s_dbs s) o d with
      | Some r => audit_of_batch (submitter s now tok req) (d_content r) qs
      | None => []
      end
    else []
  | _ => []
  end.

(* the audit log of database (o, d), if it exists *)
Definition audit_view (s : state) (o d : N) : option (list aentry) := proj d_audit (s_dbs s) o d.

Theorem exec_endpoint_pure : forall s now tok o d qs,
  snd (step s now tok (ReqDb o d (OExec qs))) = s /\ snd (step s now tok (ReqAdminDb o d (OExec qs))) = s.
Proof.
  intros. split; unfold step; destruct (authorize s now tok _); try reflexivity; cbn [apply]; unfold apply_db;
    dm; reflexivity.
Qed.

Lemma view_app_nil : forall x : option (list aentry),
  x = match x with None => None | Some au => Some (au ++ []) end.
Proof. intros [au|]; [rewrite app_nil_r|]; reflexivity. Qed.

(* an exec_mut on (o', d') appends the audit of its batch to the log of (o', d') if it is answered
   with success, and changes no log otherwise *)
Lemma exec_mut_audit : forall s who o' d' qs no o d,
  audit_view (snd (apply_db s who o' d' (OExecMut qs) no)) o d =
  match audit_view s o d with
  | None => None
  | Some au =>
    Some (au ++ if (o' =? o) && (d' =? d) && resp_ok (fst (apply_db s who o' d' (OExecMut qs) no))
                then match find_db (s_dbs s) o d with Some r => audit_of_batch who (d_content r) qs | None => [] end
                else [])
  end.
Proof.
  intros s who o' d' qs no o d.
  destruct ((o' =? o) && (d' =? d)) eqn:K; cbn [andb].
  - assert (o' = o /\ d' = d) as [-> ->] by lia.
    destruct (resp_ok (fst (apply_db s who o d (OExecMut qs) no))) eqn:OK;
      [|rewrite (apply_db_err _ _ _ _ _ _ OK); apply view_app_nil].
    unfold audit_view, proj, apply_db in *. destruct (find_db (s_dbs s) o d) as [r|] eqn:F; [|discriminate OK].
    destruct (batch_is_write qs) eqn:W.
    + destruct (exec_batch_mut who (d_content r) [] [] qs) as [[[c rs] au]|] eqn:B; [|discriminate OK].
      cbn [snd with_dbs s_dbs]. erewrite find_db_update_same by first [exact F|reflexivity].
      rewrite (exec_batch_mut_audit _ _ _ _ _ _ _ _ B). reflexivity.
    + rewrite (audit_of_read_batch who _ _ W), app_nil_r.
      destruct (exec_batch_read _ _ _); cbn [snd]; rewrite F; reflexivity.
  - (* another database: its record is not touched *)
    assert (E : find_db (s_dbs (snd (apply_db s who o' d' (OExecMut qs) no))) o d = find_db (s_dbs s) o d).
    { unfold apply_db. dm; cbn [snd with_dbs s_dbs]; try reflexivity.
      apply find_db_update_other; [exact K|]. intros r0 H0. exact (db_is_diff _ _ _ _ _ K H0). }
    unfold audit_view, proj. rewrite E. apply view_app_nil.
Qed.

Lemma batch_step_audit : forall s now tok req o d,
  is_batch req = true ->
  audit_view (snd (step s now tok req)) o d =
  match audit_view s o d with
  | None => None
  | Some au => Some (au ++ contribution s now tok req o d)
  end.
Proof.
  intros s now tok req o d B.
  destruct req as [| | | | |o' d' op| |o' d' op| | | | | | |]; try discriminate B; destruct op; try discriminate B;
    cbn [contribution submitter].
  (* exec, on either endpoint *)
  1,3: destruct (exec_endpoint_pure s now tok o' d' qs) as [E1 E2]; rewrite ?E1, ?E2; apply view_app_nil.
  (* exec_mut, on either endpoint: allowed, or refused without effect *)
  all: unfold step; destruct (authorize s now tok _); cbn [fst snd resp_ok apply];
    [apply exec_mut_audit|rewrite Bool.andb_false_r; apply view_app_nil].
Qed.

(* the contributions along a request sequence, each taken in the state reached at that point *)
Fixpoint contributions (s : state) (tr : list event) (o d : N) : list aentry :=
  match tr with
  | [] => []
  | (now, tok, req) :: t => contribution s now tok req o d ++ contributions (snd (step s now tok req)) t o d
  end.
