(* StoredDbOpsAlias9.v — the size side conditions of so_alias_insert_new_stored_full from ONE bound: both alias tables have
   fewer than 2^56 slots.  Then (with C19's invariant: len = number of Valid slots <= capacity) len + 1 < 2^64 and the
   three vectors of a grown table (max(2 * capacity, 64) slots of 1 / 8 / 8 bytes) stay below 2^64 bytes.

   so_alias_insert_new_stored_caps: the theorem with so_alias_new_ok2 replaced by: capacities < 2^56, the alias a valid
   String element (valid UTF-8, 8 + length < 2^64), the id an i64. *)
From Coq Require Import List NArith ZArith Arith Bool Lia Permutation.
Import ListNotations.
From Agdb Require Import Bytes DbModel StorageSpec Collections CollWp CollVecBase CollElems CollMapHist OpenMap
  OpenMapProofs OpenMapRefineStep StoredDbRep StoredDbOpsDb StoredDbOpsAlias StoredDbOpsAlias2 StoredDbOpsAlias3 StoredDbOpsAlias7
  StoredDbOpsAlias8.
From Coq Require Import ZifyBool ZifyNat ZifyN.
Open Scope N_scope.

Definition so_cap_bound : N := 72057594037927936.   (* 2^56 *)

Section Caps.
  Variables K V : Type.
  Variable h : K -> N.

  Lemma so_len_from_pinv (t : cm_table K V) :
    length (ct_keys t) = length (ct_states t) -> length (ct_values t) = length (ct_states t) ->
    PInv K V h 64 (ct_omap K V t) -> lenN (ct_states t) < so_cap_bound -> ct_len t + 1 < two64.
  Proof.
    intros SK SV [[Hcv _] _] Hb.
    pose proof (cv_le_length K V (slots (ct_omap K V t))) as Hle.
    unfold ct_omap in Hcv, Hle. cbn [slots len] in Hcv, Hle. rewrite ct_slots_length in Hle by auto.
    unfold so_cap_bound, lenN, two64 in *. lia.
  Qed.
End Caps.

(* both vectors of 8-byte slots (a String element is the index of its record) *)
Lemma so_grow_ok_8 K V (EK : cv_elem K) (EV : cv_elem V) (t : cm_table K V) :
  ce_size EK = 8 -> ce_size EV = 8 -> lenN (ct_states t) < so_cap_bound -> so_grow_ok K V EK EV t.
Proof. intros E1 E2 Hb. unfold so_grow_ok. rewrite E1, E2. unfold so_cap_bound, two64 in *. cbv zeta. lia. Qed.

Theorem so_alias_insert_new_stored_caps (hs : bytes -> N) (hi : Z -> N) (fl : bool) rm1 rm2 root d w h a id alias sp :
  stored_db_w (hp sp) root d w -> so_handles h w -> so_alias_handles a w -> so_alias_tables_ok hs hi 64 w ->
  imap_value (aliases d) alias = None -> imap_key (aliases d) id = None ->
  lenN (ct_states (mw_t (sw_a1 w))) < so_cap_bound -> lenN (ct_states (mw_t (sw_a2 w))) < so_cap_bound ->
  el_valid law_string alias -> el_valid law_i64 id ->
  cwp fl (so_alias_insert_new hs hi (so_alias_code hs hi rm1 rm2) a id alias) sp
      (so_alias_post hs hi 64 root d w h id alias sp).
Proof.
  intros H Hh Ha [P1 P2] Hv Hk B1 B2 VA VI.
  apply (so_alias_insert_new_stored_full hs hi fl rm1 rm2 root d w h a id alias sp H Hh Ha (conj P1 P2) Hv Hk).
  destruct (sr_a1 _ _ _ _ H) as (HM1 & _ & _). destruct (sr_a2 _ _ _ _ H) as (HM2 & _ & _).
  pose proof HM1 as [_ _ [SK1 SV1]]. pose proof HM2 as [_ _ [SK2 SV2]].
  split; [intros _; apply so_grow_ok_8; [reflexivity|reflexivity|exact B1]|].
  split; [intros _; apply so_grow_ok_8; [reflexivity|reflexivity|exact B2]|].
  split; [exact VA|]. split; [exact VI|].
  split; [eapply so_len_from_pinv; eauto|eapply so_len_from_pinv; eauto].
Qed.
