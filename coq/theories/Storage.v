(* Storage.v — model of agdb/src/storage.rs (struct Storage<D: StorageData>): every
   public operation, generic in the byte store D.  Definitions only (extracted).

   * `store_ops T` is the StorageData interface as Storage uses it (len, read, write,
     resize, flush) plus the two ways a storage is closed and opened again
     (`so_reopen`: drop + new on the same name; `so_copy`: backup to a new name + new).
     `so_write`/`so_read` return None when the call is outside the contract the
     back-ends agree on (write starting beyond the end, read beyond the end); there
     the three real back-ends differ (zero fill / arithmetic underflow / panic / io
     error) and the operation's outcome is `RFault`.  No history reaches RFault
     (StorageProofs.run_refines with StorageSim.accepts_no_fault).
   * canonical instances: `ops_file` (content + content at the last flush; drop rolls
     an open transaction back — FileStorage, FileStorageMemoryMapped; this is what the
     undo log achieves, see FileWal.v / C01) and `ops_mem` (MemoryStorage, reopened
     through a backup file: the current content).
   * the concrete byte-store instances `mem_raw`, `file_raw`, `mapped_raw` follow
     memory_storage.rs / file_storage.rs / file_storage_memory_mapped.rs literally
     (StorageSim: they are lawful refinements of the canonical ones).
   * Every operation is a state transformer `storage -> storage * rres A`: an early
     `?` return keeps the mutations made so far (e.g. replace_with_bytes on a missing
     index leaves its transaction open).
   * u64 arithmetic: positions and sizes are N; `end = pos + len` of a write,
     `offset + size` of ensure_size / validate_read_size and `transactions + 1` are
     checked against 2^64 (`RPanic`, the debug-build overflow panic; with these checks
     every other sum stays below 2^64 — StorageWp, `tiles`). *)
From Agdb Require Import Bytes Records.
Open Scope N_scope.

Inductive serr := SeNotFound | SeOutOfBounds | SeNotAllowed | SeNotEnoughData.

Inductive rres (A : Type) : Type :=
| ROk (a : A)
| RErr (e : serr)
| RPanic            (* arithmetic overflow / index out of range *)
| RFault.           (* back-end call outside the contract pos <= len / read inside the sdata *)
Arguments ROk {A} a.
Arguments RErr {A} e.
Arguments RPanic {A}.
Arguments RFault {A}.

(* ---- byte lists ---- *)
Definition zeros (n : N) : bytes := repeat x00 (N.to_nat n).

(* write with extension (zero fill of a gap): the contract of StorageData::write *)
Definition bs_write (d : bytes) (pos : nat) (bs : bytes) : bytes :=
  firstn pos d ++ repeat x00 (pos - length d) ++ bs ++ skipn (pos + length bs) d.
(* resize with zero fill *)
Definition bs_resize (d : bytes) (n : nat) : bytes :=
  firstn n d ++ repeat x00 (n - length d).
Definition bs_read (d : bytes) (pos n : nat) : bytes := firstn n (skipn pos d).
(* Vec::resize(n, 0) on a value *)
Definition pad_to (bs : bytes) (n : N) : bytes := bs_resize bs (N.to_nat n).

Record store_ops (T : Type) := {
  so_len : T -> N;
  so_read : T -> N -> N -> option bytes;
  so_write : T -> N -> bytes -> option T;
  so_resize : T -> N -> T;
  so_flush : T -> T;
  so_reopen : T -> T;
  so_copy : T -> T
}.
Arguments so_len {T}. Arguments so_read {T}. Arguments so_write {T}. Arguments so_resize {T}.
Arguments so_flush {T}. Arguments so_reopen {T}. Arguments so_copy {T}.

(* ---- canonical byte store: current content + content at the last flush ---- *)
Record cdata := { cur : bytes; dur : bytes }.

Definition c_len (d : cdata) : N := lenN (cur d).
Definition c_read (d : cdata) (pos n : N) : option bytes :=
  if pos + n <=? lenN (cur d) then Some (bs_read (cur d) (N.to_nat pos) (N.to_nat n)) else None.
Definition c_write (d : cdata) (pos : N) (bs : bytes) : option cdata :=
  if pos <=? lenN (cur d) then Some {| cur := bs_write (cur d) (N.to_nat pos) bs; dur := dur d |} else None.
Definition c_resize (d : cdata) (n : N) : cdata := {| cur := bs_resize (cur d) (N.to_nat n); dur := dur d |}.
Definition c_flush (d : cdata) : cdata := {| cur := cur d; dur := cur d |}.
Definition c_rollback (d : cdata) : cdata := {| cur := dur d; dur := dur d |}.

Definition ops_file : store_ops cdata :=
  {| so_len := c_len; so_read := c_read; so_write := c_write; so_resize := c_resize;
     so_flush := c_flush; so_reopen := c_rollback; so_copy := c_flush |}.
Definition ops_mem : store_ops cdata :=
  {| so_len := c_len; so_read := c_read; so_write := c_write; so_resize := c_resize;
     so_flush := c_flush; so_reopen := c_flush; so_copy := c_flush |}.

(* ---- the real back-ends, literally ---- *)
(* MemoryStorage: buffer; write = `end < len` ? copy in place : resize(pos, 0); extend *)
Definition mem_write (b : bytes) (pos : N) (bs : bytes) : bytes :=
  let e := pos + lenN bs in
  if e <? lenN b then firstn (N.to_nat pos) b ++ bs ++ skipn (N.to_nat e) b
  else bs_resize b (N.to_nat pos) ++ bs.
Definition mem_read (b : bytes) (pos n : N) : option bytes :=
  if pos + n <=? lenN b then Some (bs_read b (N.to_nat pos) (N.to_nat n)) else None.   (* slice panics otherwise *)
Definition mem_raw : store_ops bytes :=
  {| so_len := lenN; so_read := mem_read; so_write := fun b p bs => Some (mem_write b p bs);
     so_resize := fun b n => bs_resize b (N.to_nat n); so_flush := fun b => b;
     so_reopen := fun b => b; so_copy := fun b => b |}.
(* FileStorage: file content + content restored by the undo log (FileWal.v);
   write: empty = no-op; `min(len, end) - pos` underflows when pos > len *)
Definition file_write (d : cdata) (pos : N) (bs : bytes) : option cdata :=
  match bs with
  | [] => Some d
  | _ => if pos <=? lenN (cur d)
         then Some {| cur := firstn (N.to_nat pos) (cur d) ++ bs ++ skipn (N.to_nat pos + length bs) (cur d); dur := dur d |}
         else None
  end.
Definition file_raw : store_ops cdata :=
  {| so_len := c_len; so_read := c_read; so_write := file_write; so_resize := c_resize;
     so_flush := c_flush; so_reopen := c_rollback; so_copy := c_flush |}.
(* FileStorageMemoryMapped: memory first, then file; reads from memory; len from the file *)
Definition mapped_raw : store_ops (cdata * bytes) :=
  {| so_len := fun t => c_len (fst t);
     so_read := fun t p n => mem_read (snd t) p n;
     so_write := fun t p bs => match file_write (fst t) p bs with
                               | Some f => Some (f, mem_write (snd t) p bs) | None => None end;
     so_resize := fun t n => (c_resize (fst t) n, bs_resize (snd t) (N.to_nat n));
     so_flush := fun t => (c_flush (fst t), snd t);
     so_reopen := fun t => (c_rollback (fst t), dur (fst t));
     so_copy := fun t => (c_flush (fst t), cur (fst t)) |}.

Definition CURRENT_VERSION : N := 1.
Definition CHUNK_SIZE : N := 1048576.
Definition version_record : srec := {| r_index := 0; r_pos := 0; r_size := 8 |}.

(* ---- operation language of the histories ---- *)
Inductive sop :=
| SInsert (bs : bytes)
| SInsertAt (index offset : N) (bs : bytes)
| SReplace (index : N) (bs : bytes)
| SResize (index size : N)
| SMove (index from to size : N)
| SRemove (index : N)
| SOptimize
| SReopen
| SReopenCopy
| STransaction
| SCommit (id : N)
| SValue (index : N)
| SValueAt (index offset : N)
| SValueAtSize (index offset size : N)
| SValueSize (index : N)
| SLen.

Inductive obs :=
| ObUnit
| ObNum (n : N)
| ObBytes (b : bytes)
| ObErr (e : serr)
| ObPanic
| ObFault.


Section Generic.
  Variable T : Type.
  Variable ops : store_ops T.

  Record storage := { sdata : T; rtab : records; tx : N; version : N }.

  Definition M (A : Type) : Type := storage -> storage * rres A.
  Definition ret {A} (a : A) : M A := fun s => (s, ROk a).
  Definition fail {A} (r : rres A) : M A := fun s => (s, r).
  Definition bind {A B} (m : M A) (f : A -> M B) : M B :=
    fun s => match m s with
             | (s', ROk a) => f a s'
             | (s', RErr e) => (s', RErr e)
             | (s', RPanic) => (s', RPanic)
             | (s', RFault) => (s', RFault)
             end.
  Notation "x <- m ;; f" := (bind m (fun x => f)) (at level 61, m at next level, right associativity).
  Notation "m ;;; f" := (bind m (fun _ => f)) (at level 61, right associativity).

  Definition set_data (s : storage) (d : T) := {| sdata := d; rtab := rtab s; tx := tx s; version := version s |}.
  Definition set_rtab (s : storage) (r : records) := {| sdata := sdata s; rtab := r; tx := tx s; version := version s |}.
  Definition set_tx (s : storage) (t : N) := {| sdata := sdata s; rtab := rtab s; tx := t; version := version s |}.
  Definition set_version (s : storage) (v : N) := {| sdata := sdata s; rtab := rtab s; tx := tx s; version := v |}.

  (* ---- primitives ---- *)
  Definition get_len : M N := fun s => (s, ROk (so_len ops (sdata s))).
  Definition get_rtab : M records := fun s => (s, ROk (rtab s)).
  Definition put_rtab (r : records) : M unit := fun s => (set_rtab s r, ROk tt).
  Definition dwrite (pos : N) (bs : bytes) : M unit := fun s =>
    if two64 <=? pos + lenN bs then (s, RPanic)
    else match so_write ops (sdata s) pos bs with
         | Some d => (set_data s d, ROk tt)
         | None => (s, RFault)
         end.
  Definition dread (pos n : N) : M bytes := fun s =>
    match so_read ops (sdata s) pos n with
    | Some b => (s, ROk b)
    | None => (s, RFault)
    end.
  Definition dresize (n : N) : M unit := fun s => (set_data s (so_resize ops (sdata s) n), ROk tt).
  Definition dflush : M unit := fun s => (set_data s (so_flush ops (sdata s)), ROk tt).
  Definition opt_panic {A} (o : option A) : M A := match o with Some a => ret a | None => fail RPanic end.

  (* ---- transactions ---- *)
  Definition tx_begin : M N := fun s =>
    let t := tx s + 1 in
    if two64 <=? t then (s, RPanic) else (set_tx s t, ROk t).
  Definition tx_commit (id : N) : M unit := fun s =>
    if negb (tx s =? id) then (s, RErr SeNotAllowed)
    else if tx s =? 0 then (s, ROk tt)
    else let s' := set_tx s (tx s - 1) in
         if tx s' =? 0 then dflush s' else (s', ROk tt).

  (* ---- helpers of storage.rs ---- *)
  Definition write_record (r : srec) : M unit := dwrite (r_pos r) (le64 (r_index r) ++ le64 (r_size r)).
  Definition append (bs : bytes) : M unit := len <- get_len ;; dwrite len bs.
  Definition truncate (size : N) : M unit :=
    len <- get_len ;; if size <? len then dresize size else ret tt.
  Definition is_at_end (r : srec) : M bool := len <- get_len ;; ret (len =? r_end r).
  Definition read_value (r : srec) : M bytes := dread (value_start r) (r_size r).
  Definition lookup (index : N) : M srec := fun s =>
    match record (rtab s) index with
    | None => (s, RPanic)
    | Some None => (s, RErr SeNotFound)
    | Some (Some r) => (s, ROk r)
    end.
  Definition free_a_region (pos size : N) : M unit :=
    rs <- get_rtab ;;
    let '(rs', (p, sz)) := mark_free_compact rs pos size in
    put_rtab rs' ;;;
    write_record {| r_index := 0; r_pos := p; r_size := sz |}.
  Definition with_size (r : srec) (n : N) : srec := {| r_index := r_index r; r_pos := r_pos r; r_size := n |}.
  Definition do_set_size (index size : N) : M unit := rs <- get_rtab ;; put_rtab (set_size rs index size).
  Definition do_set_pos (index pos : N) : M unit := rs <- get_rtab ;; put_rtab (set_pos rs index pos).

  Definition update_record (r : srec) (new_pos new_size : N) : M srec :=
    let r' := {| r_index := r_index r; r_pos := new_pos; r_size := new_size |} in
    do_set_pos (r_index r) new_pos ;;;
    do_set_size (r_index r) new_size ;;;
    write_record r' ;;;
    ret r'.

  Definition move_to_end (r : srec) (new_size : N) : M srec :=
    bytes <- read_value r ;;
    let bytes' := pad_to bytes new_size in
    len <- get_len ;;
    free_a_region (r_pos r) (r_size r) ;;;
    r' <- update_record r len new_size ;;
    append bytes' ;;;
    ret r'.

  Definition enlarge_at_end (r : srec) (new_size : N) : M srec :=
    let r' := with_size r new_size in
    do_set_size (r_index r) new_size ;;;
    dwrite (r_pos r + 8) (le64 new_size) ;;;
    append (zeros (new_size - r_size r)) ;;;
    ret r'.

  Definition enlarge_in_place (r : srec) (new_size free_size : N) : M srec :=
    let old_size := r_size r in
    let old_end := r_end r in
    let remainder := (old_size + 16 + free_size) - new_size in
    let r' := with_size r new_size in
    do_set_size (r_index r) new_size ;;;
    dwrite (r_pos r + 8) (le64 new_size) ;;;
    dwrite old_end (zeros (new_size - old_size)) ;;;
    (if negb (remainder =? 0) then free_a_region (r_end r') (remainder - 16) else ret tt) ;;;
    ret r'.

  Definition enlarge_move_to (r : srec) (new_size free_pos free_size : N) : M srec :=
    bytes <- dread (value_start r) (r_size r) ;;
    let bytes' := pad_to bytes new_size in
    free_a_region (r_pos r) (r_size r) ;;;
    r' <- update_record r free_pos new_size ;;
    dwrite (value_start r') bytes' ;;;
    (if new_size <? free_size then free_a_region (r_end r') (free_size - new_size - 16) else ret tt) ;;;
    ret r'.

  Definition enlarge_value (r : srec) (new_size : N) : M srec :=
    at_end <- is_at_end r ;;
    if at_end then enlarge_at_end r new_size
    else
      rs <- get_rtab ;;
      match take_free_after rs (r_end r) (new_size - r_size r) with
      | Some (rs', (_, free_size)) => put_rtab rs' ;;; enlarge_in_place r new_size free_size
      | None =>
        match take_free rs new_size with
        | Some (rs', (free_pos, free_size)) => put_rtab rs' ;;; enlarge_move_to r new_size free_pos free_size
        | None => move_to_end r new_size
        end
      end.

  Definition shrink_value (r : srec) (new_size : N) : M srec :=
    at_end <- is_at_end r ;;
    if at_end then
      let r' := with_size r new_size in
      do_set_size (r_index r) new_size ;;;
      dwrite (r_pos r + 8) (le64 new_size) ;;;
      truncate (r_end r') ;;;
      ret r'
    else
      let free_size := r_size r - new_size in
      if 16 <=? free_size then
        let r' := with_size r new_size in
        do_set_size (r_index r) new_size ;;;
        dwrite (r_pos r + 8) (le64 new_size) ;;;
        free_a_region (r_end r') (free_size - 16) ;;;
        ret r'
      else move_to_end r new_size.

  Definition ensure_size (r : srec) (offset size : N) : M srec :=
    let new_size := offset + size in
    if two64 <=? new_size then fail RPanic
    else if r_size r <? new_size then enlarge_value r new_size else ret r.

  Definition erase_bytes (pos offset_from offset_to size : N) : M unit :=
    if offset_from <? offset_to then
      dwrite (pos + offset_from) (zeros (N.min size (offset_to - offset_from)))
    else if offset_to <? offset_from then
      let position := N.max (offset_to + size) offset_from in
      dwrite (pos + position) (zeros (offset_from + size - position))
    else ret tt.

  Definition validate_read_size (offset read_size value_size : N) : M unit :=
    if value_size <? offset then fail (RErr SeOutOfBounds)
    else if two64 <=? offset + read_size then fail RPanic
    else if value_size <? offset + read_size then fail (RErr SeOutOfBounds)
    else ret tt.

  (* ---- public operations ---- *)
  Definition insert_bytes (bs : bytes) : M N :=
    rs <- get_rtab ;;
    match take_free rs (lenN bs) with
    | Some (rs1, (free_pos, free_size)) =>
      rr <- opt_panic (new_record rs1 free_pos (lenN bs)) ;;
      let '(rs2, r) := rr in
      put_rtab rs2 ;;;
      id <- tx_begin ;;
      write_record r ;;;
      dwrite (value_start r) bs ;;;
      (if lenN bs <? free_size then free_a_region (r_end r) (free_size - 16 - lenN bs) else ret tt) ;;;
      tx_commit id ;;;
      ret (r_index r)
    | None =>
      len <- get_len ;;
      rr <- opt_panic (new_record rs len (lenN bs)) ;;
      let '(rs2, r) := rr in
      put_rtab rs2 ;;;
      id <- tx_begin ;;
      write_record r ;;;
      append bs ;;;
      tx_commit id ;;;
      ret (r_index r)
    end.

  Definition insert_bytes_at (index offset : N) (bs : bytes) : M unit :=
    r <- lookup index ;;
    id <- tx_begin ;;
    r' <- ensure_size r offset (lenN bs) ;;
    dwrite (value_start r' + offset) bs ;;;
    tx_commit id.

  Definition value_size (index : N) : M N := r <- lookup index ;; ret (r_size r).

  Definition value_as_bytes_at_size (index offset size : N) : M bytes :=
    r <- lookup index ;;
    validate_read_size offset size (r_size r) ;;;
    dread (value_start r + offset) size.

  Definition value_as_bytes_at (index offset : N) : M bytes :=
    size <- value_size index ;;
    value_as_bytes_at_size index offset (size - N.min size offset).

  Definition value_as_bytes (index : N) : M bytes := value_as_bytes_at index 0.

  Definition move_at (index offset_from offset_to size : N) : M unit :=
    bytes <- value_as_bytes_at_size index offset_from size ;;
    id <- tx_begin ;;
    insert_bytes_at index offset_to bytes ;;;
    r <- lookup index ;;
    erase_bytes (value_start r) offset_from offset_to size ;;;
    tx_commit id.

  Definition remove_value (index : N) : M unit :=
    r <- lookup index ;;
    id <- tx_begin ;;
    (rs <- get_rtab ;; put_rtab (free_index rs index)) ;;;
    at_end <- is_at_end r ;;
    (if at_end then truncate (r_pos r) else free_a_region (r_pos r) (r_size r)) ;;;
    tx_commit id.

  Definition resize_value (index new_size : N) : M unit :=
    r <- lookup index ;;
    id <- tx_begin ;;
    (if r_size r <? new_size then (enlarge_value r new_size ;;; ret tt)
     else if new_size <? r_size r then (shrink_value r new_size ;;; ret tt)
     else ret tt) ;;;
    tx_commit id.

  Definition replace_with_bytes (index : N) (bs : bytes) : M unit :=
    id <- tx_begin ;;
    insert_bytes_at index 0 bs ;;;
    resize_value index (lenN bs) ;;;
    tx_commit id.

  Definition shrink_index (r : srec) (current_pos : N) : M N :=
    (if negb (r_pos r =? current_pos) then
       bytes <- read_value r ;;
       do_set_pos (r_index r) current_pos ;;;
       write_record {| r_index := r_index r; r_pos := current_pos; r_size := r_size r |} ;;;
       dwrite (current_pos + 16) bytes
     else ret tt) ;;;
    ret (current_pos + 16 + r_size r).

  Fixpoint shrink_all (l : list srec) (current_pos : N) : M N :=
    match l with
    | [] => ret current_pos
    | r :: t => p <- shrink_index r current_pos ;; shrink_all t p
    end.

  Definition optimize_storage : M unit :=
    id <- tx_begin ;;
    rs <- get_rtab ;;
    l <- opt_panic (valid_records rs) ;;
    current_pos <- shrink_all l (r_end version_record) ;;
    truncate current_pos ;;;
    (rs' <- get_rtab ;; put_rtab (clear_free rs')) ;;;
    tx_commit id.

  (* ---- loading (Storage::with_data / read_records) ---- *)
  Definition read_record (pos : N) : M srec :=
    bytes <- dread pos 16 ;;
    ret {| r_index := de (firstn 8 bytes); r_pos := pos; r_size := de (firstn 8 (skipn 8 bytes)) |}.

  Definition extract_version (r : srec) : M N :=
    if r_size r <? 8 then fail (RErr SeNotEnoughData)
    else bytes <- read_value r ;; ret (de (firstn 8 bytes)).

  (* the copy loop of validate_or_update_version: chunks of 1 MiB from the end *)
  Fixpoint shift_chunks (fuel : nat) (pos : N) : M unit :=
    match fuel with
    | O => ret tt
    | S f =>
      if 0 <? pos then
        let size := if CHUNK_SIZE <? pos then CHUNK_SIZE else pos in
        let pos' := pos - size in
        d <- dread pos' size ;;
        dwrite (pos' + 24) d ;;;
        shift_chunks f pos'
      else ret tt
    end.

  Definition validate_or_update_version : M unit := fun s =>
    if CURRENT_VERSION <? version s then (s, RErr SeNotAllowed)
    else if version s =? CURRENT_VERSION then (s, ROk tt)
    else
      (let len := so_len ops (sdata s) in
       id <- tx_begin ;;
       dresize (len + 24) ;;;
       shift_chunks (S (N.to_nat (len / CHUNK_SIZE))) len ;;;
       write_record version_record ;;;
       dwrite (value_start version_record) (le64 CURRENT_VERSION) ;;;
       tx_commit id) (set_version s CURRENT_VERSION).

  Fixpoint load_records (fuel : nat) (end_ current_pos : N) : M unit :=
    match fuel with
    | O => ret tt
    | S f =>
      if current_pos <? end_ then
        r <- read_record current_pos ;;
        if end_ - current_pos + 16 <? r_size r then fail (RErr SeOutOfBounds)
        else
          (rs <- get_rtab ;; put_rtab (set_record rs r)) ;;;
          load_records f end_ (r_end r)
      else ret tt
    end.

  Definition read_records : M unit :=
    len0 <- get_len ;;
    (if 16 <=? len0 then
       vr <- read_record 0 ;;
       if r_index vr =? 0 then
         v <- extract_version vr ;; (fun s => (set_version s v, ROk tt))
       else ret tt
     else ret tt) ;;;
    validate_or_update_version ;;;
    end_ <- get_len ;;
    load_records (S (N.to_nat (end_ / 16))) end_ (r_end version_record) ;;;
    rs <- get_rtab ;; put_rtab (rebuild_free_index rs).

  (* Storage::with_data on a byte store *)
  Definition with_data (d : T) : storage * rres unit :=
    read_records {| sdata := d; rtab := records_new; tx := 0; version := 0 |}.

  (* drop the storage, open the same name again / back it up and open the copy *)
  Definition reopen (s : storage) : storage * rres unit := with_data (so_reopen ops (sdata s)).
  Definition reopen_copy (s : storage) : storage * rres unit := with_data (so_copy ops (sdata s)).

  Definition to_obs {A} (f : A -> obs) (r : rres A) : obs :=
    match r with ROk a => f a | RErr e => ObErr e | RPanic => ObPanic | RFault => ObFault end.
  Definition ou (_ : unit) := ObUnit.

  Definition lift {A} (f : A -> obs) (x : storage * rres A) : storage * obs := (fst x, to_obs f (snd x)).
  Definition st_step (s : storage) (o : sop) : storage * obs :=
    match o with
    | SInsert bs => lift ObNum (insert_bytes bs s)
    | SInsertAt i off bs => lift ou (insert_bytes_at i off bs s)
    | SReplace i bs => lift ou (replace_with_bytes i bs s)
    | SResize i n => lift ou (resize_value i n s)
    | SMove i f t n => lift ou (move_at i f t n s)
    | SRemove i => lift ou (remove_value i s)
    | SOptimize => lift ou (optimize_storage s)
    | SReopen => lift ou (reopen s)
    | SReopenCopy => lift ou (reopen_copy s)
    | STransaction => lift ObNum (tx_begin s)
    | SCommit id => lift ou (tx_commit id s)
    | SValue i => lift ObBytes (value_as_bytes i s)
    | SValueAt i off => lift ObBytes (value_as_bytes_at i off s)
    | SValueAtSize i off n => lift ObBytes (value_as_bytes_at_size i off n s)
    | SValueSize i => lift ObNum (value_size i s)
    | SLen => lift ObNum (get_len s)
    end.

  (* a history: the list of observations; a panic / fault ends the process *)
  Fixpoint st_run (s : storage) (l : list sop) : list obs :=
    match l with
    | [] => []
    | o :: t =>
      let '(s', v) := st_step s o in
      match v with
      | ObPanic | ObFault => [v]
      | _ => v :: st_run s' t
      end
    end.

  (* the state a history leads to (None: the process died on the way) *)
  Fixpoint st_exec (s : storage) (l : list sop) : option storage :=
    match l with
    | [] => Some s
    | o :: t =>
      let '(s', v) := st_step s o in
      match v with
      | ObPanic | ObFault => None
      | _ => st_exec s' t
      end
    end.

  (* every live index with its bytes (increasing index) — the dump compared with the implementation *)
  Fixpoint live_from (n : nat) (i : N) (s : storage) : list (N * bytes) :=
    match n with
    | O => []
    | S n' =>
      match snd (value_as_bytes i s) with
      | ROk b => (i, b) :: live_from n' (i + 1) s
      | _ => live_from n' (i + 1) s
      end
    end.
  Definition live_values (s : storage) : list (N * bytes) :=
    live_from (length (recs (rtab s))) 0 s.
End Generic.

Arguments sdata {T}. Arguments rtab {T}. Arguments tx {T}. Arguments version {T}.

(* a fresh storage on an empty byte store *)
Definition empty_cdata : cdata := {| cur := []; dur := [] |}.
Definition init_file : storage cdata * rres unit := with_data cdata ops_file empty_cdata.
Definition init_mem : storage cdata * rres unit := with_data cdata ops_mem empty_cdata.
