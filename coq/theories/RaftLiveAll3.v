(* RaftLiveAll3.v — C30, 3 nodes.
   * The script of two appends, EVERY interleaving of the deliveries: the reflective exploration `explore3`.
   * ANY number of appended entries, EVERY per-channel-FIFO interleaving of the deliveries of each round
     (RaftLiveAll.pf_run: messages of one pair of nodes in order, different pairs interleave arbitrarily); its election
     round is that of the exploration.
   The steady state is generalised over the fields no handler reads in these runs (`ssx`): the leader's
   vote marks and the (term, commit) it recorded for its peers, and the followers' rows for the other nodes — the
   interleavings differ exactly there. *)
From Coq Require Import NArith List Bool Lia Arith.
From Agdb Require Import Raft RaftLive RaftLiveInd RaftLiveAll.
Import ListNotations.
Open Scope N_scope.

Definition ssx (k pt : N) (L : list entry) (v1 v2 : bool) (t1 c1 t2 c2 : N) (r10 r12 r20 r21 : peer) : cluster :=
  mkCluster
    [ mkNode 0 3 Leader 1 [mkPeer k pt k true; mkPeer k t1 c1 v1; mkPeer k t2 c2 v2] L k 0 1000 1000 3000;
      mkNode 1 3 (Follower 0) 1 [r10; mkPeer k pt k true; r12] L k 1000 1000 1000 3000;
      mkNode 2 3 (Follower 0) 1 [r20; r21; mkPeer k pt k true] L k 2000 2000 1000 3000 ]
    [] [].

(* s (nodes and network of a cluster) is a steady state with log L of k entries, pt = term of the last entry *)
Definition steady3s (k pt : N) (L : list entry) (s : cluster) : Prop :=
  exists v1 v2 t1 c1 t2 c2 r10 r12 r20 r21, s = ssx k pt L v1 v2 t1 c1 t2 c2 r10 r12 r20 r21.

Ltac fin := unfold steady3s, ssx; repeat eexists.

(* s is `ssx k pt L` at its own values of the free fields *)
Definition steady3_b (k pt : N) (L : list entry) (s : cluster) : bool :=
  match map n_peers (c_nodes s) with
  | [[_; p1; p2]; [r10; _; r12]; [r20; r21; _]] =>
      match sc_cmp s (ssx k pt L (p_voted p1) (p_voted p2) (p_lt p1) (p_lc p1) (p_lt p2) (p_lc p2) r10 r12 r20 r21) with
      | Eq => true
      | _ => false
      end
  | _ => false
  end.

Lemma steady3_b_sound : forall k pt L s, steady3_b k pt L s = true -> steady3s k pt L (strip s).
Proof.
  intros k pt L s H. unfold steady3_b in H.
  destruct (map n_peers (c_nodes s)) as [|[|? [|p1 [|p2 [|]]]] [|[|r10 [|? [|r12 [|]]]] [|[|r20 [|r21 [|? [|]]]] [|]]]]; try discriminate.
  destruct (sc_cmp s _) eqn:E; try discriminate. apply sc_cmp_eq in E. rewrite E. fin.
Qed.

(* The concrete script, EVERY interleaving

   Reflective exploration (RaftLive.check).  The election round, once per value of `fix_vote_term`, ends in steady
   states (two: they differ in the peer whose vote the candidate counted); from these the two appends and the
   heartbeat round, in which no Vote request occurs and which are therefore explored once for all revisions, end in
   the goal state. *)
Lemma explore3 : exists L1,
  (forall x, phases (Some x) 13 [Tick 0 0 []] [init_default 3] = Some L1) /\
  forallb (steady3_b 0 0 []) L1 = true /\
  check None 13 (tl script3) (fun c => all_synced_b c [101; 102]) L1 = true.
Proof. eexists. split; [intros [|]; vm_compute; reflexivity | split; vm_compute; reflexivity]. Qed.

Lemma elect_all : forall rv c',
  dl_run rv (step rv (init_default 3) (Tick 0 0 [])) c' -> steady3s 0 0 [] (strip c').
Proof.
  intros [x b c] c' R. destruct explore3 as [L1 [P [S _]]].
  destruct (phases_sound _ x b c _ _ _ _ (or_intror eq_refl) (P x) (init_default 3) c' (covers_self _)) as [y [Hy E]].
  { eapply ff_act; [exact R | apply ff_nil]. }
  rewrite <- E. apply steady3_b_sound. rewrite forallb_forall in S. exact (S y Hy).
Qed.

(* heartbeat round from a steady state: EVERY interleaving *)
Lemma hb_all : forall rv k pt L v1 v2 t1 c1 t2 c2 r10 r12 r20 r21,
  ReachF any_msg rv (steady3s k pt L) (nstep rv (ssx k pt L v1 v2 t1 c1 t2 c2 r10 r12 r20 r21) (Tick 0 1001 [1; 2])).
Proof.
  intros. unfold ssx.
  match goal with |- ReachF _ ?rv ?G ?s => eassert (E0 : s = _) by (sym_eval; reflexivity) end.
  rewrite E0. clear E0.
  match goal with |- ReachF ?ok ?rv ?G ?s => explore ltac:(idtac) ok rv G s ltac:(fin) ltac:(fun _ => assumption) end.
Qed.

(* append round, every per-channel-FIFO interleaving: first entry (the followers' last-entry term is 0) *)
Lemma round0_pf : forall rv d v1 v2 t1 c1 t2 c2 r10 r12 r20 r21,
  ReachF deliverable rv (steady3s 1 1 [mkEntry 1 1 d]) (nstep rv (ssx 0 0 [] v1 v2 t1 c1 t2 c2 r10 r12 r20 r21) (ClientAppend 0 d)).
Proof.
  intros. unfold ssx.
  match goal with |- ReachF _ ?rv ?G ?s => eassert (E0 : s = _) by (vm_compute; reflexivity) end.
  rewrite E0. clear E0.
  match goal with |- ReachF ?ok ?rv ?G ?s => explore ltac:(vm_compute) ok rv G s ltac:(fin) ltac:(fun _ => assumption) end.
Qed.

(* ... and every later entry (symbolic k, L, payload) *)
Lemma round_pf : forall rv k L d v1 v2 t1 c1 t2 c2 r10 r12 r20 r21, 1 <= k -> length L = N.to_nat k ->
  ReachF deliverable rv (steady3s (k + 1) 1 (L ++ [mkEntry (k + 1) 1 d]))
         (nstep rv (ssx k 1 L v1 v2 t1 c1 t2 c2 r10 r12 r20 r21) (ClientAppend 0 d)).
Proof.
  intros rv k L d v1 v2 t1 c1 t2 c2 r10 r12 r20 r21 Hk HL. unfold ssx.
  match goal with |- ReachF _ ?rv ?G ?s => eassert (E0 : s = _) by (sym_eval; reflexivity) end.
  rewrite E0. clear E0.
  match goal with |- ReachF ?ok ?rv ?G ?s =>
    explore ltac:(clear - Hk HL) ok rv G s ltac:(fin) ltac:(fun _ => assumption) end.
Qed.

Theorem live_pf_3 : forall rv payloads c',
  pff_run rv (live_actions 3 payloads) (init_default 3) c' ->
  steady3s (lenN payloads) (pt_of (lenN payloads)) (mk_log 1 0 payloads) (strip c').
Proof.
  intros rv.
  apply (live_steady rv 3 (pf_run rv) (pff_run rv) steady3s (pff_run_nil rv) (pff_run_cons rv)).
  - intros c1 D. exact (elect_all rv c1 (pf_run_dl _ _ _ D)).
  - intros k L d c c1 HL Hc D. revert d c c1 Hc D.
    apply (steady_cases (fun k pt L pt' => forall d c c1,
             steady3s k pt L (strip c) -> pf_run rv (step rv c (ClientAppend 0 d)) c1 ->
             steady3s (k + 1) pt' (L ++ [mkEntry (k + 1) 1 d]) (strip c1))); [| |exact HL].
    + intros d c c1 [v1 [v2 [t1 [c1' [t2 [c2 [r10 [r12 [r20 [r21 Hc]]]]]]]]]] D.
      exact (reach_after _ _ _ _ _ _ _ (round0_pf rv d v1 v2 t1 c1' t2 c2 r10 r12 r20 r21) Hc (pf_run_ok _ _ _ D)).
    + intros k' L' Hk HL' d c c1 [v1 [v2 [t1 [c1' [t2 [c2 [r10 [r12 [r20 [r21 Hc]]]]]]]]]] D.
      exact (reach_after _ _ _ _ _ _ _ (round_pf rv k' L' d v1 v2 t1 c1' t2 c2 r10 r12 r20 r21 Hk HL') Hc (pf_run_ok _ _ _ D)).
  - intros k pt L c c1 [v1 [v2 [t1 [c1' [t2 [c2 [r10 [r12 [r20 [r21 Hc]]]]]]]]]] D.
    exact (reach_after _ _ _ _ _ _ _ (hb_all rv k pt L v1 v2 t1 c1' t2 c2 r10 r12 r20 r21) Hc
             (dl_run_ok _ _ _ (pf_run_dl _ _ _ D))).
Qed.
