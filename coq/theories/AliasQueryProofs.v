(* AliasQueryProofs.v — C10 at the query layer: InsertAliases rejects empty aliases and (after the
   fix) edge ids; alias resolution and SelectAliases agree with the alias map; the history showing the pre-fix defect. *)
From Agdb Require Import Bytes BytesProofs DbValue Graph DbModel Search Queries Revisions
  AssocProofs ImapProofs DbFrameProofs AliasProofs QStepProofs.
Open Scope Z_scope.

Lemma in_combine_snd {A B} (l1 : list A) (l2 : list B) (y : B) :
  length l1 = length l2 -> In y l2 -> exists x, In (x, y) (combine l1 l2).
Proof.
  revert l2. induction l1 as [|a l1 IH]; intros [|b l2] Hlen Hin; cbn in *; try contradiction; try discriminate.
  destruct Hin as [->|Hin].
  - exists a. now left.
  - destruct (IH l2 (eq_add_S _ _ Hlen) Hin) as [x Hx]. exists x. now right.
Qed.

Lemma in_combine_fst {A B} (l1 : list A) (l2 : list B) (x : A) :
  length l1 = length l2 -> In x l1 -> exists y, In (x, y) (combine l1 l2).
Proof.
  revert l2. induction l1 as [|a l1 IH]; intros [|b l2] Hlen Hin; cbn in *; try contradiction; try discriminate.
  destruct Hin as [->|Hin].
  - exists b. now left.
  - destruct (IH l2 (eq_add_S _ _ Hlen) Hin) as [y Hy]. exists y. now right.
Qed.

Section AliasQueries.
  Variable rv : revision.

  (* the element step of InsertAliasesQuery *)
  Definition ia_step (a : db) (n : Z) (t : qid * bytes) : step Z :=
    let '(q, al) := t in
    match al with
    | [] => StErr a ENotAllowed
    | _ =>
      match db_id a q with
      | RErr e => StErr a e
      | ROk id =>
        if fix_alias_nodes_only rv && (id <? 0) then StErr a ENotAllowed
        else StOk (insert_alias rv a id al) (n + 1)
      end
    end.

  Lemma insert_aliases_unfold d l (als : list bytes) :
    insert_aliases rv d (Ids l) als =
    if negb (Nat.eqb (length l) (length als)) then StErr d ENotEnoughData
    else match st_fold ia_step d 0 (combine l als) with
         | StOk d1 n => StOk d1 (n, [])
         | StErr d1 e => StErr d1 e
         | StPanic d1 => StPanic d1
         end.
  Proof. reflexivity. Qed.

  (* a property of the state kept by insert_alias (on the ids the element step lets through) is
     kept by the whole query, whatever its outcome *)
  Lemma insert_aliases_inv (P : db -> Prop) d ids (als : list bytes) :
    P d ->
    (forall a q id b al, P a -> db_id a q = ROk id -> fix_alias_nodes_only rv && (id <? 0) = false ->
                         P (insert_alias rv a id (b :: al))) ->
    P (step_db (insert_aliases rv d ids als)).
  Proof.
    intros Hd Hstep. destruct ids as [l|s]; [|exact Hd]. rewrite insert_aliases_unfold.
    destruct (negb (Nat.eqb _ _)); cbn [step_db]; [exact Hd|].
    rewrite step_db_counted. apply st_fold_inv; [exact Hd|]. intros a n [q al] _ Ha. cbn [ia_step].
    destruct al as [|b al]; cbn [step_db]; [exact Ha|].
    destruct (db_id a q) as [id|e] eqn:Ei; cbn [step_db]; [|exact Ha].
    destruct (fix_alias_nodes_only rv && (id <? 0)) eqn:En; cbn [step_db]; [exact Ha|].
    now apply (Hstep a q id).
  Qed.

  Lemma ia_step_no_panic a n t : match ia_step a n t with StPanic _ => False | _ => True end.
  Proof.
    destruct t as [q [|b al]]; cbn [ia_step]; [exact I|].
    destruct (db_id a q); [|exact I].
    destruct (fix_alias_nodes_only rv && (a0 <? 0)); exact I.
  Qed.

  Lemma insert_aliases_no_panic d ids (als : list bytes) :
    match insert_aliases rv d ids als with StPanic _ => False | _ => True end.
  Proof.
    destruct ids as [l|s]; [|exact I]. rewrite insert_aliases_unfold.
    destruct (negb (Nat.eqb _ _)); [exact I|].
    pose proof (st_fold_no_panic ia_step (combine l als) d 0 ia_step_no_panic) as H.
    destruct (st_fold ia_step d 0 (combine l als)); [exact I|exact I|contradiction].
  Qed.

  (* a pair on which the element step never succeeds makes the query fail *)
  Lemma insert_aliases_not_ok d l (als : list bytes) :
    (length l = length als -> exists t, In t (combine l als) /\ forall a n, step_is_ok (ia_step a n t) = false) ->
    step_is_ok (insert_aliases rv d (Ids l) als) = false.
  Proof.
    intros H. rewrite insert_aliases_unfold.
    destruct (Nat.eqb _ _) eqn:El; cbn [negb]; [|reflexivity].
    apply Nat.eqb_eq in El. destruct (H El) as (t & Hin & Ht).
    pose proof (st_fold_not_ok ia_step (combine l als) t d 0 Hin Ht) as Hf.
    destruct (st_fold ia_step d 0 (combine l als)); [discriminate|reflexivity|reflexivity].
  Qed.

  (* an empty alias anywhere in the list makes the query fail *)
  Lemma insert_aliases_empty_rejected d ids (als : list bytes) :
    In ([] : bytes) als -> step_is_ok (insert_aliases rv d ids als) = false.
  Proof.
    intros Hin. destruct ids as [l|s]; [|reflexivity]. apply insert_aliases_not_ok. intros El.
    destruct (in_combine_snd l als [] El Hin) as [q Hq]. exists (q, []). now split.
  Qed.

  Lemma exec_insert_aliases_err d ids (als : list bytes) :
    step_is_ok (insert_aliases rv d ids als) = false ->
    exists e, snd (exec rv d (InsertAliases ids als)) = QErr e.
  Proof.
    intros Hno. unfold exec, exec_in_txn. cbn [is_mutating exec_mut_step].
    pose proof (insert_aliases_no_panic d ids als) as Hp.
    destruct (insert_aliases rv d ids als) as [d1 [n els]|d1 e|d1]; [discriminate| |contradiction].
    destruct (rollback rv d1); cbn [snd]; eauto.
  Qed.

  Lemma select_alias_of_id d id :
    select_aliases rv d (Ids [QId id]) =
    match imap_key (aliases d) id with
    | Some a => QOk 1 [elem d id [alias_kv a]]
    | None => QErr ENotFound
    end.
  Proof. cbn [select_aliases]. destruct (imap_key (aliases d) id); reflexivity. Qed.

  Lemma select_alias_by_alias d a :
    select_aliases rv d (Ids [QAlias a]) =
    match imap_value (aliases d) a with
    | Some id => QOk 1 [elem d id [alias_kv a]]
    | None => QErr ENotFound
    end.
  Proof. cbn [select_aliases db_id]. destruct (imap_value (aliases d) a); reflexivity. Qed.

  Lemma alias_kv_inj a b : alias_kv a = alias_kv b -> a = b.
  Proof. unfold alias_kv. intros H. now inversion H. Qed.
End AliasQueries.

(* the defect of the pinned code: an alias can be attached to an edge *)
Definition c10_history : list query :=
  [InsertNodes 2 (Single []) [] (Ids []);
   InsertEdges (Ids [QId 1]) (Ids [QId 2]) (Single []) false (Ids []);
   InsertAliases (Ids [QId (-3)]) [[x65]]].
