(* RaftLogAck.v — the root-cause marker of the class `commit-without-quorum` (RaftLog.stale_ack_counted_b) and the
   acknowledgement repair (Raft.v: fix_ack_term; fixes/C28-count-only-current-term-acks.diff).

   THEOREM `stale_ack_never`: in every revision with the acknowledgement repair — in particular `rr_fixed` —, for every
   cluster size and every adversarial event list, no Leader ever counts, at a commit step, a row of its peer table that
   was not written by `commit()` from an Ok answer to an Append/Heartbeat request of its current term since it became
   Leader.  Invariant `AG`: every row (of another node) of a Leader's table that is not such an acknowledgement has
   log_index 0 — the rows are cleared when the node becomes Leader (`vote_received`), and while a node is and stays
   Leader the rows of other nodes are written by `commit()` only, which the guard of `response()` lets run only for
   answers to requests of the current term; a row with log_index 0 is never counted at a step that raises the commit
   index.  No election invariant is needed: the statement holds whatever the two election flags are.

   Witnesses (vm_compute): the two `commit_noquorum` corpus histories set the marker in the revisions without the
   repair (`rr_before_ack_fix`), and not in `rr_fixed`. *)
From Coq Require Import NArith List Bool Lia Arith.
From Agdb Require Import Raft RaftWitness RaftInv RaftElect RaftLog.
Import ListNotations.
Open Scope N_scope.

Lemma node_at_upd_peer_neq : forall nd k f j, j <> k -> node_at (upd_peer nd k f) j = node_at nd j.
Proof.
  intros nd k f j H. unfold node_at, upd_peer. cbn [n_peers set_peers].
  apply nth_upd_nth_neq. intros E. apply H. apply N2Nat.inj. congruence.
Qed.

Lemma commit_storage_rows : forall nd idx j,
  j <> n_index nd -> node_at (commit_storage nd idx) j = node_at nd j.
Proof.
  intros nd idx j H. unfold commit_storage, upd_local.
  change (n_index (st_commit nd idx)) with (n_index nd). rewrite node_at_upd_peer_neq by exact H. reflexivity.
Qed.

Lemma append_rows : forall nd d,
  n_index (fst (append nd d)) = n_index nd /\
  forall j, j <> n_index nd -> node_at (fst (append nd d)) j = node_at nd j.
Proof.
  intros nd d. unfold append. cbn [fst].
  set (nd1 := upd_local nd (fun p => p_set_log (p_li p + 1) (n_term nd) p)).
  assert (R1 : forall j, j <> n_index nd -> node_at nd1 j = node_at nd j)
    by (intros; unfold nd1, upd_local; apply node_at_upd_peer_neq; auto).
  destruct (_ =? 1); split; try reflexivity.
  - intros j H. rewrite commit_storage_rows by exact H. apply R1; exact H.
  - intros j H. apply R1; exact H.
Qed.

(* a response handled by a node that is and stays Leader: the rows of the other nodes are untouched, except the
   row of the answering node when the answer is an Ok to an Append/Heartbeat that passes the guard (`commit()`) *)
Lemma response_rows_leader : forall rv nd r s,
  n_state nd = Leader -> is_leader (n_state (fst (handle_response rv nd r s))) = true ->
  n_index (fst (handle_response rv nd r s)) = n_index nd /\
  forall j, j <> n_index nd ->
    node_at (fst (handle_response rv nd r s)) j = node_at nd j \/
    (is_append_or_hb (q_kind r) && is_ok (s_result s) = true /\ ack_counts rv nd r = true /\ j = q_to r).
Proof.
  intros rv nd r s SL.
  destruct (response_case rv nd r s) as [ |S|S|S K R VC|S K R VC Q|S A AC|S A AC Q|cl S|l T]; cbn [fst reconcile];
    try congruence; intros L'; try (split; [reflexivity | intros j _; left; reflexivity]).
  - split; [reflexivity|]. intros j Hj.
    destruct (N.eq_dec j (q_to r)) as [E|E]; [right; auto | left; apply node_at_upd_peer_neq; exact E].
  - split; [reflexivity|]. intros j Hj. destruct (N.eq_dec j (q_to r)) as [E|E]; [right; auto | left].
    rewrite commit_storage_rows by exact Hj. apply node_at_upd_peer_neq; exact E.
Qed.

(* a node that becomes Leader (repaired revision): every row of another node is cleared *)
Lemma response_rows_elected : forall rv nd r s,
  fix_ack_term rv = true ->
  is_leader (n_state nd) = false -> is_leader (n_state (fst (handle_response rv nd r s))) = true ->
  forall j, j <> n_index (fst (handle_response rv nd r s)) -> p_li (node_at (fst (handle_response rv nd r s)) j) = 0.
Proof.
  intros rv nd r s F.
  destruct (response_case rv nd r s) as [ |S|S|S K R VC|S K R VC Q|S A AC|S A AC Q|cl S|l T]; cbn [fst reconcile];
    intros L L'; try congruence; try (cbn in L'; congruence); try (rewrite S in L; discriminate L).
  rewrite F. intros j Hj. rewrite node_at_reset_rows.
  match goal with |- context [?a =? ?b] => destruct (N.eqb_spec a b) end; [exfalso; apply Hj; assumption | reflexivity].
Qed.

(* nd -> nd' is one of: not Leader afterwards; newly elected with all other rows cleared; Leader before and after
   with the rows of the other nodes untouched except the one `commit()` wrote from the counted Ok answer `ack` *)
Definition trans (rv : raftrev) (nd nd' : node) (ack : option request) : Prop :=
  is_leader (n_state nd') = false \/
  (is_leader (n_state nd) = false /\ forall j, j <> n_index nd' -> p_li (node_at nd' j) = 0) \/
  (is_leader (n_state nd) = true /\ n_index nd' = n_index nd /\
   forall j, j <> n_index nd ->
     node_at nd' j = node_at nd j \/ (exists r, ack = Some r /\ ack_counts rv nd r = true /\ j = q_to r)).

Lemma trans_same : forall rv nd ack, trans rv nd nd ack.
Proof.
  intros rv nd ack. destruct (is_leader (n_state nd)) eqn:L; [|left; exact L].
  right; right. split; [exact L|]. split; [reflexivity|]. intros; left; reflexivity.
Qed.

Lemma trans_process : forall rv nd el due, trans rv nd (fst (process nd el due)) None.
Proof.
  intros rv nd el due. destruct (is_leader (n_state (fst (process nd el due)))) eqn:L'; [|left; exact L'].
  rewrite (process_keeps nd el due (leader_cl _ L')). apply trans_same.
Qed.

Lemma trans_request : forall rv nd r el, trans rv nd (fst (handle_request rv nd r el)) None.
Proof.
  intros rv nd r el. destruct (is_leader (n_state (fst (handle_request rv nd r el)))) eqn:L'; [|left; exact L'].
  rewrite (request_keeps rv nd r el (leader_cl _ L')). apply trans_same.
Qed.

Lemma trans_append : forall rv nd d, trans rv nd (fst (append nd d)) None.
Proof.
  intros rv nd d. destruct (is_leader (n_state nd)) eqn:L.
  - right; right. destruct (append_rows nd d) as [I R]. split; [exact L|]. split; [exact I|].
    intros j Hj. left. apply R; exact Hj.
  - left. rewrite append_state. exact L.
Qed.

Lemma trans_response : forall rv nd r s,
  fix_ack_term rv = true ->
  trans rv nd (fst (handle_response rv nd r s))
        (if is_append_or_hb (q_kind r) && is_ok (s_result s) then Some r else None).
Proof.
  intros rv nd r s F.
  destruct (is_leader (n_state (fst (handle_response rv nd r s)))) eqn:L'; [|left; exact L'].
  destruct (is_leader (n_state nd)) eqn:L.
  - right; right. assert (S : n_state nd = Leader) by (destruct (n_state nd); try discriminate; reflexivity).
    destruct (response_rows_leader rv nd r s S L') as [I R]. split; [exact L|]. split; [exact I|].
    intros j Hj. destruct (R j Hj) as [E|(C & AC & E)]; [left; exact E|].
    right. exists r. rewrite C. auto.
  - right; left. split; [exact L|]. apply response_rows_elected; auto.
Qed.

(* every row, of another node, of a Leader's table that is not a fresh acknowledgement has log_index 0 *)
Definition AGn (nodes : list node) (g : ackg) : Prop :=
  forall i nd, nth_error nodes (N.to_nat i) = Some nd -> is_leader (n_state nd) = true ->
  forall j, j <> n_index nd -> g i j = false -> p_li (node_at nd j) = 0.

Definition AG (c : cluster) (g : ackg) : Prop := AGn (c_nodes c) g.

Lemma step_acting : forall rv c ev i ack nd,
  fix_ack_term rv = true ->
  acting c ev = Some (i, ack) -> get_node c i = Some nd ->
  exists nd', get_node (step rv c ev) i = Some nd' /\ trans rv nd nd' ack /\
              forall i', i' <> i -> get_node (step rv c ev) i' = get_node c i'.
Proof.
  intros rv c ev i ack nd F A G.
  assert (Put : forall nd' net h, trans rv nd nd' ack ->
            exists nd'', get_node (mkCluster (put_node c i nd') net h) i = Some nd'' /\ trans rv nd nd'' ack /\
                         forall i', i' <> i -> get_node (mkCluster (put_node c i nd') net h) i' = get_node c i').
  { intros nd' net h T. exists nd'. split; [apply (get_put_eq c i nd nd' net h G)|]. split; [exact T|].
    intros i' H. apply get_put_neq; exact H. }
  destruct (step_case rv c ev) as [e0 c' En Eh Hnet | i0 nd0 el due G0 | i0 nd0 d G0 L | k r el nd0 Hk G0 | k r s el nd0 Hk G0];
    cbn [acting] in A; rewrite ?Hk in A.
  - exists nd. unfold get_node. rewrite En. split; [exact G|]. split; [apply trans_same | reflexivity].
  - inversion A; subst i0 ack. rewrite G in G0. inversion G0; subst nd0. apply Put, trans_process.
  - inversion A; subst i0 ack. rewrite G in G0. inversion G0; subst nd0. apply Put, trans_append.
  - inversion A; subst i ack. rewrite G in G0. inversion G0; subst nd0. apply Put, trans_request.
  - inversion A; subst i ack. rewrite G in G0. inversion G0; subst nd0. apply Put, trans_response, F.
Qed.

(* steps without an acting node, or whose acting node does not exist, leave all nodes alone *)
Lemma step_no_actor : forall rv c ev,
  match acting c ev with
  | None => True
  | Some (i, _) => get_node c i = None
  end -> c_nodes (step rv c ev) = c_nodes c.
Proof.
  intros rv c ev H.
  destruct (step_case rv c ev) as [e0 c' En _ _ | i nd el due G | i nd d G L | k r el nd Hk G | k r s el nd Hk G];
    cbn [acting] in H; rewrite ?Hk in H; [exact En | congruence ..].
Qed.

Lemma ack_counts_fixed : forall rv nd r, fix_ack_term rv = true -> ack_counts rv nd r = (q_term r =? n_term nd).
Proof. intros rv nd r F. unfold ack_counts. rewrite F. cbn [negb]. apply orb_false_r. Qed.

Lemma ackg_step_inv : forall rv c g ev,
  fix_ack_term rv = true -> AG c g ->
  AG (step rv c ev) (fst (ackg_step rv c g ev)) /\ snd (ackg_step rv c g ev) = false.
Proof.
  intros rv c g ev F Ag. unfold ackg_step.
  destruct (acting c ev) as [[i ack]|] eqn:A.
  2:{ cbn [fst snd]. split; [|reflexivity]. unfold AG. rewrite (step_no_actor rv c ev) by (rewrite A; exact I). exact Ag. }
  destruct (get_node c i) as [nd|] eqn:G.
  2:{ cbn [fst snd]. split; [|reflexivity]. unfold AG. rewrite (step_no_actor rv c ev) by (rewrite A; exact G). exact Ag. }
  destruct (step_acting rv c ev i ack nd F A G) as (nd' & G' & T & O). rewrite G'.
  destruct (is_leader (n_state nd) && is_leader (n_state nd')) eqn:LL.
  - (* Leader before and after *)
    apply andb_true_iff in LL as [L L'].
    destruct T as [T|[[T _]|(_ & I & R)]]; [congruence|congruence|].
    set (g' := match ack with
               | Some r => if ack_counts rv nd r then ackg_set g i (q_to r) (q_term r =? n_term nd) else g
               | None => g end).
    cbn [fst snd].
    assert (Ag' : AG (step rv c ev) g').
    { intros i0 nd0 G0 L0 j Hj Hf. destruct (N.eq_dec i0 i) as [->|Hi].
      - unfold get_node in G'. rewrite G' in G0. inversion G0; subst nd0. rewrite I in Hj.
        assert (Hg : g i j = false \/ exists r, ack = Some r /\ ack_counts rv nd r = true /\ j = q_to r).
        { unfold g' in Hf. destruct ack as [r|]; [|left; exact Hf].
          destruct (ack_counts rv nd r) eqn:AC; [|left; exact Hf].
          unfold ackg_set in Hf. rewrite N.eqb_refl in Hf. cbn [andb] in Hf.
          destruct (N.eqb_spec j (q_to r)) as [E|E]; [right; exists r; auto | left; exact Hf]. }
        assert (No : ~ exists r, ack = Some r /\ ack_counts rv nd r = true /\ j = q_to r).
        { intros (r & E & AC & Ej). unfold g' in Hf. rewrite E, AC in Hf. unfold ackg_set in Hf.
          rewrite N.eqb_refl in Hf. subst j. rewrite N.eqb_refl in Hf. cbn [andb] in Hf.
          rewrite (ack_counts_fixed rv nd r F) in AC. congruence. }
        destruct Hg as [Hg|Hg]; [|contradiction].
        destruct (R j Hj) as [E|E]; [|contradiction].
        rewrite E. apply (Ag i nd G L j Hj Hg).
      - assert (E : g' i0 j = g i0 j).
        { unfold g'. destruct ack as [r|]; [|reflexivity]. destruct (ack_counts rv nd r); [|reflexivity].
          unfold ackg_set. apply N.eqb_neq in Hi. rewrite Hi. reflexivity. }
        rewrite E in Hf. pose proof (O i0 Hi) as Oi. unfold get_node in Oi. rewrite Oi in G0.
        apply (Ag i0 nd0 G0 L0 j Hj Hf). }
    split; [exact Ag'|].
    destruct (N.ltb_spec (n_commit nd) (n_commit nd')) as [Hc|Hc]; [|reflexivity]. cbn [andb].
    unfold stale_counted. destruct (existsb _ _) eqn:Ex; [|reflexivity]. exfalso.
    apply existsb_exists in Ex as (j & _ & Hj).
    apply andb_true_iff in Hj as [Hj Hf]. apply andb_true_iff in Hj as [Hj Hc'].
    apply negb_true_iff in Hj, Hf. apply N.eqb_neq in Hj. apply N.leb_le in Hc'.
    pose proof (Ag' i nd' G' L' j Hj Hf) as Z. lia.
  - (* not Leader before, or not Leader after: the rows are no acknowledgements any more *)
    cbn [fst snd]. split; [|reflexivity].
    intros i0 nd0 G0 L0 j Hj Hf. destruct (N.eq_dec i0 i) as [->|Hi].
    + unfold get_node in G'. rewrite G' in G0. inversion G0; subst nd0.
      destruct T as [T|[[_ Z]|(L & _)]]; [congruence | apply Z; exact Hj | rewrite L, L0 in LL; discriminate LL].
    + unfold ackg_clear in Hf. apply N.eqb_neq in Hi. rewrite Hi in Hf.
      apply N.eqb_neq in Hi. pose proof (O i0 Hi) as Oi. unfold get_node in Oi. rewrite Oi in G0.
      apply (Ag i0 nd0 G0 L0 j Hj Hf).
Qed.

Lemma stale_ack_from_false : forall rv, fix_ack_term rv = true ->
  forall evs c g, AG c g -> stale_ack_from rv c g evs = false.
Proof.
  intros rv F. induction evs as [|e evs IH]; intros c g Ag; cbn [stale_ack_from]; [reflexivity|].
  destruct (ackg_step_inv rv c g e F Ag) as [Ag' B].
  destruct (ackg_step rv c g e) as [g' b]. cbn [fst snd] in *. subst b. cbn [orb]. apply IH. exact Ag'.
Qed.

Lemma init_rows_zero : forall (f : nat -> bool) l k, p_li (nth k (map (fun i => mkPeer 0 0 0 (f i)) l) peer0) = 0.
Proof. induction l as [|a l IH]; intros k; destruct k; cbn; auto. Qed.

Lemma init_AG : forall size, AG (init_default size) ackg0.
Proof.
  intros size i nd G _ j _ _. unfold init_default, init in G. cbn [c_nodes] in G.
  apply nth_error_In in G. apply in_map_iff in G as [k [<- _]].
  unfold node_at, new_node. cbn [n_peers]. apply init_rows_zero.
Qed.

(* with the acknowledgement repair, a Leader never counts a row that is not an acknowledgement of its current term:
   every revision with fix_ack_term, EVERY cluster size, every adversarial event list *)
Theorem stale_ack_never : forall rv size evs,
  fix_ack_term rv = true -> stale_ack_counted_b rv size evs = false.
Proof. intros rv size evs F. unfold stale_ack_counted_b. apply stale_ack_from_false; [exact F | apply init_AG]. Qed.

Theorem stale_ack_never_fixed : forall size evs, stale_ack_counted_b rr_fixed size evs = false.
Proof. intros. apply stale_ack_never. reflexivity. Qed.

(* the two `commit-without-quorum` corpus histories: before the repair the leader of term 2 counts the stale row of
   the deposed leader (root-cause marker set, and the semantic marker with it); under rr_fixed neither is set
   (RaftLogProofs.commit_noquorum_witnesses_harmless_fixed, stale_ack_never_fixed) *)
Lemma stale_ack_witnesses : forall rv, fix_ack_term rv = false ->
  stale_ack_counted_b rv w28_commit_noquorum_n w28_commit_noquorum = true /\
  stale_ack_counted_b rv w29_commit_noquorum_n w29_commit_noquorum = true.
Proof. intros [[|] [|] [|]] F; try discriminate F; vm_compute; split; reflexivity. Qed.

Lemma stale_ack_witnesses_before_ack_fix :
  stale_ack_counted_b rr_before_ack_fix w28_commit_noquorum_n w28_commit_noquorum = true /\
  stale_ack_counted_b rr_before_ack_fix w29_commit_noquorum_n w29_commit_noquorum = true.
Proof. apply stale_ack_witnesses. reflexivity. Qed.

(* the marker is a genuine function of the run: two other corpus witnesses of C28/C29, in which leaders commit but no
   stale row is counted, have it false in every revision; the commit_noquorum ones have it true before the repair *)
Lemma stale_ack_other_witnesses : forall rv,
  stale_ack_counted_b rv w28_ack_diverged_n w28_ack_diverged = false /\
  stale_ack_counted_b rv w29_late_leader_n w29_late_leader = false.
Proof. intros [[|] [|] [|]]; vm_compute; split; reflexivity. Qed.
