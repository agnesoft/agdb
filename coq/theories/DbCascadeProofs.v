(* DbCascadeProofs.v — the DbImpl-level cascade of remove (C08 "together with their properties"):
   removing a node through DbModel.remove_id removes the node, every incident edge, the
   key-value lists of all of them, and the node's alias; it never fails on a well-formed graph. *)
From Agdb Require Import Bytes DbValue Graph DbModel.
From Agdb Require Import GraphArr GraphSim GraphProofs GraphRemove GraphSpec GraphWf.
From Coq Require Import ZifyBool ZifyNat ZifyN.
Ltac Zify.zify_post_hook ::= Z.div_mod_to_equations.
Open Scope Z_scope.

Lemma nth_kvs_set_nth (s : kvstore) (n : nat) (v : list kv) (m : nat) :
  nth m (kvs_set_nth s n v) [] = if Nat.eqb n m then v else nth m s [].
Proof.
  revert n m. induction s as [|x r IH]; intros n m.
  - revert m. induction n as [|n IHn]; intros m; cbn [kvs_set_nth].
    + destruct m as [|m]; cbn [nth Nat.eqb]; [reflexivity|]. destruct m; reflexivity.
    + destruct m as [|m]; cbn [nth Nat.eqb]; [reflexivity|]. rewrite IHn. destruct (Nat.eqb n m); [reflexivity|].
      destruct m; reflexivity.
  - destruct n as [|n], m as [|m]; cbn [kvs_set_nth nth Nat.eqb]; try reflexivity. apply IH.
Qed.

Lemma nth_removelast {A} (l : list A) (d : A) (m : nat) :
  nth m (removelast l) d = if Nat.ltb (S m) (length l) then nth m l d else d.
Proof.
  revert m. induction l as [|x r IH]; intros m; cbn [removelast length].
  - destruct m; reflexivity.
  - destruct r as [|y r'].
    + cbn [length]. destruct m; reflexivity.
    + destruct m as [|m]; [reflexivity|]. cbn [nth]. rewrite IH. cbn [length].
      change (S (S m) <? S (S (length r')))%nat with (S m <? S (length r'))%nat. reflexivity.
Qed.

Lemma kvs_get_remove_same s i : kvs_get (kvs_remove s i) i = [].
Proof.
  unfold kvs_get, kvs_remove.
  destruct (Nat.eqb_spec (S (zabs_nat i)) (length s)) as [E|E].
  - rewrite nth_removelast. destruct (Nat.ltb_spec (S (zabs_nat i)) (length s)); [lia|reflexivity].
  - destruct (Nat.ltb_spec (zabs_nat i) (length s)) as [L|L].
    + unfold kvs_set. rewrite nth_kvs_set_nth, Nat.eqb_refl. reflexivity.
    + apply nth_overflow. lia.
Qed.

Lemma kvs_get_remove_keep s i j : kvs_get s j = [] -> kvs_get (kvs_remove s i) j = [].
Proof.
  unfold kvs_get, kvs_remove. intros H.
  destruct (Nat.eqb_spec (S (zabs_nat i)) (length s)) as [E|E].
  - rewrite nth_removelast. destruct (Nat.ltb (S (zabs_nat j)) (length s)); [assumption|reflexivity].
  - destruct (Nat.ltb_spec (zabs_nat i) (length s)) as [L|L]; [|assumption].
    unfold kvs_set. rewrite nth_kvs_set_nth. destruct (Nat.eqb (zabs_nat i) (zabs_nat j)); [reflexivity|assumption].
Qed.

(* remove_all_values only touches values, indexes and the undo stack *)

Lemma rav_fold_proj id l d :
  let d1 := fold_left (fun acc (x : kv) =>
              push_undo (index_remove_if acc (fst x) (snd x) id) (CInsertKeyValue id x)) l d in
  gr d1 = gr d /\ aliases d1 = aliases d /\ vals d1 = vals d.
Proof.
  revert d. induction l as [|x r IH]; intros d; cbn [fold_left]; [auto|].
  destruct (IH (push_undo (index_remove_if d (fst x) (snd x) id) (CInsertKeyValue id x))) as [H1 [H2 H3]].
  cbn zeta in *. rewrite H1, H2, H3. auto.
Qed.

Lemma rav_proj d id :
  gr (remove_all_values d id) = gr d /\ aliases (remove_all_values d id) = aliases d /\
  vals (remove_all_values d id) = kvs_remove (vals d) id.
Proof.
  unfold remove_all_values. cbn [gr aliases vals with_vals].
  destruct (rav_fold_proj id (kvs_get (vals d) id) d) as [H1 [H2 H3]]. cbn zeta in *.
  rewrite H1, H2, H3. auto.
Qed.

Lemma alookup_aremove {K V} (keqb : K -> K -> bool) (m : list (K * V)) k :
  alookup keqb (aremove keqb m k) k = None.
Proof.
  induction m as [|[k' v] r IH]; cbn [aremove alookup]; [reflexivity|].
  destruct (keqb k' k) eqn:E; [exact IH|]. cbn [alookup]. rewrite E. exact IH.
Qed.

Lemma imap_value_remove_key m a : imap_value (imap_remove_key m a) a = None.
Proof. unfold imap_value, imap_remove_key. cbn [k2v]. apply alookup_aremove. Qed.

Definition cascade_step (acc : db * option errkind) (e : Z * Z * Z) : db * option errkind :=
  match acc with
  | (a, Some k) => (a, Some k)
  | (a, None) =>
    let '(ei, f, t) := e in
    match Graph.remove_edge (gr a) ei with
    | Some g => (remove_all_values (push_undo (with_gr a g) (CInsertEdge f t)) ei, None)
    | None => (a, Some EFuel)
    end
  end.

Lemma cascade_fold (L : list (Z * Z * Z)) :
  forall (a : db) (aa : agraph) (fl : list Z),
    (forall t, In t L -> fst (fst t) <= 0) ->
    sim (gr a) aa fl ->
    exists a' aa' fl',
      fold_left cascade_step L (a, None) = (a', None) /\
      sim (gr a') aa' fl' /\ a_nodes aa' = a_nodes aa /\ incl (a_edges aa') (a_edges aa) /\
      (forall t, In t L -> ~ In (- fst (fst t)) (map eslot (a_edges aa'))) /\
      aliases a' = aliases a /\
      (forall j, kvs_get (vals a) j = [] -> kvs_get (vals a') j = []) /\
      (forall t, In t L -> kvs_get (vals a') (fst (fst t)) = []).
Proof.
  induction L as [|[[ei f] t] r IH]; intros a aa fl Hneg HS.
  - exists a, aa, fl. cbn [fold_left]. split; [reflexivity|]. split; [assumption|]. split; [reflexivity|].
    split; [apply incl_refl|]. split; [intros ? []|]. split; [reflexivity|]. split; [auto|intros ? []].
  - cbn [fold_left cascade_step].
    assert (He : ei <= 0) by (apply (Hneg (ei, f, t)); left; reflexivity).
    destruct (remove_edge_total (gr a) aa fl ei HS He) as (g2 & fl1 & -> & S1).
    set (a1 := remove_all_values (push_undo (with_gr a g2) (CInsertEdge f t)) ei).
    destruct (rav_proj (push_undo (with_gr a g2) (CInsertEdge f t)) ei) as [P1 [P2 P3]].
    fold a1 in P1, P2, P3. cbn [gr aliases vals push_undo with_gr] in P1, P2, P3.
    assert (S1' : sim (gr a1) {| a_nodes := a_nodes aa; a_edges := remE (- ei) (a_edges aa) |} fl1) by (rewrite P1; exact S1).
    destruct (IH a1 {| a_nodes := a_nodes aa; a_edges := remE (- ei) (a_edges aa) |} fl1)
      as [a' [aa' [fl' [F [S' [N' [I' [X' [A' [V' W']]]]]]]]]]; [|exact S1'|].
    { intros t0 Ht0. apply Hneg. right. assumption. }
    exists a', aa', fl'. split; [exact F|]. split; [exact S'|]. cbn [a_nodes a_edges] in *.
    split; [exact N'|]. split.
    { intros x Hx. apply I' in Hx. apply in_remE in Hx. tauto. }
    split.
    { intros t0 [<-|Ht0]; [|apply X'; assumption]. cbn [fst].
      intros Hi. apply in_map_iff in Hi. destruct Hi as [x [Hx Hi]]. apply I' in Hi. apply in_remE in Hi. tauto. }
    split; [rewrite A', P2; reflexivity|]. split.
    { intros j Hj. apply V'. rewrite P3. apply kvs_get_remove_keep. assumption. }
    intros t0 [<-|Ht0]; [|apply W'; assumption]. cbn [fst].
    apply V'. rewrite P3. apply kvs_get_remove_same.
Qed.

Lemma remove_node_db_step_eq d n alias :
  remove_node_db d n alias =
  let d1 := match alias with
            | Some a => with_aliases (push_undo d (CInsertAlias n a))
                                     (imap_remove_key (imap_remove_key (aliases d) a) a)
            | None => d
            end in
  if negb (is_node (gr d1) n) then (d1, Some ENotFound) else
  match fold_left cascade_step (node_edges d1 n) (d1, None) with
  | (d2, Some k) => (d2, Some k)
  | (d2, None) =>
    match Graph.remove_node (gr d2) n with
    | Some g => (push_undo (with_gr d2 g) CInsertNode, None)
    | None => (d2, Some EFuel)
    end
  end.
Proof. reflexivity. Qed.

Lemma node_edges_ids d n t :
  In t (node_edges d n) -> In (fst (fst t)) (out_edges (gr d) n) \/ In (fst (fst t)) (in_edges (gr d) n).
Proof.
  unfold node_edges. rewrite in_app_iff, in_map_iff, in_flat_map. intros [[e [<- He]]|[e [He Ht]]].
  - left. exact He.
  - right. destruct (edge_from (gr d) e =? n); [destruct Ht|]. destruct Ht as [<-|[]]. exact He.
Qed.

Lemma node_edges_cover g' d n e :
  gr d = g' -> wf g' -> 0 < n -> is_node g' n = true ->
  In e (out_edges g' n) \/ In e (in_edges g' n) ->
  exists t, In t (node_edges d n) /\ fst (fst t) = e.
Proof.
  intros <- Hwf Hn Hi H. unfold node_edges.
  destruct (wf_out_edges _ n Hwf Hn Hi) as [_ [Hout _]]. destruct (wf_in_edges _ n Hwf Hn Hi) as [_ [Hin _]].
  assert (Ho : In e (out_edges (gr d) n) \/ (In e (in_edges (gr d) n) /\ edge_from (gr d) e <> n)).
  { destruct H as [H|H]; [left; assumption|].
    destruct (Z.eq_dec (edge_from (gr d) e) n) as [E|E]; [left|right; auto].
    apply Hin in H. apply Hout. tauto. }
  destruct Ho as [Ho|[Ho Hne]].
  - exists (e, edge_from (gr d) e, edge_to (gr d) e). split; [|reflexivity].
    apply in_app_iff. left. apply in_map_iff. exists e. auto.
  - exists (e, edge_from (gr d) e, edge_to (gr d) e). split; [|reflexivity].
    apply in_app_iff. right. apply in_flat_map. exists e. split; [assumption|].
    destruct (Z.eqb_spec (edge_from (gr d) e) n); [contradiction|]. left. reflexivity.
Qed.

Lemma remove_node_db_cascade d n alias :
  wf (gr d) -> 0 < n -> graph_index (gr d) n = true ->
  exists d0 d',
    remove_node_db d n alias = (d0, None) /\ d' = remove_all_values d0 n /\
    wf (gr d') /\
    graph_index (gr d') n = false /\ kvs_get (vals d') n = [] /\
    (forall e, In e (out_edges (gr d) n) \/ In e (in_edges (gr d) n) ->
       graph_index (gr d') e = false /\ kvs_get (vals d') e = []) /\
    (forall al, alias = Some al -> imap_value (aliases d') al = None) /\
    (forall i, graph_index (gr d') i = true -> graph_index (gr d) i = true) /\
    node_count (gr d') = node_count (gr d) - 1.
Proof.
  intros [aa [fl HS]] Hn Hgi.
  assert (Hnode : is_node (gr d) n = true).
  { unfold graph_index in Hgi. destruct (Z.ltb_spec n 0); [lia|]. destruct (Z.ltb_spec 0 n); [assumption|lia]. }
  assert (Hwf : wf (gr d)) by (exists aa, fl; exact HS).
  rewrite remove_node_db_step_eq.
  set (d1 := match alias with
             | Some a => with_aliases (push_undo d (CInsertAlias n a))
                                      (imap_remove_key (imap_remove_key (aliases d) a) a)
             | None => d end).
  assert (G1 : gr d1 = gr d) by (unfold d1; destruct alias; reflexivity).
  assert (V1 : vals d1 = vals d) by (unfold d1; destruct alias; reflexivity).
  assert (A1 : forall al, alias = Some al -> imap_value (aliases d1) al = None).
  { intros al E. unfold d1. rewrite E. cbn [aliases with_aliases]. apply imap_value_remove_key. }
  cbn zeta. rewrite G1, Hnode. cbn [negb].
  assert (Hneg : forall t, In t (node_edges d1 n) -> fst (fst t) <= 0).
  { intros t Ht. apply node_edges_ids in Ht. rewrite G1 in Ht.
    destruct (wf_out_edges _ n Hwf Hn Hnode) as [_ [Hout _]]. destruct (wf_in_edges _ n Hwf Hn Hnode) as [_ [Hin _]].
    destruct Ht as [Ht|Ht]; [apply Hout in Ht|apply Hin in Ht]; lia. }
  assert (HS1 : sim (gr d1) aa fl) by (rewrite G1; exact HS).
  destruct (cascade_fold (node_edges d1 n) d1 aa fl Hneg HS1)
    as [d2 [aa2 [fl2 [F [S2 [N2 [I2 [X2 [A2 [V2 W2]]]]]]]]]].
  rewrite F.
  assert (Hn2 : In n (a_nodes aa2)).
  { rewrite N2. apply (is_node_iff _ _ _ _ _ _ _ _ _ HS) in Hnode. rewrite Z.abs_eq in Hnode by lia. exact Hnode. }
  destruct (remove_node_sim (gr d2) aa2 fl2 n S2 Hn2) as [g3 [fl3 [E3 S3]]]. rewrite E3.
  set (d3 := push_undo (with_gr d2 g3) CInsertNode).
  destruct (rav_proj d3 n) as [P1 [P2 P3]]. cbn [gr aliases vals d3 push_undo with_gr] in P1, P2, P3.
  exists d3, (remove_all_values d3 n). split; [reflexivity|]. split; [reflexivity|].
  rewrite P1, P2, P3.
  split; [eexists; eexists; exact S3|].
  split.
  { destruct (graph_index g3 n) eqn:E; [|reflexivity]. apply (sim_graph_index _ _ _ S3) in E.
    cbn [a_nodes a_edges] in E. destruct E as [[_ E]|[E _]]; [|lia]. apply in_zrem in E. tauto. }
  split; [apply kvs_get_remove_same|].
  split.
  { intros e He.
    destruct (node_edges_cover (gr d) d1 n e G1 Hwf Hn Hnode He) as [t [Ht <-]].
    split.
    - destruct (graph_index g3 (fst (fst t))) eqn:E; [|reflexivity].
      apply (sim_graph_index _ _ _ S3) in E. cbn [a_nodes a_edges] in E.
      specialize (Hneg t Ht). destruct E as [[E _]|[_ E]]; [lia|].
      exfalso. apply (X2 t Ht). apply in_map_iff in E. destruct E as [x [Hx E]].
      apply filter_In in E. apply in_map_iff. exists x. tauto.
    - apply kvs_get_remove_keep. apply W2. assumption. }
  split.
  { intros al E. rewrite A2. apply A1. assumption. }
  split.
  { intros i E. apply (sim_graph_index _ _ _ S3) in E. apply (sim_graph_index _ _ _ HS).
    cbn [a_nodes a_edges] in E. destruct E as [[Hp E]|[Hp E]].
    - left. split; [assumption|]. apply in_zrem in E. rewrite <- N2. tauto.
    - right. split; [assumption|]. apply in_map_iff in E. destruct E as [x [Hx E]].
      apply filter_In in E. apply in_map_iff. exists x. split; [assumption|]. apply I2. tauto. }
  rewrite (sim_node_count _ _ _ S3), (sim_node_count _ _ _ HS). cbn [a_nodes].
  rewrite zrem_length; [rewrite N2; reflexivity|apply (sim_nodes_nodup _ _ _ S2)|assumption].
Qed.

Theorem remove_id_node_cascade d n :
  wf (gr d) -> 0 < n -> graph_index (gr d) n = true ->
  exists d',
    remove_id d n = (d', ROk true) /\
    wf (gr d') /\
    graph_index (gr d') n = false /\ kvs_get (vals d') n = [] /\
    (forall e, In e (out_edges (gr d) n) \/ In e (in_edges (gr d) n) ->
       graph_index (gr d') e = false /\ kvs_get (vals d') e = []) /\
    (forall al, imap_key (aliases d) n = Some al -> imap_value (aliases d') al = None) /\
    (forall i, graph_index (gr d') i = true -> graph_index (gr d) i = true) /\
    node_count (gr d') = node_count (gr d) - 1.
Proof.
  intros Hwf Hn Hgi.
  destruct (remove_node_db_cascade d n (imap_key (aliases d) n) Hwf Hn Hgi) as [d0 [d' [E [-> H]]]].
  exists (remove_all_values d0 n). unfold remove_id. rewrite Hgi.
  destruct (Z.ltb_spec 0 n) as [_|]; [|lia]. rewrite E. split; [reflexivity|exact H].
Qed.

Theorem remove_id_edge_cascade d e :
  wf (gr d) -> e < 0 -> graph_index (gr d) e = true ->
  exists d',
    remove_id d e = (d', ROk true) /\
    wf (gr d') /\
    graph_index (gr d') e = false /\ kvs_get (vals d') e = [] /\
    (forall i, graph_index (gr d') i = true <-> graph_index (gr d) i = true /\ i <> e) /\
    node_count (gr d') = node_count (gr d).
Proof.
  intros [aa [fl HS]] He Hgi.
  unfold remove_id. rewrite Hgi. destruct (Z.ltb_spec 0 e) as [|_]; [lia|].
  unfold remove_edge_db.
  destruct (remove_edge_total (gr d) aa fl e HS (Z.lt_le_incl e 0 He)) as (g2 & fl1 & -> & S1).
  set (d1 := push_undo (with_gr d g2) (CInsertEdge (edge_from (gr d) e) (edge_to (gr d) e))).
  destruct (rav_proj d1 e) as [P1 [P2 P3]]. cbn [gr aliases vals d1 push_undo with_gr] in P1, P2, P3.
  exists (remove_all_values d1 e). split; [reflexivity|]. rewrite P1, P3.
  split; [eexists; eexists; exact S1|].
  assert (Hiff : forall i, graph_index g2 i = true <-> graph_index (gr d) i = true /\ i <> e).
  { intros i. rewrite (sim_graph_index _ _ _ S1), (sim_graph_index _ _ _ HS). cbn [a_nodes a_edges].
    rewrite map_eslot_remE, in_zrem. split.
    - intros [[Hp Hi]|[Hp [Hi Hne]]]; [split; [left; auto|lia]|split; [right; auto|lia]].
    - intros [[[Hp Hi]|[Hp Hi]] Hne]; [left; auto|right]. split; [assumption|]. split; [assumption|lia]. }
  split.
  { destruct (graph_index g2 e) eqn:E; [|reflexivity]. apply Hiff in E. tauto. }
  split; [apply kvs_get_remove_same|]. split; [exact Hiff|].
  rewrite (sim_node_count _ _ _ S1), (sim_node_count _ _ _ HS). reflexivity.
Qed.

(* remove_id is total on a well-formed graph and keeps it well-formed *)

Theorem remove_id_total d id :
  wf (gr d) -> exists d' b, remove_id d id = (d', ROk b) /\ wf (gr d') /\ graph_index (gr d') id = false.
Proof.
  intros Hwf. destruct (graph_index (gr d) id) eqn:Hgi.
  - destruct (Z.ltb_spec id 0) as [Hneg|Hpos].
    + destruct (remove_id_edge_cascade d id Hwf Hneg Hgi) as [d' [E [W [G _]]]]. exists d', true. auto.
    + assert (0 < id).
      { unfold graph_index in Hgi. destruct (Z.ltb_spec id 0); [lia|]. destruct (Z.ltb_spec 0 id); [assumption|discriminate]. }
      destruct (remove_id_node_cascade d id Hwf H Hgi) as [d' [E [W [G _]]]]. exists d', true. auto.
  - exists d, false. unfold remove_id. rewrite Hgi. auto.
Qed.

(* the database of C08_db_cascade_nonvacuous (where remove_id ex_db 1 is evaluated): nodes 1 2 3
   (1 aliased "a"), edges 1->2 (-4), 2->1 (-5), 1->1 (-6), 2->3 (-7), values on node 1 and on edges -4 -6 -7 *)

Definition ex_db : db :=
  let d := snd (insert_node_db (snd (insert_node_db (snd (insert_node_db db_new))))) in
  let d := insert_new_alias d 1 [x61] in
  let ins d f t := match insert_edge_db d f t with ROk (_, d') => d' | RErr _ => d end in
  let d := ins (ins (ins (ins d 1 2) 2 1) 1 1) 2 3 in
  let kvp (n : Z) : kv := (DI64 n, DI64 (n * 10)) in
  insert_key_value (insert_key_value (insert_key_value (insert_key_value d 1 (kvp 1)) (-4) (kvp 4)) (-6) (kvp 6)) (-7) (kvp 7).
