(* RaftLogWf.v — node-level facts for the log-matching proof (C28 log matching, RaftLogMatch.v):
   well-formed logs (index = position, terms sorted, the table row of the node itself describes its last entry),
   what every handler of raft.rs does to the log, the shape of the entries carried by Append requests, and what a
   request tells about the node that sent it (`sent`).
   Every lemma is for every revision of the election code unless it says otherwise. *)
From Coq Require Import NArith List Bool Lia Arith.
From Agdb Require Import Raft RaftInv RaftElect RaftVote.
Import ListNotations.
Open Scope N_scope.

Definition e0 : entry := mkEntry 0 0 0.
Definition last_term (l : list entry) : N := e_term (last l e0).

Lemma last_term_snoc : forall l x, last_term (l ++ [x]) = e_term x.
Proof. intros. unfold last_term. rewrite last_last. reflexivity. Qed.

Definition wf_log (l : list entry) : Prop :=
  (forall k e, nth_error l k = Some e -> e_index e = N.of_nat (S k)) /\
  (forall k1 k2 e1 e2, (k1 <= k2)%nat -> nth_error l k1 = Some e1 -> nth_error l k2 = Some e2 -> e_term e1 <= e_term e2).

Lemma wf_log_nil : wf_log [].
Proof. split; intros; destruct k || destruct k1; discriminate. Qed.

Lemma nth_error_last : forall (l : list entry) x, l <> [] -> nth_error l (length l - 1) = Some (last l x).
Proof.
  induction l as [|a l IH]; intros x H; [congruence|].
  destruct l as [|b l]; [reflexivity|].
  change (last (a :: b :: l) x) with (last (b :: l) x).
  rewrite <- (IH x) by discriminate. cbn [length]. replace (S (S (length l)) - 1)%nat with (S (S (length l) - 1)) by lia.
  reflexivity.
Qed.

Lemma wf_log_le_last : forall l e, wf_log l -> In e l -> e_term e <= last_term l.
Proof.
  intros l e [_ S] H. apply In_nth_error in H as [k Hk].
  assert (Hlt : (k < length l)%nat) by (apply nth_error_Some; congruence).
  assert (Hne : l <> []) by (destruct l; cbn in Hlt; [lia|discriminate]).
  unfold last_term. eapply S; [|exact Hk|apply nth_error_last; exact Hne]. lia.
Qed.

Lemma wf_log_firstn : forall l n, wf_log l -> wf_log (firstn n l).
Proof.
  intros l n [P S]. split.
  - intros k e H. assert (k < n)%nat.
    { destruct (Nat.lt_ge_cases k n); auto. assert (nth_error (firstn n l) k = None); [|congruence].
      apply nth_error_None. rewrite firstn_length. lia. }
    rewrite nth_error_firstn_lt in H by auto. apply P; auto.
  - intros k1 k2 e1 e2 L H1 H2.
    assert (k2 < n)%nat.
    { destruct (Nat.lt_ge_cases k2 n); auto. assert (nth_error (firstn n l) k2 = None); [|congruence].
      apply nth_error_None. rewrite firstn_length. lia. }
    rewrite nth_error_firstn_lt in H1, H2 by lia. eapply S; [|exact H1|exact H2]. lia.
Qed.

Lemma wf_log_snoc : forall l x,
  wf_log l -> e_index x = N.of_nat (S (length l)) -> last_term l <= e_term x -> wf_log (l ++ [x]).
Proof.
  intros l x W I T. pose proof W as [P S]. split.
  - intros k e H. destruct (Nat.lt_ge_cases k (length l)).
    + rewrite nth_error_app1 in H by auto. apply P; auto.
    + rewrite nth_error_app2 in H by auto. destruct (k - length l)%nat eqn:E; cbn in H.
      * inversion H; subst e. rewrite I. f_equal. lia.
      * destruct n; discriminate.
  - intros k1 k2 e1 e2 L H1 H2. destruct (Nat.lt_ge_cases k2 (length l)).
    + rewrite nth_error_app1 in H1, H2 by lia. eapply S; [|exact H1|exact H2]. lia.
    + rewrite nth_error_app2 in H2 by auto. destruct (k2 - length l)%nat eqn:E; cbn in H2; [|destruct n; discriminate].
      inversion H2; subst e2. destruct (Nat.lt_ge_cases k1 (length l)).
      * rewrite nth_error_app1 in H1 by auto. apply nth_error_In in H1.
        pose proof (wf_log_le_last _ _ W H1). lia.
      * rewrite nth_error_app2 in H1 by auto. replace (k1 - length l)%nat with O in H1 by lia. cbn in H1.
        inversion H1; subst e1. lia.
Qed.

Lemma In_firstn : forall A (l : list A) n x, In x (firstn n l) -> In x l.
Proof. intros A l n x H. rewrite <- (firstn_skipn n l). apply in_or_app. auto. Qed.

Lemma last_term_firstn_le : forall l n, wf_log l -> last_term (firstn n l) <= last_term l.
Proof.
  intros l n W. destruct (firstn n l) as [|a r] eqn:E.
  - unfold last_term at 1. cbn. lia.
  - apply wf_log_le_last; auto. apply (In_firstn _ l n). rewrite E.
    unfold last_term. destruct (exists_last (l := a :: r)) as [l' [x Ex]]; [discriminate|].
    rewrite Ex, last_last. apply in_or_app. right. left. reflexivity.
Qed.

Lemma log_at_nth : forall l k, log_at l (N.of_nat (S k)) = nth_error l k.
Proof.
  intros. unfold log_at. destruct (N.eqb_spec (N.of_nat (S k)) 0); [lia|]. f_equal. lia.
Qed.

Lemma log_at_wf_index : forall l idx e, wf_log l -> log_at l idx = Some e -> e_index e = idx.
Proof.
  intros l idx e [P _] H. unfold log_at in H. destruct (N.eqb_spec idx 0); [discriminate|].
  apply P in H. lia.
Qed.

Definition chain (logs : list entry) : Prop :=
  forall k e1 e2, nth_error logs k = Some e1 -> nth_error logs (S k) = Some e2 ->
                  e_index e2 = e_index e1 + 1 /\ e_term e1 <= e_term e2.

Definition req_wf (r : request) : Prop :=
  match q_kind r with
  | KAppend logs => chain logs /\ forall e, In e logs -> e_term e <= q_term r
  | _ => True
  end.

Lemma chain_tail : forall a l, chain (a :: l) -> chain l.
Proof. intros a l C k e1 e2 H1 H2. apply (C (S k)); auto. Qed.

Lemma chain_single : forall x, chain [x].
Proof. intros x k e1 e2 H1 H2. destruct k; cbn in H2; [discriminate|destruct k; discriminate]. Qed.

Lemma chain_nil : chain [].
Proof. intros k e1 e2 H1. destruct k; discriminate. Qed.

Lemma nth_error_skipn : forall A (l : list A) n k, nth_error (skipn n l) k = nth_error l (n + k).
Proof. induction l; intros n k; destruct n; cbn; auto. destruct k; reflexivity. Qed.

Lemma wf_log_skipn_chain : forall l n, wf_log l -> chain (skipn n l).
Proof.
  intros l n [P S] k e1 e2 H1 H2. rewrite nth_error_skipn in H1, H2. split.
  - rewrite (P _ _ H1), (P _ _ H2). lia.
  - eapply S; [|exact H1|exact H2]. lia.
Qed.

Record nwf (nd : node) : Prop := {
  w_inv : ninv nd;
  w_log : wf_log (n_logs nd);
  w_lt : p_lt (local nd) = last_term (n_logs nd);
  w_term : forall e, In e (n_logs nd) -> e_term e <= n_term nd }.

(* a handler step that leaves the log and the node's own (term of last entry) alone *)
Definition keep (nd nd' : node) : Prop := n_logs nd' = n_logs nd /\ p_lt (local nd') = p_lt (local nd).

Lemma keep_refl : forall nd, keep nd nd. Proof. split; reflexivity. Qed.
Lemma keep_trans : forall a b c, keep a b -> keep b c -> keep a c.
Proof. intros a b c [A1 A2] [B1 B2]. split; congruence. Qed.

Lemma nwf_keep : forall nd nd', nwf nd -> ninv nd' -> keep nd nd' -> n_term nd <= n_term nd' -> nwf nd'.
Proof.
  intros nd nd' [I W L T] I' [K1 K2] Ht. constructor; auto.
  - rewrite K1; auto.
  - rewrite K1, K2; auto.
  - rewrite K1. intros e H. specialize (T e H). lia.
Qed.

Lemma keep_set_state : forall nd s, keep nd (set_state nd s). Proof. split; reflexivity. Qed.
Lemma keep_set_term : forall nd t, keep nd (set_term nd t). Proof. split; reflexivity. Qed.
Lemma keep_set_et : forall nd t, keep nd (set_et nd t). Proof. split; reflexivity. Qed.

Lemma keep_upd_peer : forall nd j f,
  ninv nd -> (j <> n_index nd \/ forall p, p_lt (f p) = p_lt p) -> keep nd (upd_peer nd j f).
Proof.
  intros nd j f I H. split; [reflexivity|].
  rewrite local_upd_peer by apply (ni_range _ I).
  destruct (N.eqb_spec j (n_index nd)); auto. destruct H; [congruence|auto].
Qed.

Lemma keep_clear_votes : forall nd, keep nd (clear_votes nd).
Proof.
  intros nd. split; [reflexivity|]. unfold local, node_at; cbn.
  destruct (clear_from_nth (n_peers nd) 0 (n_index nd) (N.to_nat (n_index nd))) as [-> | ->]; auto.
Qed.

Lemma keep_commit_storage : forall nd idx, ninv nd -> keep nd (commit_storage nd idx).
Proof.
  intros nd idx I. split; [reflexivity|]. rewrite local_commit_storage by apply (ni_range _ I). reflexivity.
Qed.

Lemma nwf_set_state : forall nd s, nwf nd -> nwf (set_state nd s).
Proof. intros nd s W. eapply nwf_keep; [exact W | apply good_set_state, W | apply keep_set_state | cbn; lia]. Qed.

Lemma nwf_set_term : forall nd t, nwf nd -> n_term nd <= t -> nwf (set_term nd t).
Proof. intros nd t W H. eapply nwf_keep; [exact W | apply good_set_term, W | apply keep_set_term | exact H]. Qed.

Lemma keep_process : forall nd el due, keep nd (fst (process nd el due)).
Proof.
  intros nd el due. destruct (process_case nd el due); cbn [fst]; try (split; reflexivity).
  eapply keep_trans; [apply keep_clear_votes | apply keep_set_et].
Qed.

Lemma leader_process : forall nd el due,
  is_leader (n_state (fst (process nd el due))) = is_leader (n_state nd).
Proof.
  intros nd el due. destruct (process_case nd el due); cbn [fst]; auto.
Qed.

Lemma append_shape : forall nd d,
  nwf nd ->
  let nd' := fst (append nd d) in
  let x := mkEntry (lenN (n_logs nd) + 1) (n_term nd) d in
  nwf nd' /\ n_logs nd' = n_logs nd ++ [x].
Proof.
  intros nd d W. pose proof (w_inv _ W) as I. cbv zeta.
  destruct (append_eq nd d I) as (El & Ec & Eloc & Ei & Ep & Es & Et).
  split; [|exact El]. constructor.
  - apply (good_append nd d I).
  - rewrite El. apply wf_log_snoc; [apply (w_log _ W) | cbn; unfold lenN; lia |].
    cbn [e_term]. unfold last_term. destruct (n_logs nd) as [|a l] eqn:E; [cbn; lia|].
    apply (w_term _ W). rewrite E.
    destruct (exists_last (l := a :: l)) as [l' [y Ey]]; [discriminate|]. rewrite Ey, last_last.
    apply in_or_app; right; left; reflexivity.
  - rewrite El, last_term_snoc, Eloc. reflexivity.
  - rewrite El, Et. intros e H. apply in_app_or in H as [H|[<-|[]]]; [apply (w_term _ W); exact H | cbn; lia].
Qed.

Lemma nwf_append_storage : forall nd r log,
  nwf nd -> validate_log_append nd r log = inl true -> e_term log <= n_term nd -> nwf (append_storage nd log).
Proof.
  intros nd r log W V T. pose proof (w_inv _ W) as I. pose proof I as [R C L S].
  apply validate_log_append_true in V as (V1 & V2 & V3).
  pose proof (good_append_storage nd log I V1 V2) as [I' _].
  assert (Hlogs : n_logs (append_storage nd log) = firstn (N.to_nat (e_index log - 1)) (n_logs nd) ++ [log]) by reflexivity.
  assert (Hle : last_term (firstn (N.to_nat (e_index log - 1)) (n_logs nd)) <= e_term log).
  { pose proof (last_term_firstn_le (n_logs nd) (N.to_nat (e_index log - 1)) (w_log _ W)).
    rewrite <- (w_lt _ W) in H. lia. }
  constructor; auto.
  - rewrite Hlogs. apply wf_log_snoc; auto.
    + apply wf_log_firstn. apply (w_log _ W).
    + rewrite firstn_length. lia.
  - rewrite Hlogs, last_term_snoc. rewrite local_append_storage by exact R. reflexivity.
  - rewrite Hlogs. change (n_term (append_storage nd log)) with (n_term nd).
    intros e H. apply in_app_or in H as [H|[<-|[]]]; auto. apply (w_term _ W). eapply In_firstn; eauto.
Qed.

Lemma nwf_commit_storage : forall nd idx, nwf nd -> p_lc (local nd) < idx -> nwf (commit_storage nd idx).
Proof.
  intros nd idx W H. eapply nwf_keep; [exact W| | |].
  - apply good_commit_storage; auto. apply (w_inv _ W).
  - apply keep_commit_storage. apply (w_inv _ W).
  - change (n_term (commit_storage nd idx)) with (n_term nd). lia.
Qed.

(* one iteration of the loop *)
Definition loop_step (nd : node) (r : request) (log : entry) (doit : bool) : node :=
  let nd1 := if doit then append_storage nd log else nd in
  if (e_index log <=? q_lc r) && (p_lc (local nd1) <? e_index log) then commit_storage nd1 (e_index log) else nd1.

Lemma append_logs_cons : forall nd r log rest,
  append_logs nd r (log :: rest) =
  match validate_log_append nd r log with
  | inr resp => (nd, resp)
  | inl doit => append_logs (loop_step nd r log doit) r rest
  end.
Proof. reflexivity. Qed.

Lemma nwf_loop_step : forall nd r log doit,
  nwf nd -> validate_log_append nd r log = inl doit -> e_term log <= n_term nd ->
  nwf (loop_step nd r log doit) /\ n_term (loop_step nd r log doit) = n_term nd /\
  (doit = false -> n_logs (loop_step nd r log doit) = n_logs nd /\ p_li (local (loop_step nd r log doit)) = p_li (local nd)
                   /\ p_lt (local (loop_step nd r log doit)) = p_lt (local nd)) /\
  (doit = true -> p_li (local (loop_step nd r log doit)) = e_index log /\ p_lt (local (loop_step nd r log doit)) = e_term log /\
                  p_lc (local (loop_step nd r log doit)) <= e_index log).
Proof.
  intros nd r log doit W V T. unfold loop_step.
  set (nd1 := if doit then append_storage nd log else nd).
  assert (W1 : nwf nd1) by (unfold nd1; destruct doit; [eapply nwf_append_storage; eauto | auto]).
  assert (T1 : n_term nd1 = n_term nd) by (unfold nd1; destruct doit; reflexivity).
  pose proof (ni_range _ (w_inv _ W)) as R. pose proof (ni_range _ (w_inv _ W1)) as R1.
  assert (L1 : doit = true -> p_li (local nd1) = e_index log /\ p_lt (local nd1) = e_term log /\ p_lc (local nd1) < e_index log).
  { intros ->. unfold nd1. rewrite local_append_storage by exact R. cbn.
    apply validate_log_append_true in V. repeat split; tauto. }
  destruct ((e_index log <=? q_lc r) && (p_lc (local nd1) <? e_index log)) eqn:E.
  - apply andb_true_iff in E as [_ E]. apply N.ltb_lt in E.
    split; [apply nwf_commit_storage; auto|]. split; [exact T1|]. split.
    + intros ->. unfold nd1. rewrite local_commit_storage by exact R. cbn. auto.
    + intros D. destruct (L1 D) as (A & B & _). rewrite local_commit_storage by exact R1. cbn. repeat split; auto. lia.
  - split; [exact W1|]. split; [exact T1|]. split.
    + intros ->. unfold nd1. auto.
    + intros D. destruct (L1 D) as (A & B & Cc). repeat split; auto. lia.
Qed.

Lemma nwf_append_logs : forall logs nd r,
  nwf nd -> (forall e, In e logs -> e_term e <= n_term nd) -> nwf (fst (append_logs nd r logs)).
Proof.
  induction logs as [|log rest IH]; intros nd r W T; [exact W|].
  rewrite append_logs_cons. destruct (validate_log_append nd r log) as [doit|resp] eqn:V; [|exact W].
  destruct (nwf_loop_step nd r log doit W V (T _ (or_introl eq_refl))) as (W' & T' & _).
  apply IH; auto. intros e H. rewrite T'. apply T. right; exact H.
Qed.

(* once an entry of a chain has been appended, the rest of the chain is appended too and the answer is Ok *)
Lemma append_logs_rest_ok : forall rest nd r prev,
  nwf nd -> chain (prev :: rest) -> (forall e, In e rest -> e_term e <= n_term nd) ->
  p_li (local nd) = e_index prev -> p_lt (local nd) = e_term prev -> p_lc (local nd) <= e_index prev ->
  s_result (snd (append_logs nd r rest)) = ROk.
Proof.
  induction rest as [|log rest IH]; intros nd r prev W C T Hi Ht Hc; [reflexivity|].
  destruct (C O prev log eq_refl eq_refl) as [Ci Ct].
  assert (V : validate_log_append nd r log = inl true).
  { unfold validate_log_append. rewrite Hi, Ht.
    destruct (N.eqb_spec (e_term prev) (e_term log)) as [E|E].
    - destruct (N.leb_spec (e_index log) (e_index prev)); [lia|].
      destruct (N.ltb_spec (p_lc (local nd)) (e_index log)); [|lia]. cbn [andb].
      destruct (N.eqb_spec (e_index prev + 1) (e_index log)); [reflexivity|lia].
    - destruct (N.ltb_spec (e_term prev) (e_term log)); [|lia]. cbn [andb].
      destruct (N.ltb_spec (p_lc (local nd)) (e_index log)); [|lia]. cbn [andb].
      destruct (N.leb_spec (e_index log) (e_index prev + 1)); [reflexivity|lia]. }
  rewrite append_logs_cons, V.
  destruct (nwf_loop_step nd r log true W V (T _ (or_introl eq_refl))) as (W' & T' & _ & L).
  destruct (L eq_refl) as (A & B & Cc).
  eapply (IH _ r log); auto.
  - eapply chain_tail; eauto.
  - intros e H. rewrite T'. apply T. right; exact H.
Qed.

(* the answer is Ok, or the log is untouched *)
Lemma append_logs_ok_or_same : forall logs nd r,
  nwf nd -> chain logs -> (forall e, In e logs -> e_term e <= n_term nd) ->
  s_result (snd (append_logs nd r logs)) = ROk \/ n_logs (fst (append_logs nd r logs)) = n_logs nd.
Proof.
  induction logs as [|log rest IH]; intros nd r W C T; [left; reflexivity|].
  rewrite append_logs_cons. destruct (validate_log_append nd r log) as [[|]|resp] eqn:V; [| |right; reflexivity].
  - left. destruct (nwf_loop_step nd r log true W V (T _ (or_introl eq_refl))) as (W' & T' & _ & L).
    destruct (L eq_refl) as (A & B & Cc).
    eapply (append_logs_rest_ok rest _ r log); auto.
    intros e H. rewrite T'. apply T. right; exact H.
  - destruct (nwf_loop_step nd r log false W V (T _ (or_introl eq_refl))) as (W' & T' & L & _).
    destruct (L eq_refl) as (A & _).
    destruct (IH (loop_step nd r log false) r W' (chain_tail _ _ C)) as [H|H]; auto.
    + intros e H. rewrite T'. apply T. right; exact H.
    + right. congruence.
Qed.

Lemma In_skipn : forall A (l : list A) n x, In x (skipn n l) -> In x l.
Proof. intros A l n x H. rewrite <- (firstn_skipn n l). apply in_or_app. auto. Qed.

Lemma nwf_follow : forall nd r, nwf nd -> n_term nd <= q_term r -> q_from r <> n_index nd -> nwf (follow nd r).
Proof.
  intros nd r W T Hne. pose proof (w_inv _ W) as I.
  eapply nwf_keep; [exact W | apply (good_follow nd r I Hne) | | exact T].
  split; [reflexivity | rewrite (local_follow nd r I Hne); reflexivity].
Qed.

(* what a request does to the log: nothing, unless it is an Append that is answered Ok *)
Lemma request_shape : forall rv nd r el,
  nwf nd -> req_wf r -> q_from r <> n_index nd ->
  nwf (fst (handle_request rv nd r el)) /\
  (n_logs (fst (handle_request rv nd r el)) = n_logs nd \/
   (is_append_or_hb (q_kind r) = true /\ is_ok (s_result (snd (handle_request rv nd r el))) = true)).
Proof.
  intros rv nd r el W RW Hne.
  destruct (request_case rv nd r el) as [s O To|K|K L C T P1 P2|s K T O To|K T E|logs K T]; cbn [fst snd]; auto.
  - split; [|left; destruct (fix_vote_term rv); reflexivity].
    destruct (fix_vote_term rv); [apply nwf_set_state, nwf_set_term; [exact W | lia] | apply nwf_set_state, W].
  - split; [apply nwf_set_state, nwf_set_term; assumption | left; reflexivity].
  - pose proof (nwf_follow nd r W T Hne) as W1. split; [|left; destruct (_ <? _); reflexivity].
    destruct (N.ltb_spec (p_lc (local (follow nd r))) (q_lc r)); [apply nwf_commit_storage; assumption | exact W1].
  - pose proof (nwf_follow nd r W T Hne) as W1. unfold req_wf in RW. rewrite K in RW. destruct RW as [C Te].
    split; [apply nwf_append_logs; [exact W1 | exact Te]|].
    destruct (append_logs_ok_or_same logs (follow nd r) r W1 C Te) as [H|H];
      [right; rewrite H, K; auto | left; rewrite H; reflexivity].
Qed.

(* a Leader that handles a request stays as it is, or it is an Append/Heartbeat of a term >= its own that
   makes it a follower of that term *)
Lemma request_leader : forall rv nd r el,
  is_leader (n_state nd) = true ->
  fst (handle_request rv nd r el) = nd \/
  (is_append_or_hb (q_kind r) = true /\ n_term nd <= q_term r /\ n_term (fst (handle_request rv nd r el)) = q_term r /\
   is_leader (n_state (fst (handle_request rv nd r el))) = false).
Proof.
  intros rv nd r el L.
  destruct (request_case rv nd r el) as [s O To|K|K L0 C T P1 P2|s K T O To|K T E|logs K T]; cbn [fst]; auto.
  - congruence.
  - right. rewrite K. repeat split; auto.
  - right. rewrite K. destruct (_ <? _); repeat split; auto.
  - right. rewrite K, term_append_logs, state_append_logs. repeat split; auto.
Qed.

Lemma keep_election : forall nd, keep nd (fst (election nd)).
Proof. intros. unfold election; cbn [fst]. eapply keep_trans; [|apply keep_clear_votes]. split; reflexivity. Qed.

Lemma keep_response : forall rv nd r s,
  ninv nd -> q_to r <> n_index nd -> keep nd (fst (handle_response rv nd r s)).
Proof.
  intros rv nd r s I Hne.
  assert (KV : keep nd (upd_peer nd (q_to r) (p_set_voted true))) by (apply keep_upd_peer; auto).
  assert (KA : keep nd (upd_peer nd (q_to r) (p_set_all (q_li r) (q_lt r) (q_lc r)))) by (apply keep_upd_peer; auto).
  destruct (response_case rv nd r s); cbn [fst reconcile]; auto using keep_refl.
  - eapply keep_trans; [exact KV | apply keep_election].
  - eapply keep_trans; [exact KV|]. destruct (fix_ack_term rv); split; rewrite ?local_reset_rows; reflexivity.
  - eapply keep_trans; [exact KA|]. apply keep_commit_storage. apply (good_upd_peer nd (q_to r) _ I). auto.
  - split; reflexivity.
Qed.

(* what a Leader becomes by handling a response *)
Lemma response_from_leader : forall rv nd r s,
  is_leader (n_state nd) = true ->
  (is_leader (n_state (fst (handle_response rv nd r s))) = true /\ n_term (fst (handle_response rv nd r s)) = n_term nd) \/
  (is_leader (n_state (fst (handle_response rv nd r s))) = false /\ n_term nd < n_term (fst (handle_response rv nd r s))).
Proof.
  intros rv nd r s L.
  destruct (response_case rv nd r s) as [ |S|S|S K R VC|S K R VC Q|S A AC|S A AC Q|cl S|l T]; cbn [fst reconcile];
    try (rewrite S in L; discriminate L); auto.
Qed.

(* The requests a handler sends: every request is built by `mk_req` from the node as the handler leaves it, so it describes that node. *)

Definition own_row (nd' : node) (q : request) : Prop :=
  q_li q = p_li (local nd') /\ q_lc q = p_lc (local nd').

Record sent (nd' : node) (q : request) : Prop := {
  sn_from : q_from q = n_index nd';
  sn_wf : req_wf q;
  sn_ahb : is_append_or_hb (q_kind q) = true ->
           is_leader (n_state nd') = true /\ q_term q = n_term nd' /\ own_row nd' q;
  sn_vote : q_kind q = KVote ->
            n_state nd' = Candidate /\ q_term q = n_term nd' /\ q_li q = p_li (local nd') /\ q_lt q = p_lt (local nd') }.

Lemma sent_mk_req : forall nd' j T K,
  req_wf (mk_req nd' j T K) ->
  (is_append_or_hb K = true -> is_leader (n_state nd') = true /\ T = n_term nd') ->
  (K = KVote -> n_state nd' = Candidate /\ T = n_term nd') ->
  sent nd' (mk_req nd' j T K).
Proof.
  intros nd' j T K W A V. constructor; cbn [mk_req q_from q_kind q_term q_li q_lt]; auto.
  - intros H. destruct (A H). repeat split; auto.
  - intros H. destruct (V H). auto.
Qed.

(* a node that differs from the sender only in rows of other nodes or in timers is described as well *)
Lemma sent_same : forall n0 n1 q,
  sent n0 q -> n_index n1 = n_index n0 -> local n1 = local n0 -> n_state n1 = n_state n0 -> n_term n1 = n_term n0 ->
  sent n1 q.
Proof.
  intros n0 n1 q [F W A V] Ei El Es Et. constructor; unfold own_row in *; rewrite ?Ei, ?El, ?Es, ?Et; auto.
Qed.

Lemma heartbeat_sent : forall nd q, is_leader (n_state nd) = true -> In q (heartbeat_no_timer nd) -> sent nd q.
Proof.
  intros nd q L H. unfold heartbeat_no_timer in H. apply in_map_iff in H as [j [<- _]].
  apply sent_mk_req; [exact I | auto | discriminate].
Qed.

Lemma process_sent : forall nd el due q, In q (snd (process nd el due)) -> sent (fst (process nd el due)) q.
Proof.
  intros nd el due q. destruct (process_case nd el due) as [S|S|L|]; cbn [fst snd];
    try (intros H; exact (False_ind _ H)); intros H; apply in_map_iff in H as [j [<- _]].
  - apply sent_mk_req; [exact I | rewrite S; auto | discriminate].
  - refine (sent_mk_req (set_et (clear_votes nd) (n_hb nd)) j (n_term nd + 1) KPreVote I _ _); discriminate.
Qed.

Lemma append_sent : forall nd d q,
  n_size nd <> 1 -> is_leader (n_state nd) = true -> In q (snd (append nd d)) -> sent (fst (append nd d)) q.
Proof.
  intros nd d q S L. unfold append. cbn [fst snd].
  change (n_size (st_append _ _)) with (n_size nd). apply N.eqb_neq in S. rewrite S.
  intros H. apply in_map_iff in H as [j [<- _]].
  match goal with |- sent ?n (mk_req _ ?j ?T ?K) => refine (sent_mk_req n j T K _ _ _) end.
  - split; [apply chain_single|]. intros e [<-|[]]. cbn. lia.
  - intros _. split; [exact L | reflexivity].
  - discriminate.
Qed.

Lemma response_sent : forall rv nd r s q,
  nwf nd -> In q (snd (handle_response rv nd r s)) -> sent (fst (handle_response rv nd r s)) q.
Proof.
  intros rv nd r s q W.
  destruct (response_case rv nd r s) as [ |S|S|S K R VC|S K R VC Q|S A AC|S A AC Q|cl S|l T]; cbn [fst snd reconcile];
    try (intros H; exact (False_ind _ H)).
  - unfold election; cbn [fst snd]. intros H. apply in_map_iff in H as [j [<- _]].
    apply sent_mk_req; [exact I | discriminate | auto].
  - intros H. apply heartbeat_sent in H; [|reflexivity].
    destruct (fix_ack_term rv); [|exact H]. eapply sent_same; [exact H | | apply local_reset_rows | |]; reflexivity.
  - apply heartbeat_sent. cbn. rewrite S. reflexivity.
  - intros [<-|[]]. apply sent_mk_req; [|rewrite S; auto | discriminate]. split.
    + apply wf_log_skipn_chain. apply (w_log _ W).
    + intros e H. apply (w_term _ W). eapply In_skipn; eauto.
Qed.

(* the messages a step adds to the network *)
Definition new_msg (nd' : node) (m : msg) : Prop :=
  match m with MReq q => sent nd' q | MResp _ _ => True end.

Lemma new_reqs : forall nd' (net0 net : list msg) reqs,
  incl net net0 -> (forall q, In q reqs -> sent nd' q) ->
  forall m, In m (net ++ map MReq reqs) -> In m net0 \/ new_msg nd' m.
Proof.
  intros nd' net0 net reqs Hn Hs m Hm. apply in_app_or in Hm as [Hm|Hm]; [left; apply Hn, Hm | right].
  apply in_map_iff in Hm as [q [<- Hq]]. apply Hs, Hq.
Qed.

Lemma new_resp : forall nd' (net0 net : list msg) r s,
  incl net net0 -> forall m, In m (net ++ [MResp r s]) -> In m net0 \/ new_msg nd' m.
Proof. intros nd' net0 net r s Hn m Hm. apply in_app_or in Hm as [Hm|[<-|[]]]; [left; apply Hn, Hm | right; exact I]. Qed.
