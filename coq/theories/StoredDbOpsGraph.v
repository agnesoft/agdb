(* StoredDbOpsGraph.v — proofs (stored database): graph.rs's get_free_index / insert_node as programs over the storage
   (StoredDbOps.v) compute Graph.v's functions on the four arrays a stored graph represents.

     so_graph_ok G          what the code needs of the arrays to run without an error / a u64 wrap (each a consequence
                            of C08's well-formedness + a capacity below 2^60; stated explicitly, nothing else assumed):
                            four arrays of one length n, 1 <= n < 2^60; the free-list head from_meta[0] is i64::MIN or
                            has magnitude < n; the node count to_meta[0] is in [0, 2^63 - 1)
     gst                    the state of a program that reads and writes the arrays through ONE handle: the rules gst_get /
                            gst_set are the GraphData interface at the level of `graph`
     so_get_free_index_spec, so_graph_insert_node_spec   Graph.get_free_index, Graph.insert_node *)
From Agdb Require Import Bytes Graph GraphArr StorageSpec StorageLayout Collections CollWp CollVecBase CollVec CollElems
  CollGraph StoredDbRep StoredDbFrame StoredDbOps.
From Coq Require Import ZifyBool ZifyNat ZifyN.
Ltac Zify.zify_post_hook ::= Z.div_mod_to_equations.
Open Scope N_scope.
Arguments N.add : simpl never.
Arguments N.mul : simpl never.
Arguments N.sub : simpl never.
Arguments N.of_nat : simpl never.
Arguments N.to_nat : simpl never.
Arguments N.eqb : simpl never.
Arguments N.ltb : simpl never.
Arguments N.leb : simpl never.
Arguments N.div : simpl never.

Definition garr (G : graph) (f : cg_field) : list Z := ga_get (sd_arrays G) f.
Definition gset (G : graph) (f : cg_field) (i v : Z) : graph :=
  sd_graph_of (ga_put (sd_arrays G) f (Graph.set (garr G f) i v)).

Lemma gset_from G i v : gset G GfFrom i v = set_from G i v. Proof. reflexivity. Qed.
Lemma gset_to G i v : gset G GfTo i v = set_to G i v. Proof. reflexivity. Qed.
Lemma gset_fmeta G i v : gset G GfFromMeta i v = set_fmeta G i v. Proof. reflexivity. Qed.
Lemma gset_tmeta G i v : gset G GfToMeta i v = set_tmeta G i v. Proof. reflexivity. Qed.

Lemma zabs_as_u64 i : N.to_nat (cg_as_u64 i) = zabs_nat i.
Proof. unfold cg_as_u64, zabs_nat. lia. Qed.

Lemma zabs_opp i : zabs_nat (- i) = zabs_nat i.
Proof. unfold zabs_nat. rewrite Z.abs_opp. reflexivity. Qed.

Lemma set_nth_cl_upd : forall (l : list Z) n v, set_nth l n v = cl_upd l n v.
Proof. induction l as [|x r IH]; intros [|n] v; cbn [set_nth cl_upd]; try reflexivity; rewrite IH; reflexivity. Qed.

Lemma nth_error_nth_Z (l : list Z) n : (n < length l)%nat -> nth_error l n = Some (nth n l 0%Z).
Proof. revert n. induction l as [|x r IH]; intros [|n] H; cbn [nth_error nth length] in *; try lia; [reflexivity|apply IH; lia]. Qed.

Lemma sd_arrays_gset G f i v : sd_arrays (gset G f i v) = ga_put (sd_arrays G) f (cl_upd (garr G f) (N.to_nat (cg_as_u64 i)) v).
Proof. unfold gset. rewrite sd_arrays_of. unfold Graph.set. rewrite set_nth_cl_upd, zabs_as_u64. reflexivity. Qed.

(* the four arrays have length n *)
Definition glen (G : graph) (n : nat) : Prop := forall f, length (garr G f) = n.

Lemma glen_gset G n f i v : glen G n -> glen (gset G f i v) n.
Proof.
  intros HL f'. pose proof (HL f') as H'. pose proof (HL f) as Hf. unfold garr, gset in *. rewrite sd_arrays_of.
  destruct f, f'; cbn [ga_put ga_get ga_from ga_to ga_from_meta ga_to_meta] in *; try exact H'; rewrite length_set; exact Hf.
Qed.

Lemma glen_grow G n : glen G n -> glen (grow G) (S n).
Proof.
  intros HL f. specialize (HL f). destruct f; cbn [garr ga_get sd_arrays grow ga_from ga_to ga_from_meta ga_to_meta g_from g_to g_fmeta g_tmeta] in *;
    rewrite app_length; cbn [length]; lia.
Qed.

Lemma garr_gset_same G f i v : garr (gset G f i v) f = Graph.set (garr G f) i v.
Proof. destruct f; reflexivity. Qed.
Lemma garr_gset_other G f f' i v : f <> f' -> garr (gset G f i v) f' = garr G f'.
Proof. destruct f, f'; intros Hne; try reflexivity; contradiction Hne; reflexivity. Qed.

Lemma get_gset_same G n f i v : glen G n -> (zabs_nat i < n)%nat -> get (garr (gset G f i v) f) i = v.
Proof. intros HL Hi. rewrite garr_gset_same. apply get_set_same; [reflexivity|rewrite (HL f); unfold zabs_nat in Hi; lia]. Qed.

(* the elements of a stored i64 vector are i64 values *)
Lemma vrepZ_range g h bss l : vrepZ g h bss l -> Forall i64_range l.
Proof.
  intros HR. pose proof (vi_elems _ _ _ _ _ _ _ _ (vr_inv _ _ _ _ _ _ _ HR)) as HE. clear HR.
  induction HE as [|b x bs xs Hx _ IH]; constructor; [|exact IH]. destruct Hx as [_ Hv]. exact Hv.
Qed.

Lemma grep_range g d s G f i : grep g d s (sd_arrays G) -> i64_range (get (garr G f) i).
Proof.
  intros H. pose proof (vrepZ_range _ _ _ _ (gr_vec _ _ _ _ H f)) as HF. fold (garr G f) in HF.
  unfold get. destruct (Nat.lt_ge_cases (zabs_nat i) (length (garr G f))) as [Hl|Hl].
  - rewrite Forall_forall in HF. apply HF. apply nth_In. exact Hl.
  - rewrite nth_overflow by exact Hl. unfold i64_range. lia.
Qed.

Lemma cap_of_grep g d s G : grep g d s (sd_arrays G) -> cg_capacity d = lenN (g_from G).
Proof. intros H. exact (vr_len _ _ _ _ _ _ _ (gr_vec _ _ _ _ H GfFrom)). Qed.

Lemma cg_with_eta d : cg_with d (cg_from d) (cg_to d) (cg_from_meta d) (cg_to_meta d) = d.
Proof. destruct d. reflexivity. Qed.

(* a slot of arrays shorter than 2^60, negated (an edge id, a free-list link), is an i64: this is where the capacity bound is used *)
Lemma slot_neg_i64 e n : (zabs_nat e < n)%nat -> (Z.of_nat n <= 1152921504606846976)%Z -> i64_range (- e).
Proof. unfold i64_range, zabs_nat. lia. Qed.

(* the node count as u64 and back *)
Lemma u2z_z2u_succ c : (0 <= c < 9223372036854775807)%Z -> u2z (z2u c + 1) = (c + 1)%Z.
Proof. intros Hc. unfold u2z, z2u, two63. destruct (N.ltb_spec (Z.to_N (c mod 18446744073709551616) + 1) 9223372036854775808); lia. Qed.
Lemma u2z_z2u_pred c : (1 <= c < 9223372036854775807)%Z -> u2z (z2u c - 1) = (c - 1)%Z.
Proof. intros Hc. unfold u2z, z2u, two63. destruct (N.ltb_spec (Z.to_N (c mod 18446744073709551616) - 1) 9223372036854775808); lia. Qed.

Record so_graph_ok (G : graph) : Prop := {
  go_to : length (g_to G) = length (g_from G);
  go_fmeta : length (g_fmeta G) = length (g_from G);
  go_tmeta : length (g_tmeta G) = length (g_from G);
  go_pos : (1 <= length (g_from G))%nat;
  go_cap : (Z.of_nat (length (g_from G)) < 1152921504606846976)%Z;                         (* 2^60 *)
  go_free : fmeta G 0 <> i64_min -> (zabs_nat (fmeta G 0) < length (g_from G))%nat;
  go_count : (0 <= tmeta G 0 < 9223372036854775807)%Z
}.

Lemma glen_of_ok G : so_graph_ok G -> glen G (length (g_from G)).
Proof. intros [A B C _ _ _ _] f. destruct f; cbn [garr ga_get sd_arrays ga_from ga_to ga_from_meta ga_to_meta]; auto. Qed.

(* get_free_index: the slot it returns is inside the arrays of its result; the node count is the same *)
Lemma get_free_index_glen G : so_graph_ok G ->
  exists n, glen (snd (get_free_index G)) n /\ (zabs_nat (fst (get_free_index G)) < n)%nat /\ (length (g_from G) <= n)%nat /\
            (Z.of_nat n <= 1152921504606846976)%Z /\ tmeta (snd (get_free_index G)) 0 = tmeta G 0.
Proof.
  intros OK. pose proof (glen_of_ok G OK) as HL. pose proof OK as [_ _ Ltm Lpos Lcap Lfree _].
  unfold get_free_index. destruct (Z.eqb_spec (fmeta G 0) i64_min) as [E|NE]; cbn [fst snd].
  - exists (S (length (g_from G))). split; [apply glen_grow; exact HL|]. unfold capacity, zabs_nat. repeat (split; [lia|]).
    unfold tmeta, get, grow. cbn [g_tmeta]. change (zabs_nat 0) with 0%nat. rewrite app_nth1 by lia. reflexivity.
  - exists (length (g_from G)). split; [rewrite <- !gset_fmeta; apply glen_gset, glen_gset, HL|].
    split; [rewrite zabs_opp; apply Lfree; exact NE|]. repeat (split; [lia|]). reflexivity.
Qed.

Section GraphState.
  Variable fl : bool.
  (* since the record map g0, where the slot bytes were s0: the handle is d, the arrays have length n, the depth is dep.
     g0 and s0 are fixed when the program starts, so each gst_set extends the one frame by frame_trans *)
  Variables (g0 : heap) (d : cg_data) (s0 : cg_slots) (n : nat) (dep : N).

  Definition gst (G : graph) (sp : spec) : Prop :=
    glen G n /\ sdepth sp = dep /\ exists s, grep (hp sp) d s (sd_arrays G) /\ frame g0 (hp sp) (gfoot d s0) (gfoot d s).

  Lemma gst_get G f i sp (Q : cres Z -> spec -> Prop) :
    gst G sp -> (zabs_nat i < n)%nat -> Q (CrOk (get (garr G f) i)) sp -> cwp fl (cg_get d f i) sp Q.
  Proof.
    intros (HL & _ & s & H & _) Hi HQ. unfold cg_get. eapply cv_value_spec; [exact (gr_vec _ _ _ _ H f)|].
    fold (garr G f). rewrite zabs_as_u64, nth_error_nth_Z by (rewrite HL; exact Hi). exact HQ.
  Qed.

  Lemma gst_set G f i v sp (Q : cres unit -> spec -> Prop) :
    gst G sp -> i64_range v -> (zabs_nat i < n)%nat ->
    (forall sp', gst (gset G f i v) sp' -> Q (CrOk tt) sp') -> cwp fl (cg_set d f i v) sp Q.
  Proof.
    intros (HL & D & s & H & F) Hv Hi HQ. eapply cg_set_spec; [exact H|exact Hv|]. fold (garr G f).
    destruct (N.leb_spec (lenN (garr G f)) (cg_as_u64 i)) as [X|_].
    { pose proof (zabs_as_u64 i). pose proof (HL f). unfold lenN in X. lia. }
    intros s' sp' H' D' F'. rewrite cg_with_eta, <- sd_arrays_gset in H'.
    apply HQ. split; [apply glen_gset; exact HL|]. split; [congruence|]. exists s'. split; [exact H'|eapply frame_trans; eassumption].
  Qed.

  Lemma gst_range G f i sp : gst G sp -> i64_range (get (garr G f) i).
  Proof. intros (_ & _ & s & H & _). eapply grep_range. exact H. Qed.

  Lemma gst_capacity G sp : gst G sp -> N.to_nat (cg_capacity d) = n.
  Proof. intros (HL & _ & s & H & _). rewrite (cap_of_grep _ _ _ _ H). pose proof (HL GfFrom) as L. cbn in L. unfold lenN. lia. Qed.
End GraphState.

(* a program starts in the state it is given *)
Lemma gst_init d s n G sp : grep (hp sp) d s (sd_arrays G) -> glen G n -> gst (hp sp) d s n (sdepth sp) G sp.
Proof. intros H HL. split; [exact HL|]. split; [reflexivity|]. exists s. split; [exact H|apply frame_refl; intros j; reflexivity]. Qed.

(* ... or continues a state under another record map with the same content (after cp_transaction) *)
Lemma gst_init_heq d s n G sp sp0 :
  grep (hp sp) d s (sd_arrays G) -> glen G n -> heq (hp sp0) (hp sp) -> gst (hp sp) d s n (sdepth sp0) G sp0.
Proof.
  intros H HL Hm. split; [exact HL|]. split; [reflexivity|]. exists s. split; [eapply grep_heq; eassumption|apply frame_refl; exact Hm].
Qed.

Section GraphOps.
  Variable fl : bool.

  Lemma ggrow_spec d s G sp (Q : cres cg_data -> spec -> Prop) :
    grep (hp sp) d s (sd_arrays G) -> ga_fits (sd_arrays (grow G)) ->
    (forall d' s' sp', grep (hp sp') d' s' (sd_arrays (grow G)) -> cg_index d' = cg_index d -> sdepth sp' = sdepth sp ->
        frame (hp sp) (hp sp') (gfoot d s) (gfoot d' s') -> Q (CrOk d') sp') ->
    cwp fl (cg_grow d) sp Q.
  Proof.
    intros H Hfit HQ. unfold cg_grow. set (a := sd_arrays G) in *.
    assert (Hf4 : forall f, 8 + ce_size ce_i64 * (lenN (ga_get a f) + 1) < two64).
    { intros f. specialize (Hfit f). destruct f; cbn [a sd_arrays grow ga_get ga_from ga_to ga_from_meta ga_to_meta g_from g_to g_fmeta g_tmeta] in *;
        rewrite lenN_app in Hfit; unfold lenN in *; cbn [length ce_size ce_i64] in *; lia. }
    assert (Z0ok : i64_range 0%Z) by (unfold i64_range; lia).
    (* the four pushes, each replacing one vector of the graph under a frame *)
    apply cwp_bind. eapply cv_push_spec; [exact (gr_vec _ _ _ _ H GfFrom)|exact Z0ok|apply (Hf4 GfFrom)|].
    intros h1 s1 sp1 R1 I1 D1 F1. cbn [kont].
    destruct (grep_update _ _ _ _ _ GfFrom _ _ _ H I1 R1 F1) as [H1 Ff1].
    apply cwp_bind. eapply cv_push_spec; [exact (gr_vec _ _ _ _ H1 GfTo)|exact Z0ok|apply (Hf4 GfTo)|].
    intros h2 s2 sp2 R2 I2 D2 F2. cbn [kont].
    destruct (grep_update _ _ _ _ _ GfTo _ _ _ H1 I2 R2 F2) as [H2 Ff2].
    apply cwp_bind. eapply cv_push_spec; [exact (gr_vec _ _ _ _ H2 GfFromMeta)|exact Z0ok|apply (Hf4 GfFromMeta)|].
    intros h3 s3 sp3 R3 I3 D3 F3. cbn [kont].
    destruct (grep_update _ _ _ _ _ GfFromMeta _ _ _ H2 I3 R3 F3) as [H3 Ff3].
    apply cwp_bind. eapply cv_push_spec; [exact (gr_vec _ _ _ _ H3 GfToMeta)|exact Z0ok|apply (Hf4 GfToMeta)|].
    intros h4 s4 sp4 R4 I4 D4 F4. cbn [kont cwp].
    destruct (grep_update _ _ _ _ _ GfToMeta _ _ _ H3 I4 R4 F4) as [H4 Ff4].
    eapply HQ; [exact H4|reflexivity|lia|].
    eapply frame_trans; [exact Ff1|]. eapply frame_trans; [exact Ff2|]. eapply frame_trans; [exact Ff3|exact Ff4].
  Qed.

  Lemma so_get_free_index_spec d s G sp (Q : cres (cg_data * Z) -> spec -> Prop) :
    grep (hp sp) d s (sd_arrays G) -> so_graph_ok G ->
    (forall d' s' sp', grep (hp sp') d' s' (sd_arrays (snd (get_free_index G))) -> cg_index d' = cg_index d ->
        sdepth sp' = sdepth sp -> frame (hp sp) (hp sp') (gfoot d s) (gfoot d' s') ->
        Q (CrOk (d', fst (get_free_index G))) sp') ->
    cwp fl (so_get_free_index d) sp Q.
  Proof.
    intros H OK HQ. pose proof (glen_of_ok G OK) as HL. pose proof OK as [Lt Lfm Ltm Lpos Lcap Lfree _].
    pose proof (gst_init d s _ G sp H HL) as S0.
    unfold so_get_free_index.
    apply cwp_bind. eapply (gst_get fl _ d s _ _ G GfFromMeta 0%Z); [exact S0|cbn; lia|]. cbn [kont].
    change (get (garr G GfFromMeta) 0) with (fmeta G 0).
    unfold get_free_index in HQ. change cg_i64_min with i64_min.
    destruct (Z.eqb_spec (fmeta G 0) i64_min) as [E|NE]; cbn [fst snd] in HQ.
    - (* grow *)
      apply cwp_bind. eapply ggrow_spec; [exact H| |].
      + intros f. destruct f; cbn [sd_arrays grow ga_get ga_from ga_to ga_from_meta ga_to_meta g_from g_to g_fmeta g_tmeta];
          rewrite lenN_app; unfold lenN, two64; cbn [length]; lia.
      + intros d' s' sp' H' I' D' F'. cbn [kont cwp]. rewrite (cap_of_grep _ _ _ _ H).
        replace (u2z (lenN (g_from G))) with (capacity G); [eapply HQ; eassumption|].
        unfold capacity, u2z, lenN, two63. destruct (N.ltb_spec (N.of_nat (length (g_from G))) 9223372036854775808); lia.
    - (* pop the free list *)
      specialize (Lfree NE). set (index := fmeta G 0) in *.
      apply cwp_bind. eapply (gst_get fl _ d s _ _ G GfFromMeta); [exact S0|rewrite zabs_opp; exact Lfree|]. cbn [kont].
      apply cwp_bind. eapply gst_set; [exact S0|eapply gst_range; exact S0|cbn; lia|]. intros sp1 S1. cbn [kont].
      apply cwp_bind. eapply gst_set; [exact S1|unfold i64_range; lia|rewrite zabs_opp; exact Lfree|].
      intros sp2 (_ & D2 & s2 & H2 & F2). cbn [kont cwp]. eapply HQ; [exact H2|reflexivity|exact D2|exact F2].
  Qed.

  (* GraphImpl::insert_node *)
  Theorem so_graph_insert_node_spec d s G sp (Q : cres (cg_data * Z) -> spec -> Prop) :
    grep (hp sp) d s (sd_arrays G) -> so_graph_ok G ->
    (forall d' s' sp', grep (hp sp') d' s' (sd_arrays (snd (insert_node G))) -> cg_index d' = cg_index d ->
        sdepth sp' = sdepth sp -> frame (hp sp) (hp sp') (gfoot d s) (gfoot d' s') ->
        Q (CrOk (d', fst (insert_node G))) sp') ->
    cwp fl (so_graph_insert_node d) sp Q.
  Proof.
    intros H OK HQ. unfold so_graph_insert_node.
    apply cwp_bind. apply hwp_transaction. intros sp0 Hm0 Hd0. cbn [kont].
    apply cwp_bind. eapply so_get_free_index_spec; [eapply grep_heq; [exact H|exact Hm0]|exact OK|].
    intros d1 s1 sp1 H1 I1 D1 F1. cbn [kont fst snd].
    destruct (get_free_index_glen G OK) as (n & HL1 & _ & Hn & _ & Et). pose proof (go_count _ OK) as Hc. pose proof (go_pos _ OK) as Hpos.
    unfold insert_node, node_count in HQ. destruct (get_free_index G) as [ix G1]. cbn [fst snd] in *.
    pose proof (gst_init d1 s1 n G1 sp1 H1 HL1) as S1.
    (* node_count, set_node_count(count + 1) *)
    apply cwp_bind. apply cwp_bind. eapply (gst_get fl _ d1 s1 _ _ G1 GfToMeta 0%Z); [exact S1|cbn; lia|]. cbn [kont cwp].
    change (get (garr G1 GfToMeta) 0) with (tmeta G1 0). rewrite Et in *.
    apply cwp_bind. unfold cg_set_node_count. rewrite (u2z_z2u_succ _ Hc). eapply (gst_set fl _ d1 s1 _ _ G1 GfToMeta 0%Z); [exact S1|unfold i64_range; lia|cbn; lia|].
    intros sp2 (_ & D2 & s2 & H2 & F2). cbn [kont].
    apply cwp_bind. apply hwp_commit; [lia|lia|]. intros sp3 Hm3 Hd3. cbn [kont cwp].
    eapply HQ; [eapply grep_heq; [exact H2|exact Hm3]|exact I1|lia|].
    eapply frame_trans; [apply frame_refl; exact Hm0|]. eapply frame_trans; [exact F1|].
    eapply frame_trans; [exact F2|apply frame_refl; exact Hm3].
  Qed.
End GraphOps.
