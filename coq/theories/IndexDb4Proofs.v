(* IndexDb4Proofs.v — C11: what the invariant means for index searches and for the index listing. *)
From Agdb Require Import Bytes BytesProofs DbValue Graph DbModel Search Queries KvProofs KvDbProofs KvSelectProofs IndexProofs IndexDbProofs IndexDb2Proofs IndexDb3Proofs QStepProofs GraphSpec.
From Coq Require Import ZifyBool ZifyNat ZifyN.
Open Scope Z_scope.

Lemma search_index_unfold rv d s l m key op value rest :
  s_algorithm s = AIndex -> s_conditions s = Cond l m (CKeyValue key op value) :: rest ->
  search rv d s =
  match idx_find (indexes d) key with
  | Some ids => SOk (map snd (filter (fun p : dbvalue * Z => dbv_eqb (fst p) value) ids))
  | None => SErr ENotFound
  end.
Proof. intros Ha Hc. unfold search. rewrite Ha, Hc. reflexivity. Qed.

(* an index search for key K and value V returns exactly (as a multiset) the live elements whose
   current value of K equals V *)
Lemma index_search_exact d key ids value id :
  idx_exact d -> kvs_distinct (vals d) -> idx_find (indexes d) key = Some ids ->
  count_occ Z.eq_dec (map snd (filter (fun p : dbvalue * Z => dbv_eqb (fst p) value) ids)) id =
  if live d id then match kvs_value (vals d) id key with
                    | Some v' => b2nat (dbv_eqb v' value)
                    | None => 0%nat
                    end
  else 0%nat.
Proof.
  intros Hd Hk Hf. rewrite count_occ_index_result.
  rewrite (idx_exact_count _ d key ids Hd Hf). destruct (live d id); [|reflexivity].
  rewrite kvs_value_lookup. now apply cntK_distinct.
Qed.

Lemma list_sum_add {A} (f g : A -> nat) l :
  list_sum (map (fun c => (f c + g c)%nat) l) = (list_sum (map f l) + list_sum (map g l))%nat.
Proof.
  induction l as [|x l IH]; [reflexivity|]. cbn [map]. rewrite !list_sum_cons, IH. lia.
Qed.

Lemma list_sum_indicator (x : Z) (l : list Z) :
  NoDup l -> list_sum (map (fun c => b2nat (x =? c)) l) = b2nat (existsb (Z.eqb x) l).
Proof.
  induction l as [|y l IH]; intros Hn; [reflexivity|]. inversion Hn as [|? ? Hy Hl]; subst.
  cbn [map existsb]. rewrite list_sum_cons, (IH Hl).
  destruct (Z.eqb_spec x y) as [->|Hne]; cbn [orb b2nat]; [|reflexivity].
  destruct (existsb (Z.eqb y) l) eqn:Ex; [|reflexivity].
  apply existsb_exists in Ex. destruct Ex as [z [Hz Hyz]]. apply Z.eqb_eq in Hyz. subst. contradiction.
Qed.

Lemma list_sum_zero {A} (l : list A) : list_sum (map (fun _ => 0%nat) l) = 0%nat.
Proof. induction l as [|x l IH]; [reflexivity|]. cbn [map]. now rewrite list_sum_cons, IH. Qed.

Lemma length_by_class (ids : list (dbvalue * Z)) (cands : list Z) :
  NoDup cands -> (forall p, In p ids -> In (snd p) cands) ->
  length ids = list_sum (map (fun c => cntP ids (fun _ => true) c) cands).
Proof.
  intros Hn. induction ids as [|p ids IH]; intros Hin.
  - cbn [length]. symmetry. apply list_sum_zero.
  - cbn [length]. rewrite (map_ext _ (fun c : Z => (b2nat (snd p =? c)%Z + cntP ids (fun _ => true) c)%nat)).
    2:{ intros c. now rewrite cntP_cons. }
    assert (Hex : existsb (Z.eqb (snd p)) cands = true).
    { apply existsb_exists. exists (snd p). split; [apply Hin; now left|apply Z.eqb_refl]. }
    rewrite list_sum_add, (list_sum_indicator (snd p) cands Hn), Hex. cbn [b2nat].
    rewrite IH; [reflexivity|]. intros q Hq. apply Hin. now right.
Qed.

Lemma list_sum_b2nat {A} (f : A -> bool) l : list_sum (map (fun c => b2nat (f c)) l) = length (filter f l).
Proof.
  induction l as [|x l IH]; [reflexivity|]. cbn [map filter]. rewrite list_sum_cons, IH. destruct (f x); reflexivity.
Qed.

(* number of existing elements that have the key *)
Definition count_having (d : db) (key : dbvalue) : nat :=
  length (filter (fun e => has_key (kvs_get (vals d) e) key) (elements (gr d))).

Lemma index_length_exact d key ids :
  idx_exact d -> kvs_distinct (vals d) -> idx_find (indexes d) key = Some ids ->
  length ids = count_having d key.
Proof.
  intros Hd Hk Hf. unfold count_having.
  rewrite (length_by_class ids (elements (gr d)) (elements_nodup (gr d))).
  - rewrite <- list_sum_b2nat. f_equal. apply map_ext_in. intros e He.
    rewrite (idx_exact_count _ d key ids Hd Hf). apply elements_in in He. unfold live. rewrite He.
    rewrite (cntK_distinct _ key (fun _ => true) (Hk e)). unfold kv_lookup. rewrite has_key_find.
    now destruct (kv_find (kvs_get (vals d) e) key).
  - intros p Hp. apply elements_in. pose proof (idx_exact_count _ d key ids Hd Hf (fun _ => true) (snd p)) as H.
    fold (live d (snd p)). destruct (live d (snd p)); [reflexivity|]. exfalso.
    assert (Hpos : (0 < cntP ids (fun _ => true) (snd p))%nat); [|lia].
    clear -Hp. induction ids as [|q ids IH]; [destruct Hp|]. rewrite cntP_cons.
    destruct Hp as [->|Hp]; [rewrite Z.eqb_refl; cbn; lia|]. specialize (IH Hp). lia.
Qed.

(* SelectIndexes reports, per indexed key, exactly the number of elements having that key *)
Lemma select_indexes_exact rv d :
  idx_exact d -> kvs_distinct (vals d) -> idx_distinct d ->
  exec_select rv d SelectIndexes =
  QOk (lenZ (indexes d))
      [ {| e_id := 0; e_from := 0; e_to := 0;
           e_values := map (fun ix : index => (fst ix, DU64 (N.of_nat (count_having d (fst ix))))) (indexes d) |} ].
Proof.
  intros Hd Hk Hdist. cbn [exec_select]. unfold lenZ. rewrite map_length. do 3 f_equal.
  apply map_ext_in. intros [k ids] Hin. cbn [fst snd]. do 3 f_equal.
  apply (index_length_exact d k ids Hd Hk). now apply idx_find_in.
Qed.
