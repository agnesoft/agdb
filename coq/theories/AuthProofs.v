(* AuthProofs.v — general facts about the server model Auth.v (C24, C25): what a refused or failing
   request leaves alone, what a database operation leaves alone, invariants of request sequences,
   query classification. *)
From Agdb Require Import Bytes Auth.
From Coq Require Import Lia ZifyBool ZifyN.
Open Scope N_scope.

Arguments N.add : simpl never.
Arguments N.ltb : simpl never.
Arguments N.leb : simpl never.
Arguments N.eqb : simpl never.

(* destruct the scrutinee of the first match in the goal *)
Ltac dm1 :=
  match goal with
  | |- context [match ?x with _ => _ end] =>
    lazymatch x with
    | context [match _ with _ => _ end] => fail
    | _ => destruct x eqn:?
    end
  end.
Ltac dm := repeat dm1.

(* the same for the matches of hypothesis H *)
Ltac split_ifs H :=
  repeat match type of H with
         | context [match ?c with _ => _ end] => destruct c eqn:?
         end.

Lemma run_inv : forall P : state -> Prop,
  (forall s now tok req, P s -> P (snd (step s now tok req))) ->
  forall tr s, P s -> P (run s tr).
Proof.
  intros P St. induction tr as [|[[now tok] req] tr IH]; intros s H; cbn [run]; [exact H|].
  apply IH, St, H.
Qed.

Lemma apply_db_err : forall s who o d op no,
  resp_ok (fst (apply_db s who o d op no)) = false -> snd (apply_db s who o d op no) = s.
Proof.
  intros s who o d op no. unfold apply_db.
  dm; cbn [fst snd resp_ok]; intros H; reflexivity || discriminate H.
Qed.

Lemma apply_err : forall s now tok u req,
  resp_ok (fst (apply s now tok u req)) = false -> snd (apply s now tok u req) = s.
Proof.
  intros s now tok u req. destruct req; cbn [apply fst snd resp_ok];
    try (intros H; discriminate H); try (intros; reflexivity); apply apply_db_err.
Qed.

Lemma step_err_unchanged : forall s now tok req,
  resp_ok (fst (step s now tok req)) = false -> snd (step s now tok req) = s.
Proof.
  intros s now tok req. unfold step. destruct (authorize s now tok req).
  - apply apply_err.
  - reflexivity.
Qed.

Lemma db_is_diff : forall o' d' o d r,
  (o' =? o) && (d' =? d) = false -> db_is o' d' r = true -> db_is o d r = false.
Proof. unfold db_is. intros. lia. Qed.

Lemma db_is_owner : forall o d r, d_owner r <> o -> db_is o d r = false.
Proof. unfold db_is. intros. lia. Qed.

Lemma find_db_app_some : forall l x o d r, find_db l o d = Some r -> find_db (l ++ [x]) o d = Some r.
Proof.
  intros l x o d r. unfold find_db. induction l as [|a l IH]; cbn; [discriminate|].
  destruct (db_is o d a); auto.
Qed.

Lemma find_db_app_other : forall l x o d, db_is o d x = false -> find_db (l ++ [x]) o d = find_db l o d.
Proof.
  intros l x o d H. unfold find_db. induction l as [|a l IH]; cbn.
  - rewrite H. reflexivity.
  - destruct (db_is o d a); [reflexivity|exact IH].
Qed.

Lemma find_db_update_same : forall l o d f r,
  find_db l o d = Some r -> d_owner (f r) = d_owner r -> d_name (f r) = d_name r ->
  find_db (update_db l o d f) o d = Some (f r).
Proof.
  intros l o d f r. unfold find_db, update_db. induction l as [|a l IH]; cbn; intros F E1 E2; [discriminate|].
  destruct (db_is o d a) eqn:E.
  - inversion F; subst a. unfold db_is in *. rewrite E1, E2, E. reflexivity.
  - rewrite E. apply IH; assumption.
Qed.

Lemma find_db_update_other : forall l o' d' f o d,
  (o' =? o) && (d' =? d) = false ->
  (forall r, db_is o' d' r = true -> db_is o d (f r) = false) ->
  find_db (update_db l o' d' f) o d = find_db l o d.
Proof.
  intros l o' d' f o d K F. unfold find_db, update_db. induction l as [|a l IH]; cbn; [reflexivity|].
  destruct (db_is o' d' a) eqn:E.
  - rewrite (F a E), (db_is_diff _ _ _ _ _ K E). exact IH.
  - destruct (db_is o d a); [reflexivity|exact IH].
Qed.

Lemma find_db_remove_other : forall l o' d' o d,
  (o' =? o) && (d' =? d) = false -> find_db (remove_db l o' d') o d = find_db l o d.
Proof.
  intros l o' d' o d K. unfold find_db, remove_db. induction l as [|a l IH]; cbn; [reflexivity|].
  destruct (db_is o' d' a) eqn:E; cbn.
  - rewrite (db_is_diff _ _ _ _ _ K E). exact IH.
  - destruct (db_is o d a); [reflexivity|exact IH].
Qed.

(* an operation on (o', d') does not touch another database (o, d), if a copy or renamed database
   is not filed under the owner name o either *)
Lemma apply_db_other : forall s who o' d' op no o d,
  (o' =? o) && (d' =? d) = false -> no <> o ->
  find_db (s_dbs (snd (apply_db s who o' d' op no))) o d = find_db (s_dbs s) o d.
Proof.
  intros s who o' d' op no o d K U. unfold apply_db.
  destruct (find_db (s_dbs s) o' d') as [r'|] eqn:F; destruct op; cbn [snd];
    dm; cbn [snd with_dbs with_dbs_disk s_dbs];
    eauto using find_db_app_other, find_db_remove_other, find_db_update_other, db_is_owner, db_is_diff.
Qed.

Lemma apply_db_frame : forall s who o d op no,
  let s' := snd (apply_db s who o d op no) in
  s_tokens s' = s_tokens s /\ s_next s' = s_next s /\ s_users s' = s_users s /\
  s_admin s' = s_admin s /\ s_ttl s' = s_ttl s.
Proof.
  intros s who o d op no. unfold apply_db.
  dm; cbn; auto.
Qed.

Lemma kind_tables_agree : forall k,
  kind_is_write k = negb (kind_read_allowed k) /\ kind_audited k = kind_is_write k.
Proof. destruct k; split; reflexivity. Qed.

Lemma exec_query_kind : forall c rs q c' r q',
  exec_query c rs q = Some (c', r, q') -> kind_of q' = kind_of q.
Proof.
  intros c rs q c' r q' H. destruct q; cbn [exec_query] in H; split_ifs H;
    try discriminate H; inversion H; reflexivity.
Qed.

(* a read-only batch accepted by the exec endpoint never hits t_exec's "mutable query not allowed" *)
Lemma read_batch_all_allowed : forall qs,
  batch_is_write qs = false -> forallb (fun q => kind_read_allowed (kind_of q)) qs = true.
Proof.
  induction qs as [|q t IH]; cbn [batch_is_write existsb forallb]; [reflexivity|].
  intros H. apply Bool.orb_false_iff in H. destruct H as [H1 H2].
  destruct (kind_tables_agree (kind_of q)) as [E _]. rewrite E in H1.
  apply Bool.negb_false_iff in H1. rewrite H1. cbn. apply IH. exact H2.
Qed.

Definition is_login (req : request) : bool := match req with ReqLogin _ _ => true | _ => false end.

Lemma unauthenticated_step : forall s now tok req,
  user_of_token s now tok = None -> is_login req = false -> step s now tok req = (RespErr 401, s).
Proof.
  intros s now tok req H L. unfold step.
  destruct req; try discriminate L; cbn [authorize]; rewrite H; reflexivity.
Qed.
