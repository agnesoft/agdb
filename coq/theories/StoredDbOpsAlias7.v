(* StoredDbOpsAlias7.v — MapImpl::insert of an absent key with EVERY branch of multi_map.rs modelled.

     so_map_rehash   MultiMapImpl::rehash(capacity): new = max(capacity, 64); current < new: grow = data.resize(new) then
                     rehash_values(current, new); current > new: shrink = rehash_values(current, new) then data.resize(new);
                     equal: nothing.  data.resize = DbMapData::resize: the three vectors resized with Empty / K::default() /
                     T::default() (kdef / vdef)
     so_map_grow     `if self.len() >= self.max_len() { self.rehash(storage, self.capacity() * 2)? }`
     so_map_code     the so_map_rest of the code: so_map_grow, so_map_rip

   so_map_grow_spec: on a represented table, if OpenMap.v's rehash to twice the capacity returns Done m1, the program ends in
   a represented table whose open-addressing map is m1.
   so_map_insert_absent_full: so_map_insert with so_map_code on a represented table satisfying C19's invariant PInv (minimum
   capacity 64), for a key no Valid slot holds: the table left is the one OpenMap.v's insert_or_replace computes (PInv again;
   the pairs are (key, value) :: the old ones as a multiset) — NO side condition on grow or probe cycles; assumed only: the
   elements (key, value, the two defaults) are valid, len + 1 < 2^64, and when the table grows the three vectors of
   max(2 * capacity, 64) slots stay below 2^64 bytes (so_grow_ok). *)
From Coq Require Import List NArith ZArith Arith Bool Lia Permutation.
Import ListNotations.
From Agdb Require Import Bytes StorageSpec Collections CollWp CollVecBase CollVecOps CollVec CollMap CollMapHist
  OpenMap OpenMapProofs OpenMapRefineStep StoredDbRep StoredDbProbe StoredDbOpsAlias StoredDbOpsAlias4
  StoredDbOpsAlias5.
From Coq Require Import ZifyBool ZifyNat ZifyN.
Ltac Zify.zify_post_hook ::= Z.div_mod_to_equations.
Open Scope N_scope.

Section GrowProg.
  Variables K V : Type.
  Variable EK : cv_elem K.
  Variable EV : cv_elem V.
  Variable h : K -> N.
  Variable kdef : K.
  Variable vdef : V.

  Definition so_map_rehash (d : cm_data) (cap : N) : cprog cm_data :=
    let cur := cm_capacity d in
    let newcap := N.max cap 64 in
    match cur ?= newcap with
    | Lt => d' <~ cm_resize K V EK EV kdef vdef d newcap ;;
            so_rehash_values K V EK EV h d' (N.to_nat cur) (N.to_nat newcap) ;;~ CRet d'
    | Gt => so_rehash_values K V EK EV h d (N.to_nat cur) (N.to_nat newcap) ;;~ cm_resize K V EK EV kdef vdef d newcap
    | Eq => CRet d
    end.

  Definition so_map_grow (d : cm_data) : cprog cm_data := so_map_rehash d (cm_capacity d * 2).

  Definition so_map_code : so_map_rest := {| smr_grow := so_map_grow; smr_rehash_in_place := so_map_rip K V EK EV h |}.
End GrowProg.

Section ResizeSlots.
  Variables K V : Type.

  Lemma ct_slots_repeat (kdef : K) (vdef : V) : forall m,
    ct_slots K V (repeat StEmpty m) (repeat kdef m) (repeat vdef m) = repeat Empty m.
  Proof. induction m as [|m IH]; cbn [repeat ct_slots]; [reflexivity|]. rewrite IH. reflexivity. Qed.

  Lemma ct_slots_app (kdef : K) (vdef : V) : forall (ls : list cm_st) (lk : list K) (lv : list V) m,
    length lk = length ls -> length lv = length ls ->
    ct_slots K V (ls ++ repeat StEmpty m) (lk ++ repeat kdef m) (lv ++ repeat vdef m) = ct_slots K V ls lk lv ++ repeat Empty m.
  Proof.
    induction ls as [|s ls IH]; intros [|k lk] [|v lv] m H1 H2; cbn [length] in *; try discriminate.
    - cbn [app ct_slots]. apply ct_slots_repeat.
    - cbn [app ct_slots]. f_equal. apply IH; congruence.
  Qed.

  Lemma ct_slots_resize (kdef : K) (vdef : V) (ls : list cm_st) (lk : list K) (lv : list V) n :
    length lk = length ls -> length lv = length ls -> (length ls <= n)%nat ->
    ct_slots K V (cl_resize ls n StEmpty) (cl_resize lk n kdef) (cl_resize lv n vdef)
    = ct_slots K V ls lk lv ++ repeat Empty (n - length ls).
  Proof.
    intros H1 H2 Hn. unfold cl_resize. rewrite !firstn_all2 by lia. rewrite H1, H2. apply ct_slots_app; auto.
  Qed.
End ResizeSlots.

Section GrowProof.
  Variables K V : Type.
  Variable EK : cv_elem K.
  Variable EV : cv_elem V.
  Variable LK : elem_law EK.
  Variable LV : elem_law EV.
  Variable keqb : K -> K -> bool.
  Variable veqb : V -> V -> bool.
  Variable h : K -> N.
  Variable kdef : K.
  Variable vdef : V.
  Variable fl : bool.
  Hypothesis keqb_eq : forall a b, keqb a b = true <-> a = b.
  Hypothesis veqb_eq : forall a b, veqb a b = true <-> a = b.
  Hypothesis kdef_ok : el_valid LK kdef.
  Hypothesis vdef_ok : el_valid LV vdef.

  Notation msepT := (msep K V EK EV LK LV).
  Notation mrepT := (mrep K V EK EV LK LV).
  Notation mfootT := (mfoot K V EK EV LK LV).
  Notation slotsT := (ct_slots K V).

  (* DbMapData::resize at any transaction depth *)
  Lemma so_cm_resize_spec d ss ks vs ls lk lv c sp (Q : cres cm_data -> spec -> Prop) :
    msepT (hp sp) d ss ks vs ls lk lv ->
    8 + 1 * c < two64 -> 8 + ce_size EK * c < two64 -> 8 + ce_size EV * c < two64 ->
    (forall d' ss' ks' vs' sp',
        msepT (hp sp') d' ss' ks' vs' (cl_resize ls (N.to_nat c) StEmpty) (cl_resize lk (N.to_nat c) kdef) (cl_resize lv (N.to_nat c) vdef) ->
        cm_index d' = cm_index d -> cm_len d' = cm_len d -> sdepth sp' = sdepth sp ->
        frame (hp sp) (hp sp') (mfootT d ss ks vs) (mfootT d' ss' ks' vs') -> Q (CrOk d') sp') ->
    cwp fl (cm_resize K V EK EV kdef vdef d c) sp Q.
  Proof.
    intros HS F1 F2 F3 HQ. destruct d as [di dl hs0 hk0 hv0]. unfold cm_resize. apply cwp_bind.
    eapply cv_resize_spec; [apply HS|exact I|exact F1|].
    intros hs ss' sp1 R1 I1 D1 Fr1. cbn [kont].
    destruct (msep_update_s K V EK EV LK LV _ _ _ _ _ _ _ _ _ _ _ _ HS I1 R1 Fr1) as [HS1 Ff1].
    apply cwp_bind.
    eapply cv_resize_spec; [apply HS1|exact kdef_ok|exact F2|].
    intros hk ks' sp2 R2 I2 D2 Fr2. cbn [kont].
    destruct (msep_update_k K V EK EV LK LV _ _ _ _ _ _ _ _ _ _ _ _ HS1 I2 R2 Fr2) as [HS2 Ff2].
    apply cwp_bind.
    eapply cv_resize_spec; [apply HS2|exact vdef_ok|exact F3|].
    intros hv vs' sp3 R3 I3 D3 Fr3. cbn [kont cwp].
    destruct (msep_update_v K V EK EV LK LV _ _ _ _ _ _ _ _ _ _ _ _ HS2 I3 R3 Fr3) as [HS3 Ff3].
    eapply HQ; [exact HS3|reflexivity|reflexivity|lia|eapply frame_trans; [exact Ff1|eapply frame_trans; [exact Ff2|exact Ff3]]].
  Qed.

  Definition so_grow_ok (t : cm_table K V) : Prop :=
    let c := N.max (lenN (ct_states t) * 2) 64 in
    8 + 1 * c < two64 /\ 8 + ce_size EK * c < two64 /\ 8 + ce_size EV * c < two64.

  Lemma so_map_grow_spec d ss ks vs t m1 sp (Q : cres cm_data -> spec -> Prop) :
    mrepT (hp sp) d ss ks vs t ->
    rehash K V h 64 (ct_omap K V t) (capacity K V (ct_omap K V t) * 2) = Done m1 ->
    so_grow_ok t ->
    (forall d1 ss1 ks1 vs1 t1 sp1,
        mrepT (hp sp1) d1 ss1 ks1 vs1 t1 -> cm_index d1 = cm_index d -> ct_omap K V t1 = m1 -> ct_len t1 = ct_len t ->
        sdepth sp1 = sdepth sp -> frame (hp sp) (hp sp1) (mfootT d ss ks vs) (mfootT d1 ss1 ks1 vs1) -> Q (CrOk d1) sp1) ->
    cwp fl (so_map_grow K V EK EV h kdef vdef d) sp Q.
  Proof.
    intros HM Hg (G1 & G2 & G3) HQ.
    pose proof HM as [HS HL [SK SV]].
    pose proof (mrep_capacity HM) as Hcap.
    set (sl := slotsT (ct_states t) (ct_keys t) (ct_values t)) in *.
    assert (Lsl : length sl = length (ct_states t)) by (apply ct_slots_length; auto).
    unfold rehash, capacity, ct_omap in Hg. cbn [slots len] in Hg. fold sl in Hg.
    set (cur := length sl) in *. set (newcap := Nat.max (cur * 2) 64) in *.
    assert (Hlt : (cur < newcap)%nat) by (unfold newcap; lia).
    rewrite (proj2 (Nat.compare_lt_iff cur newcap) Hlt) in Hg.
    unfold rehash_values in Hg.
    destruct (rehash_loop K V h (rehash_fuel cur newcap) cur newcap (sl ++ repeat Empty (newcap - cur)) (repeat false newcap) 0)
      as [sl1|] eqn:HRL; [|discriminate].
    injection Hg as <-.
    unfold so_map_grow, so_map_rehash. rewrite Hcap.
    assert (EcN : N.to_nat (lenN (ct_states t)) = cur) by (unfold lenN, cur; lia).
    assert (EnN : N.to_nat (N.max (lenN (ct_states t) * 2) 64) = newcap) by (unfold newcap; lia).
    destruct (N.compare_spec (lenN (ct_states t)) (N.max (lenN (ct_states t) * 2) 64)) as [X|X|X]; try lia.
    apply cwp_bind.
    eapply so_cm_resize_spec; [exact HS|exact G1|exact G2|exact G3|].
    intros d' ss' ks' vs' sp1 HS1 Hi1 Hl1 Hd1 Hf1. cbn [kont].
    rewrite EcN, EnN in *.
    assert (Esl : slotsT (cl_resize (ct_states t) newcap StEmpty) (cl_resize (ct_keys t) newcap kdef) (cl_resize (ct_values t) newcap vdef)
                  = sl ++ repeat Empty (newcap - cur)).
    { rewrite ct_slots_resize by (auto; lia). fold sl. rewrite <- Lsl. reflexivity. }
    rewrite <- Esl in HRL.
    apply cwp_bind. unfold so_rehash_values.
    eapply (so_rehash_loop_spec K V EK EV LK LV keqb h fl d' cur newcap (Nat.le_lt_trans _ _ _ (Nat.le_0_l cur) Hlt));
      [exact HS1|rewrite !cl_resize_length; reflexivity|rewrite !cl_resize_length; reflexivity|
       rewrite cl_resize_length; exact (Nat.lt_le_incl _ _ Hlt)|rewrite cl_resize_length; apply Nat.le_refl|apply Nat.le_0_l|exact HRL|].
    intros ss3 ks3 vs3 ls3 lk3 lv3 sp3 HS3 A3 B3 C3 E3 D3 F3. cbn [kont cwp].
    eapply (HQ d' ss3 ks3 vs3 {| ct_states := ls3; ct_keys := lk3; ct_values := lv3; ct_len := ct_len t |}).
    - constructor; cbn [ct_states ct_keys ct_values ct_len]; [exact HS3|congruence|split; [exact A3|exact B3]].
    - exact Hi1.
    - unfold ct_omap. cbn [ct_states ct_keys ct_values ct_len]. rewrite E3. reflexivity.
    - reflexivity.
    - lia.
    - eapply frame_trans; [exact Hf1|exact F3].
  Qed.

  Lemma so_key_absent_perm (sl sl1 : list (slot K V)) key :
    Permutation (entries K V sl1) (entries K V sl) -> so_key_absent K V keqb sl key -> so_key_absent K V keqb sl1 key.
  Proof.
    intros HPm Ha j k v Hj.
    assert (Hlt : (j < length sl1)%nat).
    { destruct (Nat.lt_ge_cases j (length sl1)) as [X|X]; [exact X|]. rewrite nth_overflow in Hj by exact X. discriminate. }
    pose proof (entries_nth_in K V sl1 j k v Hlt Hj) as Hin.
    destruct (entries_in_nth K V sl k v (Permutation_in _ HPm Hin)) as (p & _ & Hv).
    exact (Ha p k v Hv).
  Qed.

  Theorem so_map_insert_absent_full d ss ks vs t key nv sp (Q : cres (cm_data * option V) -> spec -> Prop) :
    mrepT (hp sp) d ss ks vs t -> PInv K V h 64 (ct_omap K V t) ->
    so_key_absent K V keqb (slotsT (ct_states t) (ct_keys t) (ct_values t)) key ->
    el_valid LK key -> el_valid LV nv -> ct_len t + 1 < two64 ->
    (so_max_len (lenN (ct_states t)) <= ct_len t -> so_grow_ok t) ->
    (forall d' ss' ks' vs' t' sp',
        mrepT (hp sp') d' ss' ks' vs' t' -> cm_index d' = cm_index d -> PInv K V h 64 (ct_omap K V t') ->
        Permutation (sd_table_entries t') ((key, nv) :: sd_table_entries t) ->
        sdepth sp' = sdepth sp -> frame (hp sp) (hp sp') (mfootT d ss ks vs) (mfootT d' ss' ks' vs') ->
        Q (CrOk (d', None)) sp') ->
    cwp fl (so_map_insert K V EK EV keqb h (so_map_code K V EK EV h kdef vdef) d key nv) sp Q.
  Proof.
    intros HM HP Habs VK VV Hlen Hgo HQ.
    assert (Hmin : (4 <= 64)%nat) by lia.
    destruct (N.leb_spec (so_max_len (lenN (ct_states t))) (ct_len t)) as [X|X].
    2:{ (* it has room *)
        eapply (so_map_insert_absent_rip K V EK EV LK LV keqb veqb h 64 fl keqb_eq veqb_eq Hmin); eauto. }
    (* the table grows *)
    rewrite so_map_insert_unfold.
    apply cwp_bind. apply hwp_transaction. intros sp0 Hm0 Hd0. cbn [kont].
    pose proof (mrep_heq HM Hm0) as HM0.
    pose proof HM as [_ HL _]. rewrite (mrep_capacity HM), HL, (proj2 (N.leb_le _ _) X).
    cbn [so_map_code smr_grow]. apply cwp_bind.
    pose proof HM as [_ _ [SK SV]].
    set (sl := slotsT (ct_states t) (ct_keys t) (ct_values t)) in *.
    assert (Lsl : length sl = length (ct_states t)) by (apply ct_slots_length; auto).
    destruct HP as [[Hcv Hc] Hch].
    pose proof (cv_le_length K V (slots (ct_omap K V t))) as Hle. fold (capacity K V (ct_omap K V t)) in Hle.
    destruct (rehash_good K V keqb veqb h 64 om_fixed keqb_eq veqb_eq Hmin (ct_omap K V t) (capacity K V (ct_omap K V t) * 2) Hcv)
      as (m1 & Hr & Hc1 & Hl1 & HG & HPm); [lia|exact Hch|].
    eapply so_map_grow_spec; [exact HM0|exact Hr|exact (Hgo X)|].
    intros d1 ss1 ks1 vs1 t1 sp1 HM1 Hi1 Em1 El1 Hd1 Hf1. cbn [kont].
    pose proof HM1 as [_ _ [SK1 SV1]].
    assert (Ecap1 : length (ct_states t1) = Nat.max (length sl * 2) 64).
    { pose proof Hc1 as Y. rewrite <- Em1 in Y. unfold capacity, ct_omap in Y. cbn [slots] in Y.
      rewrite ct_slots_length in Y by auto. fold sl in Y. exact Y. }
    eapply (so_map_insert_body_spec K V EK EV LK LV keqb veqb h 64 fl keqb_eq veqb_eq Hmin _ d1 ss1 ks1 vs1 t1);
      [exact HM1|rewrite Em1; exact (Good_PInv K V h 64 om_fixed Hmin m1 HG)| | |right; reflexivity|exact VK|exact VV|rewrite El1; exact Hlen|
       lia|lia|].
    + eapply so_key_absent_perm; [|exact Habs].
      change (entries K V (slotsT (ct_states t1) (ct_keys t1) (ct_values t1))) with (abs K V (ct_omap K V t1)).
      rewrite Em1. exact HPm.
    + unfold so_no_grow, so_max_len, lenN. rewrite El1, Ecap1.
      unfold capacity, ct_omap in Hc, Hcv. cbn [slots len] in Hc, Hcv. fold sl in Hc, Hcv.
      destruct Hc as [Hc|Hc]; [|lia].
      (* the empty table *)
      destruct sl; [|discriminate]. cbn in Hcv. cbn [length]. lia.
    + intros d' ss' ks' vs' t' sp' HM' Hi' HP' Hperm' Hd' Hf'.
      eapply HQ; [exact HM'|congruence|exact HP'| |lia|].
      * eapply Permutation_trans; [exact Hperm'|]. apply perm_skip.
        rewrite !(sd_table_entries_iter_all K V). rewrite Em1. exact HPm.
      * eapply frame_trans; [apply frame_refl; exact Hm0|]. eapply frame_trans; [exact Hf1|exact Hf'].
  Qed.
End GrowProof.
