(* CollMapHist.v — proofs (collections): every history of the MapData interface of a
   storage-backed map (DbMapData: set_state / set_key / set_value / set_len / resize / swap /
   shrink_to_fit / state / key / value / capacity / len), with reloads (DbMapData::from_storage)
   and maintenance of the storage underneath at will, yields the observations of the plain
   table `ct_run`; the reloaded interface stands for the SAME table, so whatever the map
   algorithms of multi_map.rs compute from it (OpenMap.v: functions of the slot list and len)
   is the same. *)
From Agdb Require Import Bytes BytesProofs Records RecordsProofs Storage StorageSpec StorageLayout StorageWp
  StorageRefine StorageProofs Collections CollWp CollBytes CollVecBase CollVecOps CollVec CollElems
  CollSep CollMap OpenMap.
From Coq Require Import ZifyBool ZifyNat ZifyN.
Open Scope N_scope.

Arguments ct_states {K V}. Arguments ct_keys {K V}. Arguments ct_values {K V}. Arguments ct_len {K V}.
Arguments MoSetState {K V}. Arguments MoSetKey {K V}. Arguments MoSetValue {K V}. Arguments MoSetLen {K V}.
Arguments MoResize {K V}. Arguments MoSwap {K V}. Arguments MoShrink {K V}. Arguments MoState {K V}. Arguments MoKey {K V}.
Arguments MoValue {K V}. Arguments MoCapLen {K V}. Arguments MoReload {K V}. Arguments MoMaint {K V}.
Arguments MbUnit {K V}. Arguments MbState {K V}. Arguments MbKey {K V}. Arguments MbVal {K V}. Arguments MbNums {K V}. Arguments MbErr {K V}.

Section MapHist.
  Variables K V : Type.
  Variable EK : cv_elem K.
  Variable EV : cv_elem V.
  Variable LK : elem_law EK.
  Variable LV : elem_law EV.
  Variable kdef : K.
  Variable vdef : V.
  Hypothesis kdef_ok : el_valid LK kdef.
  Hypothesis vdef_ok : el_valid LV vdef.

  Notation mrep := (mrep K V EK EV LK LV).
  Notation msep := (msep K V EK EV LK LV).
  Notation mfoot := (mfoot K V EK EV LK LV).
  Notation tstep := (ct_step K V kdef vdef).
  Notation trun := (ct_run K V kdef vdef).

  Definition mop_ok (o : cm_op K V) : Prop :=
    match o with
    | MoSetKey _ k => el_valid LK k
    | MoSetValue _ v => el_valid LV v
    | MoSetLen n => n < two64
    | MoResize c => 8 + 1 * c < two64 /\ 8 + ce_size EK * c < two64 /\ 8 + ce_size EV * c < two64
    | _ => True
    end.

  (* the three slot lists as one value, for the scheme of CollVecBase *)
  Definition mrep3 g d (s : list bytes * list bytes * list bytes) t := let '(ss, ks, vs) := s in mrep g d ss ks vs t.
  Definition mfoot3 d (s : list bytes * list bytes * list bytes) := let '(ss, ks, vs) := s in mfoot d ss ks vs.

  Section Spec.
  Variable fl : bool.

  Lemma cm_step_spec d ss ks vs t o sp (Q : cres (cm_data * cm_obs K V) -> spec -> Prop) :
    mrep (hp sp) d ss ks vs t -> sdepth sp = 0 -> mop_ok o ->
    (forall d' ss' ks' vs' sp', mrep (hp sp') d' ss' ks' vs' (fst (tstep t o)) -> cm_index d' = cm_index d -> sdepth sp' = 0 ->
        frame (hp sp) (hp sp') (mfoot d ss ks vs) (mfoot d' ss' ks' vs') -> Q (CrOk (d', snd (tstep t o))) sp') ->
    cwp fl (cm_step K V EK EV kdef vdef d o) sp Q.
  Proof.
    intros HM Hd Hok HQ. destruct d as [di dl hs0 hk0 hv0]. set (d := {| cm_index := di; cm_len := dl; cm_states := hs0; cm_keys := hk0; cm_values := hv0 |}) in *. pose proof (mr_sep _ _ _ _ _ _ _ _ _ _ _ _ HM) as HS.
    destruct (mr_same _ _ _ _ _ _ _ _ _ _ _ _ HM) as [SK SV]. pose proof (mr_len _ _ _ _ _ _ _ _ _ _ _ _ HM) as HL.
    assert (HQ0 : forall v, v = snd (tstep t o) -> fst (tstep t o) = t -> Q (CrOk (d, v)) sp).
    { intros v -> El. eapply HQ; [rewrite El; exact HM|reflexivity|exact Hd|apply frame_refl; intros j; reflexivity]. }
    destruct t as [ls lk lv ln]. cbn [ct_states ct_keys ct_values ct_len] in *.
    destruct o; cbn [cm_step ct_step fst snd mop_ok ct_states ct_keys ct_values ct_len] in *; rewrite ?leb_nth_error in HQ, HQ0.
    - apply cwp_fin. unfold cm_set_state. apply cwp_bind.
      eapply cv_replace_spec; [exact (ms_s _ _ _ _ _ _ _ _ _ _ _ _ _ _ HS)|exact I|].
      destruct (nth_error ls (N.to_nat i)); [|cbn [kont]; apply HQ0; reflexivity].
      intros ss' sp' HR' Hd' Hf. cbn [kont cwp fst snd] in *.
      destruct (msep_update_s K V EK EV LK LV _ _ _ _ _ _ _ _ _ _ _ _ HS eq_refl HR' Hf) as [HS' Hf'].
      eapply HQ; [|reflexivity|congruence|exact Hf'].
      constructor; cbn [ct_states ct_keys ct_values ct_len]; [exact HS'|exact HL|rewrite cl_upd_length; auto].
    - apply cwp_fin. unfold cm_set_key. apply cwp_bind.
      eapply cv_replace_spec; [exact (ms_k _ _ _ _ _ _ _ _ _ _ _ _ _ _ HS)|exact Hok|].
      destruct (nth_error lk (N.to_nat i)); [|cbn [kont]; apply HQ0; reflexivity].
      intros ks' sp' HR' Hd' Hf. cbn [kont cwp fst snd] in *.
      destruct (msep_update_k K V EK EV LK LV _ _ _ _ _ _ _ _ _ _ _ _ HS eq_refl HR' Hf) as [HS' Hf'].
      eapply HQ; [|reflexivity|congruence|exact Hf'].
      constructor; cbn [ct_states ct_keys ct_values ct_len]; [exact HS'|exact HL|rewrite cl_upd_length; auto].
    - apply cwp_fin. unfold cm_set_value. apply cwp_bind.
      eapply cv_replace_spec; [exact (ms_v _ _ _ _ _ _ _ _ _ _ _ _ _ _ HS)|exact Hok|].
      destruct (nth_error lv (N.to_nat i)); [|cbn [kont]; apply HQ0; reflexivity].
      intros vs' sp' HR' Hd' Hf. cbn [kont cwp fst snd] in *.
      destruct (msep_update_v K V EK EV LK LV _ _ _ _ _ _ _ _ _ _ _ _ HS eq_refl HR' Hf) as [HS' Hf'].
      eapply HQ; [|reflexivity|congruence|exact Hf'].
      constructor; cbn [ct_states ct_keys ct_values ct_len]; [exact HS'|exact HL|rewrite cl_upd_length; auto].
    - apply cwp_fin. eapply cm_set_len_spec; [exact HS|exact Hok|]. intros sp' HS' Hd' Hf.
      eapply HQ; [|reflexivity|congruence|exact Hf]. constructor; cbn [ct_states ct_keys ct_values ct_len]; auto.
    - destruct Hok as (F1 & F2 & F3).
      apply cwp_fin. unfold cm_resize. apply cwp_bind.
      eapply cv_resize_spec; [exact (ms_s _ _ _ _ _ _ _ _ _ _ _ _ _ _ HS)|exact I|exact F1|].
      intros hs ss' sp1 R1 I1 D1 Fr1. cbn [kont].
      destruct (msep_update_s K V EK EV LK LV _ _ _ _ _ _ _ _ _ _ _ _ HS I1 R1 Fr1) as [HS1 Ff1].
      apply cwp_bind.
      eapply cv_resize_spec; [exact (ms_k _ _ _ _ _ _ _ _ _ _ _ _ _ _ HS1)|exact kdef_ok|exact F2|].
      intros hk ks' sp2 R2 I2 D2 Fr2. cbn [kont].
      destruct (msep_update_k K V EK EV LK LV _ _ _ _ _ _ _ _ _ _ _ _ HS1 I2 R2 Fr2) as [HS2 Ff2].
      apply cwp_bind.
      eapply cv_resize_spec; [exact (ms_v _ _ _ _ _ _ _ _ _ _ _ _ _ _ HS2)|exact vdef_ok|exact F3|].
      intros hv vs' sp3 R3 I3 D3 Fr3. cbn [kont cwp].
      destruct (msep_update_v K V EK EV LK LV _ _ _ _ _ _ _ _ _ _ _ _ HS2 I3 R3 Fr3) as [HS3 Ff3].
      eapply HQ; [|reflexivity|congruence|eapply frame_trans; [exact Ff1|eapply frame_trans; [exact Ff2|exact Ff3]]].
      constructor; cbn [ct_states ct_keys ct_values ct_len]; [exact HS3|exact HL|rewrite !cl_resize_length; auto].
    - apply cwp_fin. unfold cm_swap.
      destruct (N.eqb_spec i j) as [Eij|Nij].
      { subst j. unfold cv_swap. rewrite N.eqb_refl. cbn [cbind cwp]. apply HQ0; reflexivity. }
      apply cwp_bind. eapply cv_swap_spec; [exact (ms_s _ _ _ _ _ _ _ _ _ _ _ _ _ _ HS)|].
      apply N.eqb_neq in Nij. rewrite Nij.
      destruct (nth_error ls (N.to_nat i)) as [sa|] eqn:Ei; [|cbn [kont]; apply HQ0; reflexivity].
      destruct (nth_error ls (N.to_nat j)) as [sb|] eqn:Ej; [|cbn [kont]; apply HQ0; reflexivity].
      (* both in range: the three swaps succeed *)
      apply nth_error_Some_lt in Ei. apply nth_error_Some_lt in Ej.
      destruct (nth_error_lt_Some lk (N.to_nat i)) as (ka & Eki); [congruence|]. destruct (nth_error_lt_Some lk (N.to_nat j)) as (kb & Ekj); [congruence|].
      destruct (nth_error_lt_Some lv (N.to_nat i)) as (va & Evi); [congruence|]. destruct (nth_error_lt_Some lv (N.to_nat j)) as (vb & Evj); [congruence|].
      cbn [orb fst snd] in HQ. rewrite Eki, Ekj, Evi, Evj in HQ.
      intros ss' sp1 R1 D1 Fr1. cbn [kont].
      destruct (msep_update_s K V EK EV LK LV _ _ _ _ _ _ _ _ _ _ _ _ HS eq_refl R1 Fr1) as [HS1 Ff1].
      apply cwp_bind. eapply cv_swap_spec; [exact (ms_k _ _ _ _ _ _ _ _ _ _ _ _ _ _ HS1)|]. rewrite Nij, Eki, Ekj.
      intros ks' sp2 R2 D2 Fr2. cbn [kont].
      destruct (msep_update_k K V EK EV LK LV _ _ _ _ _ _ _ _ _ _ _ _ HS1 eq_refl R2 Fr2) as [HS2 Ff2].
      eapply cv_swap_spec; [exact (ms_v _ _ _ _ _ _ _ _ _ _ _ _ _ _ HS2)|]. rewrite Nij, Evi, Evj.
      intros vs' sp3 R3 D3 Fr3.
      destruct (msep_update_v K V EK EV LK LV _ _ _ _ _ _ _ _ _ _ _ _ HS2 eq_refl R3 Fr3) as [HS3 Ff3].
      eapply HQ; [|reflexivity|congruence|eapply frame_trans; [exact Ff1|eapply frame_trans; [exact Ff2|exact Ff3]]].
      constructor; cbn [ct_states ct_keys ct_values ct_len]; [exact HS3|exact HL|rewrite !cl_upd_length; auto].
    - apply cwp_fin. unfold cm_shrink_to_fit. apply cwp_bind.
      eapply cv_shrink_spec; [exact (ms_s _ _ _ _ _ _ _ _ _ _ _ _ _ _ HS)|]. intros hs sp1 R1 I1 D1 Fr1. cbn [kont].
      destruct (msep_update_s K V EK EV LK LV _ _ _ _ _ _ _ _ _ _ _ _ HS I1 R1 Fr1) as [HS1 Ff1].
      apply cwp_bind.
      eapply cv_shrink_spec; [exact (ms_k _ _ _ _ _ _ _ _ _ _ _ _ _ _ HS1)|]. intros hk sp2 R2 I2 D2 Fr2. cbn [kont].
      destruct (msep_update_k K V EK EV LK LV _ _ _ _ _ _ _ _ _ _ _ _ HS1 I2 R2 Fr2) as [HS2 Ff2].
      apply cwp_bind.
      eapply cv_shrink_spec; [exact (ms_v _ _ _ _ _ _ _ _ _ _ _ _ _ _ HS2)|]. intros hv sp3 R3 I3 D3 Fr3. cbn [kont cwp].
      destruct (msep_update_v K V EK EV LK LV _ _ _ _ _ _ _ _ _ _ _ _ HS2 I3 R3 Fr3) as [HS3 Ff3].
      eapply HQ; [|reflexivity|congruence|eapply frame_trans; [exact Ff1|eapply frame_trans; [exact Ff2|exact Ff3]]].
      constructor; cbn [ct_states ct_keys ct_values ct_len]; auto.
    - apply cwp_fin. unfold cm_state. eapply cv_value_spec; [exact (ms_s _ _ _ _ _ _ _ _ _ _ _ _ _ _ HS)|].
      destruct (nth_error ls (N.to_nat i)); cbn [fst snd]; apply HQ0; reflexivity.
    - apply cwp_fin. unfold cm_key. eapply cv_value_spec; [exact (ms_k _ _ _ _ _ _ _ _ _ _ _ _ _ _ HS)|].
      destruct (nth_error lk (N.to_nat i)); cbn [fst snd]; apply HQ0; reflexivity.
    - apply cwp_fin. unfold cm_value. eapply cv_value_spec; [exact (ms_v _ _ _ _ _ _ _ _ _ _ _ _ _ _ HS)|].
      destruct (nth_error lv (N.to_nat i)); cbn [fst snd]; apply HQ0; reflexivity.
    - cbn [cwp]. unfold cm_capacity. rewrite (vr_len _ _ _ _ _ _ _ (ms_s _ _ _ _ _ _ _ _ _ _ _ _ _ _ HS)). rewrite HL. apply HQ0; reflexivity.
    - apply cwp_fin. eapply cm_from_storage_spec; [exact HS|]. intros d' HS' Ii Il Ic Ef.
      eapply HQ; [|exact Ii|exact Hd|rewrite Ef; apply frame_refl; intros j; reflexivity].
      constructor; cbn [ct_states ct_keys ct_values ct_len]; [exact HS'|congruence|auto].
    - destruct (cv_is_maint o) eqn:Em.
      + apply cwp_fin. apply hwp_maint; [exact Em|exact Hd|]. intros sp' Hm Hd'.
        eapply HQ; [|reflexivity|exact Hd'|apply frame_refl; exact Hm].
        constructor; cbn [ct_states ct_keys ct_values ct_len]; [eapply msep_heq; [exact HS|exact Hm]|exact HL|auto].
      + cbn [cwp]. apply HQ0; reflexivity.
  Qed.

  Lemma cm_run_ref l : Forall mop_ok l -> forall d s t sp, mrep3 (hp sp) d s t -> sdepth sp = 0 ->
    hrefines fl mrep3 mfoot3 cm_index d s sp (cm_run K V EK EV kdef vdef d l) (fst (trun t l)) (snd (trun t l)).
  Proof.
    intros Hok d s t sp HM Hd.
    refine (hist_run fl mrep3 mfoot3 cm_index (cm_step K V EK EV kdef vdef) tstep (fun _ => mop_ok) _
              (cm_run K V EK EV kdef vdef) trun (fun _ => Forall mop_ok)
              (fun _ => eq_refl) (fun _ _ _ => eq_refl) (fun _ => eq_refl) (fun _ _ _ => eq_refl)
              (fun _ _ _ H => conj (Forall_inv H) (Forall_inv_tail H)) l d s t sp HM Hd Hok).
    intros d0 [[ss0 ks0] vs0] t0 o sp0 HM0 Hd0 Ho Q0 HQ0. eapply cm_step_spec; [exact HM0|exact Hd0|exact Ho|].
    intros d' ss' ks' vs'. apply (HQ0 d' (ss', ks', vs')).
  Qed.

  Theorem cm_run_spec : forall ops d ss ks vs t sp (Q : cres (cm_data * list (cm_obs K V)) -> spec -> Prop),
    mrep (hp sp) d ss ks vs t -> sdepth sp = 0 -> Forall mop_ok ops ->
    (forall d' ss' ks' vs' sp', mrep (hp sp') d' ss' ks' vs' (fst (trun t ops)) -> cm_index d' = cm_index d -> sdepth sp' = 0 ->
        frame (hp sp) (hp sp') (mfoot d ss ks vs) (mfoot d' ss' ks' vs') -> Q (CrOk (d', snd (trun t ops))) sp') ->
    cwp fl (cm_run K V EK EV kdef vdef d ops) sp Q.
  Proof.
    intros ops d ss ks vs t sp Q HM Hd Hok HQ. apply (cm_run_ref ops Hok d (ss, ks, vs) t sp HM Hd).
    intros d' [[ss' ks'] vs']. apply HQ.
  Qed.
  End Spec.

  Definition ct_empty : cm_table K V := {| ct_states := []; ct_keys := []; ct_values := []; ct_len := 0 |}.

  Lemma cm_new_ok fl sp (Q : cres cm_data -> spec -> Prop) :
    (forall d s sp', mrep3 (hp sp') d s ct_empty -> sdepth sp' = sdepth sp -> Q (CrOk d) sp') -> cwp fl cm_new sp Q.
  Proof.
    intros HQ. apply (cm_new_spec K V EK EV LK LV fl). intros d sp' HS Hl Hd _ _.
    apply (HQ d ([], [], []) sp'); [|exact Hd]. constructor; cbn [ct_empty ct_states ct_keys ct_values ct_len]; auto.
  Qed.

  Theorem cm_history_on_storage (ops : store_ops cdata) (fl : bool) : kind ops fl ->
    forall (l : list (cm_op K V)), Forall mop_ok l ->
    let r := cp_run (st_step cdata ops) (d <~ cm_new ;; cm_run K V EK EV kdef vdef d l) s_init in
    snd r = CrDead \/
    exists d' sp' ss ks vs,
      snd r = CrOk (d', snd (trun ct_empty l)) /\
      Rel (fst r) sp' /\ mrep (hp sp') d' ss ks vs (fst (trun ct_empty l)).
  Proof.
    intros Kd l Hok.
    destruct (hist_on_storage fl mrep3 mfoot3 cm_index cm_new ct_empty _ (fun d => cm_run K V EK EV kdef vdef d l) _ ops Kd
                (cm_new_ok fl) (fun d s => cm_run_ref fl l Hok d s ct_empty))
      as [D|(d' & sp' & [[ss ks] vs] & E & RL & HM)]; [left; exact D|right; exists d', sp', ss, ks, vs; auto].
  Qed.
End MapHist.

Section Slots.
  Variables K V : Type.

  Fixpoint ct_slots (ls : list cm_st) (lk : list K) (lv : list V) : list (slot K V) :=
    match ls, lk, lv with
    | s :: ls', k :: lk', v :: lv' =>
      (match s with StEmpty => Empty | StDeleted => Deleted | StValid => Valid k v end) :: ct_slots ls' lk' lv'
    | _, _, _ => []
    end.

  (* the open-addressing map the interface stands for: every lookup and iteration of OpenMap.v is a
     function of this value, hence of the table alone *)
  Definition ct_omap (t : cm_table K V) : omap K V :=
    {| slots := ct_slots (ct_states t) (ct_keys t) (ct_values t); len := N.to_nat (ct_len t) |}.
End Slots.
