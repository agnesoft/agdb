(* RaftVote.v — C27 at full strength for the repaired revision `rr_fixed` of raft.rs.
   With both election repairs (vote_request adopts the request's term; response() counts a Vote/Ok answer only
   for the candidate's current term) the term of a node never decreases and every support a node gives
   (a granted vote, or its own candidacy) is for a term strictly above its term before and at most its term after.
   Hence: a node supports at most one candidate per term (`double_vote_b` never holds), no candidate counts a
   vote of another term (`stale_vote_b`), nobody acknowledges an Append below a term it voted in
   (`ack_below_vote_b`) — for every cluster size and every adversarial event list — and election safety follows
   from the quorum argument of RaftElect.v. *)
From Coq Require Import NArith List Bool Lia Arith.
From Agdb Require Import Raft RaftWitness RaftProofs RaftInv RaftElect.
Import ListNotations.
Open Scope N_scope.

Lemma term_process : forall nd el due, n_term (fst (process nd el due)) = n_term nd.
Proof. intros nd el due. destruct (process_case nd el due); reflexivity. Qed.

Lemma term_append : forall nd d, n_term (fst (append nd d)) = n_term nd.
Proof. intros. unfold append. cbn [fst]. destruct (_ =? 1); reflexivity. Qed.

Lemma term_append_logs : forall logs nd r, n_term (fst (append_logs nd r logs)) = n_term nd.
Proof.
  induction logs as [|log rest IH]; intros nd r; cbn [append_logs]; auto.
  destruct (validate_log_append nd r log) as [doit|]; cbn [fst]; auto.
  rewrite IH. destruct (_ && _); destruct doit; reflexivity.
Qed.

Lemma validate_log_not_ok : forall nd r resp, validate_log nd r = Some resp -> is_ok (s_result resp) = false.
Proof. intros nd r resp V. unfold validate_log in V. destruct (_ || _); inversion V; reflexivity. Qed.

(* what a request does to the term, and what an Ok answer tells *)
Lemma request_term : forall rv nd r el,
  n_term nd <= n_term (fst (handle_request rv nd r el)) /\
  (is_vote (q_kind r) && is_ok (s_result (snd (handle_request rv nd r el))) = true ->
   n_term nd < q_term r /\ (fix_vote_term rv = true -> n_term (fst (handle_request rv nd r el)) = q_term r)) /\
  (is_append_or_hb (q_kind r) && is_ok (s_result (snd (handle_request rv nd r el))) = true -> n_term nd <= q_term r).
Proof.
  intros rv nd r el.
  destruct (request_case rv nd r el) as [s O To|K|K L C T P1 P2|s K T O To|K T E|logs K T]; cbn [fst snd];
    rewrite ?O, ?K, ?andb_false_r; cbn [is_vote is_append_or_hb andb].
  - repeat split; try discriminate. lia.
  - repeat split; try discriminate. lia.
  - repeat split; try discriminate; [destruct (fix_vote_term rv); cbn; lia | exact T | intros ->; reflexivity].
  - repeat split; try discriminate. exact T.
  - replace (n_term (if p_lc (local (follow nd r)) <? q_lc r then commit_storage (follow nd r) (q_lc r) else follow nd r))
      with (q_term r) by (destruct (_ <? _); reflexivity).
    repeat split; try discriminate; auto.
  - rewrite term_append_logs. repeat split; try discriminate; auto.
Qed.

(* with the term check in `response()`, a response never lowers the term *)
Lemma response_term : forall rv nd r s,
  fix_vote_match rv = true -> n_term nd <= n_term (fst (handle_response rv nd r s)).
Proof.
  intros rv nd r s F.
  destruct (response_case rv nd r s) as [ |S|S|S K R VC|S K R VC Q|S A AC|S A AC Q|cl S|l T]; cbn; try lia.
  unfold vote_counts in VC. rewrite F in VC. apply N.eqb_eq in VC. destruct (fix_ack_term rv); cbn; lia.
Qed.

(* a new candidacy (the condition under which `node_ghosts` records GCand) raises the term by one *)
Lemma response_new_candidacy : forall rv nd r s,
  is_candidate (n_state (fst (handle_response rv nd r s))) &&
  negb (is_candidate (n_state nd) && (n_term nd =? n_term (fst (handle_response rv nd r s)))) = true ->
  n_term (fst (handle_response rv nd r s)) = n_term nd + 1.
Proof.
  intros rv nd r s H. apply andb_true_iff in H as [C NC].
  destruct (response_candidate rv nd r s C) as [E|[(S0 & _ & _ & _ & E)|(S0 & E)]].
  - rewrite E in *. rewrite C, N.eqb_refl in NC. discriminate.
  - rewrite E in NC. cbn in NC. rewrite S0, N.eqb_refl in NC. discriminate.
  - rewrite E. reflexivity.
Qed.

Lemma existsb_node_ghosts : forall (P : ghost -> bool) old new,
  (forall i t, P (GCand i t) = false) -> (forall i t l, P (GLeader i t l) = false) ->
  (forall i b t x e, P (GCommit i b t x e) = false) ->
  existsb P (node_ghosts old new) = false.
Proof.
  intros P old new H1 H2 H3. unfold node_ghosts. rewrite !existsb_app.
  assert (E : forall l, existsb P (map (fun idx => GCommit (n_index new) (is_leader (n_state old) && is_leader (n_state new))
                                                    (n_term new) idx (log_at (n_logs new) idx)) l) = false).
  { induction l; cbn; auto. rewrite H3. auto. }
  rewrite E.
  destruct (is_candidate (n_state new) && negb (is_candidate (n_state old) && (n_term old =? n_term new)));
    destruct (is_leader (n_state new) && negb (is_leader (n_state old))); cbn; rewrite ?H1, ?H2; reflexivity.
Qed.

Lemma ack_below_app : forall a b, ack_below_vote_b (a ++ b) = ack_below_vote_b a || ack_below_vote_b b.
Proof. intros. unfold ack_below_vote_b. apply existsb_app. Qed.

Lemma ack_below_node_ghosts : forall old new, ack_below_vote_b (node_ghosts old new) = false.
Proof. intros. apply existsb_node_ghosts; reflexivity. Qed.

Lemma stale_node_ghosts : forall old new, stale_vote_b (node_ghosts old new) = false.
Proof. intros. apply existsb_node_ghosts; reflexivity. Qed.

(* `request_ghosts` under a test that ignores GVote and GAckDiverged: only the GAckBelowVote marker is left *)
Lemma existsb_request_ghosts : forall P c new r s,
  (forall a b d, P (GVote a b d) = false) -> (forall a b, P (GAckDiverged a b) = false) ->
  existsb P (request_ghosts c new r s) =
  is_append_or_hb (q_kind r) && is_ok (s_result s) && (q_term r <? voted_term (c_hist c) (n_index new)) &&
  P (GAckBelowVote (n_index new) (q_term r) (voted_term (c_hist c) (n_index new))).
Proof.
  intros P c new r s F1 F2. unfold request_ghosts. rewrite !existsb_app.
  assert (E : existsb P (if is_append_or_hb (q_kind r) && is_ok (s_result s)
                         then match get_node c (q_from r) with
                              | Some sender =>
                                  if entries_eqb (firstn (N.to_nat (p_li (local new))) (n_logs new))
                                                 (firstn (N.to_nat (p_li (local new))) (n_logs sender))
                                  then [] else [GAckDiverged (n_index new) (q_from r)]
                              | None => [] end
                         else []) = false).
  { destruct (_ && _); [|reflexivity]. destruct (get_node c (q_from r)); [|reflexivity].
    destruct (entries_eqb _ _); cbn; rewrite ?F2; reflexivity. }
  rewrite E, orb_false_r.
  destruct (is_vote (q_kind r) && is_ok (s_result s)); cbn [existsb orb]; rewrite ?F1; cbn [orb];
    destruct (_ && _ && _); cbn [existsb andb orb]; rewrite ?orb_false_r; reflexivity.
Qed.

Lemma stale_request_ghosts : forall c new r s, stale_vote_b (request_ghosts c new r s) = false.
Proof. intros. unfold stale_vote_b. rewrite existsb_request_ghosts by reflexivity. apply andb_false_r. Qed.

Lemma supports_request_ghosts : forall c new r s,
  supports (request_ghosts c new r s) =
  if is_vote (q_kind r) && is_ok (s_result s) then [(n_index new, q_term r, q_from r)] else [].
Proof. intros. unfold supports. rewrite flat_map_request_ghosts by reflexivity. destruct (_ && _); reflexivity. Qed.

Lemma ack_below_request_ghosts : forall c new r s,
  is_append_or_hb (q_kind r) && is_ok (s_result s) && (q_term r <? voted_term (c_hist c) (n_index new)) = false ->
  ack_below_vote_b (request_ghosts c new r s) = false.
Proof. intros c new r s H. unfold ack_below_vote_b. rewrite existsb_request_ghosts by reflexivity. rewrite H. reflexivity. Qed.

(* the repaired `response()` never counts a vote of another term: the ghost is never emitted *)
Lemma response_ghosts_fixed : forall rv old r s, fix_vote_match rv = true -> response_ghosts rv old r s = [].
Proof.
  intros rv old r s F. unfold response_ghosts, vote_counts. rewrite F. cbn [negb orb].
  destruct (q_term r =? n_term old); cbn; rewrite ?andb_false_r; reflexivity.
Qed.

(* the highest voted term is bounded by any bound on the GVote entries of the voter *)
Lemma voted_term_le : forall h v T,
  (forall t cd, In (v, t, cd) (supports h) -> t <= T) -> voted_term h v <= T.
Proof.
  intros h v T H. unfold voted_term.
  assert (G : forall l m, m <= T -> (forall t cd, In (v, t, cd) (supports l) -> t <= T) ->
              fold_left (fun m g => match g with GVote v' t _ => if v' =? v then N.max m t else m | _ => m end) l m <= T).
  { induction l as [|g l IH]; intros m Hm Hl; cbn [fold_left]; auto.
    apply IH.
    - destruct g as [| v' t cd | | | | |]; auto. destruct (N.eqb_spec v' v) as [->|]; auto.
      apply N.max_lub; auto. apply (Hl t cd). cbn. auto.
    - intros t cd Hin. apply (Hl t cd). change (g :: l) with ([g] ++ l). rewrite supports_app. apply in_or_app. auto. }
  apply G; auto. lia.
Qed.

Record K (c : cluster) : Prop := {
  k_cinv : cinv c;
  k_term : forall k nd t cd, nth_error (c_nodes c) k = Some nd -> In (N.of_nat k, t, cd) (supports (c_hist c)) -> t <= n_term nd;
  k_once : forall v t c1 c2, In (v, t, c1) (supports (c_hist c)) -> In (v, t, c2) (supports (c_hist c)) -> c1 = c2;
  k_noack : ack_below_vote_b (c_hist c) = false;
  k_nostale : stale_vote_b (c_hist c) = false }.

(* node i goes from nd to nd' without lowering its term; the step records at most one new support, by i, for a
   term above nd's and at most nd''s *)
Lemma K_put : forall c i nd nd' net g,
  K c -> cinv (mkCluster (put_node c i nd') net (c_hist c ++ g)) ->
  get_node c i = Some nd -> n_term nd <= n_term nd' ->
  (supports g = [] \/ exists t cd, supports g = [(i, t, cd)] /\ n_term nd < t /\ t <= n_term nd') ->
  ack_below_vote_b g = false -> stale_vote_b g = false ->
  K (mkCluster (put_node c i nd') net (c_hist c ++ g)).
Proof.
  intros c i nd nd' net g Kc CI G T Sg A S. unfold get_node in G.
  constructor; auto; cbn [c_nodes c_hist].
  - intros k x t cd Hk Hin. unfold put_node in Hk. rewrite supports_app in Hin.
    destruct (Nat.eq_dec (N.to_nat i) k) as [<-|Hne].
    + rewrite (nth_error_upd_nth_eq _ _ _ _ _ G) in Hk. inversion Hk; subst x.
      apply in_app_or in Hin as [Hin|Hin].
      * pose proof (k_term _ Kc _ _ _ _ G Hin). lia.
      * destruct Sg as [E|(t0 & cd0 & E & L1 & L2)]; rewrite E in Hin; [destruct Hin|].
        destruct Hin as [Hin|[]]. inversion Hin; subst. lia.
    + rewrite nth_error_upd_nth_neq in Hk by auto.
      apply in_app_or in Hin as [Hin|Hin].
      * eapply (k_term _ Kc); eauto.
      * destruct Sg as [E|(t0 & cd0 & E & L1 & L2)]; rewrite E in Hin; [destruct Hin|].
        destruct Hin as [Hin|[]]. inversion Hin; subst. lia.
  - intros v t c1 c2 H1 H2. rewrite supports_app in H1, H2.
    assert (Old : forall cd, In (i, t, cd) (supports (c_hist c)) -> t <= n_term nd).
    { intros cd Hin. apply (k_term _ Kc (N.to_nat i) nd t cd G). rewrite N2Nat.id. exact Hin. }
    apply in_app_or in H1 as [H1|H1]; apply in_app_or in H2 as [H2|H2].
    + eapply (k_once _ Kc); eauto.
    + destruct Sg as [E|(t0 & cd0 & E & L1 & L2)]; rewrite E in H2; [destruct H2|].
      destruct H2 as [H2|[]]. inversion H2; subst. specialize (Old _ H1). lia.
    + destruct Sg as [E|(t0 & cd0 & E & L1 & L2)]; rewrite E in H1; [destruct H1|].
      destruct H1 as [H1|[]]. inversion H1; subst. specialize (Old _ H2). lia.
    + destruct Sg as [E|(t0 & cd0 & E & L1 & L2)]; rewrite E in H1, H2; [destruct H1|].
      destruct H1 as [H1|[]]. destruct H2 as [H2|[]]. congruence.
  - rewrite ack_below_app, (k_noack _ Kc), A. reflexivity.
  - rewrite stale_app, (k_nostale _ Kc), S. reflexivity.
Qed.

Lemma K_same_hist : forall c c',
  K c -> cinv c' -> c_nodes c' = c_nodes c -> c_hist c' = c_hist c -> K c'.
Proof.
  intros c c' Kc I N H. constructor; auto; rewrite ?N, ?H.
  - apply (k_term _ Kc).
  - apply (k_once _ Kc).
  - apply (k_noack _ Kc).
  - apply (k_nostale _ Kc).
Qed.

Theorem K_step : forall rv c e,
  fix_vote_term rv = true -> fix_vote_match rv = true -> K c -> K (step rv c e).
Proof.
  intros rv c e FT FM Kc.
  pose proof (proj1 (step_inv rv c e (k_cinv _ Kc))) as CI.
  pose proof (k_cinv _ Kc) as CIc. pose proof CIc as [HN HM].
  destruct (step_case rv c e) as [e0 c' En Eh Hnet | i nd el due G | i nd d G L | k r el nd Hk G | k r s el nd Hk G].
  - eapply K_same_hist; eauto.
  - (* Tick *)
    pose proof (term_process nd el due) as Tm.
    pose proof (process_keeps nd el due) as Kp.
    destruct (process nd el due) as [nd' reqs]. cbn [fst snd] in *.
    apply (K_put c i nd nd'); auto; try lia.
    + left. apply supports_no_candidacy. intros S. apply Kp. rewrite S. reflexivity.
    + apply ack_below_node_ghosts.
    + apply stale_node_ghosts.
  - (* ClientAppend *)
    pose proof (term_append nd d) as Tm.
    pose proof (append_state nd d) as As.
    destruct (append nd d) as [nd' reqs]. cbn [fst snd] in *.
    apply (K_put c i nd nd'); auto; try lia.
    + left. apply supports_no_candidacy. intros S. rewrite As in S. rewrite S in L. discriminate L.
    + apply ack_below_node_ghosts.
    + apply stale_node_ghosts.
  - (* request: a granted vote is a support for the request's term, which the voter adopts *)
    pose proof (get_node_index _ _ _ HN G) as Ei.
    pose proof (good_request rv nd r el (proj1 (HN _ _ G)) (delivered_request c k r nd CIc Hk G)) as [_ (Hi & _)].
    pose proof (request_keeps rv nd r el) as Kp.
    pose proof (request_term rv nd r el) as (T1 & T2 & T3).
    destruct (handle_request rv nd r el) as [nd' s]. cbn [fst snd] in *.
    assert (NoC : supports (node_ghosts nd nd') = []).
    { apply supports_no_candidacy. intros S. apply Kp. rewrite S. reflexivity. }
    apply (K_put c (q_to r) nd nd'); auto.
    + rewrite supports_app, NoC, app_nil_r, supports_request_ghosts.
      destruct (is_vote (q_kind r) && is_ok (s_result s)) eqn:V; [|left; reflexivity].
      right. exists (q_term r), (q_from r). destruct (T2 eq_refl) as [L E]. specialize (E FT).
      split; [rewrite Hi, Ei; reflexivity|]. split; lia.
    + rewrite ack_below_app, ack_below_node_ghosts, orb_false_r.
      apply ack_below_request_ghosts.
      destruct (is_append_or_hb (q_kind r) && is_ok (s_result s)) eqn:A; cbn [andb]; auto.
      specialize (T3 eq_refl). apply N.ltb_ge.
      assert (V : voted_term (c_hist c) (n_index nd') <= n_term nd).
      { apply voted_term_le. intros t cd Hin. rewrite Hi, Ei in Hin.
        apply (k_term _ Kc (N.to_nat (q_to r)) nd t cd G). rewrite N2Nat.id. exact Hin. }
      lia.
    + rewrite stale_app, stale_request_ghosts, stale_node_ghosts. reflexivity.
  - (* response: a new candidacy is a support for the node's new term *)
    destruct (delivered_response c k r s nd CIc Hk G) as [Hne _].
    pose proof (get_node_index _ _ _ HN G) as Ei.
    pose proof (good_response rv nd r s (proj1 (HN _ _ G)) Hne) as [_ (Hi & _)].
    pose proof (response_term rv nd r s FM) as T1.
    pose proof (response_new_candidacy rv nd r s) as T2.
    destruct (handle_response rv nd r s) as [nd' reqs]. cbn [fst snd] in *.
    rewrite (response_ghosts_fixed rv nd r s FM) in *. cbn [app] in *.
    apply (K_put c (s_to s) nd nd'); auto.
    + rewrite supports_node_ghosts.
      destruct (is_candidate (n_state nd') && negb (is_candidate (n_state nd) && (n_term nd =? n_term nd'))) eqn:C;
        [|left; reflexivity].
      right. exists (n_term nd'), (n_index nd'). specialize (T2 eq_refl).
      split; [rewrite Hi, Ei; reflexivity|]. split; lia.
    + apply ack_below_node_ghosts.
    + apply stale_node_ghosts.
Qed.

Lemma run_K : forall rv evs c,
  fix_vote_term rv = true -> fix_vote_match rv = true -> K c -> K (run_from rv c evs).
Proof.
  intros rv. induction evs as [|e evs IH]; intros c FT FM Kc; cbn [run_from fold_left] in *; auto.
  apply IH; auto. apply K_step; auto.
Qed.

Lemma init_K : forall size, size <> 1 -> K (init_default size).
Proof.
  intros size Hs. pose proof (init_hist size Hs) as H.
  constructor; rewrite ?H; auto.
  - apply init_inv; auto.
  - intros k nd t cd _ [].
  - intros v t c1 c2 [].
Qed.

Lemma double_vote_of_once : forall h,
  (forall v t c1 c2, In (v, t, c1) (supports h) -> In (v, t, c2) (supports h) -> c1 = c2) -> double_vote_b h = false.
Proof.
  intros h H. unfold double_vote_b.
  destruct (existsb _ (supports h)) eqn:E; auto. exfalso.
  apply existsb_exists in E as [[[v1 t1] c1] [H1 E]].
  apply existsb_exists in E as [[[v2 t2] c2] [H2 E]].
  apply andb_true_iff in E as [E E3]. apply andb_true_iff in E as [E1 E2].
  apply N.eqb_eq in E1, E2. subst v2 t2. apply negb_true_iff in E3. apply N.eqb_neq in E3.
  apply E3. eapply H; eauto.
Qed.

(* the three defect classes rooted in the election code never occur in a revision with both election repairs
   (whatever the third flag, the acknowledgement repair, is: `rr_fixed` and `rr_before_ack_fix`) *)
Theorem elect_fixed_no_election_classes : forall rv size evs,
  fix_vote_term rv = true -> fix_vote_match rv = true ->
  size <> 1 ->
  let h := c_hist (run rv size evs) in
  double_vote_b h = false /\ stale_vote_b h = false /\ ack_below_vote_b h = false.
Proof.
  intros rv size evs F1 F2 Hs. cbv zeta. unfold run.
  pose proof (run_K rv evs _ F1 F2 (init_K size Hs)) as Kr.
  split; [|split].
  - apply double_vote_of_once. apply (k_once _ Kr).
  - apply (k_nostale _ Kr).
  - apply (k_noack _ Kr).
Qed.

(* a cluster of one node exchanges no messages: the node is Leader of term 1 from the start and nobody else ever is *)
Record K1 (c : cluster) : Prop := {
  k1_net : c_net c = [];
  k1_nodes : exists nd, c_nodes c = [nd] /\ n_state nd = Leader /\ n_index nd = 0 /\ length (n_peers nd) = 1%nat;
  k1_leaders : leaders (c_hist c) = [(0, 1)] }.

Lemma others_single : forall nd, n_index nd = 0 -> length (n_peers nd) = 1%nat -> others nd = [].
Proof. intros nd I L. unfold others, indices. rewrite L, I. reflexivity. Qed.

Lemma append_index_len : forall nd d,
  n_index (fst (append nd d)) = n_index nd /\ length (n_peers (fst (append nd d))) = length (n_peers nd).
Proof. intros. unfold append. cbn [fst]. destruct (_ =? 1); cbn; rewrite ?upd_nth_length; auto. Qed.

Lemma K1_step : forall rv c e, K1 c -> K1 (step rv c e).
Proof.
  intros rv c e [Hn (nd & Hc & S & I & L) Hl].
  assert (Put : forall i x nd', get_node c i = Some x -> x = nd /\ put_node c i nd' = [nd']).
  { intros i x nd' G. unfold get_node, put_node in *. rewrite Hc in *.
    destruct (N.to_nat i) as [|[|j]]; cbn in *; try discriminate. split; congruence. }
  destruct (step_case rv c e) as [e0 c' En Eh Hnet | i x el due G | i x d G Lx | k r el x Hk G | k r s el x Hk G].
  - constructor; [|rewrite En; eauto | rewrite Eh; exact Hl].
    rewrite Hn in Hnet. destruct (c_net c') as [|m l]; [reflexivity | destruct (Hnet m (or_introl eq_refl))].
  - (* Tick: a Leader without peers sends nothing and stays as it is *)
    destruct (Put i x (fst (process x el due)) G) as [-> Ep]. rewrite Ep.
    destruct (process_case nd el due) as [S'|S'|L'|]; try congruence; try (rewrite S in L'; discriminate L');
      cbn [fst snd]; rewrite ?(others_single nd I L); cbn [filter map].
    all: constructor; cbn [c_net c_nodes c_hist]; [rewrite Hn; reflexivity | exists nd; repeat split; assumption |].
    all: rewrite leaders_app, leaders_node_ghosts, S, Hl; reflexivity.
  - (* ClientAppend *)
    destruct (Put i x (fst (append x d)) G) as [-> Ep]. rewrite Ep.
    pose proof (append_state nd d) as As. pose proof (append_index_len nd d) as (I' & L').
    assert (R : snd (append nd d) = []).
    { unfold append. cbn [snd].
      rewrite (others_single (upd_local nd (fun p => p_set_log (p_li p + 1) (n_term nd) p))); auto.
      unfold upd_local, upd_peer. cbn. rewrite upd_nth_length. exact L. }
    rewrite R. constructor; cbn [c_net c_nodes c_hist map].
    + rewrite Hn. reflexivity.
    + eexists. repeat split; congruence.
    + rewrite leaders_app, leaders_node_ghosts, As, S, Hl. reflexivity.
  - rewrite Hn in Hk. destruct k; discriminate Hk.
  - rewrite Hn in Hk. destruct k; discriminate Hk.
Qed.

Lemma run_K1 : forall rv evs c, K1 c -> K1 (run_from rv c evs).
Proof.
  intros rv. induction evs as [|e evs IH]; intros c Kc; cbn [run_from fold_left]; auto.
  apply IH. apply K1_step; auto.
Qed.

Lemma init_K1 : K1 (init_default 1).
Proof. constructor; cbn; eauto. eexists; repeat split; reflexivity. Qed.

(* for EVERY cluster size and EVERY adversarial event list (delivery in any order, loss, duplication, arbitrary
   timer readings, client appends): no two distinct nodes ever become Leader with the same term *)
Theorem election_safety_elect_fixed : forall rv size evs,
  fix_vote_term rv = true -> fix_vote_match rv = true -> election_safety (c_hist (run rv size evs)).
Proof.
  intros rv size evs F1 F2. destruct (N.eq_dec size 1) as [->|Hs].
  - pose proof (run_K1 rv evs _ init_K1) as Kr. unfold run.
    intros i j t Hi Hj. rewrite (k1_leaders _ Kr) in Hi, Hj.
    destruct Hi as [Hi|[]]. destruct Hj as [Hj|[]]. congruence.
  - destruct (elect_fixed_no_election_classes rv size evs F1 F2 Hs) as (DV & _ & _).
    apply election_safety_cond; auto.
Qed.

Theorem election_safety_fixed : forall size evs, election_safety (c_hist (run rr_fixed size evs)).
Proof. intros. apply election_safety_elect_fixed; reflexivity. Qed.

(* the revision with both election repairs and without the acknowledgement repair (/repo before
   fixes/C28-count-only-current-term-acks.diff went in) *)
Theorem election_safety_before_ack_fix : forall size evs, election_safety (c_hist (run rr_before_ack_fix size evs)).
Proof. intros. apply election_safety_elect_fixed; reflexivity. Qed.

(* non-vacuity: a run of the repaired revision that elects four leaders in four terms; the event lists that
   gave two leaders of term 1 before the repairs now elect exactly one; a one-node cluster *)
Lemma election_fixed_example :
  leaders (c_hist (run rr_fixed w29_old_term_commit_n w29_old_term_commit)) = [(0, 1); (2, 2); (0, 3); (2, 4)] /\
  leaders (c_hist (run rr_fixed w27_double_vote_n w27_double_vote)) = [(0, 1)] /\
  leaders (c_hist (run rr_fixed w27_stale_vote_n w27_stale_vote)) = [(2, 1)] /\
  leaders (c_hist (run rr_fixed 1 [ClientAppend 0 7; Tick 0 0 []])) = [(0, 1)].
Proof. vm_compute. auto. Qed.
