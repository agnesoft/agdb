(* StoredDbLoad.v — on every heap that holds a database
   (`stored_db`) the loader of StoredDb.v runs to the end without an error and returns the database `sd_concrete`
   that the representation witness determines: the represented one with the alias lists and each index's id list
   in slot order, hence equal to it up to `sd_eqv`.
   Assembles the L2 reload lemmas: cv_from_storage_spec / cv_values_spec (vectors), cm_from_storage_spec (map
   data), the graph record, cr_de_ser (root record), el_load of law_dbvalue (= C12's round trip).
   The complete read of an opened map or graph is the second half of sd_map_load / sd_graph_load; LoadOutcome.v
   names these halves (lo_map_read, lo_graph_read), and they get their own statements here. *)
From Coq Require Import Permutation.
From Agdb Require Import Bytes BytesProofs DbValue Graph DbModel StorageSpec Collections CollValues CollWp CollVecBase
  CollVec CollElems CollMap CollGraph CollValuesProofs StoredDb StoredDbRep StoredDbFrame LoadOutcome.
From Agdb Require AssocProofs.
Open Scope N_scope.

(* association lists with pairwise distinct keys: a lookup does not depend on the order *)
Section Assoc.
  Context {K V : Type} (keqb : K -> K -> bool).
  Hypothesis keqb_eq : forall a b, keqb a b = true <-> a = b.

  Lemma alookup_none_notin (l : list (K * V)) k : alookup keqb l k = None -> ~ In k (map fst l).
  Proof.
    induction l as [|[k' v'] r IH]; cbn [alookup map fst In]; [tauto|].
    destruct (keqb k' k) eqn:E; [discriminate|].
    intros H [X|X]; [subst; rewrite (proj2 (keqb_eq k k) eq_refl) in E; discriminate|exact (IH H X)].
  Qed.

  Lemma alookup_perm (l l' : list (K * V)) k :
    Permutation l l' -> NoDup (map fst l) -> alookup keqb l k = alookup keqb l' k.
  Proof.
    intros HP ND.
    assert (ND' : NoDup (map fst l')) by (eapply Permutation_NoDup; [apply Permutation_map; exact HP|exact ND]).
    destruct (alookup keqb l k) as [v|] eqn:E.
    - symmetry. apply (AssocProofs.in_alookup keqb keqb_eq); [exact ND'|]. eapply Permutation_in; [exact HP|]. apply (AssocProofs.alookup_in keqb keqb_eq). exact E.
    - destruct (alookup keqb l' k) as [v'|] eqn:E'; [|reflexivity]. exfalso.
      apply (AssocProofs.alookup_in keqb keqb_eq) in E'. apply (alookup_none_notin _ _ E).
      apply in_map_iff. exists (k, v'). split; [reflexivity|]. eapply Permutation_in; [symmetry; exact HP|exact E'].
  Qed.
End Assoc.

(* the database the loader returns, in terms of the representation witness *)
Fixpoint sd_ix_concrete (ws : list (sd_mapw dbvalue Z)) (ixs : list index) : list index :=
  match ws, ixs with
  | w :: ws', ix :: ixs' => (fst ix, sd_table_entries (mw_t w)) :: sd_ix_concrete ws' ixs'
  | _, _ => []
  end.
Definition sd_concrete (w : sd_wit) (d : db) : db :=
  {| gr := gr d;
     aliases := {| k2v := sd_table_entries (mw_t (sw_a1 w)); v2k := sd_table_entries (mw_t (sw_a2 w)) |};
     vals := vals d; indexes := sd_ix_concrete (sw_iw w) (indexes d); undo := [] |}.

Lemma sd_ix_concrete_eqv g : forall es ws ixs, sd_ix_rep g es ws ixs -> Forall2 sd_index_eqv ixs (sd_ix_concrete ws ixs).
Proof.
  induction es as [|e r IH]; intros [|w ws] [|ix ixs] H; cbn [sd_ix_rep] in H; try contradiction; cbn [sd_ix_concrete];
    constructor.
  - destruct H as [(_ & _ & _ & _ & _ & _ & _ & HP) _]. split; [reflexivity|symmetry; exact HP].
  - apply (IH ws ixs), H.
Qed.

Lemma sd_concrete_eqv g root d w : stored_db_w g root d w -> sd_eqv d (sd_concrete w d).
Proof.
  intros [_ _ _ _ _ (_ & _ & P1) Hk1 (_ & _ & P2) Hk2 _ _ Hix _ _ _ _].
  constructor; cbn [sd_concrete gr vals aliases indexes k2v v2k]; try reflexivity.
  - intros a. unfold imap_value. cbn [aliases k2v]. apply alookup_perm; [apply bytes_eqb_eq|symmetry; exact P1|exact Hk1].
  - intros i. unfold imap_key. cbn [aliases v2k]. apply alookup_perm; [apply Z.eqb_eq|symmetry; exact P2|exact Hk2].
  - split; symmetry; assumption.
  - eapply sd_ix_concrete_eqv. exact Hix.
Qed.

Section Load.
  Variable fl : bool.

  Lemma sd_vec_load_spec (T : Type) (E : cv_elem T) (L : elem_law E) h bss l sp (Q : cres (list T) -> spec -> Prop) :
    vrep T E L (hp sp) h bss l -> Q (CrOk l) sp -> cwp fl (sd_vec_load T E (cv_index h)) sp Q.
  Proof.
    intros HR HQ. unfold sd_vec_load. apply cwp_bind. eapply cv_from_storage_spec; [exact HR|]. intros h' HR' _ _. cbn [kont].
    eapply cv_values_spec; [exact HR'|exact HQ].
  Qed.

  Lemma lo_map_read_spec K V (EK : cv_elem K) (EV : cv_elem V) (LK : elem_law EK) (LV : elem_law EV)
        d ss ks vs t sp (Q : cres (list (K * V)) -> spec -> Prop) :
    msep K V EK EV LK LV (hp sp) d ss ks vs (ct_states t) (ct_keys t) (ct_values t) ->
    Q (CrOk (sd_table_entries t)) sp -> cwp fl (lo_map_read K V EK EV d) sp Q.
  Proof.
    intros [_ Rs Rk Rv _ _] HQ. unfold lo_map_read.
    apply cwp_bind. eapply cv_values_spec; [exact Rs|]. cbn [kont].
    apply cwp_bind. eapply cv_values_spec; [exact Rk|]. cbn [kont].
    apply cwp_bind. eapply cv_values_spec; [exact Rv|]. cbn [kont cwp]. exact HQ.
  Qed.

  Lemma sd_map_load_spec (K V : Type) (EK : cv_elem K) (EV : cv_elem V) (LK : elem_law EK) (LV : elem_law EV)
        w idx l sp (Q : cres (list (K * V)) -> spec -> Prop) :
    sd_map_rep K V EK EV LK LV (hp sp) w idx l -> Q (CrOk (sd_table_entries (mw_t w))) sp ->
    cwp fl (sd_map_load K V EK EV idx) sp Q.
  Proof.
    intros ([HS _ _] & <- & _) HQ. unfold sd_map_load.
    apply cwp_bind. eapply cm_from_storage_spec; [exact HS|]. intros d' HS' _ _ _ _. cbn [kont].
    eapply lo_map_read_spec; [exact HS'|exact HQ].
  Qed.

  Lemma cg_from_storage_spec d s a sp (Q : cres cg_data -> spec -> Prop) :
    grep (hp sp) d s a ->
    (forall d', grep (hp sp) d' s a -> cg_index d' = cg_index d -> Q (CrOk d') sp) ->
    cwp fl (cg_from_storage (cg_index d)) sp Q.
  Proof.
    intros H HQ. unfold cg_from_storage.
    destruct (index_ser_parts _ _ _ _ (gr_bounds _ _ _ _ H GfFrom) (gr_bounds _ _ _ _ H GfTo) (gr_bounds _ _ _ _ H GfFromMeta) (gr_bounds _ _ _ _ H GfToMeta))
      as (P0 & P1 & P2 & P3 & P4).
    change cm_index_ser with cg_index_ser in *. cbn [cg_vec] in P0, P1, P2, P3, P4.
    set (rec := cg_index_ser _ _ _ _) in *.
    apply cwp_bind. eapply cwp_value; [exact (gr_rec _ _ _ _ H)|]. cbn [kont]. fold rec.
    assert (L8 : forall n, (n <= 24)%nat -> 8 <= lenN (skipn n rec)).
    { intros n Hn. unfold lenN in *. rewrite skipn_length. lia. }
    apply cwp_bind. apply cwp_de64; [rewrite P0; lia|]. cbn [kont]. rewrite P1.
    apply cwp_bind. apply cwp_de64; [apply L8; lia|]. cbn [kont]. rewrite P2.
    apply cwp_bind. apply cwp_de64; [apply L8; lia|]. cbn [kont]. rewrite P3.
    apply cwp_bind. apply cwp_de64; [apply L8; lia|]. cbn [kont]. rewrite P4.
    apply cwp_bind. eapply cv_from_storage_spec; [exact (gr_vec _ _ _ _ H GfFrom)|]. intros h1 R1 I1 L1. cbn [kont].
    apply cwp_bind. eapply cv_from_storage_spec; [exact (gr_vec _ _ _ _ H GfTo)|]. intros h2 R2 I2 L2. cbn [kont].
    apply cwp_bind. eapply cv_from_storage_spec; [exact (gr_vec _ _ _ _ H GfFromMeta)|]. intros h3 R3 I3 L3. cbn [kont].
    apply cwp_bind. eapply cv_from_storage_spec; [exact (gr_vec _ _ _ _ H GfToMeta)|]. intros h4 R4 I4 L4. cbn [kont cwp].
    cbn [cg_vec] in *.
    apply (HQ {| cg_index := cg_index d; cg_from := h1; cg_to := h2; cg_from_meta := h3; cg_to_meta := h4 |}); [|reflexivity].
    destruct H as [Hrec _ Hb Hnd].
    constructor; unfold gfoot, foot in *; cbn [cg_index cg_from cg_to cg_from_meta cg_to_meta]; rewrite ?I1, ?I2, ?I3, ?I4;
      try assumption.
    - intros f; destruct f; assumption.
    - intros f. specialize (Hb f). destruct f; cbn [cg_vec cg_from cg_to cg_from_meta cg_to_meta] in *; congruence.
  Qed.

  Lemma lo_graph_read_spec d s g sp (Q : cres graph -> spec -> Prop) :
    grep (hp sp) d s (sd_arrays g) -> Q (CrOk g) sp -> cwp fl (lo_graph_read d) sp Q.
  Proof.
    intros H HQ. unfold lo_graph_read.
    pose proof (gr_vec _ _ _ _ H GfFrom) as R1. pose proof (gr_vec _ _ _ _ H GfTo) as R2.
    pose proof (gr_vec _ _ _ _ H GfFromMeta) as R3. pose proof (gr_vec _ _ _ _ H GfToMeta) as R4.
    cbn [cg_vec ga_get sd_arrays ga_from ga_to ga_from_meta ga_to_meta] in R1, R2, R3, R4.
    apply cwp_bind. eapply cv_values_spec; [exact R1|]. cbn [kont].
    apply cwp_bind. eapply cv_values_spec; [exact R2|]. cbn [kont].
    apply cwp_bind. eapply cv_values_spec; [exact R3|]. cbn [kont].
    apply cwp_bind. eapply cv_values_spec; [exact R4|]. cbn [kont cwp].
    destruct g. exact HQ.
  Qed.

  Lemma sd_graph_load_spec d s g sp (Q : cres graph -> spec -> Prop) :
    grep (hp sp) d s (sd_arrays g) -> Q (CrOk g) sp -> cwp fl (sd_graph_load (cg_index d)) sp Q.
  Proof.
    intros H HQ. unfold sd_graph_load.
    apply cwp_bind. eapply cg_from_storage_spec; [exact H|]. intros d' H' _. cbn [kont].
    eapply lo_graph_read_spec; [exact H'|exact HQ].
  Qed.

  Lemma sd_kvs_load_spec : forall idxs ws kvs sp (Q : cres (list (list kv)) -> spec -> Prop),
    sd_kv_rep (hp sp) idxs ws kvs -> Q (CrOk kvs) sp -> cwp fl (sd_kvs_load idxs) sp Q.
  Proof.
    induction idxs as [|i r IH]; intros [|w ws] [|l kvs] sp Q H HQ; cbn [sd_kv_rep] in H; try contradiction;
      cbn [sd_kvs_load]; [exact HQ|].
    destruct H as [Hs Hr]. apply cwp_bind.
    destruct w as [[h bss]|]; cbn [sd_kv_slot_rep] in Hs.
    - destruct Hs as (Hi & <- & HR). destruct (N.eqb_spec (cv_index h) 0) as [E|_]; [contradiction|].
      eapply sd_vec_load_spec; [exact HR|]. cbn [kont].
      apply cwp_bind. eapply IH; [exact Hr|]. cbn [kont cwp]. exact HQ.
    - destruct Hs as [-> ->]. rewrite N.eqb_refl. cbn [cwp kont].
      apply cwp_bind. eapply IH; [exact Hr|]. cbn [kont cwp]. exact HQ.
  Qed.

  Lemma sd_index_list_load_concrete : forall es ws ixs sp (Q : cres (list index) -> spec -> Prop),
    sd_ix_rep (hp sp) es ws ixs -> Q (CrOk (sd_ix_concrete ws ixs)) sp -> cwp fl (sd_index_list_load es) sp Q.
  Proof.
    induction es as [|e r IH]; intros [|w ws] [|ix ixs] sp Q H HQ; cbn [sd_ix_rep] in H; try contradiction;
      cbn [sd_index_list_load sd_ix_concrete] in *; [exact HQ|].
    destruct H as [(ixb & mi & -> & Hmi & Hk & Hm) Hr]. destruct (sd_entry_split _ _ _ (le64 mi) Hk) as [E1 E2].
    apply cwp_bind. unfold sd_index_load. rewrite E1, E2.
    apply cwp_bind. eapply (el_load ce_dbvalue law_dbvalue); [exact Hk|]. cbn [kont].
    apply cwp_bind. rewrite cp_de64_le64 by exact Hmi. cbn [cwp kont].
    apply cwp_bind. eapply sd_map_load_spec; [exact Hm|]. cbn [kont cwp].
    apply cwp_bind. eapply IH; [exact Hr|]. cbn [kont cwp]. exact HQ.
  Qed.

  Theorem sd_load_concrete root d w sp :
    stored_db_w (hp sp) root d w ->
    cwp fl (sd_load root) sp (fun r sp' => sp' = sp /\ r = CrOk (sd_concrete w d)).
  Proof.
    intros [Hroot Hu64 _ Hg Hgi Ha1 _ Ha2 _ Hiv Hii Hix Hvv Hvi Hv _].
    unfold sd_load.
    apply cwp_bind. unfold sd_root_load. apply cwp_bind. eapply cwp_value; [exact Hroot|]. cbn [kont].
    apply cr_de_ser; [exact Hu64|]. cbn [kont].
    apply cwp_bind. rewrite <- Hgi. eapply sd_graph_load_spec; [exact Hg|]. cbn [kont].
    apply cwp_bind. eapply sd_map_load_spec; [exact Ha1|]. cbn [kont].
    apply cwp_bind. eapply sd_map_load_spec; [exact Ha2|]. cbn [kont].
    apply cwp_bind. unfold sd_indexes_load. apply cwp_bind. rewrite <- Hii.
    eapply sd_vec_load_spec; [exact Hiv|]. cbn [kont].
    eapply sd_index_list_load_concrete; [exact Hix|]. cbn [kont].
    apply cwp_bind. unfold sd_values_load. apply cwp_bind. rewrite <- Hvi.
    eapply sd_vec_load_spec; [exact Hvv|]. cbn [kont].
    eapply sd_kvs_load_spec; [exact Hv|]. cbn [kont cwp].
    split; reflexivity.
  Qed.
End Load.
