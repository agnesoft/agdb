(* OpenMapRefineOps.v — what the loops of OpenMap.v compute on a table satisfying the probe-chain invariant.

   Lookups: `values k` = the values of ALL slots holding k, in probe order from hash(k) mod capacity; `value k` =
   the first of them.  The probe stops at the first Empty slot or after a full cycle (the `finished` flag of fix
   fc221a8); the chain invariant says no slot of k lies beyond that Empty slot.

   The probe loops of insert_or_replace / remove_key / remove_value (that of insert is free_index_loop_ok in
   OpenMapProofs.v): each completes within `capacity` iterations (wrap guard of fix fc221a8) and finds / misses
   exactly what is stored: a loop that reports "not found" after meeting an Empty slot or after a full cycle has
   seen EVERY slot that could hold the key.

   rehash_values (grow, shrink, and the in-place rehash of fix fc221a8) ESTABLISHES the probe-chain invariant at
   the new capacity and leaves no Deleted slot below it: afterwards every stored pair is found again by probing.
   (That the multiset of pairs is unchanged and that the loop terminates is OpenMapProofs.v.) *)
From Coq Require Import List NArith Arith Bool Lia Permutation.
Import ListNotations.
From Agdb Require Import OpenMap OpenMapProofs OpenMapSpec OpenMapRefineBase.
From Agdb Require BytesProofs.

Section Lookup.
  Variables K V : Type.
  Variable keqb : K -> K -> bool.
  Variable veqb : V -> V -> bool.
  Variable h : K -> N.
  Variable rv : om_revision.

  Notation slotT := (slot K V).
  Notation E := (@Empty K V).
  Notation ents := (entries K V).
  Notation hp := (hpos K h).
  Notation chainh := (chain K V h).
  Notation cap := (capacity K V).
  Notation omapT := (omap K V).
  Notation vals := (mm_values K V keqb).

  Lemma vals_app : forall k a b, vals k (a ++ b) = vals k a ++ vals k b.
  Proof. intros. unfold mm_values. rewrite filter_app, map_app. reflexivity. Qed.

  Lemma vals_perm : forall k a b, Permutation a b -> Permutation (vals k a) (vals k b).
  Proof. intros k a b HP. unfold mm_values. apply Permutation_map. apply BytesProofs.Permutation_filter. exact HP. Qed.

  (* the slots at a list of positions *)
  Definition at_pos (sl : list slotT) (ps : list nat) : list slotT := map (fun p => nth p sl E) ps.

  (* values of key k stored at the positions ps, in that order *)
  Definition vals_at (sl : list slotT) (k : K) (ps : list nat) : list V := vals k (ents (at_pos sl ps)).

  Lemma vals_at_cons : forall sl k p ps,
    vals_at sl k (p :: ps) = vals k (ent K V (nth p sl E)) ++ vals_at sl k ps.
  Proof. intros. unfold vals_at, at_pos. cbn [map]. rewrite entries_cons, vals_app. reflexivity. Qed.

  Hypothesis keqb_eq : forall a b, keqb a b = true <-> a = b.

  Lemma vals_at_none : forall sl k ps,
    (forall q, In q ps -> matches_k K V keqb k (nth q sl E) = false) -> vals_at sl k ps = [].
  Proof.
    intros sl k. induction ps as [|p ps IH]; intros Hnone; [reflexivity|].
    rewrite vals_at_cons, IH by (intros q Hq; apply Hnone; right; exact Hq).
    pose proof (Hnone p (or_introl eq_refl)) as Hp. rewrite app_nil_r.
    destruct (nth p sl E) as [| |k' v']; try reflexivity. cbn in Hp. cbn. rewrite Hp. reflexivity.
  Qed.

  (* the rest of the probe cycle, from pos back to the start *)
  Definition rest (c start pos : nat) : list nat := pseq c pos (rem c start pos).

  Lemma rest_cons : forall c start pos, start < c -> pos < c ->
    rest c start pos = pos :: if start =? next_pos c pos then [] else rest c start (next_pos c pos).
  Proof.
    intros c start pos Hs Hp. unfold rest. destruct (Nat.eqb_spec start (next_pos c pos)) as [Heq|Hne].
    - rewrite (rem_wrap c start pos Hs Hp (eq_sym Heq)). reflexivity.
    - rewrite <- (rem_next c start pos Hp Hs (not_eq_sym Hne)), Nat.add_1_r. reflexivity.
  Qed.

  (* an Empty slot at the probed position: no slot of k is left in the rest of the cycle *)
  Lemma rest_after_empty : forall c sl k pos, 0 < c -> chainh c sl -> pos < c -> nth pos sl E = E ->
    vals_at sl k (rest c (hp k c) pos) = [].
  Proof.
    intros c sl k pos Hc Hch Hpos He. apply vals_at_none. intros q Hq.
    pose proof (hpos_lt K keqb h k c Hc) as Hs.
    destruct (pseq_in c (hp k c) Hs _ pos q Hpos (le_n _) Hq) as [Hqc Hle].
    destruct (matches_k K V keqb k (nth q sl E)) eqn:Hm; [|reflexivity]. exfalso.
    destruct (matches_valid K V keqb keqb_eq k _ Hm) as [v Hv].
    pose proof (chain_empty_visited K V keqb h c sl pos q k v Hch Hc Hpos He Hqc Hv). lia.
  Qed.

  Hypothesis Hfin : fix_iter_finished rv = true.

  Lemma values_loop_spec : forall c sl k, 0 < c -> chainh c sl ->
    forall fuel pos, pos < c -> rem c (hp k c) pos <= fuel ->
    forall acc, values_loop K V keqb rv fuel sl c (hp k c) k pos acc =
                Done (acc ++ vals_at sl k (rest c (hp k c) pos)).
  Proof.
    intros c sl k Hc Hch. pose proof (hpos_lt K keqb h k c Hc) as Hs.
    refine (probe_ind c (hp k c) Hs _ _). intros f pos Hpos IH acc.
    cbn [values_loop]. rewrite Hfin. cbn [andb].
    destruct (nth pos sl E) as [| |k' v'] eqn:Hsl.
    { rewrite rest_after_empty by assumption. rewrite app_nil_r. reflexivity. }
    all: rewrite rest_cons, vals_at_cons, Hsl by assumption; cbn [ent mm_values filter map fst snd app].
    all: destruct (Nat.eqb_spec (hp k c) (next_pos c pos)) as [Heq|Hne].
    - rewrite app_nil_r. reflexivity.
    - apply IH. congruence.
    - destruct (keqb k' k); cbn [map snd app]; rewrite ?app_nil_r; reflexivity.
    - destruct (keqb k' k); cbn [map snd app]; rewrite IH by congruence; [rewrite <- app_assoc|]; reflexivity.
  Qed.

  Lemma value_loop_spec : forall c sl k, 0 < c -> chainh c sl ->
    forall fuel pos, pos < c -> rem c (hp k c) pos <= fuel ->
      value_loop K V keqb fuel sl c (hp k c) k pos = Done (hd_error (vals_at sl k (rest c (hp k c) pos))).
  Proof.
    intros c sl k Hc Hch. pose proof (hpos_lt K keqb h k c Hc) as Hs.
    refine (probe_ind c (hp k c) Hs _ _). intros f pos Hpos IH.
    cbn [value_loop].
    destruct (nth pos sl E) as [| |k' v'] eqn:Hsl.
    { rewrite rest_after_empty by assumption. reflexivity. }
    all: rewrite rest_cons, vals_at_cons, Hsl by assumption; cbn [ent mm_values filter map fst snd app].
    all: destruct (Nat.eqb_spec (hp k c) (next_pos c pos)) as [Heq|Hne].
    - reflexivity.
    - apply IH. congruence.
    - destruct (keqb k' k); reflexivity.
    - destruct (keqb k' k); [reflexivity|]. apply IH. congruence.
  Qed.

  Lemma vals_at_full : forall sl k s, s < length sl ->
    Permutation (vals_at sl k (pseq (length sl) s (length sl))) (vals k (ents sl)).
  Proof.
    intros sl k s Hs. unfold vals_at. apply vals_perm. unfold entries. apply Permutation_flat_map.
    unfold at_pos.
    eapply Permutation_trans; [apply Permutation_map; apply pseq_full_perm; exact Hs|].
    rewrite (map_nth_seq_id _ E sl). apply Permutation_refl.
  Qed.

  (* the values of k in probe order *)
  Definition probe_values (m : omapT) (k : K) : list V :=
    vals_at (slots m) k (pseq (cap m) (hp k (cap m)) (cap m)).

  Theorem values_spec : forall (m : omapT) k, chainh (cap m) (slots m) ->
    values K V keqb h rv m k = Done (probe_values m k) /\
    value K V keqb h m k = Done (hd_error (probe_values m k)) /\
    Permutation (probe_values m k) (vals k (ents (slots m))).
  Proof.
    intros m k Hch. unfold values, values_fuel, value, value_fuel, probe_fuel, probe_values.
    destruct (Nat.eqb_spec (cap m) 0) as [Hz|Hnz].
    - unfold capacity in *. destruct (slots m); [|discriminate]. cbn. auto.
    - assert (Hc : 0 < cap m) by lia. pose proof (hpos_lt K keqb h k (cap m) Hc) as Hs.
      rewrite values_loop_spec, value_loop_spec; auto; try (rewrite rem_start; lia).
      unfold rest. rewrite rem_start. cbn [app]. repeat split.
      unfold capacity in *. apply vals_at_full. exact Hs.
  Qed.

End Lookup.

Section Ops.
  Variables K V : Type.
  Variable keqb : K -> K -> bool.
  Variable veqb : V -> V -> bool.
  Variable h : K -> N.
  Variable rv : om_revision.

  Notation slotT := (slot K V).
  Notation isv := (is_valid K V).
  Notation E := (@Empty K V).
  Notation D := (@Deleted K V).
  Notation ents := (entries K V).
  Notation hp := (hpos K h).
  Notation chainh := (chain K V h).
  Notation mk := (matches_k K V keqb).

  Hypothesis keqb_eq : forall a b, keqb a b = true <-> a = b.
  Hypothesis veqb_eq : forall a b, veqb a b = true <-> a = b.

  (* the slot holds the key with a value the predicate accepts *)
  Definition rep (k : K) (pred : V -> bool) (s : slotT) : bool :=
    match s with Valid k' v' => keqb k' k && pred v' | _ => false end.

  Definition ior_post (sl : list slotT) (c : nat) (k : K) (pred : V -> bool) (nv : V) (r : ior_result K V) : Prop :=
    match ior_ret K V r with
    | Some w =>
        exists p, p < c /\ nth p sl E = Valid k w /\ pred w = true /\
                  ior_slots K V r = upd p (Valid k nv) sl /\ ior_free K V r = None /\ ior_full_cycle K V r = false
    | None =>
        ior_slots K V r = sl /\
        (forall j, j < c -> rep k pred (nth j sl E) = false) /\
        match ior_free K V r with
        | Some p => p < c /\ isv (nth p sl E) = false /\
                    (forall j, j < c -> dist c (hp k c) j < dist c (hp k c) p -> nth j sl E <> E)
        | None => forall j, j < c -> isv (nth j sl E) = true
        end
    end.

  Section Guarded.
    Hypothesis Hguard : fix_insert_wrap_guard rv = true.

    Lemma ior_loop_spec : forall c sl k pred nv, 0 < c -> chainh c sl ->
      forall fuel pos free, pos < c -> rem c (hp k c) pos <= fuel ->
        (forall j, j < c -> dist c (hp k c) j < dist c (hp k c) pos ->
                   nth j sl E <> E /\ rep k pred (nth j sl E) = false) ->
        match free with
        | None => forall j, j < c -> dist c (hp k c) j < dist c (hp k c) pos -> isv (nth j sl E) = true
        | Some p => p < c /\ nth p sl E = D /\ dist c (hp k c) p < dist c (hp k c) pos
        end ->
        exists r, ior_loop K V keqb rv fuel sl c (hp k c) k pred nv pos free = Done r /\ ior_post sl c k pred nv r.
    Proof.
      intros c sl k pred nv Hc Hch. pose proof (hpos_lt K keqb h k c Hc) as Hs. set (s := hp k c) in *.
      intros fuel pos free Hpos Hrem. revert free. revert fuel pos Hpos Hrem.
      refine (probe_ind c s Hs _ _). intros f pos Hpos IH free Hvis Hfree.
      cbn [ior_loop]. rewrite Hguard. cbn [andb].
      assert (Hcont : forall free',
        nth pos sl E <> E -> rep k pred (nth pos sl E) = false ->
        match free' with
        | None => forall j, j < c -> dist c s j < dist c s pos \/ j = pos -> isv (nth j sl E) = true
        | Some p => p < c /\ nth p sl E = D /\ (dist c s p < dist c s pos \/ p = pos)
        end ->
        exists r, (if next_pos c pos =? s
                   then Done {| ior_free := free'; ior_ret := None; ior_slots := sl; ior_full_cycle := true |}
                   else ior_loop K V keqb rv f sl c s k pred nv (next_pos c pos) free') = Done r /\
                  ior_post sl c k pred nv r).
      { intros free' Hne Hnr Hfree'. destruct (Nat.eqb_spec (next_pos c pos) s) as [Heq|Hneq].
        - eexists. split; [reflexivity|]. unfold ior_post. cbn [ior_ret ior_slots ior_free].
          split; [reflexivity|]. split.
          + intros j Hj. destruct (visited_wrap c s pos j Hs Hpos Hj Heq) as [Hlt| ->]; [apply Hvis; assumption|exact Hnr].
          + destruct free' as [p|].
            * destruct Hfree' as [Hp [Hd _]]. split; [exact Hp|]. split; [rewrite Hd; reflexivity|].
              intros j Hj _. destruct (visited_wrap c s pos j Hs Hpos Hj Heq) as [Hlt| ->]; [apply Hvis; assumption|exact Hne].
            * intros j Hj. apply Hfree'; [exact Hj|]. exact (visited_wrap c s pos j Hs Hpos Hj Heq).
        - apply (IH Hneq).
          + intros j Hj Hd. destruct (visited_step c s pos j Hs Hpos Hj Hneq Hd) as [Hlt| ->]; [apply Hvis; assumption|auto].
          + destruct free' as [p|].
            * destruct Hfree' as [Hp [Hd Hor]]. split; [exact Hp|]. split; [exact Hd|].
              rewrite (dist_step c s pos Hs Hpos Hneq). destruct Hor as [Hlt| ->]; lia.
            * intros j Hj Hd. apply Hfree'; [exact Hj|]. exact (visited_step c s pos j Hs Hpos Hj Hneq Hd). }
      destruct (nth pos sl E) as [| |k' v'] eqn:Hsl.
      - (* Empty: insert here *)
        eexists. split; [reflexivity|]. unfold ior_post. cbn [ior_ret ior_slots ior_free].
        split; [reflexivity|]. split.
        + intros j Hj. destruct (rep k pred (nth j sl E)) eqn:Hrep; [|reflexivity]. exfalso.
          destruct (nth j sl E) as [| |k2 v2] eqn:Hj2; cbn [rep] in Hrep; try discriminate.
          pose proof Hrep as Hrep'. apply andb_true_iff in Hrep'. destruct Hrep' as [Hk _].
          apply keqb_eq in Hk. subst k2.
          pose proof (chain_empty_visited K V keqb h c sl pos j k v2 Hch Hc Hpos Hsl Hj Hj2) as Hd.
          destruct (Hvis j Hj Hd) as [_ Hr2]. rewrite Hj2 in Hr2. cbn [rep] in Hr2. congruence.
        + split; [exact Hpos|]. split; [rewrite Hsl; reflexivity|]. intros j Hj Hd. apply Hvis; assumption.
      - apply Hcont; [discriminate|reflexivity|].
        destruct free as [p|].
        + destruct Hfree as [Hp [Hd Hlt]]. auto.
        + split; [exact Hpos|]. split; [exact Hsl|]. right. reflexivity.
      - destruct (keqb k' k && pred v') eqn:Hrep.
        + apply andb_true_iff in Hrep. destruct Hrep as [Hk Hp]. apply keqb_eq in Hk. subst k'.
          eexists. split; [reflexivity|]. unfold ior_post. cbn [ior_ret ior_slots ior_free ior_full_cycle].
          exists pos. repeat split; auto.
        + apply Hcont; [discriminate|exact Hrep|].
          destruct free as [p|].
          * destruct Hfree as [Hp [Hd Hlt]]. auto.
          * intros j Hj [Hlt| ->]; [apply Hfree; assumption|rewrite Hsl; reflexivity].
    Qed.
  End Guarded.

  (* every slot of key k turned into a tombstone *)
  Definition del_key (k : K) (sl : list slotT) : list slotT := map (fun s => if mk k s then D else s) sl.

  Lemma del_key_length : forall k sl, length (del_key k sl) = length sl.
  Proof. intros. apply map_length. Qed.

  Lemma nth_del_key : forall k sl i, nth i (del_key k sl) E = if mk k (nth i sl E) then D else nth i sl E.
  Proof.
    intros k sl i. unfold del_key.
    change E with ((fun s : slotT => if mk k s then D else s) E) at 1. apply map_nth.
  Qed.

  Lemma del_key_upd : forall k sl pos, mk k (nth pos sl E) = true -> del_key k (upd pos D sl) = del_key k sl.
  Proof.
    intros k sl pos Hm. apply (nth_ext _ _ E E).
    - rewrite !del_key_length, upd_length. reflexivity.
    - intros i _. rewrite !nth_del_key, nth_upd.
      destruct (Nat.eqb_spec pos i) as [->|Hne]; cbn [andb]; [|reflexivity].
      destruct (i <? length sl); [|reflexivity]. rewrite Hm. reflexivity.
  Qed.

  Lemma del_key_id : forall k sl, (forall j, j < length sl -> mk k (nth j sl E) = false) -> del_key k sl = sl.
  Proof.
    intros k sl Hno. apply (nth_ext _ _ E E); [apply del_key_length|].
    intros i Hi. rewrite del_key_length in Hi. rewrite nth_del_key, Hno by exact Hi. reflexivity.
  Qed.

  Lemma chain_del_key : forall c k sl, chainh c sl -> chainh c (del_key k sl).
  Proof.
    intros c k sl Hch i k' v' Hi Hv j Hj Hd. rewrite nth_del_key in *.
    destruct (mk k (nth i sl E)); [discriminate|].
    destruct (mk k (nth j sl E)); [discriminate|].
    exact (Hch i k' v' Hi Hv j Hj Hd).
  Qed.

  Lemma entries_del_key : forall k sl, ents (del_key k sl) = mm_remove_key K V keqb k (ents sl).
  Proof.
    intros k. induction sl as [|s t IH]; [reflexivity|].
    cbn [del_key map]. fold (del_key k t). rewrite !entries_cons. unfold mm_remove_key in *.
    rewrite filter_app, <- IH. f_equal.
    destruct s as [| |k' v']; cbn; try reflexivity. destruct (keqb k' k); reflexivity.
  Qed.

  Lemma remove_key_loop_spec : forall c k, 0 < c ->
    forall fuel pos, pos < c -> rem c (hp k c) pos <= fuel ->
    forall sl n, length sl = c -> chainh c sl ->
      (forall j, j < c -> dist c (hp k c) j < dist c (hp k c) pos -> mk k (nth j sl E) = false) ->
      exists n' full, remove_key_loop K V keqb fuel sl c (hp k c) k pos n = Done (del_key k sl, n', full).
  Proof.
    intros c k Hc. pose proof (hpos_lt K keqb h k c Hc) as Hs. set (s := hp k c) in *.
    refine (probe_ind c s Hs _ _). intros f pos Hpos IH sl n Hlen Hch Hvis.
    cbn [remove_key_loop].
    assert (Hcont : forall sl1 n1, length sl1 = c -> chainh c sl1 -> del_key k sl1 = del_key k sl ->
      (forall j, j < c -> dist c s j < dist c s pos \/ j = pos -> mk k (nth j sl1 E) = false) ->
      exists n' full,
        (if next_pos c pos =? s then Done (sl1, n1, true)
         else remove_key_loop K V keqb f sl1 c s k (next_pos c pos) n1) = Done (del_key k sl, n', full)).
    { intros sl1 n1 Hl1 Hch1 Hdk Hvis1. destruct (Nat.eqb_spec (next_pos c pos) s) as [Heq|Hne].
      - exists n1, true. rewrite <- Hdk. rewrite del_key_id; [reflexivity|].
        intros j Hj. rewrite Hl1 in Hj. apply Hvis1; [exact Hj|]. exact (visited_wrap c s pos j Hs Hpos Hj Heq).
      - rewrite <- Hdk. apply (IH Hne); auto.
        intros j Hj Hd. apply Hvis1; [exact Hj|]. exact (visited_step c s pos j Hs Hpos Hj Hne Hd). }
    destruct (nth pos sl E) as [| |k' v'] eqn:Hsl.
    - exists n, false. rewrite del_key_id; [reflexivity|]. intros j Hj. rewrite Hlen in Hj.
      destruct (mk k (nth j sl E)) eqn:Hm; [|reflexivity]. exfalso.
      destruct (matches_valid K V keqb keqb_eq k _ Hm) as [v Hv].
      pose proof (chain_empty_visited K V keqb h c sl pos j k v Hch Hc Hpos Hsl Hj Hv) as Hd.
      rewrite (Hvis j Hj Hd) in Hm. discriminate.
    - apply Hcont; auto. intros j Hj [Hlt| ->]; [apply Hvis; assumption|rewrite Hsl; reflexivity].
    - destruct (keqb k' k) eqn:Hk.
      + apply Hcont.
        * rewrite upd_length; exact Hlen.
        * apply chain_upd_deleted; exact Hch.
        * apply del_key_upd. rewrite Hsl. exact Hk.
        * intros j Hj [Hlt| ->].
          -- rewrite nth_upd. destruct ((pos =? j) && (pos <? length sl)); [reflexivity|apply Hvis; assumption].
          -- rewrite nth_upd_same by lia. reflexivity.
      + apply Hcont; auto. intros j Hj [Hlt| ->]; [apply Hvis; assumption|rewrite Hsl; exact Hk].
  Qed.

End Ops.

Section Rehash.
  Variables K V : Type.
  Variable keqb : K -> K -> bool.
  Variable veqb : V -> V -> bool.
  Variable h : K -> N.
  Variable mincap : nat.

  Notation slotT := (slot K V).
  Notation E := (@Empty K V).
  Notation D := (@Deleted K V).
  Notation ents := (entries K V).
  Notation hp := (hpos K h).
  Notation chainh := (chain K V h).
  Notation cap := (capacity K V).
  Notation omapT := (omap K V).

  (* no tombstone below the capacity *)
  Definition clean (c : nat) (sl : list slotT) : Prop := forall p, p < c -> nth p sl E <> D.

  (* the inner probe returns the FIRST clear occupancy bit from its start *)
  Lemma rehash_probe_first : forall occ newcap s, s < newcap ->
    forall fuel pos p, pos < newcap -> fuel <= rem newcap s pos ->
      (forall j, j < newcap -> dist newcap s j < dist newcap s pos -> nth j occ false = true) ->
      rehash_probe fuel occ newcap pos = Some p ->
      p < newcap /\ nth p occ false = false /\
      (forall j, j < newcap -> dist newcap s j < dist newcap s p -> nth j occ false = true).
  Proof.
    intros occ newcap s Hs. induction fuel as [|f IH]; intros pos p Hpos Hfuel Hvis Hr;
      cbn [rehash_probe] in Hr; [discriminate|].
    destruct (nth pos occ false) eqn:Hocc.
    - rewrite step_is_next in Hr by exact Hpos.
      destruct (Nat.eq_dec (next_pos newcap pos) s) as [Heq|Hne].
      { pose proof (rem_wrap newcap s pos Hs Hpos Heq). destruct f; [cbn [rehash_probe] in Hr; discriminate|lia]. }
      pose proof (rem_next newcap s pos Hpos Hs Hne) as Hrem.
      apply (IH (next_pos newcap pos) p); auto; [apply next_pos_lt; exact Hpos|lia|].
      intros j Hj Hd. destruct (visited_step newcap s pos j Hs Hpos Hj Hne Hd) as [Hlt| ->]; auto.
    - inversion Hr; subst p. auto.
  Qed.

  Record RC (cur newcap : nat) (sl : list slotT) (occ : list bool) (i : nat) : Prop := {
    rc_len1 : cur <= length sl;
    rc_len2 : newcap <= length sl;
    rc_occ : length occ = newcap;
    rc_i : i <= cur;
    (* a set bit = a Valid slot in its final place, reachable from its hash over set bits only *)
    rc_placed : forall p, nth p occ false = true ->
      exists k v, nth p sl E = Valid k v /\
        forall j, j < newcap -> dist newcap (hp k newcap) j < dist newcap (hp k newcap) p -> nth j occ false = true;
    (* a clear bit among the processed slots (and the fresh tail of a grown array) = an Empty slot *)
    rc_done : forall p, p < newcap -> p < i \/ cur <= p -> nth p occ false = false -> nth p sl E = E
  }.

  Lemma rehash_loop_chain : forall cur newcap, 0 < newcap ->
    forall fuel sl occ i sl',
      RC cur newcap sl occ i ->
      rehash_loop K V h fuel cur newcap sl occ i = Done sl' ->
      chainh newcap sl' /\ clean newcap sl'.
  Proof.
    intros cur newcap Hnc. induction fuel as [|f IH]; intros sl occ i sl' HI Hr; cbn [rehash_loop] in Hr; [discriminate|].
    destruct HI as [Hl1 Hl2 Hocc Hi Hpl Hdone].
    destruct (Nat.eqb_spec i cur) as [->|Hne].
    { inversion Hr; subst sl'. split.
      - intros p k v Hp Hv j Hj Hd Hje.
        destruct (nth p occ false) eqn:Hop.
        + destruct (Hpl p Hop) as [k' [v' [Hv' Hch]]]. rewrite Hv in Hv'. inversion Hv'; subst k' v'.
          pose proof (Hch j Hj Hd) as Hoj. destruct (Hpl j Hoj) as [k2 [v2 [Hv2 _]]]. congruence.
        + rewrite (Hdone p Hp ltac:(lia) Hop) in Hv. discriminate.
      - intros p Hp Hd. destruct (nth p occ false) eqn:Hop.
        + destruct (Hpl p Hop) as [k' [v' [Hv' _]]]. congruence.
        + rewrite (Hdone p Hp ltac:(lia) Hop) in Hd. discriminate. }
    assert (Hil : i < length sl) by lia.
    destruct (nth i sl E) as [| |k v] eqn:Hsl.
    - apply (IH sl occ (i + 1) sl'); [|exact Hr]. constructor; auto; try lia.
      intros p Hp Hor Hop. destruct (Nat.eq_dec p i) as [->|Hpi]; [exact Hsl|]. apply Hdone; auto; lia.
    - assert (Hocci : nth i occ false = false).
      { destruct (nth i occ false) eqn:Ho; [|reflexivity]. destruct (Hpl i Ho) as [k' [v' [Hv' _]]]. congruence. }
      destruct (Nat.ltb_spec i newcap) as [Hlt|Hge].
      + apply (IH (upd i E sl) occ (i + 1) sl'); [|exact Hr]. constructor; rewrite ?upd_length; auto; try lia.
        * intros p Hop. destruct (Hpl p Hop) as [k' [v' [Hv' Hch]]]. exists k', v'. split; [|exact Hch].
          rewrite nth_upd_other; [exact Hv'|]. intros ->. congruence.
        * intros p Hp Hor Hop. destruct (Nat.eq_dec p i) as [->|Hpi]; [apply nth_upd_same; exact Hil|].
          rewrite nth_upd_other by lia. apply Hdone; auto; lia.
      + apply (IH sl occ (i + 1) sl'); [|exact Hr]. constructor; auto; try lia.
        intros p Hp Hor Hop. apply Hdone; auto; lia.
    - destruct ((i <? newcap) && nth i occ false) eqn:Hplaced.
      + apply (IH sl occ (i + 1) sl'); [|exact Hr]. constructor; auto; try lia.
        intros p Hp Hor Hop. apply andb_true_iff in Hplaced. destruct Hplaced as [_ Hoi].
        destruct (Nat.eq_dec p i) as [->|Hpi]; [congruence|]. apply Hdone; auto; lia.
      + assert (Hocci : nth i occ false = false).
        { destruct (nth i occ false) eqn:Ho; [|reflexivity].
          pose proof (occ_true_lt occ i Ho) as Hlt. rewrite Hocc in Hlt.
          apply Nat.ltb_lt in Hlt. rewrite Hlt in Hplaced. discriminate. }
        destruct (rehash_probe newcap occ newcap (hp k newcap)) as [pos|] eqn:Hp; [|discriminate].
        pose proof (hpos_lt K keqb h k newcap Hnc) as Hs.
        destruct (rehash_probe_first occ newcap (hp k newcap) Hs newcap (hp k newcap) pos Hs) as [Hposlt [Hposf Hposv]]; auto.
        { rewrite rem_start. lia. }
        { intros j Hj Hd. rewrite dist_self in Hd. lia. }
        assert (Hpl2 : pos < length sl) by lia.
        apply (IH (swap_nth E i pos sl) (upd pos true occ) (if i =? pos then i + 1 else i) sl'); [|exact Hr].
        constructor; rewrite ?swap_length, ?upd_length; auto; try lia.
        * destruct (Nat.eqb_spec i pos); lia.
        * intros p Hop. rewrite nth_upd in Hop. rewrite nth_swap by lia.
          destruct (Nat.eqb_spec p pos) as [->|Hpp].
          -- exists k, v. split; [exact Hsl|]. intros j Hj Hd. rewrite nth_upd.
             destruct ((pos =? j) && (pos <? length occ)); [reflexivity|]. apply Hposv; assumption.
          -- destruct (Nat.eqb_spec pos p); [lia|]. cbn [andb] in Hop.
             destruct (Nat.eqb_spec p i) as [->|Hpi]; [congruence|].
             destruct (Hpl p Hop) as [k' [v' [Hv' Hch]]]. exists k', v'. split; [exact Hv'|].
             intros j Hj Hd. rewrite nth_upd. destruct ((pos =? j) && (pos <? length occ)); [reflexivity|].
             apply Hch; assumption.
        * intros p Hplt Hor Hop. rewrite nth_upd in Hop. rewrite nth_swap by lia.
          destruct (Nat.eqb_spec pos p) as [->|Hpp].
          { rewrite Hocc in Hop. destruct (Nat.ltb_spec p newcap); [cbn [andb] in Hop; discriminate|lia]. }
          cbn [andb] in Hop.
          destruct (Nat.eqb_spec p pos); [lia|].
          destruct (Nat.eqb_spec p i) as [->|Hpi].
          { destruct (Nat.eqb_spec i pos); lia. }
          apply Hdone; auto. destruct (Nat.eqb_spec i pos); lia.
  Qed.

  (* the array handed to rehash_values: beyond the old capacity (a grown array) everything is Empty *)
  Lemma rehash_values_chain : forall cur newcap sl sl',
    0 < newcap -> cur <= length sl -> newcap <= length sl ->
    (forall p, cur <= p -> p < newcap -> nth p sl E = E) ->
    rehash_values K V h cur newcap sl = Done sl' ->
    chainh newcap sl' /\ clean newcap sl'.
  Proof.
    intros cur newcap sl sl' Hnc Hc Hn Htail Hr. unfold rehash_values in Hr.
    apply (rehash_loop_chain cur newcap Hnc _ _ _ _ _) in Hr; [exact Hr|].
    constructor; auto; try lia.
    - apply repeat_length.
    - intros p Hp. rewrite nth_repeat in Hp. discriminate.
    - intros p Hp [Hlt|Hge] _; [lia|]. apply Htail; assumption.
  Qed.

  Lemma chain_firstn : forall c sl, chainh c sl -> chainh c (firstn c sl).
  Proof.
    intros c sl Hc i k v Hi Hv j Hj Hd. rewrite BytesProofs.nth_firstn_lt in * by assumption.
    exact (Hc i k v Hi Hv j Hj Hd).
  Qed.

  Hypothesis keqb_eq : forall a b, keqb a b = true <-> a = b.
  Hypothesis veqb_eq : forall a b, veqb a b = true <-> a = b.

  Lemma rehash_full : forall (m : omapT) c,
    cv K V (slots m) = len m -> len m < Nat.max c mincap -> chainh (cap m) (slots m) ->
    exists m', rehash K V h mincap m c = Done m' /\
               cap m' = Nat.max c mincap /\ len m' = len m /\ cv K V (slots m') = len m' /\
               chainh (cap m') (slots m') /\
               Permutation (ents (slots m')) (ents (slots m)).
  Proof.
    intros m c Hcv Hlt Hch.
    destruct (rehash_ok K V keqb veqb h mincap m c Hcv Hlt) as [m' [Hr [Hc [Hl Hcv']]]].
    exists m'. repeat (split; [assumption|]). split.
    - rewrite Hc. clear Hl Hcv'. unfold rehash, capacity in *.
      destruct (Nat.compare_spec (length (slots m)) (Nat.max c mincap)) as [Heq|Hlt2|Hgt].
      + inversion Hr; subst m'. rewrite <- Heq. exact Hch.
      + destruct (rehash_values K V h (length (slots m)) (Nat.max c mincap)
                    (slots m ++ repeat E (Nat.max c mincap - length (slots m)))) as [sl'|] eqn:Hv; [|discriminate].
        inversion Hr; subst m'; cbn [slots] in *.
        apply rehash_values_chain in Hv; try rewrite app_length, repeat_length; try lia; [tauto|].
        intros p Hp1 Hp2. rewrite app_nth2 by lia. apply nth_repeat.
      + destruct (rehash_values K V h (length (slots m)) (Nat.max c mincap) (slots m)) as [sl'|] eqn:Hv; [|discriminate].
        inversion Hr; subst m'; cbn [slots] in *.
        apply rehash_values_chain in Hv; try lia. apply chain_firstn. tauto.
    - apply (counts_perm K V keqb veqb keqb_eq veqb_eq). intros Q.
      exact (rehash_entries K V keqb veqb h mincap Q m m' c Hcv Hlt Hr).
  Qed.

  Lemma rehash_in_place_full : forall (m : omapT),
    cv K V (slots m) = len m -> len m < cap m ->
    exists m', rehash_in_place K V h m = Done m' /\
               cap m' = cap m /\ len m' = len m /\ cv K V (slots m') = len m' /\
               chainh (cap m') (slots m') /\ clean (cap m') (slots m') /\
               Permutation (ents (slots m')) (ents (slots m)).
  Proof.
    intros m Hcv Hlt.
    destruct (rehash_in_place_ok K V keqb veqb h m Hcv Hlt) as [m' [Hr [Hc [Hl Hcv']]]].
    exists m'. repeat (split; [assumption|]). rewrite <- and_assoc. split.
    - rewrite Hc. clear Hl Hcv'. unfold rehash_in_place, capacity in *.
      destruct (rehash_values K V h (length (slots m)) (length (slots m)) (slots m)) as [sl'|] eqn:Hv; [|discriminate].
      inversion Hr; subst m'; cbn [slots] in *.
      apply rehash_values_chain in Hv; try lia. exact Hv.
    - apply (counts_perm K V keqb veqb keqb_eq veqb_eq). intros Q.
      apply (rehash_in_place_entries K V keqb veqb h Q m m'); [lia|exact Hr].
  Qed.

End Rehash.
