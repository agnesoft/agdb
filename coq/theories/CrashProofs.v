(* CrashProofs.v — C02 / C03 / C32: consequences of C01 for whole queries and transactions *)
From Agdb Require Import Bytes FileWal FileWalProofs TxnNesting.
From Coq Require Import ZifyBool ZifyNat.
Open Scope nat_scope.

Definition final_data (st : fstate) (ops : list op) : bytes :=
  data (run_calls st (trace walrev_fixed st ops)).

Lemma trace_app st a b :
  trace walrev_fixed st (a ++ b) =
  trace walrev_fixed st a ++ trace walrev_fixed (run_calls st (trace walrev_fixed st a)) b.
Proof.
  revert st; induction a as [|o r IH]; intros st; cbn [app trace]; [reflexivity|].
  rewrite IH, <- app_assoc. f_equal. f_equal. now rewrite run_calls_app.
Qed.

Lemma expect_body_flush body : no_flush body = true ->
  forall d0 st k,
    expect d0 st (body ++ [OFlush]) k = d0 \/
    expect d0 st (body ++ [OFlush]) k = final_data st body.
Proof.
  induction body as [|o r IH]; intros Hnf d0 st k.
  - cbn [app expect calls_of length]. destruct (Nat.ltb k 1); [left; reflexivity|right]. reflexivity.
  - cbn [app expect]. set (cs := calls_of walrev_fixed (data st) o).
    destruct (Nat.ltb k (length cs)); [left; reflexivity|].
    destruct o; cbn [no_flush] in Hnf; [| |discriminate];
      (destruct (IH Hnf d0 (run_calls st cs) (k - length cs)) as [H|H];
       [left; exact H|right; rewrite H; unfold final_data; cbn [trace]; now rewrite run_calls_app]).
Qed.

(* a body without flush followed by one flush: every cut recovers the content before or after *)
Theorem atomic_single_flush d0 body k j :
  no_flush body = true -> wp d0 (body ++ [OFlush]) ->
  let st := {| data := d0; wal := [] |} in
  let r := recover walrev_fixed (crash st (trace walrev_fixed st (body ++ [OFlush])) k j) in
  wal r = [] /\ (data r = d0 \/ data r = final_data st body).
Proof.
  intros Hnf Hwp st r. subst r. unfold st.
  rewrite (recover_from_committed d0 (body ++ [OFlush]) k j Hwp). cbn [data wal]. split; [reflexivity|].
  apply expect_body_flush. exact Hnf.
Qed.

(* every cut of every operation list recovers the content of some flush point *)

(* contents at the completed flushes *)
Fixpoint flush_points (st : fstate) (ops : list op) : list bytes :=
  match ops with
  | [] => []
  | o :: r =>
    let st' := run_calls st (calls_of walrev_fixed (data st) o) in
    match o with
    | OFlush => data st' :: flush_points st' r
    | _ => flush_points st' r
    end
  end.

Lemma expect_in_flush_points ops : forall d0 st k, In (expect d0 st ops k) (d0 :: flush_points st ops).
Proof.
  induction ops as [|o r IH]; intros d0 st k; cbn [expect flush_points]; [left; reflexivity|].
  destruct (Nat.ltb k (length (calls_of walrev_fixed (data st) o))); [left; reflexivity|].
  destruct o; [apply IH|apply IH|right; apply IH].
Qed.

Theorem crash_recovers_a_flush_point d0 ops k j :
  wp d0 ops ->
  let st := {| data := d0; wal := [] |} in
  In (data (recover walrev_fixed (crash st (trace walrev_fixed st ops) k j))) (d0 :: flush_points st ops).
Proof.
  intros Hwp st. unfold st. rewrite (recover_from_committed d0 ops k j Hwp). cbn [data].
  apply expect_in_flush_points.
Qed.

Lemma sd_ops_app a : forall n b, sd_ops n (a ++ b) = sd_ops n a ++ sd_ops (depth_after n a) b.
Proof.
  induction a as [|e r IH]; intros n b; cbn [app sd_ops depth_after]; [reflexivity|].
  destruct e as [| |o].
  - apply IH.
  - destruct n as [|[|m]]; cbn [Nat.pred]; rewrite IH; reflexivity.
  - now rewrite IH.
Qed.

Lemma no_flush_app a b : no_flush (a ++ b) = no_flush a && no_flush b.
Proof.
  induction a as [|o r IH]; cbn [app no_flush]; [reflexivity|]. destruct o; [exact IH|exact IH|reflexivity].
Qed.

Lemma stays_open_no_flush evs : forall n, 1 <= n -> stays_open n evs = true -> no_flush (sd_ops n evs) = true.
Proof.
  induction evs as [|e r IH]; intros n Hn H; cbn [sd_ops no_flush]; [reflexivity|].
  destruct e as [| |o]; cbn [stays_open] in H.
  - apply IH; [lia|exact H].
  - apply andb_true_iff in H as [H2 H]. apply Nat.leb_le in H2.
    destruct n as [|[|m]]; [lia|lia|]. cbn [Nat.pred] in H. apply IH; [lia|exact H].
  - apply andb_true_iff in H as [Ho H]. destruct o; cbn [no_flush]; try discriminate; apply IH; assumption.
Qed.

(* While the nesting counter stays >= 1 (a `?` early return skipped the matching commit), no later
   operation ever flushes: whatever is done afterwards, closing (Drop = recovery) or crashing at ANY
   point brings the file back to the content of the last flush, i.e. all later work is lost. *)
Theorem leaked_transaction_loses_later_work d0 n later k j :
  1 <= n -> stays_open n later = true -> wp d0 (sd_ops n later) ->
  let st := {| data := d0; wal := [] |} in
  recover walrev_fixed (crash st (trace walrev_fixed st (sd_ops n later)) k j) = {| data := d0; wal := [] |}.
Proof.
  intros Hn Hs Hwp st. unfold st.
  rewrite (recover_from_committed d0 _ k j Hwp). f_equal.
  apply expect_no_flush. now apply stays_open_no_flush.
Qed.

