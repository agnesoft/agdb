(* OpenMapRefineBase.v — groundwork of the refinement OpenMap.v -> OpenMapSpec.v:
   the probe sequence as a list of positions (pseq), the multiset of stored pairs under slot updates, and the PROBE-CHAIN
   INVARIANT `chain`: every Valid slot i holding key k is reachable from hpos k by stepping +1 (wrapping)
   without meeting an Empty slot (Deleted slots are crossed). *)
From Coq Require Import List NArith Arith Bool Lia Permutation.
Import ListNotations.
From Agdb Require Import OpenMap OpenMapProofs.

Lemma dist_self : forall cap s, dist cap s s = 0.
Proof. intros. cyc. Qed.

Lemma dist_zero : forall cap s a, s < cap -> a < cap -> dist cap s a = 0 -> a = s.
Proof. intros. cyc. Qed.

Lemma rem_dist : forall cap s pos, s < cap -> pos < cap -> rem cap s pos + dist cap s pos = cap.
Proof. intros. cyc. Qed.

Fixpoint pseq (cap pos n : nat) : list nat :=
  match n with
  | O => []
  | S n' => pos :: pseq cap (next_pos cap pos) n'
  end.

Lemma pseq_seq : forall cap n pos, pos + n <= cap -> pseq cap pos n = seq pos n.
Proof.
  intros cap. induction n as [|n IH]; intros pos Hle; cbn [pseq seq]; [reflexivity|].
  f_equal. destruct n as [|n]; [reflexivity|].
  assert (Hn : next_pos cap pos = S pos) by (unfold next_pos; destruct (Nat.eqb_spec pos (cap - 1)); lia).
  rewrite Hn. apply IH. lia.
Qed.

Lemma pseq_wrap : forall cap n1 pos n2, 0 < n1 -> pos + n1 = cap ->
  pseq cap pos (n1 + n2) = seq pos n1 ++ pseq cap 0 n2.
Proof.
  intros cap. induction n1 as [|n1 IH]; intros pos n2 Hpos Hsum; [lia|].
  cbn [plus pseq seq app]. f_equal.
  destruct n1 as [|n1].
  - cbn [plus seq app]. f_equal. unfold next_pos. destruct (Nat.eqb_spec pos (cap - 1)); lia.
  - assert (Hn : next_pos cap pos = S pos) by (unfold next_pos; destruct (Nat.eqb_spec pos (cap - 1)); lia).
    rewrite Hn. apply IH; lia.
Qed.

Lemma pseq_full_perm : forall cap s, s < cap -> Permutation (pseq cap s cap) (seq 0 cap).
Proof.
  intros cap s Hs.
  replace cap with ((cap - s) + s) at 2 by lia.
  rewrite pseq_wrap by lia. rewrite pseq_seq by lia.
  replace (seq 0 cap) with (seq 0 (s + (cap - s))) by (f_equal; lia).
  rewrite seq_app. cbn [plus]. apply Permutation_app_comm.
Qed.

Lemma pseq_in : forall cap s, s < cap -> forall n pos q, pos < cap -> n <= rem cap s pos ->
  In q (pseq cap pos n) -> q < cap /\ dist cap s pos <= dist cap s q.
Proof.
  intros cap s Hs. induction n as [|n IH]; intros pos q Hpos Hn Hin; cbn [pseq In] in Hin; [contradiction|].
  destruct Hin as [<-|Hin]; [split; [exact Hpos|lia]|].
  destruct n as [|n]; [cbn [pseq In] in Hin; contradiction|].
  destruct (Nat.eq_dec (next_pos cap pos) s) as [Heq|Hne].
  { pose proof (rem_wrap cap s pos Hs Hpos Heq). lia. }
  pose proof (rem_next cap s pos Hpos Hs Hne) as Hr.
  pose proof (dist_step cap s pos Hs Hpos Hne) as Hd.
  destruct (IH (next_pos cap pos) q) as [Hq Hle]; auto; [apply next_pos_lt; exact Hpos|lia|].
  split; [exact Hq|lia].
Qed.

Lemma map_nth_seq_id : forall A (d : A) (l : list A), map (fun i => nth i l d) (seq 0 (length l)) = l.
Proof.
  intros A d l. apply (nth_ext _ _ d d).
  - rewrite map_length, seq_length. reflexivity.
  - intros n Hn. rewrite map_length, seq_length in Hn.
    rewrite (nth_indep _ d (nth 0 l d)) by (rewrite map_length, seq_length; exact Hn).
    rewrite (map_nth (fun i => nth i l d) (seq 0 (length l)) 0 n).
    rewrite seq_nth by exact Hn. reflexivity.
Qed.

Section Base.
  Variables K V : Type.
  Variable keqb : K -> K -> bool.
  Variable veqb : V -> V -> bool.
  Variable h : K -> N.

  Notation slotT := (slot K V).
  Notation isv := (is_valid K V).
  Notation E := (@Empty K V).
  Notation D := (@Deleted K V).
  Notation ents := (entries K V).
  Notation hp := (hpos K h).

  Definition ent (s : slotT) : list (K * V) := match s with Valid k v => [(k, v)] | _ => [] end.

  Lemma entries_cons : forall s sl, ents (s :: sl) = ent s ++ ents sl.
  Proof. intros [| |k v] sl; reflexivity. Qed.

  Lemma entries_app : forall l1 l2, ents (l1 ++ l2) = ents l1 ++ ents l2.
  Proof. intros. unfold entries. apply flat_map_app. Qed.

  Lemma entries_repeat_empty : forall n, ents (repeat E n) = [].
  Proof. induction n as [|n IH]; [reflexivity|]. cbn [repeat]. rewrite entries_cons, IH. reflexivity. Qed.

  (* one slot overwritten: the old content leaves the multiset, the new one enters *)
  Lemma entries_upd : forall sl p x, p < length sl ->
    Permutation (ents (upd p x sl) ++ ent (nth p sl E)) (ent x ++ ents sl).
  Proof.
    induction sl as [|y t IH]; intros [|p] x Hp; cbn [length] in Hp; try lia; cbn [upd nth].
    - rewrite !entries_cons. rewrite <- app_assoc.
      apply Permutation_app_head. apply Permutation_app_comm.
    - rewrite !entries_cons. rewrite <- app_assoc.
      eapply Permutation_trans; [apply Permutation_app_head; apply IH; lia|].
      rewrite !app_assoc. apply Permutation_app_tail. apply Permutation_app_comm.
  Qed.

  Lemma entries_upd_valid : forall sl p k v, p < length sl -> isv (nth p sl E) = false ->
    Permutation (ents (upd p (Valid k v) sl)) ((k, v) :: ents sl).
  Proof.
    intros sl p k v Hp Hn. pose proof (entries_upd sl p (Valid k v) Hp) as HP.
    destruct (nth p sl E); cbn [is_valid] in Hn; try discriminate; cbn [ent app] in HP;
      rewrite app_nil_r in HP; exact HP.
  Qed.

  Lemma entries_upd_deleted : forall sl p k v, p < length sl -> nth p sl E = Valid k v ->
    Permutation ((k, v) :: ents (upd p D sl)) (ents sl).
  Proof.
    intros sl p k v Hp Hn. pose proof (entries_upd sl p D Hp) as HP.
    rewrite Hn in HP. cbn [ent app] in HP.
    eapply Permutation_trans; [|exact HP]. apply Permutation_cons_append.
  Qed.

  Lemma entries_upd_replace : forall sl p k v k' v', p < length sl -> nth p sl E = Valid k v ->
    Permutation ((k, v) :: ents (upd p (Valid k' v') sl)) ((k', v') :: ents sl).
  Proof.
    intros sl p k v k' v' Hp Hn. pose proof (entries_upd sl p (Valid k' v') Hp) as HP.
    rewrite Hn in HP. cbn [ent app] in HP.
    eapply Permutation_trans; [|exact HP]. apply Permutation_cons_append.
  Qed.

  Lemma entries_upd_junk : forall sl p x, p < length sl -> isv (nth p sl E) = false -> isv x = false ->
    ents (upd p x sl) = ents sl.
  Proof.
    induction sl as [|y t IH]; intros [|p] x Hp Hn Hx; cbn [length] in Hp; try lia; cbn [upd nth] in *.
    - rewrite !entries_cons. destruct y; destruct x; cbn [is_valid] in *; try discriminate; reflexivity.
    - rewrite !entries_cons. rewrite IH; auto; lia.
  Qed.

  Lemma entries_length : forall sl, length (ents sl) = cv K V sl.
  Proof.
    induction sl as [|s t IH]; [reflexivity|]. rewrite entries_cons, app_length, IH.
    destruct s; reflexivity.
  Qed.

  Lemma entries_firstn : forall n sl,
    (forall p, n <= p -> p < length sl -> isv (nth p sl E) = false) -> ents (firstn n sl) = ents sl.
  Proof.
    induction n as [|n IH]; intros sl Htail.
    - cbn [firstn]. symmetry. induction sl as [|y t IHt]; [reflexivity|].
      rewrite entries_cons. pose proof (Htail 0 ltac:(lia) ltac:(cbn [length]; lia)) as H0. cbn [nth] in H0.
      rewrite IHt; [destruct y; cbn [is_valid] in H0; try discriminate; reflexivity|].
      intros p Hp1 Hp2. apply (Htail (S p)); cbn [length]; lia.
    - destruct sl as [|y t]; [reflexivity|]. cbn [firstn]. rewrite !entries_cons. f_equal.
      apply IH. intros p Hp1 Hp2. apply (Htail (S p)); cbn [length]; lia.
  Qed.

  Hypothesis keqb_eq : forall a b, keqb a b = true <-> a = b.
  Hypothesis veqb_eq : forall a b, veqb a b = true <-> a = b.

  Lemma pair_eq_dec : forall x y : K * V, {x = y} + {x <> y}.
  Proof.
    intros [k v] [k' v'].
    destruct (keqb k k') eqn:Hk; [apply keqb_eq in Hk|right; intros Heq; inversion Heq; subst;
      assert (keqb k' k' = true) by (apply keqb_eq; reflexivity); congruence].
    destruct (veqb v v') eqn:Hv; [apply veqb_eq in Hv; left; congruence|right; intros Heq; inversion Heq; subst;
      assert (veqb v' v' = true) by (apply veqb_eq; reflexivity); congruence].
  Qed.

  Lemma count_entries_occ : forall (x : K * V) sl,
    count_entries K V (fun k v => if pair_eq_dec (k, v) x then true else false) sl = count_occ pair_eq_dec (ents sl) x.
  Proof.
    intros x. unfold count_entries. induction sl as [|s t IH]; [reflexivity|].
    rewrite entries_cons. cbn [cnt]. rewrite IH. destruct s as [| |k v]; cbn [ent app]; try reflexivity.
    cbn [count_occ]. destruct (pair_eq_dec (k, v) x); reflexivity.
  Qed.

  Lemma counts_perm : forall sl sl',
    (forall Q, count_entries K V Q sl' = count_entries K V Q sl) -> Permutation (ents sl') (ents sl).
  Proof.
    intros sl sl' Hc. apply (Permutation_count_occ pair_eq_dec). intros x.
    rewrite <- !count_entries_occ. apply Hc.
  Qed.

  Definition chain (cap : nat) (sl : list slotT) : Prop :=
    forall i k v, i < cap -> nth i sl E = Valid k v ->
    forall j, j < cap -> dist cap (hp k cap) j < dist cap (hp k cap) i -> nth j sl E <> E.

  Lemma chain_nil : forall cap, chain cap [].
  Proof. intros cap i k v _ Hn. destruct i; discriminate. Qed.

  (* a slot that is not Empty afterwards and not Valid afterwards (a tombstone) never breaks a chain *)
  Lemma chain_upd_deleted : forall cap sl p, chain cap sl -> chain cap (upd p D sl).
  Proof.
    intros cap sl p Hc i k v Hi Hn j Hj Hd. rewrite nth_upd in *.
    destruct ((p =? j) && (p <? length sl)); [discriminate|].
    destruct ((p =? i) && (p <? length sl)); [discriminate|].
    exact (Hc i k v Hi Hn j Hj Hd).
  Qed.

  (* a Valid slot written where every earlier slot of ITS chain is non-Empty *)
  Lemma chain_upd_valid : forall cap sl p k v, chain cap sl ->
    (forall j, j < cap -> dist cap (hp k cap) j < dist cap (hp k cap) p -> nth j sl E <> E) ->
    chain cap (upd p (Valid k v) sl).
  Proof.
    intros cap sl p k v Hc Hnew i k' v' Hi Hn j Hj Hd. rewrite nth_upd in *.
    destruct ((p =? j) && (p <? length sl)) eqn:Hpj; [discriminate|].
    destruct ((p =? i) && (p <? length sl)) eqn:Hpi.
    - inversion Hn; subst k' v'. apply andb_true_iff in Hpi. destruct Hpi as [Hpi _].
      apply Nat.eqb_eq in Hpi. subst i. apply Hnew; assumption.
    - exact (Hc i k' v' Hi Hn j Hj Hd).
  Qed.

  (* every slot holding the probed key lies before the first Empty slot of the probe *)
  Lemma chain_empty_visited : forall cap sl pos i k v, chain cap sl -> 0 < cap ->
    pos < cap -> nth pos sl E = E -> i < cap -> nth i sl E = Valid k v ->
    dist cap (hp k cap) i < dist cap (hp k cap) pos.
  Proof.
    intros cap sl pos i k v Hc Hcap Hpos He Hi Hv.
    pose proof (hpos_lt K keqb h k cap Hcap) as Hs.
    destruct (Nat.lt_trichotomy (dist cap (hp k cap) i) (dist cap (hp k cap) pos)) as [Hlt|[Heq|Hgt]]; [exact Hlt| |].
    - apply dist_inj in Heq; auto. subst i. congruence.
    - exfalso. exact (Hc i k v Hi Hv pos Hpos Hgt He).
  Qed.

  Definition matches_k (k : K) (s : slotT) : bool := matches K V keqb k s.

  Lemma matches_valid : forall k s, matches_k k s = true -> exists v, s = Valid k v.
  Proof.
    intros k [| |k' v] Hm; cbn in Hm; try discriminate. apply keqb_eq in Hm. subst k'. eauto.
  Qed.

  Lemma matches_refl : forall k v, matches_k k (Valid k v) = true.
  Proof. intros. cbn. apply keqb_eq. reflexivity. Qed.

End Base.
