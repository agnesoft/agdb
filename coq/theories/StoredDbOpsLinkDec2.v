(* StoredDbOpsLinkDec2.v — the boolean that decides so_covered2 (a removal needs no property): C05_db_covered2_decidable. *)
From Agdb Require Import Bytes DbValue Graph DbModel StoredDbOpsLinkHist StoredDbOpsLinkDec StoredDbOpsLinkHist2.
From Coq Require Import Bool ZifyBool ZifyNat ZifyN.
Open Scope Z_scope.

Definition so_coveredb2 (d : db) (c : so_cq) : bool :=
  match c with
  | CqRemove id =>
    (capacity (gr d) <? 1152921504606846976) &&
    forallb (fun x : kv => not_indexedb d (fst x)) (kvs_get (vals d) id) &&
    ((id <? 0) && is_edge (gr d) id ||
     (0 <? id) && is_node (gr d) id && is_none (imap_key (aliases d) id) && (from (gr d) id =? 0) && (to (gr d) id =? 0))
  | _ => so_coveredb d c
  end.
