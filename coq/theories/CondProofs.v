(* CondProofs.v — C15: the SearchControl algebra, the modifiers, the comparison
   operators and the recursive condition evaluator of Search.v meet the DOCUMENTED
   semantics (agdb_web/content/docs/03.references/01.queries.md, "Conditions" and
   "Truth tables"), written here as an independent specification `DocSpec`. *)
From Agdb Require Import Bytes DbValue DbValueProofs Graph DbModel Search Revisions ElementsSearchProofs.
From Coq Require Import ZifyBool ZifyNat ZifyN.
Ltac Zify.zify_post_hook ::= Z.div_mod_to_equations.
Open Scope Z_scope.

Module DocSpec.

  (* "pub enum SearchControl { Continue(bool), Finish(bool), Stop(bool) }":
     a kind (what the traversal does) and a selection bit *)
  Inductive ckind := KContinue | KStop | KFinish.

  Definition mk (k : ckind) (b : bool) : sc :=
    match k with KContinue => Continue b | KStop => Stop b | KFinish => Finish b end.
  Definition kind_of (c : sc) : ckind :=
    match c with Continue _ => KContinue | Stop _ => KStop | Finish _ => KFinish end.

  Definition ckind_eqb (a b : ckind) : bool :=
    match a, b with
    | KContinue, KContinue | KStop, KStop | KFinish, KFinish => true
    | _, _ => false
    end.

  (* #### And — the six rows of the table, (Left, Right, Result); the table lists
     unordered pairs, the selection bit is `left && right` in every row *)
  Definition and_rows : list (ckind * ckind * ckind) :=
    [ (KContinue, KContinue, KContinue);
      (KContinue, KStop,     KStop);
      (KContinue, KFinish,   KFinish);
      (KStop,     KStop,     KStop);
      (KStop,     KFinish,   KFinish);
      (KFinish,   KFinish,   KFinish) ].

  (* #### Or — selection bit `left || right` in every row *)
  Definition or_rows : list (ckind * ckind * ckind) :=
    [ (KContinue, KContinue, KContinue);
      (KContinue, KStop,     KContinue);
      (KContinue, KFinish,   KContinue);
      (KStop,     KStop,     KStop);
      (KStop,     KFinish,   KStop);
      (KFinish,   KFinish,   KFinish) ].

  (* reading a table: the row whose unordered pair is {l, r} *)
  Fixpoint lookup (rows : list (ckind * ckind * ckind)) (l r : ckind) : option ckind :=
    match rows with
    | [] => None
    | (a, b, res) :: rest =>
        if (ckind_eqb a l && ckind_eqb b r) || (ckind_eqb a r && ckind_eqb b l) then Some res
        else lookup rest l r
    end.

  (* the default is never taken: both tables cover all unordered pairs (rows_complete) *)
  Definition doc_and (l r : sc) : sc :=
    match lookup and_rows (kind_of l) (kind_of r) with
    | Some k => mk k (sc_true l && sc_true r)
    | None => Finish false
    end.
  Definition doc_or (l r : sc) : sc :=
    match lookup or_rows (kind_of l) (kind_of r) with
    | Some k => mk k (sc_true l || sc_true r)
    | None => Finish false
    end.

  Definition doc_logic (lg : logic) : sc -> sc -> sc :=
    match lg with LAnd => doc_and | LOr => doc_or end.

  (* #### Modifiers
       | None      | -                   | -                |
       | Beyond    | `&& Continue(true)` | `Stop(true)`     |
       | Not       | `!`                 | `!`              |
       | NotBeyond | `&& Stop(true)`     | `Continue(true)` |
     "Beyond / NotBeyond control traversal only, do not affect element selection":
     the modified condition contributes the selection bit that is neutral for the
     logic operator it is chained with (`true` for And — as the table writes it —
     and `false` for Or).  The start element of the search (distance 0) is exempt
     from Beyond (the documented examples `search().from(user).where_().neighbor()
     .and().beyond().keys("authored")` start at an element that does not pass). *)
  Definition neutral (lg : logic) : bool := match lg with LAnd => true | LOr => false end.

  Definition doc_modifier (md : modifier) (lg : logic) (distance : Z) (c : sc) : sc :=
    match md with
    | MNone => c
    | MNot => mk (kind_of c) (negb (sc_true c))
    | MBeyond => if sc_true c || (distance =? 0) then Continue (neutral lg) else Stop (neutral lg)
    | MNotBeyond => if sc_true c then Stop (neutral lg) else Continue (neutral lg)
    end.

  (* #### Results — which conditions may yield Stop *)
  Definition may_stop (c : cond_data) : bool :=
    match c with CWhere _ | CDistance _ => true | _ => false end.

  (* "The condition comparators are type strict ... do not perform type conversions nor
     coercion"; "slight exception ... Contains allows vectorized version of the base type ...
     StartsWith and EndsWith are provided with the same semantics (both single value and
     vectorized and vice versa)".  Kinds: 0 bytes, 1 i64, 2 u64, 3 f64, 4 string,
     5 vec<i64>, 6 vec<u64>, 7 vec<f64>, 8 vec<string>. *)
  Definition cross_kind_pairs : list (N * N) :=
    [ (4, 8); (5, 1); (6, 2); (7, 3); (8, 4) ]%N.
  Definition container_pairs : list (N * N) :=
    [ (4, 4); (5, 5); (6, 6); (7, 7); (8, 8) ]%N ++ cross_kind_pairs.

  Definition pair_in (ps : list (N * N)) (l r : dbvalue) : bool :=
    existsb (fun p => (fst p =? kind l)%N && (snd p =? kind r)%N) ps.

  Definition doc_compare (op : comparison_op) (l r : dbvalue) : bool :=
    let eq := same_kind l r && is_eq (dbv_cmp l r) in
    let lt := same_kind l r && is_lt (dbv_cmp l r) in
    let gt := same_kind l r && is_gt (dbv_cmp l r) in
    match op with
    | CEqual => eq
    | CNotEqual => negb eq
    | CGreaterThan => gt
    | CGreaterThanOrEqual => gt || eq
    | CLessThan => lt
    | CLessThanOrEqual => lt || eq
    | CContains => pair_in container_pairs l r && contains_cmp l r
    | CStartsWith => pair_in container_pairs l r && starts_cmp l r
    | CEndsWith => pair_in container_pairs l r && ends_cmp l r
    end.

  (* Distance: "if the current distance of the search satisfies the numerical comparison";
     it "can limit the depth of the search": Stop once no greater distance can satisfy it *)
  Definition doc_distance (c : count_cmp) (dist : Z) : sc :=
    match c with
    | KEqual n => if dist <? n then Continue false else Stop (dist =? n)
    | KLessThan n => if dist <? n then Continue true else Stop false
    | KLessThanOrEqual n => if dist <=? n then Continue true else Stop false
    | _ => Continue (count_compare c dist)
    end.

  Section Eval.
    Variable d : db.
    Variables index distance : Z.

    (* the per-condition prose of the list "The currently supported conditions are" *)
    Fixpoint doc_eval_data (c : cond_data) : sc :=
      match c with
      | CDistance v => doc_distance v distance
      | CEdge => Continue (index <? 0)
      | CNode => Continue (0 <? index)
      | CEdgeCount v =>
          Continue (is_node (gr d) index
                    && count_compare v (edge_count_from (gr d) index + edge_count_to (gr d) index))
      | CEdgeCountFrom v => Continue (is_node (gr d) index && count_compare v (edge_count_from (gr d) index))
      | CEdgeCountTo v => Continue (is_node (gr d) index && count_compare v (edge_count_to (gr d) index))
      | CIds ids => Continue (ids_match d index ids)
      | CKeyValue key op value =>
          Continue (match kvs_value (vals d) index key with
                    | Some v => doc_compare op v value
                    | None => false
                    end)
      | CKeys keys =>
          Continue (forallb (fun k => existsb (fun p : kv => dbv_eqb k (fst p)) (kvs_get (vals d) index)) keys)
      | CWhere conds =>
          (* "applied one at a time ... chained using logic operators", "the starting/default
             value being always Continue(true)" *)
          fold_left (fun result c =>
                       match c with
                       | Cond lg md data => doc_logic lg result (doc_modifier md lg distance (doc_eval_data data))
                       end) conds (Continue true)
      end.

    Definition doc_eval (conds : list cond) : sc := doc_eval_data (CWhere conds).
  End Eval.
End DocSpec.
Import DocSpec.


Lemma rows_complete :
  forall l r : ckind, lookup and_rows l r <> None /\ lookup or_rows l r <> None.
Proof. intros [] []; split; discriminate. Qed.

Lemma sc_and_doc : forall l r : sc, sc_and l r = doc_and l r.
Proof. intros [[]|[]|[]] [[]|[]|[]]; reflexivity. Qed.

Lemma sc_or_doc : forall l r : sc, sc_or l r = doc_or l r.
Proof. intros [[]|[]|[]] [[]|[]|[]]; reflexivity. Qed.

Lemma sc_and_true : forall l r, sc_true (sc_and l r) = sc_true l && sc_true r.
Proof. intros [] []; reflexivity. Qed.
Lemma sc_or_true : forall l r, sc_true (sc_or l r) = sc_true l || sc_true r.
Proof. intros [] []; reflexivity. Qed.

(* the code is the documented operator; row by row, in both orders; the rows cover every
   unordered pair; commutativity *)
Theorem and_table :
  (forall l r : sc, sc_and l r = doc_and l r) /\
  (forall k1 k2 k a b, In (k1, k2, k) and_rows ->
     sc_and (mk k1 a) (mk k2 b) = mk k (a && b) /\ sc_and (mk k2 b) (mk k1 a) = mk k (a && b)) /\
  (forall k1 k2, exists k, In (k1, k2, k) and_rows \/ In (k2, k1, k) and_rows) /\
  (forall l r : sc, sc_and l r = sc_and r l).
Proof.
  split; [exact sc_and_doc|]. split; [|split].
  - intros k1 k2 k a b H. cbn [In and_rows] in H.
    repeat (destruct H as [H|H]; [inversion H; subst; destruct a, b; split; reflexivity|]).
    contradiction.
  - intros [] []; cbn [In and_rows];
      first [ exists KContinue; intuition congruence | exists KStop; intuition congruence
            | exists KFinish; intuition congruence ].
  - intros [[]|[]|[]] [[]|[]|[]]; reflexivity.
Qed.

Theorem or_table :
  (forall l r : sc, sc_or l r = doc_or l r) /\
  (forall k1 k2 k a b, In (k1, k2, k) or_rows ->
     sc_or (mk k1 a) (mk k2 b) = mk k (a || b) /\ sc_or (mk k2 b) (mk k1 a) = mk k (a || b)) /\
  (forall k1 k2, exists k, In (k1, k2, k) or_rows \/ In (k2, k1, k) or_rows) /\
  (forall l r : sc, sc_or l r = sc_or r l).
Proof.
  split; [exact sc_or_doc|]. split; [|split].
  - intros k1 k2 k a b H. cbn [In or_rows] in H.
    repeat (destruct H as [H|H]; [inversion H; subst; destruct a, b; split; reflexivity|]).
    contradiction.
  - intros [] []; cbn [In or_rows];
      first [ exists KContinue; intuition congruence | exists KStop; intuition congruence
            | exists KFinish; intuition congruence ].
  - intros [[]|[]|[]] [[]|[]|[]]; reflexivity.
Qed.

(* the modifier step of evaluate_conditions, as the code writes it *)
Definition mod_control (md : modifier) (distance : Z) (result control0 : sc) : sc :=
  match md with
  | MBeyond => if sc_true control0 || (distance =? 0) then Continue (sc_true result)
               else Stop (sc_true result)
  | MNot => sc_flip control0
  | MNotBeyond => if sc_true control0 then Stop (sc_true result) else Continue (sc_true result)
  | MNone => control0
  end.

Definition sc_logic (lg : logic) : sc -> sc -> sc :=
  match lg with LAnd => sc_and | LOr => sc_or end.

(* one iteration of the loop of evaluate_conditions *)
Definition step_result (lg : logic) (md : modifier) (distance : Z) (result control0 : sc) : sc :=
  sc_logic lg result (mod_control md distance result control0).

Lemma eval_where_fold rv d index distance conds :
  eval_data rv d index distance (CWhere conds) =
  fold_left (fun result c =>
               match c with
               | Cond lg md data => step_result lg md distance result (eval_data rv d index distance data)
               end) conds (Continue true).
Proof.
  cbn [eval_data]. generalize (Continue true) as result.
  induction conds as [|[lg md data] r IH]; intros result; [reflexivity|].
  cbn [fold_left]. rewrite <- IH. destruct lg; reflexivity.
Qed.

Lemma nofinish_kind c : sc_nofinish c -> kind_of c <> KFinish.
Proof. destruct c; [discriminate | contradiction | discriminate]. Qed.

Lemma compare_distance_kind c dist : kind_of (compare_distance c dist) <> KFinish.
Proof. apply nofinish_kind, compare_distance_nofinish. Qed.

Lemma eval_no_finish_data rv d index distance :
  forall c, kind_of (eval_data rv d index distance c) <> KFinish.
Proof. intros c. apply nofinish_kind, eval_data_nofinish. Qed.

(* the "Results" table: only Distance and Where may yield Stop, nothing yields Finish *)
Theorem result_table rv d index distance c :
  kind_of (eval_data rv d index distance c) = KContinue \/
  (may_stop c = true /\ kind_of (eval_data rv d index distance c) = KStop).
Proof.
  pose proof (eval_no_finish_data rv d index distance c) as NF.
  destruct c; try (left; reflexivity);
    (destruct (eval_data rv d index distance _) eqn:E; cbn [kind_of] in *;
     [left; reflexivity | congruence | right; split; reflexivity]).
Qed.

(* both columns of the table are inhabited for Distance and Where *)
Lemma result_table_stop_witness rv d :
  eval_data rv d 1 3 (CDistance (KLessThan 2)) = Stop false /\
  eval_data rv d 1 3 (CWhere [Cond LAnd MNone (CDistance (KEqual 3))]) = Stop true /\
  eval_data rv d 1 3 (CWhere [Cond LAnd MNotBeyond CNode]) = Stop true.
Proof. repeat split. Qed.


(* What Beyond / NotBeyond do to the traversal (theorem `modifiers`): under And a result that
   would continue is turned into Stop exactly when the Beyond-condition fails (not at the start
   element) / the NotBeyond-condition passes; otherwise the accumulated result is unchanged.
   Under Or the documented table makes `x || Continue = Continue` and `x || Stop = x`: a passing
   Beyond / failing NotBeyond condition re-opens the traversal, the other outcome changes nothing. *)
Definition stop_and (result : sc) : sc :=
  match result with Continue b => Stop b | other => other end.

(* the code's modifier step agrees with the documented modifier table *)
Lemma sc_logic_doc lg l r : sc_logic lg l r = doc_logic lg l r.
Proof. destruct lg; [apply sc_and_doc|apply sc_or_doc]. Qed.

Lemma step_result_doc lg md distance result c0 :
  step_result lg md distance result c0 = doc_logic lg result (doc_modifier md lg distance c0).
Proof.
  rewrite <- sc_logic_doc. unfold step_result, mod_control, doc_modifier.
  destruct md; [reflexivity| | |].
  - destruct (sc_true c0 || (distance =? 0)), lg, result as [[]|[]|[]]; reflexivity.
  - destruct c0; reflexivity.
  - destruct (sc_true c0), lg, result as [[]|[]|[]]; reflexivity.
Qed.

Theorem modifiers :
  (* selection is never affected *)
  (forall lg md distance result c0, md = MBeyond \/ md = MNotBeyond ->
     sc_true (step_result lg md distance result c0) = sc_true result) /\
  (* traversal, chained with And *)
  (forall distance result c0,
     step_result LAnd MBeyond distance result c0 =
       (if sc_true c0 || (distance =? 0) then result else stop_and result) /\
     step_result LAnd MNotBeyond distance result c0 =
       (if sc_true c0 then stop_and result else result)) /\
  (* traversal, chained with Or *)
  (forall distance result c0, kind_of result <> KFinish ->
     step_result LOr MBeyond distance result c0 =
       (if sc_true c0 || (distance =? 0) then Continue (sc_true result) else result) /\
     step_result LOr MNotBeyond distance result c0 =
       (if sc_true c0 then result else Continue (sc_true result))) /\
  (* the start element *)
  (forall result c0, step_result LAnd MBeyond 0 result c0 = result /\
                     step_result LOr MBeyond 0 result c0 = Continue (sc_true result)) /\
  (* Not reverses the selection result and nothing else *)
  (forall lg distance result c0,
     step_result lg MNot distance result c0 = sc_logic lg result (mk (kind_of c0) (negb (sc_true c0)))) /\
  (* the documented modifier table *)
  (forall lg md distance result c0,
     step_result lg md distance result c0 = doc_logic lg result (doc_modifier md lg distance c0)).
Proof.
  unfold step_result, mod_control. repeat apply conj.
  - intros lg md distance result c0 [->| ->]; destruct lg; cbn [sc_logic];
      rewrite ?sc_and_true, ?sc_or_true; destruct (sc_true c0), (distance =? 0); cbn [orb sc_true];
      destruct (sc_true result); reflexivity.
  - intros distance result c0. cbn [sc_logic].
    destruct (sc_true c0), (distance =? 0), result as [[]|[]|[]]; split; reflexivity.
  - intros distance result c0. cbn [sc_logic].
    destruct (sc_true c0), (distance =? 0), result as [[]|[]|[]]; cbn [kind_of]; intros H;
      try congruence; split; reflexivity.
  - intros result c0. rewrite Z.eqb_refl, orb_true_r. destruct result as [[]|[]|[]]; split; reflexivity.
  - intros lg distance result c0. destruct c0; reflexivity.
  - exact step_result_doc.
Qed.

Lemma dbv_eqb_same_kind l r : dbv_eqb l r = true -> same_kind l r = true.
Proof.
  unfold dbv_eqb, same_kind. intros H.
  destruct (dbv_cmp l r) eqn:E; try discriminate. apply dbv_cmp_eq_kind in E. rewrite E. apply N.eqb_refl.
Qed.

Lemma value_compare_doc op l r : value_compare true op l r = doc_compare op l r.
Proof.
  unfold value_compare, doc_compare. cbn [negb orb].
  destruct op.
  - unfold dbv_eqb. destruct (same_kind l r) eqn:K; [reflexivity|].
    destruct (is_eq (dbv_cmp l r)) eqn:E; [|reflexivity].
    apply dbv_eqb_same_kind in E. congruence.
  - reflexivity.
  - unfold dbv_eqb. destruct (same_kind l r), (dbv_cmp l r); reflexivity.
  - reflexivity.
  - unfold dbv_eqb. destruct (same_kind l r), (dbv_cmp l r); reflexivity.
  - unfold dbv_eqb. destruct (same_kind l r) eqn:K; [reflexivity|].
    destruct (is_eq (dbv_cmp l r)) eqn:E; [|reflexivity].
    apply dbv_eqb_same_kind in E. congruence.
  - destruct l, r; reflexivity.
  - destruct l, r; reflexivity.
  - destruct l, r; reflexivity.
Qed.

Lemma pair_in_In ps l r : pair_in ps l r = true -> In (kind l, kind r) ps.
Proof.
  unfold pair_in. rewrite existsb_exists. intros [[a b] [Hin H]]. cbn [fst snd] in H.
  apply andb_true_iff in H as [Ha Hb]. apply N.eqb_eq in Ha, Hb. now subst.
Qed.

(* the only cross-kind pairs that can compare true are the vector/element ones *)
Theorem type_strict :
  (forall op l r,
     In op [CEqual; CGreaterThan; CGreaterThanOrEqual; CLessThan; CLessThanOrEqual] ->
     value_compare true op l r = true -> same_kind l r = true) /\
  (forall l r, same_kind l r = false -> value_compare true CNotEqual l r = true) /\
  (forall op l r,
     In op [CContains; CStartsWith; CEndsWith] ->
     value_compare true op l r = true ->
     In (kind l, kind r) container_pairs /\
     (same_kind l r = true \/ In (kind l, kind r) cross_kind_pairs)) /\
  (forall op l r, value_compare true op l r = doc_compare op l r).
Proof.
  split; [|split; [|split; [|exact value_compare_doc]]].
  - intros op l r Hop H. rewrite value_compare_doc in H. unfold doc_compare in H.
    cbn [In] in Hop. destruct Hop as [<-|[<-|[<-|[<-|[<-|[]]]]]];
      destruct (same_kind l r); cbn [andb orb] in H; congruence.
  - intros l r K. rewrite value_compare_doc. unfold doc_compare. rewrite K. reflexivity.
  - intros op l r Hop H. rewrite value_compare_doc in H. unfold doc_compare in H.
    assert (P : In (kind l, kind r) container_pairs).
    { cbn [In] in Hop. destruct Hop as [<-|[<-|[<-|[]]]];
        apply andb_true_iff in H as [H _]; exact (pair_in_In _ _ _ H). }
    split; [exact P|].
    unfold container_pairs in P. apply in_app_or in P as [P|P]; [left|right; exact P].
    unfold same_kind. cbn [In] in P.
    repeat (destruct P as [P|P]; [injection P as K1 K2; rewrite <- K1, <- K2; reflexivity|]).
    contradiction.
Qed.

(* every admitted pair is really admitted (the list is exact), the documented examples *)
Lemma container_pairs_inhabited :
  let s := fun l => DString l in
  value_compare true CContains (s [x61; x62; x63]) (s [x62; x63]) = true /\
  value_compare true CContains (s [x61; x62; x63; x64]) (DVecString [[x62; x63]; [x64]]) = true /\
  value_compare true CContains (DVecI64 [1; 2]) (DI64 2) = true /\
  value_compare true CContains (DVecI64 [1; 2]) (DVecI64 [2; 1]) = true /\
  value_compare true CContains (DVecU64 [1; 2]%N) (DU64 2) = true /\
  value_compare true CContains (DVecU64 [1; 2]%N) (DVecU64 [2]%N) = true /\
  value_compare true CContains (DVecF64 [1; 2]%N) (DF64 2) = true /\
  value_compare true CContains (DVecF64 [1; 2]%N) (DVecF64 [2]%N) = true /\
  value_compare true CContains (DVecString [[x61]; [x62]]) (s [x62]) = true /\
  value_compare true CContains (DVecString [[x61]; [x62]]) (DVecString [[x62]]) = true /\
  value_compare true CStartsWith (s [x61; x62; x63]) (DVecString [[x61]; [x62]]) = true /\
  value_compare true CEndsWith (DVecI64 [1; 2]) (DI64 2) = true /\
  (* type strict: Equal(1_i64).compare(1_u64) is false *)
  value_compare true CEqual (DU64 1) (DI64 1) = false.
Proof. cbv zeta. repeat split. Qed.

(* the defect of the pinned code (before fix_strict_order): the derived PartialOrd orders
   across variants, `age > 30_i64` selects an element whose age is 5_u64 *)
Lemma type_strict_pinned_refuted :
  value_compare (fix_strict_order rv_pinned) CGreaterThan (DU64 5) (DI64 30) = true /\
  same_kind (DU64 5) (DI64 30) = false /\
  value_compare (fix_strict_order rv_fixed) CGreaterThan (DU64 5) (DI64 30) = false.
Proof. repeat split. Qed.


Ltac zcmp :=
  repeat match goal with
         | |- context [Z.compare ?a ?b] => destruct (Z.compare_spec a b)
         | |- context [Z.ltb ?a ?b] => destruct (Z.ltb_spec a b)
         | |- context [Z.leb ?a ?b] => destruct (Z.leb_spec a b)
         | |- context [Z.eqb ?a ?b] => destruct (Z.eqb_spec a b)
         end.

Lemma compare_distance_doc c dist : compare_distance c dist = doc_distance c dist.
Proof.
  destruct c; cbn [compare_distance doc_distance count_compare]; zcmp;
    cbn [negb]; try reflexivity; try lia.
Qed.

(* the selection bit is the numerical comparison; Stop is returned only when no greater
   distance can satisfy the comparison (pruning never loses a matching element), Continue
   only when this or some greater distance satisfies it *)
Theorem distance_spec c dist :
  sc_true (compare_distance c dist) = count_compare c dist /\
  kind_of (compare_distance c dist) <> KFinish /\
  (kind_of (compare_distance c dist) = KStop ->
     forall dist', dist < dist' -> count_compare c dist' = false) /\
  (kind_of (compare_distance c dist) = KContinue ->
     exists dist', dist <= dist' /\ count_compare c dist' = true).
Proof.
  split; [|split; [apply compare_distance_kind|split]].
  - destruct c; cbn [compare_distance count_compare]; zcmp; cbn [sc_true negb]; try reflexivity; lia.
  - destruct c; cbn [compare_distance count_compare]; destruct (Z.compare_spec dist n);
      cbn [kind_of]; intros K dist' Hd; try discriminate K; lia.
  - destruct c; cbn [compare_distance count_compare]; destruct (Z.compare_spec dist n);
      cbn [kind_of]; intros K; try discriminate K;
      first [ exists dist; lia | exists n; lia | exists (dist + n + 1); lia | exists (n + 1); lia ].
Qed.

Lemma mem_keys k (l : list kv) :
  mem dbv_eqb k (map fst l) = existsb (fun p : kv => dbv_eqb k (fst p)) l.
Proof.
  induction l as [|p l IH]; [reflexivity|].
  cbn [map mem existsb]. rewrite IH, (dbv_eqb_sym (fst p) k). reflexivity.
Qed.

Lemma forallb_ext_eq {A} (f g : A -> bool) l : (forall x, f x = g x) -> forallb f l = forallb g l.
Proof. intros H. induction l as [|x l IH]; [reflexivity|]. cbn [forallb]. now rewrite H, IH. Qed.

Lemma eval_data_doc rv d index distance :
  fix_strict_order rv = true ->
  forall c, eval_data rv d index distance c = doc_eval_data d index distance c.
Proof.
  intros Hrv.
  induction c as [v| |v|v|v|ids|k op v|ks| |conds IH] using cond_data_ind'.
  - cbn [eval_data doc_eval_data]. apply compare_distance_doc.
  - reflexivity.
  - cbn [eval_data doc_eval_data]. destruct (is_node (gr d) index); reflexivity.
  - cbn [eval_data doc_eval_data]. destruct (is_node (gr d) index); reflexivity.
  - cbn [eval_data doc_eval_data]. destruct (is_node (gr d) index); reflexivity.
  - reflexivity.
  - cbn [eval_data doc_eval_data]. rewrite Hrv.
    destruct (kvs_value (vals d) index k); [|reflexivity]. now rewrite value_compare_doc.
  - cbn [eval_data doc_eval_data]. f_equal. apply forallb_ext_eq. intros x. apply mem_keys.
  - reflexivity.
  - rewrite eval_where_fold. cbn [doc_eval_data]. generalize (Continue true) as result.
    induction IH as [|[lg md data] r Hx _ IHr]; intros result; [reflexivity|].
    cbn [fold_left]. cbn [cond_payload] in Hx. rewrite step_result_doc, Hx. apply IHr.
Qed.

Theorem eval_matches_doc rv d index distance conds :
  fix_strict_order rv = true ->
  eval_conditions rv d index distance conds = doc_eval d index distance conds.
Proof. intros Hrv. exact (eval_data_doc rv d index distance Hrv (CWhere conds)). Qed.

(* a nested example exercising And/Or, Not, Beyond, NotBeyond and Distance *)
Lemma eval_matches_doc_example :
  let conds := [Cond LAnd MNone CNode;
                Cond LOr MNone (CWhere [Cond LAnd MNone CEdge; Cond LAnd MNot (CIds [QId (-2)])]);
                Cond LAnd MBeyond (CDistance (KLessThan 3));
                Cond LAnd MNotBeyond (CIds [QId 7])] in
  doc_eval db_new 7 2 conds = Stop true /\ doc_eval db_new (-2) 4 conds = Stop false /\
  doc_eval db_new (-3) 1 conds = Continue true.
Proof. cbv zeta. repeat split. Qed.

Definition follows (c : sc) : bool := match c with Continue _ => true | _ => false end.

Lemma search_loop_visited rv d a reverse origin conds h f index dist rest vis counter acc :
  visited vis index = true ->
  search_loop rv d a reverse origin conds h (S f) ((index, dist) :: rest) vis counter acc =
  search_loop rv d a reverse origin conds h f
    (if fix_visited_chain rv && (index <? 0) then expand rv (gr d) a reverse origin rest (index, dist) false
     else rest) vis counter acc.
Proof. intros Hv. cbn [search_loop]. now rewrite Hv. Qed.

(* an unvisited element is added iff the (handled) control is true, its neighbourhood is
   expanded with follow = true iff the control is Continue, without following iff Stop,
   and the search ends iff Finish *)
Lemma search_loop_step rv d a reverse origin conds h f index dist rest vis counter acc control counter' :
  visited vis index = false ->
  handle h counter (eval_conditions rv d index dist conds) = (control, counter') ->
  search_loop rv d a reverse origin conds h (S f) ((index, dist) :: rest) vis counter acc =
  let acc' := if sc_true control then index :: acc else acc in
  match kind_of control with
  | KFinish => Some (rev acc')
  | _ => search_loop rv d a reverse origin conds h f
           (expand rv (gr d) a reverse origin rest (index, dist) (follows control))
           (Z.abs index :: vis) counter' acc'
  end.
Proof. intros Hv Hh. cbn [search_loop]. rewrite Hv, Hh. destruct control; reflexivity. Qed.

(* without limit/offset: selection and pruning are decided by the documented evaluator *)
Theorem search_step_doc rv d a reverse origin conds f index dist rest vis counter acc :
  fix_strict_order rv = true ->
  visited vis index = false ->
  search_loop rv d a reverse origin conds HDefault (S f) ((index, dist) :: rest) vis counter acc =
  let c := doc_eval d index dist conds in
  search_loop rv d a reverse origin conds HDefault f
    (expand rv (gr d) a reverse origin rest (index, dist) (follows c))
    (Z.abs index :: vis) counter (if sc_true c then index :: acc else acc).
Proof.
  intros Hrv Hv.
  rewrite (search_loop_step rv d a reverse origin conds HDefault f index dist rest vis counter acc
             (eval_conditions rv d index dist conds) counter Hv eq_refl).
  pose proof (eval_conditions_not_finish rv d index dist conds) as NF.
  rewrite (eval_matches_doc rv d index dist conds Hrv) in *. cbv zeta.
  destruct (doc_eval d index dist conds) as [b|b|b]; [reflexivity|exfalso; exact (NF b eq_refl)|reflexivity].
Qed.

(* the elements search: an element is selected iff the documented evaluator says so *)
Lemma elements_loop_step_doc rv d conds index r distance counter acc :
  fix_strict_order rv = true ->
  elements_loop rv d conds HDefault (index :: r) distance counter acc =
  elements_loop rv d conds HDefault r (distance + 1) counter
    (if sc_true (doc_eval d index distance conds) then index :: acc else acc).
Proof.
  intros Hrv. cbn [elements_loop handle].
  pose proof (eval_conditions_not_finish rv d index distance conds) as NF.
  rewrite (eval_matches_doc rv d index distance conds Hrv) in *.
  destruct (doc_eval d index distance conds) as [b|b|b]; [reflexivity|exfalso; exact (NF b eq_refl)|reflexivity].
Qed.

(* path search ("Paths"): an element that passes costs 1 and is selected, one that fails costs 2,
   one beyond which the search is not to continue (Stop) costs 0 = its paths are dropped *)
Theorem path_cost_doc rv d conds index distance :
  fix_strict_order rv = true ->
  path_cost rv d conds index distance =
  match doc_eval d index distance conds with
  | Continue add => (if add then 1 else 2, add)
  | Stop add => (0, add)
  | Finish add => (0, add)
  end /\ kind_of (doc_eval d index distance conds) <> KFinish.
Proof.
  intros Hrv. unfold path_cost. pose proof (eval_conditions_not_finish rv d index distance conds) as NF.
  rewrite (eval_matches_doc rv d index distance conds Hrv) in *.
  split; [destruct (doc_eval d index distance conds); reflexivity|].
  destruct (doc_eval d index distance conds) as [b|b|b]; [discriminate|exact (fun _ => NF b eq_refl)|discriminate].
Qed.

(* the pinned evaluator did NOT meet the documented semantics: element 1 has age = 5_u64,
   the condition is age > 30_i64 *)
Definition strict_example_db : db :=
  {| gr := graph_new; aliases := imap_empty; vals := [[]; [(DString [x61; x67; x65], DU64 5)]];
     indexes := []; undo := [] |}.

Lemma eval_matches_doc_pinned_refuted :
  let conds := [Cond LAnd MNone (CKeyValue (DString [x61; x67; x65]) CGreaterThan (DI64 30))] in
  eval_conditions rv_pinned strict_example_db 1 0 conds = Continue true /\
  doc_eval strict_example_db 1 0 conds = Continue false /\
  eval_conditions rv_fixed strict_example_db 1 0 conds = Continue false.
Proof. cbv zeta. repeat split. Qed.
