(* C16 — Limit, offset and ordering slice and sort results without failing.
   The statements, each proved in a few lines from the theorems of theories/SliceProofs.v,
   SortProofs.v (and DbValueProofs.v, CondProofs.v); closed witnesses are evaluated here. *)
From Agdb Require Import Bytes DbValue DbValueProofs DbModel Search Revisions SortProofs SliceProofs.
From Coq Require Import Permutation Sorted ZifyBool ZifyNat.
Open Scope Z_scope.

(* `clip limit offset l` = the elements of l at positions offset .. offset+limit-1
   (limit 0 = unlimited), clipped to what exists: its length and its elements *)
Theorem C16_clip_spec :
  forall limit offset l, 0 <= limit -> 0 <= offset ->
    Z.of_nat (length (clip limit offset l)) =
      (let rest := Z.max 0 (Z.of_nat (length l) - offset) in if limit =? 0 then rest else Z.min limit rest) /\
    (forall i, (i < length (clip limit offset l))%nat ->
       nth i (clip limit offset l) 0 = nth (Z.to_nat offset + i) l 0).
Proof.
  intros limit offset l Hl Ho. unfold clip. cbv zeta. split.
  - destruct (Z.eqb_spec limit 0); [rewrite skipn_length; lia|]. rewrite firstn_length, skipn_length. lia.
  - intros i Hi. destruct (Z.eqb_spec limit 0); [apply BytesProofs.nth_skipn_add|].
    rewrite firstn_length in Hi. rewrite BytesProofs.nth_firstn_lt by lia. apply BytesProofs.nth_skipn_add.
Qed.
Print Assumptions C16_clip_spec.

(* the elements search with the streaming limit/offset handlers = the clipped result of
   the elements search without them (every revision, every condition list) *)
Theorem C16_elements_stream :
  forall rv d conds limit offset, 0 <= limit -> 0 <= offset ->
    elements_search rv d conds (handler_of limit offset) =
    clip limit offset (elements_search rv d conds HDefault).
Proof. exact elements_stream_clip. Qed.
Print Assumptions C16_elements_stream.

(* breadth-first / depth-first, forward / reverse: the simulation of the search loop from
   any work list, visited set and counter, and its instance for a whole search *)
Theorem C16_search_loop_stream :
  forall rv d conds a reverse origin h, h <> HDefault ->
  forall fuel work vis c c0 acc l,
    0 <= c -> at_lim (lim_of h) c = false ->
    search_loop rv d a reverse origin conds HDefault fuel work vis c0 [] = Some l ->
    search_loop rv d a reverse origin conds h fuel work vis c acc =
    Some (rev acc ++ window (off_of h) (lim_of h) c l).
Proof. exact search_loop_window. Qed.
Print Assumptions C16_search_loop_stream.

Theorem C16_graph_search_stream :
  forall rv d conds a reverse origin limit offset l, 0 <= limit -> 0 <= offset ->
    graph_search rv d a reverse origin conds HDefault = Some l ->
    graph_search rv d a reverse origin conds (handler_of limit offset) = Some (clip limit offset l).
Proof. exact graph_search_stream_clip. Qed.
Print Assumptions C16_graph_search_stream.

(* A second defect, repaired (fix: commit ea4fd27 in /repo):
   LimitOffsetHandler::new computed `limit + offset` unchecked in u64 — a debug build panicked
   and a release build wrapped whenever limit + offset >= 2^64 (offset 2, limit u64::MAX on five
   elements returned [] instead of [3; 4; 5]).  It now saturates.  The model adds in Z; the
   saturated and the exact sum give the same handler results while the number of selected
   elements stays below 2^64 - 2, so the streaming theorems transfer to the repaired code. *)
Theorem C16_limit_offset_no_wrap :
  forall limit offset counter control,
    0 <= counter -> counter + 1 < u64_max ->
    handle (HLimitOffset (Z.min (limit + offset) u64_max) offset) counter control =
    handle (HLimitOffset (limit + offset) offset) counter control.
Proof.
  intros limit offset counter control Hc Hm. unfold handle. destruct (sc_true control).
  - replace (counter + 1 =? Z.min (limit + offset) u64_max) with (counter + 1 =? limit + offset) by lia.
    reflexivity.
  - replace (counter =? Z.min (limit + offset) u64_max) with (counter =? limit + offset) by lia.
    reflexivity.
Qed.
Print Assumptions C16_limit_offset_no_wrap.

(* SearchQuery::slice after the repair: total, equal to clip — for every limit / offset *)
Theorem C16_slice :
  forall limit offset ids,
    slice_ids rv_fixed limit offset ids = SOk (clip limit offset ids) /\
    slice_ids rv_fixed limit offset ids <> SPanic.
Proof. intros. split; [apply slice_ids_clip|apply slice_ids_no_panic]; reflexivity. Qed.
Print Assumptions C16_slice.

(* the defect that was repaired: the pinned code indexed past the end and panicked, e.g. an
   ordered elements search with offset 1 on the empty database *)
Theorem C16_slice_pinned_refuted :
  slice_ids rv_pinned 0 3 [1; 2] = SPanic /\
  slice_ids rv_pinned 2 2 [1; 2; 3] = SPanic /\
  search rv_pinned db_new panic_query = SPanic /\
  slice_ids rv_fixed 0 3 [1; 2] = SOk [] /\
  slice_ids rv_fixed 2 2 [1; 2; 3] = SOk [3] /\
  search rv_fixed db_new panic_query = SOk [].
Proof. repeat split. Qed.
Print Assumptions C16_slice_pinned_refuted.

(* whole queries.  Every graph search (breadth-first, depth-first, forward, reverse,
   path, elements; ordered or not) with offset O and limit L returns exactly the elements at
   positions O .. O+L-1 of the same search without them (`unsliced s` = s with limit 0 and
   offset 0) ... *)
Theorem C16_search_clip :
  forall d s l,
    0 <= s_limit s -> 0 <= s_offset s -> s_algorithm s <> AIndex ->
    search rv_fixed d (unsliced s) = SOk l ->
    search rv_fixed d s = SOk (clip (s_limit s) (s_offset s) l).
Proof. intros d s l. apply search_clip. reflexivity. Qed.
Print Assumptions C16_search_clip.

(* ... with ordering (and for path searches) that is the slice of the stably sorted result of
   the plain search (`plain s` = s without limit, offset and order_by) ... *)
Theorem C16_search_sorted_clip :
  forall d s ids,
    0 <= s_limit s -> 0 <= s_offset s -> s_algorithm s <> AIndex ->
    search rv_fixed d (plain s) = SOk ids ->
    search rv_fixed d s = SOk (clip (s_limit s) (s_offset s) (stable_sort (order_cmp d (s_order_by s)) ids)).
Proof. intros d s ids. apply search_sorted_clip. reflexivity. Qed.
Print Assumptions C16_search_sorted_clip.

(* ... and no search query whatsoever panics, whatever the limit and offset *)
Theorem C16_search_no_panic :
  forall d s, search rv_fixed d s <> SPanic.
Proof. intros d s. apply search_no_panic. reflexivity. Qed.
Print Assumptions C16_search_no_panic.

Example C16_slice_examples :
  search rv_fixed ex_db (ex_q ABreadthFirst 1 0 0 0 [] []) = SOk [1; -4; 2; -5; 3] /\
  search rv_fixed ex_db (ex_q ABreadthFirst 1 0 2 1 [] []) = SOk [-4; 2] /\
  search rv_fixed ex_db (ex_q ADepthFirst 0 3 2 2 [] [Cond LAnd MNone CNode]) = SOk [1] /\
  search rv_fixed ex_db (ex_q ABreadthFirst 1 3 0 0 [] []) = SOk [1; -4; 2; -5; 3] /\
  search rv_fixed ex_db (ex_q ABreadthFirst 1 3 2 9 [] []) = SOk [] /\
  search rv_pinned ex_db (ex_q ABreadthFirst 1 3 2 9 [] []) = SPanic /\
  search rv_fixed ex_db (ex_q AElements 0 0 3 1 [] []) = SOk [2; 3; -4] /\
  search rv_fixed ex_db (ex_q AElements 0 0 3 9 [Asc (DI64 1)] []) = SOk [] /\
  search rv_pinned ex_db (ex_q AElements 0 0 3 9 [Asc (DI64 1)] []) = SPanic.
Proof. vm_compute. repeat split. Qed.
Print Assumptions C16_slice_examples.

(* SearchQuery::sort.  The comparator: by the listed keys in the given directions, the
   first key that does not compare Eq decides, an absent key is greater than any present
   one in both directions. *)
Theorem C16_order_cmp_spec :
  forall d,
    (forall l r, order_cmp d [] l r = Eq) /\
    (forall o rest l r,
       order_cmp d (o :: rest) l r = cmp_then (key_cmp d o l r) (order_cmp d rest l r)) /\
    (forall o l r,
       key_cmp d o l r =
       match kvs_value (vals d) l (order_key o), kvs_value (vals d) r (order_key o) with
       | None, None => Eq
       | None, Some _ => Gt
       | Some _, None => Lt
       | Some a, Some b => match o with Asc _ => dbv_cmp a b | Desc _ => dbv_cmp b a end
       end).
Proof.
  intros d. split; [reflexivity|]. split; [apply order_cmp_cons|].
  intros o l r. unfold key_cmp, opt_cmp.
  destruct (kvs_value (vals d) l (order_key o)) as [a|], (kvs_value (vals d) r (order_key o)) as [b|];
    try reflexivity.
  destruct o; cbn [dir_cmp]; [reflexivity|]. symmetry. apply dbv_cmp_antisym.
Qed.
Print Assumptions C16_order_cmp_spec.

(* it is a total preorder (no hypothesis left: the derived order of DbValue is proved total) *)
Theorem C16_order_cmp_total_preorder :
  forall d orders,
    (forall x, order_cmp d orders x x = Eq) /\
    (forall x y, order_cmp d orders x y = CompOpp (order_cmp d orders y x)) /\
    (forall x y, order_cmp d orders x y <> Gt \/ order_cmp d orders y x <> Gt) /\
    (forall x y z, order_cmp d orders x y <> Gt -> order_cmp d orders y z <> Gt -> order_cmp d orders x z <> Gt).
Proof.
  intros d orders. pose proof (order_cmp_ok d orders) as OK.
  split; [apply (cmp_refl _ OK)|]. split; [apply (cmp_antisym _ OK)|].
  split; [apply (cmp_le_total _ OK)|apply (cmp_le_trans _ OK)].
Qed.
Print Assumptions C16_order_cmp_total_preorder.

(* the sort: a permutation of the input, sorted (adjacent and arbitrary pairs), stable (for
   every x the elements comparing Eq to x appear in their original relative order) *)
Theorem C16_sort_spec :
  forall d orders l,
    let cmp := order_cmp d orders in
    let r := stable_sort cmp l in
    Permutation l r /\
    StronglySorted (fun x y => cmp x y <> Gt) r /\
    (forall l1 x y l3, r = l1 ++ x :: y :: l3 -> cmp x y <> Gt) /\
    (forall l1 x l2 y l3, r = l1 ++ x :: l2 ++ y :: l3 -> cmp x y <> Gt) /\
    (forall x, filter (fun y => is_eq (cmp x y)) r = filter (fun y => is_eq (cmp x y)) l).
Proof.
  intros d orders l. cbv zeta. pose proof (order_cmp_ok d orders) as OK.
  split; [apply stable_sort_perm|]. split; [exact (stable_sort_sorted _ OK l)|].
  split; [intros l1 x y l3; apply (stable_sort_adjacent _ OK)|].
  split; [intros l1 x l2 y l3; apply (stable_sort_ordered _ OK)|].
  intros x. apply (stable_sort_stable _ OK).
Qed.
Print Assumptions C16_sort_spec.

(* elements lacking the first key come after those having it — for Asc and Desc alike *)
Theorem C16_absent_last :
  forall d o rest l l1 x l2 y l3,
    stable_sort (order_cmp d (o :: rest)) l = l1 ++ x :: l2 ++ y :: l3 ->
    kvs_value (vals d) x (order_key o) = None ->
    kvs_value (vals d) y (order_key o) = None.
Proof.
  intros d o rest l l1 x l2 y l3 E Hx.
  pose proof (stable_sort_ordered _ (order_cmp_ok d (o :: rest)) l l1 x l2 y l3 E) as H.
  rewrite order_cmp_cons in H. unfold key_cmp in H. rewrite Hx in H.
  destruct (kvs_value (vals d) y (order_key o)); [exfalso; apply H; reflexivity|reflexivity].
Qed.
Print Assumptions C16_absent_last.

Example C16_sort_example :
  stable_sort (order_cmp sort_example_db [Desc (DString [x6b]); Asc (DString [x6e])]) [1; 2; 3; 4; 5; 6]
  = [3; 6; 2; 5; 1; 4] /\
  stable_sort (order_cmp sort_example_db [Asc (DString [x6b]); Asc (DString [x6e])]) [5; 4; 3; 2; 1; 6]
  = [1; 6; 5; 2; 3; 4].
Proof. split; reflexivity. Qed.
Print Assumptions C16_sort_example.
