(* UndoGraphOps.v — C13: insert_edge and remove_edge of Graph.v are the abstract operations
   on the abstract graph (refinement), composed from the phase lemmas. *)
From Agdb Require Import Bytes BytesProofs DbValue Graph DbModel UndoBase UndoObs UndoKv UndoGraphBase UndoGraph
  UndoGraphEdge.
From Coq Require Import Permutation ZifyBool ZifyNat ZifyN.
Ltac Zify.zify_post_hook ::= Z.div_mod_to_equations.
Open Scope Z_scope.

Lemma cap_update_from_edge g n e : capacity (update_from_edge g n e) = capacity g.
Proof. unfold update_from_edge. rewrite cap_set_fmeta, cap_set_from, cap_set_fmeta. reflexivity. Qed.
Lemma cap_update_to_edge g n e : capacity (update_to_edge g n e) = capacity g.
Proof. unfold update_to_edge. rewrite cap_set_tmeta, cap_set_to, cap_set_tmeta. reflexivity. Qed.

Lemma a_alloc_spec a :
  let '(e, a1) := a_alloc a in
  ak a1 = upd (ak a) e KNode /\ aout a1 = upd (aout a) e [] /\ ain a1 = upd (ain a) e [] /\
  acount a1 = acount a /\
  (e = match afree a with [] => acap a | s :: _ => s end) /\
  afree a1 = tl (afree a) /\ acap a1 = match afree a with [] => acap a + 1 | _ => acap a end.
Proof. unfold a_alloc. destruct (afree a); cbn; repeat split; reflexivity. Qed.

Lemma rep_alloc_fresh g a Xo Xi : rep_x g a Xo Xi -> 0 < fst (a_alloc a) /\ ak a (fst (a_alloc a)) = KFree.
Proof.
  intros R. unfold a_alloc. destruct (afree a) as [|s fl] eqn:E; cbn [fst].
  - pose proof (r_cap _ _ _ _ R). rewrite (r_acap _ _ _ _ R). split; [lia|].
    eapply rep_out_of_range; [exact R | lia].
  - assert (Hin : In s (afree a)) by (rewrite E; left; reflexivity).
    pose proof (rep_free_range _ _ _ _ R s Hin). split; [lia|]. eapply rep_free_kind; eassumption.
Qed.

Definition a_insert_edge (a : ag) (f t : Z) : Z * ag :=
  let '(e, a1) := a_alloc a in
  let a2 := a_make_edge a1 e f t in
  let a3 := a_set_out a2 f (e :: aout a2 f) in
  (e, a_set_in a3 t (e :: ain a3 t)).

Lemma rep_insert_edge g a f t i g' :
  rep g a -> 0 < f -> 0 < t -> ak a f = KNode -> ak a t = KNode ->
  insert_edge g f t = Some (i, g') -> capacity g' <= two63z ->
  i = - fst (a_insert_edge a f t) /\ rep g' (snd (a_insert_edge a f t)).
Proof.
  unfold rep. intros R Hf Ht Kf Kt Hins Hb. unfold insert_edge in Hins.
  destruct (is_node g f && is_node g t); [|discriminate].
  destruct (get_free_index g) as [slot g1] eqn:Eg. injection Hins as <- <-.
  rewrite cap_update_to_edge, cap_update_from_edge, cap_set_to, cap_set_from in Hb.
  destruct (rep_alloc _ _ _ _ _ _ R Eg Hb) as (Eslot & R1).
  destruct (rep_alloc_fresh _ _ _ _ R) as (Hepos & Hefree).
  unfold a_insert_edge. pose proof (a_alloc_spec a) as Hsp.
  destruct (a_alloc a) as [e a1]. cbn [fst snd] in *. subst slot.
  destruct Hsp as (Ek & Eo & Ei & _).
  assert (Hfe : f <> e) by (intros ->; congruence).
  assert (Hte : t <> e) by (intros ->; congruence).
  split; [reflexivity|].
  rewrite set_from_opp, set_to_opp.
  assert (R2 : rep_x (set_to (set_from g1 e (- f)) e (- t)) (a_make_edge a1 e f t) (eq e) (eq e)).
  { apply rep_make_edge; auto.
    - rewrite Ek. apply upd_same.
    - rewrite Eo. apply upd_same.
    - rewrite Ei. apply upd_same.
    - rewrite Ek, upd_other by assumption. assumption.
    - rewrite Ek, upd_other by assumption. assumption. }
  set (a2 := a_make_edge a1 e f t) in *.
  assert (K2 : ak a2 e = KEdge f t) by (unfold a2; cbn [a_make_edge ak]; apply upd_same).
  pose proof (rep_link_out _ _ _ _ e f t R2 Hepos K2 eq_refl) as R3.
  set (a3 := a_set_out a2 f (e :: aout a2 f)) in *.
  assert (K3 : ak a3 e = KEdge f t) by exact K2.
  pose proof (rep_link_in _ _ _ _ e f t R3 Hepos K3 eq_refl) as R4.
  eapply rep_x_ext; [| |exact R4]; intros x; unfold xnone; cbn beta; intuition congruence.
Qed.

Lemma insert_edge_some g a f t :
  rep g a -> 0 < f -> 0 < t -> ak a f = KNode -> ak a t = KNode -> exists i g', insert_edge g f t = Some (i, g').
Proof.
  unfold rep. intros R Hf Ht Kf Kt. unfold insert_edge.
  rewrite (r_kind _ _ _ _ R) in Kf, Kt by assumption.
  rewrite (proj2 (is_node_kind g f Hf) Kf), (proj2 (is_node_kind g t Ht) Kt). cbn [andb].
  destruct (get_free_index g). eauto.
Qed.

Definition a_remove_edge (a : ag) (e : Z) : ag :=
  match ak a e with
  | KEdge f t =>
    let a1 := a_set_out a f (lrem e (aout a f)) in
    let a2 := a_set_in a1 t (lrem e (ain a1 t)) in
    a_release a2 e
  | _ => a
  end.

Lemma rep_remove_edge g a e f t :
  rep g a -> 0 < e -> ak a e = KEdge f t ->
  exists g', remove_edge g (- e) = Some g' /\ rep g' (a_remove_edge a e) /\ capacity g' = capacity g.
Proof.
  unfold rep. intros R He Hk. unfold remove_edge, a_remove_edge. rewrite Hk.
  assert (Hie : is_edge g (- e) = true).
  { rewrite is_edge_opp. apply is_edge_kind; [assumption|]. rewrite <- (r_kind _ _ _ _ R) by assumption. eauto. }
  rewrite Hie.
  destruct (rep_unlink_out g a xnone xnone e f t R He Hk (fun x => x)) as (g1 & E1 & R1 & C1). rewrite E1.
  set (a1 := a_set_out a f (lrem e (aout a f))) in *.
  assert (K1 : ak a1 e = KEdge f t) by exact Hk.
  destruct (rep_unlink_in g1 a1 _ xnone e f t R1 He K1 (fun x => x)) as (g2 & E2 & R2 & C2). rewrite E2.
  set (a2 := a_set_in a1 t (lrem e (ain a1 t))) in *.
  assert (K2 : ak a2 e = KEdge f t) by exact Hk.
  rewrite Z.opp_involutive. eexists. split; [reflexivity|].
  destruct (rep_edge_arrays _ _ _ _ R2 e f t He K2) as (Her & Hefm & _).
  split.
  - eapply rep_x_ext; [| |apply (rep_release g2 a2 _ _ e R2); try lia].
    + intros x. unfold xnone. cbn beta. tauto.
    + intros x. unfold xnone. cbn beta. tauto.
    + intros n Hn Hkn. split; intros Hin.
      * apply (r_out_mem _ _ _ _ R2) in Hin; [|assumption|assumption]. destruct Hin as (_ & _ & Hc). apply Hc. right. reflexivity.
      * apply (r_in_mem _ _ _ _ R2) in Hin; [|assumption|assumption]. destruct Hin as (_ & _ & Hc). apply Hc. right. reflexivity.
    + intros x f' t' Hx Hne Hkx. destruct (r_edge _ _ _ _ R2 x f' t' Hx Hkx) as (_ & _ & Kf' & Kt').
      split; intros ->; congruence.
  - rewrite cap_free_index. lia.
Qed.

Lemma remove_edge_not_edge g i : is_edge g i = false -> remove_edge g i = Some g.
Proof. unfold remove_edge. intros ->. reflexivity. Qed.
