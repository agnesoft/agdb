(* C10 — Aliases form a one-to-one mapping onto existing nodes.
   The statements, each proved in a few lines from the theorems of theories/ImapProofs.v, AliasProofs.v,
   AliasQueryProofs.v, AliasRollbackProofs.v, EmptyAliasProofs.v (and the history-level files); the closed
   witnesses are evaluated here.

   Vocabulary (theories/DbModel.v): the alias map is `imap` = the two association lists k2v / v2k of
   IndexedMapImpl<String, DbId>; `imap_value m a` resolves alias a, `imap_key m id` gives the alias of id.
     bij m          : the two directions are inverse to each other and list no key twice
     imap_equiv m m': m and m' answer every lookup (both directions) alike
     alias_bij d    : bij (aliases d)
     alias_nodes d  : every aliased id is positive and `is_node (gr d) id = true`. *)
From Agdb Require Import Bytes BytesProofs DbValue Graph DbModel Search Queries Revisions
  ImapProofs AliasProofs QStepProofs AliasQueryProofs AliasRollbackProofs
  DbInvProofs QueryInvProofs SearchLiveProofs HistoryInvProofs EmptyAliasProofs.
Open Scope Z_scope.

(* ---- the map is a bijection at all times (IndexedMap level: every sequence of insert / remove_key) ---- *)
Theorem C10_bijection :
  bij imap_empty /\
  (forall m a id, bij m -> bij (imap_insert m a id)) /\
  (forall m a, bij m -> bij (imap_remove_key m a)).
Proof. exact (conj bij_empty (conj bij_imap_insert bij_imap_remove_key)). Qed.
Print Assumptions C10_bijection.

(* each alias names at most one id (a function) and each id carries at most one alias *)
Theorem C10_one_to_one :
  forall m a b id, bij m -> imap_value m a = Some id -> imap_value m b = Some id -> a = b.
Proof. exact bij_injective. Qed.
Print Assumptions C10_one_to_one.

(* inserting alias a for id: a |-> id, the previous alias of id and the previous holder of a are
   unmapped, everything else is unchanged *)
Theorem C10_insert_semantics :
  forall m a id, bij m ->
  let m' := imap_insert m a id in
  imap_value m' a = Some id /\ imap_key m' id = Some a /\
  (forall x, x <> a ->
     imap_value m' x = match imap_key m id with
                       | Some k => if bytes_eqb k x then None else imap_value m x
                       | None => imap_value m x
                       end) /\
  (forall y, y <> id ->
     imap_key m' y = match imap_value m a with
                     | Some v => if v =? y then None else imap_key m y
                     | None => imap_key m y
                     end).
Proof.
  intros m a id Hb. cbv zeta. repeat split.
  - rewrite (imap_insert_value m a id a Hb). now rewrite bytes_eqb_refl.
  - rewrite imap_insert_key. now rewrite Z.eqb_refl.
  - intros x Hx. rewrite (imap_insert_value m a id x Hb).
    rewrite (bytes_eqb_neq a x); [reflexivity|congruence].
  - intros y Hy. rewrite imap_insert_key.
    rewrite (proj2 (Z.eqb_neq id y)); [reflexivity|congruence].
Qed.
Print Assumptions C10_insert_semantics.

Theorem C10_remove_semantics :
  forall m a,
  let m' := imap_remove_key m a in
  imap_value m' a = None /\
  (forall x, x <> a -> imap_value m' x = imap_value m x) /\
  (forall y, imap_key m' y = match imap_value m a with
                             | Some v => if v =? y then None else imap_key m y
                             | None => imap_key m y
                             end).
Proof.
  intros m a. cbv zeta. repeat split.
  - rewrite imap_remove_key_value. now rewrite bytes_eqb_refl.
  - intros x Hx. rewrite imap_remove_key_value.
    rewrite (bytes_eqb_neq a x); [reflexivity|congruence].
  - intros y. apply imap_remove_key_key.
Qed.
Print Assumptions C10_remove_semantics.

(* ---- DbImpl level (every revision) ---- *)

(* DbImpl::insert_alias (remove the node's old alias twice, then IndexedMap::insert) is, on lookups,
   exactly IndexedMap::insert; both invariants are kept when the id is an existing node *)
Theorem C10_db_insert_alias :
  forall rv d id a, alias_bij d ->
  alias_bij (insert_alias rv d id a) /\
  imap_equiv (aliases (insert_alias rv d id a)) (imap_insert (aliases d) a id) /\
  (alias_nodes d -> 0 < id -> is_node (gr d) id = true -> alias_nodes (insert_alias rv d id a)).
Proof.
  intros rv d id a Hb.
  exact (conj (insert_alias_bij rv d id a Hb) (conj (insert_alias_equiv rv d id a Hb) (insert_alias_nodes rv d id a Hb))).
Qed.
Print Assumptions C10_db_insert_alias.

Theorem C10_db_insert_new_alias :
  forall d id a, alias_bij d ->
  alias_bij (insert_new_alias d id a) /\
  aliases (insert_new_alias d id a) = imap_insert (aliases d) a id /\
  (alias_nodes d -> 0 < id -> is_node (gr d) id = true -> alias_nodes (insert_new_alias d id a)).
Proof.
  intros d id a Hb.
  exact (conj (insert_new_alias_bij d id a Hb) (conj eq_refl (insert_new_alias_nodes d id a Hb))).
Qed.
Print Assumptions C10_db_insert_new_alias.

(* removing an alias: reported iff it existed; afterwards unresolvable, all others as before *)
Theorem C10_db_remove_alias :
  forall d a,
  fst (remove_alias d a) = (match imap_value (aliases d) a with Some _ => true | None => false end) /\
  (forall x, imap_value (aliases (snd (remove_alias d a))) x =
             if bytes_eqb a x then None else imap_value (aliases d) x) /\
  (alias_bij d -> alias_bij (snd (remove_alias d a))) /\
  (alias_nodes d -> alias_nodes (snd (remove_alias d a))).
Proof.
  intros d a. split; [unfold remove_alias; now destruct (imap_value (aliases d) a)|].
  exact (conj (remove_alias_value d a) (conj (remove_alias_bij d a) (remove_alias_nodes d a))).
Qed.
Print Assumptions C10_db_remove_alias.

(* removing a node by id (whatever the outcome of the graph part): no alias resolves to it any more,
   aliases of other ids are untouched, the map stays one-to-one *)
Theorem C10_db_remove_node :
  forall d id, alias_bij d -> graph_index (gr d) id = true -> 0 < id ->
  alias_bij (fst (remove_id d id)) /\
  (forall x, imap_value (aliases (fst (remove_id d id))) x <> Some id) /\
  (forall x y, y <> id -> imap_value (aliases d) x = Some y ->
               imap_value (aliases (fst (remove_id d id))) x = Some y).
Proof.
  intros d id Hb Hg Hp. split; [now apply remove_id_bij|].
  rewrite remove_id_aliases, Hg, (proj2 (Z.ltb_lt 0 id) Hp). cbn [andb].
  split; [intros x; now apply drop_alias_of_id_gone|].
  intros x y Hy Hx. rewrite drop_alias_value.
  destruct (imap_key (aliases d) id) as [a|] eqn:Ea; [|exact Hx].
  destruct (bytes_eqb_spec a x) as [->|Hax]; [|exact Hx].
  apply (bij_value_key _ x id Hb) in Ea. congruence.
Qed.
Print Assumptions C10_db_remove_node.

(* ---- query layer ---- *)

(* resolving an alias and selecting a node's alias agree with the mapping *)
Theorem C10_resolve_select_agree :
  forall rv d a id, alias_bij d ->
  (db_id d (QAlias a) = ROk id <->
   select_aliases rv d (Ids [QId id]) = QOk 1 [elem d id [alias_kv a]]).
Proof.
  intros rv d a id Hb. rewrite db_id_alias, select_alias_of_id, (bij_value_key _ a id Hb).
  destruct (imap_key (aliases d) id) as [a'|]; split; intros H; try discriminate.
  - now inversion H.
  - f_equal. apply alias_kv_inj. now inversion H.
Qed.
Print Assumptions C10_resolve_select_agree.

(* an empty alias anywhere in an InsertAliases query: the query fails (every revision) ... *)
Theorem C10_empty_alias_rejected :
  forall rv d ids (als : list bytes), In ([] : bytes) als ->
  exists e, snd (exec rv d (InsertAliases ids als)) = QErr e.
Proof.
  intros rv d ids als Hin. apply exec_insert_aliases_err. now apply insert_aliases_empty_rejected.
Qed.
Print Assumptions C10_empty_alias_rejected.

(* ... and when it is the first one the database is literally unchanged *)
Theorem C10_empty_alias_first_no_effect :
  forall rv d q l (als : list bytes), undo d = [] -> length l = length als ->
  exec rv d (InsertAliases (Ids (q :: l)) ([] :: als)) = (d, QErr ENotAllowed).
Proof.
  intros rv d q l als Hu Hlen. apply exec_rejected; [reflexivity|exact Hu|]. cbn [exec_mut_step].
  rewrite insert_aliases_unfold. cbn [length]. now rewrite Hlen, Nat.eqb_refl.
Qed.
Print Assumptions C10_empty_alias_first_no_effect.

(* ... and in general, on the repaired code (alias-steal undo record): a REJECTED InsertAliases query
   (empty alias, edge id, unknown id, ... at any position) returns an error and has no effect:
   db_equiv d2 d = same graph, values, indexes and (empty) undo stack, and an alias map that answers
   every lookup, in both directions, as before *)
Theorem C10_rejected_insert_aliases_no_effect :
  forall d ids (als : list bytes),
  alias_bij d -> undo d = [] -> step_is_ok (insert_aliases rv_fixed d ids als) = false ->
  exists d2 e, exec rv_fixed d (InsertAliases ids als) = (d2, QErr e) /\ db_equiv d2 d.
Proof. exact (insert_aliases_rejected_no_effect rv_fixed eq_refl). Qed.
Print Assumptions C10_rejected_insert_aliases_no_effect.

Theorem C10_empty_alias_no_effect :
  forall d ids (als : list bytes),
  alias_bij d -> undo d = [] -> In ([] : bytes) als ->
  exists d2 e, exec rv_fixed d (InsertAliases ids als) = (d2, QErr e) /\ db_equiv d2 d.
Proof.
  intros d ids als Hb Hu Hin. apply (insert_aliases_rejected_no_effect rv_fixed eq_refl d ids als Hb Hu).
  now apply insert_aliases_empty_rejected.
Qed.
Print Assumptions C10_empty_alias_no_effect.

(* the pinned code (before fix ca1154f: no undo record for the previous holder of a stolen alias):
   the same rejected query loses the alias of node 1 *)
Theorem C10_steal_pinned_refuted :
  let dp := exec_all rv_pinned db_new c10_steal_history in
  let df := exec_all rv_fixed db_new c10_steal_history in
  imap_value (aliases dp) [x78] = Some 1 /\
  snd (exec rv_pinned dp c10_steal_query) = QErr ENotAllowed /\
  imap_value (aliases (fst (exec rv_pinned dp c10_steal_query))) [x78] = None /\
  exec rv_fixed df c10_steal_query = (df, QErr ENotAllowed).
Proof. cbv zeta. split; [|split; [|split]]; vm_compute; reflexivity. Qed.
Print Assumptions C10_steal_pinned_refuted.

(* after the fix: an edge id anywhere in an InsertAliases query makes the query fail *)
Theorem C10_edge_alias_rejected :
  forall d l (als : list bytes) id, In (QId id) l -> id < 0 ->
  exists e, snd (exec rv_fixed d (InsertAliases (Ids l) als)) = QErr e.
Proof.
  intros d l als id Hin Hneg. apply exec_insert_aliases_err, insert_aliases_not_ok. intros El.
  destruct (in_combine_fst l als (QId id) El Hin) as [al Hq]. exists (QId id, al). split; [exact Hq|].
  intros a n. cbn [ia_step]. destruct al as [|b al]; [reflexivity|].
  cbn [db_id]. destruct (graph_index (gr a) id); [|reflexivity].
  now rewrite (proj2 (Z.ltb_lt id 0) Hneg).
Qed.
Print Assumptions C10_edge_alias_rejected.

(* the pinned code (before fix 01b295e): after two nodes and an edge, `insert aliases "e" ids(-3)`
   succeeds — the alias names an edge, so "every aliased id is an existing node" is violated *)
Theorem C10_pinned_refuted :
  let d := exec_all rv_pinned db_new c10_history in
  imap_value (aliases d) [x65] = Some (-3) /\ is_edge (gr d) (-3) = true /\ graph_index (gr d) 3 = false /\
  ~ alias_nodes d.
Proof.
  cbv zeta. split; [vm_compute; reflexivity|]. split; [vm_compute; reflexivity|].
  split; [vm_compute; reflexivity|].
  intros H. specialize (H [x65] (-3)).
  assert (E : imap_value (aliases (exec_all rv_pinned db_new c10_history)) [x65] = Some (-3)) by (vm_compute; reflexivity).
  apply H in E. destruct E as [E _]. discriminate.
Qed.
Print Assumptions C10_pinned_refuted.

(* the same history on the repaired code: the third query is rejected and changes nothing *)
Example C10_fixed_witness :
  let d2 := exec_all rv_fixed db_new (firstn 2 c10_history) in
  exec rv_fixed d2 (InsertAliases (Ids [QId (-3)]) [[x65]]) = (d2, QErr ENotAllowed).
Proof. vm_compute. reflexivity. Qed.
Print Assumptions C10_fixed_witness.

(* all histories: every mutating query, whatever its outcome, maps an Inv state to an Inv state (C10_step: the
   partial state left by a failing query included); hence the alias map is one-to-one and every aliased id is an
   existing node at every state inside a running transaction and after every history from db_new in which no
   query fails.
   Inv d (theories/DbInvProofs.v) = graph well-formed (C08's wf) /\ alias_bij d /\ alias_nodes d /\
   no element with two equal keys /\ idx_inv d;  query_ok q = the insert lists of q have distinct keys
   (C09's quantifier; irrelevant for aliases but part of the joint invariant);
   all_succeed rv d qs = no query of qs fails;  traversal_live rv = breadth/depth-first and path searches
   return only existing elements.
   The three theorems below assume `traversal_live rv_fixed`.  That hypothesis is FALSE
   (C10_traversal_live_refuted, Props/C10.v: its path-search clause does not ask the origin to exist), so
   they hold vacuously; C10_step_inv, C10_transaction and C10_history state the same conclusions without it. *)
Theorem C10_step :
  traversal_live rv_fixed ->
  forall d q, query_ok q -> Inv d -> Inv (step_db (exec_mut_step rv_fixed d q)).
Proof.
  intros Ht d q. exact (exec_mut_step_Inv rv_fixed (search_live_of_traversal rv_fixed Ht) eq_refl d q).
Qed.
Print Assumptions C10_step.

Theorem C10_transaction_partial :
  traversal_live rv_fixed ->
  forall d qs acc, Forall query_ok qs -> Inv d ->
  let d1 := fst (fst (txn_run rv_fixed d qs acc)) in alias_bij d1 /\ alias_nodes d1.
Proof.
  intros Ht d qs acc Hq Hd. apply Inv_aliases. exact (transaction_state_Inv rv_fixed Ht eq_refl d qs acc Hq Hd).
Qed.
Print Assumptions C10_transaction_partial.

Theorem C10_history_partial :
  traversal_live rv_fixed ->
  forall qs, Forall query_ok qs -> all_succeed rv_fixed db_new qs ->
  alias_bij (exec_all rv_fixed db_new qs) /\ alias_nodes (exec_all rv_fixed db_new qs).
Proof.
  intros Ht qs Hq Hs. apply Inv_aliases.
  exact (history_from_new_sl rv_fixed (search_live_of_traversal rv_fixed Ht) eq_refl qs Hq Hs).
Qed.
Print Assumptions C10_history_partial.

Example C10_history_nonvacuous :
  Forall query_ok (firstn 2 c10_history) /\ all_succeed rv_fixed db_new (firstn 2 c10_history).
Proof.
  split.
  - repeat constructor; cbn; repeat split; reflexivity.
  - cbn [all_succeed c10_history firstn]. repeat split; vm_compute; reflexivity.
Qed.
Print Assumptions C10_history_nonvacuous.

(* the same without hypothesis on traversals.  theories/TraversalLiveProofs.v proves, from the C14 / C17 / C18
   developments under the graph invariant wf:
     traversal_live_on rv_fixed = breadth/depth-first searches (any conditions, any limit/offset) and
     path searches (any conditions) started from EXISTING origins / destinations return only existing
     elements; hence search_live rv_fixed (every id returned by ANY search exists in an Inv state).
   `traversal_live rv_fixed` itself is false (C10_traversal_live_refuted): its path-search clause does not ask
   the origin to exist, and the raw path_search started at the negated id of a node returns that negated id;
   DbImpl resolves every origin through db_id, so the relativised statement is the one that matters.
   Scope: histories without failing queries; C13_history_atomic (Props/C13.v) covers the others. *)
From Agdb Require Import TraversalLiveProofs DbInvariantProofs.

Theorem C10_traversal_live :
  traversal_live_on rv_fixed /\ search_live rv_fixed.
Proof. exact (conj traversal_live_holds search_live_fixed). Qed.
Print Assumptions C10_traversal_live.

Theorem C10_traversal_live_refuted : ~ traversal_live rv_fixed.
Proof. exact traversal_live_refuted. Qed.
Print Assumptions C10_traversal_live_refuted.

Theorem C10_step_inv :
  forall d q, query_ok q -> Inv d -> Inv (step_db (exec_mut_step rv_fixed d q)).
Proof. exact (exec_mut_step_Inv rv_fixed search_live_fixed eq_refl). Qed.
Print Assumptions C10_step_inv.

Theorem C10_transaction :
  forall d qs acc, Forall query_ok qs -> Inv d ->
  let d1 := fst (fst (txn_run rv_fixed d qs acc)) in alias_bij d1 /\ alias_nodes d1.
Proof. intros d qs acc Hq Hd. apply Inv_aliases. now apply transaction_state_Inv_fixed. Qed.
Print Assumptions C10_transaction.

Theorem C10_history :
  forall qs, Forall query_ok qs -> all_succeed rv_fixed db_new qs ->
  alias_bij (exec_all rv_fixed db_new qs) /\ alias_nodes (exec_all rv_fixed db_new qs).
Proof. intros qs Hq Hs. apply Inv_aliases. now apply history_Inv_fixed. Qed.
Print Assumptions C10_history.
(* empty aliases through the other alias-inserting queries (fix: b8b5b10 = fix_empty_alias).  InsertAliases
   checks in every revision; InsertNodes (aliases of new nodes, insert-or-update of existing nodes by ids) and
   InsertValues (insert-or-update through an alias that does not resolve) check only with the flag on; with it
   off they create a node named "" (C10_empty_alias_*_refuted below). *)
Theorem C10_empty_alias_insert_nodes_no_effect :
  forall rv, fix_empty_alias rv = true ->
  forall d count values (als : list bytes) ids, undo d = [] -> In ([] : bytes) als ->
  exec rv d (InsertNodes count values als ids) = (d, QErr ENotAllowed).
Proof.
  intros rv Hfix d count values als ids Hu Hin. apply exec_rejected; [reflexivity|exact Hu|].
  now apply insert_nodes_empty_alias.
Qed.
Print Assumptions C10_empty_alias_insert_nodes_no_effect.

Theorem C10_empty_alias_insert_values_no_effect :
  forall rv, fix_empty_alias rv = true ->
  forall d kvs e, undo d = [] -> db_id d (QAlias []) = RErr e ->
  exec rv d (InsertValues (Ids [QAlias []]) (Single kvs)) = (d, QErr ENotAllowed).
Proof.
  intros rv Hfix d kvs e Hu He. apply exec_rejected; [reflexivity|exact Hu|].
  cbn [exec_mut_step insert_values st_fold]. now rewrite (insert_values_q_empty_alias rv Hfix d (0, []) kvs e He).
Qed.
Print Assumptions C10_empty_alias_insert_values_no_effect.

(* inside a longer id list / a running transaction: the step itself fails before touching the database *)
Theorem C10_empty_alias_insert_values_step :
  forall rv, fix_empty_alias rv = true ->
  forall d acc kvs e, db_id d (QAlias []) = RErr e -> insert_values_q rv d acc (QAlias []) kvs = StErr d ENotAllowed.
Proof. exact insert_values_q_empty_alias. Qed.
Print Assumptions C10_empty_alias_insert_values_step.

(* the pinned code, and the code with every other repair, accepted them *)
Theorem C10_empty_alias_nodes_pinned_refuted :
  let d := fst (exec rv_pinned db_new q_nodes_empty) in
  snd (exec rv_pinned db_new q_nodes_empty) <> QErr ENotAllowed /\ db_id d (QAlias []) = ROk 1.
Proof. vm_compute. split; [discriminate|reflexivity]. Qed.
Print Assumptions C10_empty_alias_nodes_pinned_refuted.

Theorem C10_empty_alias_values_pinned_refuted :
  let d := fst (exec rv_pinned db_new q_values_empty) in
  snd (exec rv_pinned db_new q_values_empty) <> QErr ENotAllowed /\ db_id d (QAlias []) = ROk 1.
Proof. vm_compute. split; [discriminate|reflexivity]. Qed.
Print Assumptions C10_empty_alias_values_pinned_refuted.

Theorem C10_empty_alias_before_fix_refuted :
  db_id (fst (exec rv_no_empty_fix db_new q_nodes_empty)) (QAlias []) = ROk 1 /\
  db_id (fst (exec rv_no_empty_fix db_new q_values_empty)) (QAlias []) = ROk 1.
Proof. vm_compute. split; reflexivity. Qed.
Print Assumptions C10_empty_alias_before_fix_refuted.

Example C10_empty_alias_fixed_example :
  exec rv_fixed db_new q_nodes_empty = (db_new, QErr ENotAllowed) /\
  exec rv_fixed db_new q_values_empty = (db_new, QErr ENotAllowed).
Proof. exact empty_alias_fixed_example. Qed.
Print Assumptions C10_empty_alias_fixed_example.

(* ---- no alias in the map is ever empty (theories/EmptyAliasProofs.v) ----
   nea d = the empty alias does not resolve.  C10_no_empty_alias_step: every query of every kind executed
   inside a transaction, whatever its outcome, keeps nea — for every revision with fix_empty_alias on and
   from ANY state (no invariant needed): InsertAliases, InsertNodes and InsertValues are the only queries
   that add aliases and all three reject the empty one; removals only remove.
   C10_history_no_empty_alias: after every history of queries and transactions from the empty database,
   failing ones included (a rollback restores the alias map of the state before: C13_history_atomic; same
   two hypotheses item_ok / bounded), the empty alias does not resolve and no element is named "". *)
From Agdb Require Import HistoryAtomicProofs.

Theorem C10_no_empty_alias_step :
  forall rv, fix_empty_alias rv = true ->
  forall d q, imap_value (aliases d) [] = None -> imap_value (aliases (fst (exec_in_txn rv d q))) [] = None.
Proof. exact exec_in_txn_nea. Qed.
Print Assumptions C10_no_empty_alias_step.

Theorem C10_history_no_empty_alias :
  forall its, Forall item_ok its -> bounded rv_fixed db_new its ->
  let d := run_items rv_fixed db_new its in
  imap_value (aliases d) [] = None /\ forall id, imap_key (aliases d) id <> Some [].
Proof.
  intros its Hok Hb. cbv zeta. pose proof (history_nea_fixed its db_new Hok HInv_new nea_new Hb) as Hn.
  split; [exact Hn|]. intros id Hk.
  pose proof (history_HInv_fixed its Hok Hb) as ((_ & Hbij & _) & _).
  unfold imap_key in Hk. apply (proj1 Hbij [] id) in Hk. unfold nea, imap_value in Hn. congruence.
Qed.
Print Assumptions C10_history_no_empty_alias.
