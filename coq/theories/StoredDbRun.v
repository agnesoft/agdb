(* StoredDbRun.v — the loader only READS, so its run on a record
   store (`cp_run sd_step`, the executable `load_db`) is ONE of the runs the abstract record map accepts: every
   `cwp` statement about a read-only program holds of that run, and the store is left as it was. *)
From Agdb Require Import Bytes BytesProofs Records Storage StorageSpec StorageRefine StorageProofs Collections CollValues
  CollWp StoredDb.
Open Scope N_scope.

Fixpoint sd_reads {A} (p : cprog A) : Prop :=
  match p with
  | CDo o k => sd_is_read o = true /\ forall v, sd_reads (k v)
  | _ => True
  end.

Lemma sd_reads_bind {A B} (p : cprog A) (f : A -> cprog B) :
  sd_reads p -> (forall a, sd_reads (f a)) -> sd_reads (cbind p f).
Proof.
  induction p as [a|e| |o k IH]; intros Hp Hf; cbn [cbind sd_reads] in *; auto.
  destruct Hp as [Ho Hk]. split; [exact Ho|]. intros v. apply IH; auto.
Qed.

Lemma sd_reads_try {A} (p : cprog A) : sd_reads p -> sd_reads (cp_try p).
Proof.
  induction p as [a|e| |o k IH]; intros Hp; cbn [cp_try sd_reads] in *; auto.
  destruct Hp as [Ho Hk]. split; [exact Ho|]. intros v. apply IH; auto.
Qed.

Lemma sd_reads_if {A} (b : bool) (p q : cprog A) : sd_reads p -> sd_reads q -> sd_reads (if b then p else q).
Proof. destruct b; auto. Qed.

Lemma sd_reads_value i : sd_reads (cp_value i).
Proof. cbn. split; [reflexivity|]. intros [| | |e| |]; exact I. Qed.
Lemma sd_reads_value_at_size i off n : sd_reads (cp_value_at_size i off n).
Proof. cbn. split; [reflexivity|]. intros [| | |e| |]; exact I. Qed.
Lemma sd_reads_value_size i : sd_reads (cp_value_size i).
Proof. cbn. split; [reflexivity|]. intros [| | |e| |]; exact I. Qed.
Lemma sd_reads_de64 bs : sd_reads (cp_de64 bs).
Proof. unfold cp_de64. destruct (lenN bs <? 8); exact I. Qed.
Lemma sd_reads_outcome {A} (o : outcome A) : sd_reads (cp_of_outcome o).
Proof. destruct o; exact I. Qed.

(* `sd_reads` is closed under bind, try and conditionals, and holds of the three read calls and of every program that
   does not call the store (there it computes to True).  The database `sd_reads` holds these closure lemmas and decides a
   `match` by cases; the depth given to `auto` below is the nesting depth of the binds of the program at hand. *)
Create HintDb sd_reads discriminated.
#[export] Hint Resolve sd_reads_bind sd_reads_try sd_reads_if sd_reads_value sd_reads_value_at_size sd_reads_value_size
  sd_reads_de64 sd_reads_outcome : sd_reads.
#[export] Hint Extern 1 (sd_reads (CRet _)) => exact I : sd_reads.
#[export] Hint Extern 1 (sd_reads (CErr _)) => exact I : sd_reads.
#[export] Hint Extern 1 (sd_reads CDead) => exact I : sd_reads.
#[export] Hint Extern 2 (sd_reads (match ?x with _ => _ end)) => destruct x : sd_reads.

Definition sd_elem_reads {T} (E : cv_elem T) : Prop := forall bs, sd_reads (ce_load E bs).

Lemma sd_reads_u64 : sd_elem_reads ce_u64.
Proof. intros bs. apply sd_reads_de64. Qed.
Lemma sd_reads_i64 : sd_elem_reads ce_i64.
Proof. intros bs. cbn [ce_load ce_i64]. auto with sd_reads. Qed.
Lemma sd_reads_state : sd_elem_reads ce_state.
Proof. intros bs. cbn [ce_load ce_state]. auto with sd_reads. Qed.
Lemma sd_reads_raw n : sd_elem_reads (ce_raw n).
Proof. intros bs. cbn [ce_load ce_raw]. auto with sd_reads. Qed.
Lemma sd_reads_string : sd_elem_reads ce_string.
Proof. intros bs. cbn [ce_load ce_string]. unfold cv_str_de. auto 8 with sd_reads. Qed.
Lemma sd_reads_dbvalue : sd_elem_reads ce_dbvalue.
Proof. intros bs. cbn [ce_load ce_dbvalue]. auto with sd_reads. Qed.
Lemma sd_reads_pair {A B} (EA : cv_elem A) (EB : cv_elem B) :
  sd_elem_reads EA -> sd_elem_reads EB -> sd_elem_reads (ce_pair EA EB).
Proof. intros HA HB bs. cbn [ce_load ce_pair]. auto with sd_reads. Qed.
Lemma sd_reads_dbkv : sd_elem_reads ce_dbkv.
Proof. apply sd_reads_pair; apply sd_reads_dbvalue. Qed.
#[export] Hint Resolve sd_reads_u64 sd_reads_i64 sd_reads_state sd_reads_raw sd_reads_string sd_reads_dbvalue sd_reads_pair
  sd_reads_dbkv : sd_reads.
#[export] Hint Extern 1 (sd_reads (ce_load _ _)) => match goal with H : sd_elem_reads _ |- _ => apply H end : sd_reads.

Lemma sd_reads_from_storage T (E : cv_elem T) i : sd_reads (cv_from_storage T E i).
Proof. unfold cv_from_storage. auto 8 with sd_reads. Qed.

Lemma sd_reads_values T (E : cv_elem T) h : sd_elem_reads E -> sd_reads (cv_values T E h).
Proof.
  intros HE. unfold cv_values. generalize (S (N.to_nat (cv_len h))) 0.
  induction n as [|f IH]; intros i; cbn [cv_iter]; [exact I|].
  unfold cv_value, cv_validate, cv_read_slot. auto 8 with sd_reads.
Qed.
#[export] Hint Resolve sd_reads_from_storage sd_reads_values : sd_reads.

Lemma sd_reads_vec_load T (E : cv_elem T) i : sd_elem_reads E -> sd_reads (sd_vec_load T E i).
Proof. intros HE. unfold sd_vec_load. auto with sd_reads. Qed.

Lemma sd_reads_cm_from_storage K V (EK : cv_elem K) (EV : cv_elem V) i : sd_reads (cm_from_storage K V EK EV i).
Proof. unfold cm_from_storage. auto 8 with sd_reads. Qed.

Lemma sd_reads_cg_from_storage i : sd_reads (cg_from_storage i).
Proof. unfold cg_from_storage. auto 12 with sd_reads. Qed.
#[export] Hint Resolve sd_reads_vec_load sd_reads_cm_from_storage sd_reads_cg_from_storage : sd_reads.

Lemma sd_reads_map_load K V (EK : cv_elem K) (EV : cv_elem V) i :
  sd_elem_reads EK -> sd_elem_reads EV -> sd_reads (sd_map_load K V EK EV i).
Proof. intros HK HV. unfold sd_map_load. auto 8 with sd_reads. Qed.
#[export] Hint Resolve sd_reads_map_load : sd_reads.

Lemma sd_reads_kvs_load idxs : sd_reads (sd_kvs_load idxs).
Proof. induction idxs as [|i r IH]; cbn [sd_kvs_load]; auto 8 with sd_reads. Qed.

Lemma sd_reads_index_list_load es : sd_reads (sd_index_list_load es).
Proof. induction es as [|e r IH]; cbn [sd_index_list_load]; unfold sd_index_load; auto 8 with sd_reads. Qed.

Lemma sd_reads_load root : sd_reads (sd_load root).
Proof.
  pose proof sd_reads_kvs_load. pose proof sd_reads_index_list_load.
  unfold sd_load, sd_root_load, cr_de, sd_graph_load, sd_indexes_load, sd_values_load. auto 16 with sd_reads.
Qed.

(* the run on a record store is a run the abstract record map accepts *)
Lemma sd_step_fst m o : fst (sd_step m o) = m.
Proof. destruct o; reflexivity. Qed.

Lemma sd_step_answer m o : sd_is_read o = true ->
  obs_ok o (snd (sd_step m o)) /\ snd (sd_step m o) <> ObPanic /\ snd (sd_step m o) <> ObFault.
Proof.
  intros Hr. destruct o; try discriminate Hr; cbn [sd_step snd obs_ok]; destruct (m_get m index);
    try destruct (_ || _); repeat split; discriminate.
Qed.

Lemma guard_some b s s' : guard b s = Some s' <-> b = true /\ s' = s.
Proof. destruct b; cbn [guard]; split; try discriminate; [intros [= <-]; auto|intros [_ ->]; reflexivity|intros [[=] _]]. Qed.
Lemma is_bytes_eq v b : is_bytes v b = true <-> v = ObBytes b.
Proof. destruct v; cbn [is_bytes]; try (split; discriminate). rewrite bytes_eqb_eq. split; congruence. Qed.
Lemma is_num_eq v n : is_num v n = true <-> v = ObNum n.
Proof. destruct v; cbn [is_num]; try (split; discriminate). rewrite N.eqb_eq. split; congruence. Qed.
Lemma obs_eqb_err_eq v e : obs_eqb_err v e = true <-> v = ObErr e.
Proof. destruct v as [| | |e'| |]; try (destruct e; split; discriminate). destruct e', e; split; (reflexivity || discriminate). Qed.

(* on a read call the abstract record map accepts exactly the answer the record map determines, and stays as it is *)
Lemma sd_step_spec fl sp o v sp' : sd_is_read o = true ->
  spec_step fl sp o v = Some sp' <-> v = snd (sd_step (sm sp) o) /\ sp' = sp.
Proof.
  intros Hr. destruct o; try discriminate Hr; cbn [sd_step spec_step snd]; destruct (m_get (sm sp) index) as [x|];
    try destruct (_ || _); rewrite guard_some, ?is_bytes_eq, ?is_num_eq, ?obs_eqb_err_eq; reflexivity.
Qed.

Theorem sd_run_sound fl {A} (p : cprog A) : forall sp (Q : cres A -> spec -> Prop),
  sd_reads p -> cwp fl p sp Q ->
  fst (cp_run sd_step p (sm sp)) = sm sp /\ Q (snd (cp_run sd_step p (sm sp))) sp.
Proof.
  induction p as [a|e| |o k IH]; intros sp Q Hr H; cbn [cp_run cwp sd_reads fst snd] in *; auto.
  - destruct H.
  - destruct Hr as [Ho Hk]. destruct (sd_step_answer (sm sp) o Ho) as (Hok & NP & NF).
    pose proof (proj2 (sd_step_spec fl sp o _ sp Ho) (conj eq_refl eq_refl)) as Hs.
    pose proof (sd_step_fst (sm sp) o) as Ef. destruct (sd_step (sm sp) o) as [m' v]. cbn [fst snd] in *. subst m'.
    destruct v; try congruence; apply IH; auto.
Qed.

(* a read-only program on the model of storage.rs (C04) returns what it returns on the abstract map, or the storage panics *)
Section Model.
  Variable ops : store_ops cdata.
  Variable fl : bool.
  Hypothesis K : kind ops fl.

  Theorem sd_run_model {A} (p : cprog A) : forall s sp, sd_reads p -> Rel s sp ->
    snd (cp_run (st_step cdata ops) p s) = CrDead \/
    (snd (cp_run (st_step cdata ops) p s) = snd (cp_run sd_step p (sm sp)) /\ Rel (fst (cp_run (st_step cdata ops) p s)) sp).
  Proof.
    induction p as [a|e| |o k IH]; intros s sp Hr RL; cbn [cp_run sd_reads fst snd] in *; auto.
    destruct Hr as [Ho Hk].
    pose proof (step_refines ops fl K s sp o RL) as SR.
    destruct (st_step cdata ops s o) as [s' v] eqn:Es. cbn [fst snd] in SR.
    destruct SR as [->|(sp' & Hs & RL')]; [left; reflexivity|].
    apply (sd_step_spec fl sp o v sp' Ho) in Hs as [Ev ->].
    destruct (sd_step_answer (sm sp) o Ho) as (_ & NP & NF).
    pose proof (sd_step_fst (sm sp) o) as Ef. destruct (sd_step (sm sp) o) as [m' v']. cbn [fst snd] in *. subst m' v'.
    destruct v; try congruence; apply IH; auto.
  Qed.
End Model.
