(* StorageOptimize.v — optimize_storage moves
   every live record down in file order, truncates, and forgets the free space: the
   file then consists of the live records only and every value is unchanged. *)
From Agdb Require Import Bytes BytesProofs Records RecordsProofs RecordsTableProofs Storage StorageSpec
  StorageLayout StorageWp StorageOps StorageOps2.
From Coq Require Import ZifyBool ZifyNat ZifyN Permutation.
Open Scope N_scope.

Section Sorted.
  Variable key : srec -> N.

  Fixpoint ssorted (l : list srec) : Prop :=
    match l with [] => True | x :: t => (forall y, In y t -> key x < key y) /\ ssorted t end.

  Lemma ssorted_NoDup l : ssorted l -> NoDup l.
  Proof.
    induction l as [|x t IH]; intros H; [constructor|]. destruct H as [Hx Ht].
    constructor; [|apply IH; exact Ht]. intros Hin. specialize (Hx x Hin). lia.
  Qed.

  Lemma ssorted_unique l1 : forall l2, ssorted l1 -> ssorted l2 -> (forall x, In x l1 <-> In x l2) -> l1 = l2.
  Proof.
    induction l1 as [|x t IH]; intros [|y u] S1 S2 E.
    - reflexivity.
    - exfalso. apply (proj2 (E y)). left; reflexivity.
    - exfalso. apply (proj1 (E x)). left; reflexivity.
    - destruct S1 as [Hx St], S2 as [Hy Su].
      assert (x = y).
      { destruct (proj1 (E x) (or_introl eq_refl)) as [->|Hxu]; [reflexivity|].
        destruct (proj2 (E y) (or_introl eq_refl)) as [->|Hyt]; [reflexivity|].
        specialize (Hx y Hyt). specialize (Hy x Hxu). lia. }
      subst y. f_equal. apply IH; [exact St|exact Su|].
      intros z. split; intros Hz.
      + destruct (proj1 (E z) (or_intror Hz)) as [->|H]; [|exact H]. specialize (Hx z Hz). lia.
      + destruct (proj2 (E z) (or_intror Hz)) as [->|H]; [|exact H]. specialize (Hy z Hz). lia.
  Qed.
End Sorted.

Lemma ins_In r l x : In x (ins_by_pos r l) <-> x = r \/ In x l.
Proof.
  induction l as [|y t IH]; cbn [ins_by_pos In]; [intuition|].
  destruct (r_pos r <? r_pos y); cbn [In]; [intuition|]. rewrite IH. intuition.
Qed.

Lemma ins_ssorted r l : ssorted r_pos l -> (forall y, In y l -> r_pos y <> r_pos r) -> ssorted r_pos (ins_by_pos r l).
Proof.
  induction l as [|x t IH]; intros S D; cbn [ins_by_pos].
  - cbn. split; [intros y []|exact I].
  - destruct S as [Hx St]. destruct (N.ltb_spec (r_pos r) (r_pos x)).
    + cbn [ssorted]. split; [|split; assumption].
      intros y [<-|Hy]; [assumption|]. specialize (Hx y Hy). lia.
    + cbn [ssorted]. assert (r_pos x <> r_pos r) by (apply D; left; reflexivity). split.
      * intros y Hy. apply ins_In in Hy. destruct Hy as [->|Hy]; [lia|apply Hx; exact Hy].
      * apply IH; [exact St|]. intros y Hy. apply D. right; exact Hy.
Qed.

Lemma sort_In l x : In x (sort_by_pos l) <-> In x l.
Proof.
  unfold sort_by_pos. induction l as [|y t IH]; cbn [fold_right In]; [tauto|]. rewrite ins_In, IH. intuition.
Qed.

Lemma sort_ssorted l : NoDup (map r_pos l) -> ssorted r_pos (sort_by_pos l).
Proof.
  unfold sort_by_pos. induction l as [|x t IH]; intros ND; cbn [fold_right]; [exact I|].
  inversion ND as [|? ? Hnot ND']; subst. apply ins_ssorted; [apply IH; exact ND'|].
  intros y Hy E. apply Hnot. apply (proj1 (sort_In t y)) in Hy. rewrite <- E. apply in_map. exact Hy.
Qed.

Lemma sort_perm_sorted l S : Permutation l S -> ssorted r_pos S -> sort_by_pos l = S.
Proof.
  intros P SS. apply (ssorted_unique r_pos); [|exact SS|].
  - apply sort_ssorted. apply (Permutation_NoDup (l := map r_pos S)); [apply Permutation_map, Permutation_sym, P|].
    clear P. induction S as [|x t IH]; [constructor|]. destruct SS as [Hx St]. cbn [map]. constructor; [|apply IH; exact St].
    intros Hin. apply in_map_iff in Hin. destruct Hin as (y & Ey & Hy). specialize (Hx y Hy). lia.
  - intros x. rewrite sort_In. split; [apply Permutation_in; exact P|apply Permutation_in, Permutation_sym; exact P].
Qed.

(* the records of the live regions of rg, the first region at pos *)
Fixpoint lives (pos : N) (rg : list region) : list srec :=
  match rg with
  | [] => []
  | (i, v) :: t =>
    let rest := lives (pos + 16 + lenN v) t in
    if i =? 0 then rest else {| r_index := i; r_pos := pos; r_size := lenN v |} :: rest
  end.

Lemma lives_In pos rg r : In r (lives pos rg) <-> r_index r <> 0 /\ In (r_pos r, r_index r, r_size r) (layout pos rg).
Proof.
  revert pos; induction rg as [|[i v] t IH]; intros pos; cbn [lives layout In]; [tauto|].
  destruct (N.eqb_spec i 0) as [->|Hi]; cbn [In]; rewrite IH.
  - split; [intros [H1 H2]; auto|]. intros [H1 [H2|H2]]; [|auto]. congruence.
  - split.
    + intros [<-|[H1 H2]]; cbn [r_index r_pos r_size]; auto.
    + intros [H1 [H2|H2]]; [left|right; auto]. destruct r; cbn in *. congruence.
Qed.

Lemma lives_sorted pos rg : ssorted r_pos (lives pos rg) /\ forall r, In r (lives pos rg) -> pos <= r_pos r.
Proof.
  revert pos; induction rg as [|[i v] t IH]; intros pos; cbn [lives]; [split; [exact I|intros r []]|].
  destruct (IH (pos + 16 + lenN v)) as [S B].
  destruct (N.eqb_spec i 0).
  - split; [exact S|]. intros r Hr. specialize (B r Hr). lia.
  - split.
    + cbn [ssorted]. split; [|exact S]. intros y Hy. specialize (B y Hy). cbn [r_pos]. lia.
    + intros r [<-|Hr]; [cbn [r_pos]; lia|]. specialize (B r Hr). lia.
Qed.

Lemma lives_app pos a b : lives pos (a ++ b) = lives pos a ++ lives (pos + slen a) b.
Proof.
  revert pos; induction a as [|[i v] a IH]; intros pos; cbn [lives app].
  - rewrite slen_nil. f_equal. lia.
  - rewrite IH, slen_cons. cbn [snd]. replace (pos + 16 + lenN v + slen a) with (pos + (16 + lenN v + slen a)) by lia.
    destruct (i =? 0); reflexivity.
Qed.

Lemma lives_free pos F : all_free F -> lives pos F = [].
Proof.
  revert pos; induction F as [|[i v] F IH]; intros pos HF; cbn [lives]; [reflexivity|].
  rewrite (HF i v (or_introl eq_refl)), N.eqb_refl. apply IH. intros k w H. apply (HF k w). right; exact H.
Qed.

(* the first live region *)
Lemma lives_head pos rg r l : lives pos rg = r :: l ->
  exists F v Rest, rg = F ++ (r_index r, v) :: Rest /\ all_free F /\ r_index r <> 0 /\
    r_pos r = pos + slen F /\ r_size r = lenN v /\ l = lives (pos + slen F + 16 + lenN v) Rest.
Proof.
  revert pos; induction rg as [|[i v] t IH]; intros pos; cbn [lives]; [discriminate|].
  destruct (N.eqb_spec i 0) as [->|Hi].
  - intros H. destruct (IH _ H) as (F & w & Rest & -> & HF & Hr & Hp & Hs & Hl).
    exists ((0, v) :: F), w, Rest. split; [reflexivity|]. split.
    { intros k x [[= <- _]|Hk]; [reflexivity|exact (HF k x Hk)]. }
    split; [exact Hr|]. rewrite slen_cons. cbn [snd]. split; [lia|]. split; [exact Hs|].
    rewrite Hl. f_equal. lia.
  - intros [= <- <-]. exists [], v, t. cbn [r_index r_pos r_size app]. rewrite slen_nil.
    split; [reflexivity|]. split; [apply all_free_nil|]. split; [exact Hi|]. split; [lia|]. split; [reflexivity|].
    f_equal. lia.
Qed.

(* the records kept by filter_valid are in increasing slot order *)
Lemma filter_valid_spec rs : twf (recs rs) -> forall l k0,
  (forall j r, nth_error l j = Some r -> nth_error (recs rs) (k0 + j) = Some r) ->
  exists F, filter_valid rs l = Some F /\ ssorted r_index F /\
    (forall x, In x F -> N.of_nat k0 <= r_index x) /\
    (forall x, In x F <-> exists j, nth_error l j = Some x /\ r_index x = N.of_nat (k0 + j) /\ r_index x <> 0).
Proof.
  intros TW. induction l as [|r t IH]; intros k0 Hsub; cbn [filter_valid].
  - exists []. split; [reflexivity|]. split; [exact I|]. split; [intros x []|].
    intros x. split; [intros []|]. intros (j & Hj & _). destruct j; discriminate.
  - destruct (IH (S k0)) as (F & EF & SF & BF & InF).
    { intros j r' Hj. replace (S k0 + j)%nat with (k0 + S j)%nat by lia. apply Hsub. exact Hj. }
    rewrite EF.
    assert (Hr : nth_error (recs rs) k0 = Some r) by (rewrite <- (Nat.add_0_r k0); apply Hsub; reflexivity).
    (* is_valid agrees with being live at slot k0 *)
    pose proof (record_spec rs (N.of_nat k0) TW) as RS. unfold record, rget in RS.
    rewrite Nat2N.id, Hr in RS.
    assert (HL : live_at (recs rs) (N.of_nat k0) =
                 if negb (N.of_nat k0 =? 0) && (r_index r =? N.of_nat k0) then Some (r_pos r, r_size r) else None).
    { unfold live_at. rewrite Nat2N.id, Hr. reflexivity. }
    rewrite HL in RS.
    destruct (is_valid rs r) as [[|]|] eqn:EV.
    + (* kept *)
      destruct (negb (N.of_nat k0 =? 0) && (r_index r =? N.of_nat k0)) eqn:Elive; [|discriminate].
      apply andb_prop in Elive. destruct Elive as [E1 E2].
      assert (Hk0 : N.of_nat k0 <> 0) by (destruct (N.eqb_spec (N.of_nat k0) 0); [discriminate|assumption]).
      assert (Hidx : r_index r = N.of_nat k0) by (destruct (N.eqb_spec (r_index r) (N.of_nat k0)); [assumption|discriminate]).
      exists (r :: F). split; [reflexivity|]. split.
      { cbn [ssorted]. split; [|exact SF]. intros y Hy. specialize (BF y Hy). lia. }
      split. { intros x [<-|Hx]; [lia|]. specialize (BF x Hx). lia. }
      intros x. cbn [In]. rewrite InF. split.
      * intros [<-|(j & Hj & Ej & Nj)].
        -- exists 0%nat. cbn [nth_error]. rewrite Nat.add_0_r. split; [reflexivity|]. split; [exact Hidx|congruence].
        -- exists (S j). cbn [nth_error]. split; [exact Hj|]. split; [rewrite Ej; f_equal; lia|exact Nj].
      * intros ([|j] & Hj & Ej & Nj); cbn [nth_error] in Hj.
        -- left. congruence.
        -- right. exists j. split; [exact Hj|]. split; [rewrite Ej; f_equal; lia|exact Nj].
    + (* dropped *)
      destruct (negb (N.of_nat k0 =? 0) && (r_index r =? N.of_nat k0)) eqn:Elive; [discriminate|].
      exists F. split; [reflexivity|]. split; [exact SF|]. split.
      { intros x Hx. specialize (BF x Hx). lia. }
      intros x. rewrite InF. split.
      * intros (j & Hj & Ej & Nj). exists (S j). cbn [nth_error]. split; [exact Hj|]. split; [rewrite Ej; f_equal; lia|exact Nj].
      * intros ([|j] & Hj & Ej & Nj); cbn [nth_error] in Hj.
        -- exfalso. injection Hj as <-. rewrite Nat.add_0_r in Ej. rewrite Ej in Elive.
           rewrite N.eqb_refl, andb_true_r in Elive. destruct (N.eqb_spec (N.of_nat k0) 0); [congruence|discriminate].
        -- exists j. split; [exact Hj|]. split; [rewrite Ej; f_equal; lia|exact Nj].
    + discriminate.
Qed.

Lemma valid_records_spec s rg : tiles s rg -> valid_records (rtab s) = Some (lives 24 rg).
Proof.
  intros T. destruct (tiles_elim _ _ T) as (_ & _ & [TL _] & [TW _] & _).
  destruct (filter_valid_spec (rtab s) TW (recs (rtab s)) 0 ltac:(intros j r H; exact H)) as (F & EF & SF & _ & InF).
  unfold valid_records. rewrite EF. f_equal.
  destruct (lives_sorted 24 rg) as [SL _].
  apply sort_perm_sorted; [|exact SL].
  apply NoDup_Permutation; [exact (ssorted_NoDup _ _ SF)|exact (ssorted_NoDup _ _ SL)|].
  intros x. rewrite InF, lives_In. split.
  - intros (j & Hj & Ej & Nj). split; [exact Nj|]. apply TL; [exact Nj|].
    apply live_at_some. split; [exact Nj|]. rewrite Ej, Nat2N.id. cbn [Nat.add]. rewrite Hj. f_equal.
    destruct x; cbn in *. congruence.
  - intros [Nj H]. apply TL in H; [|exact Nj]. apply live_at_some in H. destruct H as [_ H].
    exists (N.to_nat (r_index x)). cbn [Nat.add]. split; [rewrite H; f_equal; destruct x; reflexivity|]. split; [lia|exact Nj].
Qed.

Definition all_live (D : list region) : Prop := forall i v, In (i, v) D -> i <> 0.

Lemma lmap_live D : all_live D -> lmap D = D.
Proof.
  induction D as [|[i v] D IH]; intros HL; [reflexivity|].
  rewrite lmap_cons_live by (apply (HL i v); left; reflexivity). f_equal. apply IH.
  intros k w H. apply (HL k w). right; exact H.
Qed.

Lemma lives_nil_free pos R : lives pos R = [] -> all_free R.
Proof.
  revert pos; induction R as [|[i v] R IH]; intros pos; cbn [lives]; [intros _; apply all_free_nil|].
  destruct (N.eqb_spec i 0) as [->|]; [|discriminate]. intros H k w [[= <- _]|Hk]; [reflexivity|].
  exact (IH _ H k w Hk).
Qed.

(* D: the records already moved down, g: bytes that belong to nothing, R: the regions not yet
   looked at, still where they were *)
Definition oinv (s0 s : ST) (D : list region) (g : bytes) (R : list region) : Prop :=
  cur (sdata s) = vrec ++ ser D ++ g ++ ser R /\
  lenN (cur (sdata s)) = lenN (cur (sdata s0)) /\
  (forall q i n, i <> 0 ->
     (In (q, i, n) (layout 24 D ++ layout (24 + slen D + lenN g) R) <-> live_at (recs (rtab s)) i = Some (q, n))) /\
  twf (recs (rtab s)) /\ all_live D /\
  tx s = tx s0 /\ dur (sdata s) = dur (sdata s0) /\ version s = version s0.

Section Optimize.
  Variable ops : store_ops cdata.
  Hypothesis CN : canon ops.

  Lemma shrink_all_spec s0 l : forall s D g R (Q : ST -> N -> Prop) E,
    oinv s0 s D g R -> l = lives (24 + slen D + lenN g) R ->
    (forall s' D' g' R', oinv s0 s' D' g' R' -> all_free R' -> lmap D' = lmap D ++ lmap R -> Q s' (24 + slen D')) ->
    wp (shrink_all cdata ops l (24 + slen D)) s Q E.
  Proof.
    induction l as [|r l IH]; intros s D g R Q E OI El HQ; cbn [shrink_all].
    - apply wp_ret. apply (HQ s D g R OI).
      + apply (lives_nil_free (24 + slen D + lenN g)). symmetry; exact El.
      + rewrite (lmap_free R), app_nil_r; [reflexivity|]. apply (lives_nil_free (24 + slen D + lenN g)). symmetry; exact El.
    - symmetry in El. destruct (lives_head _ _ _ _ El) as (F & v & R' & -> & HF & Hi & Hpos & Hsz & Hl').
      destruct r as [i pos n]. cbn [r_index r_pos r_size] in *. subst n.
      destruct OI as (Hcur & Hlen & LR & TW & HD & Htx & Hdur & Hver).
      set (cp := 24 + slen D) in *.
      assert (HLi : live_at (recs (rtab s)) i = Some (pos, lenN v)).
      { apply LR; [exact Hi|]. inl. right. right. left. f_equal. f_equal. lia. }
      assert (HLEN : lenN (cur (sdata s)) = cp + lenN g + slen F + 16 + lenN v + slen R').
      { rewrite Hcur, ser_app. cbn [ser]. rewrite !lenN_app, lenN_enc, lenN_vrec. cbn [snd]. unfold cp, slen. lia. }
      apply wp_bind. unfold shrink_index. cbn [r_index r_pos r_size]. apply wp_bind.
      destruct (N.eqb_spec pos cp) as [Epos|Npos]; cbn [negb].
      + (* already in place *)
        assert (g = []) by (apply lenN_0_nil; lia). assert (F = []) by (apply slen_0; lia). subst g F.
        apply wp_ret. apply wp_ret.
        replace (cp + 16 + lenN v) with (24 + slen (D ++ [(i, v)]))
          by (rewrite slen_snoc; unfold cp; lia).
        apply (IH s (D ++ [(i, v)]) [] R').
        * unfold oinv. cbn [app] in *. rewrite lenN_nil in *.
          split; [rewrite Hcur, ser_app; cbn [ser app]; rewrite <- !app_assoc; reflexivity|].
          split; [exact Hlen|]. split.
          { intros q k m Hk. rewrite <- (LR q k m Hk). inl. rewrite ?lenN_nil. unfold cp.
            replace (24 + slen (D ++ [(i, v)]) + 0) with (24 + slen D + 0 + 16 + lenN v)
              by (rewrite slen_snoc; lia).
            replace (24 + slen D + 0) with (24 + slen D) by lia. tauto. }
          split; [exact TW|]. split; [|auto].
          intros k w H. apply in_app_or in H. destruct H as [H|[[= <- _]|[]]]; [exact (HD k w H)|exact Hi].
        * rewrite Hl'. f_equal. rewrite slen_app, slen_cons, slen_nil, lenN_nil. cbn [snd]. rewrite slen_nil in Hpos. lia.
        * intros s' D' g' R'' OI' HF' Hlm. apply (HQ s' D' g' R'' OI' HF').
          rewrite Hlm, lmap_app, (lmap_cons_live i v [] Hi). cbn [app]. rewrite (lmap_cons_live i v R' Hi), <- app_assoc. reflexivity.
      + (* moved down *)
        assert (Hcur2 : cur (sdata s) = (vrec ++ ser D ++ g ++ ser F ++ le64 i ++ le64 (lenN v)) ++ v ++ ser R').
        { rewrite Hcur, ser_app. cbn [ser]. unfold enc. cbn [fst snd]. rewrite <- !app_assoc. reflexivity. }
        apply wp_bind. unfold read_value, value_start. cbn [r_pos r_size].
        apply (wp_dread ops CN); [lia|].
        rewrite Hcur2, bs_read_mid;
          [|rewrite !app_length, !le64_length; change (length vrec) with 24%nat; unfold cp, slen, lenN in *; lia|unfold lenN; lia].
        apply wp_bind, wp_do_set_pos.
        apply wp_bind. unfold write_record. cbn [r_index r_pos r_size].
        apply (wp_dwrite ops CN); [st; lia|]. intros _. st.
        apply (wp_dwrite ops CN).
        { st. unfold lenN. rewrite bs_write_length, app_length, !le64_length. unfold lenN in HLEN. lia. }
        intros _. st. apply wp_ret.
        set (G := g ++ ser F ++ enc (i, v)).
        assert (HG : lenN G = lenN g + slen F + 16 + lenN v).
        { unfold G. rewrite !lenN_app, lenN_enc. cbn [snd]. unfold slen. lia. }
        assert (HcurG : cur (sdata s) = (vrec ++ ser D) ++ G ++ ser R').
        { rewrite Hcur, ser_app. cbn [ser]. unfold G. rewrite <- !app_assoc. reflexivity. }
        assert (Hplace : bs_write (bs_write (cur (sdata s)) (N.to_nat cp) (le64 i ++ le64 (lenN v))) (N.to_nat (cp + 16)) v
                         = (vrec ++ ser D) ++ (le64 i ++ le64 (lenN v)) ++ v ++ skipn (16 + length v) G ++ ser R').
        { rewrite HcurG. apply place_in.
          - rewrite app_length. change (length vrec) with 24%nat. unfold cp, slen, lenN. lia.
          - rewrite app_length, !le64_length. reflexivity.
          - unfold lenN in HG. lia.
          - lia. }
        rewrite Hplace. clear Hplace.
        set (g' := skipn (16 + length v) G).
        assert (Hg' : lenN g' = lenN g + slen F).
        { unfold g', lenN. rewrite skipn_length. unfold lenN in HG. lia. }
        destruct (set_pos_spec (rtab s) i cp TW) as (Hl1 & TWa & _ & _ & _).
        replace (cp + 16 + lenN v) with (24 + slen (D ++ [(i, v)]))
          by (rewrite slen_snoc; unfold cp; lia).
        set (s2 := set_cur (set_cur (set_rtab cdata s _) _) _).
        apply (IH s2 (D ++ [(i, v)]) g' R').
        * unfold oinv, s2. st.
          split. { rewrite ser_app. cbn [ser]. unfold enc. cbn [fst snd]. rewrite <- !app_assoc. reflexivity. }
          split.
          { rewrite <- Hlen, HLEN, <- !app_assoc, !lenN_app, !lenN_le64, lenN_vrec, Hg'. unfold cp, slen. lia. }
          split.
          { (* i moves from pos down to cp; F holds no live region *)
            apply (lrel_live (recs (rtab s)) _ i _ (Some (cp, lenN v))
                     (layout 24 D ++ layout (24 + slen D + (16 + lenN v + lenN g')) R') _ _ LR HLi).
            - intros k. rewrite Hl1, HLi. reflexivity.
            - intros q k m Hk. inl. fold cp. cbn [at_idx].
              replace (cp + lenN g + slen F) with pos by lia.
              replace (cp + (16 + lenN v + lenN g')) with (pos + 16 + lenN v) by lia.
              assert (ZF : ~ In (q, k, m) (layout (cp + lenN g) F)).
              { intros H. apply layout_In in H. destruct H as (w & H & _). apply HF in H. congruence. }
              intuition congruence.
            - intros x. cbn [at_idx]. intros -> Hin. apply layout_hole in Hin. unfold cp in *. lia.
            - intros q k m _. apply layout_snoc_hole. reflexivity. }
          split; [exact TWa|]. split; [|auto].
          intros k w H. apply in_app_or in H. destruct H as [H|[[= <- _]|[]]]; [exact (HD k w H)|exact Hi].
        * rewrite Hl'. f_equal. rewrite slen_app, slen_cons, slen_nil, Hg'. cbn [snd]. unfold cp in *. lia.
        * intros s' D' g'' R'' OI' HF' Hlm. apply (HQ s' D' g'' R'' OI' HF').
          rewrite Hlm, !lmap_app, (lmap_free F HF), (lmap_cons_live i v [] Hi). cbn [app].
          rewrite (lmap_cons_live i v R' Hi), <- app_assoc. reflexivity.
  Qed.

  (* optimize_storage: the file becomes exactly the live regions in their old order *)
  Lemma optimize_spec s rg :
    tiles s rg ->
    wp (optimize_storage cdata ops) s
       (fun s' _ => tiles s' (lmap rg) /\ fps (rtab s') = [] /\ fsp (rtab s') = [] /\
                    tx s' = tx s /\ dur (sdata s') = (if tx s =? 0 then cur (sdata s') else dur (sdata s)))
       (fun _ _ => False).
  Proof.
    intros T. pose proof (tiles_elim _ _ T) as (Hcur & Hlen & [TL TF] & [TW FW] & Hv).
    unfold optimize_storage. apply wp_bind, wp_tx_begin. intros Htx.
    set (s1 := set_tx cdata s (tx s + 1)).
    apply wp_bind, wp_get_rtab. apply wp_bind. change (rtab s1) with (rtab s).
    rewrite (valid_records_spec s rg T). apply wp_ret.
    apply wp_bind.
    change (r_end version_record) with (24 + slen []).
    apply (shrink_all_spec s1 (lives 24 rg) s1 [] [] rg).
    { unfold oinv, s1. st. cbn [ser layout app]. change (24 + slen [] + lenN []) with 24.
      split; [exact Hcur|]. split; [reflexivity|]. split.
      { intros q i n Hi. apply TL. exact Hi. }
      split; [exact TW|]. split; [intros i v []|auto]. }
    { change (24 + slen [] + lenN []) with 24. reflexivity. }
    intros s2 D g R (Hcur2 & Hlen2 & LR2 & TW2 & HD2 & Htx2 & Hdur2 & Hver2) HFR Hlm.
    assert (ED : D = lmap rg) by (rewrite <- (lmap_live D HD2); exact Hlm).
    change (cur (sdata s1)) with (cur (sdata s)) in Hlen2. change (tx s1) with (tx s + 1) in Htx2.
    change (dur (sdata s1)) with (dur (sdata s)) in Hdur2. change (version s1) with (version s) in Hver2.
    apply wp_bind. unfold truncate. apply wp_bind, (wp_get_len ops CN).
    assert (HL2 : lenN (cur (sdata s2)) = 24 + slen D + lenN g + slen R).
    { rewrite Hcur2, !lenN_app, lenN_vrec. unfold slen. lia. }
    (* the state after the truncation *)
    assert (Fin : forall s3, cur (sdata s3) = vrec ++ ser D -> rtab s3 = rtab s2 -> tx s3 = tx s2 ->
                             dur (sdata s3) = dur (sdata s2) -> version s3 = version s2 ->
              wp (bind cdata (bind cdata (get_rtab cdata) (fun rs' => put_rtab cdata (clear_free rs')))
                     (fun _ => tx_commit cdata ops (tx s + 1))) s3
                 (fun s' _ => tiles s' (lmap rg) /\ fps (rtab s') = [] /\ fsp (rtab s') = [] /\
                              tx s' = tx s /\ dur (sdata s') = (if tx s =? 0 then cur (sdata s') else dur (sdata s)))
                 (fun _ _ => False)).
    { intros s3 Hc3 Hr3 Ht3 Hd3 Hv3.
      apply wp_bind, wp_bind, wp_get_rtab, wp_put_rtab.
      set (s4 := set_rtab cdata s3 (clear_free (rtab s3))).
      assert (T4 : tiles s4 D).
      { apply tiles_intro; unfold s4; st.
        - exact Hc3.
        - rewrite Hc3, lenN_app, lenN_vrec. fold (slen D). rewrite <- Hlen2, HL2 in Hlen. lia.
        - split.
          + intros q i n Hi. cbn [recs clear_free]. rewrite Hr3, <- (LR2 q i n Hi), in_app_iff.
            split; [intros H; left; exact H|]. intros [H|H]; [exact H|].
            apply layout_In in H. destruct H as (w & H & _). apply HFR in H. congruence.
          + intros q n. cbn [fps clear_free m_get]. split; [|discriminate]. intros H.
            apply layout_In in H. destruct H as (w & H & _). apply HD2 in H. congruence.
        - split; [cbn [recs clear_free]; rewrite Hr3; exact TW2|apply fwf_clear].
        - congruence. }
      apply (wp_tx_commit ops CN); [unfold s4; st; congruence|lia|].
      rewrite <- ED. split; [apply tiles_committed; exact T4|].
      assert (Hr4 : rtab (committed s4) = rtab s4)
        by (unfold committed; cbn zeta; destruct (tx (set_tx cdata s4 (tx s4 - 1)) =? 0); reflexivity).
      rewrite Hr4, committed_tx, committed_dur, committed_cur.
      assert (Ht4 : tx s4 = tx s + 1) by (unfold s4; st; congruence). rewrite Ht4.
      replace (tx s + 1 - 1) with (tx s) by lia.
      split; [reflexivity|]. split; [reflexivity|]. split; [reflexivity|].
      destruct (tx s =? 0); [reflexivity|]. unfold s4. st. congruence. }
    destruct (N.ltb_spec (24 + slen D) (lenN (cur (sdata s2)))) as [Hlt|Hge].
    - apply (wp_dresize ops CN). apply Fin; st; try reflexivity.
      rewrite Hcur2, (app_assoc vrec). apply bs_resize_prefix.
      rewrite app_length. change (length vrec) with 24%nat. unfold slen, lenN. lia.
    - apply wp_ret. assert (g = []) by (apply lenN_0_nil; lia). assert (R = []) by (apply slen_0; lia). subst g R.
      apply Fin; try reflexivity. rewrite Hcur2. cbn [ser app]. rewrite !app_nil_r. reflexivity.
  Qed.
End Optimize.
