(* DbInvariantProofs.v — the joint invariant `Inv` of C09 / C10 / C11 along histories, UNCONDITIONALLY
   for the revision of /repo (rv_fixed): the hypothesis `search_live` of QueryInvProofs.v and
   HistoryInvProofs.v is discharged by the theorem `search_live_fixed` (TraversalLiveProofs.v: every id returned by any search —
   index, element scan, breadth/depth first with any conditions and handler, path search — exists,
   derived from the C14 / C17 / C18 developments under the graph invariant wf).

   Covered here: histories of queries in which no query fails, every state inside a running
   transaction (the partial state of a failing query included), committed transactions.
   States after a ROLLBACK are covered in HistoryAtomicProofs.v (C13). *)
From Agdb Require Import Bytes BytesProofs DbValue Graph DbModel Search Queries Revisions
  GraphSim GraphWf AliasProofs KvProofs KvDbProofs KvSelectProofs
  IndexProofs IndexDbProofs IndexDb3Proofs IndexDb4Proofs IndexInvProofs
  DbInvProofs QueryInvProofs SearchLiveProofs QStepProofs HistoryInvProofs TraversalLiveProofs.
Open Scope Z_scope.

Theorem history_Inv_fixed qs :
  Forall query_ok qs -> all_succeed rv_fixed db_new qs -> Inv (exec_all rv_fixed db_new qs).
Proof. exact (history_from_new_sl rv_fixed search_live_fixed eq_refl qs). Qed.

Theorem transaction_state_Inv_fixed d qs acc :
  Forall query_ok qs -> Inv d -> Inv (fst (fst (txn_run rv_fixed d qs acc))).
Proof. exact (txn_run_Inv_sl rv_fixed search_live_fixed eq_refl qs d acc). Qed.

Theorem transaction_commit_Inv_fixed d qs :
  Forall query_ok qs -> Inv d ->
  (let '(d1, results, all_ok) := txn_run rv_fixed d qs [] in
   existsb (fun r => match r with QPanic => true | _ => false end) results = false /\ all_ok = true) ->
  Inv (fst (transaction rv_fixed d qs false)).
Proof. exact (transaction_commit_Inv_sl rv_fixed search_live_fixed eq_refl d qs). Qed.
