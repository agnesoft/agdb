(* LoadOutcomeProofs.v — C07 above the storage layer: `load_outcome` (LoadOutcome.v) is TOTAL on every record store:
   loaded / error / fresh / legacy, or the panic of DbValue::load_db_value for an unknown type nibble (only while the
   revision lacks the type check), never a read buffer above the limit. *)
From Agdb Require Import Bytes Codec ValueIndex ValueLoadProofs Records StorageSpec Collections CollValues StoredDb
  LoadOutcome.
Open Scope N_scope.

Definition lo_bind {A B} (r : lo_res A) (f : A -> lo_res B) : lo_res B :=
  match r with LoOk a => f a | LoErr => LoErr | LoPanic => LoPanic | LoAlloc n => LoAlloc n end.

Lemma lo_run_bind {A B} L (p : cprog A) (f : A -> cprog B) m :
  lo_run L (cbind p f) m = lo_bind (lo_run L p m) (fun a => lo_run L (f a) m).
Proof.
  induction p as [a|e| |o k IH]; cbn [cbind lo_run lo_bind]; try reflexivity.
  destruct (lo_request m o) as [n|].
  - destruct (L <? n); [reflexivity|]. destruct (snd (sd_step m o)); cbn [lo_bind]; try reflexivity; apply IH.
  - destruct (snd (sd_step m o)); cbn [lo_bind]; try reflexivity; apply IH.
Qed.

Lemma lo_run_try {A} L (p : cprog A) m :
  lo_run L (cp_try p) m =
  match lo_run L p m with LoOk a => LoOk (Some a) | LoErr => LoOk None | LoPanic => LoPanic | LoAlloc n => LoAlloc n end.
Proof.
  induction p as [a|e| |o k IH]; cbn [cp_try lo_run]; try reflexivity.
  destruct (lo_request m o) as [n|].
  - destruct (L <? n); [reflexivity|]. destruct (snd (sd_step m o)); try reflexivity; apply IH.
  - destruct (snd (sd_step m o)); try reflexivity; apply IH.
Qed.

(* what "crash free" means for one run *)
Definition guards_off (g : vguards) : Prop := vg_num_checked g = false \/ vg_type_checked g = false.
Definition fine {A} (g : vguards) (r : lo_res A) : Prop :=
  match r with LoOk _ | LoErr => True | LoPanic => guards_off g | LoAlloc _ => False end.

Lemma fine_bind {A B} g L m (p : cprog A) (f : A -> cprog B) :
  fine g (lo_run L p m) -> (forall a, lo_run L p m = LoOk a -> fine g (lo_run L (f a) m)) ->
  fine g (lo_run L (cbind p f) m).
Proof. intros H1 H2. rewrite lo_run_bind. destruct (lo_run L p m); cbn [lo_bind fine] in *; try tauto. apply H2. reflexivity. Qed.

Lemma fine_bind_all {A B} g L m (p : cprog A) (f : A -> cprog B) :
  fine g (lo_run L p m) -> (forall a, fine g (lo_run L (f a) m)) -> fine g (lo_run L (cbind p f) m).
Proof. intros H1 H2. apply fine_bind; [exact H1|]. intros a _. apply H2. Qed.

Definition limit_admits (L : N) (m : vmap) : Prop := forall i b, m_get m i = Some b -> lenN b <= L.
Definition lo_small (m : vmap) : Prop := forall i b, m_get m i = Some b -> lenN b < two60.

Lemma lo_run_value L m i : limit_admits L m ->
  lo_run L (cp_value i) m = match m_get m i with Some b => LoOk b | None => LoErr end.
Proof.
  intros Hb. unfold cp_value, cp_bytes. cbn [lo_run lo_request sd_step snd].
  destruct (m_get m i) as [b|] eqn:E; [|reflexivity].
  assert (H := Hb i b E). destruct (L <? lenN b) eqn:E1; [lia|]. reflexivity.
Qed.

Lemma fine_value g L m i : limit_admits L m -> fine g (lo_run L (cp_value i) m).
Proof. intros Hb. rewrite lo_run_value by exact Hb. destruct (m_get m i); exact I. Qed.

Lemma fine_value_size g L m i : fine g (lo_run L (cp_value_size i) m).
Proof. unfold cp_value_size, cp_num. cbn [lo_run lo_request sd_step snd]. destruct (m_get m i); exact I. Qed.

Lemma fine_value_at_size g L m i off n : limit_admits L m -> fine g (lo_run L (cp_value_at_size i off n) m).
Proof.
  intros Hb. unfold cp_value_at_size, cp_bytes. cbn [lo_run lo_request sd_step snd].
  destruct (m_get m i) as [x|] eqn:E; [|exact I].
  assert (H := Hb i x E).
  destruct ((lenN x <? off) || (lenN x <? off + n)) eqn:E1; [exact I|].
  destruct (L <? n) eqn:E2; [lia|]. exact I.
Qed.

Lemma fine_de64 g L m bs : fine g (lo_run L (cp_de64 bs) m).
Proof. unfold cp_de64. destruct (lenN bs <? 8); exact I. Qed.

Lemma fine_of_outcome {A} g L m (o : outcome A) : ok_or_err o -> fine g (lo_run L (cp_of_outcome o) m).
Proof. destruct o; cbn; tauto. Qed.

Lemma fine_if {A} g L m (b : bool) (p q : cprog A) :
  fine g (lo_run L p m) -> fine g (lo_run L q m) -> fine g (lo_run L (if b then p else q) m).
Proof. destruct b; auto. Qed.

(* `fine` is closed under bind and conditionals (fine_bind_all, fine_if) and holds of the storage calls above; returning or
   failing at once is fine (it computes to True).  The database `lo_fine` holds these lemmas and decides a `match` by
   cases; `limit_admits L m` and `lo_small m` are hypotheses wherever it is called, and the depth given to `auto` is the
   nesting depth of the binds of the program at hand. *)
Create HintDb lo_fine discriminated.
#[export] Hint Resolve fine_bind_all fine_if fine_value fine_value_size fine_value_at_size fine_de64 fine_of_outcome : lo_fine.
#[export] Hint Extern 1 (fine _ (lo_run _ (CRet _) _)) => exact I : lo_fine.
#[export] Hint Extern 1 (fine _ (lo_run _ (CErr _) _)) => exact I : lo_fine.
#[export] Hint Extern 2 (fine _ (lo_run _ (match ?x with _ => _ end) _)) => destruct x : lo_fine.

Definition elem_fine {T} g L m (E : cv_elem T) : Prop := forall bs, fine g (lo_run L (ce_load E bs) m).
#[export] Hint Extern 1 (fine ?g (lo_run ?L (ce_load ?E ?bs) ?m)) => refine ((_ : elem_fine g L m E) bs) : lo_fine.

Lemma elem_u64 g L m : elem_fine g L m ce_u64.
Proof. intros bs. apply fine_de64. Qed.
Lemma elem_i64 g L m : elem_fine g L m ce_i64.
Proof. intros bs. cbn [ce_load ce_i64]. auto with lo_fine. Qed.
Lemma elem_raw g L m n : elem_fine g L m (ce_raw n).
Proof. intros bs. cbn [ce_load ce_raw]. auto with lo_fine. Qed.
Lemma elem_state g L m : elem_fine g L m ce_state.
Proof. intros bs. cbn [ce_load ce_state]. auto with lo_fine. Qed.
Lemma elem_string g L m : limit_admits L m -> elem_fine g L m ce_string.
Proof. intros Hb bs. cbn [ce_load ce_string]. unfold cv_str_de. auto 8 with lo_fine. Qed.

Lemma vi_deserialize_total bs : ok_or_err (vi_deserialize bs).
Proof. unfold vi_deserialize. destruct (slice bs 0 16); exact I. Qed.

Lemma store_small_one i b : lenN b < two60 -> store_small [(i, b)].
Proof.
  intros H j c. unfold ValueIndex.lookup. destruct (i =? j); intros E; inversion E; subst; exact H.
Qed.
Lemma store_small_nil : store_small [].
Proof. intros j c. unfold ValueIndex.lookup. intros E. inversion E. Qed.

Lemma fine_value_load g L m ix : limit_admits L m -> lo_small m -> fine g (lo_run L (lo_value_load g ix) m).
Proof.
  intros Hb Hs. unfold lo_value_load.
  destruct (is_numeric_type (vi_type ix) && negb (vi_size ix =? 8)) eqn:E1.
  { destruct (vg_num_checked g) eqn:G; [exact I|]. cbn [lo_run fine]. left. exact G. }
  destruct (is_known_type (vi_type ix)) eqn:E2; cbn [negb].
  2:{ destruct (vg_type_checked g) eqn:G; [exact I|]. cbn [lo_run fine]. right. exact G. }
  assert (Hn : is_numeric_type (vi_type ix) = true -> vi_size ix = 8).
  { intros Hn. rewrite Hn in E1. cbn [andb] in E1. lia. }
  destruct (lo_needs_record ix).
  - apply fine_bind; [apply fine_value, Hb|]. intros b Hrun.
    rewrite lo_run_value in Hrun by exact Hb.
    destruct (m_get m (vi_index ix)) as [b'|] eqn:E; [|discriminate]. injection Hrun as ->.
    apply fine_of_outcome, load_known_total; [apply store_small_one, (Hs _ _ E)|exact E2|exact Hn].
  - apply fine_of_outcome, load_known_total; [apply store_small_nil|exact E2|exact Hn].
Qed.

Lemma elem_dbvalue g L m : limit_admits L m -> lo_small m -> elem_fine g L m (lo_ce_dbvalue g).
Proof.
  intros Hb Hs bs. cbn [ce_load lo_ce_dbvalue].
  apply fine_bind_all; [apply fine_of_outcome, vi_deserialize_total|]. intros ix. apply fine_value_load; assumption.
Qed.

Lemma elem_pair {A B} g L m (EA : cv_elem A) (EB : cv_elem B) :
  elem_fine g L m EA -> elem_fine g L m EB -> elem_fine g L m (ce_pair EA EB).
Proof. intros HA HB bs. cbn [ce_load ce_pair]. auto with lo_fine. Qed.
Lemma elem_dbkv g L m : limit_admits L m -> lo_small m -> elem_fine g L m (lo_ce_dbkv g).
Proof. intros Hb Hs. apply elem_pair; apply elem_dbvalue; assumption. Qed.
#[export] Hint Resolve elem_u64 elem_i64 elem_raw elem_state elem_string elem_dbvalue elem_dbkv : lo_fine.

Section VecFine.
  Variables (T : Type) (E : cv_elem T) (g : vguards) (L : N) (m : vmap).
  Hypothesis Hb : limit_admits L m.

  Lemma fine_from_storage i : fine g (lo_run L (cv_from_storage T E i) m).
  Proof. unfold cv_from_storage. auto 8 with lo_fine. Qed.

  Hypothesis HE : elem_fine g L m E.

  Lemma fine_cv_value h i : fine g (lo_run L (cv_value T E h i) m).
  Proof. unfold cv_value, cv_validate, cv_read_slot. auto 8 with lo_fine. Qed.

  (* the iterator ends at the first failing read: an error of cv_value is the end of the list *)
  Lemma fine_cv_values h : fine g (lo_run L (cv_values T E h) m).
  Proof.
    unfold cv_values. generalize (S (N.to_nat (cv_len h))) 0.
    induction n as [|f IH]; intros i; cbn [cv_iter]; [exact I|].
    rewrite lo_run_bind, lo_run_try.
    pose proof (fine_cv_value h i) as Hv.
    destruct (lo_run L (cv_value T E h i) m) as [x| | |n]; cbn [lo_bind fine] in *; try exact Hv; try exact I.
    auto with lo_fine.
  Qed.
End VecFine.
#[export] Hint Resolve fine_from_storage fine_cv_values : lo_fine.

Lemma fine_vec_load T (E : cv_elem T) g L m i : limit_admits L m -> elem_fine g L m E -> fine g (lo_run L (sd_vec_load T E i) m).
Proof. intros Hb HE. unfold sd_vec_load. auto with lo_fine. Qed.

Lemma fine_cm_from_storage {K V} g L m (EK : cv_elem K) (EV : cv_elem V) i :
  limit_admits L m -> fine g (lo_run L (cm_from_storage K V EK EV i) m).
Proof. intros Hb. unfold cm_from_storage. auto 8 with lo_fine. Qed.
#[export] Hint Resolve fine_vec_load fine_cm_from_storage : lo_fine.

(* the two phases: DbImpl::new, then the complete read *)
Section Top.
  Variables (g : vguards) (L : N) (m : vmap).
  Hypothesis Hb : limit_admits L m.
  Hypothesis Hs : lo_small m.

  Lemma fine_open b : fine g (lo_run L (r <~ cr_de b ;; lo_open_root g r) m).
  Proof.
    assert (H : forall es, fine g (lo_run L (lo_index_list_open g es) m)).
    { induction es as [|e r IH]; cbn [lo_index_list_open]; unfold lo_index_open; auto 8 with lo_fine. }
    unfold cr_de, lo_open_root, cg_from_storage, lo_indexes_open. auto 24 with lo_fine.
  Qed.

  Lemma fine_read h : fine g (lo_run L (lo_read g h) m).
  Proof.
    assert (H1 : forall hs, fine g (lo_run L (lo_index_list_read g hs) m)).
    { induction hs as [|x r IH]; cbn [lo_index_list_read]; unfold lo_map_read; auto 8 with lo_fine. }
    assert (H2 : forall idxs, fine g (lo_run L (lo_kvs_read g idxs) m)).
    { induction idxs as [|i r IH]; cbn [lo_kvs_read]; auto 8 with lo_fine. }
    unfold lo_read, lo_graph_read, lo_map_read. auto 20 with lo_fine.
  Qed.
End Top.

Definition out_fine (g : vguards) (o : lo_outcome) : Prop :=
  match o with
  | Loaded _ | LErr | LFresh | LLegacy => True
  | LPanic => guards_off g
  | LHugeAlloc _ => False
  end.

Lemma out_fine_of_res {A} g (f : A -> lo_outcome) (r : lo_res A) :
  fine g r -> (forall a, out_fine g (f a)) -> out_fine g (lo_of_res f r).
Proof. destruct r; cbn [lo_of_res fine out_fine]; intros H1 H2; try tauto. apply H2. Qed.

Theorem load_outcome_g_total g L m root :
  limit_admits L m -> lo_small m -> out_fine g (load_outcome_g g L m root).
Proof.
  intros Hb Hs. unfold load_outcome_g, lo_open.
  destruct (m_get m root) as [b|] eqn:E; [|exact I].
  assert (H := Hb root b E). destruct (L <? lenN b) eqn:E1; [lia|].
  destruct (lenN b <? 40); [exact I|].
  destruct (lenN b <? 48).
  - apply out_fine_of_res; [|intros a; exact I].
    apply fine_cm_from_storage, Hb.
  - apply out_fine_of_res.
    + apply fine_open; assumption.
    + intros h. apply out_fine_of_res; [apply fine_read; assumption|]. intros d. exact I.
Qed.

Lemma m_get_total (m : vmap) i b : m_get m i = Some b -> lenN b <= lo_total m.
Proof.
  induction m as [|[j c] r IH]; cbn [m_get lo_total]; [discriminate|].
  destruct (j =? i).
  - intros E. injection E as ->. lia.
  - intros E. specialize (IH E). lia.
Qed.

Lemma limit_admits_lo_limit m : limit_admits (lo_limit m) m.
Proof. intros i b E. apply m_get_total in E. unfold lo_limit. lia. Qed.
