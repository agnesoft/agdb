(* StoredDbOpsLinkHist2.v — proofs (stored database): the covered queries and their histories keep the database stored, from the
   database invariant alone.  With wf (gr d) the side conditions so_graph_ok / so_edge_ok / so_remove_edge_ok / so_index_ok
   follow (StoredDbOpsLinkWf.v); the program of a covered query ends in a store holding `fst (exec rv d q)` and returns the id
   `snd (exec rv d q)` reports (so_cq_step); every list of covered queries from a stored database satisfying HInv (Inv, db_ok,
   empty undo stack: what every history from db_new satisfies, C13_history_invariant) ends in a store holding the fold of
   `exec rv_fixed`, with the ids exec reports, and HInv again (cq_runs_stored).  In two variants:
     so_covered       a removed element has a property: then its property vector is provably allocated in the file
     so_covered2      no such restriction, with the invariant of (database, witness)
                      slots_ok d w = every existing element's slot of the DbKeyValues slot vector is <> 0.
                      Every covered query preserves it: every public insertion reserves capacity for the element it creates
                      or works on, a removal frees the removed element's slot only, and the graph's set of elements changes
                      by exactly the created / removed element (gi_*: from C08's simulation). *)
From Coq Require Import Permutation.
From Agdb Require Import Bytes Graph DbModel Queries Revisions StorageSpec Collections CollWp CollVecBase StoredDbRep
  StoredDbOps StoredDbOpsDb StoredDbOpsKv2 StoredDbOpsKv4 StoredDbOpsQuery StoredDbOpsRemove StoredDbOpsLink
  StoredDbOpsLinkWf StoredDbOpsLinkHist.
From Agdb Require GraphArr GraphSim GraphWf GraphSpec GraphProofs QueryInvProofs HistoryAtomicProofs TraversalLiveProofs
  UndoGraph.
From Coq Require Import ZifyBool ZifyNat ZifyN.
Ltac Zify.zify_post_hook ::= Z.div_mod_to_equations.
Open Scope N_scope.

(* the elements before (every y) and after (x) an operation of graph.rs, as members of the abstract graphs of C08's simulation *)
Lemma gi_step g op g' out x :
  GraphSim.wf g -> GraphSpec.gop_ok op -> GraphSpec.gstep g op = Some (g', out) -> graph_index g' x = true ->
  exists a a', GraphSpec.astep a op out = Some a' /\
    (forall y, graph_index g y = true <->
               (0 < y /\ In y (GraphSim.a_nodes a))%Z \/ (y < 0 /\ In (- y) (map GraphSim.eslot (GraphSim.a_edges a)))%Z) /\
    ((0 < x /\ In x (GraphSim.a_nodes a'))%Z \/ (x < 0 /\ In (- x) (map GraphSim.eslot (GraphSim.a_edges a')))%Z).
Proof.
  intros [a [fl HS]] OK E Hx. destruct (GraphSpec.gstep_sim g a fl op HS OK) as (g1 & out1 & a1 & fl1 & E1 & A1 & S1).
  rewrite E in E1. injection E1 as <- <-. exists a, a1. split; [exact A1|].
  split; [intros y; apply (GraphSpec.sim_graph_index _ _ _ HS)|apply (GraphSpec.sim_graph_index _ _ _ S1); exact Hx].
Qed.

Lemma gi_insert_node g x :
  GraphSim.wf g -> graph_index (snd (insert_node g)) x = true -> graph_index g x = true \/ x = fst (insert_node g).
Proof.
  intros W Hx. destruct (insert_node g) as [n g'] eqn:E. cbn [fst snd] in *.
  destruct (gi_step g GraphSpec.GInsertNode g' (Some n) x W I) as (a & a' & A1 & HG & Hx'); [cbn; rewrite E; reflexivity|exact Hx|].
  cbn [GraphSpec.astep] in A1. destruct (_ && _) in A1; [|discriminate]. injection A1 as <-.
  cbn [GraphSim.a_nodes GraphSim.a_edges] in Hx'. destruct Hx' as [[P [E0|I0]]|[P I0]].
  - right. symmetry. exact E0.
  - left. apply HG. left. split; assumption.
  - left. apply HG. right. split; assumption.
Qed.

Lemma gi_insert_edge g f t e g' x :
  GraphSim.wf g -> (0 <= f)%Z -> (0 <= t)%Z -> insert_edge g f t = Some (e, g') ->
  graph_index g' x = true -> graph_index g x = true \/ x = e.
Proof.
  intros W Hf Ht E Hx.
  destruct (gi_step g (GraphSpec.GInsertEdge f t) g' (Some e) x W (conj Hf Ht)) as (a & a' & A1 & HG & Hx'); [cbn; rewrite E; reflexivity|exact Hx|].
  cbn [GraphSpec.astep] in A1. destruct (_ && _) in A1; [|discriminate]. injection A1 as <-.
  cbn [GraphSim.a_nodes GraphSim.a_edges map GraphSim.eslot fst] in Hx'. destruct Hx' as [[P I0]|[P [E0|I0]]].
  - left. apply HG. left. split; assumption.
  - right. lia.
  - left. apply HG. right. split; assumption.
Qed.

Lemma node_edge_slots g x y :
  GraphSim.wf g -> is_node g x = true -> is_edge g y = true -> zabs_nat x <> zabs_nat y.
Proof.
  intros W Nx Ey E. pose proof (GraphWf.wf_node_edge_disjoint g x W Nx) as D.
  rewrite <- GraphProofs.is_edge_abs in D, Ey. replace (Z.abs y) with (Z.abs x) in Ey by (unfold zabs_nat in E; lia). congruence.
Qed.

Lemma graph_index_cases g x :
  graph_index g x = true -> ((0 < x)%Z /\ is_node g x = true) \/ ((x < 0)%Z /\ is_edge g x = true).
Proof.
  unfold graph_index. destruct (Z.ltb_spec x 0) as [L|L]; [intros H; right; split; assumption|].
  destruct (Z.ltb_spec 0 x) as [P|P]; [intros H; left; split; assumption|discriminate].
Qed.

Lemma gi_remove_edge g e g' x :
  GraphSim.wf g -> (e < 0)%Z -> is_edge g e = true -> remove_edge g e = Some g' ->
  graph_index g' x = true -> graph_index g x = true /\ zabs_nat x <> zabs_nat e.
Proof.
  intros W He Ie E Hx.
  destruct (gi_step g (GraphSpec.GRemoveEdge e) g' None x W) as (a & a' & A1 & HG & Hx'); [cbn; lia|cbn; rewrite E; reflexivity|exact Hx|].
  cbn [GraphSpec.astep] in A1. injection A1 as <-. cbn [GraphSim.a_nodes GraphSim.a_edges] in Hx'.
  destruct Hx' as [[P I0]|[P I0]].
  - assert (G : graph_index g x = true) by (apply HG; left; split; assumption).
    split; [exact G|]. destruct (graph_index_cases g x G) as [[_ Nx]|[X _]]; [|lia].
    eapply node_edge_slots; eassumption.
  - rewrite GraphSim.map_eslot_remE in I0. apply GraphArr.in_zrem in I0. destruct I0 as [I0 Hne].
    split; [apply HG; right; split; assumption|unfold zabs_nat; lia].
Qed.

Lemma gi_remove_node g n g' x :
  GraphSim.wf g -> (0 < n)%Z -> is_node g n = true -> remove_node g n = Some g' ->
  graph_index g' x = true -> graph_index g x = true /\ zabs_nat x <> zabs_nat n.
Proof.
  intros W Hn Nn E Hx.
  destruct (gi_step g (GraphSpec.GRemoveNode n) g' None x W) as (a & a' & A1 & HG & Hx'); [cbn; lia|cbn; rewrite E; reflexivity|exact Hx|].
  cbn [GraphSpec.astep] in A1. injection A1 as <-. cbn [GraphSim.a_nodes GraphSim.a_edges] in Hx'.
  destruct Hx' as [[P I0]|[P I0]].
  - apply GraphArr.in_zrem in I0. destruct I0 as [I0 Hne].
    split; [apply HG; left; split; assumption|unfold zabs_nat; lia].
  - apply in_map_iff in I0. destruct I0 as [y [Ey Iy]]. apply filter_In in Iy. destruct Iy as [Iy _].
    assert (G : graph_index g x = true).
    { apply HG. right. split; [exact P|]. rewrite <- Ey. apply in_map. exact Iy. }
    split; [exact G|]. destruct (graph_index_cases g x G) as [[X _]|[_ Ex]]; [lia|].
    intros E0. eapply (node_edge_slots g n x W Nn Ex). symmetry. exact E0.
Qed.

Lemma gr_mq_insert_key_values id l : forall d, gr (mq_insert_key_values d id l) = gr d.
Proof. unfold mq_insert_key_values. induction l as [|x t IH]; intros d; cbn [fold_left]; [reflexivity|]. rewrite IH. reflexivity. Qed.

Lemma gr_mq_insert_or_replace_key_values id l : forall d, gr (mq_insert_or_replace_key_values d id l) = gr d.
Proof.
  unfold mq_insert_or_replace_key_values. induction l as [|x t IH]; intros d; cbn [fold_left]; [reflexivity|]. rewrite IH.
  unfold insert_or_replace_key_value. destruct (kvs_insert_or_replace (vals d) id x) as [[old|] s]; reflexivity.
Qed.

Definition slots_ok (d : db) (w : sd_wit) : Prop :=
  forall id, graph_index (gr d) id = true -> nth (zabs_nat id) (sw_vi w) 0 <> 0.

Definition so_covered2 (d : db) (c : so_cq) : Prop :=
  match c with
  | CqRemove id =>
    so_cap_ok d /\
    (forall x, In x (kvs_get (vals d) id) -> idx_find (indexes d) (fst x) = None) /\
    ((id < 0)%Z /\ is_edge (gr d) id = true \/
     (0 < id)%Z /\ is_node (gr d) id = true /\ imap_key (aliases d) id = None /\ from (gr d) id = 0%Z /\ to (gr d) id = 0%Z)
  | _ => so_covered d c
  end.

Lemma so_covered_covered2 d c : so_covered d c -> so_covered2 d c.
Proof. destruct c; cbn [so_covered2]; try (intros H; exact H). intros (C & _ & H1 & H2). auto. Qed.

Lemma so_covered2_cap d c : so_covered2 d c -> so_cap_ok d.
Proof. destruct c; intros H; apply H. Qed.

Lemma so_covered2_removed d id : so_covered2 d (CqRemove id) -> graph_index (gr d) id = true.
Proof.
  intros (_ & _ & [[He Ie]|(Hn & Nn & _)]); [apply graph_index_edge|apply graph_index_node]; assumption.
Qed.

Section Step2.
  Variable fl : bool.
  Variable rv : revision.

  (* the program returns the id exec reports and ends in a store holding the database exec returns; if every element's slot
     was allocated before, so it is afterwards *)
  Definition cq_post (root : N) (d : db) (w : sd_wit) (sp : spec) (c : so_cq) (r : cres (so_db * option Z)) (sp' : spec) : Prop :=
    exists h' w', r = CrOk (h', cq_out (snd (Queries.exec rv d (cq_query c)))) /\
                  stored_db_w (hp sp') root (fst (Queries.exec rv d (cq_query c))) w' /\ so_handles h' w' /\
                  (slots_ok d w -> slots_ok (fst (Queries.exec rv d (cq_query c))) w') /\
                  sdepth sp' = sdepth sp /\ frame (hp sp) (hp sp') (sd_foot root w) (sd_foot root w').

  (* ... from the step of the query: d1 is what the store holds before the commit *)
  Lemma cq_post_of_step root d w sp c d1 n els h' w' sp' :
    exec_mut_step rv d (cq_query c) = StOk d1 (n, els) ->
    stored_db_w (hp sp') root d1 w' -> so_handles h' w' -> sdepth sp' = sdepth sp ->
    frame (hp sp) (hp sp') (sd_foot root w) (sd_foot root w') ->
    (slots_ok d w -> forall x, graph_index (gr d1) x = true -> nth (zabs_nat x) (sw_vi w') 0 <> 0) ->
    cq_post root d w sp c (CrOk (h', match map e_id els with [id] => Some id | _ => None end)) sp'.
  Proof.
    intros E H' Hh' D' F' S. exists h', w'. rewrite (exec_of_step rv d _ d1 n els (cq_mutating c) E). cbn [fst snd].
    split; [reflexivity|]. split; [apply (stored_db_w_same _ _ _ _ _ H'); reflexivity|]. auto.
  Qed.

  (* one covered query; a removal needs the removed element's slot allocated *)
  Theorem so_cq_step root d w h c sp :
    stored_db_w (hp sp) root d w -> so_handles h w -> GraphSim.wf (gr d) -> so_covered2 d c ->
    (forall id, c = CqRemove id -> so_slot_valid (sw_vi w) (zabs_nat id)) ->
    cwp fl (cq_run h c) sp (cq_post root d w sp c).
  Proof.
    intros H Hh W Hc2 Hslot. pose proof (so_covered2_cap d c Hc2) as Hcap. unfold so_cap_ok in Hcap.
    pose proof (wf_so_graph_ok _ W Hcap) as OK.
    destruct c as [l|id l|f t|id]; cbn [cq_run cq_query so_covered2] in *.
    - (* insert node *)
      destruct Hc2 as [_ Hc]. cbv zeta in Hc. destruct (wf_new_ids_ok _ W Hcap) as [Hix _].
      assert (Hix' : so_index_ok (cg_as_u64 (fst (insert_node_db d)))).
      { unfold insert_node_db. destruct (insert_node (gr d)) as [i g1]. exact Hix. }
      apply cwp_bind. eapply cwp_mono; [|eapply (so_q_insert_node_stored' fl); [exact H|exact Hh|exact OK|exact Hix'|exact Hc]].
      intros r sp' (h' & w' & -> & H' & Hh' & D' & F' & [K A]). cbn [kont cwp fst snd].
      eapply (cq_post_of_step root d w sp (CqInsertNode l) _ _ _ _ _ _ (step_insert_node rv d l)); try eassumption.
      intros SO x Hx. rewrite gr_mq_insert_key_values in Hx.
      unfold insert_node_db in Hx, A. pose proof (gi_insert_node (gr d) x W) as G.
      destruct (insert_node (gr d)) as [i g1]. destruct (G Hx) as [G0| ->]; [apply K, SO, G0|exact A].
    - (* insert values *)
      destruct Hc2 as [_ [G Hkv]].
      apply cwp_bind. eapply cwp_mono; [|eapply (so_q_insert_values_stored' fl); [exact H|exact Hh|eapply graph_index_ok; eassumption|exact Hkv]].
      intros r sp' (h' & w' & -> & H' & Hh' & D' & F' & [K A]). cbn [kont cwp].
      eapply (cq_post_of_step root d w sp (CqInsertValues id l) _ _ _ _ _ _ (step_insert_values rv d id l G)); try eassumption.
      intros SO x Hx. rewrite gr_mq_insert_or_replace_key_values in Hx. apply K, SO, Hx.
    - (* insert edge *)
      destruct Hc2 as [_ (Pf & Pt & [[Nf Nt]|[Hn U]])].
      + destruct (wf_new_ids_ok _ W Hcap) as [_ Hix]. destruct (insert_edge_db_nodes d f t Nf Nt) as (G' & EI & ED).
        set (e := (- fst (get_free_index (gr d)))%Z) in *.
        eapply cwp_mono; [|eapply (so_q_insert_edge_stored' fl); [exact H|exact Hh|exact OK|apply wf_so_edge_ok; assumption|exact ED|exact Hix]].
        intros r sp' (h' & w' & -> & H' & Hh' & D' & F' & [K A]).
        eapply (cq_post_of_step root d w sp (CqInsertEdge f t) _ _ _ _ _ _
                  (step_insert_edge rv d f t e _ (graph_index_node _ _ Pf Nf) (graph_index_node _ _ Pt Nt) ED)); try eassumption.
        intros SO x Hx. destruct (gi_insert_edge _ f t e G' x W) as [G| ->]; [lia|lia|exact EI|exact Hx|apply K, SO, G|exact A].
      + eapply cwp_mono; [|eapply (so_exec_insert_edge_rejected_stored fl rv); [exact H|exact Hh|exact OK|exact Pf|exact Pt|exact Hn|exact U]].
        intros r sp' (-> & R & Ed & H' & D' & F').
        exists h, w. cbn [cq_query]. unfold cq_out. rewrite R, Ed. auto 10.
    - (* remove *)
      specialize (Hslot id eq_refl). destruct Hc2 as (_ & Hnix & [[He Ie]|(Hn & Nn & Al & Ef & Et)]).
      + apply cwp_bind. eapply cwp_mono; [|eapply (so_q_remove_edge_stored' fl);
            [exact H|exact Hh|exact He|exact OK|apply wf_so_remove_edge_ok; assumption|exact Hslot|exact Hnix]].
        intros r sp' (G' & EG & h' & w' & -> & H' & Hh' & D' & F' & K). cbn [kont cwp].
        eapply (cq_post_of_step root d w sp (CqRemove id) _ _ _ _ _ _ (step_remove_edge rv d id G' He Ie EG)); try eassumption.
        intros SO x Hx. unfold remove_edge_db in Hx. rewrite EG in Hx. cbn [fst] in Hx.
        rewrite (proj1 (remove_all_values_fields (push_undo (with_gr d G') _) id Hnix)) in Hx.
        destruct (gi_remove_edge _ id G' x W He Ie EG Hx) as [G Hne]. apply K; [exact Hne|apply SO, G].
      + destruct (GraphWf.wf_remove_node _ id W) as [G' [EG _]]; [lia|].
        pose proof (remove_isolated_node_db d id G' Nn Ef Et EG) as ER.
        apply cwp_bind. eapply cwp_mono; [|eapply (so_q_remove_isolated_node_stored' fl);
            [exact H|exact Hh|exact Hn|exact OK|exact Nn|exact Ef|exact Et|eapply wf_node_count_pos; eassumption|exact Hslot|exact Hnix]].
        intros r sp' (Er & h' & w' & -> & H' & Hh' & D' & F' & K). cbn [kont cwp].
        eapply (cq_post_of_step root d w sp (CqRemove id) _ _ _ _ _ _ (step_remove_isolated_node rv d id Hn Nn Al Er)); try eassumption.
        intros SO x Hx. rewrite ER in Hx. cbn [fst] in Hx.
        rewrite (proj1 (remove_all_values_fields (push_undo (with_gr d G') _) id Hnix)) in Hx.
        destruct (gi_remove_node _ id G' x W Hn Nn EG Hx) as [G Hne]. apply K; [exact Hne|apply SO, G].
  Qed.

  (* with the invariant slots_ok, which is kept *)
  Theorem so_cq_stored2 root d w h c sp :
    stored_db_w (hp sp) root d w -> so_handles h w -> GraphSim.wf (gr d) -> slots_ok d w -> so_covered2 d c ->
    cwp fl (cq_run h c) sp
        (fun r sp' => exists h' w', r = CrOk (h', cq_out (snd (Queries.exec rv d (cq_query c)))) /\
                        stored_db_w (hp sp') root (fst (Queries.exec rv d (cq_query c))) w' /\ so_handles h' w' /\
                        slots_ok (fst (Queries.exec rv d (cq_query c))) w' /\
                        sdepth sp' = sdepth sp /\ frame (hp sp) (hp sp') (sd_foot root w) (sd_foot root w')).
  Proof.
    intros H Hh W SO Hc. eapply cwp_mono; [|apply (so_cq_step root d w h c sp H Hh W Hc)].
    - intros r sp' (h' & w' & E & H' & Hh' & S & D' & F'). exists h', w'. auto 7.
    - intros id ->. right. apply SO, (so_covered2_removed d id Hc).
  Qed.

  (* without it, for a removed element that has a property *)
  Theorem so_cq_stored root d w h c sp :
    stored_db_w (hp sp) root d w -> so_handles h w -> GraphSim.wf (gr d) -> so_covered d c ->
    cwp fl (cq_run h c) sp
        (fun r sp' => exists h' w', r = CrOk (h', cq_out (snd (Queries.exec rv d (cq_query c)))) /\
                        stored_db_w (hp sp') root (fst (Queries.exec rv d (cq_query c))) w' /\ so_handles h' w' /\
                        sdepth sp' = sdepth sp /\ frame (hp sp) (hp sp') (sd_foot root w) (sd_foot root w')).
  Proof.
    intros H Hh W Hc. eapply cwp_mono; [|apply (so_cq_step root d w h c sp H Hh W (so_covered_covered2 d c Hc))].
    - intros r sp' (h' & w' & E & H' & Hh' & _ & D' & F'). exists h', w'. auto 6.
    - intros id ->. destruct Hc as (_ & Hne & _). eapply stored_slot_valid; eassumption.
  Qed.

  (* the state before the commit / rollback of a covered query has the graph of the result *)
  Lemma covered_peak d c :
    GraphSim.wf (gr d) -> so_covered2 d c ->
    gr (fst (exec_in_txn rv d (cq_query c))) = gr (fst (Queries.exec rv d (cq_query c))).
  Proof.
    intros W Hc. destruct c as [l|id l|f t|id]; cbn [cq_query so_covered2] in Hc |- *.
    - eapply exec_peak; [reflexivity|apply step_insert_node].
    - destruct Hc as [_ [G _]]. eapply exec_peak; [reflexivity|apply step_insert_values; exact G].
    - destruct Hc as [_ (Pf & Pt & [[Nf Nt]|[Hn U]])].
      + destruct (insert_edge_db_nodes d f t Nf Nt) as (G' & _ & E). eapply exec_peak; [reflexivity|].
        eapply step_insert_edge; [apply graph_index_node; assumption|apply graph_index_node; assumption|exact E].
      + destruct (step_insert_edge_fail rv d f t Pf Pt Hn) as [e E].
        rewrite (exec_of_err rv d (lq_insert_edge f t) e eq_refl E U). unfold exec_in_txn. rewrite E. reflexivity.
    - destruct Hc as (_ & _ & [[He Ie]|(Hn & Nn & Al & Ef & Et)]).
      + destruct (GraphWf.wf_remove_edge _ id W) as [G' [EG _]]; [lia|]. eapply exec_peak; [reflexivity|]. eapply step_remove_edge; eassumption.
      + destruct (GraphWf.wf_remove_node _ id W) as [G' [EG _]]; [lia|]. eapply exec_peak; [reflexivity|]. apply step_remove_isolated_node; try assumption.
        rewrite (remove_isolated_node_db d id G' Nn Ef Et EG). reflexivity.
  Qed.
End Step2.

Fixpoint so_covered_all2 (rv : revision) (d : db) (l : list so_cq) : Prop :=
  match l with
  | [] => True
  | c :: t => so_covered2 d c /\ QueryInvProofs.query_ok (cq_query c) /\
              so_cap_ok (fst (Queries.exec rv d (cq_query c))) /\
              so_covered_all2 rv (fst (Queries.exec rv d (cq_query c))) t
  end.

Section Hist2.
  Variable fl : bool.

  (* histories of queries satisfying C, on databases whose witness satisfies I: A d l says that every query of l satisfies C
     in the database it runs on, is query_ok, and leaves the capacity below 2^60.  The two instances:
     I = slots_ok, C = so_covered2, A = so_covered_all2   and   I = True, C = so_covered, A = so_covered_all *)
  Lemma cq_runs_stored (I : db -> sd_wit -> Prop) (C : db -> so_cq -> Prop) (A : db -> list so_cq -> Prop) root :
    (forall d c t, A d (c :: t) ->
       C d c /\ QueryInvProofs.query_ok (cq_query c) /\ so_cap_ok (fst (Queries.exec rv_fixed d (cq_query c))) /\
       A (fst (Queries.exec rv_fixed d (cq_query c))) t) ->
    (forall d c, C d c -> so_covered2 d c) ->
    (forall d w h c sp, stored_db_w (hp sp) root d w -> so_handles h w -> GraphSim.wf (gr d) -> I d w -> C d c ->
       cwp fl (cq_run h c) sp
           (fun r sp' => exists h' w', r = CrOk (h', cq_out (snd (Queries.exec rv_fixed d (cq_query c)))) /\
                           stored_db_w (hp sp') root (fst (Queries.exec rv_fixed d (cq_query c))) w' /\ so_handles h' w' /\
                           I (fst (Queries.exec rv_fixed d (cq_query c))) w' /\
                           sdepth sp' = sdepth sp /\ frame (hp sp) (hp sp') (sd_foot root w) (sd_foot root w'))) ->
    forall l d w h sp,
      stored_db_w (hp sp) root d w -> so_handles h w -> HistoryAtomicProofs.HInv d -> I d w -> A d l ->
      cwp fl (cq_runs h l) sp
          (fun r sp' => exists h' w', r = CrOk (h', snd (cq_model rv_fixed d l)) /\
                          stored_db_w (hp sp') root (fst (cq_model rv_fixed d l)) w' /\ so_handles h' w' /\
                          HistoryAtomicProofs.HInv (fst (cq_model rv_fixed d l)) /\ I (fst (cq_model rv_fixed d l)) w' /\
                          sdepth sp' = sdepth sp /\ frame (hp sp) (hp sp') (sd_foot root w) (sd_foot root w')).
  Proof.
    intros HA HC Hstep. induction l as [|c t IH]; intros d w h sp H Hh HI II OK; cbn [cq_runs cq_model fst snd].
    - cbn [cwp]. exists h, w. repeat (split; [first [reflexivity|assumption]|]). apply frame_refl. intros j; reflexivity.
    - destruct (HA d c t OK) as (Hc & Hq & Hcap' & OK'). pose proof HI as [[W _] _].
      (* HInv after the query: the history invariant of C13; its side condition is the capacity at the peak of the transaction *)
      assert (HI' : HistoryAtomicProofs.HInv (fst (Queries.exec rv_fixed d (cq_query c)))).
      { apply (HistoryAtomicProofs.item_atomic rv_fixed eq_refl eq_refl eq_refl eq_refl eq_refl TraversalLiveProofs.search_live_fixed
                 d (HistoryAtomicProofs.HQuery (cq_query c)) Hq HI).
        cbn [HistoryAtomicProofs.item_peak]. rewrite (covered_peak rv_fixed d c W (HC d c Hc)).
        unfold so_cap_ok in Hcap'. unfold UndoGraph.two63z. lia. }
      apply cwp_bind. eapply cwp_mono; [|eapply Hstep; eassumption].
      intros r sp1 (h1 & w1 & -> & H1 & Hh1 & I1 & D1 & F1). cbn [kont fst snd].
      apply cwp_bind. eapply cwp_mono; [|eapply IH; eassumption].
      intros r2 sp2 (h2 & w2 & -> & H2 & Hh2 & HI2 & I2 & D2 & F2). cbn [kont cwp fst snd].
      exists h2, w2. split; [reflexivity|]. split; [exact H2|]. split; [exact Hh2|]. split; [exact HI2|]. split; [exact I2|].
      split; [congruence|]. eapply frame_trans; eassumption.
  Qed.

  Theorem so_cqs_stored2 root l d w h sp :
    stored_db_w (hp sp) root d w -> so_handles h w -> HistoryAtomicProofs.HInv d -> slots_ok d w -> so_covered_all2 rv_fixed d l ->
    cwp fl (cq_runs h l) sp
        (fun r sp' => exists h' w', r = CrOk (h', snd (cq_model rv_fixed d l)) /\
                        stored_db_w (hp sp') root (fst (cq_model rv_fixed d l)) w' /\ so_handles h' w' /\
                        HistoryAtomicProofs.HInv (fst (cq_model rv_fixed d l)) /\ slots_ok (fst (cq_model rv_fixed d l)) w' /\
                        sdepth sp' = sdepth sp /\ frame (hp sp) (hp sp') (sd_foot root w) (sd_foot root w')).
  Proof.
    apply (cq_runs_stored slots_ok so_covered2 (so_covered_all2 rv_fixed) root (fun d0 c t OK => OK) (fun d0 c Hc => Hc)).
    intros. apply so_cq_stored2; assumption.
  Qed.

  Theorem so_cqs_stored root l d w h sp :
    stored_db_w (hp sp) root d w -> so_handles h w -> HistoryAtomicProofs.HInv d -> so_covered_all rv_fixed d l ->
    cwp fl (cq_runs h l) sp
        (fun r sp' => exists h' w', r = CrOk (h', snd (cq_model rv_fixed d l)) /\
                        stored_db_w (hp sp') root (fst (cq_model rv_fixed d l)) w' /\ so_handles h' w' /\
                        HistoryAtomicProofs.HInv (fst (cq_model rv_fixed d l)) /\
                        sdepth sp' = sdepth sp /\ frame (hp sp) (hp sp') (sd_foot root w) (sd_foot root w')).
  Proof.
    intros H Hh HI OK.
    eapply cwp_mono; [|apply (cq_runs_stored (fun _ _ => True) so_covered (so_covered_all rv_fixed) root (fun d0 c t OK0 => OK0) so_covered_covered2);
                        [|exact H|exact Hh|exact HI|exact I|exact OK]].
    - intros r sp' (h' & w' & E & H' & Hh' & HI' & _ & D' & F'). exists h', w'. auto 7.
    - intros d0 w0 h0 c sp0 H0 Hh0 W0 _ Hc. eapply cwp_mono; [|eapply (so_cq_stored fl rv_fixed); eassumption].
      intros r sp' (h' & w' & E & H' & Hh' & D' & F'). exists h', w'. auto 7.
  Qed.
End Hist2.
