(* C21 — Deserializing arbitrary bytes never crashes.
   The statements; the proof is in theories/CodecProofs.v, closed witnesses are evaluated here. *)
From Agdb Require Import Bytes Utf8 Codec CodecProofs.
Open Scope N_scope.

(* For every type description whose vector elements occupy at least one byte,
   every input a Rust slice can hold, and both build profiles, the decoder (as
   repaired by the fix: commit, guards_fixed) returns a value or an error —
   never Panic, never an allocation request larger than 64*(|input|+1) bytes,
   never out of fuel — and a decoded value never claims more bytes than the
   input has. *)
Theorem C21_total :
  forall (p : profile) (t : ty) (bs : bytes),
    lenN bs < two60 -> ty_ok t = true ->
    match dec p guards_fixed t bs with
    | Ok (_, n) => min_size t <= n /\ n <= lenN bs
    | Err => True
    | Panic | Alloc | Fuel => False
    end.
Proof. exact dec_total. Qed.
Print Assumptions C21_total.

(* The decoder as it was before the fix: commit violates the property; these
   witnesses are replayed on the implementation by the check (corpus). *)
Theorem C21_pinned_refuted_vec_capacity :
  dec Release guards_pinned (TVec TI64) (le64 2305843009213693952) = Panic.
Proof. vm_compute. reflexivity. Qed.
Print Assumptions C21_pinned_refuted_vec_capacity.

Theorem C21_pinned_refuted_vec_alloc :
  dec Release guards_pinned (TVec TI64) (le64 1099511627776) = Alloc.
Proof. vm_compute. reflexivity. Qed.
Print Assumptions C21_pinned_refuted_vec_alloc.

Theorem C21_pinned_refuted_time :
  dec Release guards_pinned TTime (le64 18446744073709551615 ++ le32 4294967295 ++ [x01]) = Panic.
Proof. vm_compute. reflexivity. Qed.
Print Assumptions C21_pinned_refuted_time.

Theorem C21_pinned_refuted_string :
  dec Debug guards_pinned TStr (le64 18446744073709551615) = Panic.
Proof. vm_compute. reflexivity. Qed.
Print Assumptions C21_pinned_refuted_string.
