(* OpenFileProofs.v — C07: totality of the storage layer's open path (lemmas about OpenFile.v). *)
From Agdb Require Import Bytes BytesProofs OpenFile.
From Coq Require Import ZifyBool ZifyNat ZifyN.
Ltac Zify.zify_post_hook ::= Z.div_mod_to_equations.
Open Scope N_scope.

(* returns a value or an error: no panic, no allocation above the limit, no non-termination *)
Definition ok2 {A} (r : ores A) : Prop :=
  match r with OOk _ | OErr => True | _ => False end.

(* ... except for the one known class: the record table request, and then it really exceeds the limit *)
Definition okt (limit : N) {A} (r : ores A) : Prop :=
  match r with
  | OOk _ | OErr => True
  | OAlloc ATable n => limit < n
  | _ => False
  end.

Lemma ok2_okt limit {A} (r : ores A) : ok2 r -> okt limit r.
Proof. destruct r as [a| | |s n|]; cbn; tauto. Qed.

Lemma ok2_bind {A B} (r : ores A) (f : A -> ores B) :
  ok2 r -> (forall a, r = OOk a -> ok2 (f a)) -> ok2 (rbind r f).
Proof. destruct r as [a| | |s n|]; cbn; try tauto. intros _ H. now apply H. Qed.

Lemma okt_bind limit {A B} (r : ores A) (f : A -> ores B) :
  okt limit r -> (forall a, r = OOk a -> okt limit (f a)) -> okt limit (rbind r f).
Proof. destruct r as [a| | |s n|]; cbn; try tauto. intros _ H. now apply H. Qed.

Lemma lenN_sub_le d pos len : lenN (sub d pos len) <= len.
Proof. unfold sub, lenN. rewrite firstn_length. lia. Qed.

Lemma lenN_zeros n : lenN (zeros n) = n.
Proof. unfold zeros, lenN. rewrite repeat_length. lia. Qed.

Lemma lenN_put d pos bs : pos <= lenN d -> lenN (put d pos bs) <= N.max (lenN d) (pos + lenN bs).
Proof.
  unfold put, lenN. intros H. rewrite !app_length, firstn_length, skipn_length. lia.
Qed.

Lemma lenN_firstn_le {A} (d : list A) n : lenN (firstn n d) <= lenN d.
Proof. unfold lenN. rewrite firstn_length. lia. Qed.

Lemma lenN_firstn_n {A} (d : list A) n : lenN (firstn (N.to_nat n) d) <= n.
Proof. unfold lenN. rewrite firstn_length. lia. Qed.

(* replay with the position check (og_wal_pos): a record can only be applied inside the file or at its
   end, so it extends the file by at most its own payload, and the whole replay by at most the log *)
Theorem replay_record_bound be limit d pos v d' :
  wal_apply_rec og_fixed be limit d (pos, v) = OOk d' -> pos <= lenN d /\ lenN d' <= N.max (lenN d) (pos + lenN v).
Proof.
  unfold wal_apply_rec. cbn [og_wal_pos og_fixed andb].
  destruct (lenN d <? pos) eqn:E1; [discriminate|].
  destruct (i64_max <? pos) eqn:E2; [discriminate|]. cbn [andb].
  destruct v as [|b v'].
  - intros H. injection H as <-. split; [lia|].
    rewrite lenN_app, lenN_zeros. pose proof (lenN_firstn_n d pos). lia.
  - intros H. injection H as <-. split; [lia|].
    replace (pos - lenN d) with 0 by lia. change (zeros 0) with (@nil byte). rewrite app_nil_r.
    apply lenN_put. lia.
Qed.

Definition wal_len (wal : option bytes) : N := match wal with Some w => lenN w | None => 0 end.

Section Fixed.
  Variable be : backend.
  Variable limit : N.
  Hypothesis limit_small : limit <= isize_max.

  Notation G := og_fixed.

  Lemma alloc_req_ok s n : n <= limit -> alloc_req limit s n = OOk tt.
  Proof.
    intros H. unfold alloc_req.
    destruct (isize_max <? n) eqn:E1; [lia|].
    destruct (limit <? n) eqn:E2; [lia|]. reflexivity.
  Qed.

  (* the framing `repair` accepts: from p, complete records with non-negative sizes up to exactly L *)
  Inductive chain (w : bytes) (L : N) : N -> Prop :=
  | chain_end : chain w L L
  | chain_rec p : p + 16 + de (sub w (p + 8) 8) <= L ->
                  chain w L (p + 16 + de (sub w (p + 8) 8)) -> chain w L p.

  Lemma chain_le w L p : chain w L p -> p <= L.
  Proof. induction 1; lia. Qed.

  Lemma wal_repair_fixed fuel w pos :
    pos <= lenN w -> lenN w < pos + 16 * N.of_nat fuel ->
    exists L, wal_repair G fuel w pos = OOk L /\ chain w L pos /\ L <= lenN w.
  Proof.
    revert pos. induction fuel as [|f IH]; intros pos Hp Hf; [lia|].
    cbn [wal_repair]. cbv zeta.
    destruct (lenN w <=? pos) eqn:E1.
    { exists (lenN w). replace pos with (lenN w) by lia. repeat split; [constructor|lia]. }
    destruct (lenN w <? pos + 16) eqn:E2.
    { exists pos. repeat split; [constructor|lia]. }
    destruct (de (sub w (pos + 8) 8) <? two63) eqn:E3.
    - destruct (i64_max <? pos + 16 + de (sub w (pos + 8) 8)) eqn:E4.
      { exists pos. repeat split; [constructor|lia]. }
      destruct (lenN w <? pos + 16 + de (sub w (pos + 8) 8)) eqn:E5.
      { exists pos. repeat split; [constructor|lia]. }
      destruct (IH (pos + 16 + de (sub w (pos + 8) 8))) as (L & HL & Hc & Hle); [lia|lia|].
      exists L. split; [exact HL|]. split; [|exact Hle].
      apply chain_rec; [|exact Hc]. apply chain_le in Hc. lia.
    - destruct (pos + 16 <? two64 - de (sub w (pos + 8) 8)) eqn:E4.
      { exists pos. repeat split; [constructor|lia]. }
      cbn [og_wal_framed og_fixed]. exists pos. repeat split; [constructor|lia].
  Qed.

  (* total payload of a list of log records *)
  Definition vsum (rs : list (N * bytes)) : N := fold_right (fun r a => lenN (snd r) + a) 0 rs.

  Lemma wal_records_chain fuel w L p acc :
    chain w L p -> L <= limit -> L < p + 16 * N.of_nat fuel ->
    exists rs, wal_records limit fuel w L p acc = OOk rs /\ vsum rs + p <= vsum acc + L.
  Proof.
    intros Hc HL. revert fuel acc. induction Hc as [|p Hle Hc IH]; intros fuel acc Hf.
    - destruct fuel as [|f]; [lia|]. cbn [wal_records].
      replace (L <=? L) with true by lia. exists acc. split; [reflexivity|lia].
    - destruct fuel as [|f]; [lia|]. cbn [wal_records]. cbv zeta.
      pose proof (chain_le _ _ _ Hc) as Hn.
      destruct (L <=? p) eqn:E1; [lia|].
      destruct (L <? p + 16) eqn:E2; [lia|].
      rewrite alloc_req_ok by lia. cbn [rbind].
      destruct (L <? p + 16 + de (sub w (p + 8) 8)) eqn:E3; [lia|].
      destruct (IH f ((de (sub w p 8), sub w (p + 16) (de (sub w (p + 8) 8))) :: acc)) as (rs & Hrs & Hs); [lia|].
      exists rs. split; [exact Hrs|].
      cbn [vsum fold_right snd] in Hs. fold (vsum acc) in Hs.
      pose proof (lenN_sub_le w (p + 16) (de (sub w (p + 8) 8))). lia.
  Qed.

  Lemma apply_rec_fixed d pos v :
    ok2 (wal_apply_rec G be limit d (pos, v)) /\
    forall d', wal_apply_rec G be limit d (pos, v) = OOk d' -> lenN d' <= lenN d + lenN v.
  Proof.
    split; [|intros d' H; apply replay_record_bound in H; lia].
    unfold wal_apply_rec. cbn [og_wal_pos og_fixed andb].
    destruct (lenN d <? pos); [exact I|]. destruct (i64_max <? pos); [exact I|]. destruct v; exact I.
  Qed.

  Lemma apply_all_fixed rs : forall d,
    ok2 (wal_apply_all G be limit rs d) /\
    forall d', wal_apply_all G be limit rs d = OOk d' -> lenN d' <= lenN d + vsum rs.
  Proof.
    induction rs as [|[pos v] rs IH]; intros d; cbn [wal_apply_all].
    - split; [exact I|]. intros d' H. injection H as <-. cbn [vsum fold_right]. lia.
    - destruct (apply_rec_fixed d pos v) as (Hok & Hlen).
      destruct (wal_apply_rec G be limit d (pos, v)) as [d1| | |s n|] eqn:E; cbn [rbind]; cbn in Hok; try tauto.
      + destruct (IH d1) as (Hok1 & Hlen1). split; [exact Hok1|].
        intros d' H. specialize (Hlen1 d' H). specialize (Hlen d1 eq_refl).
        cbn [vsum fold_right snd]. fold (vsum rs). lia.
      + split; [exact I|discriminate].
  Qed.

  Lemma recover_fixed data wal :
    lenN wal <= limit ->
    ok2 (wal_recover G be limit data wal) /\
    forall d, wal_recover G be limit data wal = OOk d -> lenN d <= lenN data + lenN wal.
  Proof.
    intros Hw. unfold wal_recover.
    destruct (wal_repair_fixed (S (length wal)) wal 0) as (L & HL & Hc & Hle); [lia|unfold lenN; lia|].
    rewrite HL. cbn [rbind].
    destruct (wal_records_chain (S (length wal)) wal L 0 [] Hc) as (rs & Hrs & Hs); [lia|unfold lenN in *; lia|].
    rewrite Hrs. cbn [rbind]. cbn [vsum fold_right] in Hs.
    destruct (apply_all_fixed rs data) as (Hok & Hlen). split; [exact Hok|].
    intros d H. specialize (Hlen d H). lia.
  Qed.

  Lemma recover_fixed_opt data wal :
    lenN data + wal_len wal <= limit ->
    ok2 (wal_recover G be limit data (match wal with Some w => w | None => [] end)) /\
    forall d, wal_recover G be limit data (match wal with Some w => w | None => [] end) = OOk d ->
              lenN d <= lenN data + wal_len wal.
  Proof.
    intros Hl. destruct wal as [w|]; cbn [wal_len] in *.
    - apply recover_fixed. lia.
    - destruct (recover_fixed data [] ltac:(unfold lenN; cbn; lia)) as (Hok & Hlen). split; [exact Hok|].
      intros d H. specialize (Hlen d H). unfold lenN in *. cbn [length] in *. lia.
  Qed.

  Lemma backend_new_fixed data wal :
    lenN data + wal_len wal <= limit ->
    ok2 (backend_new G be limit data wal) /\
    forall d, backend_new G be limit data wal = OOk d ->
              lenN d <= lenN data + wal_len wal.
  Proof.
    intros Hl. pose proof (recover_fixed_opt data wal Hl) as (Hok & Hlen).
    unfold backend_new. destruct be.
    - (* file *) split; [exact Hok|exact Hlen].
    - (* memory *)
      rewrite alloc_req_ok by lia. cbn [rbind]. split; [exact I|]. intros d H. injection H as <-. lia.
    - (* mapped *)
      destruct (wal_recover _ _ _ _ _) as [d| | |s n|] eqn:E;
        cbn [rbind]; cbn in Hok; try tauto; try (split; [exact I|discriminate]).
      + specialize (Hlen d eq_refl). rewrite alloc_req_ok by lia. cbn [rbind].
        split; [exact I|]. intros d' H. injection H as <-. exact Hlen.
  Qed.

  Lemma sread_fixed d pos len : lenN d <= limit -> ok2 (sread G be limit d pos len).
  Proof.
    intros Hd. unfold sread.
    destruct (pos + len <=? lenN d) eqn:E.
    - destruct be; try exact I. rewrite alloc_req_ok by lia. exact I.
    - cbn [og_read_checked og_fixed]. exact I.
  Qed.

  Lemma read_record_fixed d pos : lenN d <= limit -> ok2 (read_record G be limit d pos).
  Proof.
    intros Hd. unfold read_record. apply ok2_bind; [now apply sread_fixed|]. intros b _. exact I.
  Qed.

  Lemma table_req_fixed tlen cap index : okt limit (table_req G limit tlen cap index).
  Proof.
    unfold table_req. destruct (index <? tlen); [exact I|].
    destruct (index + 1 <=? cap); [exact I|]. cbv zeta. cbn [og_table_checked og_fixed].
    destruct (isize_max <? _); [exact I|].
    destruct (limit <? 24 * N.max (N.max (2 * cap) (index + 1)) 4) eqn:E; [cbn; lia|exact I].
  Qed.

  Lemma read_loop_fixed fuel d : lenN d <= limit ->
    forall pos tlen cap tab, pos <= lenN d + 32 -> lenN d + 32 < pos + 16 * N.of_nat fuel ->
    okt limit (read_loop G be limit fuel d pos tlen cap tab).
  Proof.
    intros Hd. induction fuel as [|f IH]; intros pos tlen cap tab Hp Hf.
    - (* the fuel cannot run out: a record never ends more than 32 bytes past the end *)
      lia.
    - cbn [read_loop]. cbv zeta.
      destruct (lenN d <=? pos) eqn:E1; [exact I|].
      apply okt_bind; [apply ok2_okt, read_record_fixed, Hd|].
      intros [index size] _.
      destruct (lenN d - pos + 16 <? size) eqn:E2; [exact I|].
      destruct (index =? 0).
      + apply IH; lia.
      + apply okt_bind; [apply table_req_fixed|]. intros [tlen' cap'] _. apply IH; lia.
  Qed.

  Lemma read_records_fixed d : lenN d + 24 <= limit -> okt limit (read_records G be limit d).
  Proof.
    intros Hd. unfold read_records.
    apply okt_bind.
    - apply ok2_okt. destruct (16 <=? lenN d); [|exact I].
      apply ok2_bind; [apply read_record_fixed; lia|]. intros [index size] _.
      destruct (index =? 0); [|exact I]. destruct (size <? 8); [exact I|].
      apply ok2_bind; [apply sread_fixed; lia|]. intros b _. exact I.
    - intros version _. destruct (1 <? version); [exact I|].
      apply okt_bind.
      + apply ok2_okt. destruct (version =? 1); [exact I|].
        rewrite alloc_req_ok by lia. exact I.
      + intros d' Hd'.
        assert (Hl : lenN d' <= limit).
        { destruct (version =? 1).
          - assert (E : d = d') by congruence. subst d'. lia.
          - rewrite alloc_req_ok in Hd' by lia. cbn [rbind] in Hd'.
            assert (E : version_header ++ d = d') by congruence. subst d'.
            rewrite lenN_app. change (lenN version_header) with 24. lia. }
        apply okt_bind.
        * apply read_loop_fixed; [exact Hl|lia|unfold lenN; lia].
        * intros tab _. exact I.
  Qed.

  Theorem open_bytes_fixed data wal :
    lenN data + wal_len wal + 24 <= limit ->
    okt limit (open_bytes G be limit data wal).
  Proof.
    intros Hl. unfold open_bytes.
    destruct (backend_new_fixed data wal ltac:(lia)) as (Hok & Hlen).
    apply okt_bind; [now apply ok2_okt|].
    intros d Hd. apply read_records_fixed. specialize (Hlen d Hd). lia.
  Qed.

  (* what `open` hands out keeps the file within the limit, so later reads allocate within it too *)
  Lemma read_records_data d st :
    lenN d + 24 <= limit -> read_records G be limit d = OOk st -> lenN (o_data st) <= limit.
  Proof.
    intros Hd. unfold read_records.
    destruct (if 16 <=? lenN d then _ else _) as [version| | |s n|]; cbn [rbind]; try discriminate.
    destruct (1 <? version); [discriminate|].
    destruct (version =? 1).
    - cbn [rbind]. destruct (read_loop _ _ _ _ _ _ _ _ _) as [tab| | |s n|]; cbn [rbind]; try discriminate.
      intros H. injection H as <-. cbn [o_data]. lia.
    - rewrite alloc_req_ok by lia. cbn [rbind].
      destruct (read_loop _ _ _ _ _ _ _ _ _) as [tab| | |s n|]; cbn [rbind]; try discriminate.
      intros H. assert (E : o_data st = version_header ++ d) by (inversion H; reflexivity).
      rewrite E, lenN_app. change (lenN version_header) with 24. lia.
  Qed.

  Theorem open_bytes_data data wal st :
    lenN data + wal_len wal + 24 <= limit ->
    open_bytes G be limit data wal = OOk st -> lenN (o_data st) <= limit.
  Proof.
    intros Hl. unfold open_bytes.
    destruct (backend_new_fixed data wal ltac:(lia)) as (_ & Hlen).
    destruct (backend_new G be limit data wal) as [d| | |s n|]; cbn [rbind]; try discriminate.
    specialize (Hlen d eq_refl). apply read_records_data. lia.
  Qed.

  Theorem value_as_bytes_fixed st i :
    lenN (o_data st) <= limit -> ok2 (value_as_bytes G be limit st i).
  Proof.
    intros Hd. unfold value_as_bytes.
    destruct (table_get i (o_table st)) as [[pos size]|]; [|exact I].
    now apply sread_fixed.
  Qed.
End Fixed.

Theorem recovery_length_bound be limit data wal :
  limit <= isize_max -> lenN wal <= limit ->
  ok2 (wal_recover og_fixed be limit data wal) /\
  forall d, wal_recover og_fixed be limit data wal = OOk d -> lenN d <= lenN data + lenN wal.
Proof. intros H1 H2. now apply recover_fixed. Qed.

(* with the limit of the property: 1024 * (|data| + |log|) + 65536 *)

(* inputs a file system can hold *)
Definition realistic (data : bytes) (wal : option bytes) : Prop := lenN data + wal_len wal <= 1125899906842624.  (* 2^50 *)

Lemma limit_facts data wal : realistic data wal ->
  alloc_limit (lenN data) (wal_len wal) <= isize_max /\
  lenN data + wal_len wal + 24 <= alloc_limit (lenN data) (wal_len wal).
Proof. unfold realistic, alloc_limit, isize_max, two63. lia. Qed.

(* witnesses: the code before the repairs, and the known class *)

Definition og_current : oguards :=   (* /repo after 51d65f2 and before fixes/C07-wal-position.diff: all but the log position check *)
  {| og_read_checked := true; og_table_checked := true; og_wal_framed := true; og_wal_pos := false |}.

(* 17 bytes: the version record promises 8 value bytes, one is there *)
Definition ex_short : bytes := le64 0 ++ le64 8 ++ [x01].
(* a record header with index 2^40 after the version record *)
Definition ex_big_index : bytes := version_header ++ le64 1099511627776 ++ le64 0.
(* index u64::MAX *)
Definition ex_max_index : bytes := version_header ++ le64 18446744073709551615 ++ le64 0.
(* a record whose size passes the lenient check (remaining + 16) but not the file *)
Definition ex_lenient : bytes := version_header ++ le64 1 ++ le64 20 ++ [x61; x62; x63; x64].
(* the version record claims 2^40 value bytes *)
Definition ex_version_size : bytes := le64 0 ++ le64 1099511627776 ++ le64 1.
(* an intact file: one record with three bytes *)
Definition ex_intact : bytes := version_header ++ le64 1 ++ le64 3 ++ [x61; x62; x63].
(* recovery logs *)
Definition ex_log_back16 : bytes := le64 0 ++ le64 18446744073709551600.          (* size = -16: seeks back to itself *)
Definition ex_log_back8 : bytes := le64 0 ++ le64 18446744073709551608 ++ repeat x00 24.   (* size = -8 *)
Definition ex_log_far : bytes := le64 1099511627776 ++ le64 0.                     (* truncate at 2^40 *)

Definition cls (g : oguards) (be : backend) (data : bytes) (wal : option bytes) : N :=
  ores_class (open_file g be data wal).
(* classes: 0 opens, 1 error, 2 panic, 3 allocation (buffer), 4 allocation (record table), 5 no termination *)
