(* RaftProofs.v — the properties C27–C29 of the consensus model Raft.v as propositions, the soundness of their boolean
   observations, and the refutations by witness event lists. *)
From Coq Require Import NArith List Bool Lia Arith.
From Agdb Require Import Raft RaftWitness.
Import ListNotations.
Open Scope N_scope.

(* C27: no two distinct nodes ever were Leader with the same term *)
Definition election_safety (h : list ghost) : Prop :=
  forall i j t, In (i, t) (leaders h) -> In (j, t) (leaders h) -> i = j.

(* C28c: two nodes hold the same entry at every index both have committed *)
Definition committed_agree (c : cluster) : Prop :=
  forall a b, In a (c_nodes c) -> In b (c_nodes c) ->
  forall idx, 1 <= idx -> idx <= n_commit a -> idx <= n_commit b ->
  log_at (n_logs a) idx = log_at (n_logs b) idx.

(* C29: an entry committed by a leader is in the log of every node that becomes leader later *)
Definition leader_completeness (h : list ghost) : Prop :=
  forall h1 h2 i t idx e j t' log,
    h = h1 ++ GCommit i true t idx e :: h2 -> In (GLeader j t' log) h2 -> log_at log idx = e.

Definition commit_of (c : cluster) (i : nat) : N :=
  match nth_error (c_nodes c) i with Some nd => n_commit nd | None => 0 end.
Definition logs_of (c : cluster) (i : nat) : list entry :=
  match nth_error (c_nodes c) i with Some nd => n_logs nd | None => [] end.

Lemma entry_eqb_eq : forall a b, entry_eqb a b = true <-> a = b.
Proof.
  intros [ai at_ ad] [bi bt bd]; unfold entry_eqb; cbn.
  rewrite !andb_true_iff, !N.eqb_eq. split.
  - intros [[-> ->] ->]; reflexivity.
  - intros H; inversion H; auto.
Qed.

Lemma oentry_eqb_eq : forall a b, oentry_eqb a b = true <-> a = b.
Proof.
  intros [a|] [b|]; cbn; try (split; congruence).
  rewrite entry_eqb_eq. split; congruence.
Qed.

Lemma election_safety_b_sound : forall h, election_safety h -> election_safety_b h = true.
Proof.
  intros h H. unfold election_safety_b.
  apply forallb_forall; intros [i t] Hi. apply forallb_forall; intros [j t'] Hj. cbn.
  destruct (N.eqb_spec t t') as [->|]; cbn; auto.
  apply N.eqb_eq. eapply H; eauto.
Qed.

Lemma election_safety_b_complete : forall h, election_safety_b h = true -> election_safety h.
Proof.
  intros h H i j t Hi Hj. unfold election_safety_b in H.
  rewrite forallb_forall in H. specialize (H _ Hi). rewrite forallb_forall in H. specialize (H _ Hj).
  cbn in H. rewrite N.eqb_refl in H. cbn in H. apply N.eqb_eq; exact H.
Qed.

Lemma range_from_In : forall k a x, In x (range_from a k) <-> a <= x /\ x < a + N.of_nat k.
Proof.
  induction k; intros a x; cbn [range_from].
  - cbn. lia.
  - cbn [In]. rewrite IHk. lia.
Qed.

Lemma committed_agree_b_sound : forall c, committed_agree c -> committed_agree_b c = true.
Proof.
  intros c H. unfold committed_agree_b.
  apply forallb_forall; intros a Ha. apply forallb_forall; intros b Hb.
  apply forallb_forall; intros idx Hidx. apply range_from_In in Hidx.
  apply oentry_eqb_eq. apply H; auto; lia.
Qed.

Lemma committed_agree_b_complete : forall c, committed_agree_b c = true -> committed_agree c.
Proof.
  intros c H a b Ha Hb idx H1 H2 H3. unfold committed_agree_b in H.
  rewrite forallb_forall in H. specialize (H _ Ha). rewrite forallb_forall in H. specialize (H _ Hb).
  rewrite forallb_forall in H. apply oentry_eqb_eq. apply H. apply range_from_In. lia.
Qed.

Lemma leader_completeness_b_sound : forall h, leader_completeness h -> leader_completeness_b h = true.
Proof.
  induction h as [|g h IH]; intros H; cbn [leader_completeness_b]; auto.
  assert (Hrest : leader_completeness h).
  { intros h1 h2 i t idx e j t' log -> Hin. eapply (H (g :: h1)); [reflexivity | exact Hin]. }
  specialize (IH Hrest).
  destruct g as [| | | i [|] t idx e | | |]; auto.
  rewrite IH, andb_true_r. apply forallb_forall; intros g Hg.
  destruct g as [| | j t' log | | | |]; auto.
  apply oentry_eqb_eq. eapply (H []); [reflexivity | exact Hg].
Qed.

Lemma leader_completeness_b_complete : forall h, leader_completeness_b h = true -> leader_completeness h.
Proof.
  induction h as [|g h IH]; intros H h1 h2 i t idx e j t' log Heq Hin.
  - destruct h1; discriminate.
  - destruct h1 as [|g1 h1]; cbn in Heq; inversion Heq; subst.
    + cbn [leader_completeness_b] in H. apply andb_true_iff in H as [H _].
      rewrite forallb_forall in H. specialize (H _ Hin). cbn in H. apply oentry_eqb_eq; exact H.
    + eapply IH; [|reflexivity|exact Hin].
      cbn [leader_completeness_b] in H.
      destruct g1 as [| | | ? [|] ? ? ? | | |]; auto. apply andb_true_iff in H as [_ H]; exact H.
Qed.

(* refutations (witness event lists, vm_compute)
   `rr_pinned` = raft.rs before the repairs, `rr_before_ack_fix` = after the two election repairs, `rr_fixed` = after
   these and the acknowledgement repair (Raft.v: raftrev).
   The witnesses of the election defects are about `rr_pinned` (and about the revisions with only one of the two
   election repairs, whatever the third flag); the witnesses of the log-replication defects `ack-from-diverged-log`
   and `old-term-commit` hold for EVERY revision; those of `commit-without-quorum` (RaftLogProofs.v) for every revision
   without the acknowledgement repair. *)

Definition rr_only_term (a : bool) : raftrev := mkRev true false a.    (* only `vote_request` adopts the term *)
Definition rr_only_match (a : bool) : raftrev := mkRev false true a.   (* only `response()` checks the term *)

(* C27 is false of the faithful model.  Witness 1 (3 nodes): node 2 answers Ok to the Vote requests of two
   candidates of term 1, because voting does not raise its term and `Voted(1)` is forgotten on term timeout. *)
Lemma w27_double_vote_facts :
  let h := c_hist (run rr_pinned w27_double_vote_n w27_double_vote) in
  election_safety_b h = false /\ double_vote_b h = true /\ stale_vote_b h = false.
Proof. vm_compute. auto. Qed.

(* Witness 2 (5 nodes): nobody supports two candidates in one term, but candidate 0 counts a stale Ok. *)
Lemma w27_stale_vote_facts :
  let h := c_hist (run rr_pinned w27_stale_vote_n w27_stale_vote) in
  election_safety_b h = false /\ double_vote_b h = false /\ stale_vote_b h = true.
Proof. vm_compute. auto. Qed.

Lemma C27_refuted_double_vote :
  ~ (forall size evs, election_safety (c_hist (run rr_pinned size evs))).
Proof.
  intros H. specialize (H w27_double_vote_n w27_double_vote).
  apply election_safety_b_sound in H. destruct w27_double_vote_facts as [F _]. cbv zeta in F. congruence.
Qed.

Lemma C27_refuted_stale_vote :
  exists size evs, double_vote_b (c_hist (run rr_pinned size evs)) = false /\
                   ~ election_safety (c_hist (run rr_pinned size evs)).
Proof.
  exists w27_stale_vote_n, w27_stale_vote. destruct w27_stale_vote_facts as [F [D _]]. cbv zeta in F, D.
  split; [exact D|]. intros H. apply election_safety_b_sound in H. congruence.
Qed.

(* each repair alone is not enough: with only the term check in `response()` the double-vote witness still has two
   leaders of term 1; with only the term adoption in `vote_request` the stale-vote witness still has *)
Lemma w27_single_repair_facts : forall a,
  election_safety_b (c_hist (run (rr_only_match a) w27_double_vote_n w27_double_vote)) = false /\
  election_safety_b (c_hist (run (rr_only_term a) w27_stale_vote_n w27_stale_vote)) = false /\
  election_safety_b (c_hist (run (mkRev false false a) w27_double_vote_n w27_double_vote)) = false.
Proof. intros [|]; vm_compute; auto. Qed.

(* every revision that lacks one of the two ELECTION repairs violates the property (the third flag, the acknowledgement
   repair, is irrelevant for elections: with both election repairs the property holds whatever its value,
   RaftVote.election_safety_elect_fixed) *)
Lemma C27_refuted_unless_both_repairs :
  forall rv, fix_vote_term rv && fix_vote_match rv = false ->
             ~ (forall size evs, election_safety (c_hist (run rv size evs))).
Proof.
  intros [[|] [|] a] Hne H; cbn in Hne; try discriminate.
  - specialize (H w27_stale_vote_n w27_stale_vote). apply election_safety_b_sound in H.
    destruct (w27_single_repair_facts a) as [_ [F _]]. unfold rr_only_term in F. congruence.
  - specialize (H w27_double_vote_n w27_double_vote). apply election_safety_b_sound in H.
    destruct (w27_single_repair_facts a) as [F _]. unfold rr_only_match in F. congruence.
  - specialize (H w27_double_vote_n w27_double_vote). apply election_safety_b_sound in H.
    destruct (w27_single_repair_facts a) as [_ [_ F]]. congruence.
Qed.

(* which of the five decidable defect classes occur in a history:
   (double vote, stale vote counted, ack from diverged log, old-term commit, ack below voted term) *)
Definition classes (h : list ghost) : bool * bool * bool * bool * bool :=
  (double_vote_b h, stale_vote_b h, ack_diverged_b h, old_term_commit_b h, ack_below_vote_b h).

(* C28c.  The first two witnesses do not depend on the election repairs: the same facts for every revision. *)
Lemma w28_facts_any : forall rv,
  (let c := run rv w28_ack_diverged_n w28_ack_diverged in
   committed_agree_b c = false /\ election_safety_b (c_hist c) = true /\
   classes (c_hist c) = (false, false, true, false, false)) /\
  (let c := run rv w28_old_term_commit_n w28_old_term_commit in
   committed_agree_b c = false /\ election_safety_b (c_hist c) = true /\
   classes (c_hist c) = (false, false, false, true, false)).
Proof. intros [[|] [|] [|]]; vm_compute; repeat split; reflexivity. Qed.

(* the witnesses through "voting does not raise the term" and through the election defects: before the repairs *)
Lemma w28_facts_pinned :
  (let c := run rr_pinned w28_ack_below_vote_n w28_ack_below_vote in
   committed_agree_b c = false /\ election_safety_b (c_hist c) = true /\
   classes (c_hist c) = (false, false, false, false, true)) /\
  (let c := run rr_pinned w28_double_vote_n w28_double_vote in committed_agree_b c = false /\ double_vote_b (c_hist c) = true) /\
  (let c := run rr_pinned w28_stale_vote_n w28_stale_vote in committed_agree_b c = false /\ stale_vote_b (c_hist c) = true).
Proof. vm_compute. repeat split; reflexivity. Qed.

Lemma C28c_refuted : forall rv, ~ (forall size evs, committed_agree (run rv size evs)).
Proof.
  intros rv H. specialize (H w28_ack_diverged_n w28_ack_diverged).
  apply committed_agree_b_sound in H. destruct (w28_facts_any rv) as [[F _] _]. cbv zeta in F. congruence.
Qed.

(* agreement fails in histories with one leader per term in which exactly one defect class occurs:
   independent causes *)
Definition refuted_agree_with (rv : raftrev) (cl : bool * bool * bool * bool * bool) : Prop :=
  exists size evs, let c := run rv size evs in
    election_safety (c_hist c) /\ classes (c_hist c) = cl /\ ~ committed_agree c.

Lemma refuted_agree_witness : forall rv n evs cl,
  (let c := run rv n evs in
   committed_agree_b c = false /\ election_safety_b (c_hist c) = true /\ classes (c_hist c) = cl) ->
  refuted_agree_with rv cl.
Proof.
  intros rv n evs cl (F & E & C). exists n, evs. cbv zeta. repeat split; auto.
  - apply election_safety_b_complete; exact E.
  - intros H. apply committed_agree_b_sound in H. congruence.
Qed.

Lemma C28c_refuted_ack_diverged : forall rv, refuted_agree_with rv (false, false, true, false, false).
Proof. intros rv. eapply refuted_agree_witness. apply (proj1 (w28_facts_any rv)). Qed.

Lemma C28c_refuted_old_term_commit : forall rv, refuted_agree_with rv (false, false, false, true, false).
Proof. intros rv. eapply refuted_agree_witness. apply (proj2 (w28_facts_any rv)). Qed.

Lemma C28c_refuted_ack_below_vote : refuted_agree_with rr_pinned (false, false, false, false, true).
Proof. eapply refuted_agree_witness. apply (proj1 w28_facts_pinned). Qed.

Lemma w29_facts_any : forall rv,
  (let h := c_hist (run rv w29_old_term_commit_n w29_old_term_commit) in
   leader_completeness_b h = false /\ election_safety_b h = true /\ classes h = (false, false, false, true, false)) /\
  (let h := c_hist (run rv w29_ack_diverged_n w29_ack_diverged) in
   leader_completeness_b h = false /\ election_safety_b h = true /\ classes h = (false, false, true, false, false)).
Proof. intros [[|] [|] [|]]; vm_compute; repeat split; reflexivity. Qed.

Lemma w29_facts_pinned :
  (let h := c_hist (run rr_pinned w29_ack_below_vote_n w29_ack_below_vote) in
   leader_completeness_b h = false /\ election_safety_b h = true /\ classes h = (false, false, false, false, true)) /\
  (let h := c_hist (run rr_pinned w29_double_vote_n w29_double_vote) in leader_completeness_b h = false /\ double_vote_b h = true) /\
  (let h := c_hist (run rr_pinned w29_stale_vote_n w29_stale_vote) in leader_completeness_b h = false /\ stale_vote_b h = true).
Proof. vm_compute. repeat split; reflexivity. Qed.

Lemma C29_refuted : forall rv, ~ (forall size evs, leader_completeness (c_hist (run rv size evs))).
Proof.
  intros rv H. specialize (H w29_old_term_commit_n w29_old_term_commit).
  apply leader_completeness_b_sound in H. destruct (w29_facts_any rv) as [[F _] _]. cbv zeta in F. congruence.
Qed.

Definition refuted_completeness_with (rv : raftrev) (cl : bool * bool * bool * bool * bool) : Prop :=
  exists size evs, let h := c_hist (run rv size evs) in
    election_safety h /\ classes h = cl /\ ~ leader_completeness h.

Lemma refuted_completeness_witness : forall rv n evs cl,
  (let h := c_hist (run rv n evs) in
   leader_completeness_b h = false /\ election_safety_b h = true /\ classes h = cl) ->
  refuted_completeness_with rv cl.
Proof.
  intros rv n evs cl (F & E & C). exists n, evs. cbv zeta. repeat split; auto.
  - apply election_safety_b_complete; exact E.
  - intros H. apply leader_completeness_b_sound in H. congruence.
Qed.

Lemma C29_refuted_old_term_commit : forall rv, refuted_completeness_with rv (false, false, false, true, false).
Proof. intros rv. eapply refuted_completeness_witness. apply (proj1 (w29_facts_any rv)). Qed.

Lemma C29_refuted_ack_diverged : forall rv, refuted_completeness_with rv (false, false, true, false, false).
Proof. intros rv. eapply refuted_completeness_witness. apply (proj2 (w29_facts_any rv)). Qed.

Lemma C29_refuted_ack_below_vote : refuted_completeness_with rr_pinned (false, false, false, false, true).
Proof. eapply refuted_completeness_witness. apply (proj1 w29_facts_pinned). Qed.
