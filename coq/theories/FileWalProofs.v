(* FileWalProofs.v — C01: recovery restores the committed content at every crash cut *)
From Agdb Require Import Bytes BytesProofs FileWal.
From Coq Require Import ZifyBool ZifyNat ZifyN.
Ltac Zify.zify_post_hook ::= Z.div_mod_to_equations.
Open Scope nat_scope.
Arguments N.of_nat : simpl never.
Arguments N.to_nat : simpl never.
Arguments N.ltb : simpl never.

Lemma nth_app3 {A} (d : A) (a b c : list A) i :
  nth i (a ++ b ++ c) d =
  if Nat.ltb i (length a) then nth i a d
  else if Nat.ltb i (length a + length b) then nth (i - length a) b d
  else nth (i - length a - length b) c d.
Proof.
  destruct (Nat.ltb_spec i (length a)).
  - now rewrite app_nth1.
  - rewrite app_nth2 by lia. destruct (Nat.ltb_spec i (length a + length b)).
    + rewrite app_nth1 by lia. reflexivity.
    + rewrite app_nth2 by lia. reflexivity.
Qed.

Lemma write_at_length d pos bs : pos <= length d ->
  length (write_at d pos bs) = Nat.max (length d) (pos + length bs).
Proof.
  intros H. unfold write_at. rewrite !app_length, firstn_length, skipn_length. lia.
Qed.

Lemma write_at_nil d pos : write_at d pos [] = d.
Proof. unfold write_at. cbn [length app]. rewrite Nat.add_0_r. apply firstn_skipn. Qed.

Lemma set_len_same d : set_len d (length d) = d.
Proof. unfold set_len. rewrite firstn_all, Nat.sub_diag. cbn [repeat]. apply app_nil_r. Qed.

Lemma set_len_length d n : length (set_len d n) = n.
Proof. unfold set_len. rewrite app_length, firstn_length, repeat_length. lia. Qed.

Lemma nth_write_at (d : bytes) pos bs i : pos <= length d ->
  nth i (write_at d pos bs) x00 =
  if Nat.ltb i pos then nth i d x00
  else if Nat.ltb i (pos + length bs) then nth (i - pos) bs x00
  else nth i d x00.
Proof.
  intros H. unfold write_at. rewrite nth_app3, firstn_length.
  replace (Nat.min pos (length d)) with pos by lia.
  destruct (Nat.ltb_spec i pos).
  - now apply nth_firstn_lt.
  - destruct (Nat.ltb_spec i (pos + length bs)); [reflexivity|].
    rewrite nth_skipn_add. f_equal. lia.
Qed.

(* undoing a (possibly torn) write: restoring the recorded old bytes and the old length *)
Lemma undo_write d pos bs j :
  pos <= length d ->
  set_len (write_at (write_at d pos (firstn j bs)) pos
                    (slice_of d pos (Nat.min (length d) (pos + length bs)))) (length d) = d.
Proof.
  intros Hpos. unfold slice_of.
  set (len := length d).
  set (t := firstn j bs). assert (Ht : length t <= length bs) by (unfold t; rewrite firstn_length; lia).
  set (old := firstn (Nat.min len (pos + length bs) - pos) (skipn pos d)).
  assert (Hold : length old = Nat.min len (pos + length bs) - pos).
  { unfold old. rewrite firstn_length, skipn_length. fold len. lia. }
  assert (Hy : length (write_at d pos t) = Nat.max len (pos + length t)) by (apply write_at_length; exact Hpos).
  assert (Hx : length (write_at (write_at d pos t) pos old) = Nat.max len (pos + length t)).
  { rewrite write_at_length by lia. lia. }
  apply (nth_ext _ _ x00 x00).
  - apply set_len_length.
  - rewrite set_len_length. intros i Hi. unfold set_len.
    rewrite app_nth1 by (rewrite firstn_length; lia).
    rewrite nth_firstn_lt by exact Hi.
    rewrite nth_write_at by lia.
    destruct (Nat.ltb_spec i pos) as [H1|H1].
    + rewrite nth_write_at by exact Hpos. destruct (Nat.ltb_spec i pos); [reflexivity|lia].
    + destruct (Nat.ltb_spec i (pos + length old)) as [H2|H2].
      * unfold old. rewrite nth_firstn_lt by lia. rewrite nth_skipn_add. f_equal. lia.
      * rewrite nth_write_at by exact Hpos.
        destruct (Nat.ltb_spec i pos); [lia|].
        destruct (Nat.ltb_spec i (pos + length t)); [lia|reflexivity].
Qed.

Lemma undo_shrink d n : n <= length d -> write_at (set_len d n) n (skipn n d) = d.
Proof.
  intros H. unfold set_len, write_at.
  replace (n - length d) with 0 by lia. cbn [repeat]. rewrite app_nil_r.
  rewrite firstn_firstn. replace (Nat.min n n) with n by lia.
  rewrite skipn_length.
  rewrite (skipn_all2 (firstn n d)) by (rewrite firstn_length; lia).
  rewrite app_nil_r. apply firstn_skipn.
Qed.

Lemma undo_grow d n : length d <= n -> set_len (set_len d n) (length d) = d.
Proof.
  intros H. apply (nth_ext _ _ x00 x00).
  - apply set_len_length.
  - rewrite set_len_length. intros i Hi. unfold set_len.
    rewrite app_nth1 by (rewrite firstn_length, app_length, firstn_length, repeat_length; lia).
    rewrite nth_firstn_lt by exact Hi.
    rewrite app_nth1 by (rewrite firstn_length; lia).
    apply nth_firstn_lt. lia.
Qed.

Definition ok_rec (r : nat * bytes) : Prop :=
  (N.of_nat (fst r) < two64)%N /\ (lenN (snd r) < two64)%N.

Definition encs (rs : list (nat * bytes)) : bytes :=
  concat (map (fun r => enc_rec (fst r) (snd r)) rs).

Definition incomplete (t : bytes) : Prop :=
  length t < 16 \/ (N.of_nat (length t - 16) < de (firstn 8 (skipn 8 t)))%N.

Lemma enc_rec_length p v : length (enc_rec p v) = 16 + length v.
Proof. unfold enc_rec. rewrite !app_length, !le64_length. lia. Qed.

Lemma encs_app a b : encs (a ++ b) = encs a ++ encs b.
Proof. unfold encs. now rewrite map_app, concat_app. Qed.

Lemma encs_cons r rs : encs (r :: rs) = enc_rec (fst r) (snd r) ++ encs rs.
Proof. reflexivity. Qed.

Lemma parse_incomplete fuel t : incomplete t -> parse fuel t = [].
Proof.
  intros H. destruct fuel as [|f]; [reflexivity|]. cbn [parse].
  destruct (Nat.ltb_spec (length t) 16) as [|L]; [reflexivity|].
  destruct H as [H|H]; [lia|].
  destruct (N.ltb_spec (N.of_nat (length t - 16)) (de (firstn 8 (skipn 8 t)))); [reflexivity|lia].
Qed.

Lemma parse_step f p v rest :
  ok_rec (p, v) ->
  parse (S f) (enc_rec p v ++ rest) = (p, v) :: parse f rest.
Proof.
  intros [Hp Hv]. cbn [fst snd] in *. cbn [parse]. unfold enc_rec. rewrite <- !app_assoc.
  pose proof (le64_length (N.of_nat p)) as La. pose proof (le64_length (lenN v)) as Lb.
  rewrite !app_length, La, Lb.
  destruct (Nat.ltb_spec (8 + (8 + (length v + length rest))) 16); [lia|].
  rewrite (skipn_app_exact _ _ 8 La), (firstn_app_exact _ _ 8 Lb), (firstn_app_exact _ _ 8 La).
  rewrite !de_le64 by assumption.
  destruct (N.ltb_spec (N.of_nat (8 + (8 + (length v + length rest)) - 16)) (lenN v)) as [C|_];
    [unfold lenN in C; lia|].
  unfold lenN. rewrite !Nat2N.id.
  change (@skipn byte 16) with (@skipn byte (8 + (8 + 0))). change (16 + length v) with (8 + (8 + length v)).
  rewrite !(skipn_app_len _ _ 8) by assumption. cbn [skipn].
  now rewrite firstn_app_exact, skipn_app_exact.
Qed.

Lemma parse_encs rs : Forall ok_rec rs ->
  forall t fuel, incomplete t -> length (encs rs ++ t) < fuel -> parse fuel (encs rs ++ t) = rs.
Proof.
  induction 1 as [|r rs Hr _ IH]; intros t fuel Ht Hf.
  - cbn [encs map concat app]. now apply parse_incomplete.
  - destruct fuel as [|f]; [lia|]. destruct r as [p v]. rewrite encs_cons. cbn [fst snd].
    rewrite <- app_assoc, parse_step by exact Hr. f_equal. apply IH; [exact Ht|].
    rewrite encs_cons in Hf. cbn [fst snd] in Hf. rewrite <- app_assoc, app_length, enc_rec_length in Hf. lia.
Qed.

Lemma records_encs rs t : Forall ok_rec rs -> incomplete t -> records (encs rs ++ t) = rs.
Proof. intros H Ht. unfold records. apply parse_encs; [exact H|exact Ht|lia]. Qed.

Lemma incomplete_nil : incomplete [].
Proof. left. cbn. lia. Qed.

Lemma prefix_incomplete p v m : ok_rec (p, v) -> m < length (enc_rec p v) -> incomplete (firstn m (enc_rec p v)).
Proof.
  intros [_ Hv] Hm. cbn [snd] in Hv. rewrite enc_rec_length in Hm. unfold incomplete.
  rewrite firstn_length, enc_rec_length.
  destruct (Nat.ltb_spec m 16) as [L|L]; [left; lia|right].
  (* the first 16 bytes are intact *)
  assert (E : firstn 8 (skipn 8 (firstn m (enc_rec p v))) = le64 (lenN v)).
  { replace m with (8 + (8 + (m - 16))) by lia. unfold enc_rec.
    rewrite !(firstn_app_len _ _ 8) by apply le64_length.
    now rewrite (skipn_app_exact _ _ 8), (firstn_app_exact _ _ 8) by apply le64_length. }
  rewrite E, de_le64 by exact Hv. unfold lenN. lia.
Qed.

Lemma run_calls_app st a b : run_calls st (a ++ b) = run_calls (run_calls st a) b.
Proof. unfold run_calls. apply fold_left_app. Qed.

Lemma crash_app st a b k j :
  crash st (a ++ b) k j =
  if Nat.ltb k (length a) then crash st a k j else crash (run_calls st a) b (k - length a) j.
Proof.
  unfold crash. destruct (Nat.ltb_spec k (length a)) as [H|H].
  - rewrite firstn_app. replace (k - length a) with 0 by lia. cbn [firstn]. rewrite app_nil_r.
    rewrite nth_error_app1 by exact H. reflexivity.
  - rewrite firstn_app, (firstn_all2 a) by lia. rewrite run_calls_app.
    rewrite nth_error_app2 by exact H. reflexivity.
Qed.

Lemma crash_all st cs k j : length cs <= k -> crash st cs k j = run_calls st cs.
Proof.
  intros H. unfold crash. rewrite firstn_all2 by exact H.
  destruct (nth_error cs k) eqn:E; [|reflexivity].
  exfalso. assert (N : nth_error cs k <> None) by congruence. apply nth_error_Some in N. lia.
Qed.

Lemma firstn_min_len {A} (l : list A) j : firstn (Nat.min j (length l)) l = firstn j l.
Proof.
  destruct (Nat.le_ge_cases j (length l)).
  - now replace (Nat.min j (length l)) with j by lia.
  - replace (Nat.min j (length l)) with (length l) by lia. now rewrite firstn_all, firstn_all2.
Qed.

Lemma log_done st p v :
  run_calls st (log_calls p v) = {| data := data st; wal := wal st ++ enc_rec p v |}.
Proof. unfold run_calls, log_calls, enc_rec. cbn [fold_left apply_sys data wal]. now rewrite <- !app_assoc. Qed.

Lemma firstn_short {A} (a b : list A) j : firstn (Nat.min j (length a)) (a ++ b) = firstn j a.
Proof.
  rewrite firstn_app. replace (Nat.min j (length a) - length a) with 0 by lia. cbn [firstn].
  rewrite app_nil_r. apply firstn_min_len.
Qed.

Lemma log_crash st p v k j : k < 3 ->
  exists m, crash st (log_calls p v) k j = {| data := data st; wal := wal st ++ firstn m (enc_rec p v) |}.
Proof.
  intros Hk. unfold crash, log_calls, enc_rec.
  pose proof (le64_length (N.of_nat p)) as L1. pose proof (le64_length (lenN v)) as L2.
  destruct k as [|[|[|k]]]; [| | |lia]; cbn [firstn nth_error run_calls fold_left apply_sys apply_torn data wal].
  - exists (Nat.min j (length (le64 (N.of_nat p)))). now rewrite firstn_short.
  - exists (8 + Nat.min j (length (le64 (lenN v)))). rewrite <- app_assoc. do 2 f_equal.
    rewrite (firstn_app_len (le64 (N.of_nat p))) by exact L1. f_equal. now rewrite firstn_short.
  - exists (8 + (8 + Nat.min j (length v))). rewrite <- !app_assoc. do 2 f_equal.
    rewrite (firstn_app_len (le64 (N.of_nat p))) by exact L1. f_equal.
    rewrite (firstn_app_len (le64 (lenN v))) by exact L2. f_equal. symmetry. apply firstn_min_len.
Qed.

Definition replay_nf (rs : list (nat * bytes)) (d : bytes) : bytes := fold_left apply_rec (rev rs) d.

Lemma replay_nf_app a b d : replay_nf (a ++ b) d = replay_nf a (replay_nf b d).
Proof. unfold replay_nf. now rewrite rev_app_distr, fold_left_app. Qed.

Definition Good (d0 : bytes) (st : fstate) : Prop :=
  exists rs, wal st = encs rs /\ Forall ok_rec rs /\ replay_nf rs (data st) = d0.

Definition Safe (d0 : bytes) (st : fstate) : Prop :=
  recover walrev_fixed st = {| data := d0; wal := [] |}.

Lemma safe_tail d0 st rs t :
  wal st = encs rs ++ t -> incomplete t -> Forall ok_rec rs -> replay_nf rs (data st) = d0 -> Safe d0 st.
Proof.
  intros Hw Ht Hok Hr. unfold Safe, recover, replay. cbn [w_newest_first walrev_fixed].
  rewrite Hw, records_encs by assumption. unfold replay_nf in Hr. now rewrite Hr.
Qed.

Lemma good_committed d : Good d {| data := d; wal := [] |}.
Proof. exists []. cbn [data wal]. repeat split; constructor. Qed.

Lemma good_torn d0 d w t :
  Good d0 {| data := d; wal := w |} -> incomplete t -> Safe d0 {| data := d; wal := w ++ t |}.
Proof.
  intros (rs & Hw & Hok & Hr) Ht. cbn [data wal] in *.
  apply (safe_tail d0 _ rs t); cbn [data wal]; [now rewrite Hw|assumption..].
Qed.

(* The guarded replay of FileWal.v is the yardstick: it succeeds only if every record lies inside the
   data it is applied to, and then it is the unguarded replay.  Stated with it, the facts below serve
   the recovery of /repo and the recovery with the position guard alike. *)

Lemma apply_all_g_some rs : forall d d', apply_all_g rs d = Some d' -> fold_left apply_rec rs d = d'.
Proof.
  induction rs as [|r rs IH]; intros d d' H; cbn [apply_all_g fold_left] in *; [congruence|].
  unfold apply_rec_g in H. destruct (Nat.ltb (length d) (fst r)); [discriminate|]. now apply IH.
Qed.

Lemma replay_g_snoc ex r d : fst r <= length d ->
  replay_g walrev_fixed (ex ++ [r]) d = replay_g walrev_fixed ex (apply_rec d r).
Proof.
  intros H. unfold replay_g. cbn [w_newest_first walrev_fixed]. rewrite rev_app_distr. cbn [rev app apply_all_g].
  unfold apply_rec_g. destruct (Nat.ltb_spec (length d) (fst r)); [lia|reflexivity].
Qed.

Definition undoes (ex : list (nat * bytes)) (d' d : bytes) : Prop :=
  Forall ok_rec ex /\ replay_g walrev_fixed ex d' = Some d.

Lemma undoes_replay ex d' d : undoes ex d' d -> replay_nf ex d' = d.
Proof. intros [_ H]. now apply apply_all_g_some. Qed.

Lemma good_extend d0 d w ex d' :
  Good d0 {| data := d; wal := w |} -> undoes ex d' d -> Good d0 {| data := d'; wal := w ++ encs ex |}.
Proof.
  intros (rs & Hw & Hok & Hr) Hu. cbn [data wal] in *. exists (rs ++ ex). cbn [data wal]. repeat split.
  - now rewrite Hw, encs_app.
  - apply Forall_app. split; [exact Hok|apply Hu].
  - now rewrite replay_nf_app, (undoes_replay _ _ _ Hu).
Qed.

(* a record that describes the current content and lies inside it: logging it undoes nothing *)
Definition fits (d : bytes) (r : nat * bytes) : Prop :=
  ok_rec r /\ apply_rec d r = d /\ fst r <= length d.

Lemma fits_undoes d ex : Forall (fits d) ex -> undoes ex d d.
Proof.
  induction ex as [|r ex IH] using rev_ind; intros H; [split; [constructor|reflexivity]|].
  apply Forall_app in H as [H1 H2]. inversion H2 as [|? ? (Hok & Hsame & Hle) _]; subst.
  destruct (IH H1) as [O R]. split.
  - apply Forall_app. split; [exact O|now constructor].
  - now rewrite replay_g_snoc, Hsame.
Qed.

(* What a cut (k, j) of the calls cs issued on the files (d, w) leaves: the log extended by complete
   records ex and a torn tail t, and data d' that ex undoes.  A cut behind the last call leaves no tail
   and the data dn. *)
Definition cut_spec (d w : bytes) (cs : list sys) (dn : bytes) (k j : nat) : Prop :=
  exists ex t d',
    crash {| data := d; wal := w |} cs k j = {| data := d'; wal := w ++ encs ex ++ t |} /\
    incomplete t /\ undoes ex d' d /\ (length cs <= k -> t = [] /\ d' = dn).

Definition logs (extra : list (nat * bytes)) : list sys :=
  concat (map (fun r => log_calls (fst r) (snd r)) extra).

Lemma logs_cons r extra : logs (r :: extra) = log_calls (fst r) (snd r) ++ logs extra.
Proof. reflexivity. Qed.

Lemma run_logs d extra : forall w,
  run_calls {| data := d; wal := w |} (logs extra) = {| data := d; wal := w ++ encs extra |}.
Proof.
  induction extra as [|r extra IH]; intros w.
  - cbn [logs map concat run_calls fold_left encs]. now rewrite app_nil_r.
  - now rewrite logs_cons, run_calls_app, log_done, IH, encs_cons, <- app_assoc.
Qed.

(* while records that fit are being logged the data stays, and the log holds some of them and a torn one *)
Lemma logs_cuts d extra : Forall (fits d) extra -> forall w k j, k < length (logs extra) ->
  exists ex t, crash {| data := d; wal := w |} (logs extra) k j = {| data := d; wal := w ++ encs ex ++ t |} /\
               incomplete t /\ Forall (fits d) ex.
Proof.
  induction 1 as [|[p v] extra Hr _ IH]; intros w k j Hk; [cbn in Hk; lia|].
  rewrite logs_cons, app_length in Hk. rewrite logs_cons, crash_app.
  cbn [fst snd] in *. change (length (log_calls p v)) with 3 in *.
  destruct (Nat.ltb_spec k 3) as [K|K].
  - destruct (log_crash {| data := d; wal := w |} p v k j K) as [m ->]. cbn [data wal].
    destruct (Nat.ltb_spec m (length (enc_rec p v))) as [Hm|Hm].
    + exists [], (firstn m (enc_rec p v)). repeat split; [|constructor]. apply prefix_incomplete; [apply Hr|exact Hm].
    + exists [(p, v)], []. rewrite firstn_all2 by exact Hm. cbn [encs map concat fst snd]. rewrite !app_nil_r.
      repeat split; [apply incomplete_nil|now constructor].
  - rewrite log_done. cbn [data wal].
    destruct (IH (w ++ enc_rec p v) (k - 3) j ltac:(lia)) as (ex & t & -> & Ht & Hf).
    exists ((p, v) :: ex), t. rewrite encs_cons, <- !app_assoc. repeat split; [exact Ht|now constructor].
Qed.

Definition data_call (c : sys) : Prop :=
  match c with DataWrite _ _ | DataSetLen _ => True | _ => False end.

Definition after_call (d : bytes) (c : sys) : bytes := data (apply_sys {| data := d; wal := [] |} c).
Definition after_torn (d : bytes) (c : sys) (j : nat) : bytes := data (apply_torn {| data := d; wal := [] |} c j).

Lemma apply_sys_data st c : data_call c -> apply_sys st c = {| data := after_call (data st) c; wal := wal st |}.
Proof. destruct c; cbn; try tauto; reflexivity. Qed.

Lemma apply_torn_data st c j : data_call c -> apply_torn st c j = {| data := after_torn (data st) c j; wal := wal st |}.
Proof. destruct c; cbn; try tauto; intros _; destruct st; reflexivity. Qed.

(* the undo records `extra` are logged (each describes the current content), then the data call c is
   issued; whatever c leaves behind, completely or torn, is undone by `extra` with every guard passed *)
Lemma logged_cuts d w extra c k j :
  Forall (fits d) extra -> data_call c ->
  (forall j, replay_g walrev_fixed extra (after_torn d c j) = Some d) ->
  replay_g walrev_fixed extra (after_call d c) = Some d ->
  cut_spec d w (logs extra ++ [c]) (after_call d c) k j.
Proof.
  intros Hf Hc Htorn Hdone. unfold cut_spec. rewrite crash_app, app_length. cbn [length].
  assert (Hok : Forall ok_rec extra) by (eapply Forall_impl; [|exact Hf]; intros a Ha; apply Ha).
  destruct (Nat.ltb_spec k (length (logs extra))) as [K|K].
  - destruct (logs_cuts d extra Hf w k j K) as (ex & t & -> & Ht & Hfx).
    exists ex, t, d. split; [reflexivity|]. split; [exact Ht|]. split; [apply fits_undoes, Hfx|lia].
  - rewrite run_logs. destruct (k - length (logs extra)) as [|k2] eqn:E.
    + exists extra, [], (after_torn d c j). unfold crash. cbn [firstn nth_error run_calls fold_left].
      rewrite apply_torn_data by exact Hc. cbn [data wal]. rewrite app_nil_r.
      split; [reflexivity|]. split; [apply incomplete_nil|]. split; [split; [exact Hok|apply Htorn]|lia].
    + exists extra, [], (after_call d c). rewrite crash_all by (cbn; lia). cbn [run_calls fold_left].
      rewrite apply_sys_data by exact Hc. cbn [data wal]. rewrite app_nil_r.
      split; [reflexivity|]. split; [apply incomplete_nil|]. split; [split; [exact Hok|exact Hdone]|auto].
Qed.

(* Positions and lengths are logged as le64, so they must stay below 2^64; 2^60 (Codec.two60, what a Rust
   slice can hold) leaves room for the sums the proofs form. *)
Definition bound : N := 1152921504606846976.   (* 2^60 *)

(* The precondition on an operation list (not a weakest precondition as in StorageWp.v): sizes below
   `bound`, writes start inside the file or at its end.  FileWal.well_positioned is the same condition
   without the size bound, as a boolean for the extracted driver. *)

Fixpoint wp (d : bytes) (ops : list op) : Prop :=
  (N.of_nat (length d) < bound)%N /\
  match ops with
  | [] => True
  | OWrite pos bs :: r => pos <= length d /\ wp (write_at d pos bs) r
  | OResize n :: r => wp (set_len d n) r
  | OFlush :: r => wp d r
  end.

Lemma wp_bound d ops : wp d ops -> (N.of_nat (length d) < bound)%N.
Proof. destruct ops; intros H; apply H. Qed.

Definition next_data (d : bytes) (o : op) : bytes :=
  match o with
  | OWrite pos bs => write_at d pos bs
  | OResize n => set_len d n
  | OFlush => d
  end.

Lemma wp_next d o r : wp d (o :: r) -> wp (next_data d o) r.
Proof. destruct o; intros H; apply H. Qed.

Lemma small_ok p (v : bytes) : (N.of_nat p < bound)%N -> (N.of_nat (length v) < bound)%N -> ok_rec (p, v).
Proof. unfold ok_rec, bound, two64, lenN. cbn [fst snd]. lia. Qed.

Lemma slice_of_length d a b : b <= length d -> length (slice_of d a b) = b - a.
Proof. intros H. unfold slice_of. rewrite firstn_length, skipn_length. lia. Qed.

Lemma write_at_same d pos e : pos <= e -> e <= length d -> write_at d pos (slice_of d pos e) = d.
Proof.
  intros H1 H2. apply (nth_ext _ _ x00 x00).
  - rewrite write_at_length by lia. rewrite slice_of_length by lia. lia.
  - intros i Hi. rewrite nth_write_at by lia. rewrite slice_of_length by lia.
    destruct (Nat.ltb_spec i pos); [reflexivity|].
    destruct (Nat.ltb_spec i (pos + (e - pos))); [|reflexivity].
    unfold slice_of. rewrite nth_firstn_lt by lia. rewrite nth_skipn_add. f_equal. lia.
Qed.

Lemma apply_rec_nonempty d p (v : bytes) : 0 < length v -> apply_rec d (p, v) = write_at d p v.
Proof. destruct v; cbn [length]; [lia|reflexivity]. Qed.
Lemma apply_rec_nil d p : apply_rec d (p, []) = set_len d p.
Proof. reflexivity. Qed.

(* the record of the old length *)
Lemma fits_length d : (N.of_nat (length d) < bound)%N -> fits d (length d, []).
Proof.
  intros Hb. split; [|split]; cbn [fst snd]; [|apply set_len_same|lia].
  apply small_ok; cbn [length]; unfold bound in *; lia.
Qed.

(* A write logs the old bytes of the region it covers inside the file; one that starts inside the file
   and ends beyond it logs the old length first. *)
Lemma write_cuts d w pos bs k j :
  pos <= length d -> (N.of_nat (length d) < bound)%N -> (N.of_nat (length (write_at d pos bs)) < bound)%N ->
  cut_spec d w (calls_of walrev_fixed d (OWrite pos bs)) (write_at d pos bs) k j.
Proof.
  intros Hpos Hb Hb2. set (len := length d) in *.
  destruct bs as [|b0 bs'] eqn:Ebs.
  { (* an empty write issues no call *)
    exists [], [], d. rewrite crash_all by (cbn; lia).
    cbn [calls_of w_skip_empty walrev_fixed run_calls fold_left encs map concat]. rewrite !app_nil_r, write_at_nil.
    repeat split; [apply incomplete_nil|constructor]. }
  rewrite <- Ebs in *. assert (Hne : 0 < length bs) by (rewrite Ebs; cbn; lia).
  set (e := pos + length bs) in *.
  set (old := slice_of d pos (Nat.min len e)).
  set (growth := Nat.ltb pos len && Nat.ltb len e).
  set (extra := (if growth then [(len, @nil byte)] else []) ++ [(pos, old)]).
  assert (Ecalls : calls_of walrev_fixed d (OWrite pos bs) = logs extra ++ [DataWrite pos bs]).
  { unfold calls_of. cbn [w_skip_empty w_log_growth walrev_fixed andb]. fold len e old growth.
    rewrite Ebs at 1. unfold extra. destruct growth; reflexivity. }
  rewrite Ecalls. clear Ebs b0 bs'.
  assert (Hnew : length (write_at d pos bs) = Nat.max len e) by (apply write_at_length; exact Hpos).
  assert (Hold : length old = Nat.min len e - pos) by (unfold old; apply slice_of_length; lia).
  assert (Fold : fits d (pos, old)).
  { split; [|split]; cbn [fst snd].
    - apply small_ok; rewrite ?Hold; lia.
    - destruct (Nat.eq_dec (length old) 0) as [Z|Z].
      + rewrite (length_zero_nil old Z), apply_rec_nil. assert (pos = len) by lia. subst pos. apply set_len_same.
      + rewrite apply_rec_nonempty by lia. unfold old. apply write_at_same; lia.
    - exact Hpos. }
  pose proof (fits_length d Hb) as Flen. fold len in Flen.
  assert (Hfit : Forall (fits d) extra).
  { unfold extra. destruct growth; cbn [app]; repeat (apply Forall_cons; [assumption|]); apply Forall_nil. }
  (* every (torn) write is a prefix write *)
  assert (Undo : forall j, replay_g walrev_fixed extra (write_at d pos (firstn j bs)) = Some d).
  { clear j. intros j.
    set (t := firstn j bs). assert (Ht : length t <= length bs) by (unfold t; rewrite firstn_length; lia).
    assert (Lx : length (write_at d pos t) = Nat.max len (pos + length t)) by (apply write_at_length; exact Hpos).
    pose proof (undo_write d pos bs j Hpos) as U. fold len e old t in U.
    unfold extra, growth. rewrite replay_g_snoc by (cbn [fst]; lia).
    destruct (Nat.ltb_spec pos len) as [P|P]; destruct (Nat.ltb_spec len e) as [Q|Q]; cbn [andb].
    - (* straddling *)
      rewrite apply_rec_nonempty by lia.
      rewrite (replay_g_snoc [] (len, [])) by (cbn [fst]; rewrite write_at_length by lia; lia).
      rewrite apply_rec_nil, U. reflexivity.
    - (* in place: the old length is still there *)
      rewrite apply_rec_nonempty by lia.
      assert (LX : length (write_at (write_at d pos t) pos old) = len) by (rewrite write_at_length; lia).
      rewrite <- LX, set_len_same in U. now rewrite U.
    - (* append at the end *)
      assert (pos = len) by lia. subst pos.
      assert (Z : old = []) by (apply length_zero_nil; lia).
      rewrite Z in *. rewrite apply_rec_nil. rewrite write_at_nil in U. rewrite U. reflexivity.
    - lia. }
  pose proof (Undo (length bs)) as Full. rewrite firstn_all in Full.
  exact (logged_cuts d w extra (DataWrite pos bs) k j Hfit I Undo Full).
Qed.

(* A resize logs one record: the bytes cut off, or the old length. *)
Lemma resize_cuts d w n k j :
  (N.of_nat (length d) < bound)%N -> (N.of_nat n < bound)%N ->
  cut_spec d w (calls_of walrev_fixed d (OResize n)) (set_len d n) k j.
Proof.
  intros Hb Hn. set (len := length d) in *.
  set (r := if Nat.ltb n len then (n, skipn n d) else (len, @nil byte)).
  assert (Ecalls : calls_of walrev_fixed d (OResize n) = logs [r] ++ [DataSetLen n]).
  { unfold calls_of, r. cbn [w_log_growth walrev_fixed]. fold len. destruct (Nat.ltb n len); reflexivity. }
  rewrite Ecalls.
  assert (Fr : fits d r).
  { unfold r. destruct (Nat.ltb_spec n len) as [L|L]; [|now apply fits_length].
    split; [|split]; cbn [fst snd].
    - apply small_ok; rewrite ?skipn_length; unfold bound in *; lia.
    - rewrite apply_rec_nonempty by (rewrite skipn_length; fold len; lia).
      unfold write_at. rewrite skipn_length. fold len.
      replace (n + (len - n)) with (length d) by (fold len; lia). rewrite skipn_all.
      rewrite app_nil_r. apply firstn_skipn.
    - fold len. lia. }
  apply (logged_cuts d w [r] (DataSetLen n) k j (Forall_cons _ Fr (Forall_nil _)) I);
    cbn [after_call after_torn apply_sys apply_torn data].
  - (* the length change is atomic: a torn one has not happened *)
    intros _. apply (fits_undoes d [r]). now constructor.
  - rewrite (replay_g_snoc [] r) by (rewrite set_len_length; unfold r; destruct (Nat.ltb_spec n len); cbn [fst]; lia).
    cbn [replay_g apply_all_g rev w_newest_first walrev_fixed]. f_equal.
    unfold r. destruct (Nat.ltb_spec n len) as [L|L].
    + rewrite apply_rec_nonempty by (rewrite skipn_length; fold len; lia). apply undo_shrink. fold len. lia.
    + rewrite apply_rec_nil. apply undo_grow. fold len. lia.
Qed.

Lemma op_cuts d w o r k j : wp d (o :: r) -> o <> OFlush ->
  cut_spec d w (calls_of walrev_fixed d o) (next_data d o) k j.
Proof.
  intros Hwp Ho. pose proof (wp_bound _ _ (wp_next _ _ _ Hwp)) as B.
  destruct o as [pos bs|n|]; [| |congruence]; cbn [next_data] in *.
  - now apply write_cuts; [apply Hwp..|].
  - rewrite set_len_length in B. now apply resize_cuts; [apply Hwp|].
Qed.

Lemma op_done d w o r : wp d (o :: r) -> o <> OFlush ->
  exists ex, run_calls {| data := d; wal := w |} (calls_of walrev_fixed d o)
             = {| data := next_data d o; wal := w ++ encs ex |} /\ undoes ex (next_data d o) d.
Proof.
  intros Hwp Ho.
  destruct (op_cuts d w o r (length (calls_of walrev_fixed d o)) 0 Hwp Ho) as (ex & t & d' & E & _ & Hu & F).
  destruct (F (le_n _)) as [-> ->]. rewrite crash_all, app_nil_r in E by lia. now exists ex.
Qed.

(* the committed content a crash at call index k must recover: the content at the last
   flush completed before the cut *)
Fixpoint expect (d0 : bytes) (st : fstate) (ops : list op) (k : nat) : bytes :=
  match ops with
  | [] => d0
  | o :: r =>
    let cs := calls_of walrev_fixed (data st) o in
    if Nat.ltb k (length cs) then d0
    else
      let st' := run_calls st cs in
      expect (match o with OFlush => data st' | _ => d0 end) st' r (k - length cs)
  end.

(* The induction over the operation list needs of the invariant only that it admits the records an
   operation appends, that a torn tail after it does no harm, and that a cleared log has it; the invariant
   of the recovery of /repo (Good, cuts are Safe) and the one of the guarded recovery
   (FileWalGuardProofs.v) both do. *)
Section Cuts.
  Variables Inv Cut : bytes -> fstate -> Prop.
  Hypothesis inv_extend : forall d0 d w ex d',
    Inv d0 {| data := d; wal := w |} -> undoes ex d' d -> Inv d0 {| data := d'; wal := w ++ encs ex |}.
  Hypothesis inv_torn : forall d0 d w t,
    Inv d0 {| data := d; wal := w |} -> incomplete t -> Cut d0 {| data := d; wal := w ++ t |}.
  Hypothesis inv_committed : forall d, Inv d {| data := d; wal := [] |}.

  Lemma inv_cut d0 st : Inv d0 st -> Cut d0 st.
  Proof.
    destruct st as [d w]. intros H. rewrite <- (app_nil_r w). apply inv_torn; [exact H|apply incomplete_nil].
  Qed.

  Theorem cuts_restore : forall ops st d0 k j,
    Inv d0 st -> wp (data st) ops ->
    Cut (expect d0 st ops k) (crash st (trace walrev_fixed st ops) k j).
  Proof.
    induction ops as [|o r IH]; intros [d w] d0 k j HI Hwp; cbn [data] in Hwp.
    - cbn [trace expect]. rewrite crash_all by (cbn; lia). now apply inv_cut.
    - cbn [trace expect data]. rewrite crash_app. pose proof (wp_next _ _ _ Hwp) as Hnext.
      set (cs := calls_of walrev_fixed d o). destruct o as [pos bs|n|].
      1,2: destruct (Nat.ltb_spec k (length cs)) as [K|K]; subst cs;
        [destruct (op_cuts d w _ r k j Hwp ltac:(discriminate)) as (ex & t & d' & -> & Ht & Hu & _);
         rewrite app_assoc; apply inv_torn; [now apply (inv_extend d0 d)|exact Ht]
        |destruct (op_done d w _ r Hwp ltac:(discriminate)) as (ex & -> & Hu);
         apply IH; [now apply (inv_extend d0 d)|exact Hnext]].
      (* the truncation of the log is atomic *)
      subst cs. cbn [calls_of length]. destruct (Nat.ltb_spec k 1) as [K|K].
      + replace k with 0 by lia. now apply inv_cut.
      + apply IH; [apply inv_committed|exact Hnext].
  Qed.
End Cuts.

Theorem recover_restores : forall ops st d0 k j,
  Good d0 st -> wp (data st) ops ->
  Safe (expect d0 st ops k) (crash st (trace walrev_fixed st ops) k j).
Proof. exact (cuts_restore Good Safe good_extend good_torn good_committed). Qed.

Corollary recover_from_committed d0 ops k j :
  wp d0 ops ->
  recover walrev_fixed (crash {| data := d0; wal := [] |} (trace walrev_fixed {| data := d0; wal := [] |} ops) k j)
  = {| data := expect d0 {| data := d0; wal := [] |} ops k; wal := [] |}.
Proof.
  intros H. apply recover_restores; [apply good_committed|exact H].
Qed.

(* a transaction without flush: every cut recovers the content before it *)
Fixpoint no_flush (ops : list op) : bool :=
  match ops with [] => true | OFlush :: _ => false | _ :: r => no_flush r end.

Lemma expect_no_flush ops : no_flush ops = true -> forall d0 st k, expect d0 st ops k = d0.
Proof.
  induction ops as [|o r IH]; intros H d0 st k; cbn [expect]; [reflexivity|].
  destruct (Nat.ltb k (length (calls_of walrev_fixed (data st) o))); [reflexivity|].
  destruct o; cbn [no_flush] in H; try discriminate; apply IH; exact H.
Qed.

Definition st0 (d : bytes) := {| data := d; wal := [] |}.

(* non-vacuity: a transaction with in-place, straddling and appending writes, shrink and growth *)
Example wp_example :
  let d0 := [x01; x02; x03; x04; x05; x06] in
  let ops := [OWrite 1 [x0a; x0b]; OWrite 5 [x0c; x0d; x0e]; OResize 3; OWrite 3 [x0f]; OResize 9; OWrite 2 []] in
  wp d0 ops /\ no_flush ops = true /\
  forall k j, k <= 30 -> j <= 3 ->
    recover walrev_fixed (crash (st0 d0) (trace walrev_fixed (st0 d0) ops) k j) = st0 d0.
Proof.
  cbv zeta.
  assert (W : wp [x01; x02; x03; x04; x05; x06]
                 [OWrite 1 [x0a; x0b]; OWrite 5 [x0c; x0d; x0e]; OResize 3; OWrite 3 [x0f]; OResize 9; OWrite 2 []]).
  { cbn [wp length write_at set_len firstn skipn app Nat.add Nat.sub repeat]. unfold bound. repeat split; lia. }
  split; [exact W|]. split; [reflexivity|]. intros k j _ _.
  unfold st0. rewrite (recover_from_committed _ _ k j W). f_equal. now apply expect_no_flush.
Qed.
