(* RaftLiveInd.v — C30 for an UNBOUNDED number of appended entries, base definitions, the induction and tactics.
   * `nstep`: `step` without the ghost history (the handlers never read it): `strip (step rv c e) = nstep rv (strip c) e`;
   * `fifo_drain` / `fifo_run`: oldest-first delivery until the network is empty, as relations with no bound
     (deterministic; `drain rv fuel` computes them whenever it ends with an empty network);
   * the symbolic evaluation of one delivery (`sym_eval`; the follower's append is a lemma, `append_request_next`);
   * the induction over the payloads for any delivery discipline and any steady-state predicate (`Rounds`), and its
     oldest-first instance (`Induction`), applied to 3 and 5 nodes at the end. *)
From Coq Require Import NArith List Bool Lia Arith.
From Agdb Require Import Raft RaftProofs RaftInv RaftLive.
Import ListNotations.
Open Scope N_scope.

(* a private copy of `app` for the network queue, so that the evaluation tactic below can unfold it without
   touching the `++` of the (symbolic) logs *)
Fixpoint napp (a b : list msg) : list msg :=
  match a with [] => b | x :: a' => x :: napp a' b end.

Lemma napp_app : forall a b, napp a b = a ++ b.
Proof. reflexivity. Qed.

Definition nstep (rv : raftrev) (c : cluster) (ev : event) : cluster :=
  match ev with
  | Tick i elapsed due =>
      match get_node c i with
      | Some nd => let '(nd', reqs) := process nd elapsed due in
                   mkCluster (put_node c i nd') (napp (c_net c) (map MReq reqs)) []
      | None => strip c
      end
  | ClientAppend i d =>
      match get_node c i with
      | Some nd =>
          if is_leader (n_state nd) then
            let '(nd', reqs) := append nd d in
            mkCluster (put_node c i nd') (napp (c_net c) (map MReq reqs)) []
          else strip c
      | None => strip c
      end
  | Drop k => mkCluster (c_nodes c) (remove_nth k (c_net c)) []
  | Duplicate k =>
      match nth_error (c_net c) k with
      | Some m => mkCluster (c_nodes c) (napp (c_net c) [m]) []
      | None => strip c
      end
  | Deliver k elapsed =>
      match nth_error (c_net c) k with
      | Some (MReq r) =>
          let net := remove_nth k (c_net c) in
          match get_node c (q_to r) with
          | Some nd => let '(nd', s) := handle_request rv nd r elapsed in
                       mkCluster (put_node c (q_to r) nd') (napp net [MResp r s]) []
          | None => mkCluster (c_nodes c) net []
          end
      | Some (MResp r s) =>
          let net := remove_nth k (c_net c) in
          match get_node c (s_to s) with
          | Some nd => let '(nd', reqs) := handle_response rv nd r s in
                       mkCluster (put_node c (s_to s) nd') (napp net (map MReq reqs)) []
          | None => mkCluster (c_nodes c) net []
          end
      | None => strip c
      end
  end.

Lemma nstep_step : forall rv c e, strip (step rv c e) = nstep rv (strip c) e.
Proof.
  intros rv [nodes net h] e. unfold strip, nstep, step, get_node, put_node. cbn [c_nodes c_net c_hist].
  destruct e as [i el due | k el | k | k | i d].
  - destruct (nth_error nodes (N.to_nat i)) as [n|]; [|reflexivity].
    destruct (process n el due). reflexivity.
  - destruct (nth_error net k) as [[r|r s]|]; [| |reflexivity].
    + destruct (nth_error nodes (N.to_nat (q_to r))) as [n|]; [|reflexivity].
      destruct (handle_request rv n r el). reflexivity.
    + destruct (nth_error nodes (N.to_nat (s_to s))) as [n|]; [|reflexivity].
      destruct (handle_response rv n r s). reflexivity.
  - reflexivity.
  - destruct (nth_error net k); reflexivity.
  - destruct (nth_error nodes (N.to_nat i)) as [n|]; [|reflexivity]. destruct (is_leader (n_state n)); [|reflexivity].
    destruct (append n d). reflexivity.
Qed.

Fixpoint ndrain (rv : raftrev) (fuel : nat) (c : cluster) : cluster :=
  match fuel with
  | O => c
  | S f => match c_net c with [] => c | _ => ndrain rv f (nstep rv c (Deliver 0 0)) end
  end.

Lemma ndrain_drain : forall rv fuel c, strip (drain rv fuel c) = ndrain rv fuel (strip c).
Proof.
  intros rv. induction fuel as [|f IH]; intros c; cbn [drain ndrain]; [reflexivity|].
  change (c_net (strip c)) with (c_net c). destruct (c_net c); [reflexivity|].
  rewrite IH, nstep_step. reflexivity.
Qed.

Lemma ndrain_S : forall rv f c m net, c_net c = m :: net ->
  ndrain rv (S f) c = ndrain rv f (nstep rv c (Deliver 0 0)).
Proof. intros rv f c m net H. cbn [ndrain]. rewrite H. reflexivity. Qed.

Lemma ndrain_nil : forall rv f c, c_net c = [] -> ndrain rv f c = c.
Proof. intros rv [|f] c H; cbn [ndrain]; [reflexivity|]. rewrite H. reflexivity. Qed.

(* deliver the OLDEST message in flight until none is left (`elapsed = 0`: no timer has expired at a receiver) *)
Inductive fifo_drain (rv : raftrev) : cluster -> cluster -> Prop :=
| fd_done : forall c, c_net c = [] -> fifo_drain rv c c
| fd_step : forall c c', c_net c <> [] -> fifo_drain rv (step rv c (Deliver 0 0)) c' -> fifo_drain rv c c'.

(* the scripted actions happen one after the other, each followed by oldest-first delivery until quiescence *)
Inductive fifo_run (rv : raftrev) : list event -> cluster -> cluster -> Prop :=
| fr_nil : forall c, fifo_run rv [] c c
| fr_act : forall a rest c c1 c',
    fifo_drain rv (step rv c a) c1 -> fifo_run rv rest c1 c' -> fifo_run rv (a :: rest) c c'.

Lemma fifo_drain_det : forall rv c c1, fifo_drain rv c c1 -> forall c2, fifo_drain rv c c2 -> c1 = c2.
Proof.
  intros rv c c1 H. induction H as [c Hn | c c' Hn H IH]; intros c2 H2.
  - destruct H2 as [c _ | c c2 Hn2 _]; [reflexivity | contradiction].
  - destruct H2 as [c Hn2 | c c2 _ H2]; [contradiction | apply IH; exact H2].
Qed.

Lemma fifo_run_det : forall rv evs c c1, fifo_run rv evs c c1 -> forall c2, fifo_run rv evs c c2 -> c1 = c2.
Proof.
  intros rv evs c c1 H. induction H as [c | a rest c m c1 D R IH]; intros c2 H2.
  - inversion H2; subst; reflexivity.
  - inversion H2 as [|a0 rest0 c0 m2 c2' D2 R2]; subst.
    rewrite <- (fifo_drain_det _ _ _ D _ D2) in R2. apply IH; exact R2.
Qed.

Lemma fifo_drain_drain : forall rv fuel c, c_net (drain rv fuel c) = [] -> fifo_drain rv c (drain rv fuel c).
Proof.
  intros rv. induction fuel as [|f IH]; intros c H; cbn [drain] in *.
  - apply fd_done; exact H.
  - destruct (c_net c) as [|m net] eqn:E.
    + apply fd_done; exact E.
    + apply fd_step; [rewrite E; discriminate | apply IH; exact H].
Qed.

Lemma fifo_drain_dl : forall rv c c', fifo_drain rv c c' -> dl_run rv c c'.
Proof.
  intros rv c c' H. induction H as [c Hn | c c' Hn H IH]; [apply dl_done; exact Hn|].
  apply (dl_step rv c 0%nat); [destruct (c_net c); [contradiction | cbn; lia] | exact IH].
Qed.

Lemma fifo_drain_strip : forall rv fuel c c' g,
  ndrain rv fuel (strip c) = g -> c_net g = [] -> fifo_drain rv c c' -> strip c' = g.
Proof.
  intros rv fuel c c' g E Hn D. rewrite <- ndrain_drain in E.
  assert (Hn' : c_net (drain rv fuel c) = []) by (rewrite <- E in Hn; exact Hn).
  rewrite (fifo_drain_det _ _ _ D _ (fifo_drain_drain rv fuel c Hn')). exact E.
Qed.

Lemma fifo_drain_exists : forall rv fuel c g,
  ndrain rv fuel (strip c) = g -> c_net g = [] -> exists c', fifo_drain rv c c'.
Proof.
  intros rv fuel c g E Hn. rewrite <- ndrain_drain in E. exists (drain rv fuel c).
  apply fifo_drain_drain. rewrite <- E in Hn. exact Hn.
Qed.

Ltac is_pos_const p :=
  lazymatch p with xH => idtac | xO ?q => is_pos_const q | xI ?q => is_pos_const q end.
Ltac is_N_const n := lazymatch n with N0 => idtac | Npos ?p => is_pos_const p end.

(* evaluate the closed arithmetic sub-terms; symbolic ones such as `k + 1` are left to `sym_step` *)
Ltac ground_bin op a b := let v := eval vm_compute in (op a b) in change (op a b) with v.
Ltac ground_step :=
  match goal with
  | |- context [N.eqb ?a ?b] => is_N_const a; is_N_const b; ground_bin N.eqb a b
  | |- context [N.ltb ?a ?b] => is_N_const a; is_N_const b; ground_bin N.ltb a b
  | |- context [N.leb ?a ?b] => is_N_const a; is_N_const b; ground_bin N.leb a b
  | |- context [N.add ?a ?b] => is_N_const a; is_N_const b; ground_bin N.add a b
  | |- context [N.sub ?a ?b] => is_N_const a; is_N_const b; ground_bin N.sub a b
  | |- context [N.div ?a ?b] => is_N_const a; is_N_const b; ground_bin N.div a b
  end.

(* decide the comparisons of symbolic numbers by lia *)
Ltac sym_step :=
  match goal with
  (* `N.to_nat a` of a symbolic a has been unfolded by model_cbv into `match a with 0 => 0%nat | N.pos p => _ end` *)
  | |- context [firstn ?n ?l] =>
      lazymatch n with
      | match ?a with N0 => _ | Npos _ => _ end =>
          replace (firstn n l) with l by (symmetry; apply firstn_all2; change n with (N.to_nat a); lia)
      end
  | |- context [?a =? ?b] =>
      first [ replace (a =? b) with true by (symmetry; apply N.eqb_eq; lia)
            | replace (a =? b) with false by (symmetry; apply N.eqb_neq; lia) ]
  | |- context [?a <? ?b] =>
      first [ replace (a <? b) with true by (symmetry; apply N.ltb_lt; lia)
            | replace (a <? b) with false by (symmetry; apply N.ltb_ge; lia) ]
  | |- context [?a <=? ?b] =>
      first [ replace (a <=? b) with true by (symmetry; apply N.leb_le; lia)
            | replace (a <=? b) with false by (symmetry; apply N.leb_gt; lia) ]
  end.

Ltac model_cbv :=
  cbv beta iota zeta delta
    [nstep napp strip get_node put_node nth_error remove_nth upd_nth map filter seq length fst snd
     negb andb orb existsb memN lenN
     handle_request handle_response append_request heartbeat_request pre_vote_request vote_request
     append_logs validate_term validate_log validate_log_append validate_log_for_vote validate_term_for_vote
     validate_vote_state become_follower update_node append_storage commit_storage st_append st_commit st_logs
     commit reconcile heartbeat_no_timer pre_vote_received vote_received election pre_election clear_votes clear_from
     reset_rows reset_from ack_counts fix_ack_term
     vote_counts votes count_peers process append is_election is_leader is_candidate is_append_or_hb
     ok log_mismatch mk_req others indices local node_at nth upd_peer upd_local set_peers set_state set_term set_et
     set_storage p_set_log p_set_commit p_set_all p_set_voted
     n_index n_size n_state n_term n_peers n_logs n_commit n_first n_et n_hb n_tt
     p_li p_lt p_lc p_voted q_from q_to q_term q_li q_lt q_lc q_kind s_to s_result e_index e_term e_data
     c_nodes c_net c_hist fix_vote_term fix_vote_match
     N.to_nat Pos.to_nat Pos.iter_op Nat.add N.of_nat Pos.of_succ_nat Pos.succ].

Ltac sym_eval := model_cbv; repeat (first [ground_step | sym_step]; model_cbv).

(* A follower takes the next entry

   The one delivery of a round whose handler has nested tests: evaluated symbolically the goal would hold every branch
   until the last test is decided, so it is proved once, for a node of a cluster of any size. *)

Lemma validate_log_append_next : forall nd r k t d pt c v,
  local nd = mkPeer k pt c v -> pt <= t -> c <= k ->
  validate_log_append nd r (mkEntry (k + 1) t d) = inl true.
Proof.
  intros nd r k t d pt c v Hl Hpt Hc. unfold validate_log_append. rewrite Hl. cbn [p_li p_lt p_lc e_index e_term].
  replace (k + 1 <=? k) with false by (symmetry; apply N.leb_gt; lia).
  replace (c <? k + 1) with true by (symmetry; apply N.ltb_lt; lia).
  rewrite N.eqb_refl, N.leb_refl. destruct (pt =? t) eqn:E; [reflexivity|]. apply N.eqb_neq in E.
  replace (pt <? t) with true by (symmetry; apply N.ltb_lt; lia). reflexivity.
Qed.

(* A node whose log has k entries (own row (k, pt, c) with c <= k and pt <= t) gets entry k+1 from a leader of its own
   term that has committed at most k: it follows that leader, records the leader's row, appends the entry, commits
   nothing and answers Ok. *)
Lemma append_request_next : forall nd r k t d pt c v,
  q_term r = n_term nd -> q_from r <> n_index nd ->
  local nd = mkPeer k pt c v -> pt <= t -> c <= k -> q_lc r <= k -> length (n_logs nd) = N.to_nat k ->
  append_request nd r [mkEntry (k + 1) t d] =
  (mkNode (n_index nd) (n_size nd) (Follower (q_from r)) (n_term nd)
     (upd_nth (N.to_nat (n_index nd)) (p_set_log (k + 1) t)
        (upd_nth (N.to_nat (q_from r)) (p_set_all (q_li r) (q_lt r) (q_lc r)) (n_peers nd)))
     (n_logs nd ++ [mkEntry (k + 1) t d]) (n_commit nd) (n_first nd) (n_et nd) (n_hb nd) (n_tt nd), ok r).
Proof.
  intros nd r k t d pt c v Ht Hf Hl Hpt Hc Hq HL.
  unfold append_request, validate_term, become_follower. rewrite Ht, N.ltb_irrefl, N.leb_refl.
  set (nd1 := update_node (set_state (set_term nd (n_term nd)) (Follower (q_from r))) r).
  assert (L1 : local nd1 = mkPeer k pt c v).
  { unfold local, node_at in *. cbn. rewrite nth_upd_nth_neq; [exact Hl | lia]. }
  cbn [append_logs]. rewrite (validate_log_append_next nd1 r k t d pt c v L1 Hpt Hc). cbn [e_index].
  replace (k + 1 <=? q_lc r) with false by (symmetry; apply N.leb_gt; lia). cbn [andb].
  f_equal. unfold append_storage, st_append, upd_local, upd_peer. cbn.
  replace (k + 1 - 1) with k by lia. rewrite firstn_all2 by lia. reflexivity.
Qed.

Lemma handle_append : forall rv nd r el logs,
  q_kind r = KAppend logs -> handle_request rv nd r el = append_request nd r logs.
Proof. intros rv nd r el logs H. unfold handle_request. rewrite H. reflexivity. Qed.

Lemma nstep_req : forall rv c j r nd el nd' s,
  nth_error (c_net c) j = Some (MReq r) -> get_node c (q_to r) = Some nd -> handle_request rv nd r el = (nd', s) ->
  nstep rv c (Deliver j el) = mkCluster (put_node c (q_to r) nd') (napp (remove_nth j (c_net c)) [MResp r s]) [].
Proof. intros rv c j r nd el nd' s Hm Hn Hh. cbn [nstep]. rewrite Hm, Hn, Hh. reflexivity. Qed.

(* rewrite `nstep rv c (Deliver j 0)` on an explicit c if message j is such a request; the length of the log is an
   assumption of the context *)
Ltac append_one :=
  erewrite nstep_req;
  [ | reflexivity | reflexivity
    | erewrite handle_append by reflexivity; eapply append_request_next;
      first [reflexivity | discriminate | apply N.le_refl | assumption] ].

Ltac deliver_eval := try append_one; sym_eval.

(* one oldest-first delivery on an explicit state *)
Ltac fifo_one := erewrite ndrain_S by (cbv [c_net]; reflexivity); deliver_eval.

(* entries `ds` appended one after the other in term `t` to a log of `k` entries *)
Fixpoint mk_log (t k : N) (ds : list N) : list entry :=
  match ds with
  | [] => []
  | d :: rest => mkEntry (k + 1) t d :: mk_log t (k + 1) rest
  end.

(* the indices 1 .. size-1 of the peers of node 0 *)
Definition peers_of (size : nat) : list N := map N.of_nat (seq 1 (size - 1)).

(* the scripted actions of the healthy run: node 0's election timer fires (its configured first election timeout is
   0 ms), the client appends the payloads one after the other at node 0, then node 0's heartbeat timers for all
   peers are due (elapsed 1001 ms > heartbeat timeout 1000 ms) *)
Definition live_actions (size : nat) (payloads : list N) : list event :=
  Tick 0 0 [] :: map (ClientAppend 0) payloads ++ [Tick 0 1001 (peers_of size)].

(* the same run as ONE event list: each action followed by `fe` / `fa` / `fh` oldest-first deliveries
   (a `Deliver 0 0` on an empty network is a no-op of the model) *)
Definition live_tail (fa fh : nat) (size : nat) (payloads : list N) : list event :=
  flat_map (fun d => ClientAppend 0 d :: repeat (Deliver 0 0) fa) payloads ++
  Tick 0 1001 (peers_of size) :: repeat (Deliver 0 0) fh.
Definition live_script (fe fa fh : nat) (size : nat) (payloads : list N) : list event :=
  Tick 0 0 [] :: repeat (Deliver 0 0) fe ++ live_tail fa fh size payloads.

Lemma run_from_repeat : forall rv n c, run_from rv c (repeat (Deliver 0 0) n) = drain rv n c.
Proof.
  intros rv. induction n as [|n IH]; intros c; [reflexivity|].
  cbn [repeat drain]. change (run_from rv c (Deliver 0 0 :: repeat (Deliver 0 0) n))
    with (run_from rv (step rv c (Deliver 0 0)) (repeat (Deliver 0 0) n)).
  rewrite IH. destruct (c_net c) eqn:E; [|reflexivity].
  assert (S0 : step rv c (Deliver 0 0) = c) by (cbn [step]; rewrite E; reflexivity).
  rewrite S0. destruct n; cbn [drain]; [reflexivity | rewrite E; reflexivity].
Qed.

Lemma fifo_drain_events : forall rv c c', fifo_drain rv c c' -> exists n, c' = run_from rv c (repeat (Deliver 0 0) n).
Proof.
  intros rv c c' H. induction H as [c Hn | c c' Hn H [n IH]]; [exists 0%nat; reflexivity|].
  exists (S n). exact IH.
Qed.

Lemma fifo_run_events : forall rv acts c c', fifo_run rv acts c c' -> exists evs, c' = run_from rv c evs.
Proof.
  intros rv acts c c' H. induction H as [c | a rest c m c1 D R [evs IH]]; [exists []; reflexivity|].
  destruct (fifo_drain_events _ _ _ D) as [n En]. exists (a :: repeat (Deliver 0 0) n ++ evs).
  change (run_from rv c (a :: repeat (Deliver 0 0) n ++ evs))
    with (run_from rv (step rv c a) (repeat (Deliver 0 0) n ++ evs)).
  rewrite run_from_app, <- En. exact IH.
Qed.

Definition pt_of (k : N) : N := if k =? 0 then 0 else 1.

Lemma lenN_cons : forall A (x : A) l, lenN (x :: l) = lenN l + 1.
Proof. intros. unfold lenN. cbn [length]. lia. Qed.

Lemma mk_log_length : forall t ds k, length (mk_log t k ds) = length ds.
Proof. induction ds as [|d ds IH]; intros k; cbn [mk_log length]; [reflexivity | rewrite IH; reflexivity]. Qed.

Lemma mk_log_data : forall t ds k, map e_data (mk_log t k ds) = ds.
Proof. induction ds as [|d ds IH]; intros k; cbn [mk_log map e_data]; [reflexivity | rewrite IH; reflexivity]. Qed.

(* a statement about steady states (k entries, last term pt; pt' the last term after one more entry) from its two
   cases: the empty log and a log whose last entry has term 1 *)
Lemma steady_cases : forall X : N -> N -> list entry -> N -> Prop,
  X 0 0 [] 1 -> (forall k L, 1 <= k -> length L = N.to_nat k -> X k 1 L 1) ->
  forall k L, length L = N.to_nat k -> X k (pt_of k) L (pt_of (k + 1)).
Proof.
  intros X X0 X1 k L HL.
  replace (pt_of (k + 1)) with 1 by (unfold pt_of; destruct (k + 1 =? 0) eqn:E; [apply N.eqb_eq in E; lia | reflexivity]).
  destruct (N.eq_dec k 0) as [->|Hk].
  - destruct L; [exact X0 | discriminate HL].
  - replace (pt_of k) with 1 by (unfold pt_of; destruct (k =? 0) eqn:E; [apply N.eqb_eq in E; lia | reflexivity]).
    apply X1; [lia | exact HL].
Qed.

(* The induction over the payloads, for any delivery discipline `run` (with `srun` its scripted runs) and any
   predicate `P k pt L` on the nodes and network of a cluster that the election establishes for the empty log, an
   append round carries from a log of k entries to k+1, and a heartbeat round keeps. *)
Section Rounds.
  Variable rv : raftrev.
  Variable size : nat.
  Variable run : cluster -> cluster -> Prop.
  Variable srun : list event -> cluster -> cluster -> Prop.
  Variable P : N -> N -> list entry -> cluster -> Prop.
  Hypothesis srun_nil : forall c c', srun [] c c' -> c' = c.
  Hypothesis srun_cons : forall a rest c c', srun (a :: rest) c c' -> exists c1, run (step rv c a) c1 /\ srun rest c1 c'.
  Hypothesis P_elect : forall c1, run (step rv (init_default (N.of_nat size)) (Tick 0 0 [])) c1 -> P 0 0 [] (strip c1).
  Hypothesis P_append : forall k L d c c1, length L = N.to_nat k ->
    P k (pt_of k) L (strip c) -> run (step rv c (ClientAppend 0 d)) c1 ->
    P (k + 1) (pt_of (k + 1)) (L ++ [mkEntry (k + 1) 1 d]) (strip c1).
  Hypothesis P_hb : forall k pt L c c1,
    P k pt L (strip c) -> run (step rv c (Tick 0 1001 (peers_of size))) c1 -> P k pt L (strip c1).

  Lemma appends_steady : forall payloads k L c c',
    length L = N.to_nat k -> P k (pt_of k) L (strip c) ->
    srun (map (ClientAppend 0) payloads ++ [Tick 0 1001 (peers_of size)]) c c' ->
    P (k + lenN payloads) (pt_of (k + lenN payloads)) (L ++ mk_log 1 k payloads) (strip c').
  Proof.
    induction payloads as [|d rest IH]; intros k L c c' HL Hc R; cbn [map app] in R;
      apply srun_cons in R as [c1 [D R]].
    - apply srun_nil in R as ->. change (lenN (@nil N)) with 0. rewrite N.add_0_r. cbn [mk_log]. rewrite app_nil_r.
      exact (P_hb _ _ _ _ _ Hc D).
    - rewrite lenN_cons. replace (k + (lenN rest + 1)) with (k + 1 + lenN rest) by lia.
      cbn [mk_log]. replace (L ++ mkEntry (k + 1) 1 d :: mk_log 1 (k + 1) rest)
        with ((L ++ [mkEntry (k + 1) 1 d]) ++ mk_log 1 (k + 1) rest) by (rewrite <- app_assoc; reflexivity).
      apply (IH (k + 1) _ c1 c'); [rewrite app_length, HL; cbn [length]; lia | exact (P_append _ _ _ _ _ HL Hc D) | exact R].
  Qed.

  Theorem live_steady : forall payloads c',
    srun (live_actions size payloads) (init_default (N.of_nat size)) c' ->
    P (lenN payloads) (pt_of (lenN payloads)) (mk_log 1 0 payloads) (strip c').
  Proof.
    intros payloads c' R. unfold live_actions in R. apply srun_cons in R as [c1 [D R]].
    exact (appends_steady payloads 0 [] c1 c' eq_refl (P_elect c1 D) R).
  Qed.
End Rounds.

Lemma fifo_run_cons : forall rv a rest c c',
  fifo_run rv (a :: rest) c c' -> exists c1, fifo_drain rv (step rv c a) c1 /\ fifo_run rv rest c1 c'.
Proof. intros rv a rest c c' R. inversion R; subst. eauto. Qed.

Lemma fifo_run_nil : forall rv c c', fifo_run rv [] c c' -> c' = c.
Proof. intros rv c c' R. inversion R; reflexivity. Qed.

(* oldest-first delivery, for any cluster whose steady states `ss k pt L` (leader 0 in term 1, every log = L with k
   entries, every commit index = k; pt = term of the last entry, 0 for the empty log) satisfy the four round
   equations below *)
Section Induction.
  Variable rv : raftrev.
  Variable size : nat.
  Variable ss : N -> N -> list entry -> cluster.
  Variables fe fa fh : nat.
  Hypothesis ss_net : forall k pt L, c_net (ss k pt L) = [].
  Hypothesis H_elect :
    ndrain rv fe (nstep rv (strip (init_default (N.of_nat size))) (Tick 0 0 [])) = ss 0 0 [].
  Hypothesis H_round0 : forall d,
    ndrain rv fa (nstep rv (ss 0 0 []) (ClientAppend 0 d)) = ss 1 1 [mkEntry 1 1 d].
  Hypothesis H_round : forall k L d, 1 <= k -> length L = N.to_nat k ->
    ndrain rv fa (nstep rv (ss k 1 L) (ClientAppend 0 d)) = ss (k + 1) 1 (L ++ [mkEntry (k + 1) 1 d]).
  Hypothesis H_hb : forall k pt L,
    ndrain rv fh (nstep rv (ss k pt L) (Tick 0 1001 (peers_of size))) = ss k pt L.

  Lemma round_any : forall k L d, length L = N.to_nat k ->
    ndrain rv fa (nstep rv (ss k (pt_of k) L) (ClientAppend 0 d)) =
    ss (k + 1) (pt_of (k + 1)) (L ++ [mkEntry (k + 1) 1 d]).
  Proof.
    intros k L d HL. revert d.
    apply (steady_cases (fun k pt L pt' => forall d,
             ndrain rv fa (nstep rv (ss k pt L) (ClientAppend 0 d)) = ss (k + 1) pt' (L ++ [mkEntry (k + 1) 1 d])));
      [exact H_round0 | intros; apply H_round; assumption | exact HL].
  Qed.

  (* one phase: an action on a steady state, then the deliveries *)
  Lemma phase_strip : forall fuel c a g c1,
    ndrain rv fuel (nstep rv (strip c) a) = g -> c_net g = [] ->
    fifo_drain rv (step rv c a) c1 -> strip c1 = g.
  Proof.
    intros fuel c a g c1 E Hn D. apply (fifo_drain_strip rv fuel (step rv c a)); [|exact Hn|exact D].
    rewrite nstep_step. exact E.
  Qed.

  (* ... and the run of the event list `a :: fuel deliveries ++ evs` makes that phase and goes on with `evs` *)
  Lemma phase_script : forall fuel c a g rest evs,
    ndrain rv fuel (nstep rv (strip c) a) = g -> c_net g = [] ->
    (forall c1, strip c1 = g -> fifo_run rv rest c1 (run_from rv c1 evs)) ->
    fifo_run rv (a :: rest) c (run_from rv c (a :: repeat (Deliver 0 0) fuel ++ evs)).
  Proof.
    intros fuel c a g rest evs E Hn K.
    change (run_from rv c (a :: repeat (Deliver 0 0) fuel ++ evs))
      with (run_from rv (step rv c a) (repeat (Deliver 0 0) fuel ++ evs)).
    rewrite run_from_app, run_from_repeat.
    assert (D : fifo_drain rv (step rv c a) (drain rv fuel (step rv c a))).
    { apply fifo_drain_drain. rewrite <- nstep_step, <- ndrain_drain in E. rewrite <- E in Hn. exact Hn. }
    eapply fr_act; [exact D | apply K; exact (phase_strip fuel c a g _ E Hn D)].
  Qed.

  Lemma appends_script : forall payloads k L c,
    length L = N.to_nat k -> strip c = ss k (pt_of k) L ->
    fifo_run rv (map (ClientAppend 0) payloads ++ [Tick 0 1001 (peers_of size)]) c
             (run_from rv c (live_tail fa fh size payloads)).
  Proof.
    induction payloads as [|d rest IH]; intros k L c HL Hc; unfold live_tail; cbn [map app flat_map].
    - rewrite <- (app_nil_r (repeat (Deliver 0 0) fh)).
      apply (phase_script fh c _ (ss k (pt_of k) L)); [rewrite Hc; apply H_hb | apply ss_net | intros; apply fr_nil].
    - rewrite <- app_assoc.
      apply (phase_script fa c _ (ss (k + 1) (pt_of (k + 1)) (L ++ [mkEntry (k + 1) 1 d])));
        [rewrite Hc; apply round_any; exact HL | apply ss_net|].
      intros c1 H1. apply (IH (k + 1) (L ++ [mkEntry (k + 1) 1 d]) c1); [rewrite app_length, HL; cbn [length]; lia | exact H1].
  Qed.

  (* every FIFO run of the live schedule ends in the steady state holding exactly the payloads *)
  Theorem live_fifo : forall payloads c',
    fifo_run rv (live_actions size payloads) (init_default (N.of_nat size)) c' ->
    strip c' = ss (lenN payloads) (pt_of (lenN payloads)) (mk_log 1 0 payloads).
  Proof.
    apply (live_steady rv size (fifo_drain rv) (fifo_run rv) (fun k pt L s => s = ss k pt L)
             (fifo_run_nil rv) (fifo_run_cons rv)).
    - intros c1 D. eapply (phase_strip fe); [exact H_elect | apply ss_net | exact D].
    - intros k L d c c1 HL Hc D. eapply (phase_strip fa); [rewrite Hc; apply round_any; exact HL | apply ss_net | exact D].
    - intros k pt L c c1 Hc D. eapply (phase_strip fh); [rewrite Hc; apply H_hb | apply ss_net | exact D].
  Qed.

  (* ... and there is one: the run of the event list `live_script` *)
  Theorem live_fifo_script : forall payloads,
    fifo_run rv (live_actions size payloads) (init_default (N.of_nat size))
             (run_from rv (init_default (N.of_nat size)) (live_script fe fa fh size payloads)).
  Proof.
    intros payloads. apply (phase_script fe _ _ (ss 0 0 [])); [exact H_elect | apply ss_net|].
    intros c1 H1. exact (appends_script payloads 0 [] c1 eq_refl H1).
  Qed.
End Induction.

(* The steady state of a cluster of `size` nodes
   node 0 is Leader of term 1 and has recorded (k, pt, k) for every node (its vote marks are those of the election:
   itself and the first size/2 peers); node i > 0 is Follower of 0, knows its own row and the leader's row; every log
   is L, every commit index is k; nothing is in flight. *)
Definition ss_node (size : nat) (k pt : N) (L : list entry) (i : nat) : node :=
  match i with
  | O => mkNode 0 (N.of_nat size) Leader 1
           (map (fun j => mkPeer k pt k (Nat.leb j (size / 2))) (seq 0 size)) L k 0 1000 1000 3000
  | S _ => mkNode (N.of_nat i) (N.of_nat size) (Follower 0) 1
             (map (fun j => if (Nat.eqb j 0 || Nat.eqb j i)%bool then mkPeer k pt k (Nat.eqb j i) else peer0)
                  (seq 0 size))
             L k (1000 * N.of_nat i) (1000 * N.of_nat i) 1000 3000
  end.

Definition ss_gen (size : nat) (k pt : N) (L : list entry) : cluster :=
  mkCluster (map (ss_node size k pt L) (seq 0 size)) [] [].

Lemma ss_gen_net : forall size k pt L, c_net (ss_gen size k pt L) = [].
Proof. reflexivity. Qed.

(* replace `ss_gen size k pt L` (size a numeral, k / pt / L variables or constants) by the explicit cluster *)
Ltac expand_ss :=
  match goal with
  | |- context [ss_gen ?s ?k ?pt ?L] =>
      let e := eval cbv in (ss_gen s k pt L) in change (ss_gen s k pt L) with e
  end.

Lemma entries_eqb_refl : forall l, entries_eqb l l = true.
Proof.
  induction l as [|x l IH]; cbn [entries_eqb]; [reflexivity|].
  rewrite IH, andb_true_r. apply entry_eqb_eq. reflexivity.
Qed.

(* what the unbounded statements of C30 say, from the node list of a steady state that holds the payloads *)
Lemma live_goal : forall c' ld rest payloads,
  c_nodes c' = ld :: rest -> n_state ld = Leader -> n_index ld = 0 ->
  Forall (fun nd => n_state nd = Follower 0) rest ->
  Forall (fun nd => n_term nd = 1 /\ n_logs nd = mk_log 1 0 payloads /\ n_commit nd = lenN payloads) (ld :: rest) ->
  map n_state (c_nodes c') = Leader :: map (fun _ => Follower 0) rest /\
  Forall (fun nd => n_term nd = 1 /\ n_logs nd = mk_log 1 0 payloads /\ n_commit nd = lenN payloads) (c_nodes c') /\
  all_synced_b c' payloads = true.
Proof.
  intros c' ld rest payloads Hn Hl Hi Hf Ha. rewrite Hn. split; [|split; [exact Ha|]].
  - cbn [map]. rewrite Hl. f_equal. clear Hn Ha. induction Hf as [|nd l Hnd _ IH]; cbn [map]; [reflexivity | rewrite Hnd, IH; reflexivity].
  - unfold all_synced_b. rewrite Hn. inversion Ha as [|? ? [_ [Hlog Hc]] Hr]; subst. rewrite Forall_forall in Hf, Hr.
    cbn [filter]. rewrite Hl. cbn [is_leader].
    assert (F : filter (fun nd => is_leader (n_state nd)) rest = []).
    { clear - Hf. induction rest as [|x l IH]; cbn [filter]; [reflexivity|]. rewrite (Hf x (or_introl eq_refl)).
      apply IH. intros y Hy. apply Hf. right; exact Hy. }
    assert (Hlen : lenN payloads =? lenN (mk_log 1 0 payloads) = true) by (unfold lenN; rewrite mk_log_length; apply N.eqb_refl).
    rewrite F, Hlog, mk_log_data. apply andb_true_iff. split.
    + apply forallb_forall. intros x [<-|Hx].
      * rewrite Hl, Hlog, Hc, entries_eqb_refl, Hlen. reflexivity.
      * destruct (Hr x Hx) as [_ [H2 H3]]. rewrite (Hf x Hx), Hi, H2, H3, entries_eqb_refl, Hlen. reflexivity.
    + clear. induction payloads as [|x data IH]; [reflexivity|]. rewrite N.eqb_refl. exact IH.
Qed.

(* 3 and 5 nodes
   The four round equations of `Induction` for `ss_gen 3` and `ss_gen 5`: election and first append by evaluation,
   the later appends and the heartbeat round by symbolic evaluation (k, L, d are variables). *)

(* election by node 0's timer: 12 deliveries (2 pre-votes, 2 votes, 2 heartbeats, each with its answer) *)
Lemma elect3 : forall rv,
  ndrain rv 12 (nstep rv (strip (init_default (N.of_nat 3))) (Tick 0 0 [])) = ss_gen 3 0 0 [].
Proof. intros [[|] [|] [|]]; vm_compute; reflexivity. Qed.

(* the first append (the followers' last-entry term is still 0): 2 appends, 2 acknowledgements — the leader commits
   on the first one and sends 2 heartbeats carrying the new commit index —, 2 heartbeats, 2 answers *)
Lemma round0_3 : forall rv d,
  ndrain rv 8 (nstep rv (ss_gen 3 0 0 []) (ClientAppend 0 d)) = ss_gen 3 1 1 [mkEntry 1 1 d].
Proof. intros rv d. vm_compute. reflexivity. Qed.

Lemma round_3 : forall rv k L d, 1 <= k -> length L = N.to_nat k ->
  ndrain rv 8 (nstep rv (ss_gen 3 k 1 L) (ClientAppend 0 d)) = ss_gen 3 (k + 1) 1 (L ++ [mkEntry (k + 1) 1 d]).
Proof. intros rv k L d Hk HL. expand_ss. sym_eval. do 8 fifo_one. reflexivity. Qed.

(* a heartbeat round in a steady state changes nothing *)
Lemma hb_3 : forall rv k pt L,
  ndrain rv 4 (nstep rv (ss_gen 3 k pt L) (Tick 0 1001 (peers_of 3))) = ss_gen 3 k pt L.
Proof.
  intros rv k pt L. change (peers_of 3) with [1; 2]. expand_ss. sym_eval. do 4 fifo_one. reflexivity.
Qed.

Theorem live_fifo_3 : forall rv payloads c',
  fifo_run rv (live_actions 3 payloads) (init_default 3) c' ->
  strip c' = ss_gen 3 (lenN payloads) (pt_of (lenN payloads)) (mk_log 1 0 payloads).
Proof.
  intros rv payloads c' R.
  exact (live_fifo rv 3 (ss_gen 3) 12 8 4 (ss_gen_net 3) (elect3 rv) (round0_3 rv) (round_3 rv) (hb_3 rv) payloads c' R).
Qed.

Theorem live_fifo_script_3 : forall rv payloads,
  fifo_run rv (live_actions 3 payloads) (init_default 3) (run rv 3 (live_script 12 8 4 3 payloads)).
Proof.
  intros rv payloads.
  exact (live_fifo_script rv 3 (ss_gen 3) 12 8 4 (ss_gen_net 3) (elect3 rv) (round0_3 rv) (round_3 rv) (hb_3 rv) payloads).
Qed.

(* election by node 0's timer: 24 deliveries (4 pre-votes, 4 votes, 4 heartbeats, each with its answer) *)
Lemma elect5 : forall rv,
  ndrain rv 24 (nstep rv (strip (init_default (N.of_nat 5))) (Tick 0 0 [])) = ss_gen 5 0 0 [].
Proof. intros [[|] [|] [|]]; vm_compute; reflexivity. Qed.

(* the first append (the followers' last-entry term is still 0): 4 appends, 4 acknowledgements — the leader commits
   on the second one (quorum 3 with itself) and sends 4 heartbeats carrying the new commit index —, 4 heartbeats, 4 answers *)
Lemma round0_5 : forall rv d,
  ndrain rv 16 (nstep rv (ss_gen 5 0 0 []) (ClientAppend 0 d)) = ss_gen 5 1 1 [mkEntry 1 1 d].
Proof. intros rv d. vm_compute. reflexivity. Qed.

Lemma round_5 : forall rv k L d, 1 <= k -> length L = N.to_nat k ->
  ndrain rv 16 (nstep rv (ss_gen 5 k 1 L) (ClientAppend 0 d)) = ss_gen 5 (k + 1) 1 (L ++ [mkEntry (k + 1) 1 d]).
Proof. intros rv k L d Hk HL. expand_ss. sym_eval. do 16 fifo_one. reflexivity. Qed.

(* a heartbeat round in a steady state changes nothing *)
Lemma hb_5 : forall rv k pt L,
  ndrain rv 8 (nstep rv (ss_gen 5 k pt L) (Tick 0 1001 (peers_of 5))) = ss_gen 5 k pt L.
Proof.
  intros rv k pt L. change (peers_of 5) with [1; 2; 3; 4]. expand_ss. sym_eval. do 8 fifo_one. reflexivity.
Qed.

Theorem live_fifo_5 : forall rv payloads c',
  fifo_run rv (live_actions 5 payloads) (init_default 5) c' ->
  strip c' = ss_gen 5 (lenN payloads) (pt_of (lenN payloads)) (mk_log 1 0 payloads).
Proof.
  intros rv payloads c' R.
  exact (live_fifo rv 5 (ss_gen 5) 24 16 8 (ss_gen_net 5) (elect5 rv) (round0_5 rv) (round_5 rv) (hb_5 rv) payloads c' R).
Qed.

Theorem live_fifo_script_5 : forall rv payloads,
  fifo_run rv (live_actions 5 payloads) (init_default 5) (run rv 5 (live_script 24 16 8 5 payloads)).
Proof.
  intros rv payloads.
  exact (live_fifo_script rv 5 (ss_gen 5) 24 16 8 (ss_gen_net 5) (elect5 rv) (round0_5 rv) (round_5 rv) (hb_5 rv) payloads).
Qed.
