(* RaftLogLC.v — LEADER COMPLETENESS and STATE-MACHINE SAFETY for the repaired election code, under the hypotheses
   that none of the three log-replication defect classes occurs in the run:
     ack-from-diverged-log   (ack_diverged_b, Raft.v),
     old-term-commit         (old_term_commit_b, Raft.v),
     commit-without-quorum   (commit_noquorum_b, RaftLog.v).
   (theorems named `_partial` are the property under such a hypothesis; without it the property is refuted, RaftProofs.v).
   Invariant LC over `run rv size evs` for a revision `rv` with both election repairs, on top of log matching
   (RaftLogMatch.LI), election safety (C27) and the election invariants J (a leader holds a majority of supports) and
   K (supports of a node are for terms <= its term).  The fields of LC, for every entry e committed by a leader of
   term T at index idx (`committed`):
     lc_some, lc_et  a leader commit records an entry, of the leader's term and at that index, and the leader is recorded;
     lc_c1  every log that holds an entry of a term >= T at an index >= idx holds e at idx;
     lc_c2  an entry of a term > T sits at an index > idx;
     lc_c4  every Leader of a term >= T holds e at idx;
     lc_q   a majority S of nodes hold e at idx, have a term >= T, and every candidate of a term > T that a member of S
            supports holds e at idx as long as it is Candidate or Leader of that term;
   and, independent of e:
     lc_len  the cluster has `sz` nodes;
     lc_svt  a candidate that was supported for term t has a term >= t;
     lc_vr   a Vote request in flight is of a term <= its sender's, and describes the sender's last entry while the
             sender is Candidate of that term;
     lc_h    the statement itself, `leader_completeness_up`, of the history so far. *)
From Coq Require Import NArith List Bool Lia Arith.
From Agdb Require Import Raft RaftWitness RaftProofs RaftInv RaftElect RaftVote RaftLog RaftLogWf RaftLogMatch RaftLogHand.
Import ListNotations.
Open Scope N_scope.

Definition quiet (x : ghost) : Prop := match x with GLeader _ _ _ | GCommit _ _ _ _ _ => False | _ => True end.

Lemma In_range_commits : forall j b T (f : N -> option entry) l j' b' T' idx e,
  In (GCommit j' b' T' idx e) (map (fun idx => GCommit j b T idx (f idx)) l) ->
  j' = j /\ b' = b /\ T' = T /\ e = f idx /\ In idx l.
Proof.
  intros j b T f l j' b' T' idx e H. apply in_map_iff in H as [x [E Hx]]. inversion E; subst. auto.
Qed.

Lemma In_node_ghosts_commit : forall old new j b T idx e,
  In (GCommit j b T idx e) (node_ghosts old new) ->
  j = n_index new /\ b = (is_leader (n_state old) && is_leader (n_state new)) /\ T = n_term new /\
  e = log_at (n_logs new) idx /\ n_commit old < idx /\ idx <= n_commit new.
Proof.
  intros old new j b T idx e H. unfold node_ghosts in H.
  apply in_app_or in H as [H|H]; [destruct (_ && _); [destruct H as [H|[]]; discriminate|destruct H]|].
  apply in_app_or in H as [H|H]; [destruct (_ && _); [destruct H as [H|[]]; discriminate|destruct H]|].
  apply In_range_commits in H as (-> & -> & -> & -> & H). apply range_from_In in H. repeat split; auto; lia.
Qed.

Lemma In_node_ghosts_commit_conv : forall old new idx,
  n_commit old < idx -> idx <= n_commit new ->
  In (GCommit (n_index new) (is_leader (n_state old) && is_leader (n_state new)) (n_term new) idx (log_at (n_logs new) idx))
     (node_ghosts old new).
Proof.
  intros old new idx H1 H2. unfold node_ghosts. apply in_or_app. right. apply in_or_app. right.
  apply in_map_iff. exists idx. split; auto. apply range_from_In. lia.
Qed.

Lemma In_node_ghosts_leader : forall old new j t log,
  In (GLeader j t log) (node_ghosts old new) ->
  j = n_index new /\ t = n_term new /\ log = n_logs new /\
  is_leader (n_state new) = true /\ is_leader (n_state old) = false.
Proof.
  intros old new j t log H. unfold node_ghosts in H.
  apply in_app_or in H as [H|H]; [destruct (_ && _); [destruct H as [H|[]]; discriminate|destruct H]|].
  apply in_app_or in H as [H|H].
  - destruct (is_leader (n_state new) && negb (is_leader (n_state old))) eqn:B; [|destruct H].
    destruct H as [H|[]]. inversion H; subst. apply andb_true_iff in B as [B1 B2]. apply negb_true_iff in B2. auto.
  - apply in_map_iff in H as [x [E _]]. discriminate.
Qed.

(* after a GCommit of a step come only GCommits *)
Lemma split_after : forall (P M : list ghost) g1 y g2,
  ~ In y P -> P ++ M = g1 ++ y :: g2 -> forall x, In x g2 -> In x M.
Proof.
  induction P as [|a P IH]; intros M g1 y g2 NI E x Hx.
  - cbn in E. rewrite E. apply in_or_app. right. right. exact Hx.
  - destruct g1 as [|b g1]; cbn in E; inversion E; subst.
    + exfalso. apply NI. left; reflexivity.
    + eapply IH; eauto. intros H. apply NI. right; exact H.
Qed.

Lemma node_ghosts_after_commit : forall pre old new g1 j b T idx e g2 j' t' log,
  (forall x, In x pre -> quiet x) ->
  pre ++ node_ghosts old new = g1 ++ GCommit j b T idx e :: g2 -> ~ In (GLeader j' t' log) g2.
Proof.
  intros pre old new g1 j b T idx e g2 j' t' log Q E H. unfold node_ghosts in E.
  set (A := if is_candidate (n_state new) && negb (is_candidate (n_state old) && (n_term old =? n_term new))
            then [GCand (n_index new) (n_term new)] else []) in *.
  set (B := if is_leader (n_state new) && negb (is_leader (n_state old)) then [GLeader (n_index new) (n_term new) (n_logs new)] else []) in *.
  rewrite !app_assoc in E.
  assert (NC : ~ In (GCommit j b T idx e) ((pre ++ A) ++ B)).
  { intros Hx. apply in_app_or in Hx as [Hx|Hx]; [apply in_app_or in Hx as [Hx|Hx]|].
    - apply (Q _ Hx).
    - unfold A in Hx. destruct (is_candidate (n_state new) && negb (is_candidate (n_state old) && (n_term old =? n_term new)));
        [destruct Hx as [Hx|[]]; discriminate|destruct Hx].
    - unfold B in Hx. destruct (is_leader (n_state new) && negb (is_leader (n_state old)));
        [destruct Hx as [Hx|[]]; discriminate|destruct Hx]. }
  pose proof (split_after _ _ _ _ _ NC E _ H) as HM.
  apply in_map_iff in HM as [x [Ex _]]. discriminate.
Qed.

Lemma old_term_app : forall a b, old_term_commit_b (a ++ b) = old_term_commit_b a || old_term_commit_b b.
Proof. intros. unfold old_term_commit_b. apply existsb_app. Qed.

Lemma old_term_In : forall g j T idx e,
  old_term_commit_b g = false -> In (GCommit j true T idx e) g -> exists x, e = Some x /\ e_term x = T.
Proof.
  intros g j T idx e H Hin.
  assert (B : match e with Some x => negb (e_term x =? T) | None => true end = false).
  { destruct (match e with Some x => _ | None => _ end) eqn:M; [|reflexivity].
    rewrite <- H. symmetry. apply existsb_exists. eexists; split; [exact Hin | exact M]. }
  destruct e as [x|]; [|discriminate B]. exists x. split; [reflexivity|].
  apply negb_false_iff, N.eqb_eq in B. exact B.
Qed.

Lemma nq_node_In : forall all old new idx,
  nq_node all old new = false -> is_leader (n_state old) = true -> is_leader (n_state new) = true ->
  n_commit old < idx -> idx <= n_commit new ->
  n_size new / 2 + 1 <= holders all (n_term new) idx (log_at (n_logs new) idx).
Proof.
  intros all old new idx H L1 L2 H1 H2. unfold nq_node in H. rewrite L1, L2 in H. cbn [andb] in H.
  destruct (N.ltb_spec (holders all (n_term new) idx (log_at (n_logs new) idx)) (n_size new / 2 + 1)); [|lia].
  exfalso.
  assert (existsb (fun idx0 => holders all (n_term new) idx0 (log_at (n_logs new) idx0) <? n_size new / 2 + 1)
            (range_from (n_commit old + 1) (N.to_nat (n_commit new - n_commit old))) = true).
  { apply existsb_exists. exists idx. split; [apply range_from_In; lia | apply N.ltb_lt; auto]. }
  congruence.
Qed.

Lemma nq_nodes_nth : forall all olds news k o n,
  nq_nodes all olds news = false -> nth_error olds k = Some o -> nth_error news k = Some n -> nq_node all o n = false.
Proof.
  intros all. induction olds as [|a olds IH]; intros news k o n H Ho Hn; destruct k; cbn in Ho; try discriminate.
  - destruct news as [|b news]; cbn in Hn; [discriminate|]. inversion Ho; inversion Hn; subst.
    cbn in H. apply orb_false_iff in H. tauto.
  - destruct news as [|b news]; cbn in Hn; [discriminate|]. cbn in H. apply orb_false_iff in H as [_ H]. eapply IH; eauto.
Qed.

Lemma noquorum_snoc : forall rv evs c e,
  commit_noquorum_from rv c (evs ++ [e]) =
  commit_noquorum_from rv c evs || nq_step (run_from rv c evs) (step rv (run_from rv c evs) e).
Proof.
  intros rv. induction evs as [|a evs IH]; intros c e; cbn [app commit_noquorum_from run_from fold_left].
  - rewrite orb_false_r. reflexivity.
  - rewrite IH. unfold run_from. rewrite orb_assoc. reflexivity.
Qed.

Lemma NoDup_map_index : forall (l : list node) a,
  (forall k nd, nth_error l k = Some nd -> n_index nd = N.of_nat (a + k)) -> NoDup (map n_index l).
Proof.
  induction l as [|x l IH]; intros a H; cbn; constructor.
  - intros Hin. apply in_map_iff in Hin as [y [E Hy]]. apply In_nth_error in Hy as [k Hk].
    pose proof (H O x eq_refl). pose proof (H (S k) y Hk). lia.
  - apply (IH (S a)). intros k nd Hk. rewrite (H (S k) nd Hk). f_equal. lia.
Qed.

Lemma NoDup_map_filter : forall (f : node -> N) (p : node -> bool) l, NoDup (map f l) -> NoDup (map f (filter p l)).
Proof.
  intros f p. induction l as [|x l IH]; intros H; cbn; [constructor|]. inversion H; subst.
  destruct (p x); cbn; auto. constructor; auto.
  intros Hin. apply H2. apply in_map_iff in Hin as [y [E Hy]]. apply filter_In in Hy as [Hy _].
  apply in_map_iff. eauto.
Qed.

Lemma holders_quorum : forall (l : list node) sz T idx e,
  nodes_ok l -> length l = N.to_nat sz -> sz / 2 + 1 <= holders l T idx (Some e) ->
  exists S, NoDup S /\ sz < 2 * lenN S /\
    forall u, In u S -> u < sz /\ exists v, nth_error l (N.to_nat u) = Some v /\ n_term v = T /\ log_at (n_logs v) idx = Some e.
Proof.
  intros l sz T idx e HN HL Q. exists (map n_index (filter (holds_b T idx (Some e)) l)). split; [|split].
  - apply NoDup_map_filter. apply (NoDup_map_index l 0). intros k nd Hk. apply (HN _ _ Hk).
  - unfold holders, lenN in *. rewrite map_length.
    assert (sz < 2 * (sz / 2 + 1)); [|lia].
    pose proof (N.div_mod sz 2). pose proof (N.mod_upper_bound sz 2). lia.
  - intros u Hu. apply in_map_iff in Hu as [v [<- Hv]]. apply filter_In in Hv as [Hv Hb].
    apply In_nth_error in Hv as [k Hk]. destruct (HN _ _ Hk) as [_ Ei].
    assert (k < length l)%nat by (apply nth_error_Some; congruence).
    split; [lia|]. exists v. rewrite Ei, Nat2N.id. split; auto.
    unfold holds_b in Hb. apply andb_true_iff in Hb as [B1 B2]. apply N.eqb_eq in B1. apply oentry_eqb_eq in B2. auto.
Qed.

Definition committed (h : list ghost) (T idx : N) (e : entry) : Prop := exists i, In (GCommit i true T idx (Some e)) h.
Definition holds (nd : node) (idx : N) (e : entry) : Prop := log_at (n_logs nd) idx = Some e.

(* node cd, as long as it is Candidate or Leader of term t, holds e at idx *)
Definition cand_safe (c : cluster) (cd t idx : N) (e : entry) : Prop :=
  forall nd, get_node c cd = Some nd -> n_term nd = t -> cl (n_state nd) = true -> holds nd idx e.

(* C29 restricted to leaders of HIGHER terms (Raft's Leader Completeness) *)
Definition leader_completeness_up (h : list ghost) : Prop :=
  forall h1 h2 i t idx e j t' log,
    h = h1 ++ GCommit i true t idx e :: h2 -> In (GLeader j t' log) h2 -> t < t' -> log_at log idx = e.

Record LC (sz : N) (c : cluster) : Prop := {
  lc_len : length (c_nodes c) = N.to_nat sz;
  lc_some : forall i T idx e, In (GCommit i true T idx e) (c_hist c) -> exists x, e = Some x;
  lc_et : forall T idx e, committed (c_hist c) T idx e ->
            e_term e = T /\ e_index e = idx /\ exists i0, In (i0, T) (leaders (c_hist c));
  lc_c1 : forall T idx e u v x, committed (c_hist c) T idx e -> get_node c u = Some v -> In x (n_logs v) ->
            T <= e_term x -> idx <= e_index x -> holds v idx e;
  lc_c2 : forall T idx e u v x, committed (c_hist c) T idx e -> get_node c u = Some v -> In x (n_logs v) ->
            T < e_term x -> idx < e_index x;
  lc_c4 : forall T idx e u v, committed (c_hist c) T idx e -> get_node c u = Some v ->
            is_leader (n_state v) = true -> T <= n_term v -> holds v idx e;
  lc_q : forall T idx e, committed (c_hist c) T idx e ->
           exists S, NoDup S /\ sz < 2 * lenN S /\
             forall u, In u S -> u < sz /\ exists v, get_node c u = Some v /\ holds v idx e /\ T <= n_term v /\
               forall t cd, In (u, t, cd) (supports (c_hist c)) -> T < t -> cand_safe c cd t idx e;
  lc_svt : forall u t cd nd, In (u, t, cd) (supports (c_hist c)) -> get_node c cd = Some nd -> t <= n_term nd;
  lc_vr : forall r nd, In (MReq r) (c_net c) -> q_kind r = KVote -> get_node c (q_from r) = Some nd ->
            q_term r <= n_term nd /\
            (n_state nd = Candidate -> n_term nd = q_term r -> q_li r = p_li (local nd) /\ q_lt r = p_lt (local nd));
  lc_h : leader_completeness_up (c_hist c) }.

Definition log_change2 (c : cluster) (i : N) (nd nd' : node) : Prop :=
  n_logs nd' = n_logs nd \/
  (is_leader (n_state nd) = true /\ n_state nd' = n_state nd /\ n_term nd' = n_term nd /\ n_commit nd' = n_commit nd /\
   exists d, n_logs nd' = n_logs nd ++ [mkEntry (lenN (n_logs nd) + 1) (n_term nd) d]) \/
  (cl (n_state nd') = false /\ lexle nd nd' /\
   exists j s, j <> i /\ get_node c j = Some s /\ n_logs nd' = firstn (length (n_logs nd')) (n_logs s)).

Definition trans_cl (i : N) (nd nd' : node) (g : list ghost) : Prop :=
  cl (n_state nd') = true ->
  (n_state nd' = n_state nd /\ n_term nd' = n_term nd /\ supports g = []) \/
  (n_state nd = Candidate /\ is_leader (n_state nd') = true /\ n_term nd' = n_term nd /\ supports g = [] /\
   n_logs nd' = n_logs nd) \/
  (n_state nd' = Candidate /\ n_term nd' = n_term nd + 1 /\ n_logs nd' = n_logs nd /\ supports g = [(i, n_term nd', i)]).

Definition trans_ncl (c : cluster) (i : N) (nd nd' : node) (g : list ghost) : Prop :=
  cl (n_state nd') = false ->
  supports g = [] \/
  exists r, In (MReq r) (c_net c) /\ q_kind r = KVote /\ supports g = [(i, q_term r, q_from r)] /\ q_from r <> i /\
            n_term nd' = q_term r /\ p_li (local nd) <= q_li r /\ p_lt (local nd) <= q_lt r /\ n_logs nd' = n_logs nd.

Lemma log_at_prefix : forall (a s : list entry) idx,
  a = firstn (length a) s -> idx <= lenN a -> log_at a idx = log_at s idx.
Proof.
  intros a s idx E H. unfold log_at. destruct (N.eqb_spec idx 0); auto.
  rewrite E at 1. apply nth_error_firstn_lt. unfold lenN in H. lia.
Qed.

Lemma last_in : forall (l : list entry), l <> [] -> In (last l e0) l.
Proof.
  intros l H. destruct (exists_last H) as [l' [x ->]]. rewrite last_last. apply in_or_app. right. left. reflexivity.
Qed.

Lemma last_index : forall (l : list entry), wf_log l -> l <> [] -> e_index (last l e0) = lenN l.
Proof.
  intros l [P _] H. pose proof (nth_error_last l e0 H) as E. rewrite (P _ _ E). unfold lenN.
  destruct l; [congruence|]. cbn [length]. lia.
Qed.

Lemma holds_len : forall nd idx e, holds nd idx e -> 1 <= idx /\ idx <= lenN (n_logs nd).
Proof. intros nd idx e H. apply log_at_some_lt in H. unfold lenN. lia. Qed.

Lemma holds_In : forall nd idx e, holds nd idx e -> In e (n_logs nd).
Proof.
  intros nd idx e H. unfold holds, log_at in H. destruct (idx =? 0); [discriminate|]. eapply nth_error_In; eauto.
Qed.

Section Put.
Variables (sz : N) (c : cluster) (i : N) (nd nd' : node) (net' : list msg) (pre : list ghost).
Let g := pre ++ node_ghosts nd nd'.
Let c' := mkCluster (put_node c i nd') net' (c_hist c ++ g).
Hypothesis Lc : LI c.
Hypothesis Cc : LC sz c.
Hypothesis G : get_node c i = Some nd.
Hypothesis Lc' : LI c'.
Hypothesis Jc' : J sz c'.
Hypothesis Kc' : K c'.
Hypothesis Qpre : forall x, In x pre -> quiet x.
Hypothesis OT : old_term_commit_b g = false.
Hypothesis NQ : nq_node (put_node c i nd') nd nd' = false.
Hypothesis Hidx : n_index nd' = i.
Hypothesis Hsz : n_size nd' = sz.
Hypothesis Tm : n_term nd <= n_term nd'.
Hypothesis LC2 : log_change2 c i nd nd'.
Hypothesis TC : trans_cl i nd nd' g.
Hypothesis TN : trans_ncl c i nd nd' g.
Hypothesis NM : forall m, In m net' -> In m (c_net c) \/ new_msg nd' m.

Lemma getput_i : get_node c' i = Some nd'.
Proof. exact (get_put_eq c i nd nd' net' _ G). Qed.

Lemma getput_o : forall u, u <> i -> get_node c' u = get_node c u.
Proof. intros u. apply get_put_neq. Qed.

Lemma Wnd : nwf nd. Proof. unfold get_node in G. eapply (li_wf _ Lc); eauto. Qed.
Lemma Wnd' : nwf nd'. Proof. pose proof getput_i as H. unfold get_node in H. eapply (li_wf _ Lc'); eauto. Qed.

(* a commit recorded by this step *)
Definition NEW (T idx : N) (e : entry) : Prop :=
  is_leader (n_state nd) = true /\ is_leader (n_state nd') = true /\ T = n_term nd' /\ e_term e = T /\
  holds nd' idx e /\ n_commit nd < idx /\ idx <= n_commit nd' /\
  sz / 2 + 1 <= holders (put_node c i nd') T idx (Some e).

Lemma commit_in_g : forall j T idx e, In (GCommit j true T idx e) g ->
  exists x, e = Some x /\ NEW T idx x.
Proof.
  intros j T idx e H. destruct (old_term_In _ _ _ _ _ OT H) as [x [-> Et]]. exists x. split; auto.
  unfold g in H. apply in_app_or in H as [H|H]; [destruct (Qpre _ H)|].
  apply In_node_ghosts_commit in H as (_ & B & -> & E & H1 & H2).
  symmetry in B. apply andb_true_iff in B as [B1 B2].
  unfold NEW. split; [exact B1|]. split; [exact B2|]. split; [reflexivity|]. split; [exact Et|].
  split; [unfold holds; symmetry; exact E|]. split; [exact H1|]. split; [exact H2|].
  rewrite <- Hsz, E. apply nq_node_In with (old := nd); auto.
Qed.

Lemma committed_cases : forall T idx e, committed (c_hist c ++ g) T idx e -> committed (c_hist c) T idx e \/ NEW T idx e.
Proof.
  intros T idx e [j H]. apply in_app_or in H as [H|H]; [left; exists j; exact H|right].
  destruct (commit_in_g _ _ _ _ H) as [x [E N]]. inversion E; subst. exact N.
Qed.

Lemma new_same : forall T idx e, NEW T idx e -> n_logs nd' = n_logs nd /\ n_term nd' = n_term nd.
Proof.
  intros T idx e (L1 & L2 & _ & _ & _ & H1 & H2 & _). split.
  - destruct LC2 as [E|[(_ & _ & _ & Ec & _)|(Cn & _)]]; auto; [lia|].
    unfold cl in Cn. rewrite L2, orb_true_r in Cn. discriminate.
  - assert (Cn : cl (n_state nd') = true) by (unfold cl; rewrite L2; apply orb_true_r).
    destruct (TC Cn) as [(_ & E & _)|[(S0 & _)|(S0 & _)]]; auto.
    + rewrite S0 in L1. discriminate.
    + rewrite S0 in L2. discriminate.
Qed.

(* the acting node keeps a committed entry it holds *)
Lemma keep_holds : forall T idx e, committed (c_hist c) T idx e -> holds nd idx e -> holds nd' idx e.
Proof.
  intros T idx e Cm H. unfold holds in *.
  destruct LC2 as [E|[(_ & _ & _ & _ & d & E)|(Cn & LX & j & s & Hj & Hs & E)]].
  - rewrite E. exact H.
  - rewrite E. apply log_at_snoc_keep. exact H.
  - destruct (lc_et _ _ Cc _ _ _ Cm) as (Et & Ei & _).
    pose proof Wnd as W. pose proof Wnd' as W'.
    destruct (holds_len _ _ _ H) as [I1 I2].
    assert (T <= p_lt (local nd)).
    { rewrite (w_lt _ W). rewrite <- Et. apply wf_log_le_last; [apply (w_log _ W)|]. eapply holds_In; eauto. }
    assert (Lnd : p_li (local nd) = lenN (n_logs nd)) by (apply ninv_li; apply (w_inv _ W)).
    assert (Lnd' : p_li (local nd') = lenN (n_logs nd')) by (apply ninv_li; apply (w_inv _ W')).
    (* the last entry of the new log: term >= T, index >= idx *)
    assert (NE : n_logs nd' <> []).
    { intros E0. unfold lexle in LX. rewrite (w_lt _ W'), Lnd', E0 in LX. unfold last_term, lenN in LX. cbn in LX. lia. }
    set (x := last (n_logs nd') e0).
    assert (Xin : In x (n_logs nd')) by (apply last_in; auto).
    assert (Xi : e_index x = lenN (n_logs nd')) by (apply last_index; auto; apply (w_log _ W')).
    assert (Xt : e_term x = p_lt (local nd')) by (rewrite (w_lt _ W'); reflexivity).
    assert (Xs : In x (n_logs s)) by (eapply In_prefix; eauto).
    unfold lexle in LX.
    assert (T <= e_term x) by lia.
    assert (idx <= e_index x).
    { destruct (N.eq_dec (e_term x) T) as [Eq|Ne].
      - rewrite Xi. lia.
      - assert (idx < e_index x); [|lia]. eapply (lc_c2 _ _ Cc T idx e j s x); eauto. lia. }
    pose proof (lc_c1 _ _ Cc T idx e j s x Cm Hs Xs) as Hh. unfold holds in Hh.
    rewrite (log_at_prefix _ _ idx E); [apply Hh; auto | lia].
Qed.


Hypothesis ES : election_safety (c_hist c ++ g).

Lemma nodes_len' : length (put_node c i nd') = N.to_nat sz.
Proof. unfold put_node. rewrite upd_nth_length. apply (lc_len _ _ Cc). Qed.

Lemma sup_app : supports (c_hist c ++ g) = supports (c_hist c) ++ supports g.
Proof. apply supports_app. Qed.

(* the supports recorded by this step *)
Lemma sup_g : forall u t cd, In (u, t, cd) (supports g) ->
  u = i /\
  ((cd = i /\ t = n_term nd' /\ n_state nd' = Candidate /\ n_logs nd' = n_logs nd) \/
   (exists r, In (MReq r) (c_net c) /\ q_kind r = KVote /\ cd = q_from r /\ t = q_term r /\ q_from r <> i /\
              n_term nd' = q_term r /\ p_li (local nd) <= q_li r /\ p_lt (local nd) <= q_lt r /\ n_logs nd' = n_logs nd)).
Proof.
  intros u t cd H. destruct (cl (n_state nd')) eqn:Cn.
  - destruct (TC Cn) as [(_ & _ & E)|[(_ & _ & _ & E & _)|(S0 & T0 & L0 & E)]]; rewrite E in H.
    + destruct H.
    + destruct H.
    + destruct H as [H|[]]. inversion H; subst. split; auto.
  - destruct (TN Cn) as [E|(r & Hr & Kr & E & Hne & T0 & P1 & P2 & L0)]; rewrite E in H; [destruct H|].
    destruct H as [H|[]]. inversion H; subst. split; auto. right. exists r. repeat split; auto.
Qed.

Lemma c1_old : forall T idx e u v x, committed (c_hist c) T idx e -> get_node c' u = Some v -> In x (n_logs v) ->
  T <= e_term x -> idx <= e_index x -> holds v idx e.
Proof.
  intros T idx e u v x Cm Hg Hx H1 H2. destruct (get_put _ _ _ _ _ _ _ _ G Hg) as [[-> ->]|[Hne Hg']].
  2:{ eapply (lc_c1 _ _ Cc); eauto. }
  destruct LC2 as [E|[(L & _ & _ & _ & d & E)|(Cn & LX & j & s & Hj & Hs & E)]].
  - unfold holds. rewrite E. rewrite E in Hx. eapply (lc_c1 _ _ Cc); eauto.
  - eapply keep_holds; eauto. rewrite E in Hx. apply in_app_or in Hx as [Hx|[<-|[]]].
    + eapply (lc_c1 _ _ Cc); eauto.
    + cbn in H1. eapply (lc_c4 _ _ Cc); eauto.
  - assert (Xs : In x (n_logs s)) by (eapply In_prefix; eauto).
    pose proof (lc_c1 _ _ Cc T idx e j s x Cm Hs Xs H1 H2) as Hh. unfold holds in *.
    rewrite (log_at_prefix _ _ idx E); auto.
    apply In_nth_error in Hx as [k Hk]. destruct (w_log _ Wnd') as [P _]. rewrite (P _ _ Hk) in H2.
    assert (k < length (n_logs nd'))%nat by (apply nth_error_Some; congruence). unfold lenN. lia.
Qed.

Lemma c2_old : forall T idx e u v x, committed (c_hist c) T idx e -> get_node c' u = Some v -> In x (n_logs v) ->
  T < e_term x -> idx < e_index x.
Proof.
  intros T idx e u v x Cm Hg Hx H1. destruct (get_put _ _ _ _ _ _ _ _ G Hg) as [[-> ->]|[Hne Hg']].
  2:{ eapply (lc_c2 _ _ Cc); eauto. }
  destruct LC2 as [E|[(L & _ & _ & _ & d & E)|(Cn & LX & j & s & Hj & Hs & E)]].
  - rewrite E in Hx. eapply (lc_c2 _ _ Cc); eauto.
  - rewrite E in Hx. apply in_app_or in Hx as [Hx|[<-|[]]].
    + eapply (lc_c2 _ _ Cc); eauto.
    + cbn in *. assert (Hh : holds nd idx e) by (eapply (lc_c4 _ _ Cc); eauto; lia).
      apply holds_len in Hh. lia.
  - eapply (lc_c2 _ _ Cc T idx e j s x); eauto. eapply In_prefix; eauto.
Qed.

Lemma lead_i : is_leader (n_state nd') = true -> In (i, n_term nd') (leaders (c_hist c ++ g)).
Proof.
  intros L. pose proof getput_i as H. unfold get_node in H.
  pose proof (li_lh1 _ Lc' _ _ H L) as X. rewrite N2Nat.id in X. exact X.
Qed.

Lemma c4_old : forall T idx e u v, committed (c_hist c) T idx e -> get_node c' u = Some v ->
  is_leader (n_state v) = true -> T <= n_term v -> holds v idx e.
Proof.
  intros T idx e u v Cm Hg L HT. destruct (get_put _ _ _ _ _ _ _ _ G Hg) as [[-> ->]|[Hne Hg']].
  2:{ eapply (lc_c4 _ _ Cc); eauto. }
  assert (Cn : cl (n_state nd') = true) by (unfold cl; rewrite L; apply orb_true_r).
  destruct (TC Cn) as [(S0 & T0 & _)|[(S0 & _ & T0 & Sg & L0)|(S0 & _)]].
  - eapply keep_holds; eauto. eapply (lc_c4 _ _ Cc); eauto; [rewrite <- S0; auto | lia].
  - (* newly elected *)
    destruct (lc_et _ _ Cc _ _ _ Cm) as (Et & Ei & i0 & Hi0).
    destruct (N.eq_dec T (n_term nd')) as [Eq|Ne].
    + exfalso. assert (i0 = i).
      { apply (ES i0 i T); [rewrite leaders_app; apply in_or_app; left; exact Hi0 | rewrite Eq; apply lead_i; auto]. }
      subst i0. unfold get_node in G. pose proof (li_lh2 _ Lc (N.to_nat i) nd T G) as X. rewrite N2Nat.id in X.
      destruct (X Hi0) as [H|[_ H]]; [lia|]. rewrite S0 in H. discriminate.
    + destruct (j_lead _ _ Jc' _ _ (lead_i L)) as [V [NV [SV QV]]].
      destruct (lc_q _ _ Cc _ _ _ Cm) as [S [NS [QS HS]]].
      destruct (quorum_intersection_n sz S V NS NV) as [w [W1 W2]]; auto.
      { intros y Hy. apply HS; auto. }
      { intros y Hy. apply SV; auto. }
      destruct (HS _ W1) as (_ & vw & _ & _ & _ & Hv).
      destruct (SV _ W2) as [_ Hsup]. cbn [c' c_hist] in Hsup. rewrite sup_app, Sg, app_nil_r in Hsup.
      assert (Hh : holds nd idx e).
      { apply (Hv (n_term nd') i Hsup); [lia| exact G | lia | unfold cl; rewrite S0; reflexivity]. }
      unfold holds in *. rewrite L0. exact Hh.
  - rewrite S0 in L. discriminate.
Qed.

(* a candidate whose last entry is at least that of a holder holds the entry *)
Lemma cover : forall T idx e r, committed (c_hist c) T idx e -> holds nd idx e ->
  In (MReq r) (c_net c) -> q_kind r = KVote -> q_from r <> i ->
  p_li (local nd) <= q_li r -> p_lt (local nd) <= q_lt r -> T < q_term r ->
  cand_safe c' (q_from r) (q_term r) idx e.
Proof.
  intros T idx e r Cm Hh Hr Kr Hne P1 P2 HT v Hg Ht Hcl.
  rewrite getput_o in Hg by auto.
  destruct (is_leader (n_state v)) eqn:L; [apply (lc_c4 _ _ Cc T idx e (q_from r) v Cm Hg L); lia|].
  assert (Sv : n_state v = Candidate).
  { unfold cl in Hcl. rewrite L, orb_false_r in Hcl. destruct (n_state v); try discriminate. reflexivity. }
  destruct (lc_vr _ _ Cc r v Hr Kr Hg) as [_ VR]. destruct (VR Sv Ht) as [V1 V2].
  assert (Wv : nwf v) by (unfold get_node in Hg; eapply (li_wf _ Lc); eauto).
  destruct (lc_et _ _ Cc _ _ _ Cm) as (Et & Ei & _).
  destruct (holds_len _ _ _ Hh) as [I1 I2].
  pose proof (ninv_li _ (w_inv _ Wnd)) as Ln. pose proof (ninv_li _ (w_inv _ Wv)) as Lv.
  assert (T <= p_lt (local nd)).
  { rewrite (w_lt _ Wnd). rewrite <- Et. apply wf_log_le_last; [apply (w_log _ Wnd)|]. eapply holds_In; eauto. }
  assert (NE : n_logs v <> []).
  { intros E0. rewrite E0 in Lv. unfold lenN in Lv. cbn in Lv. lia. }
  eapply (lc_c1 _ _ Cc T idx e (q_from r) v (last (n_logs v) e0)); eauto.
  - apply last_in; auto.
  - change (e_term (last (n_logs v) e0)) with (last_term (n_logs v)). rewrite <- (w_lt _ Wv). lia.
  - rewrite last_index; auto; [lia | apply (w_log _ Wv)].
Qed.

(* a support recorded before this step keeps its candidate safe *)
Lemma transport : forall T idx e u t cd, committed (c_hist c) T idx e -> In (u, t, cd) (supports (c_hist c)) ->
  cand_safe c cd t idx e -> cand_safe c' cd t idx e.
Proof.
  intros T idx e u t cd Cm Hs Hc v Hg Ht Hcl. destruct (get_put _ _ _ _ _ _ _ _ G Hg) as [[-> ->]|[Hne Hg']]; [|eapply Hc; eauto].
  pose proof (lc_svt _ _ Cc _ _ _ _ Hs G) as Hle.
  destruct (TC Hcl) as [(S0 & T0 & _)|[(S0 & _ & T0 & _ & L0)|(_ & T0 & _)]]; [| |lia].
  - eapply keep_holds; eauto. apply (Hc nd G); [lia | rewrite <- S0; exact Hcl].
  - eapply keep_holds; eauto. apply (Hc nd G); [lia | unfold cl; rewrite S0; reflexivity].
Qed.

Lemma q_old : forall T idx e, committed (c_hist c) T idx e ->
  exists S, NoDup S /\ sz < 2 * lenN S /\
    forall u, In u S -> u < sz /\ exists v, get_node c' u = Some v /\ holds v idx e /\ T <= n_term v /\
      forall t cd, In (u, t, cd) (supports (c_hist c ++ g)) -> T < t -> cand_safe c' cd t idx e.
Proof.
  intros T idx e Cm. destruct (lc_q _ _ Cc _ _ _ Cm) as [S [NS [QS HS]]]. exists S. split; auto. split; auto.
  intros u Hu. destruct (HS _ Hu) as (Hlt & v & Hg & Hh & HT & Hv). split; auto.
  destruct (N.eq_dec u i) as [->|Hne].
  - rewrite G in Hg. inversion Hg; subst v. exists nd'. split; [apply getput_i|]. split; [eapply keep_holds; eauto|]. split; [lia|].
    intros t cd Hs Ht. rewrite sup_app in Hs. apply in_app_or in Hs as [Hs|Hs].
    + eapply transport; eauto.
    + destruct (sup_g _ _ _ Hs) as [_ [(-> & -> & S0 & L0)|(r & Hr & Kr & -> & -> & Hne & T0 & P1 & P2 & L0)]].
      * intros v Hg' _ _. rewrite getput_i in Hg'. inversion Hg'; subst v. eapply keep_holds; eauto.
      * eapply cover; eauto.
  - exists v. split; [rewrite getput_o; auto|]. split; auto. split; auto.
    intros t cd Hs Ht. rewrite sup_app in Hs. apply in_app_or in Hs as [Hs|Hs].
    + eapply transport; eauto.
    + destruct (sup_g _ _ _ Hs) as [E _]. congruence.
Qed.

Section New.
Variables (T idx : N) (e : entry).
Hypothesis HN : NEW T idx e.

Lemma new_quorum : exists S, NoDup S /\ sz < 2 * lenN S /\
  forall u, In u S -> u < sz /\ exists v, get_node c' u = Some v /\ holds v idx e /\ n_term v = T /\
    forall t cd, In (u, t, cd) (supports (c_hist c ++ g)) -> t <= T.
Proof.
  destruct HN as (_ & _ & _ & _ & _ & _ & _ & Q).
  destruct (holders_quorum (put_node c i nd') sz T idx e) as [S [NS [QS HS]]]; auto.
  { apply (proj1 (li_cinv _ Lc')). }
  { apply nodes_len'. }
  exists S. split; auto. split; auto. intros u Hu. destruct (HS _ Hu) as (Hlt & v & Hv & Tv & Hh). split; auto.
  exists v. split; [exact Hv|]. split; [exact Hh|]. split; auto.
  intros t cd Hs. pose proof (k_term _ Kc' (N.to_nat u) v t cd Hv) as X. rewrite N2Nat.id in X. specialize (X Hs). lia.
Qed.

Lemma new_no_higher_leader : forall u t, In (u, t) (leaders (c_hist c ++ g)) -> t <= T.
Proof.
  intros u t Hl. destruct new_quorum as [S [NS [QS HS]]].
  destruct (j_lead _ _ Jc' _ _ Hl) as [V [NV [SV QV]]].
  destruct (quorum_intersection_n sz S V NS NV) as [w [W1 W2]]; auto.
  { intros y Hy. apply HS; auto. }
  { intros y Hy. apply SV; auto. }
  destruct (HS _ W1) as (_ & v & _ & _ & _ & Hv). destruct (SV _ W2) as [_ Hsup]. eapply Hv; eauto.
Qed.

Lemma new_no_higher_entry : forall u v x, get_node c' u = Some v -> In x (n_logs v) -> e_term x <= T.
Proof.
  intros u v x Hg Hx. unfold get_node in Hg. destruct (li_el _ Lc' _ _ _ Hg Hx) as [i0 Hi0].
  eapply new_no_higher_leader; eauto.
Qed.

Lemma new_c1 : forall u v x, get_node c' u = Some v -> In x (n_logs v) -> T <= e_term x -> idx <= e_index x -> holds v idx e.
Proof.
  intros u v x Hg Hx H1 H2. pose proof (new_no_higher_entry _ _ _ Hg Hx) as H3.
  destruct HN as (_ & L' & ET & _ & Hh & _).
  pose proof getput_i as Gi. unfold get_node in Hg, Gi.
  assert (Hl : log_at (n_logs nd') (e_index x) = Some x).
  { eapply (li_has _ Lc' _ nd' _ v x); eauto. lia. }
  assert (Hv : log_at (n_logs v) (e_index x) = Some x).
  { apply In_nth_error in Hx as [k Hk]. destruct (w_log _ (li_wf _ Lc' _ _ Hg)) as [P _].
    rewrite (P _ _ Hk), log_at_nth. exact Hk. }
  unfold holds in *. rewrite <- Hh.
  eapply lmatch_log_at; [eapply (li_lm _ Lc'); eauto| exact Hv | exact Hl | reflexivity | exact H2].
Qed.

Lemma new_c2 : forall u v x, get_node c' u = Some v -> In x (n_logs v) -> T < e_term x -> idx < e_index x.
Proof. intros u v x Hg Hx H1. pose proof (new_no_higher_entry _ _ _ Hg Hx). lia. Qed.

Lemma new_c4 : forall u v, get_node c' u = Some v -> is_leader (n_state v) = true -> T <= n_term v -> holds v idx e.
Proof.
  intros u v Hg L HT. destruct HN as (_ & L' & ET & _ & Hh & _).
  assert (Hl : In (u, n_term v) (leaders (c_hist c ++ g))).
  { unfold get_node in Hg. pose proof (li_lh1 _ Lc' _ _ Hg L) as X. rewrite N2Nat.id in X. exact X. }
  pose proof (new_no_higher_leader _ _ Hl) as H3.
  assert (u = i).
  { apply (ES u i (n_term v)); auto. replace (n_term v) with (n_term nd') by lia. apply lead_i; auto. }
  subst u. rewrite getput_i in Hg. inversion Hg; subst v. exact Hh.
Qed.

End New.

Lemma app_split : forall (a b : list ghost) h1 y h2,
  a ++ b = h1 ++ y :: h2 ->
  (exists h2', a = h1 ++ y :: h2' /\ h2 = h2' ++ b) \/ (exists g1, h1 = a ++ g1 /\ b = g1 ++ y :: h2).
Proof.
  induction a as [|x a IH]; intros b h1 y h2 E.
  - right. exists h1. auto.
  - destruct h1 as [|z h1]; cbn in E; inversion E; subst.
    + left. exists a. auto.
    + destruct (IH _ _ _ _ H1) as [(h2' & -> & ->)|(g1 & -> & ->)]; [left; exists h2'; auto | right; exists g1; auto].
Qed.

Lemma h_new : leader_completeness_up (c_hist c ++ g).
Proof.
  intros h1 h2 i0 t idx e j t' log E Hin Ht.
  destruct (app_split _ _ _ _ _ E) as [(h2' & E1 & ->)|(g1 & -> & E2)].
  - apply in_app_or in Hin as [Hin|Hin]; [eapply (lc_h _ _ Cc); eauto|].
    unfold g in Hin. apply in_app_or in Hin as [Hin|Hin]; [destruct (Qpre _ Hin)|].
    apply In_node_ghosts_leader in Hin as (-> & -> & -> & L & _).
    assert (Hc : In (GCommit i0 true t idx e) (c_hist c)) by (rewrite E1; apply in_or_app; right; left; reflexivity).
    destruct (lc_some _ _ Cc _ _ _ _ Hc) as [x ->].
    apply (c4_old t idx x i nd'); auto; [exists i0; exact Hc | apply getput_i | lia].
  - exfalso. unfold g in E2. eapply node_ghosts_after_commit; eauto.
Qed.

Theorem LC_put : LC sz c'.
Proof.
  constructor; cbn [c' c_nodes c_net c_hist].
  - apply nodes_len'.
  - intros i0 T idx e H. apply in_app_or in H as [H|H]; [eapply (lc_some _ _ Cc); eauto|].
    destruct (commit_in_g _ _ _ _ H) as [x [-> _]]. eauto.
  - intros T idx e Cm. destruct (committed_cases _ _ _ Cm) as [Co|N].
    + destruct (lc_et _ _ Cc _ _ _ Co) as (A & B & i0 & Hi0). repeat split; auto. exists i0.
      rewrite leaders_app. apply in_or_app. auto.
    + pose proof N as (_ & L' & ET & Et & Hh & _). repeat split; auto.
      * eapply log_at_wf_index; [apply (w_log _ Wnd')|exact Hh].
      * exists i. rewrite ET. apply lead_i; auto.
  - intros T idx e u v x Cm. destruct (committed_cases _ _ _ Cm) as [Co|N]; [eapply c1_old; eauto | eapply new_c1; eauto].
  - intros T idx e u v x Cm. destruct (committed_cases _ _ _ Cm) as [Co|N]; [eapply c2_old; eauto | eapply new_c2; eauto].
  - intros T idx e u v Cm. destruct (committed_cases _ _ _ Cm) as [Co|N]; [eapply c4_old; eauto | eapply new_c4; eauto].
  - intros T idx e Cm. destruct (committed_cases _ _ _ Cm) as [Co|N]; [apply q_old; auto|].
    destruct (new_quorum T idx e N) as [S [NS [QS HS]]]. exists S. split; auto. split; auto.
    intros u Hu. destruct (HS _ Hu) as (Hlt & v & Hv & Hh & Tv & Hs). split; auto. exists v. repeat split; auto; [lia|].
    intros t cd Hsup Ht. specialize (Hs _ _ Hsup). lia.
  - (* svt *)
    intros u t cd v Hs Hg. rewrite sup_app in Hs. apply in_app_or in Hs as [Hs|Hs].
    + destruct (get_put _ _ _ _ _ _ _ _ G Hg) as [[-> ->]|[Hne Hg']]; [|eapply (lc_svt _ _ Cc); eauto].
      pose proof (lc_svt _ _ Cc _ _ _ _ Hs G). lia.
    + destruct (sup_g _ _ _ Hs) as [_ [(-> & -> & _)|(r & Hr & Kr & -> & -> & Hne & _)]].
      * rewrite getput_i in Hg. inversion Hg; subst. lia.
      * rewrite getput_o in Hg by auto. apply (lc_vr _ _ Cc r v Hr Kr Hg).
  - (* vr *)
    intros r v Hr Kr Hg. destruct (NM _ Hr) as [Ho|Hn].
    + destruct (get_put _ _ _ _ _ _ _ _ G Hg) as [[Ei ->]|[Hne Hg']]; [|apply (lc_vr _ _ Cc r v Ho Kr Hg')].
      assert (G' : get_node c (q_from r) = Some nd) by (rewrite Ei; exact G).
      destruct (lc_vr _ _ Cc r nd Ho Kr G') as [V1 V2]. split; [lia|].
      intros S0 T0. assert (Cn : cl (n_state nd') = true) by (unfold cl; rewrite S0; reflexivity).
      destruct (TC Cn) as [(S1 & T1 & _)|[(_ & L1 & _)|(_ & T1 & _)]]; [|rewrite S0 in L1; discriminate|lia].
      rewrite S0 in S1. destruct (V2 (eq_sym S1)) as [A B]; [lia|].
      assert (EL : n_logs nd' = n_logs nd).
      { destruct LC2 as [E|[(L & _)|(Cn' & _)]]; auto; [rewrite <- S1 in L; discriminate|congruence]. }
      rewrite A, B. rewrite (ninv_li _ (w_inv _ Wnd)), (ninv_li _ (w_inv _ Wnd')), (w_lt _ Wnd), (w_lt _ Wnd'), EL. auto.
    + destruct (sn_vote _ _ Hn Kr) as (S0 & T0 & A & B). rewrite (sn_from _ _ Hn), Hidx, getput_i in Hg.
      inversion Hg; subst v. split; [lia|auto].
  - apply h_new.
Qed.

End Put.

Lemma quiet_request_ghosts : forall c new r s x, In x (request_ghosts c new r s) -> quiet x.
Proof.
  intros c new r s x H. unfold request_ghosts in H.
  apply in_app_or in H as [H|H]; [destruct (_ && _); [destruct H as [<-|[]]; exact I | destruct H]|].
  apply in_app_or in H as [H|H]; [destruct (_ && _ && _); [destruct H as [<-|[]]; exact I | destruct H]|].
  destruct (_ && _); [|destruct H]. destruct (get_node c (q_from r)); [|destruct H].
  destruct (entries_eqb _ _); [destruct H|]. destruct H as [<-|[]]. exact I.
Qed.

Lemma LC_same : forall sz c c',
  LC sz c -> c_nodes c' = c_nodes c -> c_hist c' = c_hist c -> (forall m, In m (c_net c') -> In m (c_net c)) -> LC sz c'.
Proof.
  intros sz c c' L N H M.
  assert (GN : forall u, get_node c' u = get_node c u) by (intros; unfold get_node; rewrite N; reflexivity).
  constructor; rewrite ?N, ?H; try apply L.
  - intros T idx e u v x Cm Hg. rewrite GN in Hg. eapply (lc_c1 _ _ L); eauto.
  - intros T idx e u v x Cm Hg. rewrite GN in Hg. eapply (lc_c2 _ _ L); eauto.
  - intros T idx e u v Cm Hg. rewrite GN in Hg. eapply (lc_c4 _ _ L); eauto.
  - intros T idx e Cm. destruct (lc_q _ _ L _ _ _ Cm) as [S [NS [QS HS]]]. exists S. split; auto. split; auto.
    intros u Hu. destruct (HS _ Hu) as (Hlt & v & Hg & Hh & HT & Hv). split; auto. exists v. rewrite GN. repeat split; auto.
    intros t cd Hs Ht w Hw. rewrite GN in Hw. eapply Hv; eauto.
  - intros u t cd v Hs Hg. rewrite GN in Hg. eapply (lc_svt _ _ L); eauto.
  - intros r v Hr Kr Hg. rewrite GN in Hg. eapply (lc_vr _ _ L); eauto.
Qed.

(* the acting node of a step: its share of the step's `nq_step` marker, its index and its size *)
Lemma acting_frame : forall sz c i nd nd',
  LI c -> J sz c -> get_node c i = Some nd -> stable nd nd' ->
  nq_nodes (put_node c i nd') (c_nodes c) (put_node c i nd') = false ->
  nq_node (put_node c i nd') nd nd' = false /\ n_index nd' = i /\ n_size nd' = sz.
Proof.
  intros sz c i nd nd' Lc Jc G (Hi & _ & Hs & _) NQ. split; [|split].
  - eapply nq_nodes_nth; [exact NQ | exact G | apply (nth_error_upd_nth_eq _ (fun _ => nd') _ _ _ G)].
  - rewrite Hi. apply (acting_node c i nd Lc G).
  - rewrite Hs. apply (j_size _ _ Jc). eapply nth_error_In; exact G.
Qed.

Lemma old_term_new : forall h g, old_term_commit_b (h ++ g) = false -> old_term_commit_b g = false.
Proof. intros h g H. rewrite old_term_app in H. apply orb_false_iff in H. tauto. Qed.

Theorem LC_step : forall rv sz c e,
  fix_vote_term rv = true -> fix_vote_match rv = true -> LI c -> J sz c -> K c -> LC sz c ->
  election_safety (c_hist (step rv c e)) ->
  ack_diverged_b (c_hist (step rv c e)) = false ->
  old_term_commit_b (c_hist (step rv c e)) = false ->
  nq_step c (step rv c e) = false ->
  LC sz (step rv c e).
Proof.
  intros rv sz c e FT FM Lc Jc Kc Cc ES AD OT NQ.
  pose proof (LI_step rv c e FM Lc ES AD) as Lc'.
  pose proof (J_step rv sz c e Jc (or_introl FM)) as Jc'.
  pose proof (K_step rv c e FT FM Kc) as Kc'.
  unfold nq_step in NQ.
  destruct (step_case rv c e) as [e0 c' En Eh Hnet | i nd el due G | i nd d G L | k r el nd Hk G | k r s el nd Hk G];
    cbn [c_nodes c_hist] in *.
  - eapply LC_same; eauto.
  - (* Tick *)
    pose proof (li_wf _ Lc _ _ G) as W.
    pose proof (term_process nd el due) as Tm.
    pose proof (keep_process nd el due) as Kp.
    pose proof (process_keeps nd el due) as Pk.
    pose proof (good_process nd el due (w_inv _ W)) as [I' St].
    pose proof (process_sent nd el due) as Sn.
    destruct (process nd el due) as [nd' reqs]. cbn [fst snd] in *.
    destruct (acting_frame sz c i nd nd' Lc Jc G St NQ) as (NQ' & Hi & Hs). apply old_term_new in OT.
    apply (LC_put sz c i nd nd' _ []); auto.
    + intros x [].
    + lia.
    + left. apply Kp.
    + intros Cn. left. rewrite (Pk Cn). repeat split; auto. apply supports_no_candidacy. auto.
    + intros Cn. left. apply supports_no_candidacy. intros S. rewrite S in Cn. discriminate Cn.
    + apply new_reqs; [apply incl_refl | exact Sn].
  - (* ClientAppend *)
    pose proof (li_wf _ Lc _ _ G) as W.
    pose proof (term_append nd d) as Tm.
    pose proof (append_state nd d) as As.
    pose proof (proj1 (proj2 (append_eq nd d (w_inv _ W)))) as Ca.
    pose proof (good_append nd d (w_inv _ W)) as [I' St].
    pose proof (append_shape nd d W) as (W' & El).
    pose proof (append_sent nd d) as Sn.
    destruct (append nd d) as [nd' reqs]. cbn [fst snd] in *.
    destruct (acting_frame sz c i nd nd' Lc Jc G St NQ) as (NQ' & Hi & Hs). apply old_term_new in OT.
    apply (LC_put sz c i nd nd' _ []); auto.
    + intros x [].
    + lia.
    + right; left. repeat split; auto. exists d. exact El.
    + intros _. left. repeat split; auto. apply supports_no_candidacy.
      intros S. rewrite As in S. rewrite S in L. discriminate L.
    + intros F. unfold cl in F. rewrite As, L, orb_true_r in F. discriminate F.
    + apply new_reqs; [apply incl_refl | intros q; apply Sn; [apply (ni_size _ (w_inv _ W)) | exact L]].
  - (* request *)
    destruct (acting_request rv c k r el nd Lc Hk G) as (RW & W & Ei & Hne & I' & St).
    pose proof (request_keeps rv nd r el) as Kp.
    pose proof (request_term rv nd r el) as (T1 & T2 & _).
    pose proof (request_shape rv nd r el W RW Hne) as [W' Sh].
    pose proof (lexle_request rv nd r el W RW Hne) as LX.
    pose proof (vote_granted rv nd r el FT) as VG.
    pose proof (request_no_vote rv nd r el) as NV.
    destruct (handle_request rv nd r el) as [nd' s]. cbn [fst snd] in *.
    destruct (acting_frame sz c (q_to r) nd nd' Lc Jc G St NQ) as (NQ' & Hi & Hs). apply old_term_new in OT.
    assert (NoC : supports (node_ghosts nd nd') = []).
    { apply supports_no_candidacy. intros S. apply Kp. rewrite S. reflexivity. }
    apply (LC_put sz c (q_to r) nd nd' _ (request_ghosts c nd' r s)); auto.
    + apply quiet_request_ghosts.
    + destruct Sh as [E|[A O]]; [left; exact E|].
      destruct (cl (n_state nd')) eqn:Cn; [left; rewrite (Kp eq_refl); reflexivity|].
      right; right. split; auto. split; auto.
      rewrite !ack_diverged_app in AD. apply orb_false_iff in AD as [_ AD]. apply orb_false_iff in AD as [AD _].
      destruct (acked_prefix c k r nd' s Lc Hk I' AD A O) as (sender & Gs & Pf).
      exists (q_from r), sender. split; [congruence|]. split; auto.
    + intros Cn. left. rewrite (Kp Cn) in *. repeat split; auto.
      rewrite supports_app, NoC, app_nil_r, supports_request_ghosts.
      destruct (is_vote (q_kind r) && is_ok (s_result s)) eqn:V; auto.
      destruct (T2 eq_refl) as [Lt E]. specialize (E FT). lia.
    + intros Cn. rewrite supports_app, NoC, app_nil_r, supports_request_ghosts.
      destruct (is_vote (q_kind r) && is_ok (s_result s)) eqn:V; [|left; reflexivity].
      right. pose proof (NV eq_refl) as Kr. exists r.
      assert (O : is_ok (s_result s) = true) by (rewrite Kr in V; exact V).
      destruct (VG Kr O) as (P1 & P2 & L0 & _ & T3 & T4).
      split; [eapply nth_error_In; eauto|]. split; auto. split; [rewrite Hi; reflexivity|].
      repeat split; auto. congruence.
    + apply new_resp. intros m; apply In_remove_nth.
  - (* response *)
    destruct (acting_response rv c k r s nd Lc Hk G) as (W & Ei & Hne & I' & St).
    pose proof (response_term rv nd r s FM) as T1.
    pose proof (keep_response rv nd r s (w_inv _ W) Hne) as Kp.
    pose proof (response_cl rv nd r s FM) as RC.
    pose proof (response_sent rv nd r s) as Sn.
    destruct (handle_response rv nd r s) as [nd' reqs]. cbn [fst snd] in *.
    destruct (acting_frame sz c (s_to s) nd nd' Lc Jc G St NQ) as (NQ' & Hi & Hs).
    rewrite (response_ghosts_fixed rv nd r s FM) in *. apply old_term_new in OT.
    apply (LC_put sz c (s_to s) nd nd' _ []); auto.
    + intros x [].
    + left. apply Kp.
    + intros Cn. cbn [app]. rewrite supports_node_ghosts.
      destruct (RC Cn) as [(S0 & T0)|[(S0 & L0 & T0)|(S0 & T0)]].
      * left. repeat split; auto. rewrite S0, T0, N.eqb_refl, andb_true_r.
        destruct (is_candidate (n_state nd)); reflexivity.
      * right; left. repeat split; auto; [|apply Kp].
        destruct (n_state nd'); try discriminate. reflexivity.
      * right; right. repeat split; auto; [apply Kp|].
        rewrite S0, T0. cbn [is_candidate andb].
        replace (n_term nd =? n_term nd + 1) with false by (symmetry; apply N.eqb_neq; lia).
        rewrite andb_false_r. cbn. rewrite Hi. reflexivity.
    + intros Cn. left. apply supports_no_candidacy. intros S. rewrite S in Cn. discriminate Cn.
    + apply new_reqs; [intros m; apply In_remove_nth | intros q; apply Sn; exact W].
Qed.

Lemma init_LC : forall size, size <> 1 -> LC size (init_default size).
Proof.
  intros size Hs.
  pose proof (init_hist size Hs) as Hh.
  assert (NC : forall T idx e, ~ committed (c_hist (init_default size)) T idx e).
  { intros T idx e [j H]. rewrite Hh in H. destruct H. }
  constructor; try (intros T idx e; intros; exfalso; eapply NC; eauto; fail).
  - unfold init_default, init. cbn [c_nodes]. rewrite map_length, seq_length. reflexivity.
  - intros j T idx e H. rewrite Hh in H. destruct H.
  - intros u t cd nd H. rewrite Hh in H. destruct H.
  - intros r nd H. cbn in H. destruct H.
  - intros h1 h2 j t idx e j' t' log E. rewrite Hh in E. destruct h1; discriminate.
Qed.

Record hyps (size : N) (evs : list event) : Prop := {
  h_ad : ack_diverged_b (c_hist (run rr_fixed size evs)) = false;
  h_ot : old_term_commit_b (c_hist (run rr_fixed size evs)) = false;
  h_nq : commit_noquorum_b rr_fixed size evs = false }.

(* the same three hypotheses about a run of any revision *)
Record hyps_rv (rv : raftrev) (size : N) (evs : list event) : Prop := {
  hr_ad : ack_diverged_b (c_hist (run rv size evs)) = false;
  hr_ot : old_term_commit_b (c_hist (run rv size evs)) = false;
  hr_nq : commit_noquorum_b rv size evs = false }.

Lemma hyps_fixed : forall size evs, hyps size evs -> hyps_rv rr_fixed size evs.
Proof. intros size evs [A O Q]. constructor; assumption. Qed.

Lemma hyps_prefix : forall rv size evs e, hyps_rv rv size (evs ++ [e]) ->
  hyps_rv rv size evs /\ nq_step (run rv size evs) (step rv (run rv size evs) e) = false.
Proof.
  intros rv size evs e [A O Q]. rewrite fold_run_app in A, O. unfold run_from in A, O. cbn [fold_left] in A, O.
  destruct (step_hist rv (run rv size evs) e) as [g Hg]. rewrite Hg in A, O.
  rewrite ack_diverged_app in A. rewrite old_term_app in O.
  apply orb_false_iff in A as [A _]. apply orb_false_iff in O as [O _].
  unfold commit_noquorum_b in Q. rewrite noquorum_snoc in Q. apply orb_false_iff in Q as [Q1 Q2].
  split; [constructor; auto|exact Q2].
Qed.

Theorem LC_run : forall rv size evs,
  fix_vote_term rv = true -> fix_vote_match rv = true ->
  size <> 1 -> hyps_rv rv size evs -> LC size (run rv size evs).
Proof.
  intros rv size evs FT FM Hs. induction evs as [|e evs IH] using rev_ind; intros H.
  - apply init_LC; auto.
  - destruct (hyps_prefix _ _ _ _ H) as [Hp NQ]. specialize (IH Hp).
    pose proof (election_safety_elect_fixed rv size (evs ++ [e]) FT FM) as ES.
    pose proof (LI_run rv size evs FT FM Hs (hr_ad _ _ _ Hp)) as Li.
    pose proof (run_J rv evs size _ (init_J size Hs) (or_introl FM)) as Jr.
    pose proof (run_K rv evs _ FT FM (init_K size Hs)) as Kr.
    destruct H as [A O _].
    rewrite fold_run_app in *. unfold run_from in ES, A, O |- *. cbn [fold_left] in *.
    apply LC_step; auto.
Qed.

(* LEADER COMPLETENESS (Raft's statement): an entry committed by a leader of term t is in the log of every node that
   becomes leader LATER FOR A HIGHER TERM — for every revision with the two election repairs *)
Theorem leader_completeness_up_elect_fixed : forall rv size evs,
  fix_vote_term rv = true -> fix_vote_match rv = true ->
  size <> 1 -> hyps_rv rv size evs -> leader_completeness_up (c_hist (run rv size evs)).
Proof. intros rv size evs FT FM Hs H. apply (lc_h _ _ (LC_run rv size evs FT FM Hs H)). Qed.

Theorem leader_completeness_up_partial : forall size evs,
  size <> 1 -> hyps size evs -> leader_completeness_up (c_hist (run rr_fixed size evs)).
Proof. intros size evs Hs H. apply leader_completeness_up_elect_fixed; auto using hyps_fixed. Qed.

(* a node that becomes Leader, after a leader's commit in term t, for a term <= t (a stale candidate that collects
   delayed votes of an old election): not a defect — it cannot commit anything — but the literal statement
   `leader_completeness` quantifies over it *)
Fixpoint late_leader_b (h : list ghost) : bool :=
  match h with
  | [] => false
  | GCommit _ true t _ _ :: rest =>
      existsb (fun g => match g with GLeader _ t' _ => t' <=? t | _ => false end) rest || late_leader_b rest
  | _ :: rest => late_leader_b rest
  end.

Lemma late_leader_found : forall h1 i t idx e h2 j t' log,
  In (GLeader j t' log) h2 -> t' <= t -> late_leader_b (h1 ++ GCommit i true t idx e :: h2) = true.
Proof.
  induction h1 as [|x h1 IH]; intros i t idx e h2 j t' log Hin Hle.
  - cbn [app late_leader_b]. apply orb_true_iff. left. apply existsb_exists. eexists; split; [exact Hin|].
    apply N.leb_le. exact Hle.
  - cbn [app]. specialize (IH i t idx e h2 j t' log Hin Hle).
    destruct x as [| | | ? [|] ? ? ? | | |]; cbn [late_leader_b]; auto. rewrite IH. apply orb_true_r.
Qed.

Lemma completeness_of_up : forall h, leader_completeness_up h -> late_leader_b h = false -> leader_completeness h.
Proof.
  intros h U L h1 h2 i t idx e j t' log E Hin. destruct (N.lt_ge_cases t t') as [H|H].
  - eapply U; eauto.
  - exfalso. rewrite E in L. rewrite (late_leader_found h1 i t idx e h2 j t' log Hin H) in L. discriminate.
Qed.

(* C29 in its literal form, with the benign late-leader case excluded by hypothesis *)
Theorem leader_completeness_elect_fixed : forall rv size evs,
  fix_vote_term rv = true -> fix_vote_match rv = true ->
  size <> 1 -> hyps_rv rv size evs -> late_leader_b (c_hist (run rv size evs)) = false ->
  leader_completeness (c_hist (run rv size evs)).
Proof.
  intros rv size evs FT FM Hs H L. apply completeness_of_up; auto. apply leader_completeness_up_elect_fixed; auto.
Qed.

Theorem leader_completeness_partial : forall size evs,
  size <> 1 -> hyps size evs -> late_leader_b (c_hist (run rr_fixed size evs)) = false ->
  leader_completeness (c_hist (run rr_fixed size evs)).
Proof. intros size evs Hs H. apply leader_completeness_elect_fixed; auto using hyps_fixed. Qed.

(* the late-leader case is real (3 nodes, 26 events): node 1 collects the delayed vote of its election of term 1
   after node 0, leader of term 2, has committed; none of the six classes occurs.  So the literal statement of C29
   fails in a history that is fine for Raft: the statement has to speak about leaders of HIGHER terms. *)
Definition wlate : list event := w29_late_leader.   (* corpus/C29/00_late_leader_older_term.txt *)

(* the boolean the oracles use (RaftLog.leader_completeness_up_b) is sound for the restricted statement *)
Lemma leader_completeness_up_b_sound : forall h, leader_completeness_up h -> leader_completeness_up_b h = true.
Proof.
  induction h as [|g h IH]; intros H; cbn [leader_completeness_up_b]; auto.
  assert (Hrest : leader_completeness_up h).
  { intros h1 h2 i t idx e j t' log -> Hin. eapply (H (g :: h1)); [reflexivity | exact Hin]. }
  specialize (IH Hrest).
  destruct g as [| | | i [|] t idx e | | |]; auto.
  rewrite IH, andb_true_r. apply forallb_forall; intros g Hg.
  destruct g as [| | j t' log | | | |]; auto.
  destruct (N.ltb_spec t t'); cbn [negb orb]; auto.
  apply oentry_eqb_eq. eapply (H []); [reflexivity | exact Hg | exact H0].
Qed.

Lemma wlate_facts :
  let h := c_hist (run rr_fixed 3 wlate) in
  leader_completeness_b h = false /\ election_safety_b h = true /\
  classes h = (false, false, false, false, false) /\ commit_noquorum_b rr_fixed 3 wlate = false /\
  late_leader_b h = true /\ leaders h = [(0, 2); (1, 1)] /\ leader_completeness_up_b h = true.
Proof. vm_compute. repeat split; reflexivity. Qed.

Lemma late_leader_refutes_literal_C29 :
  exists size evs, size <> 1 /\ hyps size evs /\ ~ leader_completeness (c_hist (run rr_fixed size evs)).
Proof.
  exists 3, wlate. destruct wlate_facts as (F & _ & C & Q & _). cbv zeta in *. unfold classes in C.
  split; [discriminate|]. split.
  - constructor; auto; congruence.
  - intros H. apply leader_completeness_b_sound in H. congruence.
Qed.

(* non-vacuity: the fault-free history of RaftLogMatch satisfies all hypotheses *)
Lemma wlog_ok_hyps : hyps 3 wlog_ok /\ late_leader_b (c_hist (run rr_fixed 3 wlog_ok)) = false /\
  leader_completeness_b (c_hist (run rr_fixed 3 wlog_ok)) = true /\
  existsb (fun g => match g with GCommit _ true _ _ _ => true | _ => false end) (c_hist (run rr_fixed 3 wlog_ok)) = true.
Proof. split; [constructor|]; vm_compute; auto. Qed.
