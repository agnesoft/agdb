(* CollAgree.v — proofs (collections): corollaries for C02 (readable after a reopen at a
   transaction boundary) and C06 (the file-like and the memory-like storage give the same
   observations at the collection level). *)
From Agdb Require Import Bytes BytesProofs Records Storage StorageSpec StorageLayout StorageRefine StorageProofs
  Collections CollWp CollBytes CollVecBase CollVecOps CollVec CollElems CollVecHist CollSep CollMap
  CollMapHist CollGraph CollGraphNew.
Open Scope N_scope.

Section Agree.
  Variable T : Type.
  Variable E : cv_elem T.
  Variable L : elem_law E.

  Theorem cv_variants_agree (l : list (cv_op T)) : ops_ok T E L [] l ->
    let rf := cp_run (st_step cdata ops_file) (h <~ cv_new ;; cv_run T E h l) s_init in
    let rm := cp_run (st_step cdata ops_mem) (h <~ cv_new ;; cv_run T E h l) s_init in
    snd rf = CrDead \/ snd rm = CrDead \/
    exists hf hm, snd rf = CrOk (hf, snd (cl_run [] l)) /\ snd rm = CrOk (hm, snd (cl_run [] l)).
  Proof.
    intros Hok.
    exact (hist_variants_agree (vrep T E L) (foot T E L) cv_index cv_new [] _ (fun h => cv_run T E h l) _
             (cv_new_ok T E L) (fun fl => cv_run_ok T E L fl l Hok)).
  Qed.
End Agree.

Section AgreeMap.
  Variables K V : Type.
  Variable EK : cv_elem K.
  Variable EV : cv_elem V.
  Variable LK : elem_law EK.
  Variable LV : elem_law EV.
  Variable kdef : K.
  Variable vdef : V.
  Hypothesis kdef_ok : el_valid LK kdef.
  Hypothesis vdef_ok : el_valid LV vdef.

  Theorem cm_variants_agree (l : list (cm_op K V)) : Forall (mop_ok K V EK EV LK LV) l ->
    let p := d <~ cm_new ;; cm_run K V EK EV kdef vdef d l in
    let rf := cp_run (st_step cdata ops_file) p s_init in
    let rm := cp_run (st_step cdata ops_mem) p s_init in
    snd rf = CrDead \/ snd rm = CrDead \/
    exists df dm, snd rf = CrOk (df, snd (ct_run K V kdef vdef (ct_empty K V) l)) /\
                  snd rm = CrOk (dm, snd (ct_run K V kdef vdef (ct_empty K V) l)).
  Proof.
    intros Hok.
    exact (hist_variants_agree (mrep3 K V EK EV LK LV) (mfoot3 K V EK EV LK LV) cm_index cm_new (ct_empty K V) _
             (fun d => cm_run K V EK EV kdef vdef d l) _ (cm_new_ok K V EK EV LK LV)
             (fun fl d s => cm_run_ref K V EK EV LK LV kdef vdef kdef_ok vdef_ok fl l Hok d s (ct_empty K V))).
  Qed.
End AgreeMap.

Theorem cg_variants_agree (l : list cg_op) : gops_ok ga_init l ->
  let rf := cp_run (st_step cdata ops_file) (d <~ cg_new ;; cg_run d l) s_init in
  let rm := cp_run (st_step cdata ops_mem) (d <~ cg_new ;; cg_run d l) s_init in
  snd rf = CrDead \/ snd rm = CrDead \/
  exists df dm, snd rf = CrOk (df, snd (ga_run ga_init l)) /\ snd rm = CrOk (dm, snd (ga_run ga_init l)).
Proof.
  intros Hok.
  exact (hist_variants_agree grep gfoot cg_index cg_new ga_init _ (fun d => cg_run d l) _ cg_new_spec (fun fl => cg_run_ok fl l Hok)).
Qed.

(* In every state of the abstract record map in which the representation invariant holds the loaders
   (DbVec::from_storage, DbMapData::from_storage, GraphDataStorage::from_storage) succeed and return handles for
   the same content.  Props/C02.v says why a crash leads to such a state. *)
Section Readable.
  Variable fl : bool.

  Theorem vec_loads (T : Type) (E : cv_elem T) (L : elem_law E) h slots l sp :
    vrep T E L (hp sp) h slots l ->
    cwp fl (h' <~ cv_from_storage T E (cv_index h) ;; cv_values T E h') sp (fun r sp' => r = CrOk l /\ sp' = sp).
  Proof.
    intros HR. apply cwp_bind. eapply cv_from_storage_spec; [exact HR|]. intros h' HR' _ _. cbn [kont].
    eapply cv_values_spec; [exact HR'|]. auto.
  Qed.

  Theorem map_loads (K V : Type) (EK : cv_elem K) (EV : cv_elem V) (LK : elem_law EK) (LV : elem_law EV) d ss ks vs t sp :
    mrep K V EK EV LK LV (hp sp) d ss ks vs t ->
    cwp fl (cm_from_storage K V EK EV (cm_index d)) sp
        (fun r sp' => exists d', r = CrOk d' /\ sp' = sp /\ mrep K V EK EV LK LV (hp sp) d' ss ks vs t).
  Proof.
    intros HM. eapply cm_from_storage_spec; [exact (mr_sep _ _ _ _ _ _ _ _ _ _ _ _ HM)|].
    intros d' HS' Ii Il Ic Ef. exists d'. split; [reflexivity|]. split; [reflexivity|].
    constructor; [exact HS'|rewrite Il; exact (mr_len _ _ _ _ _ _ _ _ _ _ _ _ HM)|exact (mr_same _ _ _ _ _ _ _ _ _ _ _ _ HM)].
  Qed.

  Theorem graph_loads d s a sp :
    grep (hp sp) d s a -> sdepth sp = 0 ->
    cwp fl (cg_step d GoReload) sp (fun r sp' => exists d' s', r = CrOk (d', GbUnit) /\ grep (hp sp') d' s' a).
  Proof.
    intros H Hd. eapply cg_step_spec; [exact H|exact Hd|split; [exact I|]|].
    - intros f. exact (vr_fits _ _ _ _ _ _ _ (gr_vec _ _ _ _ H f)).
    - intros d' s' sp' H' _ _ _. cbn [ga_step fst snd] in *. exists d', s'. split; [reflexivity|exact H'].
  Qed.
End Readable.
