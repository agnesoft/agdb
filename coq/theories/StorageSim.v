(* StorageSim.v — C06 at the storage level: the three byte-store back-ends (memory_storage.rs,
   file_storage.rs, file_storage_memory_mapped.rs, modelled literally in Storage.v as mem_raw /
   file_raw / mapped_raw) obey the same laws as the canonical byte store as long as a write does
   not start beyond the end and a read stays inside the data; hence Storage<D> run over any of
   them produces, operation list by operation list, the observations of the canonical model —
   which never leaves that contract (C04). *)
From Agdb Require Import Bytes BytesProofs Records RecordsProofs Storage StorageSpec StorageLayout StorageWp
  StorageRefine StorageProofs.
From Coq Require Import ZifyBool ZifyNat ZifyN.
Open Scope N_scope.
Arguments N.div : simpl never.

Section Sim.
  Variable T : Type.
  Variable opsT : store_ops T.
  Variable opsC : store_ops cdata.
  Variable rd : T -> cdata -> Prop.
  Hypothesis CN : canon opsC.

  (* the laws of a byte store, relative to the canonical one *)
  Record lawful : Prop := {
    lw_len : forall t d, rd t d -> so_len opsT t = c_len d;
    lw_read : forall t d pos n, rd t d -> pos + n <= lenN (cur d) -> so_read opsT t pos n = c_read d pos n;
    lw_write : forall t d pos bs, rd t d -> pos <= lenN (cur d) ->
               exists t' d', so_write opsT t pos bs = Some t' /\ c_write d pos bs = Some d' /\ rd t' d';
    lw_resize : forall t d n, rd t d -> rd (so_resize opsT t n) (c_resize d n);
    lw_flush : forall t d, rd t d -> rd (so_flush opsT t) (c_flush d);
    lw_reopen : forall t d, rd t d -> rd (so_reopen opsT t) (so_reopen opsC d);
    lw_copy : forall t d, rd t d -> rd (so_copy opsT t) (so_copy opsC d)
  }.
  Hypothesis LW : lawful.

  Definition srel (s1 : storage T) (s2 : ST) : Prop :=
    rd (sdata s1) (sdata s2) /\ rtab s1 = rtab s2 /\ tx s1 = tx s2 /\ version s1 = version s2.

  (* m1 does what m2 does, unless m2 leaves the contract *)
  Definition sim {A} (m1 : M T A) (m2 : MM A) : Prop :=
    forall s1 s2, srel s1 s2 ->
      match m2 s2 with
      | (_, RFault) => True
      | (s2', r) => exists s1', m1 s1 = (s1', r) /\ srel s1' s2'
      end.

  Lemma sim_bind {A B} (m1 : M T A) (m2 : MM A) (f1 : A -> M T B) (f2 : A -> MM B) :
    sim m1 m2 -> (forall a, sim (f1 a) (f2 a)) -> sim (bind T m1 f1) (bind cdata m2 f2).
  Proof.
    intros Hm Hf s1 s2 R. specialize (Hm s1 s2 R). unfold bind.
    destruct (m2 s2) as [s2' [a|e| |]].
    - destruct Hm as (s1' & -> & R'). apply (Hf a s1' s2' R').
    - destruct Hm as (s1' & -> & R'). eauto.
    - destruct Hm as (s1' & -> & R'). eauto.
    - exact I.
  Qed.

  Lemma sim_ret {A} (a : A) : sim (ret T a) (ret cdata a).
  Proof. intros s1 s2 R. unfold ret. eexists; split; [reflexivity|exact R]. Qed.
  Lemma sim_fail {A} (r : rres A) : sim (fail T r) (fail cdata r).
  Proof. intros s1 s2 R. unfold fail. destruct r; try exact I; (eexists; split; [reflexivity|exact R]). Qed.

  Lemma sim_get_len : sim (get_len T opsT) (get_len cdata opsC).
  Proof. intros s1 s2 R. pose proof R as (Rd & _). unfold get_len. rewrite (lw_len LW _ _ Rd), (cn_len _ CN). eauto. Qed.
  Lemma sim_get_rtab : sim (get_rtab T) (get_rtab cdata).
  Proof. intros s1 s2 R. pose proof R as (_ & Rr & _). unfold get_rtab. rewrite Rr. eauto. Qed.
  Lemma sim_put_rtab r : sim (put_rtab T r) (put_rtab cdata r).
  Proof. intros s1 s2 (Rd & Rr & Rt & Rv). unfold put_rtab. eexists; split; [reflexivity|]. repeat split; assumption. Qed.
  Lemma sim_dwrite pos bs : sim (dwrite T opsT pos bs) (dwrite cdata opsC pos bs).
  Proof.
    intros s1 s2 (Rd & Rr & Rt & Rv). unfold dwrite. destruct (two64 <=? pos + lenN bs).
    - eexists; split; [reflexivity|]. repeat split; assumption.
    - rewrite (cn_write _ CN). unfold c_write at 1. destruct (N.leb_spec pos (lenN (cur (sdata s2)))); [|exact I].
      destruct (lw_write LW _ _ pos bs Rd H) as (t' & d' & -> & Hc & Rd').
      unfold c_write in Hc. destruct (N.leb_spec pos (lenN (cur (sdata s2)))); [|lia]. injection Hc as <-.
      eexists; split; [reflexivity|]. repeat split; assumption.
  Qed.
  Lemma sim_dread pos n : sim (dread T opsT pos n) (dread cdata opsC pos n).
  Proof.
    intros s1 s2 R. pose proof R as (Rd & _). unfold dread. rewrite (cn_read _ CN). unfold c_read at 1.
    destruct (N.leb_spec (pos + n) (lenN (cur (sdata s2)))); [|exact I].
    rewrite (lw_read LW _ _ pos n Rd H). unfold c_read. destruct (N.leb_spec (pos + n) (lenN (cur (sdata s2)))); [|lia]. eauto.
  Qed.
  Lemma sim_dresize n : sim (dresize T opsT n) (dresize cdata opsC n).
  Proof.
    intros s1 s2 (Rd & Rr & Rt & Rv). unfold dresize. rewrite (cn_resize _ CN). eexists; split; [reflexivity|].
    split; [exact (lw_resize LW _ _ n Rd)|]. repeat split; assumption.
  Qed.
  Lemma sim_dflush : sim (dflush T opsT) (dflush cdata opsC).
  Proof.
    intros s1 s2 (Rd & Rr & Rt & Rv). unfold dflush. rewrite (cn_flush _ CN). eexists; split; [reflexivity|].
    split; [exact (lw_flush LW _ _ Rd)|]. repeat split; assumption.
  Qed.
  Lemma sim_opt_panic {A} (o : option A) : sim (opt_panic T o) (opt_panic cdata o).
  Proof. destruct o; [apply sim_ret|apply sim_fail]. Qed.
  Lemma sim_tx_begin : sim (tx_begin T) (tx_begin cdata).
  Proof.
    intros s1 s2 (Rd & Rr & Rt & Rv). unfold tx_begin. rewrite Rt. destruct (two64 <=? tx s2 + 1);
      (eexists; split; [reflexivity|]); repeat split; assumption.
  Qed.
  Lemma sim_tx_commit id : sim (tx_commit T opsT id) (tx_commit cdata opsC id).
  Proof.
    intros s1 s2 R. pose proof R as (Rd & Rr & Rt & Rv). unfold tx_commit. rewrite Rt.
    destruct (negb (tx s2 =? id)); [eauto|]. destruct (tx s2 =? 0); [eauto|].
    cbn [tx set_tx].
    assert (R' : srel (set_tx T s1 (tx s2 - 1)) (set_tx cdata s2 (tx s2 - 1))) by (repeat split; assumption).
    destruct (tx s2 - 1 =? 0); [|eauto]. apply (sim_dflush _ _ R').
  Qed.
  Lemma sim_lookup i : sim (lookup T i) (lookup cdata i).
  Proof.
    intros s1 s2 R. pose proof R as (_ & Rr & _). unfold lookup. rewrite Rr.
    destruct (record (rtab s2) i) as [[r|]|]; eauto.
  Qed.

  Create HintDb simdb.
  Hint Resolve sim_ret sim_fail sim_get_len sim_get_rtab sim_put_rtab sim_dwrite sim_dread sim_dresize sim_dflush
       sim_opt_panic sim_tx_begin sim_tx_commit sim_lookup : simdb.

  (* the two sides of every operation are the same tree of binds, ifs and matches over primitives
     that are already related: descend in both at once *)
  Ltac sim_step :=
    first
      [ solve [auto with simdb]
      | apply sim_bind; [|intros]
      | match goal with
        | |- sim (if ?b then _ else _) (if ?b then _ else _) => destruct b
        | |- sim (match ?x with _ => _ end) (match ?x with _ => _ end) => destruct x
        end ].
  Ltac sims := repeat sim_step.

  Lemma sim_write_record r : sim (write_record T opsT r) (write_record cdata opsC r).
  Proof. unfold write_record. sims. Qed.
  Lemma sim_append bs : sim (append T opsT bs) (append cdata opsC bs).
  Proof. unfold append. sims. Qed.
  Lemma sim_truncate n : sim (truncate T opsT n) (truncate cdata opsC n).
  Proof. unfold truncate. sims. Qed.
  Lemma sim_is_at_end r : sim (is_at_end T opsT r) (is_at_end cdata opsC r).
  Proof. unfold is_at_end. sims. Qed.
  Lemma sim_read_value r : sim (read_value T opsT r) (read_value cdata opsC r).
  Proof. unfold read_value. sims. Qed.
  Hint Resolve sim_write_record sim_append sim_truncate sim_is_at_end sim_read_value : simdb.
  Lemma sim_free_a_region p n : sim (free_a_region T opsT p n) (free_a_region cdata opsC p n).
  Proof. unfold free_a_region. apply sim_bind; [auto with simdb|]. intros rs. destruct (mark_free_compact rs p n) as [rs' [q sz]]. sims. Qed.
  Lemma sim_do_set_size i n : sim (do_set_size T i n) (do_set_size cdata i n).
  Proof. unfold do_set_size. sims. Qed.
  Lemma sim_do_set_pos i n : sim (do_set_pos T i n) (do_set_pos cdata i n).
  Proof. unfold do_set_pos. sims. Qed.
  Hint Resolve sim_free_a_region sim_do_set_size sim_do_set_pos : simdb.
  Lemma sim_update_record r p n : sim (update_record T opsT r p n) (update_record cdata opsC r p n).
  Proof. unfold update_record. sims. Qed.
  Hint Resolve sim_update_record : simdb.
  Lemma sim_move_to_end r n : sim (move_to_end T opsT r n) (move_to_end cdata opsC r n).
  Proof. unfold move_to_end. sims. Qed.
  Lemma sim_enlarge_at_end r n : sim (enlarge_at_end T opsT r n) (enlarge_at_end cdata opsC r n).
  Proof. unfold enlarge_at_end. sims. Qed.
  Lemma sim_enlarge_in_place r n f : sim (enlarge_in_place T opsT r n f) (enlarge_in_place cdata opsC r n f).
  Proof. unfold enlarge_in_place. sims. Qed.
  Lemma sim_enlarge_move_to r n p f : sim (enlarge_move_to T opsT r n p f) (enlarge_move_to cdata opsC r n p f).
  Proof. unfold enlarge_move_to. sims. Qed.
  Hint Resolve sim_move_to_end sim_enlarge_at_end sim_enlarge_in_place sim_enlarge_move_to : simdb.
  Lemma sim_enlarge_value r n : sim (enlarge_value T opsT r n) (enlarge_value cdata opsC r n).
  Proof.
    unfold enlarge_value. apply sim_bind; [auto with simdb|]. intros [|]; [auto with simdb|].
    apply sim_bind; [auto with simdb|]. intros rs.
    destruct (take_free_after rs (r_end r) (n - r_size r)) as [[rs' [q fs]]|]; [sims|].
    destruct (take_free rs n) as [[rs' [q fs]]|]; sims.
  Qed.
  Lemma sim_shrink_value r n : sim (shrink_value T opsT r n) (shrink_value cdata opsC r n).
  Proof. unfold shrink_value. sims. Qed.
  Hint Resolve sim_enlarge_value sim_shrink_value : simdb.
  Lemma sim_ensure_size r o n : sim (ensure_size T opsT r o n) (ensure_size cdata opsC r o n).
  Proof. unfold ensure_size. sims. Qed.
  Lemma sim_erase_bytes p f t n : sim (erase_bytes T opsT p f t n) (erase_bytes cdata opsC p f t n).
  Proof. unfold erase_bytes. sims. Qed.
  Lemma sim_validate_read_size o n v : sim (validate_read_size T o n v) (validate_read_size cdata o n v).
  Proof. unfold validate_read_size. sims. Qed.
  Hint Resolve sim_ensure_size sim_erase_bytes sim_validate_read_size : simdb.

  Lemma sim_insert_bytes bs : sim (insert_bytes T opsT bs) (insert_bytes cdata opsC bs).
  Proof.
    unfold insert_bytes. apply sim_bind; [auto with simdb|]. intros rs.
    destruct (take_free rs (lenN bs)) as [[rs1 [fp fs]]|].
    - apply sim_bind; [auto with simdb|]. intros [rs2 r]. sims.
    - apply sim_bind; [auto with simdb|]. intros len. apply sim_bind; [auto with simdb|]. intros [rs2 r]. sims.
  Qed.
  Lemma sim_insert_bytes_at i o bs : sim (insert_bytes_at T opsT i o bs) (insert_bytes_at cdata opsC i o bs).
  Proof. unfold insert_bytes_at. sims. Qed.
  Lemma sim_value_size i : sim (value_size T i) (value_size cdata i).
  Proof. unfold value_size. sims. Qed.
  Lemma sim_value_at_size i o n : sim (value_as_bytes_at_size T opsT i o n) (value_as_bytes_at_size cdata opsC i o n).
  Proof. unfold value_as_bytes_at_size. sims. Qed.
  Hint Resolve sim_insert_bytes sim_insert_bytes_at sim_value_size sim_value_at_size : simdb.
  Lemma sim_value_at i o : sim (value_as_bytes_at T opsT i o) (value_as_bytes_at cdata opsC i o).
  Proof. unfold value_as_bytes_at. sims. Qed.
  Hint Resolve sim_value_at : simdb.
  Lemma sim_value i : sim (value_as_bytes T opsT i) (value_as_bytes cdata opsC i).
  Proof. unfold value_as_bytes. sims. Qed.
  Lemma sim_move_at i f t n : sim (move_at T opsT i f t n) (move_at cdata opsC i f t n).
  Proof. unfold move_at. sims. Qed.
  Lemma sim_remove i : sim (remove_value T opsT i) (remove_value cdata opsC i).
  Proof. unfold remove_value. sims. Qed.
  Lemma sim_resize i n : sim (resize_value T opsT i n) (resize_value cdata opsC i n).
  Proof. unfold resize_value. sims. Qed.
  Hint Resolve sim_value sim_move_at sim_remove sim_resize : simdb.
  Lemma sim_replace i bs : sim (replace_with_bytes T opsT i bs) (replace_with_bytes cdata opsC i bs).
  Proof. unfold replace_with_bytes. sims. Qed.
  Lemma sim_shrink_index r p : sim (shrink_index T opsT r p) (shrink_index cdata opsC r p).
  Proof. unfold shrink_index. sims. Qed.
  Hint Resolve sim_replace sim_shrink_index : simdb.
  Lemma sim_shrink_all l : forall p, sim (shrink_all T opsT l p) (shrink_all cdata opsC l p).
  Proof. induction l as [|r l IH]; intros p; cbn [shrink_all]; [auto with simdb|]. apply sim_bind; [auto with simdb|]. intros q. apply IH. Qed.
  Hint Resolve sim_shrink_all : simdb.
  Lemma sim_optimize : sim (optimize_storage T opsT) (optimize_storage cdata opsC).
  Proof. unfold optimize_storage. sims. Qed.

  (* loading *)
  Lemma sim_read_record p : sim (read_record T opsT p) (read_record cdata opsC p).
  Proof. unfold read_record. sims. Qed.
  Lemma sim_extract_version r : sim (extract_version T opsT r) (extract_version cdata opsC r).
  Proof. unfold extract_version. sims. Qed.
  Hint Resolve sim_read_record sim_extract_version sim_optimize : simdb.
  Lemma sim_shift_chunks f : forall p, sim (shift_chunks T opsT f p) (shift_chunks cdata opsC f p).
  Proof. induction f as [|f IH]; intros p; cbn [shift_chunks]; [auto with simdb|]. destruct (0 <? p); [|auto with simdb]. sims; try apply IH. Qed.
  Hint Resolve sim_shift_chunks : simdb.
  Lemma sim_set_version v : sim (fun s => (set_version T s v, ROk tt)) (fun s => (set_version cdata s v, ROk tt)).
  Proof. intros s1 s2 (Rd & Rr & Rt & Rv). eexists; split; [reflexivity|]. repeat split; assumption. Qed.
  Lemma sim_validate : sim (validate_or_update_version T opsT) (validate_or_update_version cdata opsC).
  Proof.
    intros s1 s2 R. pose proof R as (Rd & Rr & Rt & Rv). unfold validate_or_update_version. rewrite Rv.
    destruct (CURRENT_VERSION <? version s2); [eauto|]. destruct (version s2 =? CURRENT_VERSION); [eauto|].
    rewrite (lw_len LW _ _ Rd), (cn_len _ CN).
    assert (R' : srel (set_version T s1 CURRENT_VERSION) (set_version cdata s2 CURRENT_VERSION)) by (repeat split; assumption).
    revert R'. generalize (set_version T s1 CURRENT_VERSION) (set_version cdata s2 CURRENT_VERSION). intros u1 u2 R'.
    assert (S : sim (bind T (tx_begin T) (fun id => bind T (dresize T opsT (c_len (sdata s2) + 24)) (fun _ =>
                  bind T (shift_chunks T opsT (S (N.to_nat (c_len (sdata s2) / CHUNK_SIZE))) (c_len (sdata s2))) (fun _ =>
                  bind T (write_record T opsT version_record) (fun _ =>
                  bind T (dwrite T opsT (value_start version_record) (le64 CURRENT_VERSION)) (fun _ => tx_commit T opsT id))))))
                 (bind cdata (tx_begin cdata) (fun id => bind cdata (dresize cdata opsC (c_len (sdata s2) + 24)) (fun _ =>
                  bind cdata (shift_chunks cdata opsC (S (N.to_nat (c_len (sdata s2) / CHUNK_SIZE))) (c_len (sdata s2))) (fun _ =>
                  bind cdata (write_record cdata opsC version_record) (fun _ =>
                  bind cdata (dwrite cdata opsC (value_start version_record) (le64 CURRENT_VERSION)) (fun _ => tx_commit cdata opsC id))))))) by sims.
    exact (S u1 u2 R').
  Qed.
  Hint Resolve sim_validate sim_set_version : simdb.
  Lemma sim_load_records f e : forall p, sim (load_records T opsT f e p) (load_records cdata opsC f e p).
  Proof.
    induction f as [|f IH]; intros p; cbn [load_records]; [auto with simdb|]. destruct (p <? e); [|auto with simdb].
    apply sim_bind; [auto with simdb|]. intros r. destruct (e - p + 16 <? r_size r); [auto with simdb|]. sims; try apply IH.
  Qed.
  Hint Resolve sim_load_records : simdb.
  Lemma sim_read_records : sim (read_records T opsT) (read_records cdata opsC).
  Proof.
    unfold read_records. apply sim_bind; [auto with simdb|]. intros len0. apply sim_bind.
    - destruct (16 <=? len0); [|auto with simdb]. apply sim_bind; [auto with simdb|]. intros vr.
      destruct (r_index vr =? 0); [|auto with simdb]. apply sim_bind; [auto with simdb|]. intros v. apply sim_set_version.
    - intros _. sims.
  Qed.

  Lemma sim_with_data t d : rd t d ->
    match with_data cdata opsC d with
    | (_, RFault) => True
    | (s2', r) => exists s1', with_data T opsT t = (s1', r) /\ srel s1' s2'
    end.
  Proof. intros Rd. unfold with_data. apply sim_read_records. repeat split; cbn; auto. Qed.

  (* one operation *)
  Lemma sim_lift {A} (f : A -> obs) (m1 : M T A) (m2 : MM A) s1 s2 : sim m1 m2 -> srel s1 s2 ->
    snd (lift cdata f (m2 s2)) = ObFault \/
    (snd (lift T f (m1 s1)) = snd (lift cdata f (m2 s2)) /\ srel (fst (lift T f (m1 s1))) (fst (lift cdata f (m2 s2)))).
  Proof.
    intros S R. specialize (S s1 s2 R). unfold lift.
    destruct (m2 s2) as [s2' [a|e| |]]; cbn [fst snd to_obs]; [| | |left; reflexivity];
      destruct S as (s1' & -> & R'); right; auto.
  Qed.

  Lemma sim_step s1 s2 o : srel s1 s2 ->
    snd (st_step cdata opsC s2 o) = ObFault \/
    (snd (st_step T opsT s1 o) = snd (st_step cdata opsC s2 o) /\ srel (fst (st_step T opsT s1 o)) (fst (st_step cdata opsC s2 o))).
  Proof.
    intros R. destruct o; cbn [st_step]; try solve [apply sim_lift; auto with simdb].
    - (* reopen: read_records on the reopened stores *)
      apply (sim_lift ou (read_records T opsT) (read_records cdata opsC)); [apply sim_read_records|].
      repeat split; cbn; auto. exact (lw_reopen LW _ _ (proj1 R)).
    - apply (sim_lift ou (read_records T opsT) (read_records cdata opsC)); [apply sim_read_records|].
      repeat split; cbn; auto. exact (lw_copy LW _ _ (proj1 R)).
  Qed.

  (* every history, as long as the canonical run never leaves the contract *)
  Theorem sim_run l : forall s1 s2, srel s1 s2 -> ~ In ObFault (st_run cdata opsC s2 l) ->
    st_run T opsT s1 l = st_run cdata opsC s2 l.
  Proof.
    induction l as [|o t IH]; intros s1 s2 R NF; [reflexivity|]. cbn [st_run] in *.
    destruct (sim_step s1 s2 o R) as [HF|[Ev R']].
    - exfalso. apply NF. destruct (st_step cdata opsC s2 o) as [s2' v]. cbn [snd] in HF. subst v. left; reflexivity.
    - destruct (st_step T opsT s1 o) as [s1' v1], (st_step cdata opsC s2 o) as [s2' v2]. cbn [fst snd] in *. subst v2.
      destruct v1; try reflexivity; f_equal; apply IH; try assumption; intros H; apply NF; right; exact H.
  Qed.
End Sim.

Lemma accepts_no_fault fl l : forall sp vs, accepts fl sp l vs = true -> ~ In ObFault vs.
Proof.
  induction l as [|o t IH]; intros sp vs H Hin.
  - destruct vs as [|v [|w vs]]; [destruct Hin| |]; cbn [accepts] in H.
    + destruct v; try discriminate. destruct Hin as [Hin|[]]; discriminate.
    + destruct v; discriminate.
  - destruct vs as [|v vs]; [destruct Hin|].
    assert (Hcase : (v = ObPanic /\ vs = []) \/ exists sp', spec_step fl sp o v = Some sp' /\ accepts fl sp' t vs = true).
    { cbn [accepts] in H. destruct v; try (destruct (spec_step fl sp o _) as [sp'|] eqn:E; [right; eauto|discriminate]).
      destruct vs; [left; auto|]. destruct (spec_step fl sp o ObPanic) as [sp'|] eqn:E; [right; eauto|discriminate]. }
    destruct Hcase as [[-> ->]|(sp' & Es & Ha)].
    + destruct Hin as [Hin|[]]; discriminate.
    + destruct Hin as [Ev|Hin]; [subst v; rewrite (proj2 (spec_no_panic fl sp o)) in Es; discriminate|].
      exact (IH sp' vs Ha Hin).
Qed.

Lemma mem_write_law (b : bytes) pos bs : pos <= lenN b -> mem_write b pos bs = bs_write b (N.to_nat pos) bs.
Proof.
  intros H. unfold mem_write, bs_write, bs_resize, lenN in *.
  replace (N.to_nat pos - length b)%nat with 0%nat by lia. cbn [repeat app].
  destruct (N.ltb_spec (pos + N.of_nat (length bs)) (N.of_nat (length b))).
  - do 3 f_equal. lia.
  - rewrite app_nil_r, (skipn_all2 (n := (N.to_nat pos + length bs)%nat)) by lia. now rewrite app_nil_r.
Qed.

Lemma file_write_law d pos bs : pos <= lenN (cur d) -> file_write d pos bs = c_write d pos bs.
Proof.
  intros H. unfold file_write, c_write. destruct (N.leb_spec pos (lenN (cur d))); [|lia].
  destruct bs as [|x bs]; [|unfold bs_write; replace (N.to_nat pos - length (cur d))%nat with 0%nat by (unfold lenN in *; lia); reflexivity].
  f_equal. destruct d as [c du]. cbn [cur dur]. f_equal. unfold bs_write. cbn [length app]. rewrite Nat.add_0_r.
  replace (N.to_nat pos - length c)%nat with 0%nat by (unfold lenN in *; cbn in *; lia). cbn [repeat app].
  symmetry. apply firstn_skipn.
Qed.

Definition rd_mem (b : bytes) (d : cdata) : Prop := cur d = b.
Definition rd_file (t d : cdata) : Prop := t = d.
Definition rd_mapped (t : cdata * bytes) (d : cdata) : Prop := fst t = d /\ snd t = cur d.

Theorem mem_lawful : lawful bytes mem_raw ops_mem rd_mem.
Proof.
  constructor; unfold rd_mem; cbn [mem_raw ops_mem so_len so_read so_write so_resize so_flush so_reopen so_copy].
  - intros t d <-. reflexivity.
  - intros t d pos n <- H. reflexivity.
  - intros t d pos bs <- H. eexists _, _. split; [reflexivity|]. unfold c_write. destruct (N.leb_spec pos (lenN (cur d))); [|lia].
    split; [reflexivity|]. cbn [cur]. symmetry. apply mem_write_law. exact H.
  - intros t d n <-. reflexivity.
  - intros t d <-. reflexivity.
  - intros t d <-. reflexivity.
  - intros t d <-. reflexivity.
Qed.

Theorem file_lawful : lawful cdata file_raw ops_file rd_file.
Proof.
  constructor; unfold rd_file; cbn [file_raw ops_file so_len so_read so_write so_resize so_flush so_reopen so_copy].
  - intros t d ->. reflexivity.
  - intros t d pos n -> H. reflexivity.
  - intros t d pos bs -> H. rewrite (file_write_law d pos bs H). unfold c_write. destruct (N.leb_spec pos (lenN (cur d))); [|lia].
    eexists _, _. split; [reflexivity|]. split; reflexivity.
  - intros t d n ->. reflexivity.
  - intros t d ->. reflexivity.
  - intros t d ->. reflexivity.
  - intros t d ->. reflexivity.
Qed.

Theorem mapped_lawful : lawful (cdata * bytes) mapped_raw ops_file rd_mapped.
Proof.
  constructor; unfold rd_mapped; cbn [mapped_raw ops_file so_len so_read so_write so_resize so_flush so_reopen so_copy].
  - intros [f m] d [<- E]. reflexivity.
  - intros [f m] d pos n [<- E] H. cbn [fst snd] in *. subst m. reflexivity.
  - intros [f m] d pos bs [<- E] H. cbn [fst snd] in *. subst m. rewrite (file_write_law f pos bs H).
    unfold c_write. destruct (N.leb_spec pos (lenN (cur f))); [|lia].
    eexists _, _. split; [reflexivity|]. split; [reflexivity|]. cbn [fst snd cur]. split; [reflexivity|apply mem_write_law; exact H].
  - intros [f m] d n [<- E]. cbn [fst snd] in *. subst m. split; reflexivity.
  - intros [f m] d [<- E]. cbn [fst snd] in *. subst m. split; reflexivity.
  - intros [f m] d [<- E]. cbn [fst snd] in *. subst m. split; reflexivity.
  - intros [f m] d [<- E]. cbn [fst snd] in *. subst m. split; reflexivity.
Qed.

Lemma run_from_empty T opsT opsC rd t d s0 l :
  canon opsC -> lawful T opsT opsC rd -> rd t d -> with_data cdata opsC d = (s0, ROk tt) ->
  ~ In ObFault (st_run cdata opsC s0 l) ->
  st_run T opsT (fst (with_data T opsT t)) l = st_run cdata opsC s0 l.
Proof.
  intros CN LW Rd E NF. pose proof (sim_with_data T opsT opsC rd CN LW t d Rd) as S. rewrite E in S.
  destruct S as (s1' & -> & R). exact (sim_run T opsT opsC rd CN LW l _ _ R NF).
Qed.

Theorem backends_agree l :
  st_run bytes mem_raw (fst (with_data bytes mem_raw [])) l = st_run cdata ops_mem (fst init_mem) l /\
  st_run cdata file_raw (fst (with_data cdata file_raw empty_cdata)) l = st_run cdata ops_file (fst init_file) l /\
  st_run (cdata * bytes) mapped_raw (fst (with_data (cdata * bytes) mapped_raw (empty_cdata, []))) l = st_run cdata ops_file (fst init_file) l.
Proof.
  pose proof (refines_map_mem l) as Am. pose proof (refines_map_file l) as Af.
  rewrite init_mem_eq in *. rewrite init_file_eq in *. cbn [fst] in *.
  apply accepts_no_fault in Am, Af.
  split; [|split].
  - exact (run_from_empty _ _ _ rd_mem [] empty_cdata _ l canon_mem mem_lawful eq_refl init_mem_eq Am).
  - exact (run_from_empty _ _ _ rd_file empty_cdata empty_cdata _ l canon_file file_lawful eq_refl init_file_eq Af).
  - exact (run_from_empty _ _ _ rd_mapped (empty_cdata, []) empty_cdata _ l canon_file mapped_lawful (conj eq_refl eq_refl) init_file_eq Af).
Qed.

(* the memory-like and the file-like store differ only in what a drop does to an open transaction *)
Fixpoint no_reopen (l : list sop) : bool :=
  match l with [] => true | SReopen :: _ => false | _ :: t => no_reopen t end.

Theorem mem_file_agree l : no_reopen l = true -> forall s, st_run cdata ops_mem s l = st_run cdata ops_file s l.
Proof.
  induction l as [|o t IH]; intros H s; [reflexivity|].
  assert (E : st_step cdata ops_mem s o = st_step cdata ops_file s o) by (destruct o; try reflexivity; discriminate H).
  cbn [st_run]. rewrite E. destruct (st_step cdata ops_file s o) as [s' v].
  assert (Ht : no_reopen t = true) by (destruct o; try exact H; discriminate H).
  destruct v; try reflexivity; f_equal; apply IH; exact Ht.
Qed.
