(* GraphArr.v — basic lemmas for the slot arrays of Graph.v: get/set characterisation,
   linked chains threaded through an array, find_prev / edge_list on chains, list helpers. *)
From Agdb Require Import Bytes Graph.
From Agdb Require BytesProofs.
From Coq Require Import ZifyBool ZifyNat ZifyN.
Ltac Zify.zify_post_hook ::= Z.div_mod_to_equations.
Open Scope Z_scope.

Lemma zabs_nat_neg i : zabs_nat (- i) = zabs_nat i.
Proof. unfold zabs_nat. rewrite Z.abs_opp. reflexivity. Qed.

Lemma zabs_nat_abs i : zabs_nat (Z.abs i) = zabs_nat i.
Proof. unfold zabs_nat. rewrite Z.abs_involutive. reflexivity. Qed.

Lemma get_neg l i : get l (- i) = get l i.
Proof. unfold get. rewrite zabs_nat_neg. reflexivity. Qed.

Lemma get_abs l i : get l (Z.abs i) = get l i.
Proof. unfold get. rewrite zabs_nat_abs. reflexivity. Qed.

Lemma length_set_nth l n v : length (set_nth l n v) = length l.
Proof. revert n; induction l as [|x r IH]; intros [|n]; cbn [set_nth length]; auto. Qed.

Lemma length_set l i v : length (set l i v) = length l.
Proof. apply length_set_nth. Qed.

Lemma nth_set_nth l n v m :
  nth m (set_nth l n v) 0 = if Nat.eqb n m && Nat.ltb n (length l) then v else nth m l 0.
Proof.
  revert n m; induction l as [|x r IH]; intros n m.
  - cbn [set_nth length]. destruct n; cbn; rewrite ?Bool.andb_false_r; reflexivity.
  - destruct n as [|n], m as [|m]; cbn [set_nth nth length Nat.eqb]; try reflexivity.
    + rewrite IH. change (S n <? S (length r))%nat with (n <? length r)%nat. reflexivity.
Qed.

Lemma get_set l i v j :
  get (set l i v) j =
  if (Z.abs i =? Z.abs j) && (Z.abs i <? Z.of_nat (length l)) then v else get l j.
Proof.
  unfold get, set. rewrite nth_set_nth. unfold zabs_nat.
  destruct (Nat.eqb_spec (Z.to_nat (Z.abs i)) (Z.to_nat (Z.abs j)));
  destruct (Nat.ltb_spec (Z.to_nat (Z.abs i)) (length l));
  destruct (Z.eqb_spec (Z.abs i) (Z.abs j));
  destruct (Z.ltb_spec (Z.abs i) (Z.of_nat (length l))); cbn [andb]; try reflexivity; lia.
Qed.

Lemma get_set_same l i v j :
  Z.abs i = Z.abs j -> Z.abs i < Z.of_nat (length l) -> get (set l i v) j = v.
Proof.
  intros H1 H2. rewrite get_set.
  destruct (Z.eqb_spec (Z.abs i) (Z.abs j)); destruct (Z.ltb_spec (Z.abs i) (Z.of_nat (length l)));
  cbn [andb]; try reflexivity; lia.
Qed.

Lemma get_set_other l i v j : Z.abs i <> Z.abs j -> get (set l i v) j = get l j.
Proof.
  intros H1. rewrite get_set. destruct (Z.eqb_spec (Z.abs i) (Z.abs j)); cbn [andb]; try reflexivity; lia.
Qed.

(* appending a 0 does not change any read (the default of `get` is 0) *)
Lemma get_app0 l j : get (l ++ [0]) j = get l j.
Proof.
  unfold get. destruct (Nat.ltb_spec (zabs_nat j) (length l)).
  - apply app_nth1; assumption.
  - rewrite (nth_overflow l) by lia.
    destruct (Nat.eqb_spec (zabs_nat j) (length l)) as [E|E].
    + rewrite app_nth2 by lia. rewrite E, Nat.sub_diag. reflexivity.
    + apply nth_overflow. rewrite app_length. cbn [length]. lia.
Qed.

Lemma get_overflow l j : Z.of_nat (length l) <= Z.abs j -> get l j = 0.
Proof. intros H. unfold get. apply nth_overflow. unfold zabs_nat. lia. Qed.

Lemma filter_filter {A} (p q : A -> bool) E :
  filter q (filter p E) = filter (fun x => p x && q x) E.
Proof.
  induction E as [|x r IH]; cbn [filter]; [reflexivity|].
  destruct (p x); cbn [filter andb]; [destruct (q x); [f_equal|]|]; exact IH.
Qed.

(* l without the entries equal to s, order kept *)
Definition zrem (s : Z) (l : list Z) : list Z := filter (fun y => negb (y =? s)) l.

Lemma zrem_notin s l : ~ In s l -> zrem s l = l.
Proof.
  induction l as [|x r IH]; intros H; cbn [zrem filter]; [reflexivity|].
  destruct (Z.eqb_spec x s) as [->|]; cbn [negb].
  - exfalso; apply H; left; reflexivity.
  - f_equal. apply IH. intros Hi; apply H; right; assumption.
Qed.

Lemma in_zrem s l y : In y (zrem s l) <-> In y l /\ y <> s.
Proof.
  unfold zrem. rewrite filter_In. destruct (Z.eqb_spec y s); cbn [negb]; intuition congruence.
Qed.

Lemma zrem_length s l : NoDup l -> In s l -> Z.of_nat (length (zrem s l)) = Z.of_nat (length l) - 1.
Proof.
  induction l as [|x r IH]; intros Hnd Hin; [destruct Hin|].
  inversion Hnd as [|? ? Hx Hr]; subst. cbn [zrem filter].
  destruct (Z.eqb_spec x s) as [->|Hne]; cbn [negb length].
  - fold (zrem s r). rewrite zrem_notin by assumption. lia.
  - destruct Hin as [->|Hin]; [congruence|]. fold (zrem s r). specialize (IH Hr Hin). lia.
Qed.

Lemma NoDup_zrem s l : NoDup l -> NoDup (zrem s l).
Proof. apply NoDup_filter. Qed.

Lemma map_opp_zrem s l : map Z.opp (zrem s l) = zrem (- s) (map Z.opp l).
Proof.
  unfold zrem. induction l as [|y r IH]; cbn [filter map]; [reflexivity|].
  destruct (Z.eqb_spec y s); destruct (Z.eqb_spec (- y) (- s)); try lia; cbn [negb map]; [exact IH|f_equal; exact IH].
Qed.

(* a duplicate-free list of slots in (0, n) has fewer than n entries *)
Lemma NoDup_range_length (l : list Z) (n : nat) :
  NoDup l -> (forall y, In y l -> 0 < y < Z.of_nat n) -> (length l < n)%nat \/ (l = [] /\ n = O).
Proof.
  intros Hnd Hr. destruct n as [|n].
  - right. destruct l as [|y r]; [auto|]. specialize (Hr y (or_introl eq_refl)). lia.
  - left. assert (Hincl : incl l (map Z.of_nat (seq 1 n))).
    { intros y Hy. apply in_map_iff. exists (Z.to_nat y). specialize (Hr y Hy). split; [lia|apply in_seq; lia]. }
    apply (NoDup_incl_length Hnd) in Hincl. rewrite map_length, seq_length in Hincl. lia.
Qed.

(* l is the list of slots met from h by following `next` until 0 *)
Fixpoint chain (next : Z -> Z) (h : Z) (l : list Z) : Prop :=
  match l with
  | [] => h = 0
  | x :: r => h = x /\ chain next (next x) r
  end.

Lemma chain_ext next next' h l :
  (forall y, In y l -> next' y = next y) -> chain next h l -> chain next' h l.
Proof.
  revert h; induction l as [|x r IH]; intros h Hext Hc; cbn [chain] in *; [assumption|].
  destruct Hc as [-> Hc]. split; [reflexivity|].
  rewrite (Hext x (or_introl eq_refl)). apply IH; [|assumption].
  intros y Hy; apply Hext; right; assumption.
Qed.

Lemma chain_head next h l : chain next h l -> h = hd 0 l.
Proof. destruct l; cbn [chain hd]; intuition. Qed.

Lemma chain_head_nonneg next h l : (forall y, In y l -> 0 < y) -> chain next h l -> 0 <= h.
Proof.
  intros Hp Hc. destruct l as [|x r]; cbn [chain] in Hc.
  - lia.
  - destruct Hc as [-> _]. specialize (Hp x (or_introl eq_refl)). lia.
Qed.

(* next of a chain member is 0 or a chain member: in particular non-negative *)
Lemma chain_next_nonneg next h l x :
  (forall y, In y l -> 0 < y) -> chain next h l -> In x l -> 0 <= next x.
Proof.
  revert h; induction l as [|y r IH]; intros h Hp Hc Hin; [destruct Hin|].
  cbn [chain] in Hc. destruct Hc as [-> Hc].
  destruct Hin as [->|Hin].
  - eapply chain_head_nonneg; [|exact Hc]. intros z Hz; apply Hp; right; assumption.
  - eapply IH; [|exact Hc|assumption]. intros z Hz; apply Hp; right; assumption.
Qed.

Lemma chain_unlink_head next next' s r :
  ~ In s r -> (forall y, In y r -> next' y = next y) ->
  chain next s (s :: r) -> chain next' (next s) (zrem s (s :: r)).
Proof.
  intros Hs Hext [_ Hc]. cbn [zrem filter]. rewrite Z.eqb_refl. cbn [negb].
  fold (zrem s r). rewrite zrem_notin by assumption. eapply chain_ext; eassumption.
Qed.

(* unlinking an inner member: find_prev finds the predecessor (up to the sign of the
   first index, which the code passes as a negative edge id), and redirecting it unlinks *)
Lemma chain_unlink_inner (next : Z -> Z) (s : Z) :
  (forall z, next (- z) = next z) ->
  forall (l : list Z) (fuel : nat) (h h' : Z),
    NoDup l -> (forall y, In y l -> 0 < y) -> chain next h l -> Z.abs h' = h ->
    In s l -> h <> s -> (length l <= fuel)%nat ->
    exists p', find_prev next fuel h' s = Some p' /\
      In (Z.abs p') l /\ Z.abs p' <> s /\ next (Z.abs p') = s /\
      forall next' : Z -> Z,
        next' (Z.abs p') = next s ->
        (forall y, In y l -> y <> Z.abs p' -> y <> s -> next' y = next y) ->
        chain next' h (zrem s l).
Proof.
  intros Heven.
  assert (Habs : forall z, next z = next (Z.abs z)).
  { intros z. destruct (Z.abs_spec z) as [[_ ->]|[_ ->]]; [reflexivity|]. symmetry; apply Heven. }
  induction l as [|x r IH]; intros fuel h h' Hnd Hpos Hc Hh' Hin Hne Hfuel; [destruct Hin|].
  cbn [chain] in Hc. destruct Hc as [-> Hc].
  destruct Hin as [->|Hin]; [congruence|].
  apply NoDup_cons_iff in Hnd. destruct Hnd as [Hx Hr].
  destruct fuel as [|fuel]; [cbn [length] in Hfuel; lia|].
  cbn [find_prev]. rewrite (Habs h'), Hh'.
  destruct (Z.eqb_spec (next x) s) as [E|E].
  - (* x is the predecessor *)
    exists h'. rewrite Hh'. split; [reflexivity|]. split; [left; reflexivity|]. split; [assumption|].
    split; [assumption|]. intros next' Hp Hext.
    destruct r as [|y r']; [destruct Hin|]. cbn [chain] in Hc. destruct Hc as [Hy Hc].
    rewrite E in Hy. subst y.
    cbn [zrem filter]. destruct (Z.eqb_spec x s); [congruence|]. rewrite Z.eqb_refl. cbn [negb chain].
    split; [reflexivity|]. rewrite Hp. fold (zrem s r').
    apply NoDup_cons_iff in Hr. destruct Hr as [Hs Hr'].
    rewrite zrem_notin by assumption.
    eapply chain_ext; [|exact Hc]. intros y Hy. apply Hext.
    + right; right; assumption.
    + intros ->. apply Hx. right; assumption.
    + intros ->. contradiction.
  - assert (Hnx : 0 < next x).
    { destruct r as [|y r']; [destruct Hin|]. cbn [chain] in Hc. destruct Hc as [-> _].
      apply Hpos. right; left; reflexivity. }
    destruct (IH fuel (next x) (next x) Hr) as [p' [Hf [Hpin [Hps [Hnp Hrest]]]]].
    + intros y Hy; apply Hpos; right; assumption.
    + assumption.
    + lia.
    + assumption.
    + assumption.
    + cbn [length] in Hfuel; lia.
    + exists p'. split; [assumption|]. split; [right; assumption|]. split; [assumption|].
      split; [assumption|]. intros next' Hp Hext.
      cbn [zrem filter]. destruct (Z.eqb_spec x s); [congruence|]. cbn [negb chain].
      split; [reflexivity|]. fold (zrem s r).
      rewrite (Hext x); [| left; reflexivity | intros ->; contradiction | assumption ].
      apply Hrest; [assumption|]. intros y Hy; apply Hext. right; assumption.
Qed.

(* the edge iterator walks the whole chain (ids are the negated slots) *)
Lemma edge_list_chain (next : Z -> Z) :
  (forall z, next (- z) = next z) ->
  forall (l : list Z) (fuel : nat) (h : Z),
    (forall y, In y l -> 0 < y) -> chain next h l -> (length l <= fuel)%nat ->
    edge_list (fun e => - next e) fuel (- h) = map Z.opp l.
Proof.
  intros Heven. induction l as [|x r IH]; intros fuel h Hpos Hc Hfuel; cbn [chain] in Hc.
  - subst h. destruct fuel; cbn [edge_list map]; reflexivity.
  - destruct Hc as [-> Hc]. destruct fuel as [|fuel]; [cbn [length] in Hfuel; lia|].
    cbn [edge_list map]. pose proof (Hpos x (or_introl eq_refl)).
    destruct (Z.eqb_spec (- x) 0); [lia|]. f_equal. rewrite Heven.
    apply IH; [|assumption|cbn [length] in Hfuel; lia].
    intros y Hy; apply Hpos; right; assumption.
Qed.

Lemma out_edges_abs g i : out_edges g (Z.abs i) = out_edges g i.
Proof. unfold out_edges, first_edge_from, from. rewrite get_abs. reflexivity. Qed.
Lemma in_edges_abs g i : in_edges g (Z.abs i) = in_edges g i.
Proof. unfold in_edges, first_edge_to, to. rewrite get_abs. reflexivity. Qed.
