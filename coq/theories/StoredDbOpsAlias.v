(* StoredDbOpsAlias.v — the alias tables as PROGRAMS over the storage (layer L3): MapImpl::insert (map.rs) =
   MultiMapImpl::insert_or_replace(|_| true) (multi_map.rs) over the DbMapData interface of Collections.v, and the
   proofs of its two straight-line parts, the probe loop and do_insert.

     so_ior_loop       the probe loop of insert_or_replace on fuel (= capacity; out of fuel = CDead: the theorems show it
                       is not reached): data.state(pos); Empty: free_pos = pos, stop; Deleted: remember the first free
                       slot; Valid: data.key(pos), on the key data.value(pos) + data.set_value (predicate |_| true), stop;
                       next_pos; back at the start: full_cycle, stop
     so_map_do_insert  set_state(Valid), set_key, set_value, set_len(len + 1)
     so_map_insert     transaction; [len >= max_len: GROW]; the loop; do_insert at free_pos; [full_cycle: REHASH IN
                       PLACE]; commit.  The two bracketed branches are PARAMETERS (`so_map_rest`) of the program: a
                       theorem whose side conditions exclude a branch holds for every choice of it; the code's own
                       branches are so_map_rip (StoredDbOpsAlias5.v) and so_map_grow (StoredDbOpsAlias7.v).
     so_map_insert_body  what follows the grow check, as a program of its own (so_map_insert_unfold)

   The side conditions: so_key_absent (no Valid slot holds the key), so_no_grow (len < max_len(capacity)),
   so_no_full_cycle (the probe does not come back to its start; stated on OpenMap.v's ior_loop at the repaired revision —
   the revision of the wrap guard, which is what /repo's multi_map.rs has).  The theorems about so_map_insert are in
   StoredDbOpsAlias5.v (a table with room) and StoredDbOpsAlias7.v (any fill). *)
From Coq Require Import List NArith ZArith Arith Bool Lia Permutation.
Import ListNotations.
From Agdb Require Import Bytes StorageSpec Collections CollWp CollBytes CollVecBase CollVec CollMap CollMapHist
  OpenMap.
From Coq Require Import ZifyBool ZifyNat ZifyN.
Ltac Zify.zify_post_hook ::= Z.div_mod_to_equations.
Open Scope N_scope.

Record so_map_rest := { smr_grow : cm_data -> cprog cm_data; smr_rehash_in_place : cm_data -> cprog cm_data }.

Definition so_next_pos (cap pos : N) : N := if pos =? cap - 1 then 0 else pos + 1.
Definition so_max_len (cap : N) : N := cap * 15 / 16.

Section MapInsertProg.
  Variables K V : Type.
  Variable EK : cv_elem K.
  Variable EV : cv_elem V.
  Variable keqb : K -> K -> bool.
  Variable h : K -> N.

  Fixpoint so_ior_loop (fuel : nat) (d : cm_data) (key : K) (nv : V) (cap start pos : N) (free : option N)
    : cprog (option N * option V * bool) :=
    match fuel with
    | O => CDead
    | S f =>
      let continue (free' : option N) :=
        let pos' := so_next_pos cap pos in
        if pos' =? start then CRet (free', None, true) else so_ior_loop f d key nv cap start pos' free' in
      s <~ cm_state d pos ;;
      match s with
      | StEmpty => CRet (Some pos, None, false)
      | StDeleted => continue (match free with None => Some pos | Some _ => free end)
      | StValid =>
        k' <~ cm_key K EK d pos ;;
        if keqb k' key then
          old <~ cm_value V EV d pos ;;
          cm_set_value V EV d pos nv ;;~
          CRet (None, Some old, false)
        else continue free
      end
    end.

  Definition so_map_do_insert (d : cm_data) (pos : N) (key : K) (nv : V) : cprog cm_data :=
    cm_set_state d pos StValid ;;~
    cm_set_key K EK d pos key ;;~
    cm_set_value V EV d pos nv ;;~
    cm_set_len d (cm_len d + 1).

  Definition so_map_insert (x : so_map_rest) (d : cm_data) (key : K) (nv : V) : cprog (cm_data * option V) :=
    id <~ cp_transaction ;;
    d1 <~ (if so_max_len (cm_capacity d) <=? cm_len d then smr_grow x d else CRet d) ;;
    let cap := cm_capacity d1 in
    let start := (h key) mod cap in
    r <~ so_ior_loop (N.to_nat cap) d1 key nv cap start start None ;;
    d2 <~ match fst (fst r) with Some pos => so_map_do_insert d1 pos key nv | None => CRet d1 end ;;
    d3 <~ (if snd r then smr_rehash_in_place x d2 else CRet d2) ;;
    cp_commit id ;;~
    CRet (d3, snd (fst r)).

  Definition so_map_insert_body (x : so_map_rest) (d1 : cm_data) (key : K) (nv : V) (id : N) : cprog (cm_data * option V) :=
    let cap := cm_capacity d1 in
    let start := (h key) mod cap in
    r <~ so_ior_loop (N.to_nat cap) d1 key nv cap start start None ;;
    d2 <~ match fst (fst r) with Some pos => so_map_do_insert d1 pos key nv | None => CRet d1 end ;;
    d3 <~ (if snd r then smr_rehash_in_place x d2 else CRet d2) ;;
    cp_commit id ;;~
    CRet (d3, snd (fst r)).

  Lemma so_map_insert_unfold x d key nv :
    so_map_insert x d key nv =
    (id <~ cp_transaction ;;
     d1 <~ (if so_max_len (cm_capacity d) <=? cm_len d then smr_grow x d else CRet d) ;;
     so_map_insert_body x d1 key nv id).
  Proof. reflexivity. Qed.
End MapInsertProg.

Section Slots.
  Variables K V : Type.

  Definition slot_of (s : cm_st) (k : K) (v : V) : slot K V :=
    match s with StEmpty => Empty | StDeleted => Deleted | StValid => Valid k v end.

  Lemma ct_slots_length : forall (ls : list cm_st) (lk : list K) (lv : list V),
    length lk = length ls -> length lv = length ls -> length (ct_slots K V ls lk lv) = length ls.
  Proof.
    induction ls as [|s ls IH]; intros [|k lk] [|v lv] H1 H2; cbn [ct_slots length] in *; try discriminate; [reflexivity|].
    f_equal. apply IH; congruence.
  Qed.

  Lemma ct_slots_nth : forall (ls : list cm_st) (lk : list K) (lv : list V) j,
    length lk = length ls -> length lv = length ls -> (j < length ls)%nat ->
    exists s k v, nth_error ls j = Some s /\ nth_error lk j = Some k /\ nth_error lv j = Some v /\
      nth j (ct_slots K V ls lk lv) Empty = slot_of s k v.
  Proof.
    induction ls as [|s ls IH]; intros [|k lk] [|v lv] j H1 H2 Hj; cbn [length] in *; try discriminate; [lia|].
    destruct j as [|j].
    - exists s, k, v. cbn [nth_error ct_slots nth]. auto.
    - cbn [nth_error ct_slots nth]. apply IH; [congruence|congruence|lia].
  Qed.

  Lemma ct_slots_upd : forall (ls : list cm_st) (lk : list K) (lv : list V) j s k v,
    length lk = length ls -> length lv = length ls ->
    ct_slots K V (cl_upd ls j s) (cl_upd lk j k) (cl_upd lv j v) = upd j (slot_of s k v) (ct_slots K V ls lk lv).
  Proof.
    induction ls as [|s0 ls IH]; intros [|k0 lk] [|v0 lv] j s k v H1 H2; cbn [length] in *; try discriminate; [destruct j; reflexivity|].
    destruct j as [|j]; cbn [cl_upd ct_slots upd]; [reflexivity|]. f_equal. apply IH; congruence.
  Qed.

  Lemma omap_to_of (o : option N) : option_map N.of_nat (option_map N.to_nat o) = o.
  Proof. destruct o as [n|]; cbn [option_map]; [rewrite N2Nat.id|]; reflexivity. Qed.
End Slots.

Section MapInsertProof.
  Variables K V : Type.
  Variable EK : cv_elem K.
  Variable EV : cv_elem V.
  Variable LK : elem_law EK.
  Variable LV : elem_law EV.
  Variable fl : bool.

  Notation msepT := (msep K V EK EV LK LV).
  Notation mrepT := (mrep K V EK EV LK LV).
  Notation mfootT := (mfoot K V EK EV LK LV).
  Notation slotsT := (ct_slots K V).

  Lemma mrep_capacity g d ss ks vs t : mrepT g d ss ks vs t -> cm_capacity d = lenN (ct_states t).
  Proof. intros [[_ Hs _ _ _ _] _ _]. exact (vr_len _ _ _ _ _ _ _ Hs). Qed.

  Lemma mrep_heq g g' d ss ks vs t : mrepT g d ss ks vs t -> heq g' g -> mrepT g' d ss ks vs t.
  Proof. intros [HS HL HE] Hm. constructor; [eapply msep_heq; eassumption|exact HL|exact HE]. Qed.

  Lemma so_map_do_insert_spec d ss ks vs t pos key nv sp (Q : cres cm_data -> spec -> Prop) :
    mrepT (hp sp) d ss ks vs t -> pos < lenN (ct_states t) -> el_valid LK key -> el_valid LV nv -> ct_len t + 1 < two64 ->
    (forall d' ss' ks' vs' sp',
        mrepT (hp sp') d' ss' ks' vs'
              {| ct_states := cl_upd (ct_states t) (N.to_nat pos) StValid; ct_keys := cl_upd (ct_keys t) (N.to_nat pos) key;
                 ct_values := cl_upd (ct_values t) (N.to_nat pos) nv; ct_len := ct_len t + 1 |} ->
        cm_index d' = cm_index d -> sdepth sp' = sdepth sp ->
        frame (hp sp) (hp sp') (mfootT d ss ks vs) (mfootT d' ss' ks' vs') -> Q (CrOk d') sp') ->
    cwp fl (so_map_do_insert K V EK EV d pos key nv) sp Q.
  Proof.
    intros HM Hpos VK VV Hlen HQ.
    destruct d as [di dl hs0 hk0 hv0]. pose proof HM as [HS HL [SK SV]].
    destruct t as [ls lk lv ln]. cbn [ct_states ct_keys ct_values ct_len cm_len] in *.
    assert (Hp : (N.to_nat pos < length ls)%nat) by (unfold lenN in Hpos; lia).
    destruct (BytesProofs.nth_error_lt_Some ls (N.to_nat pos)) as (s0 & Es); [lia|].
    destruct (BytesProofs.nth_error_lt_Some lk (N.to_nat pos)) as (k0 & Ek); [lia|].
    destruct (BytesProofs.nth_error_lt_Some lv (N.to_nat pos)) as (v0 & Ev); [lia|].
    unfold so_map_do_insert.
    apply cwp_bind. unfold cm_set_state. apply cwp_bind.
    eapply cv_replace_spec; [apply HS|exact I|]. rewrite Es.
    intros ss' sp1 R1 D1 F1. cbn [kont cwp].
    destruct (msep_update_s K V EK EV LK LV _ _ _ _ _ _ _ _ _ _ _ _ HS eq_refl R1 F1) as [HS1 Ff1].
    apply cwp_bind. unfold cm_set_key. apply cwp_bind.
    eapply cv_replace_spec; [apply HS1|exact VK|]. rewrite Ek.
    intros ks' sp2 R2 D2 F2. cbn [kont cwp].
    destruct (msep_update_k K V EK EV LK LV _ _ _ _ _ _ _ _ _ _ _ _ HS1 eq_refl R2 F2) as [HS2 Ff2].
    apply cwp_bind. unfold cm_set_value. apply cwp_bind.
    eapply cv_replace_spec; [apply HS2|exact VV|]. rewrite Ev.
    intros vs' sp3 R3 D3 F3. cbn [kont cwp].
    destruct (msep_update_v K V EK EV LK LV _ _ _ _ _ _ _ _ _ _ _ _ HS2 eq_refl R3 F3) as [HS3 Ff3].
    eapply cm_set_len_spec; [exact HS3|cbn [cm_len]; lia|].
    intros sp4 HS4 D4 F4.
    eapply HQ; [|reflexivity|lia|eapply frame_trans; [exact Ff1|eapply frame_trans; [exact Ff2|eapply frame_trans; [exact Ff3|exact F4]]]].
    constructor; cbn [ct_states ct_keys ct_values ct_len cm_len cm_with with_s with_k with_v cm_states cm_keys cm_values cm_index] in *.
    - exact HS4.
    - rewrite HL. reflexivity.
    - rewrite !cl_upd_length. auto.
  Qed.

  Variable keqb : K -> K -> bool.
  Notation loopM := (ior_loop K V keqb om_fixed).

  Definition so_key_absent (sl : list (slot K V)) (key : K) : Prop :=
    forall j k v, nth j sl Empty = Valid k v -> keqb k key = false.

  (* the program's probe loop follows OpenMap.v's ior_loop slot by slot.  The key being absent, no Valid slot compares
     equal: the branch that reads and replaces a value is never taken, the loop only reads, and it returns None as the
     replaced value whatever ior_loop's result says *)
  Lemma so_ior_loop_spec d ss ks vs ls lk lv key nv cap start sp :
    msepT (hp sp) d ss ks vs ls lk lv -> length lk = length ls -> length lv = length ls ->
    N.to_nat cap = length ls -> so_key_absent (slotsT ls lk lv) key ->
    forall fuel pos free r (Q : cres (option N * option V * bool) -> spec -> Prop),
      pos < cap ->
      loopM fuel (slotsT ls lk lv) (N.to_nat cap) (N.to_nat start) key (fun _ => true) nv (N.to_nat pos)
            (option_map N.to_nat free) = Done r ->
      Q (CrOk (option_map N.of_nat (ior_free K V r), None, ior_full_cycle K V r)) sp ->
      cwp fl (so_ior_loop K V EK EV keqb fuel d key nv cap start pos free) sp Q.
  Proof.
    intros HS L1 L2 Hc Habs. induction fuel as [|f IH]; intros pos free r Q Hpos Hr HQ; cbn [ior_loop] in Hr; [discriminate|].
    cbn [so_ior_loop]. cbn [fix_insert_wrap_guard om_fixed andb] in Hr.
    destruct (ct_slots_nth K V ls lk lv (N.to_nat pos) L1 L2) as (s & k & v & Es & Ek & Ev & En); [lia|].
    rewrite En in Hr.
    assert (Hnext : N.to_nat (so_next_pos cap pos) = next_pos (N.to_nat cap) (N.to_nat pos)).
    { unfold so_next_pos, next_pos. destruct (N.eqb_spec pos (cap - 1)) as [E|E]; destruct (Nat.eqb_spec (N.to_nat pos) (N.to_nat cap - 1)) as [E'|E']; lia. }
    assert (Hnlt : so_next_pos cap pos < cap).
    { unfold so_next_pos. destruct (N.eqb_spec pos (cap - 1)); lia. }
    assert (Hcont : forall free',
      (if (next_pos (N.to_nat cap) (N.to_nat pos) =? N.to_nat start)%nat
       then Done {| ior_free := option_map N.to_nat free'; ior_ret := None; ior_slots := slotsT ls lk lv; ior_full_cycle := true |}
       else loopM f (slotsT ls lk lv) (N.to_nat cap) (N.to_nat start) key (fun _ => true) nv
                  (next_pos (N.to_nat cap) (N.to_nat pos)) (option_map N.to_nat free')) = Done r ->
      cwp fl (if so_next_pos cap pos =? start then CRet (free', None, true)
              else so_ior_loop K V EK EV keqb f d key nv cap start (so_next_pos cap pos) free') sp Q).
    { intros free' Hr'. rewrite <- Hnext in Hr'.
      destruct (N.eqb_spec (so_next_pos cap pos) start) as [E|E];
        destruct (Nat.eqb_spec (N.to_nat (so_next_pos cap pos)) (N.to_nat start)) as [E'|E']; try lia.
      - inversion Hr' as [Hr2]. rewrite <- Hr2 in HQ. cbn [ior_free ior_full_cycle] in HQ. rewrite omap_to_of in HQ. exact HQ.
      - eapply IH; [exact Hnlt|exact Hr'|exact HQ]. }
    apply cwp_bind. unfold cm_state. eapply cv_value_spec; [apply HS|].
    rewrite Es. cbn [kont]. destruct s; cbn [slot_of] in Hr, En.
    - inversion Hr as [Hr2]. rewrite <- Hr2 in HQ. cbn [ior_free ior_full_cycle option_map] in HQ. rewrite N2Nat.id in HQ. exact HQ.
    - apply cwp_bind. unfold cm_key. eapply cv_value_spec; [apply HS|].
      rewrite Ek. cbn [kont]. rewrite (Habs _ _ _ En) in *. cbn [andb] in Hr. apply Hcont. exact Hr.
    - apply Hcont. destruct free as [n|]; cbn [option_map] in *; exact Hr.
  Qed.

  Variable h : K -> N.

  Definition so_no_full_cycle (t : cm_table K V) (key : K) (nv : V) : Prop :=
    let sl := slotsT (ct_states t) (ct_keys t) (ct_values t) in
    forall r, loopM (length sl) sl (length sl) (hpos K h key (length sl)) key (fun _ => true) nv (hpos K h key (length sl)) None = Done r ->
              ior_full_cycle K V r = false.
  Definition so_no_grow (t : cm_table K V) : Prop := ct_len t < so_max_len (lenN (ct_states t)).
End MapInsertProof.
Arguments mrep_capacity {K V EK EV LK LV g d ss ks vs t}.
Arguments mrep_heq {K V EK EV LK LV g g' d ss ks vs t}.
