(* AdjOk.v — the hypotheses about the slot graph (Graph.v) that the search proofs (C14, C17)
   need, as one explicit predicate `adj_ok`, a boolean checker `adj_okb` with its soundness
   lemma (so concrete graphs are discharged by vm_compute), the derived facts about the
   adjacency chains, and a non-vacuity example.

   `adj_ok g` follows from the well-formedness invariant `wf` of GraphSim.v (AdjOkWf.v):
   for every existing node n
     - the out-list / in-list chain starting at first_edge_from / first_edge_to and following
       next_edge_from / next_edge_to reaches 0 before the fuel `length (g_from g)` runs out,
     - it has no duplicates and enumerates exactly the existing edges e with
       edge_from g e = n  (resp. edge_to g e = n),
   and the endpoints of every existing edge are existing nodes.
   (That ids of existing elements are non-zero with magnitude < capacity is part of
   `valid_index`, hence of `node_id` / `edge_id`.) *)
From Agdb Require Import Bytes Graph GraphArr.
From Coq Require Import ZifyBool ZifyNat ZifyN.
Ltac Zify.zify_post_hook ::= Z.div_mod_to_equations.
Open Scope Z_scope.

(* existing node / edge ids (DbImpl::graph_index: the sign selects the check) *)
Definition node_id (g : graph) (n : Z) : bool := (0 <? n) && is_node g n.
Definition edge_id (g : graph) (e : Z) : bool := (e <? 0) && is_edge g e.
Definition elem_id (g : graph) (x : Z) : bool := node_id g x || edge_id g x.

Lemma graph_index_elem_id : forall g x, graph_index g x = elem_id g x.
Proof.
  intros g x. unfold graph_index, elem_id, node_id, edge_id.
  destruct (x <? 0) eqn:E1; destruct (0 <? x) eqn:E2; cbn [andb orb];
    rewrite ?orb_false_r; try reflexivity; lia.
Qed.

(* the chain starting at e reaches 0 within the fuel *)
Fixpoint chain_ends (next : Z -> Z) (fuel : nat) (e : Z) : bool :=
  match fuel with
  | O => false
  | S f => if e =? 0 then true else chain_ends next f (next e)
  end.

Record adj_ok (g : graph) : Prop := {
  ao_out_ends : forall n, node_id g n = true ->
      chain_ends (next_edge_from g) (length (g_from g)) (first_edge_from g n) = true;
  ao_in_ends : forall n, node_id g n = true ->
      chain_ends (next_edge_to g) (length (g_from g)) (first_edge_to g n) = true;
  ao_out_nodup : forall n, node_id g n = true -> NoDup (out_edges g n);
  ao_in_nodup : forall n, node_id g n = true -> NoDup (in_edges g n);
  ao_out_spec : forall n e, node_id g n = true ->
      (In e (out_edges g n) <-> edge_id g e = true /\ edge_from g e = n);
  ao_in_spec : forall n e, node_id g n = true ->
      (In e (in_edges g n) <-> edge_id g e = true /\ edge_to g e = n);
  ao_from_node : forall e, edge_id g e = true -> node_id g (edge_from g e) = true;
  ao_to_node : forall e, edge_id g e = true -> node_id g (edge_to g e) = true
}.

Fixpoint nodupb (l : list Z) : bool :=
  match l with
  | [] => true
  | x :: r => negb (existsb (Z.eqb x) r) && nodupb r
  end.

Definition adj_okb (g : graph) : bool :=
  let cap := length (g_from g) in
  forallb (fun x =>
    if 0 <? x then
      chain_ends (next_edge_from g) cap (first_edge_from g x)
      && chain_ends (next_edge_to g) cap (first_edge_to g x)
      && nodupb (out_edges g x) && nodupb (in_edges g x)
      && forallb (fun e => edge_id g e && (edge_from g e =? x)) (out_edges g x)
      && forallb (fun e => edge_id g e && (edge_to g e =? x)) (in_edges g x)
    else
      node_id g (edge_from g x) && node_id g (edge_to g x)
      && existsb (Z.eqb x) (out_edges g (edge_from g x))
      && existsb (Z.eqb x) (in_edges g (edge_to g x))) (elements g).

Lemma existsb_eqb_In : forall x l, existsb (Z.eqb x) l = true <-> In x l.
Proof.
  intros x l. rewrite existsb_exists. split.
  - intros [y [Hy E]]. apply Z.eqb_eq in E. subst. exact Hy.
  - intros H. exists x. split; [exact H | apply Z.eqb_refl].
Qed.

Lemma nodupb_NoDup : forall l, nodupb l = true -> NoDup l.
Proof.
  induction l as [|x r IH]; cbn [nodupb]; intros H.
  - constructor.
  - apply andb_prop in H. destruct H as [H1 H2]. constructor.
    + intros Hin. apply existsb_eqb_In in Hin. rewrite Hin in H1. discriminate.
    + apply IH. exact H2.
Qed.

Lemma zabs_nat_opp : forall i, zabs_nat (- i) = zabs_nat i.
Proof. exact zabs_nat_neg. Qed.

Lemma get_opp : forall l i, get l (- i) = get l i.
Proof. exact get_neg. Qed.

Lemma valid_index_opp : forall g i, valid_index g (- i) = valid_index g i.
Proof.
  intros. unfold valid_index, fmeta. rewrite get_opp, Z.abs_opp.
  replace (- i =? 0) with (i =? 0) by lia. reflexivity.
Qed.

Lemma node_id_bounds : forall g n, node_id g n = true ->
  0 < n /\ n < capacity g /\ 0 <= fmeta g n /\ 0 <= from g n.
Proof.
  intros g n H. unfold node_id, is_node, valid_index in H.
  repeat (apply andb_prop in H; destruct H as [H ?]). lia.
Qed.

Lemma edge_id_bounds : forall g e, edge_id g e = true ->
  e < 0 /\ - e < capacity g /\ 0 <= fmeta g e /\ from g e < 0.
Proof.
  intros g e H. unfold edge_id, is_edge, valid_index in H.
  repeat (apply andb_prop in H; destruct H as [H ?]). lia.
Qed.

Lemma node_edge_disjoint : forall g x, node_id g x = true -> edge_id g x = true -> False.
Proof.
  intros g x Hn He. apply node_id_bounds in Hn. apply edge_id_bounds in He. lia.
Qed.

(* distinct existing elements occupy distinct slots *)
Lemma elem_id_abs_inj : forall g x y, elem_id g x = true -> elem_id g y = true -> Z.abs x = Z.abs y -> x = y.
Proof.
  intros g x y Hx Hy Habs. unfold elem_id in *.
  apply orb_prop in Hx. apply orb_prop in Hy.
  destruct Hx as [Hx|Hx]; destruct Hy as [Hy|Hy].
  - apply node_id_bounds in Hx. apply node_id_bounds in Hy. lia.
  - exfalso. apply node_id_bounds in Hx. apply edge_id_bounds in Hy.
    assert (E : y = - x) by lia. subst y. unfold from in *. rewrite get_opp in Hy. lia.
  - exfalso. apply edge_id_bounds in Hx. apply node_id_bounds in Hy.
    assert (E : x = - y) by lia. subst x. unfold from in *. rewrite get_opp in Hx. lia.
  - apply edge_id_bounds in Hx. apply edge_id_bounds in Hy. lia.
Qed.

Lemma elem_id_slot : forall g x, elem_id g x = true -> (1 <= Z.to_nat (Z.abs x) < length (g_from g))%nat.
Proof.
  intros g x H. unfold elem_id in H. apply orb_prop in H. destruct H as [H|H].
  - apply node_id_bounds in H. unfold capacity in H. lia.
  - apply edge_id_bounds in H. unfold capacity in H. lia.
Qed.

Lemma node_id_in_elements : forall g n, node_id g n = true -> In n (elements g).
Proof.
  intros g n H. pose proof (node_id_bounds g n H) as (H1 & H2 & H3 & H4).
  unfold elements. apply in_flat_map. exists (Z.to_nat n). split.
  - apply in_seq. unfold capacity in H2. lia.
  - unfold element_at. rewrite Z2Nat.id by lia.
    destruct (fmeta g n <? 0) eqn:E1; [lia|].
    destruct (from g n <? 0) eqn:E2; [lia|]. left. reflexivity.
Qed.

Lemma edge_id_in_elements : forall g e, edge_id g e = true -> In e (elements g).
Proof.
  intros g e H. pose proof (edge_id_bounds g e H) as (H1 & H2 & H3 & H4).
  unfold elements. apply in_flat_map. exists (Z.to_nat (- e)). split.
  - apply in_seq. unfold capacity in H2. lia.
  - unfold element_at. rewrite Z2Nat.id by lia.
    unfold fmeta, from in *. rewrite !get_opp.
    destruct (get (g_fmeta g) e <? 0) eqn:E1; [lia|].
    destruct (get (g_from g) e <? 0) eqn:E2; [|lia]. left. lia.
Qed.

Lemma adj_okb_sound : forall g, adj_okb g = true -> adj_ok g.
Proof.
  intros g H. unfold adj_okb in H. rewrite forallb_forall in H.
  assert (HN : forall n, node_id g n = true ->
      chain_ends (next_edge_from g) (length (g_from g)) (first_edge_from g n) = true
      /\ chain_ends (next_edge_to g) (length (g_from g)) (first_edge_to g n) = true
      /\ nodupb (out_edges g n) = true /\ nodupb (in_edges g n) = true
      /\ forallb (fun e => edge_id g e && (edge_from g e =? n)) (out_edges g n) = true
      /\ forallb (fun e => edge_id g e && (edge_to g e =? n)) (in_edges g n) = true).
  { intros n Hn. specialize (H n (node_id_in_elements g n Hn)).
    pose proof (node_id_bounds g n Hn) as (H1 & _).
    destruct (0 <? n) eqn:E; [|lia].
    repeat (apply andb_prop in H; destruct H as [H ?]). repeat split; assumption. }
  assert (HE : forall e, edge_id g e = true ->
      node_id g (edge_from g e) = true /\ node_id g (edge_to g e) = true
      /\ In e (out_edges g (edge_from g e)) /\ In e (in_edges g (edge_to g e))).
  { intros e He. specialize (H e (edge_id_in_elements g e He)).
    pose proof (edge_id_bounds g e He) as (H1 & _).
    destruct (0 <? e) eqn:E; [lia|].
    apply andb_prop in H. destruct H as [H Hd]. apply andb_prop in H. destruct H as [H Hc].
    apply andb_prop in H. destruct H as [Ha Hb].
    repeat split; try assumption; apply existsb_eqb_In; assumption. }
  constructor.
  - intros n Hn. apply HN. exact Hn.
  - intros n Hn. apply HN. exact Hn.
  - intros n Hn. apply nodupb_NoDup. apply HN. exact Hn.
  - intros n Hn. apply nodupb_NoDup. apply HN. exact Hn.
  - intros n e Hn. split.
    + intros Hin. destruct (HN n Hn) as (_ & _ & _ & _ & Hf & _).
      rewrite forallb_forall in Hf. specialize (Hf e Hin).
      apply andb_prop in Hf. destruct Hf as [Hf1 Hf2]. split; [exact Hf1 | lia].
    + intros [He Hfrom]. subst n. apply HE. exact He.
  - intros n e Hn. split.
    + intros Hin. destruct (HN n Hn) as (_ & _ & _ & _ & _ & Hf).
      rewrite forallb_forall in Hf. specialize (Hf e Hin).
      apply andb_prop in Hf. destruct Hf as [Hf1 Hf2]. split; [exact Hf1 | lia].
    + intros [He Hto]. subst n. apply HE. exact He.
  - intros e He. apply HE. exact He.
  - intros e He. apply HE. exact He.
Qed.

Section Chain.
  Variable next : Z -> Z.

  Lemma chain_ends_mono : forall f f' a, chain_ends next f a = true -> (f <= f')%nat ->
    chain_ends next f' a = true /\ edge_list next f' a = edge_list next f a.
  Proof.
    induction f as [|f IH]; intros f' a H Hle; cbn [chain_ends] in H; [discriminate|].
    destruct f' as [|f']; [lia|]. cbn [chain_ends edge_list].
    destruct (a =? 0) eqn:E; [split; reflexivity|].
    destruct (IH f' (next a) H ltac:(lia)) as [H1 H2]. split; [exact H1 | rewrite H2; reflexivity].
  Qed.

  Lemma edge_list_nonzero : forall f a e, In e (edge_list next f a) -> e <> 0.
  Proof.
    induction f as [|f IH]; intros a e H; cbn [edge_list] in H; [contradiction|].
    destruct (a =? 0) eqn:E; [contradiction|]. destruct H as [H|H]; [lia|]. eapply IH; eassumption.
  Qed.

  (* every suffix of an ending chain is itself the (fuel-independent) chain of its head *)
  Lemma chain_split : forall f a l1 e l2, chain_ends next f a = true ->
    edge_list next f a = l1 ++ e :: l2 ->
    forall F, (f <= F)%nat ->
      chain_ends next F e = true /\ edge_list next F e = e :: l2 /\
      chain_ends next F (next e) = true /\ edge_list next F (next e) = l2.
  Proof.
    induction f as [|f IH]; intros a l1 e l2 H Hl F HF; cbn [chain_ends] in H; [discriminate|].
    cbn [edge_list] in Hl. destruct (a =? 0) eqn:E.
    { destruct l1; discriminate. }
    destruct l1 as [|x l1]; cbn [app] in Hl.
    - injection Hl as Ha Hl. subst a.
      destruct (chain_ends_mono f F (next e) H ltac:(lia)) as [H1 H2].
      assert (H3 : chain_ends next (S f) e = true) by (cbn [chain_ends]; rewrite E; exact H).
      destruct (chain_ends_mono (S f) F e H3 HF) as [H4 H5].
      repeat split; try assumption.
      + rewrite H5. cbn [edge_list]. rewrite E, Hl. reflexivity.
      + rewrite H2. exact Hl.
    - injection Hl as Ha Hl. apply (IH (next a) l1 e l2 H Hl F). lia.
  Qed.

  Lemma chain_next_in : forall f a e, chain_ends next f a = true ->
    In e (edge_list next f a) -> next e <> 0 -> In (next e) (edge_list next f a).
  Proof.
    intros f a e H Hin Hnz. apply in_split in Hin. destruct Hin as (l1 & l2 & Hl).
    destruct (chain_split f a l1 e l2 H Hl f (le_n _)) as (_ & _ & H3 & H4).
    rewrite Hl. apply in_or_app. right. right.
    rewrite <- H4. destruct f; cbn [chain_ends] in H3; [discriminate|].
    cbn [edge_list]. destruct (next e =? 0) eqn:E; [lia|]. left. reflexivity.
  Qed.
End Chain.

(* the rest of the sibling chain starting at (and including) edge e *)
Definition sibs_from (g : graph) (e : Z) : list Z := edge_list (next_edge_from g) (length (g_from g)) e.
Definition sibs_to (g : graph) (e : Z) : list Z := edge_list (next_edge_to g) (length (g_from g)) e.

Lemma out_edges_sibs : forall g n, out_edges g n = sibs_from g (first_edge_from g n).
Proof. reflexivity. Qed.
Lemma in_edges_sibs : forall g n, in_edges g n = sibs_to g (first_edge_to g n).
Proof. reflexivity. Qed.

Lemma edge_list_zero : forall next f, edge_list next f 0 = [].
Proof. intros next f. destruct f; reflexivity. Qed.

Lemma sibs_from_zero : forall g, sibs_from g 0 = [].
Proof. intros. apply edge_list_zero. Qed.
Lemma sibs_to_zero : forall g, sibs_to g 0 = [].
Proof. intros. apply edge_list_zero. Qed.

(* One side of the adjacency: `first` / `next` thread the lists, `ends e` is the node in whose list
   the edge e stands.  adj_ok is this for the out-lists and for the in-lists. *)
Record side_ok (g : graph) (first next ends : Z -> Z) : Prop := {
  so_ends : forall n, node_id g n = true -> chain_ends next (length (g_from g)) (first n) = true;
  so_spec : forall n e, node_id g n = true ->
      (In e (edge_list next (length (g_from g)) (first n)) <-> edge_id g e = true /\ ends e = n);
  so_node : forall e, edge_id g e = true -> node_id g (ends e) = true
}.

Lemma adj_ok_out : forall g, adj_ok g -> side_ok g (first_edge_from g) (next_edge_from g) (edge_from g).
Proof. intros g H. constructor; apply H. Qed.
Lemma adj_ok_in : forall g, adj_ok g -> side_ok g (first_edge_to g) (next_edge_to g) (edge_to g).
Proof. intros g H. constructor; apply H. Qed.

Section Side.
  Variables (g : graph) (first next ends : Z -> Z).
  Hypothesis S : side_ok g first next ends.
  Local Notation sibs e := (edge_list next (length (g_from g)) e).

  Lemma side_edge : forall n e, node_id g n = true -> In e (sibs (first n)) -> edge_id g e = true.
  Proof. intros n e Hn H. apply (so_spec _ _ _ _ S n e Hn) in H. tauto. Qed.

  Lemma side_in : forall e, edge_id g e = true -> In e (sibs (first (ends e))).
  Proof. intros e He. apply (so_spec _ _ _ _ S _ e (so_node _ _ _ _ S e He)). tauto. Qed.

  (* an existing edge's chain is a suffix of the list it stands in *)
  Lemma side_sibs : forall e, edge_id g e = true ->
    exists l1, sibs (first (ends e)) = l1 ++ sibs e /\ sibs e = e :: sibs (next e).
  Proof.
    intros e He. destruct (in_split _ _ (side_in e He)) as (l1 & l2 & Hl).
    pose proof (so_ends _ _ _ _ S _ (so_node _ _ _ _ S e He)) as Hends.
    destruct (chain_split next _ _ l1 e l2 Hends Hl _ (le_n _)) as (_ & H2 & _ & H4).
    exists l1. rewrite H2, H4. split; [exact Hl | reflexivity].
  Qed.

  (* the next sibling of an existing edge is 0 or an existing edge of the same list *)
  Lemma side_next : forall e, edge_id g e = true -> next e <> 0 ->
    edge_id g (next e) = true /\ ends (next e) = ends e.
  Proof.
    intros e He Hnz. pose proof (so_node _ _ _ _ S e He) as Hn. apply (so_spec _ _ _ _ S _ _ Hn).
    apply chain_next_in; [apply (so_ends _ _ _ _ S _ Hn) | apply side_in, He | exact Hnz].
  Qed.

  (* the first edge of an existing node is 0 or an existing edge of that node *)
  Lemma side_first : forall n, node_id g n = true -> first n <> 0 ->
    edge_id g (first n) = true /\ ends (first n) = n.
  Proof.
    intros n Hn Hnz. apply (so_spec _ _ _ _ S _ _ Hn). pose proof (so_ends _ _ _ _ S n Hn) as H.
    destruct (length (g_from g)); cbn [chain_ends] in H; [discriminate|].
    cbn [edge_list]. destruct (first n =? 0) eqn:E; [lia|]. left. reflexivity.
  Qed.
End Side.

Section Derived.
  Variable g : graph.
  Hypothesis Hok : adj_ok g.

  Lemma out_edge_edge : forall n e, node_id g n = true -> In e (out_edges g n) -> edge_id g e = true.
  Proof. exact (side_edge _ _ _ _ (adj_ok_out g Hok)). Qed.
  Lemma in_edge_edge : forall n e, node_id g n = true -> In e (in_edges g n) -> edge_id g e = true.
  Proof. exact (side_edge _ _ _ _ (adj_ok_in g Hok)). Qed.

  Lemma edge_in_out : forall e, edge_id g e = true -> In e (out_edges g (edge_from g e)).
  Proof. exact (side_in _ _ _ _ (adj_ok_out g Hok)). Qed.
  Lemma edge_in_in : forall e, edge_id g e = true -> In e (in_edges g (edge_to g e)).
  Proof. exact (side_in _ _ _ _ (adj_ok_in g Hok)). Qed.

  Lemma sibs_from_edge : forall e, edge_id g e = true ->
    exists l1, out_edges g (edge_from g e) = l1 ++ sibs_from g e /\
               sibs_from g e = e :: sibs_from g (next_edge_from g e).
  Proof. exact (side_sibs _ _ _ _ (adj_ok_out g Hok)). Qed.
  Lemma sibs_to_edge : forall e, edge_id g e = true ->
    exists l1, in_edges g (edge_to g e) = l1 ++ sibs_to g e /\
               sibs_to g e = e :: sibs_to g (next_edge_to g e).
  Proof. exact (side_sibs _ _ _ _ (adj_ok_in g Hok)). Qed.

  Lemma next_from_edge : forall e, edge_id g e = true -> next_edge_from g e <> 0 ->
    edge_id g (next_edge_from g e) = true /\ edge_from g (next_edge_from g e) = edge_from g e.
  Proof. exact (side_next _ _ _ _ (adj_ok_out g Hok)). Qed.
  Lemma next_to_edge : forall e, edge_id g e = true -> next_edge_to g e <> 0 ->
    edge_id g (next_edge_to g e) = true /\ edge_to g (next_edge_to g e) = edge_to g e.
  Proof. exact (side_next _ _ _ _ (adj_ok_in g Hok)). Qed.

  Lemma first_from_edge : forall n, node_id g n = true -> first_edge_from g n <> 0 ->
    edge_id g (first_edge_from g n) = true /\ edge_from g (first_edge_from g n) = n.
  Proof. exact (side_first _ _ _ _ (adj_ok_out g Hok)). Qed.
  Lemma first_to_edge : forall n, node_id g n = true -> first_edge_to g n <> 0 ->
    edge_id g (first_edge_to g n) = true /\ edge_to g (first_edge_to g n) = n.
  Proof. exact (side_first _ _ _ _ (adj_ok_in g Hok)). Qed.
End Derived.

(* non-vacuity: a concrete graph built with the real operations *)

Definition ins_node (g : graph) : graph := snd (insert_node g).
Definition ins_edge (g : graph) (f t : Z) : graph :=
  match insert_edge g f t with Some (_, g') => g' | None => g end.
Definition rem_edge (g : graph) (e : Z) : graph :=
  match remove_edge g e with Some g' => g' | None => g end.
Definition rem_node (g : graph) (n : Z) : graph :=
  match remove_node g n with Some g' => g' | None => g end.

(* three nodes; parallel edges, a self-loop, a cycle; one edge removed and its slot reused *)
Definition example_graph : graph :=
  let g := ins_node (ins_node (ins_node graph_new)) in        (* nodes 1 2 3 *)
  let g := ins_edge (ins_edge (ins_edge g 1 2) 1 2) 2 3 in     (* -4: 1->2, -5: 1->2, -6: 2->3 *)
  let g := ins_edge (ins_edge g 3 1) 2 2 in                    (* -7: 3->1, -8: 2->2 *)
  let g := rem_edge g (-5) in
  ins_edge g 1 3.                                              (* reuses slot 5: -5: 1->3 *)

Example example_graph_adj_ok : adj_ok example_graph.
Proof. apply adj_okb_sound. vm_compute. reflexivity. Qed.

Example example_graph_shape :
  out_edges example_graph 1 = [-5; -4] /\ out_edges example_graph 2 = [-8; -6] /\
  in_edges example_graph 2 = [-8; -4] /\ elements example_graph = [1; 2; 3; -4; -5; -6; -7; -8].
Proof. vm_compute. repeat split. Qed.
