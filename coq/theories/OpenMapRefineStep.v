(* OpenMapRefineStep.v — every operation of the open-addressing table preserves the invariant
   PInv = (len = #Valid < capacity, capacity 0 or >= mincap) + probe chain, completes within its fuel, and acts
   on the multiset of stored pairs `abs` exactly as OpenMapSpec.v says (including across grow, shrink and the
   in-place rehash). *)
From Coq Require Import List NArith ZArith Arith Bool Lia ZifyBool ZifyNat ZifyN Permutation.
Import ListNotations.
From Agdb Require Import OpenMap OpenMapProofs OpenMapSpec OpenMapRefineBase OpenMapRefineOps.
Ltac Zify.zify_post_hook ::= Z.div_mod_to_equations.

Section SlotFacts.
  Variables K V : Type.

  Lemma entries_nth_in : forall (sl : list (slot K V)) p k v, p < length sl -> nth p sl Empty = Valid k v ->
    In (k, v) (entries K V sl).
  Proof.
    induction sl as [|s t IH]; intros [|p] k v Hp Hn; cbn [length] in Hp; try lia; cbn [nth] in Hn;
      rewrite entries_cons; apply in_or_app.
    - left. subst s. left. reflexivity.
    - right. apply (IH p); [lia|exact Hn].
  Qed.

  Lemma entries_in_nth : forall (sl : list (slot K V)) k v, In (k, v) (entries K V sl) ->
    exists p, p < length sl /\ nth p sl Empty = Valid k v.
  Proof.
    induction sl as [|s t IH]; intros k v Hin; [contradiction|].
    rewrite entries_cons in Hin. apply in_app_or in Hin. destruct Hin as [Hin|Hin].
    - exists 0. split; [cbn [length]; lia|]. destruct s as [| |k' v']; cbn in Hin; try contradiction.
      destruct Hin as [Heq|[]]. inversion Heq; subst. reflexivity.
    - destruct (IH k v Hin) as [p [Hp Hn]]. exists (S p). split; [cbn [length]; lia|exact Hn].
  Qed.
End SlotFacts.

Section AbsFacts.
  Variables K V : Type.
  Variable keqb : K -> K -> bool.
  Variable veqb : V -> V -> bool.
  Hypothesis keqb_eq : forall a b, keqb a b = true <-> a = b.
  Hypothesis veqb_eq : forall a b, veqb a b = true <-> a = b.

  Notation vals := (mm_values K V keqb).
  Notation rem1 := (mm_remove_one K V keqb veqb).

  Lemma keqb_refl : forall k, keqb k k = true.
  Proof. intros. apply keqb_eq. reflexivity. Qed.
  Lemma veqb_refl : forall v, veqb v v = true.
  Proof. intros. apply veqb_eq. reflexivity. Qed.

  Lemma in_vals : forall k w s, In w (vals k s) <-> In (k, w) s.
  Proof.
    intros k w s. unfold mm_values. rewrite in_map_iff. split.
    - intros [[k' w'] [Hw Hin]]. cbn in Hw. subst w'. apply filter_In in Hin. destruct Hin as [Hin Hk].
      cbn in Hk. apply keqb_eq in Hk. subst k'. exact Hin.
    - intros Hin. exists (k, w). split; [reflexivity|]. apply filter_In. split; [exact Hin|]. cbn. apply keqb_refl.
  Qed.

  Lemma remove_one_in : forall k v s, In (k, v) s -> Permutation s ((k, v) :: rem1 k v s).
  Proof.
    intros k v. induction s as [|[k' v'] t IH]; intros Hin; [contradiction|]. cbn [mm_remove_one].
    destruct (keqb k' k && veqb v' v) eqn:Hm.
    - apply andb_true_iff in Hm. destruct Hm as [Hk Hv]. apply keqb_eq in Hk. apply veqb_eq in Hv. subst.
      apply Permutation_refl.
    - destruct Hin as [Heq|Hin].
      + inversion Heq; subst. rewrite keqb_refl, veqb_refl in Hm. discriminate.
      + eapply Permutation_trans; [apply perm_skip; apply IH; exact Hin|]. apply perm_swap.
  Qed.

  Lemma remove_one_notin : forall k v s, ~ In (k, v) s -> rem1 k v s = s.
  Proof.
    intros k v. induction s as [|[k' v'] t IH]; intros Hnin; [reflexivity|]. cbn [mm_remove_one].
    destruct (keqb k' k && veqb v' v) eqn:Hm.
    - apply andb_true_iff in Hm. destruct Hm as [Hk Hv]. apply keqb_eq in Hk. apply veqb_eq in Hv. subst.
      exfalso. apply Hnin. left. reflexivity.
    - f_equal. apply IH. intros Hin. apply Hnin. right. exact Hin.
  Qed.

  Lemma pair_in_dec : forall (x : K * V) s, In x s \/ ~ In x s.
  Proof.
    intros x s. destruct (in_dec (pair_eq_dec K V keqb veqb keqb_eq veqb_eq) x s); auto.
  Qed.

  Lemma remove_one_perm : forall k v s1 s2, Permutation s1 s2 -> Permutation (rem1 k v s1) (rem1 k v s2).
  Proof.
    intros k v s1 s2 HP. destruct (pair_in_dec (k, v) s1) as [Hin|Hnin].
    - pose proof (Permutation_in _ HP Hin) as Hin2.
      apply (Permutation_cons_inv (a := (k, v))).
      eapply Permutation_trans; [apply Permutation_sym; apply remove_one_in; exact Hin|].
      eapply Permutation_trans; [exact HP|]. apply remove_one_in; exact Hin2.
    - assert (Hnin2 : ~ In (k, v) s2) by (intros Hin2; apply Hnin; exact (Permutation_in _ (Permutation_sym HP) Hin2)).
      rewrite !remove_one_notin by assumption. exact HP.
  Qed.

  (* the multimap's steps do not depend on the order in which the pairs are listed *)
  Lemma mm_step_perm : forall s t o ob s', Permutation s t -> mm_step K V keqb veqb s o ob s' ->
    exists t', mm_step K V keqb veqb t o ob t' /\ Permutation s' t'.
  Proof.
    intros s t o ob s' HP Hs. pose proof (fun k => vals_perm K V keqb k s t HP) as HPv.
    destruct Hs as [k v|k p v w Hin Hp|k p v Hnone|k|k v|c|k Hnil|k w Hin|k l Hl];
      eexists; (split; [econstructor|]); try exact HP.
    - apply perm_skip. exact HP.
    - exact (Permutation_in _ (HPv k) Hin).
    - exact Hp.
    - apply perm_skip. apply remove_one_perm. exact HP.
    - intros w Hw. apply Hnone. exact (Permutation_in _ (Permutation_sym (HPv k)) Hw).
    - apply perm_skip. exact HP.
    - apply BytesProofs.Permutation_filter. exact HP.
    - apply remove_one_perm. exact HP.
    - apply Permutation_nil. rewrite <- Hnil. apply HPv.
    - exact (Permutation_in _ (HPv k) Hin).
    - exact (Permutation_trans Hl (HPv k)).
  Qed.

End AbsFacts.

Section Step.
  Variables K V : Type.
  Variable keqb : K -> K -> bool.
  Variable veqb : V -> V -> bool.
  Variable h : K -> N.
  Variable mincap : nat.
  Variable rv : om_revision.

  Hypothesis keqb_eq : forall a b, keqb a b = true <-> a = b.
  Hypothesis veqb_eq : forall a b, veqb a b = true <-> a = b.
  Hypothesis Hmin : 4 <= mincap.
  Hypothesis Hguard : fix_insert_wrap_guard rv = true.
  Hypothesis Hfin : fix_iter_finished rv = true.
  Notation isv := (is_valid K V).
  Notation E := (@Empty K V).
  Notation D := (@Deleted K V).
  Notation ents := (entries K V).
  Notation hp := (hpos K h).
  Notation chainh := (chain K V h).
  Notation cap := (capacity K V).
  Notation omapT := (omap K V).
  Notation vals := (mm_values K V keqb).
  Notation rem1 := (mm_remove_one K V keqb veqb).
  Notation cvs := (cv K V).

  (* the multiset of stored pairs *)
  Definition abs (m : omapT) : mm K V := ents (slots m).

  (* the invariant of every reachable table *)
  Definition PInv (m : omapT) : Prop := Inv K V mincap m /\ chainh (cap m) (slots m).

  (* the shape PInv takes for a non-empty table *)
  Definition Good (m : omapT) : Prop :=
    cvs (slots m) = len m /\ mincap <= cap m /\ len m < cap m /\ chainh (cap m) (slots m).

  Lemma Good_PInv : forall m, Good m -> PInv m.
  Proof. intros m [H1 [H2 [H3 H4]]]. split; [split; [exact H1|right; lia]|exact H4]. Qed.

  Lemma PInv_empty : PInv empty_map.
  Proof. split; [apply Inv_empty|apply chain_nil]. Qed.

  Lemma cap0_abs : forall m : omapT, cap m = 0 -> abs m = [].
  Proof. intros m Hc. unfold abs, capacity in *. destruct (slots m); [reflexivity|discriminate]. Qed.

  Lemma PInv_len : forall m, PInv m -> len m = length (abs m).
  Proof. intros m [[Hcv _] _]. rewrite <- Hcv. symmetry. apply entries_length. Qed.

  Lemma rehash_good : forall (m : omapT) c,
    cvs (slots m) = len m -> len m < Nat.max c mincap -> chainh (cap m) (slots m) ->
    exists m', rehash K V h mincap m c = Done m' /\ cap m' = Nat.max c mincap /\ len m' = len m /\
               Good m' /\ Permutation (abs m') (abs m).
  Proof.
    intros m c Hcv Hlt Hch.
    destruct (rehash_full K V keqb veqb h mincap keqb_eq veqb_eq m c Hcv Hlt Hch)
      as [m' [Hr [Hc [Hl [Hcv' [Hch' HP]]]]]].
    exists m'. repeat split; auto; lia.
  Qed.

  Lemma grow_good : forall m, PInv m ->
    exists m1, grow_if_full K V h mincap m = Done m1 /\ Good m1 /\ len m1 = len m /\ len m1 + 1 < cap m1 /\
               Permutation (abs m1) (abs m).
  Proof.
    intros m [[Hcv Hc] Hch]. unfold grow_if_full, max_len.
    pose proof (cv_le_length K V (slots m)) as Hle. fold (cap m) in Hle.
    destruct (Nat.leb_spec (cap m * 15 / 16) (len m)) as [Hfull|Hroom].
    - destruct (rehash_good m (cap m * 2) Hcv ltac:(lia) Hch) as [m' [Hr [Hc' [Hl [HG HP]]]]].
      exists m'. repeat (split; [assumption || lia|]). exact HP.
    - exists m. repeat split; auto using Permutation_refl; lia.
  Qed.

  Lemma shrink_good : forall m, Good m ->
    exists m', shrink_if_sparse K V h mincap m = Done m' /\ Good m' /\ Permutation (abs m') (abs m).
  Proof.
    intros m [Hcv [Hmc [Hlt Hch]]]. unfold shrink_if_sparse, min_len.
    destruct (Nat.leb_spec (len m) (cap m * 7 / 16)) as [Hs|Hs].
    - destruct (rehash_good m (cap m / 2) Hcv ltac:(lia) Hch) as [m' [Hr [Hc' [Hl [HG HP]]]]].
      exists m'. auto.
    - exists m. repeat split; auto using Permutation_refl.
  Qed.

  Lemma reclaim_good : forall m, Good m ->
    exists m', reclaim K V h mincap rv m = Done m' /\ Good m' /\ Permutation (abs m') (abs m).
  Proof.
    intros m [Hcv [Hmc [Hlt Hch]]]. unfold reclaim. destruct (fix_rehash_in_place rv).
    - destruct (rehash_in_place_full K V keqb veqb h keqb_eq veqb_eq m Hcv Hlt)
        as [m' [Hr [Hc [Hl [Hcv' [Hch' [_ HP]]]]]]].
      exists m'. split; [exact Hr|]. split; [repeat split; auto; lia|exact HP].
    - destruct (rehash_good m (cap m) Hcv ltac:(lia) Hch) as [m' [Hr [Hc' [Hl [HG HP]]]]].
      exists m'. auto.
  Qed.

  Lemma reserve_good : forall m c, PInv m ->
    exists m', reserve K V h mincap m c = Done m' /\ PInv m' /\ Permutation (abs m') (abs m).
  Proof.
    intros m c HI. unfold reserve.
    destruct (Nat.ltb_spec (cap m) c) as [Hlt|Hge]; [|exists m; split; [reflexivity|split; [exact HI|apply Permutation_refl]]].
    destruct HI as [[Hcv Hc] Hch].
    pose proof (cv_le_length K V (slots m)) as Hle. fold (cap m) in Hle.
    destruct (rehash_good m c Hcv ltac:(lia) Hch) as [m' [Hr [Hc' [Hl [HG HP]]]]].
    exists m'. split; [exact Hr|]. split; [apply Good_PInv; exact HG|exact HP].
  Qed.

  Lemma do_insert_good : forall sl n p k v,
    cvs sl = n -> mincap <= length sl -> n + 1 < length sl -> chainh (length sl) sl ->
    p < length sl -> isv (nth p sl E) = false ->
    (forall j, j < length sl -> dist (length sl) (hp k (length sl)) j < dist (length sl) (hp k (length sl)) p ->
               nth j sl E <> E) ->
    Good (do_insert K V sl n p k v) /\ Permutation (abs (do_insert K V sl n p k v)) ((k, v) :: ents sl).
  Proof.
    intros sl n p k v Hcv Hmc Hroom Hch Hp Hnv Hbefore.
    pose proof (entries_upd_valid K V sl p k v Hp Hnv) as HP.
    unfold do_insert, Good, abs, capacity. cbn [slots len]. rewrite upd_length.
    split; [|exact HP]. split.
    - rewrite (cv_upd_valid K V keqb veqb h) by assumption. lia.
    - split; [exact Hmc|]. split; [lia|]. apply chain_upd_valid; assumption.
  Qed.

  Theorem insert_spec : forall m k v, PInv m ->
    exists m', insert K V h mincap m k v = Done m' /\ PInv m' /\ Permutation (abs m') ((k, v) :: abs m).
  Proof.
    intros m k v HI. unfold insert, insert_fuel, probe_fuel.
    destruct (grow_good m HI) as [m1 [Hg [[Hcv [Hmc [Hlt Hch]]] [Hl [Hroom HP]]]]]. rewrite Hg.
    assert (Hex : cnt isv (slots m1) < length (slots m1)) by (fold (cvs (slots m1)); fold (cap m1); lia).
    destruct (cnt_lt_exists _ isv E (slots m1) Hex) as [q [Hq Hqf]].
    assert (Hc0 : 0 < cap m1) by lia.
    pose proof (hpos_lt K keqb h k (cap m1) Hc0) as Hs.
    destruct (free_index_loop_ok K V keqb veqb h (slots m1) (cap m1) q Hq Hqf (cap m1) (hp k (cap m1)) Hs)
      as [p [Hf [Hp [Hpf Hbefore]]]].
    { apply dist_lt; [exact Hs|exact Hq]. }
    rewrite Hf.
    destruct (do_insert_good (slots m1) (len m1) p k v) as [HG HP2]; auto; try (unfold capacity in *; lia).
    { intros j Hj Hd He. pose proof (Hbefore j Hj Hd) as Hv. rewrite He in Hv. discriminate. }
    eexists. split; [reflexivity|]. split; [apply Good_PInv; exact HG|].
    eapply Permutation_trans; [exact HP2|]. apply perm_skip. exact HP.
  Qed.

  Theorem insert_or_replace_spec : forall m k pred nv, PInv m ->
    exists m' r, insert_or_replace K V keqb h mincap rv m k pred nv = Done (m', r) /\ PInv m' /\
      match r with
      | Some w => In w (vals k (abs m)) /\ pred w = true /\
                  Permutation (abs m') ((k, nv) :: rem1 k w (abs m))
      | None => (forall w, In w (vals k (abs m)) -> pred w = false) /\
                Permutation (abs m') ((k, nv) :: abs m)
      end.
  Proof.
    intros m k pred nv HI. unfold insert_or_replace, insert_or_replace_fuel, probe_fuel.
    destruct (grow_good m HI) as [m1 [Hg [[Hcv [Hmc [Hlt Hch]]] [Hl [Hroom HP]]]]]. rewrite Hg.
    assert (Hc0 : 0 < cap m1) by lia.
    pose proof (hpos_lt K keqb h k (cap m1) Hc0) as Hs.
    destruct (ior_loop_spec K V keqb veqb h rv keqb_eq veqb_eq Hguard (cap m1) (slots m1) k pred nv Hc0 Hch
                (cap m1) (hp k (cap m1)) None Hs) as [r [Hr Hpost]].
    { rewrite rem_start. lia. }
    { intros j Hj Hd. rewrite dist_self in Hd. lia. }
    { intros j Hj Hd. rewrite dist_self in Hd. lia. }
    rewrite Hr. unfold ior_post in Hpost. unfold capacity in *.
    destruct (ior_ret K V r) as [w|] eqn:Hret.
    - (* replaced in place *)
      destruct Hpost as [p [Hp [Hv [Hpw [Hsl [Hfree Hfull]]]]]]. rewrite Hfree, Hfull, Hsl. cbn [andb].
      pose proof (entries_upd_replace K V (slots m1) p k w k nv Hp Hv) as HPr.
      pose proof (entries_nth_in K V (slots m1) p k w Hp Hv) as Hin.
      eexists. exists (Some w). split; [reflexivity|]. split; [|split; [|split; [exact Hpw|]]].
      + apply Good_PInv. unfold Good, capacity. cbn [slots len]. rewrite upd_length.
        split; [|split; [exact Hmc|split; [exact Hlt|]]].
        * rewrite (cv_upd_replace K V keqb veqb h) by (try rewrite Hv; auto). exact Hcv.
        * apply chain_upd_valid; [exact Hch|]. intros j Hj Hd. exact (Hch p k w Hp Hv j Hj Hd).
      + apply (in_vals K V keqb keqb_eq). exact (Permutation_in _ HP Hin).
      + unfold abs. cbn [slots].
        apply (Permutation_cons_inv (a := (k, w))).
        eapply Permutation_trans; [exact HPr|].
        eapply Permutation_trans; [|apply perm_swap]. apply perm_skip.
        eapply Permutation_trans; [apply (remove_one_in K V keqb veqb keqb_eq veqb_eq k w _ Hin)|].
        apply perm_skip. apply (remove_one_perm K V keqb veqb keqb_eq veqb_eq). exact HP.
    - (* inserted *)
      destruct Hpost as [Hsl [Hnorep Hfree]]. rewrite Hsl.
      assert (Hnone : forall w, In w (vals k (abs m)) -> pred w = false).
      { intros w Hw. apply (in_vals K V keqb keqb_eq) in Hw.
        pose proof (Permutation_in _ (Permutation_sym HP) Hw) as Hw1.
        destruct (entries_in_nth K V (slots m1) k w Hw1) as [p [Hp Hv]].
        pose proof (Hnorep p Hp) as Hrep. rewrite Hv in Hrep. cbn [rep] in Hrep.
        rewrite (keqb_refl K keqb keqb_eq) in Hrep. exact Hrep. }
      destruct (ior_free K V r) as [p|] eqn:Hfr.
      + destruct Hfree as [Hp [Hpv Hbefore]].
        destruct (do_insert_good (slots m1) (len m1) p k nv) as [HG HP2]; auto; try lia.
        assert (HP3 : Permutation (abs (do_insert K V (slots m1) (len m1) p k nv)) ((k, nv) :: abs m)).
        { eapply Permutation_trans; [exact HP2|]. apply perm_skip. exact HP. }
        destruct (ior_full_cycle K V r && fix_rehash_in_place rv).
        * destruct HG as [Hcv2 [Hmc2 [Hlt2 Hch2]]].
          destruct (rehash_in_place_full K V keqb veqb h keqb_eq veqb_eq _ Hcv2 Hlt2)
            as [m3 [Hr3 [Hc3 [Hl3 [Hcv3 [Hch3 [_ HP4]]]]]]].
          rewrite Hr3. exists m3, None. split; [reflexivity|]. split.
          -- apply Good_PInv. repeat split; auto; lia.
          -- split; [exact Hnone|]. eapply Permutation_trans; [exact HP4|exact HP3].
        * eexists. exists None. split; [reflexivity|]. split; [apply Good_PInv; exact HG|]. split; [exact Hnone|exact HP3].
      + exfalso. pose proof (cnt_all_prefix _ isv E (length (slots m1)) (slots m1) (le_n _) Hfree) as Hall.
        unfold cv in Hcv. lia.
  Qed.

  Theorem remove_key_spec : forall m k, PInv m ->
    exists m', remove_key K V keqb h mincap rv m k = Done m' /\ PInv m' /\
               Permutation (abs m') (mm_remove_key K V keqb k (abs m)).
  Proof.
    intros m k HI. unfold remove_key, remove_key_fuel, probe_fuel.
    destruct (Nat.eqb_spec (cap m) 0) as [Hz|Hnz].
    { exists m. split; [reflexivity|]. split; [exact HI|]. rewrite (cap0_abs m Hz). apply Permutation_refl. }
    destruct HI as [[Hcv [Hc|[Hmc Hlt]]] Hch]; [lia|].
    assert (Hc0 : 0 < cap m) by lia.
    pose proof (hpos_lt K keqb h k (cap m) Hc0) as Hs.
    destruct (remove_key_loop_ok K V keqb veqb h (cap m) (hp k (cap m)) k Hs (cap m) (hp k (cap m)) Hs
                ltac:(rewrite rem_start; lia) (slots m) (len m) eq_refl Hcv) as [sl [n [full [Hr [Hlen [Hcvn Hn]]]]]].
    destruct (remove_key_loop_spec K V keqb veqb h keqb_eq veqb_eq (cap m) k Hc0 (cap m) (hp k (cap m)) Hs
                ltac:(rewrite rem_start; lia) (slots m) (len m) eq_refl Hch)
      as [n2 [full2 Hr2]].
    { intros j Hj Hd. rewrite dist_self in Hd. lia. }
    rewrite Hr in Hr2. inversion Hr2; subst sl n2 full2. clear Hr2. rewrite Hr.
    assert (Habs : ents (del_key K V keqb k (slots m)) = mm_remove_key K V keqb k (abs m))
      by apply entries_del_key.
    assert (Hch1 : chainh (cap m) (del_key K V keqb k (slots m))) by (apply chain_del_key; exact Hch).
    destruct (Nat.eqb_spec n (len m)) as [Heq|Hne].
    - assert (HG1 : Good {| slots := del_key K V keqb k (slots m); len := len m |}).
      { unfold Good, capacity in *. cbn [slots len]. rewrite Hlen. repeat split; auto; lia. }
      destruct full; cbn [andb].
      + destruct (reclaim_good _ HG1) as [m2 [Hr2 [HG2 HP2]]]. rewrite Hr2.
        exists m2. split; [reflexivity|]. split; [apply Good_PInv; exact HG2|].
        unfold abs at 2 in HP2. cbn [slots] in HP2. rewrite Habs in HP2. exact HP2.
      + eexists. split; [reflexivity|]. split; [apply Good_PInv; exact HG1|].
        unfold abs at 1. cbn [slots]. rewrite Habs. apply Permutation_refl.
    - rewrite andb_false_r. cbn [slots].
      destruct (shrink_good {| slots := del_key K V keqb k (slots m); len := n |}) as [m' [Hr' [HG' HP']]].
      { unfold Good, capacity in *. cbn [slots len]. rewrite Hlen. repeat split; auto; lia. }
      exists m'. split; [exact Hr'|]. split; [apply Good_PInv; exact HG'|].
      unfold abs at 2 in HP'. cbn [slots] in HP'. rewrite Habs in HP'. exact HP'.
  Qed.

  Theorem remove_value_spec : forall m k v, PInv m ->
    exists m', remove_value K V keqb veqb h mincap rv m k v = Done m' /\ PInv m' /\
               Permutation (abs m') (rem1 k v (abs m)).
  Proof.
    intros m k v HI. unfold remove_value, remove_value_fuel, probe_fuel.
    destruct (Nat.eqb_spec (cap m) 0) as [Hz|Hnz].
    { exists m. split; [reflexivity|]. split; [exact HI|]. rewrite (cap0_abs m Hz). apply Permutation_refl. }
    pose proof HI as [[Hcv [Hc|[Hmc Hlt]]] Hch]; [lia|].
    assert (Hc0 : 0 < cap m) by lia.
    pose proof (hpos_lt K keqb h k (cap m) Hc0) as Hs.
    destruct (remove_value_loop_scan K V keqb veqb (cap m) (hp k (cap m)) k v (slots m) Hs
                (cap m) (hp k (cap m)) Hs ltac:(rewrite rem_start; lia)) as [[o b] [Hr Hpost]].
    { intros j Hj Hd. rewrite dist_self in Hd. lia. }
    rewrite Hr. cbn [fst] in Hpost. destruct o as [p|].
    - destruct Hpost as [Hp Hm]. unfold remove_index. unfold capacity in Hp.
      assert (Hv : nth p (slots m) E = Valid k v).
      { destruct (nth p (slots m) E) as [| |k' v']; cbn [mkv] in Hm; try discriminate.
        apply andb_true_iff in Hm. destruct Hm as [Hk Hv]. apply keqb_eq in Hk. apply veqb_eq in Hv. congruence. }
      pose proof (entries_upd_deleted K V (slots m) p k v Hp Hv) as HPd.
      pose proof (entries_nth_in K V (slots m) p k v Hp Hv) as Hin.
      destruct (shrink_good {| slots := upd p D (slots m); len := len m - 1 |}) as [m' [Hr' [HG' HP']]].
      { unfold Good, capacity in *. cbn [slots len]. rewrite upd_length.
        pose proof (cv_upd_deleted K V (slots m) p Hp ltac:(rewrite Hv; reflexivity)).
        repeat split; auto; try lia. apply chain_upd_deleted; exact Hch. }
      exists m'. split; [exact Hr'|]. split; [apply Good_PInv; exact HG'|].
      eapply Permutation_trans; [exact HP'|]. unfold abs. cbn [slots].
      apply (Permutation_cons_inv (a := (k, v))).
      eapply Permutation_trans; [exact HPd|]. apply (remove_one_in K V keqb veqb keqb_eq veqb_eq). exact Hin.
    - assert (Hnin : ~ In (k, v) (abs m)).
      { intros Hin. destruct (entries_in_nth K V (slots m) k v Hin) as [p [Hp Hv]].
        (* a slot holding k lies before every Empty slot of the probe *)
        pose proof (Hpost p Hp (fun e He Hee =>
          chain_empty_visited K V keqb h (cap m) (slots m) e p k v Hch Hc0 He Hee Hp Hv)) as Hm.
        rewrite Hv in Hm. cbn [mkv] in Hm.
        rewrite (keqb_refl K keqb keqb_eq), (veqb_refl V veqb veqb_eq) in Hm. discriminate. }
      rewrite (remove_one_notin K V keqb veqb keqb_eq veqb_eq k v _ Hnin).
      destruct b.
      + destruct (reclaim_good m) as [m' [Hr' [HG' HP']]]; [repeat split; auto|].
        exists m'. split; [exact Hr'|]. split; [apply Good_PInv; exact HG'|exact HP'].
      + exists m. split; [reflexivity|]. split; [exact HI|apply Permutation_refl].
  Qed.

  Theorem lookup_spec : forall m k, PInv m ->
    exists l, values K V keqb h rv m k = Done l /\ value K V keqb h m k = Done (hd_error l) /\
              Permutation l (vals k (abs m)).
  Proof.
    intros m k [_ Hch].
    destruct (values_spec K V keqb veqb h rv keqb_eq Hfin m k Hch) as [H1 [H2 H3]].
    eexists. split; [exact H1|]. split; [exact H2|exact H3].
  Qed.

End Step.
