(* C12 — Every stored value reads back bit-for-bit.
   The statements, each proved in a few lines from the theorems of theories/ValueIndexProofs.v;
   the closed witnesses are evaluated here.

   The model (theories/ValueIndex.v) is the 16-byte value index of
   db_value_index.rs and DbValue::store_db_value / load_db_value of db_value.rs over
   an ABSTRACT record store: an association list  storage index |-> bytes  plus an
   allocator `alloc` naming the index of the next inserted record.  All that is
   assumed of the allocator is `alloc_ok alloc st`: at the store in question it
   returns a non-zero u64 index that names no record.  (That the real record store
   behaves like this, including across reopening, is C04 / C05.) *)
From Agdb Require Import Bytes DbValue ValueIndex ValueIndexProofs.
Open Scope N_scope.

(* Every value a Rust program can hold — byte strings and UTF-8 strings of EVERY
   length (the 15 / 16 inline boundary is a case split of the proof), every i64 and
   u64, every one of the 2^64 f64 bit patterns (NaN payloads, signed zeros), vectors
   of any length — loads back identical from the store `store_db_value` returns, and
   from every store that extends it; `store` only adds: the result store is the old
   one or the old one plus ONE record under the allocator's fresh index. *)
Theorem C12_roundtrip :
  forall (alloc : store -> N) (v : dbvalue) (st : store),
    wf_value v = true -> alloc_ok alloc st ->
    let (ix, st') := store_db_value alloc v st in
    load_db_value ix st' = Ok v /\
    (forall st'', extends st' st'' -> load_db_value ix st'' = Ok v) /\
    length ix = 16%nat /\
    (st' = st \/ exists b, st' = (alloc st, b) :: st) /\
    (forall i b, lookup i st = Some b -> lookup i st' = Some b).
Proof.
  intros alloc v st Hwf Hal.
  pose proof (store_load_roundtrip_ext alloc v st) as H2.
  pose proof (store_ix_wf alloc v st) as H3.
  pose proof (store_adds_only alloc v st) as H4.
  destruct (store_db_value alloc v st) as [ix st']. cbn [fst snd] in *.
  pose proof (adds_only_extends alloc st st' Hal H4) as H5.
  split; [apply H2; [assumption|assumption|apply extends_refl]|].
  split; [intros st'' He; now apply H2|]. now repeat split.
Qed.
Print Assumptions C12_roundtrip.

(* A key-value pair is two indexes (32 bytes); both components read back, the
   key also after the value's record was added on top of it. *)
Theorem C12_kv_roundtrip :
  forall (alloc : store -> N) (k v : dbvalue) (st : store),
    wf_value k = true -> wf_value v = true ->
    alloc_ok alloc st -> alloc_ok alloc (snd (store_db_value alloc k st)) ->
    length (fst (store_kv alloc k v st)) = 32%nat /\
    load_kv (fst (store_kv alloc k v st)) (snd (store_kv alloc k v st)) = Ok (k, v).
Proof.
  intros alloc k v st Hk Hv H0 H1. split; [apply store_kv_length|now apply kv_roundtrip].
Qed.
Print Assumptions C12_kv_roundtrip.

(* Type nibble, size nibble and payload never overwrite each other: for every
   16-byte index, what each setter changes and what it leaves alone.  The byte-15
   mask / shift facts are arithmetic: `& 15` is `mod 16`, `>> 4` is `/ 16`, and the
   two operands of each `|` have disjoint masks. *)
Theorem C12_index_fields_disjoint :
  forall ix : vindex, length ix = 16%nat ->
  (forall t, length (set_type ix t) = 16%nat /\ vi_size (set_type ix t) = vi_size ix /\
             firstn 15 (set_type ix t) = firstn 15 ix /\ (t < 16 -> vi_type (set_type ix t) = t)) /\
  (forall bs, lenN bs <= 15 ->
     fst (set_value ix bs) = true /\ length (snd (set_value ix bs)) = 16%nat /\
     vi_type (snd (set_value ix bs)) = vi_type ix /\
     vi_size (snd (set_value ix bs)) = lenN bs /\ vi_value (snd (set_value ix bs)) = bs /\
     skipn (length bs) (firstn 15 (snd (set_value ix bs))) = skipn (length bs) (firstn 15 ix)) /\
  (forall bs, 15 < lenN bs -> set_value ix bs = (false, ix)) /\
  (forall n, n < two64 ->
     length (set_index ix n) = 16%nat /\ vi_type (set_index ix n) = vi_type ix /\
     vi_size (set_index ix n) = 0 /\ vi_index (set_index ix n) = n /\
     skipn 8 (firstn 15 (set_index ix n)) = skipn 8 (firstn 15 ix)) /\
  (vi_type ix < 16 /\ vi_size ix < 16 /\ vi_type ix * 16 + vi_size ix = byte15 ix).
Proof.
  intros ix H. split; [|split; [|split; [|split]]].
  - intros t. destruct (set_type_fields ix t H) as (Hty & Hsz & Hpay).
    split; [now apply set_type_wf|]. split; [assumption|]. split; [assumption|].
    intros Ht. now rewrite Hty, N.mod_small.
  - intros bs Hb. exact (set_value_fields ix bs H Hb).
  - intros bs Hb. now apply set_value_too_long.
  - intros n Hn. now apply set_index_fields.
  - destruct (nibbles (byte15 ix) (byte15_lt ix)) as (? & ? & ?). unfold vi_type, vi_size. now repeat split.
Qed.
Print Assumptions C12_index_fields_disjoint.

(* VecValue::remove of a stored value (and of a stored pair) frees exactly the
   records `store` allocated: the store is literally the one before `store`; a
   value that is not inline did occupy a record, which is unreadable afterwards. *)
Theorem C12_remove_frees_exactly :
  forall (alloc : store -> N) (v : dbvalue) (st : store),
    alloc_ok alloc st ->
    remove_value (fst (store_db_value alloc v st)) (snd (store_db_value alloc v st)) = Ok st /\
    (is_value (fst (store_db_value alloc v st)) = false ->
       lookup (vi_index (fst (store_db_value alloc v st))) (snd (store_db_value alloc v st)) <> None /\
       lookup (vi_index (fst (store_db_value alloc v st))) st = None).
Proof.
  intros alloc v st Hal. split; [now apply remove_frees_exactly|].
  intros H. now apply remove_unreadable.
Qed.
Print Assumptions C12_remove_frees_exactly.

Theorem C12_kv_remove_frees_exactly :
  forall (alloc : store -> N) (k v : dbvalue) (st : store),
    alloc_ok alloc st -> alloc_ok alloc (snd (store_db_value alloc k st)) ->
    remove_kv (fst (store_kv alloc k v st)) (snd (store_kv alloc k v st)) = Ok st.
Proof. exact kv_remove_frees_exactly. Qed.
Print Assumptions C12_kv_remove_frees_exactly.

(* the allocator hypothesis is satisfiable: the driver's allocator (one past the
   largest index in use) is fresh whenever two more indexes fit into a u64 *)
Theorem C12_allocator_exists :
  forall (k : dbvalue) (st : store),
    (forall i, In i (keys st) -> i + 2 < two64) ->
    alloc_ok fresh_ix st /\ alloc_ok fresh_ix (snd (store_db_value fresh_ix k st)).
Proof.
  intros k st Hb.
  assert (H0 : alloc_ok fresh_ix st) by (apply fresh_ix_ok; intros i Hi; specialize (Hb i Hi); lia).
  split; [exact H0|]. apply fresh_ix_ok. intros i Hi.
  destruct (store_adds_only fresh_ix k st) as [E|[b E]]; rewrite E in Hi.
  - specialize (Hb i Hi). lia.
  - cbn [keys map fst In] in Hi. destruct Hi as [<-|Hi]; [|specialize (Hb i Hi); lia].
    unfold fresh_ix. pose proof (fold_max_bound (keys st) 2 Hb) as H.
    unfold two64 in *. lia.
Qed.
Print Assumptions C12_allocator_exists.

(* non-vacuity: boundary values of every kind are well-formed and round-trip in a
   non-empty store; 15 bytes are inline, 16 bytes (ending in a 4-byte UTF-8
   sequence) go out of line as `len ++ bytes`; a pair of out-of-line values reads back *)
Example C12_nonvacuous :
  forallb wf_value ex_values = true /\
  forallb (fun v => rt_ok v [(7, [x01])]) ex_values = true /\
  is_value (fst (store_db_value fresh_ix (DString ex_str15) [])) = true /\
  is_value (fst (store_db_value fresh_ix (DString ex_str16) [])) = false /\
  snd (store_db_value fresh_ix (DString ex_str16) []) = [(1, le64 16 ++ ex_str16)] /\
  load_kv (fst (store_kv fresh_ix (DString ex_str16) (DVecF64 [9221120237041090561]) []))
          (snd (store_kv fresh_ix (DString ex_str16) (DVecF64 [9221120237041090561]) []))
    = Ok (DString ex_str16, DVecF64 [9221120237041090561]).
Proof. vm_compute. repeat split. Qed.
Print Assumptions C12_nonvacuous.
