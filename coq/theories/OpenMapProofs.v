(* OpenMapProofs.v — termination bounds of the open-addressing map model (OpenMap.v), for EVERY hash function,
   key / value equality test and minimum capacity >= 4: rehash_values and, in the repaired revision (wrap guard +
   iterator flag; the in-place rehash flag may have either value), every operation on a table satisfying `Inv`
   complete within their fuel and re-establish `Inv`; lookups terminate on every table; rehash keeps the multiset
   of stored pairs.  In the pinned revision the probe loops never exit on a table without Empty slot, whatever
   the fuel; the two histories of Props/C19.v that reach such tables are evaluated at the end. *)
From Coq Require Import List NArith ZArith Arith Bool Lia ZifyBool ZifyNat ZifyN Permutation.
Import ListNotations.
From Agdb Require Import OpenMap.
Ltac Zify.zify_post_hook ::= Z.div_mod_to_equations.

Lemma upd_length : forall A (l : list A) i x, length (upd i x l) = length l.
Proof. induction l as [|y t IH]; intros [|i] x; cbn [upd length]; auto. Qed.

Lemma nth_upd_same : forall A (l : list A) i x d, i < length l -> nth i (upd i x l) d = x.
Proof.
  induction l as [|y t IH]; intros [|i] x d Hi; cbn [upd length nth] in *; try lia; auto.
  all: try (apply IH; lia).
Qed.

Lemma nth_upd_other : forall A (l : list A) i j x d, i <> j -> nth j (upd i x l) d = nth j l d.
Proof.
  induction l as [|y t IH]; intros [|i] [|j] x d Hij; cbn [upd nth]; auto; try lia.
  all: try (apply IH; lia).
Qed.

Lemma nth_upd : forall A (l : list A) i j x d,
  nth j (upd i x l) d = if (i =? j) && (i <? length l) then x else nth j l d.
Proof.
  intros A l i j x d.
  destruct (Nat.eqb_spec i j) as [->|Hne]; cbn [andb].
  - destruct (Nat.ltb_spec j (length l)) as [Hlt|Hge].
    + apply nth_upd_same; exact Hlt.
    + rewrite !nth_overflow; auto. rewrite upd_length; exact Hge.
  - apply nth_upd_other; exact Hne.
Qed.

Fixpoint cnt {A : Type} (P : A -> bool) (l : list A) : nat :=
  match l with
  | [] => 0
  | x :: t => (if P x then 1 else 0) + cnt P t
  end.

Lemma cnt_le_length : forall A (P : A -> bool) l, cnt P l <= length l.
Proof. induction l as [|x t IH]; cbn [cnt length]; [lia|]. destruct (P x); lia. Qed.

Lemma cnt_app : forall A (P : A -> bool) l1 l2, cnt P (l1 ++ l2) = cnt P l1 + cnt P l2.
Proof. induction l1 as [|x t IH]; intros l2; cbn [cnt app]; [reflexivity|]. rewrite IH; lia. Qed.

Lemma cnt_repeat_false : forall A (P : A -> bool) x n, P x = false -> cnt P (repeat x n) = 0.
Proof. induction n as [|n IH]; intros Hx; cbn [cnt repeat]; [reflexivity|]. rewrite Hx, IH; auto. Qed.

Lemma cnt_repeat_true : forall A (P : A -> bool) x n, P x = true -> cnt P (repeat x n) = n.
Proof. induction n as [|n IH]; intros Hx; cbn [cnt repeat]; [reflexivity|]. rewrite Hx, IH; auto. Qed.

Lemma cnt_upd : forall A (P : A -> bool) d (l : list A) p x,
  p < length l ->
  cnt P (upd p x l) + (if P (nth p l d) then 1 else 0) = cnt P l + (if P x then 1 else 0).
Proof.
  induction l as [|y t IH]; intros [|p] x Hp; cbn [length upd cnt nth] in *; try lia.
  specialize (IH p x ltac:(lia)). lia.
Qed.

Lemma cnt_lt_exists : forall A (P : A -> bool) d (l : list A),
  cnt P l < length l -> exists q, q < length l /\ P (nth q l d) = false.
Proof.
  induction l as [|y t IH]; cbn [cnt length]; intros Hlt; [lia|].
  destruct (P y) eqn:Hy.
  - destruct IH as [q [Hq Hn]]; [lia|]. exists (S q). split; [lia|exact Hn].
  - exists 0. split; [lia|exact Hy].
Qed.

Lemma cnt_all_prefix : forall A (P : A -> bool) d n (l : list A),
  n <= length l -> (forall p, p < n -> P (nth p l d) = true) -> n <= cnt P l.
Proof.
  induction n as [|n IH]; intros l Hn Hall; [lia|].
  destruct l as [|y t]; cbn [length] in Hn; [lia|]. cbn [cnt].
  pose proof (Hall 0 ltac:(lia)) as H0. cbn [nth] in H0. rewrite H0.
  specialize (IH t ltac:(lia)).
  assert (n <= cnt P t). { apply IH. intros p Hp. apply (Hall (S p)). lia. }
  lia.
Qed.

Lemma cnt_firstn_all : forall A (P : A -> bool) d n (l : list A),
  (forall p, n <= p -> p < length l -> P (nth p l d) = false) -> cnt P (firstn n l) = cnt P l.
Proof.
  intros A P d n l. revert n. induction l as [|y t IH]; intros n Htail; [destruct n; reflexivity|].
  assert (Ht : forall m, n <= S m -> forall p, m <= p -> p < length t -> P (nth p t d) = false).
  { intros m Hm p Hp1 Hp2. apply (Htail (S p)); cbn [length]; lia. }
  destruct n as [|n]; cbn [firstn cnt].
  - pose proof (Htail 0 (le_n 0) ltac:(cbn [length]; lia)) as H0. cbn [nth] in H0.
    rewrite <- (IH 0), H0 by (apply Ht; lia). reflexivity.
  - rewrite (IH n) by (apply Ht; lia). reflexivity.
Qed.

Lemma cnt_implies_le : forall A B (P : A -> bool) (Q : B -> bool) dA dB (l1 : list A) (l2 : list B),
  length l1 <= length l2 ->
  (forall p, P (nth p l1 dA) = true -> Q (nth p l2 dB) = true) ->
  cnt P l1 <= cnt Q l2.
Proof.
  induction l1 as [|x t IH]; intros l2 Hlen Himp; cbn [cnt]; [lia|].
  destruct l2 as [|y u]; cbn [length] in Hlen; [lia|]. cbn [cnt].
  pose proof (Himp 0) as H0. cbn [nth] in H0.
  assert (cnt P t <= cnt Q u). { apply IH; [lia|]. intros p Hp. apply (Himp (S p)). exact Hp. }
  destruct (P x); destruct (Q y); try lia.
  all: try (specialize (H0 eq_refl); discriminate).
Qed.

Lemma cnt_swap : forall A (P : A -> bool) d (l : list A) i j,
  i < length l -> j < length l -> cnt P (swap_nth d i j l) = cnt P l.
Proof.
  intros A P d l i j Hi Hj. unfold swap_nth.
  pose proof (cnt_upd A P d l i (nth j l d) Hi) as H1.
  pose proof (cnt_upd A P d (upd i (nth j l d) l) j (nth i l d)) as H2.
  rewrite upd_length in H2. specialize (H2 Hj).
  assert (Hn : nth j (upd i (nth j l d) l) d = nth j l d).
  { rewrite nth_upd. destruct ((i =? j) && (i <? length l)); reflexivity. }
  rewrite Hn in H2.
  destruct (P (nth i l d)); destruct (P (nth j l d)); lia.
Qed.

Lemma swap_length : forall A d (l : list A) i j, length (swap_nth d i j l) = length l.
Proof. intros. unfold swap_nth. rewrite !upd_length. reflexivity. Qed.

Lemma nth_swap : forall A d (l : list A) i j p,
  i < length l -> j < length l ->
  nth p (swap_nth d i j l) d = if p =? j then nth i l d else if p =? i then nth j l d else nth p l d.
Proof.
  intros A d l i j p Hi Hj. unfold swap_nth. rewrite !nth_upd, upd_length.
  rewrite (proj2 (Nat.ltb_lt _ _) Hi), (proj2 (Nat.ltb_lt _ _) Hj), !andb_true_r, (Nat.eqb_sym j p), (Nat.eqb_sym i p).
  reflexivity.
Qed.

(* number of probe steps from pos until the position is `start` again *)
Definition rem (cap start pos : nat) : nat := if pos <? start then start - pos else start + cap - pos.

(* number of probe steps from pos to q *)
Definition dist (cap pos q : nat) : nat := if pos <=? q then q - pos else q + cap - pos.

(* case analysis on every comparison of positions in sight, then linear arithmetic *)
Ltac cyc :=
  unfold dist, rem, next_pos in *;
  repeat match goal with
         | H : context [?a <=? ?b] |- _ => destruct (Nat.leb_spec a b)
         | |- context [?a <=? ?b] => destruct (Nat.leb_spec a b)
         | H : context [?a <? ?b] |- _ => destruct (Nat.ltb_spec a b)
         | |- context [?a <? ?b] => destruct (Nat.ltb_spec a b)
         | H : context [?a =? ?b] |- _ => destruct (Nat.eqb_spec a b)
         | |- context [?a =? ?b] => destruct (Nat.eqb_spec a b)
         end; try lia.

Lemma next_pos_lt : forall cap pos, pos < cap -> next_pos cap pos < cap.
Proof. intros. cyc. Qed.

(* the wrap-around of the occupancy probe in rehash_valid is next_pos *)
Lemma step_is_next : forall cap pos, pos < cap -> (if S pos =? cap then 0 else S pos) = next_pos cap pos.
Proof. intros. cyc. Qed.

Lemma rem_start : forall cap start, rem cap start start = cap.
Proof. intros. cyc. Qed.

Lemma rem_next : forall cap start pos, pos < cap -> start < cap -> next_pos cap pos <> start ->
  rem cap start (next_pos cap pos) + 1 = rem cap start pos.
Proof. intros. cyc. Qed.

Lemma rem_ge1 : forall cap start pos, pos < cap -> start < cap -> 1 <= rem cap start pos.
Proof. intros. cyc. Qed.

(* Induction along a probe that starts at `start` and stops when it is back there: with fuel for the rest of
   the cycle, P at a position follows from P at the next one, unless that is `start` again. *)
Lemma probe_ind : forall cap start, start < cap -> forall P : nat -> nat -> Prop,
  (forall f pos, pos < cap -> (next_pos cap pos <> start -> P f (next_pos cap pos)) -> P (S f) pos) ->
  forall fuel pos, pos < cap -> rem cap start pos <= fuel -> P fuel pos.
Proof.
  intros cap start Hs P Hstep. induction fuel as [|f IH]; intros pos Hpos Hrem.
  - pose proof (rem_ge1 cap start pos Hpos Hs). lia.
  - apply Hstep; [exact Hpos|]. intros Hne. apply IH; [apply next_pos_lt; exact Hpos|].
    pose proof (rem_next cap start pos Hpos Hs Hne). lia.
Qed.

Lemma dist_lt : forall cap pos q, pos < cap -> q < cap -> dist cap pos q < cap.
Proof. intros. cyc. Qed.

Lemma dist_next : forall cap pos q, pos < cap -> q < cap -> pos <> q ->
  dist cap (next_pos cap pos) q + 1 = dist cap pos q.
Proof. intros. cyc. Qed.

Lemma dist_inj : forall cap s a b, s < cap -> a < cap -> b < cap -> dist cap s a = dist cap s b -> a = b.
Proof. intros. cyc. Qed.

(* stepping the probed position: one more slot visited *)
Lemma dist_step : forall cap s pos, s < cap -> pos < cap -> next_pos cap pos <> s ->
  dist cap s (next_pos cap pos) = dist cap s pos + 1.
Proof. intros. cyc. Qed.

Lemma visited_step : forall cap s pos j, s < cap -> pos < cap -> j < cap -> next_pos cap pos <> s ->
  dist cap s j < dist cap s (next_pos cap pos) -> dist cap s j < dist cap s pos \/ j = pos.
Proof.
  intros cap s pos j Hs Hp Hj Hne Hd. rewrite dist_step in Hd by assumption.
  destruct (Nat.eq_dec (dist cap s j) (dist cap s pos)) as [Heq|Hneq]; [right|left; lia].
  exact (dist_inj cap s j pos Hs Hj Hp Heq).
Qed.

(* the probe is back at its start: every slot has been visited *)
Lemma visited_wrap : forall cap s pos j, s < cap -> pos < cap -> j < cap -> next_pos cap pos = s ->
  dist cap s j < dist cap s pos \/ j = pos.
Proof.
  intros cap s pos j Hs Hp Hj Hn. pose proof (dist_lt cap s j Hs Hj) as Hlt.
  assert (Hlast : dist cap s pos = cap - 1) by cyc.
  destruct (Nat.eq_dec (dist cap s j) (dist cap s pos)) as [Heq|Hneq]; [right|left; lia].
  exact (dist_inj cap s j pos Hs Hj Hp Heq).
Qed.

Lemma rem_wrap : forall cap s pos, s < cap -> pos < cap -> next_pos cap pos = s -> rem cap s pos = 1.
Proof. intros. cyc. Qed.

Lemma rehash_probe_ok : forall occ newcap q, q < newcap -> nth q occ false = false ->
  forall fuel pos, pos < newcap -> dist newcap pos q < fuel ->
  exists p, rehash_probe fuel occ newcap pos = Some p /\ p < newcap /\ nth p occ false = false.
Proof.
  intros occ newcap q Hq Hfree. induction fuel as [|f IH]; intros pos Hpos Hd; [lia|].
  cbn [rehash_probe]. destruct (nth pos occ false) eqn:Hocc.
  - assert (Hne : pos <> q) by (intros ->; congruence).
    rewrite step_is_next by exact Hpos. apply IH; [apply next_pos_lt; exact Hpos|].
    pose proof (dist_next newcap pos q Hpos Hq Hne). lia.
  - exists pos. auto.
Qed.

Section Proofs.
  Variables K V : Type.
  Variable keqb : K -> K -> bool.
  Variable veqb : V -> V -> bool.
  Variable h : K -> N.
  Variable mincap : nat.
  Variable rv : om_revision.

  Notation slotT := (slot K V).
  Notation isv := (is_valid K V).
  Notation E := (@Empty K V).

  Definition cv (sl : list slotT) : nat := cnt isv sl.

  Lemma hpos_lt : forall k cap, 0 < cap -> hpos K h k cap < cap.
  Proof. intros k cap Hc. unfold hpos. lia. Qed.

  (* the loop of rehash_values on an array of length L holding n Valid slots: the occupancy bits mark Valid slots
     in their final place, and no Valid slot is left behind beyond the new capacity *)
  Record RInv (cur newcap L n : nat) (sl : list slotT) (occ : list bool) (i : nat) : Prop := {
    ri_len : length sl = L;
    ri_occ : length occ = newcap;
    ri_i : i <= cur;
    ri_cv : cv sl = n;
    ri_placed : forall p, nth p occ false = true -> isv (nth p sl E) = true;
    ri_tail : forall p, newcap <= p -> p < i -> isv (nth p sl E) = false
  }.

  Lemma occ_true_lt : forall (occ : list bool) p, nth p occ false = true -> p < length occ.
  Proof.
    intros occ p Hp. destruct (Nat.ltb_spec p (length occ)) as [Hlt|Hge]; [exact Hlt|].
    rewrite nth_overflow in Hp by exact Hge. discriminate.
  Qed.

  (* every iteration advances i or sets one more occupancy bit *)
  Lemma rehash_loop_ok : forall cur newcap L n, cur <= L -> newcap <= L -> n < newcap ->
    forall fuel sl occ i, RInv cur newcap L n sl occ i -> (cur - i) + cnt negb occ < fuel ->
    exists sl', rehash_loop K V h fuel cur newcap sl occ i = Done sl' /\
                length sl' = L /\ cv sl' = n /\
                (forall p, newcap <= p -> p < cur -> isv (nth p sl' E) = false).
  Proof.
    intros cur newcap L n HcL HnL Hn. induction fuel as [|f IH]; intros sl occ i [Hlen Hocc Hi Hcv Hpl Htl] Hfuel; [lia|].
    cbn [rehash_loop]. destruct (Nat.eqb_spec i cur) as [->|Hne].
    { exists sl. auto. }
    assert (Hil : i < length sl) by lia.
    assert (Hskip : isv (nth i sl E) = false -> RInv cur newcap L n sl occ (i + 1)).
    { intros Hnv. constructor; auto; try lia.
      intros p Hp1 Hp2. destruct (Nat.eq_dec p i) as [->|Hpi]; [exact Hnv|apply Htl; lia]. }
    destruct (nth i sl E) as [| |k v] eqn:Hsl.
    - apply IH; [|lia]. apply Hskip. reflexivity.
    - assert (Hocci : nth i occ false = false).
      { destruct (nth i occ false) eqn:Ho; [|reflexivity]. apply Hpl in Ho. rewrite Hsl in Ho. discriminate. }
      apply IH; [|lia]. destruct (Nat.ltb_spec i newcap) as [Hlt|Hge]; [|apply Hskip; reflexivity].
      constructor; rewrite ?upd_length; auto; try lia.
      + pose proof (cnt_upd _ isv E sl i E Hil) as Hc. rewrite Hsl in Hc. cbn [is_valid] in Hc. unfold cv in *. lia.
      + intros p Hp. rewrite nth_upd_other by congruence. auto.
    - destruct ((i <? newcap) && nth i occ false) eqn:Hplaced.
      + (* already in its final place *)
        apply andb_true_iff in Hplaced. destruct Hplaced as [Hlt _]. apply Nat.ltb_lt in Hlt.
        apply IH; [|lia]. constructor; auto; lia.
      + assert (Hocci : nth i occ false = false).
        { destruct (nth i occ false) eqn:Ho; [|reflexivity].
          pose proof (occ_true_lt occ i Ho) as Hlt. rewrite Hocc in Hlt.
          apply Nat.ltb_lt in Hlt. rewrite Hlt in Hplaced. discriminate. }
        (* fewer bits are set than Valid slots exist, so a clear bit exists and the inner probe finds one *)
        assert (Hcnt : cnt (fun b : bool => b) occ < length occ).
        { assert (cnt (fun b : bool => b) occ <= cv sl); [|lia].
          apply (cnt_implies_le _ _ _ _ false E); [lia|exact Hpl]. }
        destruct (cnt_lt_exists _ _ false occ Hcnt) as [q [Hq Hqf]]. rewrite Hocc in Hq.
        assert (Hnc : 0 < newcap) by lia.
        destruct (rehash_probe_ok occ newcap q Hq Hqf newcap (hpos K h k newcap)) as [pos [Hpr [Hposlt Hposf]]].
        { apply hpos_lt; exact Hnc. }
        { apply dist_lt; [apply hpos_lt; exact Hnc|exact Hq]. }
        rewrite Hpr.
        assert (Hcnt1 : cnt negb (upd pos true occ) + 1 = cnt negb occ).
        { pose proof (cnt_upd _ negb false occ pos true ltac:(lia)) as Hc.
          rewrite Hposf in Hc. cbn [negb] in Hc. lia. }
        apply IH; [|destruct (Nat.eqb_spec i pos); lia].
        constructor; rewrite ?swap_length, ?upd_length; auto.
        * destruct (Nat.eqb_spec i pos); lia.
        * unfold cv. rewrite cnt_swap by lia. exact Hcv.
        * intros p Hp. rewrite nth_upd in Hp. rewrite nth_swap by lia.
          destruct (Nat.eqb_spec p pos) as [->|Hpp]; [rewrite Hsl; reflexivity|].
          destruct (Nat.eqb_spec pos p); [lia|]. cbn [andb] in Hp.
          destruct (Nat.eqb_spec p i) as [->|Hpi]; [congruence|]. apply Hpl; exact Hp.
        * intros p Hp1 Hp2. rewrite nth_swap by lia.
          destruct (Nat.eqb_spec p pos); [lia|].
          destruct (Nat.eqb_spec i pos); [lia|].
          destruct (Nat.eqb_spec p i); [lia|]. apply Htl; lia.
  Qed.

  Lemma rehash_values_ok : forall cur newcap sl,
    cur <= length sl -> newcap <= length sl -> cv sl < newcap ->
    exists sl', rehash_values K V h cur newcap sl = Done sl' /\
                length sl' = length sl /\ cv sl' = cv sl /\
                (forall p, newcap <= p -> p < cur -> isv (nth p sl' E) = false).
  Proof.
    intros cur newcap sl H1 H2 H3. unfold rehash_values, rehash_fuel.
    apply rehash_loop_ok; auto.
    - constructor; auto; try lia.
      + apply repeat_length.
      + intros p Hp. rewrite nth_repeat in Hp. discriminate.
    - rewrite cnt_repeat_true by reflexivity. lia.
  Qed.

  (* number of stored pairs satisfying Q; with Q = "equal to (k, v)" this is the multiplicity of (k, v) *)
  Definition count_entries (Q : K -> V -> bool) (sl : list slotT) : nat :=
    cnt (fun s => match s with Valid k v => Q k v | _ => false end) sl.

  Lemma rehash_probe_lt : forall occ newcap fuel pos p,
    0 < newcap -> pos < newcap -> rehash_probe fuel occ newcap pos = Some p -> p < newcap.
  Proof.
    intros occ newcap. induction fuel as [|f IH]; intros pos p Hn Hpos Hr; cbn [rehash_probe] in Hr; [discriminate|].
    destruct (nth pos occ false).
    - apply IH in Hr; auto. destruct (Nat.eqb_spec (S pos) newcap); lia.
    - inversion Hr; subst. exact Hpos.
  Qed.

  Lemma rehash_loop_entries : forall (Q : K -> V -> bool) cur newcap, 0 < newcap ->
    forall fuel sl occ i sl',
      i <= cur -> cur <= length sl -> newcap <= length sl ->
      rehash_loop K V h fuel cur newcap sl occ i = Done sl' ->
      count_entries Q sl' = count_entries Q sl.
  Proof.
    intros Q cur newcap Hn. unfold count_entries.
    set (P := fun s : slotT => match s with Valid k v => Q k v | _ => false end).
    induction fuel as [|f IH]; intros sl occ i sl' Hi Hc Hnc Hr; cbn [rehash_loop] in Hr; [discriminate|].
    destruct (Nat.eqb_spec i cur) as [->|Hne]; [inversion Hr; reflexivity|].
    destruct (nth i sl E) as [| |k v] eqn:Hsl.
    - apply IH in Hr; auto; lia.
    - destruct (i <? newcap).
      + apply IH in Hr; try rewrite upd_length; try lia. rewrite Hr.
        pose proof (cnt_upd _ P E sl i E ltac:(lia)) as Hu. rewrite Hsl in Hu. cbn in Hu. lia.
      + apply IH in Hr; auto; lia.
    - destruct ((i <? newcap) && nth i occ false).
      + apply IH in Hr; auto; lia.
      + destruct (rehash_probe newcap occ newcap (hpos K h k newcap)) as [pos|] eqn:Hp; [|discriminate].
        pose proof (rehash_probe_lt _ _ _ _ _ Hn (hpos_lt k newcap Hn) Hp) as Hpos.
        apply IH in Hr; try rewrite swap_length; try lia.
        * rewrite Hr. apply cnt_swap; lia.
        * destruct (Nat.eqb_spec i pos); lia.
  Qed.

  Lemma rehash_values_entries : forall Q cur newcap sl sl',
    0 < newcap -> cur <= length sl -> newcap <= length sl ->
    rehash_values K V h cur newcap sl = Done sl' ->
    count_entries Q sl' = count_entries Q sl.
  Proof.
    intros Q cur newcap sl sl' Hn Hc Hnc Hr. unfold rehash_values in Hr.
    apply (rehash_loop_entries Q cur newcap Hn) in Hr; auto. lia.
  Qed.

  Lemma cv_upd_valid : forall sl p k v, p < length sl -> isv (nth p sl E) = false ->
    cv (upd p (Valid k v) sl) = cv sl + 1.
  Proof.
    intros sl p k v Hp Hn. unfold cv. pose proof (cnt_upd _ isv E sl p (Valid k v) Hp) as Hc.
    rewrite Hn in Hc. cbn [is_valid] in Hc. lia.
  Qed.

  Lemma cv_upd_replace : forall sl p k v, p < length sl -> isv (nth p sl E) = true ->
    cv (upd p (Valid k v) sl) = cv sl.
  Proof.
    intros sl p k v Hp Hn. unfold cv. pose proof (cnt_upd _ isv E sl p (Valid k v) Hp) as Hc.
    rewrite Hn in Hc. cbn [is_valid] in Hc. lia.
  Qed.

  Lemma cv_upd_deleted : forall sl p, p < length sl -> isv (nth p sl E) = true ->
    cv (upd p (@Deleted K V) sl) + 1 = cv sl.
  Proof.
    intros sl p Hp Hn. unfold cv. pose proof (cnt_upd _ isv E sl p (@Deleted K V) Hp) as Hc.
    rewrite Hn in Hc. cbn [is_valid] in Hc. lia.
  Qed.

  Lemma cv_le_length : forall sl, cv sl <= length sl.
  Proof. intros. apply cnt_le_length. Qed.

  Lemma cv_app_empty : forall sl n, cv (sl ++ repeat E n) = cv sl.
  Proof. intros. unfold cv. rewrite cnt_app, cnt_repeat_false by reflexivity. lia. Qed.

  Notation omapT := (omap K V).
  Notation cap := (capacity K V).

  Lemma rehash_ok : forall (m : omapT) c,
    cv (slots m) = len m -> len m < Nat.max c mincap ->
    exists m', rehash K V h mincap m c = Done m' /\
               cap m' = Nat.max c mincap /\ len m' = len m /\ cv (slots m') = len m'.
  Proof.
    intros m c Hcv Hlt. unfold rehash, capacity.
    destruct (Nat.compare_spec (length (slots m)) (Nat.max c mincap)) as [Heq|Hl|Hg].
    - exists m. auto.
    - destruct (rehash_values_ok (length (slots m)) (Nat.max c mincap)
                  (slots m ++ repeat E (Nat.max c mincap - length (slots m))))
        as [sl' [Hr [Hlen [Hcv' _]]]].
      + rewrite app_length. lia.
      + rewrite app_length, repeat_length. lia.
      + rewrite cv_app_empty. lia.
      + rewrite Hr. eexists. split; [reflexivity|]. cbn [slots len].
        rewrite Hlen, Hcv', cv_app_empty, app_length, repeat_length. repeat split; lia.
    - destruct (rehash_values_ok (length (slots m)) (Nat.max c mincap) (slots m))
        as [sl' [Hr [Hlen [Hcv' Htl]]]]; try lia.
      rewrite Hr. eexists. split; [reflexivity|]. cbn [slots len].
      rewrite firstn_length. split; [lia|]. split; [reflexivity|].
      unfold cv. rewrite (cnt_firstn_all _ isv E).
      + fold (cv sl'). lia.
      + intros p Hp1 Hp2. apply Htl; lia.
  Qed.

  Lemma rehash_in_place_ok : forall (m : omapT),
    cv (slots m) = len m -> len m < cap m ->
    exists m', rehash_in_place K V h m = Done m' /\
               cap m' = cap m /\ len m' = len m /\ cv (slots m') = len m'.
  Proof.
    intros m Hcv Hlt. unfold rehash_in_place, capacity in *.
    destruct (rehash_values_ok (length (slots m)) (length (slots m)) (slots m))
      as [sl' [Hr [Hlen [Hcv' _]]]]; try lia.
    rewrite Hr. eexists. split; [reflexivity|]. cbn [slots len]. repeat split; lia.
  Qed.

  Lemma not_valid_count : forall (Q : K -> V -> bool) (s : slotT),
    isv s = false -> match s with Valid k v => Q k v | _ => false end = false.
  Proof. intros Q [| |k v] Hs; cbn [is_valid] in Hs; [reflexivity|reflexivity|discriminate]. Qed.

  (* rehash (grow / shrink / nothing) keeps the multiset of stored (key, value) pairs *)
  Theorem rehash_entries : forall (Q : K -> V -> bool) (m m' : omapT) c,
    cv (slots m) = len m -> len m < Nat.max c mincap ->
    rehash K V h mincap m c = Done m' ->
    count_entries Q (slots m') = count_entries Q (slots m).
  Proof.
    intros Q m m' c Hcv Hlt. unfold rehash, capacity.
    destruct (Nat.compare_spec (length (slots m)) (Nat.max c mincap)) as [Heq|Hl|Hg]; intros Hr.
    - inversion Hr; reflexivity.
    - destruct (rehash_values K V h (length (slots m)) (Nat.max c mincap)
                  (slots m ++ repeat E (Nat.max c mincap - length (slots m)))) as [sl'|] eqn:Hv; [|discriminate].
      inversion Hr; subst m'; cbn [slots].
      apply (rehash_values_entries Q) in Hv; try rewrite app_length, ?repeat_length; try lia.
      rewrite Hv. unfold count_entries. rewrite cnt_app, cnt_repeat_false by reflexivity. lia.
    - destruct (rehash_values_ok (length (slots m)) (Nat.max c mincap) (slots m))
        as [sl' [Hv [Hlen [Hcv' Htl]]]]; try lia.
      rewrite Hv in Hr. inversion Hr; subst m'; cbn [slots].
      apply (rehash_values_entries Q) in Hv; try lia.
      rewrite <- Hv. unfold count_entries. apply (cnt_firstn_all _ _ E).
      intros p Hp1 Hp2. apply not_valid_count. apply Htl; lia.
  Qed.

  Theorem rehash_in_place_entries : forall (Q : K -> V -> bool) (m m' : omapT),
    0 < cap m -> rehash_in_place K V h m = Done m' ->
    count_entries Q (slots m') = count_entries Q (slots m).
  Proof.
    intros Q m m' Hc. unfold rehash_in_place, capacity in *.
    destruct (rehash_values K V h (length (slots m)) (length (slots m)) (slots m)) as [sl'|] eqn:Hv; [|discriminate].
    intros Hr. inversion Hr; subst m'; cbn [slots].
    apply (rehash_values_entries Q) in Hv; auto.
  Qed.

  (* the reachable-state invariant *)
  Definition Inv (m : omapT) : Prop :=
    cv (slots m) = len m /\ (cap m = 0 \/ (mincap <= cap m /\ len m < cap m)).

  Lemma Inv_empty : Inv empty_map.
  Proof. split; [reflexivity|left; reflexivity]. Qed.

  (* given a non-Valid slot within reach of the fuel, the probe stops at the FIRST non-Valid slot from pos *)
  Lemma free_index_loop_ok : forall sl c q, q < c -> isv (nth q sl E) = false ->
    forall fuel pos, pos < c -> dist c pos q < fuel ->
    exists p, free_index_loop K V fuel sl c pos = Done p /\ p < c /\ isv (nth p sl E) = false /\
              (forall j, j < c -> dist c pos j < dist c pos p -> isv (nth j sl E) = true).
  Proof.
    intros sl c q Hq Hfree. induction fuel as [|f IH]; intros pos Hpos Hd; [lia|].
    cbn [free_index_loop].
    destruct (nth pos sl E) as [| |k v] eqn:Hs.
    1,2: exists pos; rewrite Hs; repeat split; auto; intros j Hj Hlt; clear IH; cyc.
    assert (Hne : pos <> q) by (intros ->; rewrite Hs in Hfree; discriminate).
    pose proof (dist_next c pos q Hpos Hq Hne).
    destruct (IH (next_pos c pos) (next_pos_lt c pos Hpos) ltac:(lia)) as [p [Hr [Hp [Hpv Hfirst]]]].
    exists p. repeat split; auto. intros j Hj Hlt.
    destruct (Nat.eq_dec j pos) as [->|Hjp]; [rewrite Hs; reflexivity|]. apply Hfirst; [exact Hj|].
    assert (Hpp : pos <> p) by (intros ->; rewrite Hs in Hpv; discriminate).
    pose proof (dist_next c pos j Hpos Hj ltac:(congruence)). pose proof (dist_next c pos p Hpos Hp Hpp). lia.
  Qed.

  Section GuardedLoop.
    Hypothesis Hguard : fix_insert_wrap_guard rv = true.

    (* what the probe of insert_or_replace keeps: the array length, the number of Valid slots, a free position that
       is not Valid *)
    Definition ior_kept (c : nat) (sl : list slotT) (r : ior_result K V) : Prop :=
      length (ior_slots K V r) = c /\ cv (ior_slots K V r) = cv sl /\
      (forall p, ior_free K V r = Some p -> p < c /\ isv (nth p (ior_slots K V r) E) = false).

    Lemma ior_loop_ok : forall c start k pred nv, start < c ->
      forall fuel pos, pos < c -> rem c start pos <= fuel ->
      forall sl free, length sl = c ->
        (forall p, free = Some p -> p < c /\ isv (nth p sl E) = false) ->
        exists r, ior_loop K V keqb rv fuel sl c start k pred nv pos free = Done r /\
                  ior_kept c sl r.
    Proof.
      intros c start k pred nv Hs. refine (probe_ind c start Hs _ _). intros f pos Hpos IH sl free Hlen Hfree.
      cbn [ior_loop]. rewrite Hguard. cbn [andb].
      assert (Hcont : forall free', (forall p, free' = Some p -> p < c /\ isv (nth p sl E) = false) ->
        exists r, (if next_pos c pos =? start
                   then Done {| ior_free := free'; ior_ret := None; ior_slots := sl; ior_full_cycle := true |}
                   else ior_loop K V keqb rv f sl c start k pred nv (next_pos c pos) free') = Done r /\
                  ior_kept c sl r).
      { intros free' Hfree'. destruct (Nat.eqb_spec (next_pos c pos) start) as [Heq|Hne]; [|apply IH; auto].
        eexists. split; [reflexivity|]. unfold ior_kept. cbn [ior_slots ior_free]. auto. }
      destruct (nth pos sl E) as [| |k' v'] eqn:Hsl.
      - eexists. split; [reflexivity|]. unfold ior_kept. cbn [ior_slots ior_free]. repeat split; auto.
        + inversion H; subst; exact Hpos.
        + inversion H; subst. rewrite Hsl. reflexivity.
      - apply Hcont. intros p Hp. destruct free as [p0|].
        + apply Hfree. exact Hp.
        + inversion Hp; subst. rewrite Hsl. auto.
      - destruct (keqb k' k && pred v').
        + eexists. split; [reflexivity|]. unfold ior_kept. cbn [ior_slots ior_free].
          rewrite upd_length, cv_upd_replace by (try lia; rewrite Hsl; reflexivity).
          repeat split; auto; discriminate.
        + apply Hcont. exact Hfree.
    Qed.
  End GuardedLoop.

  Lemma remove_key_loop_ok : forall c start k, start < c ->
    forall fuel pos, pos < c -> rem c start pos <= fuel ->
    forall sl n, length sl = c -> cv sl = n ->
      exists sl' n' full, remove_key_loop K V keqb fuel sl c start k pos n = Done (sl', n', full) /\
                          length sl' = c /\ cv sl' = n' /\ n' <= n.
  Proof.
    intros c start k Hs. refine (probe_ind c start Hs _ _). intros f pos Hpos IH sl n Hlen Hcv.
    cbn [remove_key_loop].
    assert (Hcont : forall sl1 n1, length sl1 = c -> cv sl1 = n1 -> n1 <= n ->
      exists sl' n' full,
        (if next_pos c pos =? start then Done (sl1, n1, true)
         else remove_key_loop K V keqb f sl1 c start k (next_pos c pos) n1) = Done (sl', n', full) /\
        length sl' = c /\ cv sl' = n' /\ n' <= n).
    { intros sl1 n1 Hl1 Hc1 Hn1. destruct (Nat.eqb_spec (next_pos c pos) start) as [Heq|Hne].
      - exists sl1, n1, true. auto.
      - destruct (IH Hne sl1 n1 Hl1 Hc1) as [sl' [n' [full [Hr [Hl' [Hc' Hn']]]]]].
        exists sl', n', full. repeat split; auto. lia. }
    destruct (nth pos sl E) as [| |k' v'] eqn:Hsl.
    - exists sl, n, false. auto.
    - apply Hcont; auto.
    - destruct (keqb k' k).
      + assert (Hv : isv (nth pos sl E) = true) by (rewrite Hsl; reflexivity).
        pose proof (cv_upd_deleted sl pos ltac:(lia) Hv) as Hd.
        apply Hcont; [rewrite upd_length; exact Hlen|lia|lia].
      + apply Hcont; auto.
  Qed.

  Definition mkv (k : K) (v : V) (s : slotT) : bool :=
    match s with Valid k' v' => keqb k' k && veqb v' v | _ => false end.

  (* remove_value's probe examines the slots from `start` up to the first Empty one, or all of them: the slot it
     returns holds a matching pair; if it returns none, no slot that lies before every Empty slot does.  (Nothing is
     assumed of the table; with the probe chain, "before every Empty slot" is where the slots of the key are.) *)
  Definition rv_scanned (c start : nat) (k : K) (v : V) (sl : list slotT) (r : option nat * bool) : Prop :=
    match fst r with
    | Some p => p < c /\ mkv k v (nth p sl E) = true
    | None => forall j, j < c -> (forall e, e < c -> nth e sl E = E -> dist c start j < dist c start e) ->
                        mkv k v (nth j sl E) = false
    end.

  Lemma remove_value_loop_scan : forall c start k v sl, start < c ->
    forall fuel pos, pos < c -> rem c start pos <= fuel ->
      (forall j, j < c -> dist c start j < dist c start pos -> mkv k v (nth j sl E) = false) ->
      exists r, remove_value_loop K V keqb veqb fuel sl c start k v pos = Done r /\
                rv_scanned c start k v sl r.
  Proof.
    intros c start k v sl Hs. refine (probe_ind c start Hs _ _). intros f pos Hpos IH Hvis.
    cbn [remove_value_loop].
    assert (Hcont : mkv k v (nth pos sl E) = false ->
      exists r, (if next_pos c pos =? start then Done (None, true)
                 else remove_value_loop K V keqb veqb f sl c start k v (next_pos c pos)) = Done r /\
                rv_scanned c start k v sl r).
    { intros Hnm. destruct (Nat.eqb_spec (next_pos c pos) start) as [Heq|Hne].
      - eexists. split; [reflexivity|]. cbn [fst]. intros j Hj _.
        destruct (visited_wrap c start pos j Hs Hpos Hj Heq) as [Hlt| ->]; [apply Hvis; assumption|exact Hnm].
      - apply (IH Hne). intros j Hj Hd.
        destruct (visited_step c start pos j Hs Hpos Hj Hne Hd) as [Hlt| ->]; [apply Hvis; assumption|exact Hnm]. }
    destruct (nth pos sl E) as [| |k' v'] eqn:Hsl.
    - eexists. split; [reflexivity|]. cbn [fst]. intros j Hj Hbefore. apply Hvis; [exact Hj|].
      apply Hbefore; assumption.
    - apply Hcont. reflexivity.
    - destruct (keqb k' k && veqb v' v) eqn:Hm.
      + eexists. split; [reflexivity|]. cbn [fst]. split; [exact Hpos|]. rewrite Hsl. exact Hm.
      + apply Hcont. exact Hm.
  Qed.

  Lemma value_loop_total : forall c start k sl, start < c ->
    forall fuel pos, pos < c -> rem c start pos <= fuel ->
      exists r, value_loop K V keqb fuel sl c start k pos = Done r.
  Proof.
    intros c start k sl Hs. refine (probe_ind c start Hs _ _). intros f pos Hpos IH.
    cbn [value_loop].
    assert (Hcont : exists r, (if start =? next_pos c pos then Done None
                               else value_loop K V keqb f sl c start k (next_pos c pos)) = Done r).
    { destruct (Nat.eqb_spec start (next_pos c pos)) as [Heq|Hne]; [eauto|]. apply IH. congruence. }
    destruct (nth pos sl E) as [| |k' v']; [eauto|exact Hcont|].
    destruct (keqb k' k); [eauto|exact Hcont].
  Qed.

  Theorem value_total : forall (m : omapT) k, exists r, value K V keqb h m k = Done r.
  Proof.
    intros m k. unfold value, value_fuel, probe_fuel.
    destruct (Nat.eqb_spec (cap m) 0) as [Hz|Hnz]; [eauto|].
    pose proof (hpos_lt k (cap m) ltac:(lia)) as Hst.
    apply value_loop_total; auto. rewrite rem_start. lia.
  Qed.

  Lemma values_loop_total : fix_iter_finished rv = true ->
    forall c start k sl, start < c ->
    forall fuel pos, pos < c -> rem c start pos <= fuel ->
    forall acc, exists r, values_loop K V keqb rv fuel sl c start k pos acc = Done r.
  Proof.
    intros Hfin c start k sl Hs. refine (probe_ind c start Hs _ _). intros f pos Hpos IH acc.
    cbn [values_loop]. rewrite Hfin. cbn [andb].
    assert (Hcont : forall acc', exists r, (if start =? next_pos c pos then Done acc'
                               else values_loop K V keqb rv f sl c start k (next_pos c pos) acc') = Done r).
    { intros acc'. destruct (Nat.eqb_spec start (next_pos c pos)) as [Heq|Hne]; [eauto|]. apply IH. congruence. }
    destruct (nth pos sl E) as [| |k' v']; [eauto|apply Hcont|].
    destruct (keqb k' k); apply Hcont.
  Qed.

  Theorem values_total : fix_iter_finished rv = true ->
    forall (m : omapT) k, exists r, values K V keqb h rv m k = Done r.
  Proof.
    intros Hfin m k. unfold values, values_fuel, probe_fuel.
    destruct (Nat.eqb_spec (cap m) 0) as [Hz|Hnz]; [eauto|].
    pose proof (hpos_lt k (cap m) ltac:(lia)) as Hst.
    apply values_loop_total; auto. rewrite rem_start. lia.
  Qed.

  Lemma run_app : forall (ops1 ops2 : list (op K V)) (m : omapT),
    run K V keqb veqb h mincap rv m (ops1 ++ ops2) =
    match run K V keqb veqb h mincap rv m ops1 with
    | Done m1 => run K V keqb veqb h mincap rv m1 ops2
    | OutOfFuel => OutOfFuel
    end.
  Proof.
    unfold run. induction ops1 as [|o r IH]; intros ops2 m; cbn [app run_fuel]; [reflexivity|].
    destruct (step_fuel K V keqb veqb h mincap rv probe_fuel m o); [apply IH|reflexivity].
  Qed.

  (* Why 4: growing needs only mincap >= 2 (the first insert, into the empty table, wants len + 1 < mincap).  The
     shrink rehashes to max (cap / 2) mincap when len <= cap * 7 / 16; for the capacities 5 and 7 that bound is
     cap / 2 itself, and only a minimum capacity of 4 keeps len below the new capacity there. *)
  Section Bounded.
  Hypothesis Hmin : 4 <= mincap.

  Lemma reclaim_ok : forall (m : omapT),
    cv (slots m) = len m -> mincap <= cap m -> len m < cap m ->
    exists m', reclaim K V h mincap rv m = Done m' /\
               cap m' = cap m /\ len m' = len m /\ cv (slots m') = len m'.
  Proof.
    intros m Hcv Hmc Hlt. unfold reclaim. destruct (fix_rehash_in_place rv).
    - apply rehash_in_place_ok; assumption.
    - destruct (rehash_ok m (cap m) Hcv ltac:(lia)) as [m' [Hr [Hc [Hl Hcv']]]].
      exists m'. repeat split; auto. lia.
  Qed.

  Lemma grow_if_full_ok : forall (m : omapT), Inv m ->
    exists m1, grow_if_full K V h mincap m = Done m1 /\
               cv (slots m1) = len m1 /\ len m1 = len m /\ mincap <= cap m1 /\ len m1 + 1 < cap m1.
  Proof.
    intros m [Hcv Hc]. unfold grow_if_full, max_len.
    pose proof (cv_le_length (slots m)) as Hle. fold (cap m) in Hle.
    destruct (Nat.leb_spec (cap m * 15 / 16) (len m)) as [Hfull|Hroom].
    - destruct (rehash_ok m (cap m * 2) Hcv ltac:(lia)) as [m' [Hr [Hc' [Hl Hcv']]]].
      exists m'. repeat split; auto; lia.
    - exists m. repeat split; auto; lia.
  Qed.

  Lemma shrink_ok : forall (m : omapT),
    cv (slots m) = len m -> mincap <= cap m -> len m < cap m ->
    exists m', shrink_if_sparse K V h mincap m = Done m' /\ Inv m'.
  Proof.
    intros m Hcv Hmc Hlt. unfold shrink_if_sparse, min_len.
    destruct (Nat.leb_spec (len m) (cap m * 7 / 16)) as [Hs|Hs].
    - destruct (rehash_ok m (cap m / 2) Hcv ltac:(lia)) as [m' [Hr [Hc' [Hl Hcv']]]].
      exists m'. split; [exact Hr|]. split; [exact Hcv'|]. right. lia.
    - exists m. split; [reflexivity|]. split; [exact Hcv|]. right. lia.
  Qed.

  Lemma insert_ok : forall (m : omapT) k v, Inv m ->
    exists m', insert K V h mincap m k v = Done m' /\ Inv m'.
  Proof.
    intros m k v HI. unfold insert, insert_fuel, probe_fuel.
    destruct (grow_if_full_ok m HI) as [m1 [Hg [Hcv [Hl [Hmc Hroom]]]]]. rewrite Hg.
    assert (Hex : cnt isv (slots m1) < length (slots m1)) by (fold (cv (slots m1)); fold (cap m1); lia).
    destruct (cnt_lt_exists _ isv E (slots m1) Hex) as [q [Hq Hqf]].
    assert (Hc0 : 0 < cap m1) by lia.
    destruct (free_index_loop_ok (slots m1) (cap m1) q Hq Hqf (cap m1) (hpos K h k (cap m1)))
      as [p [Hf [Hp [Hpf _]]]].
    { apply hpos_lt; exact Hc0. }
    { apply dist_lt; [apply hpos_lt; exact Hc0|exact Hq]. }
    rewrite Hf. eexists. split; [reflexivity|]. unfold do_insert, Inv, capacity. cbn [slots len].
    rewrite upd_length, cv_upd_valid by assumption. split; [lia|]. right. unfold capacity in *. lia.
  Qed.

  Section Guarded.
    Hypothesis Hguard : fix_insert_wrap_guard rv = true.

    Lemma insert_or_replace_ok : forall (m : omapT) k pred nv, Inv m ->
      exists m' r, insert_or_replace K V keqb h mincap rv m k pred nv = Done (m', r) /\ Inv m'.
    Proof.
      intros m k pred nv HI. unfold insert_or_replace, insert_or_replace_fuel, probe_fuel.
      destruct (grow_if_full_ok m HI) as [m1 [Hg [Hcv [Hl [Hmc Hroom]]]]]. rewrite Hg.
      assert (Hc0 : 0 < cap m1) by lia.
      pose proof (hpos_lt k (cap m1) Hc0) as Hst.
      destruct (ior_loop_ok Hguard (cap m1) (hpos K h k (cap m1)) k pred nv Hst (cap m1) (hpos K h k (cap m1)) Hst
                  ltac:(rewrite rem_start; lia) (slots m1) None eq_refl) as [r [Hr [Hlen [Hcvr Hfr]]]].
      { intros p Hp. discriminate. }
      rewrite Hr.
      set (m2 := match ior_free K V r with
                 | Some pos => do_insert K V (ior_slots K V r) (len m1) pos k nv
                 | None => {| slots := ior_slots K V r; len := len m1 |}
                 end).
      assert (Hm2 : cv (slots m2) = len m2 /\ cap m2 = cap m1 /\ len m2 <= len m1 + 1).
      { unfold m2. destruct (ior_free K V r) as [p|] eqn:Hfree.
        - destruct (Hfr p eq_refl) as [Hp Hpv]. unfold do_insert, capacity. cbn [slots len].
          rewrite upd_length, cv_upd_valid by (try lia; exact Hpv). unfold capacity in *. lia.
        - unfold capacity. cbn [slots len]. unfold capacity in *. lia. }
      destruct Hm2 as [Hcv2 [Hcap2 Hlen2]].
      destruct (ior_full_cycle K V r && fix_rehash_in_place rv).
      - destruct (rehash_in_place_ok m2 Hcv2 ltac:(lia)) as [m3 [Hr3 [Hc3 [Hl3 Hcv3]]]].
        rewrite Hr3. exists m3, (ior_ret K V r). split; [reflexivity|].
        split; [exact Hcv3|]. right. lia.
      - exists m2, (ior_ret K V r). split; [reflexivity|]. split; [exact Hcv2|]. right. lia.
    Qed.
  End Guarded.

  Lemma remove_key_ok : forall (m : omapT) k, Inv m ->
    exists m', remove_key K V keqb h mincap rv m k = Done m' /\ Inv m'.
  Proof.
    intros m k HI. unfold remove_key, remove_key_fuel, probe_fuel.
    destruct (Nat.eqb_spec (cap m) 0) as [Hz|Hnz]; [exists m; auto|].
    destruct HI as [Hcv [Hc|[Hmc Hlt]]]; [lia|].
    pose proof (hpos_lt k (cap m) ltac:(lia)) as Hst.
    destruct (remove_key_loop_ok (cap m) (hpos K h k (cap m)) k Hst (cap m) (hpos K h k (cap m)) Hst
                ltac:(rewrite rem_start; lia) (slots m) (len m) eq_refl Hcv) as [sl [n [full [Hr [Hlen [Hcvn Hn]]]]]].
    rewrite Hr.
    destruct (Nat.eqb_spec n (len m)) as [Heq|Hne].
    - assert (Hm1 : exists m2, (if full && true then reclaim K V h mincap rv {| slots := sl; len := len m |}
                                 else Done {| slots := sl; len := len m |}) = Done m2 /\ Inv m2).
      { destruct full; cbn [andb].
        - destruct (reclaim_ok {| slots := sl; len := len m |}) as [m2 [Hr2 [Hc2 [Hl2 Hcv2]]]];
            unfold capacity in *; cbn [slots len] in *; try lia.
          exists m2. split; [exact Hr2|]. split; [exact Hcv2|]. right. unfold capacity. lia.
        - eexists. split; [reflexivity|]. split; cbn [slots len]; [lia|]. right.
          unfold capacity in *. cbn [slots]. lia. }
      destruct Hm1 as [m2 [Hr2 HI2]]. rewrite Hr2. exists m2. auto.
    - rewrite andb_false_r. cbn [slots].
      apply shrink_ok; unfold capacity in *; cbn [slots len]; lia.
  Qed.

  Lemma remove_value_ok : forall (m : omapT) k v, Inv m ->
    exists m', remove_value K V keqb veqb h mincap rv m k v = Done m' /\ Inv m'.
  Proof.
    intros m k v HI. unfold remove_value, remove_value_fuel, probe_fuel.
    destruct (Nat.eqb_spec (cap m) 0) as [Hz|Hnz]; [exists m; auto|].
    pose proof HI as [Hcv [Hc|[Hmc Hlt]]]; [lia|].
    pose proof (hpos_lt k (cap m) ltac:(lia)) as Hst.
    destruct (remove_value_loop_scan (cap m) (hpos K h k (cap m)) k v (slots m) Hst (cap m)
                (hpos K h k (cap m)) Hst ltac:(rewrite rem_start; lia)) as [[[p|] full] [Hr Hfound]].
    { intros j Hj Hd. cyc. }
    all: rewrite Hr; cbn [fst] in Hfound.
    - destruct Hfound as [Hp Hm]. unfold remove_index.
      assert (Hpv : isv (nth p (slots m) E) = true) by (destruct (nth p (slots m) E); [discriminate..|reflexivity]).
      pose proof (cv_upd_deleted (slots m) p Hp Hpv) as Hd.
      apply shrink_ok; unfold capacity in *; cbn [slots len]; rewrite ?upd_length; lia.
    - destruct full.
      + destruct (reclaim_ok m Hcv Hmc Hlt) as [m2 [Hr2 [Hc2 [Hl2 Hcv2]]]].
        exists m2. split; [exact Hr2|]. split; [exact Hcv2|]. right. lia.
      + exists m. auto.
  Qed.

  Lemma reserve_ok : forall (m : omapT) c, Inv m ->
    exists m', reserve K V h mincap m c = Done m' /\ Inv m'.
  Proof.
    intros m c HI. unfold reserve. destruct (Nat.ltb_spec (cap m) c) as [Hlt|Hge]; [|exists m; auto].
    pose proof HI as [Hcv Hc].
    pose proof (cv_le_length (slots m)) as Hle. fold (cap m) in Hle.
    destruct (rehash_ok m c Hcv ltac:(lia)) as [m' [Hr [Hc' [Hl Hcv']]]].
    exists m'. split; [exact Hr|]. split; [exact Hcv'|]. right. lia.
  Qed.

  Theorem step_total :
    fix_insert_wrap_guard rv = true -> fix_iter_finished rv = true ->
    forall (m : omapT) (o : op K V), Inv m ->
      exists m', step K V keqb veqb h mincap rv m o = Done m' /\ Inv m'.
  Proof.
    intros Hguard Hfin m o HI. unfold step. destruct o as [k v|k p v|k|k v|c|k|k]; cbn [step_fuel].
    - apply insert_ok; exact HI.
    - destruct (insert_or_replace_ok Hguard m k p v HI) as [m' [r [Hr HI']]].
      unfold insert_or_replace in Hr. rewrite Hr. exists m'. auto.
    - apply remove_key_ok; exact HI.
    - apply remove_value_ok; exact HI.
    - apply reserve_ok; exact HI.
    - destruct (value_total m k) as [r Hr]. unfold value in Hr. rewrite Hr. exists m. auto.
    - destruct (values_total Hfin m k) as [r Hr]. unfold values in Hr. rewrite Hr. exists m. auto.
  Qed.

  Theorem run_total_from :
    fix_insert_wrap_guard rv = true -> fix_iter_finished rv = true ->
    forall (ops : list (op K V)) (m : omapT), Inv m ->
      exists m', run K V keqb veqb h mincap rv m ops = Done m' /\ Inv m'.
  Proof.
    intros Hguard Hfin. unfold run. induction ops as [|o r IH]; intros m HI; cbn [run_fuel].
    - exists m. auto.
    - destruct (step_total Hguard Hfin m o HI) as [m1 [Hs HI1]]. unfold step in Hs. rewrite Hs.
      apply IH; exact HI1.
  Qed.

  End Bounded.

  (* a slot at which the pinned insert_or_replace probe continues *)
  Definition blocks_ior (k : K) (pred : V -> bool) (s : slotT) : bool :=
    match s with
    | Empty => false
    | Deleted => true
    | Valid k' v' => negb (keqb k' k && pred v')
    end.

  Lemma nth_forallb : forall (P : slotT -> bool) sl p, forallb P sl = true -> p < length sl -> P (nth p sl E) = true.
  Proof.
    intros P sl p Hall Hp. rewrite forallb_forall in Hall. apply Hall. apply nth_In. exact Hp.
  Qed.

  Lemma ior_pinned_no_exit : fix_insert_wrap_guard rv = false ->
    forall c start k pred nv sl, length sl = c -> forallb (blocks_ior k pred) sl = true ->
    forall fuel pos free, pos < c ->
      ior_loop K V keqb rv fuel sl c start k pred nv pos free = OutOfFuel.
  Proof.
    intros Hflag c start k pred nv sl Hlen Hall. induction fuel as [|f IH]; intros pos free Hpos; [reflexivity|].
    cbn [ior_loop]. rewrite Hflag. cbn [andb].
    pose proof (nth_forallb _ sl pos Hall ltac:(lia)) as Hb.
    destruct (nth pos sl E) as [| |k' v']; cbn [blocks_ior] in Hb; [discriminate| |].
    - apply IH. apply next_pos_lt. exact Hpos.
    - apply negb_true_iff in Hb. rewrite Hb. apply IH. apply next_pos_lt. exact Hpos.
  Qed.

  (* no Empty slot, the key (with a value accepted by the predicate) absent, no growth due:
     the pinned insert_or_replace exhausts EVERY fuel *)
  Theorem insert_or_replace_pinned_hangs : fix_insert_wrap_guard rv = false ->
    forall (m : omapT) k pred nv,
      0 < cap m -> len m < max_len (cap m) -> forallb (blocks_ior k pred) (slots m) = true ->
      forall fuel : nat -> nat, insert_or_replace_fuel K V keqb h mincap rv fuel m k pred nv = OutOfFuel.
  Proof.
    intros Hflag m k pred nv Hc Hroom Hall fuel. unfold insert_or_replace_fuel, grow_if_full.
    destruct (Nat.leb_spec (max_len (cap m)) (len m)) as [Hfull|_]; [lia|].
    rewrite (ior_pinned_no_exit Hflag (cap m)); auto.
    apply hpos_lt. exact Hc.
  Qed.

  Definition matches (k : K) (s : slotT) : bool :=
    match s with Valid k' _ => keqb k' k | _ => false end.

  Lemma values_pinned_no_exit : fix_iter_finished rv = false ->
    forall c start k sl, length sl = c ->
      forallb (fun s => negb (is_empty K V s)) sl = true ->
      forallb (fun p => negb (start =? next_pos c p) || matches k (nth p sl E)) (seq 0 c) = true ->
      forall fuel pos acc, pos < c -> values_loop K V keqb rv fuel sl c start k pos acc = OutOfFuel.
  Proof.
    intros Hflag c start k sl Hlen Hne Hlast. induction fuel as [|f IH]; intros pos acc Hpos; [reflexivity|].
    cbn [values_loop]. rewrite Hflag. cbn [andb].
    pose proof (nth_forallb _ sl pos Hne ltac:(lia)) as Hb.
    assert (Hl : negb (start =? next_pos c pos) || matches k (nth pos sl E) = true).
    { rewrite forallb_forall in Hlast. apply (Hlast pos). apply in_seq. lia. }
    pose proof (next_pos_lt c pos Hpos) as Hnp.
    destruct (nth pos sl E) as [| |k' v']; cbn [is_empty negb matches] in *; [discriminate| |].
    - rewrite orb_false_r in Hl. apply negb_true_iff in Hl. rewrite Hl. apply IH. exact Hnp.
    - destruct (keqb k' k).
      + apply IH. exact Hnp.
      + rewrite orb_false_r in Hl. apply negb_true_iff in Hl. rewrite Hl. apply IH. exact Hnp.
  Qed.

  (* no Empty slot and a value of the key in the slot just before the key's first slot:
     the pinned iterator yields values for EVERY fuel *)
  Theorem values_pinned_hangs : fix_iter_finished rv = false ->
    forall (m : omapT) k,
      0 < cap m ->
      forallb (fun s => negb (is_empty K V s)) (slots m) = true ->
      forallb (fun p => negb (hpos K h k (cap m) =? next_pos (cap m) p) || matches k (nth p (slots m) E))
              (seq 0 (cap m)) = true ->
      forall fuel : nat -> nat, values_fuel K V keqb h rv fuel m k = OutOfFuel.
  Proof.
    intros Hflag m k Hc Hne Hlast fuel. unfold values_fuel.
    destruct (Nat.eqb_spec (cap m) 0) as [Hz|_]; [lia|].
    apply (values_pinned_no_exit Hflag (cap m)); auto.
    apply hpos_lt. exact Hc.
  Qed.

End Proofs.

(* The tables two histories leave (the witnesses of Props/C19.v): u64 keys and values, identity hash, minimum
   capacity 64.
   64 x { MapImpl::insert(i, 1); MapImpl::remove(i) } leave 64 tombstones; no revision flag is consulted on the
   way (every probe ends at an Empty slot or finds its key before a full cycle), so the table is the same in
   every revision. *)
Lemma cycles_64_table : forall rv,
  run N N N.eqb N.eqb (fun k => k) 64 rv empty_map
    (flat_map (fun i => [OInsertOrReplace N N (N.of_nat i) (fun _ => true) 1%N; ORemoveKey N N (N.of_nat i)])
              (seq 0 64))
  = Done {| slots := repeat Deleted 64; len := 0 |}.
Proof. intros rv. vm_compute. reflexivity. Qed.

(* 63 x { insert(i, 1); remove_value(i, 1) }, then insert_or_replace(0, |_| false, 7): only the last operation
   consults the revision (the wrap guard, at the 63 tombstones it crosses), and it ends at the Empty slot 63
   either way. *)
Lemma iter_history_table : forall rv,
  run N N N.eqb N.eqb (fun k => k) 64 rv empty_map
    (flat_map (fun i => [OInsert N N (N.of_nat i) 1%N; ORemoveValue N N (N.of_nat i) 1%N]) (seq 0 63)
     ++ [OInsertOrReplace N N 0%N (fun _ => false) 7%N])
  = Done {| slots := repeat Deleted 63 ++ [Valid 0%N 7%N]; len := 1 |}.
Proof. intros [[] r f]; vm_compute; reflexivity. Qed.
