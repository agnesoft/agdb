(* C09 — Element properties behave as a per-element ordered key-value map.
   The statements, each proved in a few lines from the theorems of theories/DbValueEqProofs.v, KvProofs.v,
   KvDbProofs.v, KvSelectProofs.v (and DbInvProofs.v, HistoryInvProofs.v, DbInvariantProofs.v for the history
   level); the example history is evaluated here.

   Vocabulary: `kvs_get s i` is the property list of the element in slot |i| (map order);
   keys are compared with `dbv_eqb` (DbValue's derived equality);
     has_key l k       : some pair of l has a key equal to k
     kv_find l k       : the first such pair
     keys_distinct l   : no two pairs of l have equal keys
     kvs_distinct s    : every element's list is keys_distinct
     vals_distinct ks  : a request / key list without equal keys
     listed ks p       : the key of pair p is one of ks. *)
From Agdb Require Import Bytes DbValue Graph DbModel Search Queries Revisions
  DbValueEqProofs KvProofs KvDbProofs KvSelectProofs QStepProofs
  IndexDb3Proofs DbInvProofs QueryInvProofs SearchLiveProofs HistoryInvProofs.
Open Scope Z_scope.

(* ---- key equality is an equivalence; on values whose f64 payloads are 64-bit patterns it is
        Leibniz equality ---- *)
Theorem C09_key_equality :
  (forall a, dbv_eqb a a = true) /\
  (forall a b, dbv_eqb a b = dbv_eqb b a) /\
  (forall a b c, dbv_eqb a b = true -> dbv_eqb b c = true -> dbv_eqb a c = true) /\
  (forall a b, dbv_canon a -> dbv_canon b -> (dbv_eqb a b = true <-> a = b)).
Proof. exact (conj dbv_eqb_refl (conj dbv_eqb_sym (conj dbv_eqb_trans dbv_eqb_eq))). Qed.
Print Assumptions C09_key_equality.

(* ---- insert_or_replace: an existing key is replaced IN PLACE (same position, same length,
        only that pair changes), a new key is APPENDED; other elements are untouched ---- *)
Theorem C09_insert_or_replace :
  forall s i x,
  let '(o, s') := kvs_insert_or_replace s i x in
  (forall j, Z.abs i <> Z.abs j -> kvs_get s' j = kvs_get s j) /\
  match o with
  | Some old => exists l1 l2, kvs_get s i = l1 ++ old :: l2 /\ kvs_get s' i = l1 ++ x :: l2 /\
                              has_key l1 (fst x) = false /\ dbv_eqb (fst old) (fst x) = true
  | None => has_key (kvs_get s i) (fst x) = false /\ kvs_get s' i = kvs_get s i ++ [x]
  end.
Proof. exact kvs_insert_or_replace_spec. Qed.
Print Assumptions C09_insert_or_replace.

(* as a map: the inserted key reads the new value, every other key reads as before *)
Theorem C09_insert_or_replace_lookup :
  forall s i x k,
  kvs_value (snd (kvs_insert_or_replace s i x)) i k =
  if dbv_eqb (fst x) k then Some (snd x) else kvs_value s i k.
Proof. exact kvs_insert_or_replace_value. Qed.
Print Assumptions C09_insert_or_replace_lookup.

(* ---- the invariant: no element ever has two equal keys ---- *)
Theorem C09_distinct_keys_invariant :
  kvs_distinct [] /\
  (forall s i x, kvs_distinct s -> kvs_distinct (snd (kvs_insert_or_replace s i x))) /\
  (forall s i k, kvs_distinct s -> kvs_distinct (kvs_remove_value s i k)) /\
  (forall s i, kvs_distinct s -> kvs_distinct (kvs_remove s i)) /\
  (* DbImpl / query-layer loops *)
  (forall d id kvs, kvs_distinct (vals d) -> kvs_distinct (vals (insert_kvs_replace d id kvs))) /\
  (forall d id kvs, kvs_distinct (vals d) -> kvs_get (vals d) id = [] -> keys_distinct kvs ->
                    kvs_distinct (vals (insert_kvs_new d id kvs))) /\
  (forall d id keys, kvs_distinct (vals d) -> kvs_distinct (vals (snd (remove_keys d id keys)))) /\
  (forall d id, kvs_distinct (vals d) -> kvs_distinct (vals (remove_all_values d id))).
Proof.
  repeat split.
  - exact kvs_distinct_nil.
  - exact kvs_insert_or_replace_distinct.
  - exact kvs_remove_value_distinct.
  - exact kvs_remove_distinct.
  - exact insert_kvs_replace_distinct.
  - exact insert_kvs_new_distinct.
  - exact remove_keys_distinct.
  - intros d id H. rewrite remove_all_values_vals. now apply kvs_remove_distinct.
Qed.
Print Assumptions C09_distinct_keys_invariant.

(* ---- inserting values on an existing element (InsertValues / InsertNodes / InsertEdges with ids):
        every key of the list reads the value given for it (the last one if a key is repeated; for
        a list with distinct keys: THE value given), other keys and other elements are unchanged ---- *)
Theorem C09_insert_values :
  forall d id kvs,
  (forall k, kvs_value (vals (insert_kvs_replace d id kvs)) id k = last_value kvs k (kvs_value (vals d) id k)) /\
  (keys_distinct kvs ->
   forall k, kvs_value (vals (insert_kvs_replace d id kvs)) id k =
             match kv_lookup kvs k with Some v => Some v | None => kvs_value (vals d) id k end) /\
  (forall j, Z.abs id <> Z.abs j -> kvs_get (vals (insert_kvs_replace d id kvs)) j = kvs_get (vals d) j).
Proof.
  intros d id kvs. split; [|split].
  - intros k. apply insert_kvs_replace_value.
  - intros Hd k. rewrite insert_kvs_replace_value. now apply last_value_distinct.
  - intros j Hj. now apply insert_kvs_replace_other.
Qed.
Print Assumptions C09_insert_values.

(* values of a newly created element are appended in the given order *)
Theorem C09_insert_new_values :
  forall d id kvs j,
  kvs_get (vals (insert_kvs_new d id kvs)) j =
  if Z.abs id =? Z.abs j then kvs_get (vals d) id ++ kvs else kvs_get (vals d) j.
Proof. exact insert_kvs_new_get. Qed.
Print Assumptions C09_insert_new_values.

(* ---- removing keys deletes exactly the listed keys, keeps the order of the rest, returns their
        number, and touches no other element ---- *)
Theorem C09_remove_keys :
  forall d id keys, keys_distinct (kvs_get (vals d) id) ->
  let r := remove_keys d id keys in
  kvs_get (vals (snd r)) id = filter (fun p => negb (listed keys p)) (kvs_get (vals d) id) /\
  fst r = Z.of_nat (length (filter (listed keys) (kvs_get (vals d) id))) /\
  (forall j, Z.abs id <> Z.abs j -> kvs_get (vals (snd r)) j = kvs_get (vals d) j).
Proof. exact remove_keys_spec. Qed.
Print Assumptions C09_remove_keys.

(* ---- removing an element removes all its properties (so a later element reusing the slot
        starts with none) ---- *)
Theorem C09_remove_element_clears :
  (forall d id j, kvs_get (vals (remove_all_values d id)) j = if Z.abs id =? Z.abs j then [] else kvs_get (vals d) j) /\
  (forall d id d', remove_id d id = (d', ROk true) -> kvs_get (vals d') id = []) /\
  (forall d q d' id, remove_q d q = (d', ROk true) -> db_id d q = ROk id -> kvs_get (vals d') id = []).
Proof. exact (conj remove_all_values_get (conj remove_id_clears remove_q_clears)). Qed.
Print Assumptions C09_remove_element_clears.

(* ---- selection by keys: exactly, for each request position in order, the element's pairs whose
        key first occurs in the request at that position (no side condition) ... ---- *)
Theorem C09_values_by_keys :
  forall s i keys,
  kvs_values_by_keys s i keys =
  flat_map (fun m => filter (fun p : kv => pos_is keys (fst p) m) (kvs_get s i)) (seq 0 (length keys)).
Proof. exact kvs_values_by_keys_buckets. Qed.
Print Assumptions C09_values_by_keys.

(* ... which for distinct keys is: the pair of each requested key that is present, in request order *)
Theorem C09_values_by_keys_distinct :
  forall s i keys, keys_distinct (kvs_get s i) -> vals_distinct keys ->
  kvs_values_by_keys s i keys = flat_map (found_pair (kvs_get s i)) keys.
Proof. exact kvs_values_by_keys_distinct. Qed.
Print Assumptions C09_values_by_keys_distinct.

(* ---- SelectValues (values_of d [] id = the whole list in map order; values_of d keys id = values_by_keys):
        explicit ids: NotFound iff some id misses a requested key, else one element per id;
        search: missing keys are skipped ---- *)
Theorem C09_select_values :
  forall rv d keys,
  (forall l, select_values rv d keys (Ids l) =
             match resolve_all d l with
             | RErr e => QErr e
             | ROk ids => if existsb (missing_key d keys) ids then QErr ENotFound
                          else QOk (lenZ ids) (map (fun id => elem d id (values_of d keys id)) ids)
             end) /\
  (forall s, select_values rv d keys (QSearch s) =
             match search rv d s with
             | SErr e => QErr e
             | SPanic => QPanic
             | SOk ids => QOk (lenZ ids) (map (fun id => elem d id (values_of d keys id)) ids)
             end) /\
  (forall id, values_of d [] id = kvs_get (vals d) id /\ missing_key d [] id = false) /\
  (forall id, keys <> [] -> keys_distinct (kvs_get (vals d) id) -> vals_distinct keys ->
              values_of d keys id = flat_map (found_pair (kvs_get (vals d) id)) keys /\
              missing_key d keys id = existsb (fun k => negb (has_key (kvs_get (vals d) id) k)) keys).
Proof.
  intros rv d keys. split; [|split; [|split]].
  - intros l. apply select_values_ids.
  - intros s. apply select_values_search.
  - intros id. split; [reflexivity|apply missing_key_all].
  - intros id Hne Hl Hk. split; [|now apply missing_key_distinct].
    unfold values_of. destruct keys; [congruence|]. now apply kvs_values_by_keys_distinct.
Qed.
Print Assumptions C09_select_values.

(* keys and key counts are read off the same lists *)
Theorem C09_select_keys :
  forall rv d ids,
  exec_select rv d (SelectKeys ids) =
  match resolve_ids rv d ids with
  | SErr e => QErr e
  | SPanic => QPanic
  | SOk l => QOk (lenZ l) (map (fun id => elem d id (map (fun x : kv => (fst x, default_value)) (kvs_get (vals d) id))) l)
  end.
Proof. reflexivity. Qed.
Print Assumptions C09_select_keys.

Theorem C09_select_key_count :
  forall rv d ids,
  exec_select rv d (SelectKeyCount ids) =
  match resolve_ids rv d ids with
  | SErr e => QErr e
  | SPanic => QPanic
  | SOk l => QOk (fold_left (fun a id => a + lenZ (kvs_get (vals d) id)) l 0)
                 (map (fun id => elem d id [key_count_kv (lenZ (kvs_get (vals d) id))]) l)
  end.
Proof. reflexivity. Qed.
Print Assumptions C09_select_key_count.

(* ---- non-vacuity: a concrete history exercising replace-in-place, append, removal and both
        selections on the model ---- *)
Example C09_nonvacuous :
  let d := exec_all rv_fixed db_new c09_history in
  kvs_get (vals d) 1 = [(c09_k 2, DI64 21); (c09_k 3, DI64 30); (c09_k 4, DI64 40)] /\
  keys_distinct (kvs_get (vals d) 1) /\
  exec_select rv_fixed d (SelectValues [c09_k 4; c09_k 2] (Ids [QId 1])) =
    QOk 1 [elem d 1 [(c09_k 4, DI64 40); (c09_k 2, DI64 21)]] /\
  exec_select rv_fixed d (SelectValues [c09_k 1] (Ids [QId 1])) = QErr ENotFound.
Proof.
  cbv zeta. split; [vm_compute; reflexivity|]. split; [vm_compute; tauto|].
  split; vm_compute; reflexivity.
Qed.
Print Assumptions C09_nonvacuous.

(* all histories: every state inside a running transaction (the partial state of a failing query included)
   and the state after every history from db_new in which no query fails have no element with two equal
   keys, and only existing elements have properties (so a new element reusing a slot inherits none).
   Inv d (theories/DbInvProofs.v) = graph well-formed (C08's wf) /\ alias_bij d /\ alias_nodes d /\
   no element with two equal keys /\ idx_inv d;  query_ok q = the insert lists of q have distinct keys;
   all_succeed rv d qs = no query of qs fails;  traversal_live rv = breadth/depth-first and path searches
   return only existing elements.
   The two theorems below assume `traversal_live rv_fixed`.  That hypothesis is FALSE
   (C10_traversal_live_refuted, Props/C10.v: its path-search clause does not ask the origin to exist), so
   they hold vacuously; C09_transaction and C09_history state the same conclusions without it. *)
Theorem C09_transaction_partial :
  traversal_live rv_fixed ->
  forall d qs acc, Forall query_ok qs -> Inv d ->
  let d1 := fst (fst (txn_run rv_fixed d qs acc)) in kvs_distinct (vals d1) /\ vals_live d1.
Proof.
  intros Ht d qs acc Hq Hd. pose proof (transaction_state_Inv rv_fixed Ht eq_refl d qs acc Hq Hd) as H.
  split; [now apply Inv_distinct|apply (Inv_index _ H)].
Qed.
Print Assumptions C09_transaction_partial.

Theorem C09_history_partial :
  traversal_live rv_fixed ->
  forall qs, Forall query_ok qs -> all_succeed rv_fixed db_new qs ->
  kvs_distinct (vals (exec_all rv_fixed db_new qs)) /\ vals_live (exec_all rv_fixed db_new qs).
Proof.
  intros Ht qs Hq Hs. apply Inv_values.
  exact (history_from_new_sl rv_fixed (search_live_of_traversal rv_fixed Ht) eq_refl qs Hq Hs).
Qed.
Print Assumptions C09_history_partial.

(* id reuse: in a state satisfying the invariant a newly created node or edge (which may reuse the
   slot of a removed element) starts without any property *)
Theorem C09_new_element_empty :
  forall d, Inv d ->
  kvs_get (vals (snd (insert_node_db d))) (fst (insert_node_db d)) = [] /\
  (forall f t e d', live d f = true -> live d t = true -> insert_edge_db d f t = ROk (e, d') ->
                    kvs_get (vals d') e = []).
Proof.
  intros d Hd. split; [apply (insert_node_db_Inv d Hd)|].
  intros f t e d' Hf Ht Hi. apply (insert_edge_db_Inv d f t e d' Hd Hf Ht Hi).
Qed.
Print Assumptions C09_new_element_empty.

Example C09_history_nonvacuous : Forall query_ok c09_history /\ all_succeed rv_fixed db_new c09_history.
Proof.
  split.
  - repeat constructor; cbn; repeat split; reflexivity.
  - cbn [all_succeed c09_history]. repeat split; vm_compute; reflexivity.
Qed.
Print Assumptions C09_history_nonvacuous.

(* the same without hypothesis on traversals: theories/TraversalLiveProofs.v derives, under the graph
   invariant wf (part of Inv), that every id returned by any search of rv_fixed exists (`search_live_fixed`).
   Scope: histories in which no query fails (`all_succeed`); histories with failing queries and rolled-back
   transactions are covered by C13_history_atomic (Props/C13.v), with the capacity bound 2^63 of C13. *)
From Agdb Require Import TraversalLiveProofs DbInvariantProofs.

Theorem C09_transaction :
  forall d qs acc, Forall query_ok qs -> Inv d ->
  let d1 := fst (fst (txn_run rv_fixed d qs acc)) in kvs_distinct (vals d1) /\ vals_live d1.
Proof. intros d qs acc Hq Hd. apply Inv_values. now apply transaction_state_Inv_fixed. Qed.
Print Assumptions C09_transaction.

Theorem C09_history :
  forall qs, Forall query_ok qs -> all_succeed rv_fixed db_new qs ->
  kvs_distinct (vals (exec_all rv_fixed db_new qs)) /\ vals_live (exec_all rv_fixed db_new qs).
Proof. intros qs Hq Hs. apply Inv_values. now apply history_Inv_fixed. Qed.
Print Assumptions C09_history.

(* ---- the abstract database: what users rely on, at every point of every history ----------------
   C09_history_all: the joint invariant Inv holds after EVERY history of queries (Db::exec / exec_mut,
   rolled back when they fail) and transactions (committed, or rolled back when a query fails or a
   failure is injected at the end) from the empty database — theories/HistoryAtomicProofs.v, pinned
   with the rollback statements as C13_history_atomic.  item_ok = query_ok for every query (no insert
   list names a key twice), bounded = the capacity stays <= 2^63.
   C09_abstract_database: what Inv means for a user, in one place:
     ids        every id / alias that resolves denotes an existing element;
     aliases    one-to-one names of existing nodes;
     properties an element never has two equal keys, only existing elements have properties (so a new
                element reusing a slot starts with none);
     indexes    an index search for (K, V) returns exactly, as a multiset, the existing elements whose
                value of K equals V;
     searches   every id returned by ANY search (index, elements, breadth/depth first, path; any
                conditions, limit, offset, order) exists;
     graph      every edge joins two existing nodes; a node's out-/in-list is exactly the set of
                existing edges leaving / entering it and the degree counters are their lengths;
                a breadth/depth-first search without conditions from an existing element returns
                exactly the elements reachable from it, each once, origin first;
     removal    any element can be removed (never fails; afterwards it does not exist). *)
From Agdb Require Import GraphWf GraphC08 DbCascadeProofs AdjOk TraverseProofs AdjOkWf ImapProofs
  GraphSim TraverseSpec AliasProofs HistoryAtomicProofs.

Theorem C09_history_all :
  forall its, Forall item_ok its -> bounded rv_fixed db_new its -> Inv (run_items rv_fixed db_new its).
Proof. intros its Hok Hb. apply (history_HInv_fixed its Hok Hb). Qed.
Print Assumptions C09_history_all.

Theorem C09_abstract_database :
  forall d, Inv d ->
  (forall q id, db_id d q = ROk id -> live d id = true) /\
  (alias_bij d /\ alias_nodes d /\
   forall a b id, imap_value (aliases d) a = Some id -> imap_value (aliases d) b = Some id -> a = b) /\
  (kvs_distinct (vals d) /\ vals_live d) /\
  (forall key ids value id, idx_find (indexes d) key = Some ids ->
     count_occ Z.eq_dec (map snd (filter (fun p : dbvalue * Z => dbv_eqb (fst p) value) ids)) id =
     if live d id then match kvs_value (vals d) id key with
                       | Some v' => IndexProofs.b2nat (dbv_eqb v' value)
                       | None => 0%nat
                       end
     else 0%nat) /\
  (forall s ids, search rv_fixed d s = SOk ids -> forall id, In id ids -> live d id = true) /\
  (forall e, is_edge (gr d) e = true ->
     0 < edge_from (gr d) e /\ is_node (gr d) (edge_from (gr d) e) = true /\
     0 < edge_to (gr d) e /\ is_node (gr d) (edge_to (gr d) e) = true) /\
  (forall n, 0 < n -> is_node (gr d) n = true ->
     (forall e, In e (out_edges (gr d) n) <-> e < 0 /\ is_edge (gr d) e = true /\ edge_from (gr d) e = n) /\
     (forall e, In e (in_edges (gr d) n) <-> e < 0 /\ is_edge (gr d) e = true /\ edge_to (gr d) e = n) /\
     edge_count_from (gr d) n = Z.of_nat (length (out_edges (gr d) n)) /\
     edge_count_to (gr d) n = Z.of_nat (length (in_edges (gr d) n))) /\
  (forall a reverse origin, live d origin = true ->
     exists r, graph_search rv_fixed d a reverse origin [] HDefault = Some (origin :: r) /\
               NoDup (origin :: r) /\ (forall x, In x (origin :: r) <-> reach (gr d) reverse origin x)) /\
  (forall id, exists d' b, remove_id d id = (d', ROk b) /\ live d' id = false).
Proof.
  intros d Hd. pose proof Hd as (Hwf & Hb & Hn & Hk & Hi).
  split; [intros q id; now apply db_id_live|].
  split; [split; [exact Hb|split; [exact Hn|intros a b id; now apply bij_injective]]|].
  split; [now apply Inv_values|].
  split; [apply (Inv_indexes d Hd)|].
  split; [intros s ids; now apply search_live_fixed|].
  split; [intros e; now apply wf_edge_ends|].
  split.
  { intros n Hp Hnode. destruct (wf_adjacency (gr d) n Hwf Hp Hnode) as [(_ & A & B) (_ & C & D)]. auto. }
  split; [intros a reverse origin Ho; now apply traversal_exact_wf|].
  intros id. destruct (remove_id_total d id Hwf) as (d' & b & E & _ & G). exists d', b. now split.
Qed.
Print Assumptions C09_abstract_database.
