(* RecordsLoadProofs.v — the table while a file is loaded: set_record and
   rebuild_free_index (Records.v). *)
From Agdb Require Import Bytes BytesProofs Records RecordsProofs RecordsTableProofs.
From Coq Require Import ZifyBool ZifyNat ZifyN.
Open Scope N_scope.

Lemma nth_error_repeat {A} (x : A) n j : nth_error (repeat x n) j = if Nat.ltb j n then Some x else None.
Proof.
  revert j; induction n as [|n IH]; intros [|j]; cbn [repeat nth_error]; try reflexivity.
  rewrite IH. destruct (Nat.ltb_spec j n), (Nat.ltb_spec (S j) (S n)); try reflexivity; lia.
Qed.

Lemma set_record_live rs r : r_index r <> 0 ->
  fps (set_record rs r) = fps rs /\ fsp (set_record rs r) = fsp rs /\
  length (recs (set_record rs r)) = Nat.max (length (recs rs)) (S (N.to_nat (r_index r))) /\
  forall j, nth_error (recs (set_record rs r)) j =
            if Nat.eqb j (N.to_nat (r_index r)) then Some r
            else if Nat.ltb j (length (recs rs)) then nth_error (recs rs) j
            else if Nat.ltb j (S (N.to_nat (r_index r))) then Some rec0 else None.
Proof.
  intros Hi. unfold set_record. destruct (N.eqb_spec (r_index r) 0); [congruence|].
  cbn [fps fsp recs set_recs]. split; [reflexivity|]. split; [reflexivity|].
  set (i := N.to_nat (r_index r)). set (l := recs rs ++ repeat rec0 (S i - length (recs rs))).
  assert (HL : length l = Nat.max (length (recs rs)) (S i)) by (unfold l; rewrite app_length, repeat_length; lia).
  split; [rewrite upd_length; exact HL|].
  intros j. rewrite nth_error_upd, HL.
  destruct (Nat.eqb_spec j i) as [->|Hj].
  - destruct (Nat.ltb_spec i (Nat.max (length (recs rs)) (S i))); [reflexivity|lia].
  - unfold l. destruct (Nat.ltb_spec j (length (recs rs))).
    + now rewrite nth_error_app1.
    + rewrite nth_error_app2 by lia. rewrite nth_error_repeat.
      destruct (Nat.ltb_spec (j - length (recs rs)) (S i - length (recs rs))), (Nat.ltb_spec j (S i)); try reflexivity; lia.
Qed.

Lemma set_record_free rs r : r_index r = 0 -> set_record rs r = mark_free rs (r_pos r) (r_size r).
Proof. intros H. unfold set_record. rewrite H. reflexivity. Qed.

Lemma free_index_maps rs j : fps (free_index rs j) = fps rs /\ fsp (free_index rs j) = fsp rs.
Proof. unfold free_index. destruct (rget rs j); split; reflexivity. Qed.

(* slots below k are live or on the free-index list, slots from k on are live or blank *)
Definition pwf (l : list srec) (k : nat) : Prop :=
  exists r0 fl, nth_error l 0 = Some r0 /\ fchain l (r_index r0) fl /\ NoDup fl /\
    (forall x, In x fl -> (N.to_nat x < k)%nat) /\
    forall i r, (0 < i)%nat -> nth_error l i = Some r ->
      ((i < k)%nat -> In (N.of_nat i) fl \/ r_index r = N.of_nat i) /\
      ((k <= i)%nat -> r_index r = 0 \/ r_index r = N.of_nat i).

Lemma pwf_twf l : lenN l < two64 -> pwf l (length l) -> twf l.
Proof.
  intros HL (r0 & fl & H0 & Hc & ND & _ & Hall). split; [exact HL|].
  exists r0, fl. split; [exact H0|]. split; [exact Hc|]. split; [exact ND|].
  intros i r Hi Hr. apply (Hall i r Hi Hr). apply nth_error_Some_lt in Hr. exact Hr.
Qed.

Lemma rebuild_from_spec n : forall k rs,
  pwf (recs rs) k -> (1 <= k)%nat -> (k + n = length (recs rs))%nat ->
  pwf (recs (rebuild_from n k rs)) (length (recs rs)) /\
  length (recs (rebuild_from n k rs)) = length (recs rs) /\
  fps (rebuild_from n k rs) = fps rs /\ fsp (rebuild_from n k rs) = fsp rs /\
  forall j, live_at (recs (rebuild_from n k rs)) j = live_at (recs rs) j.
Proof.
  induction n as [|n IH]; intros k rs PW Hk Hlen; cbn [rebuild_from].
  - replace (length (recs rs)) with k by lia. auto.
  - destruct (nth_error_lt_Some (recs rs) k ltac:(lia)) as (r & Hr).
    rewrite (nth_error_nth _ _ rec0 _ Hr).
    destruct PW as (r0 & fl & H0 & Hc & ND & Hfl & Hall).
    destruct (N.eqb_spec (r_index r) 0) as [Ez|Enz].
    + (* a blank slot: push it on the free-index list *)
      set (h := r_index r0) in *.
      assert (Hk0 : N.to_nat (N.of_nat k) = k) by lia.
      assert (Efi : recs (free_index rs (N.of_nat k)) =
                    set_head (upd (recs rs) k {| r_index := h; r_pos := U64MAX; r_size := r_size r |}) (N.of_nat k)).
      { unfold free_index, rget. rewrite Hk0, Hr, (head_free_eq _ _ H0), (nth_error_nth _ _ rec0 _ Hr). reflexivity. }
      assert (H0' : nth_error (upd (recs rs) k {| r_index := h; r_pos := U64MAX; r_size := r_size r |}) 0 = Some r0).
      { rewrite nth_error_upd. destruct (Nat.eqb_spec 0 k); [lia|assumption]. }
      assert (NE : forall j, nth_error (recs (free_index rs (N.of_nat k))) j =
                             if Nat.eqb j 0 then Some {| r_index := N.of_nat k; r_pos := r_pos r0; r_size := r_size r0 |}
                             else if Nat.eqb j k then Some {| r_index := h; r_pos := U64MAX; r_size := r_size r |}
                             else nth_error (recs rs) j).
      { intros j. rewrite Efi, (nth_error_set_head _ _ _ _ H0'). destruct (Nat.eqb_spec j 0); [reflexivity|].
        rewrite nth_error_upd. destruct (Nat.eqb_spec j k); [|reflexivity].
        destruct (Nat.ltb_spec k (length (recs rs))); [reflexivity|lia]. }
      assert (Hlen1 : length (recs (free_index rs (N.of_nat k))) = length (recs rs)).
      { rewrite Efi, set_head_length, upd_length. reflexivity. }
      assert (Hkfl : ~ In (N.of_nat k) fl) by (intros H; apply Hfl in H; lia).
      assert (Hhk : h <> N.of_nat k).
      { destruct (fchain_head _ _ _ Hc) as [[E _]|[_ [t E]]]; [lia|]. intros E'. apply Hkfl. rewrite E, <- E'. left; reflexivity. }
      assert (PW1 : pwf (recs (free_index rs (N.of_nat k))) (S k)).
      { exists {| r_index := N.of_nat k; r_pos := r_pos r0; r_size := r_size r0 |}, (N.of_nat k :: fl).
        split; [rewrite NE; reflexivity|]. cbn [r_index]. split.
        { econstructor; [lia| |].
          - rewrite NE, Hk0. destruct (Nat.eqb_spec k 0); [lia|]. rewrite Nat.eqb_refl. reflexivity.
          - cbn [r_index]. eapply fchain_ext; [|exact Hc]. intros x Hx. rewrite NE.
            destruct (fchain_member _ _ _ Hc ND x Hx) as (Hx0 & _). pose proof (Hfl x Hx).
            destruct (Nat.eqb_spec (N.to_nat x) 0); [lia|]. destruct (Nat.eqb_spec (N.to_nat x) k); [lia|reflexivity]. }
        split; [constructor; assumption|]. split.
        { intros x [<-|Hx]; [lia|]. apply Hfl in Hx. lia. }
        intros i r' Hi Hr'. rewrite NE in Hr'. destruct (Nat.eqb_spec i 0); [lia|].
        destruct (Nat.eqb_spec i k) as [->|Hik].
        - split; [intros _; left; left; reflexivity|intros; lia].
        - destruct (Hall i r' Hi Hr') as [Ha Hb]. split.
          + intros Hlt. destruct (Ha ltac:(lia)); [left; right; assumption|right; assumption].
          + intros Hge. apply Hb. lia. }
      destruct (IH (S k) (free_index rs (N.of_nat k)) PW1 ltac:(lia) ltac:(lia)) as (P & L & F1 & F2 & LV).
      rewrite Hlen1 in P, L. split; [exact P|]. split; [exact L|].
      split; [rewrite F1; apply free_index_maps|]. split; [rewrite F2; apply free_index_maps|].
      intros j. rewrite LV. unfold live_at. rewrite NE.
      destruct (Nat.eqb_spec (N.to_nat j) 0) as [Ej|Ej].
      * assert (j = 0) by lia. subst j. change (N.to_nat 0) with 0%nat. rewrite H0. reflexivity.
      * destruct (Nat.eqb_spec (N.to_nat j) k) as [Ek|Ek]; [|reflexivity].
        rewrite Ek, Hr, Ez. cbn [r_index].
        destruct (N.eqb_spec h j); [lia|]. destruct (N.eqb_spec 0 j); [lia|]. now rewrite !andb_false_r.
    + (* a live slot *)
      assert (Hrk : r_index r = N.of_nat k).
      { destruct (Hall k r ltac:(lia) Hr) as [_ Hb]. destruct (Hb ltac:(lia)); [congruence|assumption]. }
      assert (PW1 : pwf (recs rs) (S k)).
      { exists r0, fl. split; [exact H0|]. split; [exact Hc|]. split; [exact ND|]. split.
        { intros x Hx. apply Hfl in Hx. lia. }
        intros i r' Hi Hr'. destruct (Hall i r' Hi Hr') as [Ha Hb]. split.
        - intros Hlt. destruct (Nat.eq_dec i k) as [->|]; [right; congruence|apply Ha; lia].
        - intros Hge. apply Hb. lia. }
      exact (IH (S k) rs PW1 ltac:(lia) ltac:(lia)).
Qed.
