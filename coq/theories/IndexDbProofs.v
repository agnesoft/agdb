(* IndexDbProofs.v — C11: the exactness invariant of the indexes and its preservation by the value
   mutations of DbImpl (insert, insert-or-replace, remove_keys).

   The invariant is stated relative to a set E of live element ids (E id = the element with this
   signed id exists); for a database state the intended E is `graph_index (gr d)`.  Keeping E a
   parameter lets the removal functions (which change the graph first and the values afterwards)
   be handled compositionally. *)
From Agdb Require Import Bytes DbValue Graph DbModel Search Queries DbValueEqProofs DbFrameProofs KvProofs KvDbProofs KvSelectProofs IndexProofs.
From Coq Require Import ZifyBool ZifyNat ZifyN.
Open Scope Z_scope.

(* an id and its negation never both denote live elements (a slot is a node or an edge) *)
Definition E_ok (E : Z -> bool) : Prop := forall i, E i = true -> E (- i) = false.

(* every index holds, for each live element and each value class, exactly as many entries as the
   element has pairs (key, value); dead ids have no entries *)
Definition idx_exact_on (E : Z -> bool) (d : db) : Prop :=
  forall key ids, idx_find (indexes d) key = Some ids ->
  forall P, respects P -> forall id,
    cntP ids P id = if E id then cntK (kvs_get (vals d) id) key P else 0%nat.

(* only live elements have properties *)
Definition vals_live_on (E : Z -> bool) (d : db) : Prop :=
  forall i, E i = false -> E (- i) = false -> kvs_get (vals d) i = [].

(* read without the side condition: every predicate respects dbv_eqb *)
Lemma idx_exact_count E d key ids :
  idx_exact_on E d -> idx_find (indexes d) key = Some ids ->
  forall P id, cntP ids P id = if E id then cntK (kvs_get (vals d) id) key P else 0%nat.
Proof. intros H Hf P id. exact (H key ids Hf P (respects_all P) id). Qed.

Lemma E_ok_zero E : E_ok E -> E 0 = false.
Proof. intros H. destruct (E 0) eqn:E0; [|reflexivity]. pose proof (H 0 E0) as H1. cbn in H1. congruence. Qed.

Lemma idx_exact_on_ext E E' d : (forall i, E i = E' i) -> idx_exact_on E d -> idx_exact_on E' d.
Proof. intros He H key ids Hf P HP id. rewrite <- He. now apply H. Qed.

Lemma vals_live_on_ext E E' d : (forall i, E i = E' i) -> vals_live_on E d -> vals_live_on E' d.
Proof. intros He H i H1 H2. apply H; now rewrite He. Qed.

Lemma abs_cases a b : Z.abs a = Z.abs b <-> b = a \/ b = - a.
Proof. lia. Qed.

Lemma kvs_get_neg s i : kvs_get s (- i) = kvs_get s i.
Proof. apply kvs_get_abs. lia. Qed.

(* A change confined to the live element `id`.  The premises, in order: the two signs of a slot are
   not both live; `id` is live; the invariant before; no other slot's list changes; the indexes
   change by rewriting the entries of key k with f; f leaves the entries of other elements alone;
   and for every key the entries of `id` still agree with its new list (for keys other than k the
   entries are the old ones, so this says the list's pairs with that key are unchanged). *)
Lemma idx_exact_update E d d' id k f :
  E_ok E -> E id = true -> idx_exact_on E d ->
  (forall j, Z.abs id <> Z.abs j -> kvs_get (vals d') j = kvs_get (vals d) j) ->
  indexes d' = idx_update (indexes d) k f ->
  (forall ids P id', id' <> id -> cntP (f ids) P id' = cntP ids P id') ->
  (forall key ids, agrees ids id (kvs_get (vals d) id) key ->
                   agrees (if dbv_eqb k key then f ids else ids) id (kvs_get (vals d') id) key) ->
  idx_exact_on E d'.
Proof.
  intros Hok Hid Hd Hother Hix Hne Hag key ids' Hf P _ id'.
  rewrite Hix, idx_find_update in Hf.
  destruct (idx_find (indexes d) key) as [ids|] eqn:Hf0; [|discriminate]. injection Hf as <-.
  pose proof (idx_exact_count E d key ids Hd Hf0) as Hd'.
  destruct (Z.eq_dec id' id) as [->|Hn].
  - rewrite Hid. apply Hag. intros Q. now rewrite Hd', Hid.
  - transitivity (cntP ids P id'); [destruct (dbv_eqb k key); [now apply Hne|reflexivity]|].
    rewrite Hd'. destruct (Z.eq_dec (Z.abs id) (Z.abs id')) as [Ha|Ha].
    + apply abs_cases in Ha. destruct Ha as [Ha|Ha]; [congruence|]. subst id'. now rewrite (Hok id Hid).
    + now rewrite (Hother id' Ha).
Qed.

Lemma vals_live_local E d d' id :
  E id = true -> vals_live_on E d ->
  (forall j, Z.abs id <> Z.abs j -> kvs_get (vals d') j = kvs_get (vals d) j) ->
  vals_live_on E d'.
Proof.
  intros Hid Hl Hother i H1 H2.
  destruct (Z.eq_dec (Z.abs id) (Z.abs i)) as [Ha|Ha].
  - apply abs_cases in Ha. destruct Ha as [-> | ->]; [congruence|]. rewrite Z.opp_involutive in H2. congruence.
  - rewrite (Hother i Ha). now apply Hl.
Qed.

(* one pair inserted / removed / replaced, with the matching index update *)
Lemma insert_one_exact E d d' id x pre post :
  E_ok E -> E id = true -> idx_exact_on E d ->
  kvs_get (vals d) id = pre ++ post -> kvs_get (vals d') id = pre ++ x :: post ->
  (forall j, Z.abs id <> Z.abs j -> kvs_get (vals d') j = kvs_get (vals d) j) ->
  indexes d' = idx_insert_id (indexes d) (fst x) (snd x) id ->
  idx_exact_on E d'.
Proof.
  intros Hok Hid Hd Hget Hget' Hother Hix.
  apply (idx_exact_update E d d' id (fst x) _ Hok Hid Hd Hother Hix).
  - intros ids P id'. apply cntP_snoc_other.
  - intros key ids. rewrite Hget, Hget'. apply agrees_insert.
Qed.

Lemma remove_one_exact E d d' id x pre post :
  E_ok E -> E id = true -> idx_exact_on E d ->
  kvs_get (vals d) id = pre ++ x :: post -> kvs_get (vals d') id = pre ++ post ->
  (forall j, Z.abs id <> Z.abs j -> kvs_get (vals d') j = kvs_get (vals d) j) ->
  indexes d' = idx_remove_id (indexes d) (fst x) (snd x) id ->
  idx_exact_on E d'.
Proof.
  intros Hok Hid Hd Hget Hget' Hother Hix.
  apply (idx_exact_update E d d' id (fst x) _ Hok Hid Hd Hother Hix).
  - intros ids P id'. apply cntP_remove_other.
  - intros key ids. rewrite Hget, Hget'. apply agrees_remove.
Qed.

(* a replacement is the removal of the old pair followed by the insertion of the new one in its
   place, both on the index of the one key *)
Lemma replace_one_exact E d d' id old x l1 l2 :
  E_ok E -> E id = true -> idx_exact_on E d ->
  dbv_eqb (fst old) (fst x) = true ->
  kvs_get (vals d) id = l1 ++ old :: l2 -> kvs_get (vals d') id = l1 ++ x :: l2 ->
  (forall j, Z.abs id <> Z.abs j -> kvs_get (vals d') j = kvs_get (vals d) j) ->
  indexes d' = idx_insert_id (idx_remove_id (indexes d) (fst old) (snd old) id) (fst old) (snd x) id ->
  idx_exact_on E d'.
Proof.
  intros Hok Hid Hd Hkey%dbv_eqb_true Hget Hget' Hother Hix.
  unfold idx_insert_id, idx_remove_id in Hix. rewrite idx_update_update in Hix.
  apply (idx_exact_update E d d' id (fst old) _ Hok Hid Hd Hother Hix).
  - intros ids P id' Hn. now rewrite cntP_snoc_other, cntP_remove_other.
  - intros key ids Hag. rewrite Hget in Hag. rewrite Hget'.
    apply agrees_remove, (agrees_insert _ id l1 l2 x key) in Hag. rewrite <- Hkey in Hag.
    now destruct (dbv_eqb (fst old) key).
Qed.

Lemma insert_key_value_exact E d id x :
  E_ok E -> E id = true -> idx_exact_on E d -> idx_exact_on E (insert_key_value d id x).
Proof.
  intros Hok Hid Hd. apply (insert_one_exact E d _ id x (kvs_get (vals d) id) [] Hok Hid Hd).
  - now rewrite app_nil_r.
  - rewrite insert_key_value_vals, kvs_get_insert_value. now rewrite abs_eqb_refl.
  - intros j Hj. rewrite insert_key_value_vals, kvs_get_insert_value. now rewrite (proj2 (Z.eqb_neq _ _) Hj).
  - reflexivity.
Qed.

Lemma insert_or_replace_key_value_exact E d id x :
  E_ok E -> E id = true -> idx_exact_on E d -> idx_exact_on E (insert_or_replace_key_value d id x).
Proof.
  intros Hok Hid Hd. pose proof (kvs_insert_or_replace_spec (vals d) id x) as Hs.
  pose proof (insert_or_replace_key_value_vals d id x) as Hv.
  unfold insert_or_replace_key_value in *.
  destruct (kvs_insert_or_replace (vals d) id x) as [[old|] s]; cbn [snd] in Hv; destruct Hs as [Hother Hs].
  - destruct Hs as (l1 & l2 & H1 & H2 & H3 & H4).
    apply (replace_one_exact E d _ id old x l1 l2 Hok Hid Hd H4 H1).
    + rewrite Hv. exact H2.
    + intros j Hj. rewrite Hv. now apply Hother.
    + reflexivity.
  - destruct Hs as [H1 H2].
    apply (insert_one_exact E d _ id x (kvs_get (vals d) id) [] Hok Hid Hd).
    + now rewrite app_nil_r.
    + rewrite Hv. exact H2.
    + intros j Hj. rewrite Hv. now apply Hother.
    + reflexivity.
Qed.

Lemma insert_key_value_live E d id x :
  E id = true -> vals_live_on E d -> vals_live_on E (insert_key_value d id x).
Proof.
  intros Hid Hl. apply (vals_live_local E d _ id Hid Hl).
  intros j Hj. rewrite insert_key_value_vals, kvs_get_insert_value. now rewrite (proj2 (Z.eqb_neq _ _) Hj).
Qed.

Lemma insert_or_replace_key_value_live E d id x :
  E id = true -> vals_live_on E d -> vals_live_on E (insert_or_replace_key_value d id x).
Proof.
  intros Hid Hl. apply (vals_live_local E d _ id Hid Hl).
  intros j Hj. rewrite insert_or_replace_key_value_vals. now apply kvs_insert_or_replace_other.
Qed.

Lemma reserve_kv_exact E d id : idx_exact_on E d -> idx_exact_on E (reserve_kv d id).
Proof.
  intros Hd key ids Hf P HP id'. rewrite reserve_kv_vals, kvs_get_reserve. now apply Hd.
Qed.

Lemma reserve_kv_live E d id : vals_live_on E d -> vals_live_on E (reserve_kv d id).
Proof. intros Hl i H1 H2. rewrite reserve_kv_vals, kvs_get_reserve. now apply Hl. Qed.

Lemma insert_kvs_replace_exact E d id kvs :
  E_ok E -> E id = true -> idx_exact_on E d -> idx_exact_on E (insert_kvs_replace d id kvs).
Proof.
  intros Hok Hid Hd. unfold insert_kvs_replace.
  apply fold_left_inv; [now apply reserve_kv_exact|].
  intros a x _ Ha. now apply insert_or_replace_key_value_exact.
Qed.

Lemma insert_kvs_new_exact E d id kvs :
  E_ok E -> E id = true -> idx_exact_on E d -> idx_exact_on E (insert_kvs_new d id kvs).
Proof.
  intros Hok Hid Hd. unfold insert_kvs_new.
  apply fold_left_inv; [now apply reserve_kv_exact|].
  intros a x _ Ha. now apply insert_key_value_exact.
Qed.

Lemma insert_kvs_replace_live E d id kvs :
  E id = true -> vals_live_on E d -> vals_live_on E (insert_kvs_replace d id kvs).
Proof.
  intros Hid Hl. unfold insert_kvs_replace.
  apply fold_left_inv; [now apply reserve_kv_live|].
  intros a x _ Ha. now apply insert_or_replace_key_value_live.
Qed.

Lemma insert_kvs_new_live E d id kvs :
  E id = true -> vals_live_on E d -> vals_live_on E (insert_kvs_new d id kvs).
Proof.
  intros Hid Hl. unfold insert_kvs_new.
  apply fold_left_inv; [now apply reserve_kv_live|].
  intros a x _ Ha. now apply insert_key_value_live.
Qed.

(* the index list itself (which keys are indexed) is not touched by value mutations *)
Lemma insert_or_replace_key_value_keys d id x :
  map fst (indexes (insert_or_replace_key_value d id x)) = map fst (indexes d).
Proof.
  unfold insert_or_replace_key_value.
  destruct (kvs_insert_or_replace (vals d) id x) as [[old|] s];
    cbn [indexes push_undo index_insert_if index_remove_if with_indexes with_vals];
    unfold idx_insert_id, idx_remove_id; now rewrite !idx_update_keys.
Qed.

Lemma insert_key_value_keys d id x :
  map fst (indexes (insert_key_value d id x)) = map fst (indexes d).
Proof. cbn. unfold idx_insert_id. apply idx_update_keys. Qed.

Lemma rk_fold_exact E id keys todo : forall pre n a,
  E_ok E -> E id = true ->
  keys_distinct (pre ++ todo) -> kvs_get (vals a) id = pre ++ todo -> idx_exact_on E a ->
  idx_exact_on E (snd (fold_left (rk_step id keys) todo (n, a))).
Proof.
  induction todo as [|x todo IH]; intros pre n a Hok Hid Hd Hget Ha; cbn [fold_left]; [exact Ha|].
  destruct (mem dbv_eqb (fst x) keys) eqn:Em.
  - destruct (rk_step_listed id keys n a x pre todo Em Hd Hget) as (a' & -> & Hget' & Hoth & Hix).
    apply (IH pre (n + 1) a' Hok Hid (proj2 (keys_distinct_mid pre x todo Hd)) Hget').
    exact (remove_one_exact E a a' id x pre todo Hok Hid Ha Hget Hget' Hoth Hix).
  - cbn [rk_step]. rewrite Em.
    apply (IH (pre ++ [x]) n a Hok Hid); [now rewrite <- app_assoc|now rewrite <- app_assoc|exact Ha].
Qed.

Lemma remove_keys_exact E d id keys :
  E_ok E -> E id = true -> keys_distinct (kvs_get (vals d) id) -> idx_exact_on E d ->
  idx_exact_on E (snd (remove_keys d id keys)).
Proof.
  intros Hok Hid Hd Ha. rewrite remove_keys_unfold.
  now apply (rk_fold_exact E id keys (kvs_get (vals d) id) [] 0 d).
Qed.

Lemma remove_keys_live E d id keys :
  E id = true -> keys_distinct (kvs_get (vals d) id) -> vals_live_on E d ->
  vals_live_on E (snd (remove_keys d id keys)).
Proof.
  intros Hid Hd Hl. apply (vals_live_local E d _ id Hid Hl).
  pose proof (remove_keys_spec d id keys Hd) as R. cbv zeta in R. apply R.
Qed.

Lemma remove_keys_index_keys d id keys :
  map fst (indexes (snd (remove_keys d id keys))) = map fst (indexes d).
Proof.
  rewrite remove_keys_unfold.
  apply (fold_left_inv (fun acc : Z * db => map fst (indexes (snd acc)) = map fst (indexes d))); [reflexivity|].
  intros [n a] x _ H. cbn [rk_step snd] in *. destruct (mem dbv_eqb (fst x) keys); cbn [snd]; [|exact H].
  cbn [indexes push_undo with_vals index_remove_if with_indexes]. unfold idx_remove_id.
  now rewrite idx_update_keys.
Qed.
