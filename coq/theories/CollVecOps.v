(* CollVecOps.v — proofs (collections): how the invariant `vinv` of a vector record moves under the
   steps the operations of vec.rs are made of (`vparts`: the invariant opened at one slot), appending
   an element, and the two loops of DbVecData::resize. *)
From Agdb Require Import Bytes BytesProofs Storage StorageSpec StorageLayout Collections CollWp CollBytes
  CollVecBase CollSep.
From Coq Require Import ZifyBool ZifyNat ZifyN Permutation.
Open Scope N_scope.

Lemma hupd_same g i v : hupd g i v i = Some v.
Proof. unfold hupd. rewrite N.eqb_refl. reflexivity. Qed.
Lemma hupd_other g i v j : i <> j -> hupd g i v j = g j.
Proof. intros H. unfold hupd. destruct (N.eqb_spec i j); [contradiction|reflexivity]. Qed.
Lemma Forall2_upd {A B} (R : A -> B -> Prop) a b i x y :
  Forall2 R a b -> R x y -> Forall2 R (cl_upd a i x) (cl_upd b i y).
Proof.
  intros H Hxy. revert i. induction H as [|p q a' b' Hpq H IH]; intros [|i]; cbn [cl_upd]; constructor; auto.
Qed.
Lemma cl_resize_length {A} (l : list A) n x : length (cl_resize l n x) = n.
Proof. unfold cl_resize. rewrite app_length, firstn_length, repeat_length. lia. Qed.

Lemma upd_perm {A} (t : list A) j a b : nth_error t j = Some b -> Permutation (b :: cl_upd t j a) (a :: t).
Proof.
  revert j; induction t as [|y t IH]; intros [|j]; cbn [nth_error cl_upd]; try discriminate.
  - intros [= ->]. apply perm_swap.
  - intros H. eapply perm_trans; [apply perm_swap|]. eapply perm_trans; [apply perm_skip, IH, H|]. apply perm_swap.
Qed.

Lemma swap_perm {A} (l : list A) i j a b :
  nth_error l i = Some a -> nth_error l j = Some b -> i <> j ->
  Permutation (cl_upd (cl_upd l i b) j a) l.
Proof.
  revert i j. induction l as [|y t IH]; intros [|i] [|j]; cbn [nth_error cl_upd]; try discriminate; try congruence.
  - intros [= ->] Hj _. apply upd_perm. exact Hj.
  - intros Hi [= ->] _. apply upd_perm. exact Hi.
  - intros Hi Hj Hn. constructor. apply IH; auto.
Qed.

Section VecOps.
  Variable T : Type.
  Variable E : cv_elem T.
  Variable L : elem_law E.
  Variable fl : bool.

  Let sz := ce_size E.
  Let k := N.to_nat sz.

  Notation owned := (owned T E L).
  Notation vinv := (vinv T E L).
  Notation rep := (el_rep L).
  Notation own := (el_own L).

  Lemma vinv_rec_get g idx n bss l : vinv g idx n bss l -> exists spare, g idx = Some (le64 n ++ concat bss ++ spare).
  Proof. intros H. exact (vi_rec _ _ _ _ _ _ _ _ H). Qed.

  Lemma vinv_idx_notin g idx n bss l : vinv g idx n bss l -> ~ In idx (owned bss).
  Proof. intros H. pose proof (vi_nodup _ _ _ _ _ _ _ _ H) as Hnd. apply NoDup_cons_iff in Hnd. tauto. Qed.

  Lemma vinv_chunks g idx n bss l : vinv g idx n bss l -> chunks k bss.
  Proof. intros H. eapply elems_chunks. exact (vi_elems _ _ _ _ _ _ _ _ H). Qed.

  Lemma vinv_lengths g idx n bss l : vinv g idx n bss l -> length bss = length l.
  Proof. intros H. eapply elems_length. exact (vi_elems _ _ _ _ _ _ _ _ H). Qed.

  Lemma vinv_rewrite g g' idx n n' bss l (spare' : bytes) :
    vinv g idx n bss l -> heq g' (hupd g idx (le64 n' ++ concat bss ++ spare')) -> vinv g' idx n' bss l.
  Proof.
    intros H Hm. constructor.
    - exists spare'. rewrite Hm. apply hupd_same.
    - eapply elems_transport; [exact (vi_elems _ _ _ _ _ _ _ _ H)|]. intros j Hj. rewrite Hm. apply hupd_other.
      intros ->. exact (vinv_idx_notin _ _ _ _ _ H Hj).
    - exact (vi_nodup _ _ _ _ _ _ _ _ H).
  Qed.

  Lemma vinv_heq g g' idx n bss l : vinv g idx n bss l -> heq g' g -> vinv g' idx n bss l.
  Proof.
    intros H Hm. constructor.
    - destruct (vinv_rec_get _ _ _ _ _ H) as (s & Hs). exists s. rewrite Hm. exact Hs.
    - eapply elems_transport; [exact (vi_elems _ _ _ _ _ _ _ _ H)|]. intros j _. apply Hm.
    - exact (vi_nodup _ _ _ _ _ _ _ _ H).
  Qed.

  (* While an operation works on a slot, the slots A before and B behind it still hold elements; the
     records they own and the record of the vector are live and pairwise distinct.  Removing the
     element of the slot in front of B and storing a new one there are inverse steps; what the
     record of the vector holds meanwhile is the caller's business. *)
  Record vparts (g : heap) (idx : N) (A B : list bytes) (lA lB : list T) : Prop := {
    vp_idx : g idx <> None;
    vp_A : Forall2 (rep g) A lA;
    vp_B : Forall2 (rep g) B lB;
    vp_nodup : NoDup (idx :: owned A ++ owned B)
  }.

  Lemma vparts_live g idx A B lA lB : vparts g idx A B lA lB -> live_all g ((idx :: owned A) ++ owned B).
  Proof.
    intros H j [<-|Hj]; [exact (vp_idx _ _ _ _ _ _ H)|]. apply in_app_or in Hj.
    destruct Hj as [Hj|Hj]; (eapply elems_live; [|exact Hj]); [exact (vp_A _ _ _ _ _ _ H)|exact (vp_B _ _ _ _ _ _ H)].
  Qed.

  Lemma vparts_heq g g' idx A B lA lB : vparts g idx A B lA lB -> heq g' g -> vparts g' idx A B lA lB.
  Proof.
    intros [H1 H2 H3 H4] Hm. constructor; [rewrite Hm; exact H1| | |exact H4];
      (eapply elems_transport; [eassumption|]); intros j _; apply Hm.
  Qed.

  Lemma vinv_split g idx n bss lA lB : vinv g idx n bss (lA ++ lB) ->
    exists A B, bss = A ++ B /\ length A = length lA /\ vparts g idx A B lA lB.
  Proof.
    intros H. destruct (Forall2_app_inv_r _ _ (vi_elems _ _ _ _ _ _ _ _ H)) as (A & B & HA & HB & ->).
    exists A, B. split; [reflexivity|]. split; [eapply elems_length; exact HA|].
    constructor; [|exact HA|exact HB|rewrite <- owned_app; exact (vi_nodup _ _ _ _ _ _ _ _ H)].
    destruct (vinv_rec_get _ _ _ _ _ H) as (s & Hs). congruence.
  Qed.

  Lemma vinv_at g idx n bss l i x : vinv g idx n bss l -> nth_error l i = Some x ->
    exists A b B lA lB, bss = A ++ b :: B /\ l = lA ++ x :: lB /\ length A = i /\ length lA = i /\
                        vparts g idx A (b :: B) lA (x :: lB).
  Proof.
    intros H Hx. destruct (nth_error_split _ _ Hx) as (lA & lB & -> & Hi).
    destruct (vinv_split _ _ _ _ _ _ H) as (A & B' & -> & HL & HP).
    pose proof (vp_B _ _ _ _ _ _ HP) as HB. inversion HB as [|b ? B ? _ _]; subst B'.
    exists A, b, B, lA, lB. repeat split; [congruence|exact Hi|exact (vp_idx _ _ _ _ _ _ HP)|exact (vp_A _ _ _ _ _ _ HP)|exact HB|exact (vp_nodup _ _ _ _ _ _ HP)].
  Qed.

  (* the record is written with the slots A ++ B: the invariant again *)
  Lemma parts_close g g' idx n A B lA lB (spare : bytes) :
    vparts g idx A B lA lB -> g' idx = Some (le64 n ++ concat (A ++ B) ++ spare) -> (forall j, j <> idx -> g' j = g j) ->
    vinv g' idx n (A ++ B) (lA ++ lB).
  Proof.
    intros [H1 H2 H3 H4] Hrec Hs.
    assert (Hi : forall j, In j (owned A ++ owned B) -> g' j = g j).
    { intros j Hj. apply Hs. intros ->. apply NoDup_cons_iff in H4. tauto. }
    constructor; [exists spare; exact Hrec| |rewrite owned_app; exact H4].
    apply Forall2_app; (eapply elems_transport; [eassumption|]); intros j Hj; apply Hi; apply in_or_app; auto.
  Qed.

  (* T::remove of the element in front of B *)
  Lemma parts_take idx A b B lA x lB sp (Q : cres unit -> spec -> Prop) :
    vparts (hp sp) idx A (b :: B) lA (x :: lB) ->
    (forall sp', vparts (hp sp') idx A B lA lB -> hp sp' idx = hp sp idx -> sdepth sp' = sdepth sp ->
        frame (hp sp) (hp sp') (idx :: owned A ++ owned (b :: B)) (idx :: owned A ++ owned B) -> Q (CrOk tt) sp') ->
    cwp fl (ce_remove E b) sp Q.
  Proof.
    intros HP HQ. pose proof (vp_B _ _ _ _ _ _ HP) as HB. inversion HB as [|? ? ? ? Hb HB']; subst.
    eapply (el_remove E L); [exact Hb|]. intros sp' Hd Hfree Hsame.
    destruct (sep_update _ _ (idx :: owned A) (own b) [] (owned B) (frame_free _ _ _ Hfree Hsame) (vp_nodup _ _ _ _ _ _ HP))
      as (Nd & Fr & Same); [|constructor|].
    { intros j Hj. apply (vparts_live _ _ _ _ _ _ HP). apply in_app_or in Hj. apply in_or_app.
      destruct Hj as [Hj|Hj]; [left; exact Hj|right; rewrite owned_cons; apply in_or_app; right; exact Hj]. }
    apply HQ; [|apply Same; left; reflexivity|exact Hd|exact Fr].
    constructor; [rewrite Same by (left; reflexivity); exact (vp_idx _ _ _ _ _ _ HP)| | |exact Nd].
    - eapply elems_transport; [exact (vp_A _ _ _ _ _ _ HP)|]. intros j Hj. apply Same. right. apply in_or_app. auto.
    - eapply elems_transport; [exact HB'|]. intros j Hj. apply Same. right. apply in_or_app. auto.
  Qed.

  (* value.store: a new element in front of B *)
  Lemma parts_store idx A B lA lB x sp (Q : cres bytes -> spec -> Prop) :
    vparts (hp sp) idx A B lA lB -> el_valid L x ->
    (forall b sp', vparts (hp sp') idx A (b :: B) lA (x :: lB) -> hp sp' idx = hp sp idx -> sdepth sp' = sdepth sp ->
        frame (hp sp) (hp sp') (idx :: owned A ++ owned B) (idx :: owned A ++ owned (b :: B)) -> Q (CrOk b) sp') ->
    cwp fl (ce_store E x) sp Q.
  Proof.
    intros HP Hv HQ. apply (el_store E L); [exact Hv|]. intros b sp' Hb Hd Hfresh Hsame.
    destruct (sep_update _ _ (idx :: owned A) [] (own b) (owned B) (frame_fresh _ _ _ Hfresh Hsame)
                (vp_nodup _ _ _ _ _ _ HP) (vparts_live _ _ _ _ _ _ HP)) as (Nd & Fr & Same); [eapply (el_nodup E L); exact Hb|].
    apply HQ; [|apply Same; left; reflexivity|exact Hd|exact Fr].
    constructor; [rewrite Same by (left; reflexivity); exact (vp_idx _ _ _ _ _ _ HP)| |constructor; [exact Hb|]|exact Nd].
    - eapply elems_transport; [exact (vp_A _ _ _ _ _ _ HP)|]. intros j Hj. apply Same. right. apply in_or_app. auto.
    - eapply elems_transport; [exact (vp_B _ _ _ _ _ _ HP)|]. intros j Hj. apply Same. right. apply in_or_app. auto.
  Qed.

  (* two slots change places (DbVecData::swap): the slots are permuted, so they own the same records *)
  Lemma vinv_swap g g' idx n bss l i j a b (spare : bytes) :
    vinv g idx n bss l -> nth_error l i = Some a -> nth_error l j = Some b -> i <> j ->
    let bss' := cl_upd (cl_upd bss i (nth j bss [])) j (nth i bss []) in
    g' idx = Some (le64 n ++ concat bss' ++ spare) -> (forall x, x <> idx -> g' x = g x) ->
    vinv g' idx n bss' (cl_upd (cl_upd l i b) j a) /\ (forall x, In x (owned bss') <-> In x (owned bss)).
  Proof.
    intros HI Ha Hb Nij bss' Hrec Hs. pose proof (vinv_lengths _ _ _ _ _ HI) as HLen.
    assert (Hpo : Permutation (owned bss') (owned bss)).
    { unfold CollVecBase.owned. apply Permutation_flat_map.
      apply swap_perm; [apply nth_error_nth'|apply nth_error_nth'|exact Nij]; rewrite HLen; eapply nth_error_Some_lt; eassumption. }
    pose proof (vi_nodup _ _ _ _ _ _ _ _ HI) as Hnd. apply NoDup_cons_iff in Hnd. destruct Hnd as [Hx Ho].
    assert (HE : Forall2 (rep g') bss l).
    { eapply elems_transport; [exact (vi_elems _ _ _ _ _ _ _ _ HI)|]. intros x Hx'. apply Hs. intros ->. exact (Hx Hx'). }
    split; [constructor|].
    - exists spare. exact Hrec.
    - apply Forall2_upd; [apply Forall2_upd; [exact HE|]|]; (eapply elems_nth; [exact HE|eassumption]).
    - constructor; [intros I; apply Hx; eapply Permutation_in; [exact Hpo|exact I]|].
      eapply Permutation_NoDup; [symmetry; exact Hpo|exact Ho].
    - intros x. split; apply Permutation_in; [exact Hpo|symmetry; exact Hpo].
  Qed.

  (* append one element: value.store(storage); insert_bytes_at(index, offset(len), bytes) *)
  Lemma append_step {A} idx n0 (bss : list bytes) l x sp (rest : cprog A) (Q : cres A -> spec -> Prop) :
    vinv (hp sp) idx n0 bss l -> el_valid L x ->
    (forall (b : bytes) sp', vinv (hp sp') idx n0 (bss ++ [b]) (l ++ [x]) -> sdepth sp' = sdepth sp ->
        frame (hp sp) (hp sp') (idx :: owned bss) (idx :: owned (bss ++ [b])) -> cwp fl rest sp' Q) ->
    cwp fl (b <~ ce_store E x ;; cp_insert_at idx (cv_offset T E (lenN bss)) b ;;~ rest) sp Q.
  Proof.
    intros HI Hv HQ. destruct (vinv_rec_get _ _ _ _ _ HI) as (spare & Hrec).
    assert (HP : vparts (hp sp) idx bss [] l []).
    { constructor; [congruence|exact (vi_elems _ _ _ _ _ _ _ _ HI)|constructor|].
      change (owned []) with (@nil N). rewrite app_nil_r. exact (vi_nodup _ _ _ _ _ _ _ _ HI). }
    apply cwp_bind. eapply parts_store; [exact HP|exact Hv|]. intros b sp1 HP1 Hi1 Hd1 Hf1. cbn [kont]. apply cwp_bind.
    pose proof (vp_B _ _ _ _ _ _ HP1) as HB. inversion HB as [|? ? ? ? Hb _]; subst.
    eapply (wr_append T E fl); [rewrite Hi1; exact Hrec|eapply vinv_chunks; exact HI|reflexivity|eapply rep_length; exact Hb|].
    intros sp2 Hm Hd2. cbn [kont].
    apply (HQ b sp2); [|congruence|].
    - eapply parts_close; [exact HP1|rewrite Hm; apply hupd_same|intros j Hj; rewrite Hm; apply hupd_other; congruence].
    - change (owned []) with (@nil N) in Hf1. rewrite app_nil_r in Hf1. rewrite owned_app.
      eapply frame_trans; [exact Hf1|]. eapply frame_hupd; [left; reflexivity|exact Hm].
  Qed.

  (* the first loop of DbVecData::resize *)
  Lemma fill_spec x : el_valid L x -> forall n idx n0 (bss : list bytes) l sp (Q : cres unit -> spec -> Prop),
    vinv (hp sp) idx n0 bss l ->
    (forall (bss2 : list bytes) sp', length bss2 = n -> vinv (hp sp') idx n0 (bss ++ bss2) (l ++ repeat x n) ->
        sdepth sp' = sdepth sp ->
        frame (hp sp) (hp sp') (idx :: owned bss) (idx :: owned (bss ++ bss2)) -> Q (CrOk tt) sp') ->
    cwp fl (cv_fill T E idx x n (lenN bss)) sp Q.
  Proof.
    intros Hv. induction n as [|n IH]; intros idx n0 bss l sp Q HI HQ; cbn [cv_fill].
    - cbn [cwp]. apply (HQ [] sp); [reflexivity| |reflexivity|].
      + cbn [repeat]. rewrite !app_nil_r. exact HI.
      + rewrite app_nil_r. apply frame_refl. intros j; reflexivity.
    - eapply append_step; [exact HI|exact Hv|].
      intros b sp1 HI1 Hd1 Hf1.
      replace (lenN bss + 1) with (lenN (bss ++ [b])) by (rewrite lenN_app; unfold lenN; cbn [length]; lia).
      eapply IH; [exact HI1|]. intros bss2 sp2 Hl2 HI2 Hd2 Hf2.
      apply (HQ (b :: bss2) sp2); [cbn [length]; lia| |congruence|].
      + rewrite <- app_assoc in HI2. cbn [app] in HI2. cbn [repeat].
        replace (l ++ x :: repeat x n) with ((l ++ [x]) ++ repeat x n) by (rewrite <- app_assoc; reflexivity). exact HI2.
      + rewrite <- app_assoc in Hf2. cbn [app] in Hf2. eapply frame_trans; eassumption.
  Qed.

  (* the second loop of DbVecData::resize; the loop of remove_from_storage:
     the record holds the slots P ++ B; the elements of B, which start at slot |P|, are removed *)
  Lemma drop_spec : forall (B : list bytes) lB idx n0 (A P : list bytes) lA (spare : bytes) sp (Q : cres unit -> spec -> Prop),
    hp sp idx = Some (le64 n0 ++ concat (P ++ B) ++ spare) -> chunks k (P ++ B) ->
    vparts (hp sp) idx A B lA lB ->
    (forall sp', hp sp' idx = hp sp idx -> vparts (hp sp') idx A [] lA [] -> sdepth sp' = sdepth sp ->
        frame (hp sp) (hp sp') (idx :: owned A ++ owned B) (idx :: owned A ++ owned []) -> Q (CrOk tt) sp') ->
    cwp fl (cv_drop T E idx (length B) (lenN P)) sp Q.
  Proof.
    induction B as [|b B' IH]; intros lB idx n0 A P lA spare sp Q Hrec Hc HP HQ; cbn [cv_drop length];
      pose proof (vp_B _ _ _ _ _ _ HP) as HB.
    - inversion HB; subst. apply HQ; [reflexivity|exact HP|reflexivity|]. apply frame_refl. intros j; reflexivity.
    - inversion HB as [|? x ? lB' _ _]; subst.
      apply cwp_bind. eapply (rd_slot T E fl); [exact Hrec|exact Hc| |].
      { rewrite to_nat_lenN, app_length. cbn [length]. lia. }
      rewrite to_nat_lenN, nth_middle. cbn [kont].
      apply cwp_bind. eapply parts_take; [exact HP|]. intros sp1 HP1 Hi1 Hd1 Hf1. cbn [kont].
      replace (lenN P + 1) with (lenN (P ++ [b])) by (rewrite lenN_app; unfold lenN; cbn [length]; lia).
      eapply (IH lB' idx n0 A (P ++ [b]) lA spare); [rewrite <- app_assoc, Hi1; exact Hrec|rewrite <- app_assoc; exact Hc|exact HP1|].
      intros sp2 Hi2 HP2 Hd2 Hf2. apply HQ; [congruence|exact HP2|congruence|eapply frame_trans; eassumption].
  Qed.
End VecOps.
