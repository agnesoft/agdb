(* DbInvProofs.v — the combined state invariant of C09 / C10 / C11 and its preservation by the
   DbImpl-level mutations, including the ones that change the graph (uses the graph invariant `wf`
   of C08 through GraphLive.v): new elements, and the removal of elements (edge; node with the cascade
   over its incident edges, its alias and all values), built on C08's cascade lemmas. *)
From Agdb Require Import Bytes BytesProofs DbValue Graph DbModel Search Queries
  GraphArr GraphSim GraphProofs GraphRemove GraphSpec GraphWf GraphC08 GraphLive DbCascadeProofs
  AssocProofs ImapProofs DbFrameProofs AliasProofs DbValueEqProofs KvProofs KvDbProofs KvSelectProofs
  IndexProofs IndexDbProofs IndexDb2Proofs IndexDb3Proofs IndexDb4Proofs IndexInvProofs.
From Coq Require Import ZifyBool.
Open Scope Z_scope.

(* graph well-formed; aliases one-to-one and on existing nodes; no element with two equal keys;
   indexes exact, values only on existing elements, no key indexed twice *)
Definition Inv (d : db) : Prop :=
  wf (gr d) /\ alias_bij d /\ alias_nodes d /\ kvs_distinct (vals d) /\ idx_inv d.

Lemma Inv_new : Inv db_new.
Proof.
  split; [exact (proj2 new_wf)|]. split; [exact alias_bij_new|]. split; [exact alias_nodes_new|].
  split; [exact kvs_distinct_nil|exact idx_inv_new].
Qed.

Lemma live_pos_node d id : 0 < id -> live d id = is_node (gr d) id.
Proof.
  intros H. unfold live, graph_index. destruct (Z.ltb_spec id 0); [lia|].
  destruct (Z.ltb_spec 0 id); [reflexivity|lia].
Qed.

Lemma live_nonzero d id : live d id = true -> id <> 0.
Proof. intros H ->. unfold live, graph_index in H. cbn in H. discriminate. Qed.

Lemma alias_nodes_live d a id : alias_nodes d -> imap_value (aliases d) a = Some id -> 0 < id /\ live d id = true.
Proof. intros Hn H. destruct (Hn a id H) as [Hp Hi]. split; [exact Hp|]. now rewrite live_pos_node. Qed.

Lemma db_id_live d q id : alias_nodes d -> db_id d q = ROk id -> live d id = true.
Proof.
  intros Hn. destruct q as [i|a]; cbn [db_id].
  - destruct (graph_index (gr d) i) eqn:E; [|discriminate]. intros H. inversion H; subst. exact E.
  - destruct (imap_value (aliases d) a) as [i|] eqn:E; [|discriminate]. intros H. inversion H; subst.
    now apply (alias_nodes_live d a).
Qed.

Lemma idx_inv_transport d' (E : Z -> bool) :
  (forall i, E i = live d' i) -> idx_exact_on E d' -> vals_live_on E d' -> idx_distinct d' -> idx_inv d'.
Proof.
  intros He H1 H2 H3. split; [|split; [|exact H3]].
  - now apply (idx_exact_on_ext E).
  - now apply (vals_live_on_ext E).
Qed.

Lemma Inv_same_ga d d' :
  Inv d -> same_ga d d' -> kvs_distinct (vals d') -> idx_inv d' -> Inv d'.
Proof.
  intros (H1 & H2 & H3 & _ & _) [Hg Ha] Hk Hi. unfold Inv, alias_bij, alias_nodes. rewrite Hg, Ha.
  exact (conj H1 (conj H2 (conj H3 (conj Hk Hi)))).
Qed.

Lemma Inv_same_gvi d d' :
  Inv d -> same_gvi d d' -> alias_bij d' -> alias_nodes d' -> Inv d'.
Proof.
  intros (H1 & _ & _ & H4 & H5) (Hg & Hv & Hi) Hb Hn. unfold Inv. rewrite Hg, Hv.
  split; [exact H1|]. split; [exact Hb|]. split; [exact Hn|]. split; [exact H4|].
  destruct H5 as (A & B & C).
  apply (idx_inv_transport d' (live d)); [intros i; unfold live; now rewrite Hg| | |].
  - now apply (idx_exact_on_frame (live d) d d').
  - now apply (vals_live_on_frame (live d) d d').
  - unfold idx_distinct. now rewrite Hi.
Qed.

Section DbInv.
  Variable rv : revision.

  Lemma insert_kvs_replace_ga d id kvs : same_ga d (insert_kvs_replace d id kvs).
  Proof.
    unfold insert_kvs_replace. apply fold_left_inv; [apply reserve_kv_ga|].
    intros a x _ Ha. eapply same_ga_trans; [exact Ha|apply insert_or_replace_key_value_ga].
  Qed.

  Lemma insert_kvs_new_ga d id kvs : same_ga d (insert_kvs_new d id kvs).
  Proof.
    unfold insert_kvs_new. apply fold_left_inv; [apply reserve_kv_ga|].
    intros a x _ Ha. eapply same_ga_trans; [exact Ha|apply insert_key_value_ga].
  Qed.

  Lemma insert_kvs_replace_Inv d id kvs : Inv d -> live d id = true -> Inv (insert_kvs_replace d id kvs).
  Proof.
    intros H Hid. apply (Inv_same_ga d); [exact H|apply insert_kvs_replace_ga| |].
    - apply insert_kvs_replace_distinct. apply H.
    - apply insert_kvs_replace_inv; [apply H|exact Hid].
  Qed.

  Lemma insert_kvs_new_Inv d id kvs :
    Inv d -> live d id = true -> kvs_get (vals d) id = [] -> keys_distinct kvs -> Inv (insert_kvs_new d id kvs).
  Proof.
    intros H Hid He Hk. apply (Inv_same_ga d); [exact H|apply insert_kvs_new_ga| |].
    - apply insert_kvs_new_distinct; [apply H|exact He|exact Hk].
    - apply insert_kvs_new_inv; [apply H|exact Hid].
  Qed.

  Lemma remove_keys_Inv d id keys : Inv d -> live d id = true -> Inv (snd (remove_keys d id keys)).
  Proof.
    intros H Hid. apply (Inv_same_ga d); [exact H|apply remove_keys_ga| |].
    - apply remove_keys_distinct. apply H.
    - apply remove_keys_inv; [apply H|apply H|exact Hid].
  Qed.

  Lemma insert_index_Inv d key n d' : insert_index d key = ROk (n, d') -> Inv d -> Inv d'.
  Proof.
    intros Hi H. pose proof (insert_index_spec d key) as S. rewrite Hi in S.
    destruct S as (_ & A & B & C & _). apply (Inv_same_ga d); [exact H|split; assumption| |].
    - rewrite B. apply H.
    - apply (insert_index_inv d key n d' Hi). apply H.
  Qed.

  Lemma remove_index_Inv d key : Inv d -> Inv (snd (remove_index d key)).
  Proof.
    intros H. assert (Hd : idx_keys_distinct (indexes d)) by apply H.
    pose proof (remove_index_spec d key Hd) as S. cbv zeta in S. destruct S as (A & B & C & _).
    apply (Inv_same_ga d); [exact H|split; assumption| |].
    - rewrite C. apply H.
    - apply remove_index_inv. apply H.
  Qed.

  Lemma insert_alias_Inv d id a : Inv d -> 0 < id -> live d id = true -> Inv (insert_alias rv d id a).
  Proof.
    intros H Hp Hl. apply (Inv_same_gvi d); [exact H|apply insert_alias_gvi| |].
    - apply insert_alias_bij. apply H.
    - apply insert_alias_nodes; [apply H|apply H|exact Hp|]. now rewrite <- live_pos_node.
  Qed.

  Lemma insert_new_alias_Inv d id a : Inv d -> 0 < id -> live d id = true -> Inv (insert_new_alias d id a).
  Proof.
    intros H Hp Hl. apply (Inv_same_gvi d); [exact H|apply insert_new_alias_gvi| |].
    - apply insert_new_alias_bij. apply H.
    - apply insert_new_alias_nodes; [apply H|apply H|exact Hp|]. now rewrite <- live_pos_node.
  Qed.

  Lemma remove_alias_Inv d a : Inv d -> Inv (snd (remove_alias d a)).
  Proof.
    intros H. apply (Inv_same_gvi d); [exact H|apply remove_alias_gvi| |].
    - apply remove_alias_bij. apply H.
    - apply remove_alias_nodes. apply H.
  Qed.

  Lemma alias_nodes_mono d d' :
    aliases d' = aliases d -> (forall j, live d j = true -> live d' j = true) ->
    alias_nodes d -> alias_nodes d'.
  Proof.
    intros Ha Hm Hn a id H. rewrite Ha in H. destruct (alias_nodes_live d a id Hn H) as [Hp Hl].
    split; [exact Hp|]. rewrite <- live_pos_node by exact Hp. now apply Hm.
  Qed.

  Lemma Inv_add_element d d' x :
    Inv d -> wf (gr d') -> aliases d' = aliases d -> vals d' = vals d -> indexes d' = indexes d ->
    live d x = false -> live d (- x) = false -> (forall j, live d' j = E_add (live d) x j) ->
    Inv d' /\ live d' x = true /\ kvs_get (vals d') x = [] /\ (forall j, live d j = true -> live d' j = true).
  Proof.
    intros (_ & H2 & H3 & H4 & (A & B & C)) W Fa Fv Fi N1 N2 Hlive.
    assert (Hmono : forall j, live d j = true -> live d' j = true).
    { intros j Hl. rewrite Hlive. unfold E_add. rewrite Hl. apply orb_true_r. }
    split; [|split; [|split; [|exact Hmono]]].
    - unfold Inv. rewrite Fv. split; [exact W|]. split; [unfold alias_bij; now rewrite Fa|].
      split; [now apply (alias_nodes_mono d d')|]. split; [exact H4|].
      apply (idx_inv_transport d' (E_add (live d) x)); [intros i; now rewrite Hlive| | |].
      + apply (idx_exact_on_frame _ d d' Fv Fi). now apply idx_exact_on_add.
      + apply (vals_live_on_frame _ d d' Fv). now apply vals_live_on_add.
      + unfold idx_distinct. now rewrite Fi.
    - rewrite Hlive. unfold E_add. now rewrite Z.eqb_refl.
    - rewrite Fv. now apply B.
  Qed.

  Lemma insert_node_db_Inv d :
    Inv d ->
    Inv (snd (insert_node_db d)) /\ 0 < fst (insert_node_db d) /\
    live (snd (insert_node_db d)) (fst (insert_node_db d)) = true /\
    kvs_get (vals (snd (insert_node_db d))) (fst (insert_node_db d)) = [] /\
    (forall j, live d j = true -> live (snd (insert_node_db d)) j = true).
  Proof.
    intros Hd. destruct (insert_node_db_fields d) as (Fa & Fv & Fi & Fg & Ff).
    pose proof (insert_node_live (gr d) (proj1 Hd)) as L. destruct (insert_node (gr d)) as [x g'].
    cbn [fst snd] in *. destruct L as (W & Hp & N1 & N2 & Hj). rewrite Ff.
    destruct (Inv_add_element d (snd (insert_node_db d)) x Hd) as (H1 & H2 & H3 & H4); try assumption.
    - now rewrite Fg.
    - intros j. unfold live. rewrite Fg. apply Hj.
    - auto.
  Qed.

  Lemma insert_edge_db_Inv d f t e d' :
    Inv d -> live d f = true -> live d t = true -> insert_edge_db d f t = ROk (e, d') ->
    Inv d' /\ e < 0 /\ live d' e = true /\ kvs_get (vals d') e = [] /\
    (forall j, live d j = true -> live d' j = true).
  Proof.
    intros Hd Hf Ht Hi.
    destruct (insert_edge_db_fields d f t e d' Hi) as (g' & Eg & Fg & Fa & Fv & Fi).
    destruct (insert_edge_live (gr d) f t e g' (proj1 Hd) Hf Ht Eg) as (W & Hn & _ & _ & N1 & N2 & Hj).
    destruct (Inv_add_element d d' e Hd) as (H1 & H2 & H3 & H4); try assumption.
    - now rewrite Fg.
    - intros j. unfold live. rewrite Fg. apply Hj.
    - auto.
  Qed.
End DbInv.

Definition dead_or_live (d : db) (e : Z) : Prop :=
  live d e = true \/ (live d e = false /\ live d (- e) = false).

(* an element x has left the graph (d0: the graph without it, everything else as in d), then its
   values are removed *)
Lemma Inv_del_element d d0 x :
  Inv d -> wf (gr d0) -> aliases d0 = aliases d -> vals d0 = vals d -> indexes d0 = indexes d ->
  (forall j, graph_index (gr d0) j = E_del (live d) x j) -> dead_or_live d x ->
  (forall a, imap_value (aliases d) a <> Some x) ->
  Inv (remove_all_values d0 x) /\ (forall j, live (remove_all_values d0 x) j = E_del (live d) x j) /\
  aliases (remove_all_values d0 x) = aliases d.
Proof.
  intros (_ & H2 & H3 & H4 & (A & B & C)) W Fa Fv Fi Hj Hcase Hal.
  destruct (rav_proj d0 x) as (P1 & P2 & P3). rewrite Fa in P2. rewrite Fv in P3.
  assert (Hlive : forall j, live (remove_all_values d0 x) j = E_del (live d) x j).
  { intros j. unfold live. rewrite P1. apply Hj. }
  destruct (remove_all_values_exact x (live d) d0 (live_ok d)) as [X1 X2].
  { now apply (idx_exact_on_frame (live d) d d0). }
  { now apply (vals_live_on_frame (live d) d d0). }
  { exact Hcase. }
  split; [|split; [exact Hlive|exact P2]].
  unfold Inv. rewrite P1, P3. split; [exact W|]. split; [unfold alias_bij; now rewrite P2|].
  split.
  { intros a id Ha. rewrite P2 in Ha. destruct (alias_nodes_live d a id H3 Ha) as [Hp Hl].
    split; [exact Hp|].
    rewrite <- (live_pos_node (remove_all_values d0 x) id Hp), Hlive. unfold E_del. rewrite Hl.
    destruct (Z.eqb_spec id x) as [->|]; [|reflexivity]. exfalso. exact (Hal a Ha). }
  split; [now apply kvs_remove_distinct|].
  apply (idx_inv_transport _ (E_del (live d) x)); [intros i; now rewrite Hlive|exact X1|exact X2|].
  apply (idx_distinct_keys d0); [apply remove_all_values_index_keys|]. unfold idx_distinct. now rewrite Fi.
Qed.

Lemma remove_edge_step_Inv d e f t g' :
  Inv d -> e < 0 -> dead_or_live d e -> remove_edge (gr d) e = Some g' ->
  let d' := remove_all_values (push_undo (with_gr d g') (CInsertEdge f t)) e in
  Inv d' /\ (forall j, live d' j = live d j && negb (j =? e)) /\ aliases d' = aliases d.
Proof.
  intros Hd He Hcase Hr. cbv zeta.
  destruct (remove_edge_live (gr d) e (proj1 Hd) He) as (g2 & E2 & W & Hj). rewrite Hr in E2. inversion E2; subst g2.
  apply (Inv_del_element d (push_undo (with_gr d g') (CInsertEdge f t)) e Hd W); try reflexivity; [exact Hj|exact Hcase|].
  intros a Ha. destruct (alias_nodes_live d a e (proj1 (proj2 (proj2 Hd))) Ha). lia.
Qed.

Lemma cascade_fold_Inv (L : list (Z * Z * Z)) : forall a,
  Inv a -> (forall t, In t L -> fst (fst t) < 0 /\ dead_or_live a (fst (fst t))) ->
  exists a', fold_left cascade_step L (a, None) = (a', None) /\ Inv a' /\
             (forall j, live a' j = live a j && negb (existsb (fun t => j =? fst (fst t)) L)) /\
             aliases a' = aliases a.
Proof.
  induction L as [|[[ei f] t] r IH]; intros a Ha HL.
  - exists a. split; [reflexivity|]. split; [exact Ha|]. split; [|reflexivity].
    intros j. cbn [existsb negb]. now rewrite andb_true_r.
  - cbn [fold_left cascade_step].
    destruct (HL (ei, f, t) (or_introl eq_refl)) as [Hneg Hcase]. cbn [fst] in Hneg, Hcase.
    destruct (remove_edge_live (gr a) ei (proj1 Ha) Hneg) as (g2 & E2 & _ & _). rewrite E2.
    pose proof (remove_edge_step_Inv a ei f t g2 Ha Hneg Hcase E2) as S. cbv zeta in S.
    set (a1 := remove_all_values (push_undo (with_gr a g2) (CInsertEdge f t)) ei) in *.
    destruct S as (Ha1 & Hl1 & Hal1).
    destruct (IH a1 Ha1) as (a' & F & Ha' & Hl' & Hal').
    { intros t0 Ht0. destruct (HL t0 (or_intror Ht0)) as [Hn0 Hc0]. split; [exact Hn0|].
      unfold dead_or_live in *. rewrite !Hl1.
      destruct (Z.eqb_spec (fst (fst t0)) ei) as [Eq|Ne].
      - right. rewrite andb_false_r. split; [reflexivity|]. rewrite Eq.
        destruct Hcase as [Hc|[_ Hc]]; [rewrite (live_ok a ei Hc)|rewrite Hc]; reflexivity.
      - rewrite andb_true_r. destruct Hc0 as [Hc|[Hc1 Hc2]]; [left; exact Hc|right].
        split; [exact Hc1|]. rewrite Hc2. reflexivity. }
    exists a'. split; [exact F|]. split; [exact Ha'|]. split; [|congruence].
    intros j. rewrite Hl', Hl1. cbn [existsb fst]. rewrite negb_orb. now rewrite andb_assoc.
Qed.

Lemma node_edges_edge d n x :
  wf (gr d) -> 0 < n -> is_node (gr d) n = true -> In x (node_edges d n) ->
  fst (fst x) < 0 /\ is_edge (gr d) (fst (fst x)) = true.
Proof.
  intros Hwf Hn Hnode Hx. apply node_edges_ids in Hx.
  destruct (wf_out_edges _ n Hwf Hn Hnode) as [_ [Hout _]]. destruct (wf_in_edges _ n Hwf Hn Hnode) as [_ [Hin _]].
  destruct Hx as [Hx|Hx]; [apply Hout in Hx|apply Hin in Hx]; tauto.
Qed.

Section RemoveInv.
  Variable rv : revision.

  (* removal of a node: alias, incident edges with their values, the node, its values *)
  Lemma remove_node_db_Inv d n alias :
    Inv d -> 0 < n -> live d n = true ->
    (forall x, imap_value (drop_alias (aliases d) alias) x <> Some n) ->
    exists d0, remove_node_db d n alias = (d0, None) /\ Inv (remove_all_values d0 n) /\
               (forall j, live (remove_all_values d0 n) j = true -> live d j = true) /\
               live (remove_all_values d0 n) n = false.
  Proof.
    (* The cascade over the incident edges is run twice.  cascade_fold_Inv gives the state d2 after it with
       Inv and its live elements; DbCascadeProofs.cascade_fold, on the simulating multigraph, gives that no
       edge at n remains (Hkeep), which is what lets the node itself go.  The two runs end in the same
       state (F, F'). *)
    intros Hd Hn Hl Hal. rewrite remove_node_db_step_eq.
    set (d1 := match alias with
               | Some a => with_aliases (push_undo d (CInsertAlias n a))
                                        (imap_remove_key (imap_remove_key (aliases d) a) a)
               | None => d end).
    assert (G1 : same_gvi d d1) by (unfold d1; destruct alias; repeat split).
    assert (A1 : aliases d1 = drop_alias (aliases d) alias) by (unfold d1; destruct alias; reflexivity).
    assert (Hd1 : Inv d1).
    { apply (Inv_same_gvi d); [exact Hd|exact G1| |].
      - unfold alias_bij. rewrite A1. apply drop_alias_bij. apply Hd.
      - intros a id Ha. rewrite A1, drop_alias_value in Ha. destruct G1 as (Gg & _). rewrite Gg.
        destruct Hd as (_ & _ & Hn3 & _). destruct alias as [al|]; [|now apply (Hn3 a)].
        destruct (bytes_eqb al a); [discriminate|now apply (Hn3 a)]. }
    assert (Hl1 : live d1 n = true) by (unfold live; rewrite (proj1 G1); exact Hl).
    assert (Hnode : is_node (gr d1) n = true) by (rewrite <- live_pos_node by exact Hn; exact Hl1).
    cbv zeta. rewrite Hnode. cbn [negb].
    pose proof (proj1 Hd1) as Hwf.
    assert (HL : forall t, In t (node_edges d1 n) -> fst (fst t) < 0 /\ dead_or_live d1 (fst (fst t))).
    { intros t Ht. destruct (node_edges_edge d1 n t Hwf Hn Hnode Ht) as [He1 He2]. split; [exact He1|].
      left. unfold live, graph_index. destruct (Z.ltb_spec (fst (fst t)) 0); [exact He2|lia]. }
    destruct (cascade_fold_Inv (node_edges d1 n) d1 Hd1 HL) as (d2 & F & Hd2 & Hl2 & Hal2).
    (* the same fold, seen through the simulation *)
    destruct Hwf as [aa [fl HS]].
    assert (HLneg : forall t, In t (node_edges d1 n) -> fst (fst t) <= 0).
    { intros t Ht. destruct (HL t Ht) as [H _]. lia. }
    destruct (cascade_fold (node_edges d1 n) d1 aa fl HLneg HS)
      as (d2' & aa2 & fl2 & F' & S2 & N2 & I2 & X2 & _).
    rewrite F in F'. inversion F'; subst d2'. clear F'. rewrite F.
    assert (Hn1 : In n (a_nodes aa)).
    { apply (sim_graph_index _ _ _ HS) in Hl1. destruct Hl1 as [[_ H]|[H _]]; [exact H|lia]. }
    assert (Hkeep : forall x, In x (a_edges aa2) -> keep_edge n x = true).
    { (* an edge of aa2 at n would be listed for n in d1, and the cascade has removed all of those *)
      assert (Hgone : forall x, In x (a_edges aa2) ->
                ~ (In (- eslot x) (out_edges (gr d1) n) \/ In (- eslot x) (in_edges (gr d1) n))).
      { intros x Hx Hor.
        destruct (node_edges_cover (gr d1) d1 n (- eslot x) eq_refl (ex_intro _ aa (ex_intro _ fl HS)) Hn Hnode Hor)
          as [t [Ht Hte]].
        apply (X2 t Ht). rewrite Hte, Z.opp_involutive. now apply in_map. }
      intros x Hx. unfold keep_edge. apply andb_true_iff.
      split; apply negb_true_iff, Z.eqb_neq; intros Hs; apply (Hgone x Hx); [left|right].
      - rewrite (proj1 (sim_out_edges _ _ _ HS n Hn1)). apply in_map, in_adj. exists x. split; [exact (I2 x Hx)|tauto].
      - rewrite (proj1 (sim_in_edges _ _ _ HS n Hn1)). apply in_map, in_adj. exists x. split; [exact (I2 x Hx)|tauto]. }
    assert (Hn2 : In n (a_nodes aa2)) by (rewrite N2; exact Hn1).
    destruct (remove_node_live_sim (gr d2) aa2 fl2 n S2 Hn2 Hkeep) as (g3 & E3 & W3 & Hj3). rewrite E3.
    set (d3 := push_undo (with_gr d2 g3) CInsertNode).
    exists d3. split; [reflexivity|].
    assert (Hl2n : live d2 n = true).
    { rewrite Hl2, Hl1. cbn [andb]. apply negb_true_iff. destruct (existsb _ _) eqn:Ex; [|reflexivity].
      apply existsb_exists in Ex. destruct Ex as [t [Ht Hte]]. apply Z.eqb_eq in Hte.
      destruct (HL t Ht) as [Hneg _]. lia. }
    destruct (Inv_del_element d2 d3 n Hd2 W3) as (Hi & Hlive & _); try reflexivity; [exact Hj3|left; exact Hl2n| |].
    { intros a Ha. apply (Hal a). rewrite <- A1, <- Hal2. exact Ha. }
    split; [exact Hi|split].
    - intros j Hj. rewrite Hlive in Hj. unfold E_del in Hj. apply andb_true_iff in Hj. destruct Hj as [Hj _].
      rewrite Hl2 in Hj. apply andb_true_iff in Hj. destruct Hj as [Hj _].
      unfold live in *. now rewrite <- (proj1 G1).
    - rewrite Hlive. unfold E_del. rewrite Z.eqb_refl. apply andb_false_r.
  Qed.

  (* DbImpl::remove_id on any id keeps the invariant and never fails *)
  Lemma remove_id_Inv d id :
    Inv d -> Inv (fst (remove_id d id)) /\ (exists b, snd (remove_id d id) = ROk b) /\
             (forall j, live (fst (remove_id d id)) j = true -> live d j = true).
  Proof.
    intros Hd. unfold remove_id. destruct (graph_index (gr d) id) eqn:Hg.
    2:{ cbn [fst snd]. split; [exact Hd|]. split; [eauto|trivial]. }
    destruct (Z.ltb_spec 0 id) as [Hp|Hp].
    - destruct (remove_node_db_Inv d id (imap_key (aliases d) id) Hd Hp Hg) as (d0 & E & Hi & Hm & _).
      { intros x. apply drop_alias_of_id_gone. apply Hd. }
      rewrite E. cbn [fst snd]. split; [exact Hi|]. split; [eauto|exact Hm].
    - assert (Hneg : id < 0).
      { destruct (Z.eq_dec id 0) as [->|]; [cbn in Hg; discriminate|lia]. }
      unfold remove_edge_db.
      destruct (remove_edge_live (gr d) id (proj1 Hd) Hneg) as (g2 & E2 & _ & _). rewrite E2.
      pose proof (remove_edge_step_Inv d id (edge_from (gr d) id) (edge_to (gr d) id) g2 Hd Hneg (or_introl Hg) E2) as S.
      cbv zeta in S. destruct S as (Hi & Hl & _). cbn [fst snd]. split; [exact Hi|]. split; [eauto|].
      intros j Hj. rewrite Hl in Hj. apply andb_true_iff in Hj. tauto.
  Qed.

  Lemma remove_q_Inv d q :
    Inv d -> Inv (fst (remove_q d q)) /\ (exists b, snd (remove_q d q) = ROk b) /\
             (forall j, live (fst (remove_q d q)) j = true -> live d j = true).
  Proof.
    intros Hd. destruct q as [id|a]; [now apply remove_id_Inv|]. cbn [remove_q].
    destruct (imap_value (aliases d) a) as [id|] eqn:Ea.
    2:{ cbn [fst snd]. split; [exact Hd|]. split; [eauto|trivial]. }
    destruct Hd as (H1 & H2 & H3 & H45). destruct (alias_nodes_live d a id H3 Ea) as [Hp Hl].
    destruct (remove_node_db_Inv d id (Some a) (conj H1 (conj H2 (conj H3 H45))) Hp Hl) as (d0 & E & Hi & Hm & _).
    { intros x. now apply drop_alias_named_gone. }
    rewrite E. cbn [fst snd]. split; [exact Hi|]. split; [eauto|exact Hm].
  Qed.
End RemoveInv.
