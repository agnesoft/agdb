(* C02 — A database interrupted by a crash always reopens and is fully readable.
   Statements; the proofs live in theories/CrashProofs.v (on top of C01), theories/Coll*.v and theories/StoredDb*.v.

   FULL STATEMENT (not proved as one theorem): for every history of mutating queries and every
   crash cut, opening the recovered file with any file-backed variant succeeds and every element,
   property, alias and index can be read.
   PROVED: (C02_reduction) the recovered file is byte-for-byte the file as it was at the
   completion of some flush (or the initial file); with C03_no_inner_flush the flush points are
   exactly the boundaries between queries / transactions (and after the creation of the
   database).  (C02_vec / map / graph_loads_partial, C02_db_loads_partial) every record map in which a collection, or
   the whole database (`stored_db`), is represented loads, and the loaders return what is represented.
   NOT PROVED (hence _partial): (1) that the state of the record map INSIDE one collection operation cut by a crash is
   never observed — that is C03's single outer storage transaction (C03_no_inner_flush) composed with C01; (2) that
   `stored_db` holds at every flush point of a database history — the simulation of db.rs's mutations
   (C05_db_operations_preserve_stored_db; Props/C05.v says for which operations it is a theorem).  Both are checked
   by the harness for every sampled crash snapshot of generated histories (reopen with DbFile / Db / DbAny, full read,
   state invariants, dump equal to the dump before or after the interrupted query) and by the `stored` correspondence
   of C05 (load_db on the raw records of real files). *)
From Agdb Require Import Bytes FileWal FileWalProofs TxnNesting CrashProofs CrashGuardProofs.
Open Scope nat_scope.

Theorem C02_reduction_partial :
  forall (d0 : bytes) (ops : list op) (k j : nat),
    wp d0 ops ->
    let st := {| data := d0; wal := [] |} in
    In (data (recover walrev_fixed (crash st (trace walrev_fixed st ops) k j))) (d0 :: flush_points st ops).
Proof. exact crash_recovers_a_flush_point. Qed.
Print Assumptions C02_reduction_partial.

(* the log never survives recovery (a second crash during the next open starts clean) *)
Theorem C02_log_empty_after_recovery :
  forall (d0 : bytes) (ops : list op) (k j : nat),
    wp d0 ops ->
    let st := {| data := d0; wal := [] |} in
    wal (recover walrev_fixed (crash st (trace walrev_fixed st ops) k j)) = [].
Proof. intros. reflexivity. Qed.
Print Assumptions C02_log_empty_after_recovery.

(* the same for the recovery WITH the position guard of apply_wal_record (recover_g: a log record beyond the
   current end of the file is an error, None): on every crash cut the guard does not fire, recovery
   succeeds, the log is empty and the file is the file at some completed flush *)
Theorem C02_reduction_guarded_partial :
  forall (d0 : bytes) (ops : list op) (k j : nat),
    wp d0 ops ->
    let st := {| data := d0; wal := [] |} in
    exists r, recover_g walrev_fixed (crash st (trace walrev_fixed st ops) k j) = Some r /\
              wal r = [] /\ In (data r) (d0 :: flush_points st ops).
Proof. exact crash_recovers_a_flush_point_g. Qed.
Print Assumptions C02_reduction_guarded_partial.

(* ======================= the collection layer: what loads at a flush point =======================
   C02_reduction_partial reduces every crash to the file at a flush point; since fix 5d951b7 (C03) the flush points
   are the boundaries between queries / transactions, where the storage's record map is the committed one.
   PROVED HERE (collection layer, theories/Coll*.v; models and notions as in Props/C05.v): in EVERY state of the
   abstract record map in which the representation invariant of a storage-backed vector / map / graph holds — and
   C05_vec_history, C05_map_history, C05_graph_history show that it holds after every history of operations, reloads
   and maintenance that ends with no transaction open — the loaders (DbVec::from_storage incl. its length check,
   DbMapData::from_storage, GraphDataStorage::from_storage) succeed and read back exactly the content; by
   C05_cwp_sound the same holds on the model of storage.rs.
   _partial: see (1) and (2) of the header. *)
From Agdb Require Import Storage StorageSpec Collections CollWp CollVecBase CollVec CollMap CollGraph CollAgree.

Theorem C02_vec_loads_partial :
  forall (fl : bool) (T : Type) (E : cv_elem T) (L : elem_law E) h slots l sp,
    vrep T E L (hp sp) h slots l ->
    cwp fl (h' <~ cv_from_storage T E (cv_index h) ;; cv_values T E h') sp (fun r sp' => r = CrOk l /\ sp' = sp).
Proof. exact vec_loads. Qed.
Print Assumptions C02_vec_loads_partial.

Theorem C02_map_loads_partial :
  forall (fl : bool) (K V : Type) (EK : cv_elem K) (EV : cv_elem V) (LK : elem_law EK) (LV : elem_law EV) d ss ks vs t sp,
    mrep K V EK EV LK LV (hp sp) d ss ks vs t ->
    cwp fl (cm_from_storage K V EK EV (cm_index d)) sp
        (fun r sp' => exists d', r = CrOk d' /\ sp' = sp /\ mrep K V EK EV LK LV (hp sp) d' ss ks vs t).
Proof. exact map_loads. Qed.
Print Assumptions C02_map_loads_partial.

Theorem C02_graph_loads_partial :
  forall (fl : bool) d s a sp,
    grep (hp sp) d s a -> sdepth sp = 0%N ->
    cwp fl (cg_step d GoReload) sp (fun r sp' => exists d' s', r = CrOk (d', GbUnit) /\ grep (hp sp') d' s' a).
Proof. exact graph_loads. Qed.
Print Assumptions C02_graph_loads_partial.

(* ======================= the database level: the WHOLE database loads =======================
   (models, the relation stored_db and the loader load_db: see the L3 section of Props/C05.v; theories/StoredDb*.v)
   In EVERY state of the record store in which the whole database is represented (stored_db: root record -> graph,
   two alias tables, index vector with one multi-map per index, values vector with one DbVec<DbKeyValue> per element)
   the composition of ALL the loaders — what DbImpl::new does, followed by reading every component to the end — succeeds
   and returns the represented database (up to the order a hash table does not keep, sd_eqv); the same for the loader
   program run on the model of storage.rs.
   _partial: see (1) and (2) of the header. *)
From Agdb Require Import Bytes Records DbModel StorageRefine StorageProofs StoredDb StoredDbRep StoredDbRun StoredDbLoad StoredDbProofs StoredDbExample.

Theorem C02_db_loads_partial :
  (forall (m : vmap) (root : N) (d : db),
     stored_db (m_get m) root d -> exists d', load_db m root = Some d' /\ sd_eqv d d' /\ undo d' = []) /\
  (forall (ops : store_ops cdata) (fl : bool), StorageProofs.kind ops fl ->
   forall s sp root d, Rel s sp -> stored_db (hp sp) root d ->
     let r := cp_run (st_step cdata ops) (sd_load root) s in
     snd r = CrDead \/
     (Rel (fst r) sp /\ exists d', snd r = CrOk d' /\ load_db (sm sp) root = Some d' /\ sd_eqv d d')).
Proof. split; [exact load_db_of_stored|exact sd_load_on_storage]. Qed.
Print Assumptions C02_db_loads_partial.

(* non-vacuity: the database created on the model of storage.rs in theories/StoredDbExampleBase.v (2 nodes, 1 edge, an alias,
   inline and out-of-line values, an index) is represented in its record store, and it loads — also after drop + open *)
Example C02_db_sample :
  stored_db (m_get sx_store) 1 sx_db /\ load_db sx_store 1 = Some sx_db /\ sx_after SReopen = sx_store.
Proof. destruct sx_sample as (_ & _ & H1 & H2 & _ & H3 & _). auto. Qed.
Print Assumptions C02_db_sample.
