(* C11 — Indexes always reflect current property values exactly.
   The statements, each proved in a few lines from the theorems of theories/IndexProofs.v,
   IndexDbProofs.v, IndexDb2Proofs.v, IndexDb3Proofs.v, IndexDb4Proofs.v, IndexInvProofs.v (and
   DbInvProofs.v for the history level); the closed witness is evaluated here.

   Vocabulary.  An index is (key, ids) with ids a list of (value, element id) entries.
     respects P            : the value predicate P cannot tell dbv_eqb-equal values apart
     cntP ids P id         : number of entries of `ids` for element id whose value satisfies P
     cntK l key P          : number of pairs of the property list l with key `key` and value satisfying P
     idx_exact_on E d      : for every index (key, ids), every such P and every id:
                               cntP ids P id = if E id then cntK (values of id) key P else 0
                             i.e. the index is, as a multiset modulo value equality, exactly
                             { (v, id) | id live, (key, v) among the values of id }
     vals_live_on E d      : only live elements (one of the two signs of a slot) have values
     E_ok E                : id and -id are never both live
     live d = graph_index (gr d);  idx_exact d / vals_live d = the above with E := live d
     idx_distinct d        : no key is indexed twice
     idx_inv d             : idx_exact d /\ vals_live d /\ idx_distinct d
     E_del E id            : E without id. *)
From Agdb Require Import Bytes DbValue DbModel Search Queries Revisions QStepProofs
  KvProofs KvDbProofs KvSelectProofs IndexProofs IndexDbProofs IndexDb2Proofs IndexDb3Proofs IndexDb4Proofs
  IndexInvProofs IndexExample DbInvProofs QueryInvProofs SearchLiveProofs HistoryInvProofs.
Open Scope Z_scope.

(* ---- the invariant holds initially and is kept by every property mutation of DbImpl
        (they do not touch the graph) ---- *)
Theorem C11_invariant_initial : idx_inv db_new.
Proof. exact idx_inv_new. Qed.
Print Assumptions C11_invariant_initial.

Theorem C11_value_mutations_preserve :
  (forall d id x, idx_inv d -> live d id = true -> idx_inv (insert_key_value d id x)) /\
  (forall d id x, idx_inv d -> live d id = true -> idx_inv (insert_or_replace_key_value d id x)) /\
  (forall d id kvs, idx_inv d -> live d id = true -> idx_inv (insert_kvs_replace d id kvs)) /\
  (forall d id kvs, idx_inv d -> live d id = true -> idx_inv (insert_kvs_new d id kvs)) /\
  (forall d id keys, idx_inv d -> kvs_distinct (vals d) -> live d id = true ->
                     idx_inv (snd (remove_keys d id keys))).
Proof.
  exact (conj insert_key_value_inv (conj insert_or_replace_key_value_inv
        (conj insert_kvs_replace_inv (conj insert_kvs_new_inv remove_keys_inv)))).
Qed.
Print Assumptions C11_value_mutations_preserve.

(* removing all values of an element (called AFTER the element left the graph, and for every
   cascaded edge): exact for the live set without that element — for any live set E *)
Theorem C11_remove_all_values :
  forall E d id, E_ok E -> idx_exact_on E d -> vals_live_on E d ->
  (E id = true \/ (E id = false /\ E (- id) = false)) ->
  idx_exact_on (E_del E id) (remove_all_values d id) /\ vals_live_on (E_del E id) (remove_all_values d id).
Proof. intros E d id. exact (remove_all_values_exact id E d). Qed.
Print Assumptions C11_remove_all_values.

(* ---- creating an index covers the data inserted before it; an existing index is an error
        without effect ---- *)
Theorem C11_backfill :
  forall d key,
  match insert_index d key with
  | RErr e => e = ENotAllowed /\ idx_find (indexes d) key <> None
  | ROk (n, d') =>
      idx_find (indexes d) key = None /\
      gr d' = gr d /\ vals d' = vals d /\ aliases d' = aliases d /\
      (forall key', idx_find (indexes d') key' =
                    match idx_find (indexes d) key' with
                    | Some ids => Some ids
                    | None => if dbv_eqb key key' then Some (backfill_pairs d key) else None
                    end) /\
      map fst (indexes d') = map fst (indexes d) ++ [key] /\
      n = Z.of_nat (length (backfill_pairs d key))
  end.
Proof. exact insert_index_spec. Qed.
Print Assumptions C11_backfill.

Theorem C11_backfill_exact :
  forall d key n d', insert_index d key = ROk (n, d') -> idx_inv d -> idx_inv d'.
Proof. exact insert_index_inv. Qed.
Print Assumptions C11_backfill_exact.

Theorem C11_duplicate_index_err :
  forall rv d key, undo d = [] -> idx_find (indexes d) key <> None ->
  exec rv d (InsertIndex key) = (d, QErr ENotAllowed).
Proof.
  intros rv d key Hu Hf. apply exec_rejected; [reflexivity|exact Hu|].
  cbn [exec_mut_step]. now rewrite (insert_index_duplicate d key Hf).
Qed.
Print Assumptions C11_duplicate_index_err.

Theorem C11_remove_index :
  forall d key, idx_inv d ->
  idx_inv (snd (remove_index d key)) /\
  (forall key', idx_find (indexes (snd (remove_index d key))) key' =
                if dbv_eqb key key' then None else idx_find (indexes d) key').
Proof.
  intros d key H. split; [now apply remove_index_inv|].
  destruct H as (_ & _ & H3). pose proof (remove_index_spec d key H3) as S. cbv zeta in S. apply S.
Qed.
Print Assumptions C11_remove_index.

(* ---- consequences of the invariant ---- *)

(* an index search for key K and value V returns, as a multiset, exactly the existing elements
   whose current value of K equals V *)
Theorem C11_index_search_exact :
  forall rv d s l m key op value rest,
  idx_exact d -> kvs_distinct (vals d) ->
  s_algorithm s = AIndex -> s_conditions s = Cond l m (CKeyValue key op value) :: rest ->
  match idx_find (indexes d) key with
  | None => search rv d s = SErr ENotFound
  | Some _ =>
    exists result, search rv d s = SOk result /\
      forall id, count_occ Z.eq_dec result id =
                 if live d id then match kvs_value (vals d) id key with
                                   | Some v' => b2nat (dbv_eqb v' value)
                                   | None => 0%nat
                                   end
                 else 0%nat
  end.
Proof.
  intros rv d s l m key op value rest Hd Hk Ha Hc.
  rewrite (search_index_unfold rv d s l m key op value rest Ha Hc).
  destruct (idx_find (indexes d) key) as [ids|] eqn:F; [|reflexivity].
  eexists. split; [reflexivity|]. intros id. now apply index_search_exact.
Qed.
Print Assumptions C11_index_search_exact.

(* the index listing reports, per indexed key, exactly the number of existing elements having it *)
Theorem C11_index_listing_exact :
  forall rv d, idx_exact d -> kvs_distinct (vals d) -> idx_distinct d ->
  exec_select rv d SelectIndexes =
  QOk (lenZ (indexes d))
      [ {| e_id := 0; e_from := 0; e_to := 0;
           e_values := map (fun ix : index => (fst ix, DU64 (N.of_nat (count_having d (fst ix))))) (indexes d) |} ].
Proof. exact select_indexes_exact. Qed.
Print Assumptions C11_index_listing_exact.

(* ---- non-vacuity: data before the index, a replacement, a removed element ---- *)
Example C11_nonvacuous :
  let d := exec_all rv_fixed db_new c11_history in
  search rv_fixed d (c11_search (DI64 1)) = SOk [3; 2] /\
  search rv_fixed d (c11_search (DI64 2)) = SOk [] /\
  count_having d c11_key = 2%nat /\
  snd (exec rv_fixed d (InsertIndex c11_key)) = QErr ENotAllowed /\
  exec_select rv_fixed d SelectIndexes =
    QOk 1 [ {| e_id := 0; e_from := 0; e_to := 0; e_values := [(c11_key, DU64 2)] |} ].
Proof.
  cbv zeta. split; [vm_compute; reflexivity|]. split; [vm_compute; reflexivity|].
  split; [vm_compute; reflexivity|]. split; vm_compute; reflexivity.
Qed.
Print Assumptions C11_nonvacuous.

(* all histories: idx_inv at every state inside a running transaction (the partial state of a failing query
   included); after every history from db_new in which no query fails: idx_inv, the exact multiset answer of
   every index search, the exact listing.
   Inv d (theories/DbInvProofs.v) = graph well-formed (C08's wf) /\ alias_bij d /\ alias_nodes d /\
   no element with two equal keys /\ idx_inv d;  query_ok q = the insert lists of q have distinct keys;
   all_succeed rv d qs = no query of qs fails;  traversal_live rv = breadth/depth-first and path searches
   return only existing elements.
   The two theorems below assume `traversal_live rv_fixed`.  That hypothesis is FALSE
   (C10_traversal_live_refuted, Props/C10.v: its path-search clause does not ask the origin to exist), so
   they hold vacuously; C11_transaction and C11_history state the same conclusions without it. *)
Theorem C11_transaction_partial :
  traversal_live rv_fixed ->
  forall d qs acc, Forall query_ok qs -> Inv d -> idx_inv (fst (fst (txn_run rv_fixed d qs acc))).
Proof.
  intros Ht d qs acc Hq Hd. apply Inv_index. exact (transaction_state_Inv rv_fixed Ht eq_refl d qs acc Hq Hd).
Qed.
Print Assumptions C11_transaction_partial.

Theorem C11_history_partial :
  traversal_live rv_fixed ->
  forall qs, Forall query_ok qs -> all_succeed rv_fixed db_new qs ->
  let d := exec_all rv_fixed db_new qs in
  idx_inv d /\
  (forall key ids value id, idx_find (indexes d) key = Some ids ->
     count_occ Z.eq_dec (map snd (filter (fun p : dbvalue * Z => dbv_eqb (fst p) value) ids)) id =
     if live d id then match kvs_value (vals d) id key with
                       | Some v' => b2nat (dbv_eqb v' value)
                       | None => 0%nat
                       end
     else 0%nat) /\
  exec_select rv_fixed d SelectIndexes =
    QOk (lenZ (indexes d))
        [ {| e_id := 0; e_from := 0; e_to := 0;
             e_values := map (fun ix : index => (fst ix, DU64 (N.of_nat (count_having d (fst ix))))) (indexes d) |} ].
Proof.
  intros Ht qs Hq Hs. cbv zeta.
  destruct (Inv_indexes _ (history_from_new_sl rv_fixed (search_live_of_traversal rv_fixed Ht) eq_refl qs Hq Hs)) as (A & B & C).
  split; [exact A|]. split; [exact B|apply C].
Qed.
Print Assumptions C11_history_partial.

Example C11_history_nonvacuous : Forall query_ok c11_history /\ all_succeed rv_fixed db_new c11_history.
Proof.
  split.
  - repeat constructor; cbn; repeat split; reflexivity.
  - cbn [all_succeed c11_history]. repeat split; vm_compute; reflexivity.
Qed.
Print Assumptions C11_history_nonvacuous.

(* the same without hypothesis on traversals (search_live_fixed, see C10_traversal_live in Props/C10.v).
   Scope: histories without failing queries; rolled-back queries and transactions are covered by
   C13_history_atomic (Props/C13.v): Inv — hence idx_inv, the exact answer of every index search and the exact
   listing (C11_inv_exact) — holds after every history. *)
From Agdb Require Import DbInvariantProofs.

Theorem C11_transaction :
  forall d qs acc, Forall query_ok qs -> Inv d -> idx_inv (fst (fst (txn_run rv_fixed d qs acc))).
Proof. intros d qs acc Hq Hd. apply Inv_index. now apply transaction_state_Inv_fixed. Qed.
Print Assumptions C11_transaction.

(* what the invariant means for every index read, in any state satisfying it *)
Theorem C11_inv_exact :
  forall d, Inv d ->
  idx_inv d /\
  (forall key ids value id, idx_find (indexes d) key = Some ids ->
     count_occ Z.eq_dec (map snd (filter (fun p : dbvalue * Z => dbv_eqb (fst p) value) ids)) id =
     if live d id then match kvs_value (vals d) id key with
                       | Some v' => b2nat (dbv_eqb v' value)
                       | None => 0%nat
                       end
     else 0%nat) /\
  (forall rv, exec_select rv d SelectIndexes =
    QOk (lenZ (indexes d))
        [ {| e_id := 0; e_from := 0; e_to := 0;
             e_values := map (fun ix : index => (fst ix, DU64 (N.of_nat (count_having d (fst ix))))) (indexes d) |} ]).
Proof. exact Inv_indexes. Qed.
Print Assumptions C11_inv_exact.

Theorem C11_history :
  forall qs, Forall query_ok qs -> all_succeed rv_fixed db_new qs ->
  let d := exec_all rv_fixed db_new qs in
  idx_inv d /\
  (forall key ids value id, idx_find (indexes d) key = Some ids ->
     count_occ Z.eq_dec (map snd (filter (fun p : dbvalue * Z => dbv_eqb (fst p) value) ids)) id =
     if live d id then match kvs_value (vals d) id key with
                       | Some v' => b2nat (dbv_eqb v' value)
                       | None => 0%nat
                       end
     else 0%nat) /\
  exec_select rv_fixed d SelectIndexes =
    QOk (lenZ (indexes d))
        [ {| e_id := 0; e_from := 0; e_to := 0;
             e_values := map (fun ix : index => (fst ix, DU64 (N.of_nat (count_having d (fst ix))))) (indexes d) |} ].
Proof.
  intros qs Hq Hs. cbv zeta. destruct (Inv_indexes _ (history_Inv_fixed qs Hq Hs)) as (A & B & C).
  split; [exact A|]. split; [exact B|apply C].
Qed.
Print Assumptions C11_history.
