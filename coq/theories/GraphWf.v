(* GraphWf.v — consequences of well-formedness `wf g` (= some abstract multigraph simulates g)
   stated without the abstract graph, for use by the search / termination proofs:
   wf is preserved by every operation, the unlink loops and the edge iterators never run out
   of fuel, adjacency lists are exact. *)
From Agdb Require Import Bytes Graph GraphArr GraphSim GraphProofs GraphRemove GraphSpec.
From Coq Require Import FinFun ZifyBool ZifyNat ZifyN.
Ltac Zify.zify_post_hook ::= Z.div_mod_to_equations.
Open Scope Z_scope.

Lemma wf_insert_node g : wf g -> wf (snd (insert_node g)).
Proof.
  intros [a [fl HS]]. pose proof (insert_node_sim g a fl HS) as H.
  destruct (insert_node g) as [x g']. destruct H as [_ [_ [_ [_ S1]]]]. cbn [snd].
  eexists. eexists. exact S1.
Qed.

Lemma wf_insert_edge g f t i g' :
  wf g -> 0 <= f -> 0 <= t -> insert_edge g f t = Some (i, g') -> wf g'.
Proof.
  intros [a [fl HS]] Hf Ht E.
  destruct (gstep_sim g a fl (GInsertEdge f t) HS (conj Hf Ht)) as [g1 [out [a1 [fl1 [E1 [_ S1]]]]]].
  cbn [gstep] in E1. rewrite E in E1. injection E1 as <- _. exists a1, fl1. exact S1.
Qed.

(* remove_edge never runs out of fuel (the id of an edge is <= 0) *)
Lemma wf_remove_edge g e : wf g -> e <= 0 -> exists g', remove_edge g e = Some g' /\ wf g'.
Proof.
  intros [a [fl HS]] He. destruct (remove_edge_total g a fl e HS He) as (g' & fl' & E & S1).
  exists g'. split; [exact E|]. eexists; eexists; exact S1.
Qed.

(* remove_node never runs out of fuel (the id of a node is >= 0) *)
Lemma wf_remove_node g n : wf g -> 0 <= n -> exists g', remove_node g n = Some g' /\ wf g'.
Proof.
  intros [a [fl HS]] Hn. destruct (remove_node_total g a fl n HS Hn) as (g' & fl' & E & S1).
  exists g'. split; [exact E|]. eexists; eexists; exact S1.
Qed.

Lemma wf_edge_ends g e :
  wf g -> is_edge g e = true ->
  0 < edge_from g e /\ is_node g (edge_from g e) = true /\
  0 < edge_to g e /\ is_node g (edge_to g e) = true.
Proof.
  intros [a [fl HS]] He.
  apply (is_edge_iff _ _ _ _ _ _ _ _ _ HS) in He. apply in_map_iff in He. destruct He as [x [Hx He]].
  destruct (sim_edge_ends _ _ _ HS x He) as [E1 E2].
  unfold edge_from, edge_to, from, to in *. rewrite get_neg, Hx, get_abs in E1, E2. rewrite E1, E2.
  destruct (sim_ends _ _ _ HS x He) as [Ha Hb].
  pose proof (sim_nodes_pos _ _ _ HS _ Ha). pose proof (sim_nodes_pos _ _ _ HS _ Hb).
  repeat split; try lia; apply (is_node_iff _ _ _ _ _ _ _ _ _ HS); rewrite Z.abs_eq by lia; assumption.
Qed.

Lemma wf_node_edge_disjoint g i : wf g -> is_node g i = true -> is_edge g i = false.
Proof.
  intros [a [fl HS]] Hn. apply (is_node_iff _ _ _ _ _ _ _ _ _ HS) in Hn.
  rewrite <- is_edge_abs. apply (class_node _ _ _ _ _ _ _ _ _ HS). assumption.
Qed.

(* the ids of one adjacency list of the abstract graph: each once, and exactly the edges whose
   end on that side (`ends` = edge_from g or edge_to g) is n *)
Lemma sim_adj_ids g a fl key (ends : Z -> Z) n :
  sim g a fl -> (forall x, In x (a_edges a) -> ends (- eslot x) = key x) ->
  NoDup (map Z.opp (adj key (a_edges a) n)) /\
  forall e, In e (map Z.opp (adj key (a_edges a) n)) <-> e < 0 /\ is_edge g e = true /\ ends e = n.
Proof.
  intros HS Hends. split.
  - apply FinFun.Injective_map_NoDup; [intros x y; lia|]. apply NoDup_adj, (sim_edges_nodup _ _ _ HS).
  - intros e. rewrite in_map_iff. split.
    + intros [s [<- Hs]]. apply in_adj in Hs. destruct Hs as (x & Hx & <- & Hk).
      pose proof (sim_edges_pos _ _ _ HS x Hx). split; [lia|]. split; [|rewrite <- Hk; apply Hends, Hx].
      apply (is_edge_iff _ _ _ _ _ _ _ _ _ HS). rewrite Z.abs_opp, Z.abs_eq by lia. apply in_map, Hx.
    + intros (He & Hie & Hend).
      apply (is_edge_iff _ _ _ _ _ _ _ _ _ HS) in Hie. rewrite Z.abs_neq in Hie by lia.
      apply in_map_iff in Hie. destruct Hie as (x & Hx & Hie).
      exists (eslot x). split; [lia|]. apply in_adj. exists x. split; [assumption|]. split; [reflexivity|].
      rewrite <- (Hends x Hie), Hx, Z.opp_involutive. exact Hend.
Qed.

(* the out-list iterator yields exactly the edges whose source is n, each once
   (so the fuel of edge_list suffices), and the stored count is its length *)
Lemma wf_out_edges g n :
  wf g -> 0 < n -> is_node g n = true ->
  NoDup (out_edges g n) /\
  (forall e, In e (out_edges g n) <-> e < 0 /\ is_edge g e = true /\ edge_from g e = n) /\
  edge_count_from g n = Z.of_nat (length (out_edges g n)).
Proof.
  intros [a [fl HS]] Hp Hn. apply (is_node_iff _ _ _ _ _ _ _ _ _ HS) in Hn. rewrite Z.abs_eq in Hn by lia.
  destruct (sim_out_edges _ _ _ HS n Hn) as [-> Ec].
  destruct (sim_adj_ids g a fl esrc (edge_from g) n HS (fun x Hx => proj1 (sim_edge_ends _ _ _ HS x Hx))). auto.
Qed.

Lemma wf_in_edges g n :
  wf g -> 0 < n -> is_node g n = true ->
  NoDup (in_edges g n) /\
  (forall e, In e (in_edges g n) <-> e < 0 /\ is_edge g e = true /\ edge_to g e = n) /\
  edge_count_to g n = Z.of_nat (length (in_edges g n)).
Proof.
  intros [a [fl HS]] Hp Hn. apply (is_node_iff _ _ _ _ _ _ _ _ _ HS) in Hn. rewrite Z.abs_eq in Hn by lia.
  destruct (sim_in_edges _ _ _ HS n Hn) as [-> Ec].
  destruct (sim_adj_ids g a fl etgt (edge_to g) n HS (fun x Hx => proj2 (sim_edge_ends _ _ _ HS x Hx))). auto.
Qed.

Lemma wf_capacity_pos g : wf g -> 1 <= capacity g.
Proof. intros [a [fl HS]]. apply (r_cap _ _ _ _ _ _ _ _ _ _ _ _ _ (proj2 HS)). Qed.

Lemma wf_node_count g : wf g -> 0 <= node_count g < capacity g.
Proof.
  intros [a [fl HS]]. rewrite (sim_node_count _ _ _ HS).
  destruct (NoDup_range_length (a_nodes a) (length (g_from g))) as [H|[H _]].
  - apply (sim_nodes_nodup _ _ _ HS).
  - intros y Hy. apply (sim_nodes_pos _ _ _ HS y Hy).
  - unfold capacity. lia.
  - pose proof (r_cap _ _ _ _ _ _ _ _ _ _ _ _ _ (proj2 HS)). rewrite H. cbn [length]. lia.
Qed.
