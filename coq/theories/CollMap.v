(* CollMap.v — proofs (collections): DbMapData of map.rs — the record
   (len, states index, keys index, values index) and the three vectors it names, side by side
   in one storage.

   msep g d slots.. lists..   the index record and the three vectors are represented (vrep) and
                              pairwise disjoint (all footprints in one duplicate-free list)
   mrep g d slots.. t         msep for the lists of the table t, the cached len is the table's,
                              the three lists have one length (= capacity), everything stored in
                              the index record is a u64 *)
From Agdb Require Import Bytes BytesProofs Storage StorageSpec StorageLayout Collections CollWp CollBytes
  CollVecBase CollVecOps CollVec CollElems CollSep.
From Coq Require Import ZifyBool ZifyNat ZifyN.
Open Scope N_scope.

Arguments ct_states {K V}. Arguments ct_keys {K V}. Arguments ct_values {K V}. Arguments ct_len {K V}.

Lemma index_ser_parts a b c d :
  a < two64 -> b < two64 -> c < two64 -> d < two64 ->
  lenN (cm_index_ser a b c d) = 32 /\
  de (firstn 8 (cm_index_ser a b c d)) = a /\
  de (firstn 8 (skipn 8 (cm_index_ser a b c d))) = b /\
  de (firstn 8 (skipn 16 (cm_index_ser a b c d))) = c /\
  de (firstn 8 (skipn 24 (cm_index_ser a b c d))) = d.
Proof.
  intros Ha Hb Hc Hd. assert (HF : Forall (fun z => z < two64) [a; b; c; d]) by (repeat constructor; assumption).
  split; [unfold cm_index_ser; rewrite !lenN_app, !lenN_le64; reflexivity|].
  repeat split; [exact (proj2 (ser64_field [b; c; d] a 0 a eq_refl HF))|exact (proj2 (ser64_field [b; c; d] a 1 b eq_refl HF))|
                 exact (proj2 (ser64_field [b; c; d] a 2 c eq_refl HF))|exact (proj2 (ser64_field [b; c; d] a 3 d eq_refl HF))].
Qed.

(* u64::deserialize(&bytes[8 * k..]) on such a record *)
Lemma cwp_de64_field fl x l k y sp {A} (f : N -> cprog A) (Q : cres A -> spec -> Prop) :
  nth_error (x :: l) k = Some y -> Forall (fun z => z < two64) (x :: l) ->
  cwp fl (f y) sp Q -> cwp fl (n <~ cp_de64 (skipn (8 * k) (ser64 x l)) ;; f n) sp Q.
Proof.
  intros Hy HF H. destruct (ser64_field l x k y Hy HF) as [Hl E].
  apply cwp_bind, cwp_de64; [exact Hl|]. cbn [kont]. rewrite E. exact H.
Qed.

Section MapProofs.
  Variables K V : Type.
  Variable EK : cv_elem K.
  Variable EV : cv_elem V.
  Variable LK : elem_law EK.
  Variable LV : elem_law EV.
  Variable fl : bool.

  Notation vrepS := (vrep cm_st ce_state law_state).
  Notation vrepK := (vrep K EK LK).
  Notation vrepV := (vrep V EV LV).
  Notation footS := (foot cm_st ce_state law_state).
  Notation footK := (foot K EK LK).
  Notation footV := (foot V EV LV).

  Definition mfoot (d : cm_data) (ss ks vs : list bytes) : list N :=
    cm_index d :: footS (cm_states d) ss ++ footK (cm_keys d) ks ++ footV (cm_values d) vs.

  Record msep (g : heap) (d : cm_data) (ss ks vs : list bytes) (ls : list cm_st) (lk : list K) (lv : list V) : Prop := {
    ms_rec : g (cm_index d) = Some (cm_index_ser (cm_len d) (cv_index (cm_states d)) (cv_index (cm_keys d)) (cv_index (cm_values d)));
    ms_s : vrepS g (cm_states d) ss ls;
    ms_k : vrepK g (cm_keys d) ks lk;
    ms_v : vrepV g (cm_values d) vs lv;
    ms_bounds : cm_len d < two64 /\ cv_index (cm_states d) < two64 /\ cv_index (cm_keys d) < two64 /\ cv_index (cm_values d) < two64;
    ms_nodup : NoDup (mfoot d ss ks vs)
  }.

  Record mrep (g : heap) (d : cm_data) (ss ks vs : list bytes) (t : cm_table K V) : Prop := {
    mr_sep : msep g d ss ks vs (ct_states t) (ct_keys t) (ct_values t);
    mr_len : cm_len d = ct_len t;
    mr_same : length (ct_keys t) = length (ct_states t) /\ length (ct_values t) = length (ct_states t)
  }.

  Lemma msep_live g d ss ks vs ls lk lv : msep g d ss ks vs ls lk lv -> live_all g (mfoot d ss ks vs).
  Proof.
    intros H. unfold mfoot. intros j [<-|Hj].
    - rewrite (ms_rec _ _ _ _ _ _ _ _ H). discriminate.
    - apply in_app_or in Hj. destruct Hj as [Hj|Hj]; [exact (vrep_live _ _ _ _ _ _ _ (ms_s _ _ _ _ _ _ _ _ H) j Hj)|].
      apply in_app_or in Hj. destruct Hj as [Hj|Hj]; [exact (vrep_live _ _ _ _ _ _ _ (ms_k _ _ _ _ _ _ _ _ H) j Hj)|
                                                     exact (vrep_live _ _ _ _ _ _ _ (ms_v _ _ _ _ _ _ _ _ H) j Hj)].
  Qed.

  Lemma msep_heq g g' d ss ks vs ls lk lv : msep g d ss ks vs ls lk lv -> heq g' g -> msep g' d ss ks vs ls lk lv.
  Proof.
    intros [H1 H2 H3 H4 H5 H6] Hm. constructor; auto; try (eapply vrep_heq; eauto). rewrite Hm. exact H1.
  Qed.

  Definition with_s (d : cm_data) (h : cv_vec) : cm_data := cm_with d (cm_len d) h (cm_keys d) (cm_values d).
  Definition with_k (d : cm_data) (h : cv_vec) : cm_data := cm_with d (cm_len d) (cm_states d) h (cm_values d).
  Definition with_v (d : cm_data) (h : cv_vec) : cm_data := cm_with d (cm_len d) (cm_states d) (cm_keys d) h.

  Lemma msep_update_s g g' d ss ks vs ls lk lv h' ss' ls' :
    msep g d ss ks vs ls lk lv -> cv_index h' = cv_index (cm_states d) ->
    vrepS g' h' ss' ls' -> frame g g' (footS (cm_states d) ss) (footS h' ss') ->
    msep g' (with_s d h') ss' ks vs ls' lk lv /\ frame g g' (mfoot d ss ks vs) (mfoot (with_s d h') ss' ks vs).
  Proof.
    intros H Hi HR' Hf.
    destruct (sep_update_at g g' _ (mfoot (with_s d h') ss' ks vs) [cm_index d] _ _ (footK (cm_keys d) ks ++ footV (cm_values d) vs)
                (msep_live _ _ _ _ _ _ _ _ H) (ms_nodup _ _ _ _ _ _ _ _ H) eq_refl eq_refl Hf (vrep_nodup _ _ _ _ _ _ _ HR'))
      as (N' & F' & Same).
    split; [|exact F'].
    constructor; cbn [with_s cm_with cm_index cm_len cm_states cm_keys cm_values]; [| | | | |exact N'].
    - rewrite Same by (left; reflexivity). rewrite Hi. exact (ms_rec _ _ _ _ _ _ _ _ H).
    - exact HR'.
    - eapply vrep_transport; [exact (ms_k _ _ _ _ _ _ _ _ H)|]. intros j Hj. apply Same. cbn [app]. right. apply in_or_app. left. exact Hj.
    - eapply vrep_transport; [exact (ms_v _ _ _ _ _ _ _ _ H)|]. intros j Hj. apply Same. cbn [app]. right. apply in_or_app. right. exact Hj.
    - rewrite Hi. exact (ms_bounds _ _ _ _ _ _ _ _ H).
  Qed.

  Lemma msep_update_k g g' d ss ks vs ls lk lv h' ks' lk' :
    msep g d ss ks vs ls lk lv -> cv_index h' = cv_index (cm_keys d) ->
    vrepK g' h' ks' lk' -> frame g g' (footK (cm_keys d) ks) (footK h' ks') ->
    msep g' (with_k d h') ss ks' vs ls lk' lv /\ frame g g' (mfoot d ss ks vs) (mfoot (with_k d h') ss ks' vs).
  Proof.
    intros H Hi HR' Hf.
    destruct (sep_update_at g g' _ (mfoot (with_k d h') ss ks' vs) (cm_index d :: footS (cm_states d) ss) _ _ (footV (cm_values d) vs)
                (msep_live _ _ _ _ _ _ _ _ H) (ms_nodup _ _ _ _ _ _ _ _ H) eq_refl eq_refl Hf (vrep_nodup _ _ _ _ _ _ _ HR'))
      as (N' & F' & Same).
    split; [|exact F'].
    constructor; cbn [with_k cm_with cm_index cm_len cm_states cm_keys cm_values]; [| | | | |exact N'].
    - rewrite Same by (left; reflexivity). rewrite Hi. exact (ms_rec _ _ _ _ _ _ _ _ H).
    - eapply vrep_transport; [exact (ms_s _ _ _ _ _ _ _ _ H)|]. intros j Hj. apply Same. right. apply in_or_app. left. exact Hj.
    - exact HR'.
    - eapply vrep_transport; [exact (ms_v _ _ _ _ _ _ _ _ H)|]. intros j Hj. apply Same. right. apply in_or_app. right. exact Hj.
    - rewrite Hi. exact (ms_bounds _ _ _ _ _ _ _ _ H).
  Qed.

  Lemma msep_update_v g g' d ss ks vs ls lk lv h' vs' lv' :
    msep g d ss ks vs ls lk lv -> cv_index h' = cv_index (cm_values d) ->
    vrepV g' h' vs' lv' -> frame g g' (footV (cm_values d) vs) (footV h' vs') ->
    msep g' (with_v d h') ss ks vs' ls lk lv' /\ frame g g' (mfoot d ss ks vs) (mfoot (with_v d h') ss ks vs').
  Proof.
    intros H Hi HR' Hf.
    assert (Esh : forall X : list N, cm_index d :: footS (cm_states d) ss ++ footK (cm_keys d) ks ++ X
                                     = (cm_index d :: footS (cm_states d) ss ++ footK (cm_keys d) ks) ++ X ++ []).
    { intros X. rewrite app_nil_r. cbn [app]. rewrite <- app_assoc. reflexivity. }
    destruct (sep_update_at g g' _ (mfoot (with_v d h') ss ks vs') _ _ _ []
                (msep_live _ _ _ _ _ _ _ _ H) (ms_nodup _ _ _ _ _ _ _ _ H) (Esh _) (Esh _) Hf (vrep_nodup _ _ _ _ _ _ _ HR'))
      as (N' & F' & Same).
    rewrite app_nil_r in Same.
    split; [|exact F'].
    constructor; cbn [with_v cm_with cm_index cm_len cm_states cm_keys cm_values]; [| | | | |exact N'].
    - rewrite Same by (left; reflexivity). rewrite Hi. exact (ms_rec _ _ _ _ _ _ _ _ H).
    - eapply vrep_transport; [exact (ms_s _ _ _ _ _ _ _ _ H)|]. intros j Hj. apply Same. right. apply in_or_app. left. exact Hj.
    - eapply vrep_transport; [exact (ms_k _ _ _ _ _ _ _ _ H)|]. intros j Hj. apply Same. right. apply in_or_app. right. exact Hj.
    - exact HR'.
    - rewrite Hi. exact (ms_bounds _ _ _ _ _ _ _ _ H).
  Qed.

  Lemma cm_set_len_spec d ss ks vs ls lk lv n sp (Q : cres cm_data -> spec -> Prop) :
    msep (hp sp) d ss ks vs ls lk lv -> n < two64 ->
    (forall sp', msep (hp sp') (cm_with d n (cm_states d) (cm_keys d) (cm_values d)) ss ks vs ls lk lv -> sdepth sp' = sdepth sp ->
        frame (hp sp) (hp sp') (mfoot d ss ks vs) (mfoot d ss ks vs) ->
        Q (CrOk (cm_with d n (cm_states d) (cm_keys d) (cm_values d))) sp') ->
    cwp fl (cm_set_len d n) sp Q.
  Proof.
    intros H Hn HQ. unfold cm_set_len. apply cwp_bind.
    pose proof (ms_rec _ _ _ _ _ _ _ _ H) as Hrec. unfold cm_index_ser in Hrec.
    eapply wr_header; [exact Hrec|]. intros sp' Hm Hd. cbn [kont cwp].
    pose proof (ms_nodup _ _ _ _ _ _ _ _ H) as Hnd. unfold mfoot in Hnd. apply NoDup_cons_iff in Hnd. destruct Hnd as [Hx _].
    assert (Same : forall j, In j (footS (cm_states d) ss ++ footK (cm_keys d) ks ++ footV (cm_values d) vs) -> hp sp' j = hp sp j).
    { intros j Hj. rewrite Hm. apply hupd_other. intros Ej. subst j. contradiction. }
    apply HQ; [|exact Hd|].
    - constructor; cbn [cm_with cm_index cm_len cm_states cm_keys cm_values].
      + rewrite Hm. apply hupd_same.
      + eapply vrep_transport; [exact (ms_s _ _ _ _ _ _ _ _ H)|]. intros j Hj. apply Same. apply in_or_app. left. exact Hj.
      + eapply vrep_transport; [exact (ms_k _ _ _ _ _ _ _ _ H)|]. intros j Hj. apply Same. apply in_or_app. right. apply in_or_app. left. exact Hj.
      + eapply vrep_transport; [exact (ms_v _ _ _ _ _ _ _ _ H)|]. intros j Hj. apply Same. apply in_or_app. right. apply in_or_app. right. exact Hj.
      + destruct (ms_bounds _ _ _ _ _ _ _ _ H) as (_ & B). split; [exact Hn|exact B].
      + exact (ms_nodup _ _ _ _ _ _ _ _ H).
    - eapply frame_hupd; [|exact Hm]. left; reflexivity.
  Qed.

  Lemma cm_from_storage_spec d ss ks vs ls lk lv sp (Q : cres cm_data -> spec -> Prop) :
    msep (hp sp) d ss ks vs ls lk lv ->
    (forall d', msep (hp sp) d' ss ks vs ls lk lv -> cm_index d' = cm_index d -> cm_len d' = cm_len d ->
        cv_len (cm_states d') = cv_len (cm_states d) ->
        mfoot d' ss ks vs = mfoot d ss ks vs -> Q (CrOk d') sp) ->
    cwp fl (cm_from_storage K V EK EV (cm_index d)) sp Q.
  Proof.
    intros H HQ. unfold cm_from_storage.
    destruct (ms_bounds _ _ _ _ _ _ _ _ H) as (B1 & B2 & B3 & B4).
    destruct (index_ser_parts _ _ _ _ B1 B2 B3 B4) as (P0 & P1 & P2 & P3 & P4).
    apply cwp_bind. eapply cwp_value; [exact (ms_rec _ _ _ _ _ _ _ _ H)|]. cbn [kont].
    rewrite P0. replace (32 <? 32) with false by reflexivity. rewrite P1, P2, P3, P4.
    apply cwp_bind. eapply cv_from_storage_spec; [exact (ms_s _ _ _ _ _ _ _ _ H)|]. intros hs Hs Is Ls. cbn [kont].
    apply cwp_bind. eapply cv_from_storage_spec; [exact (ms_k _ _ _ _ _ _ _ _ H)|]. intros hk Hk Ik Lk. cbn [kont].
    apply cwp_bind. eapply cv_from_storage_spec; [exact (ms_v _ _ _ _ _ _ _ _ H)|]. intros hv Hv Iv Lv. cbn [kont cwp].
    assert (Ef : mfoot {| cm_index := cm_index d; cm_len := cm_len d; cm_states := hs; cm_keys := hk; cm_values := hv |} ss ks vs = mfoot d ss ks vs).
    { unfold mfoot, foot. cbn [cm_index cm_states cm_keys cm_values]. rewrite Is, Ik, Iv. reflexivity. }
    apply HQ; cbn [cm_index cm_len cm_states]; auto.
    constructor; cbn [cm_index cm_len cm_states cm_keys cm_values]; auto.
    - rewrite Is, Ik, Iv. exact (ms_rec _ _ _ _ _ _ _ _ H).
    - rewrite Is, Ik, Iv. auto.
    - rewrite Ef. exact (ms_nodup _ _ _ _ _ _ _ _ H).
  Qed.

  Lemma cm_new_spec sp (Q : cres cm_data -> spec -> Prop) :
    (forall d sp', msep (hp sp') d [] [] [] [] [] [] -> cm_len d = 0 -> sdepth sp' = sdepth sp ->
        (forall j, In j (mfoot d [] [] []) -> hp sp j = None) ->
        (forall j, ~ In j (mfoot d [] [] []) -> hp sp' j = hp sp j) -> Q (CrOk d) sp') ->
    cwp fl cm_new sp Q.
  Proof.
    intros HQ. unfold cm_new.
    apply cwp_bind. apply (cv_new_spec cm_st ce_state law_state fl). intros hs sp1 Rs _ Bs _ Ds Fs. cbn [kont].
    apply cwp_bind. apply (cv_new_spec K EK LK fl). intros hk sp2 Rk _ Bk _ Dk Fk. cbn [kont].
    destruct (vrep_frame Rs Fk (fun _ _ X => X)) as [Rs2 Dsk].
    apply cwp_bind. apply (cv_new_spec V EV LV fl). intros hv sp3 Rv _ Bv _ Dv Fv. cbn [kont].
    destruct (vrep_frame Rs2 Fv (fun _ _ X => X)) as [Rs3 Dsv].
    destruct (vrep_frame Rk Fv (fun _ _ X => X)) as [Rk3 Dkv].
    apply cwp_bind. apply hwp_insert. intros i sp4 _ Bi Ni Hm Dd. cbn [kont cwp].
    pose proof (frame_insert _ _ _ _ Ni Hm) as Fi.
    destruct (vrep_frame Rs3 Fi (fun _ _ X => X)) as [Rs4 Dsi].
    destruct (vrep_frame Rk3 Fi (fun _ _ X => X)) as [Rk4 Dki].
    destruct (vrep_frame Rv Fi (fun _ _ X => X)) as [Rv4 Dvi].
    set (d := {| cm_index := i; cm_len := 0; cm_states := hs; cm_keys := hk; cm_values := hv |}).
    (* the four allocations, in the order of the footprint *)
    destruct (frame_equiv _ _ _ _ [] (mfoot d [] [] []) (fun j => iff_refl _) (fun j => in_snoc j i _)
                (frame_alloc _ _ _ _ _ _ (frame_alloc _ _ _ _ _ _ (frame_alloc _ _ _ _ _ _ Fs Fk) Fv) Fi)) as (Same & Fresh & _).
    apply (HQ d sp4); [|reflexivity|congruence| |].
    - constructor; cbn [d cm_index cm_len cm_states cm_keys cm_values]; auto.
      + rewrite Hm. apply hupd_same.
      + split; [reflexivity|auto].
      + unfold mfoot. cbn [d cm_index cm_states cm_keys cm_values]. constructor.
        * intros I. apply in_app_or in I. destruct I as [I|I]; [exact (Dsi _ I (or_introl eq_refl))|].
          apply in_app_or in I. destruct I as [I|I]; [exact (Dki _ I (or_introl eq_refl))|exact (Dvi _ I (or_introl eq_refl))].
        * apply NoDup_app_iff. split; [eapply vrep_nodup; exact Rs|]. split.
          -- apply NoDup_app_iff. split; [eapply vrep_nodup; exact Rk|]. split; [eapply vrep_nodup; exact Rv|exact Dkv].
          -- intros j I1 I2. apply in_app_or in I2. destruct I2 as [I2|I2]; [exact (Dsk j I1 I2)|exact (Dsv j I1 I2)].
    - intros j Hj. apply Fresh; [exact Hj|intros []].
    - intros j Hj. apply Same; [intros []|exact Hj].
  Qed.
End MapProofs.
