(* StoredDbProofs.v — the L3 statements.
     sd_eqv_refl / _sym / _trans   sd_eqv is an equivalence
     load_db_stored_w          a record store that holds d with witness w loads (the executable `load_db`) to
                               `sd_concrete w d`
     load_db_of_stored         hence what it loads is d up to `sd_eqv`
     stored_db_w_heq           the relation depends on the map index -> bytes only
     sd_maintenance            optimize / drop+open / backup+open (with no transaction open) keep `stored_db`, and
                               `load_db` afterwards returns THE SAME database (Leibniz equality) as before
     sd_maintenance_on_storage the same on the model of storage.rs (through C04's step_refines, which contains the L1
                               theorem of C05)
     sd_load_on_storage        the loader program run on the model of storage.rs
     sd_eqv_common             two databases loaded from stores holding the same database are equal up to sd_eqv (C06) *)
From Agdb Require Import Bytes DbModel Records Storage StorageSpec StorageRefine StorageProofs Collections CollVecBase
  CollVec CollGraph StoredDb StoredDbRep StoredDbRun StoredDbFrame StoredDbLoad.
Open Scope N_scope.

Lemma sd_index_eqv_refl a : sd_index_eqv a a.
Proof. split; reflexivity. Qed.
Lemma sd_index_eqv_sym a b : sd_index_eqv a b -> sd_index_eqv b a.
Proof. intros [H1 H2]. split; symmetry; assumption. Qed.
Lemma sd_index_eqv_trans a b c : sd_index_eqv a b -> sd_index_eqv b c -> sd_index_eqv a c.
Proof. intros [H1 H2] [H3 H4]. split; etransitivity; eassumption. Qed.

Lemma Forall2_refl' {A} (R : A -> A -> Prop) : (forall a, R a a) -> forall l, Forall2 R l l.
Proof. intros HR l. induction l; constructor; auto. Qed.
Lemma Forall2_sym' {A} (R : A -> A -> Prop) : (forall a b, R a b -> R b a) -> forall l l', Forall2 R l l' -> Forall2 R l' l.
Proof. intros HR l l' H. induction H; constructor; auto. Qed.
Lemma Forall2_trans' {A} (R : A -> A -> Prop) : (forall a b c, R a b -> R b c -> R a c) ->
  forall l1 l2 l3, Forall2 R l1 l2 -> Forall2 R l2 l3 -> Forall2 R l1 l3.
Proof.
  intros HR l1 l2 l3 H. revert l3. induction H as [|a b l1 l2 Hab _ IH]; intros l3 H3; inversion H3; subst; constructor; eauto.
Qed.

Lemma sd_eqv_refl d : sd_eqv d d.
Proof. constructor; try reflexivity; [split; reflexivity|apply Forall2_refl', sd_index_eqv_refl]. Qed.
Lemma sd_eqv_sym d d' : sd_eqv d d' -> sd_eqv d' d.
Proof.
  intros [H1 H2 H3 H4 [H5 H6] H7]. constructor.
  - symmetry; exact H1.
  - symmetry; exact H2.
  - intros a. symmetry. apply H3.
  - intros i. symmetry. apply H4.
  - split; symmetry; assumption.
  - apply Forall2_sym'; [apply sd_index_eqv_sym|exact H7].
Qed.
Lemma sd_eqv_trans d1 d2 d3 : sd_eqv d1 d2 -> sd_eqv d2 d3 -> sd_eqv d1 d3.
Proof.
  intros [A1 A2 A3 A4 [A5 A6] A7] [B1 B2 B3 B4 [B5 B6] B7]. constructor.
  - congruence.
  - congruence.
  - intros a. rewrite A3. apply B3.
  - intros i. rewrite A4. apply B4.
  - split; etransitivity; eassumption.
  - eapply Forall2_trans'; [apply sd_index_eqv_trans|exact A7|exact B7].
Qed.

Definition sd_spec_of (m : vmap) : spec := {| sm := m; sdepth := 0; scommitted := m |}.

Theorem load_db_stored_w m root d w : stored_db_w (m_get m) root d w -> load_db m root = Some (sd_concrete w d).
Proof.
  intros H.
  destruct (sd_run_sound true (sd_load root) (sd_spec_of m) _ (sd_reads_load root) (sd_load_concrete true root d w (sd_spec_of m) H))
    as (_ & _ & Er).
  unfold load_db. cbn [sd_spec_of sm] in Er. rewrite Er. reflexivity.
Qed.

Theorem load_db_of_stored m root d :
  stored_db (m_get m) root d ->
  exists d', load_db m root = Some d' /\ sd_eqv d d' /\ undo d' = [].
Proof.
  intros [w H]. exists (sd_concrete w d).
  split; [exact (load_db_stored_w m root d w H)|]. split; [exact (sd_concrete_eqv _ _ _ _ H)|reflexivity].
Qed.

Lemma sd_map_rep_heq K V EK EV LK LV g g' w idx l :
  sd_map_rep K V EK EV LK LV g w idx l -> heq g' g -> sd_map_rep K V EK EV LK LV g' w idx l.
Proof. intros H Hm. eapply sd_transport_map; [exact H|]. intros j _. apply Hm. Qed.

Lemma sd_ix_rep_heq g g' : heq g' g -> forall es ws ixs, sd_ix_rep g es ws ixs -> sd_ix_rep g' es ws ixs.
Proof. intros Hm es ws ixs H. eapply sd_transport_ix; [exact H|]. intros j _. apply Hm. Qed.

Lemma sd_kv_rep_heq g g' : heq g' g -> forall idxs ws kvs, sd_kv_rep g idxs ws kvs -> sd_kv_rep g' idxs ws kvs.
Proof. intros Hm idxs ws kvs H. eapply sd_transport_kv; [exact H|]. intros j _. apply Hm. Qed.

Lemma stored_db_w_heq g g' root d w : heq g' g -> stored_db_w g root d w -> stored_db_w g' root d w.
Proof.
  intros Hm [Hroot Hu64 Hver Hg Hgi Ha1 Hk1 Ha2 Hk2 Hiv Hii Hix Hvv Hvi Hv Hnd]. constructor; auto.
  - rewrite Hm. exact Hroot.
  - eapply grep_heq; eauto.
  - eapply sd_map_rep_heq; eauto.
  - eapply sd_map_rep_heq; eauto.
  - eapply vrep_heq; eauto.
  - eapply sd_ix_rep_heq; eauto.
  - eapply vrep_heq; eauto.
  - eapply sd_kv_rep_heq; eauto.
Qed.

(* on the abstract record map: with no transaction open, optimize / drop+open / backup+open leave the map as it is *)
Lemma sd_maint_spec fl sp o v sp' :
  cv_is_maint o = true -> sdepth sp = 0 -> spec_step fl sp o v = Some sp' -> sm sp' = sm sp /\ sdepth sp' = 0.
Proof.
  intros Hm Hd Hs. destruct o; try discriminate Hm; cbn [spec_step] in Hs.
  - unfold guard in Hs. destruct (is_unit v); [|discriminate]. injection Hs as <-. auto.
  - rewrite Hd in Hs. cbn [N.eqb negb andb] in Hs. rewrite andb_false_r in Hs.
    unfold guard in Hs. destruct (is_unit v); [|discriminate]. injection Hs as <-. auto.
  - unfold guard in Hs. destruct (is_unit v); [|discriminate]. injection Hs as <-. auto.
Qed.

Theorem sd_maintenance fl sp o v sp' root d :
  cv_is_maint o = true -> sdepth sp = 0 -> spec_step fl sp o v = Some sp' ->
  stored_db (hp sp) root d ->
  stored_db (hp sp') root d /\ sdepth sp' = 0 /\ load_db (sm sp') root = load_db (sm sp) root.
Proof.
  intros Hm Hd Hs H. destruct (sd_maint_spec fl sp o v sp' Hm Hd Hs) as [E D'].
  unfold hp. rewrite E. auto.
Qed.

Section OnStorage.
  Variable ops : store_ops cdata.
  Variable fl : bool.
  Hypothesis K : kind ops fl.

  (* on the model of storage.rs: C04's step_refines carries the L1 maintenance theorem *)
  Theorem sd_maintenance_on_storage s sp o root d :
    Rel s sp -> sdepth sp = 0 -> cv_is_maint o = true -> stored_db (hp sp) root d ->
    snd (st_step cdata ops s o) = ObPanic \/
    exists sp', Rel (fst (st_step cdata ops s o)) sp' /\ sdepth sp' = 0 /\
                stored_db (hp sp') root d /\
                exists d', load_db (sm sp) root = Some d' /\ load_db (sm sp') root = Some d' /\ sd_eqv d d'.
  Proof.
    intros RL Hd Hm H. destruct (step_refines ops fl K s sp o RL) as [P|(sp' & Hs & RL')]; [left; exact P|right].
    destruct (sd_maintenance fl sp o _ sp' root d Hm Hd Hs H) as (H' & D' & EL).
    exists sp'. split; [exact RL'|]. split; [exact D'|]. split; [exact H'|].
    destruct (load_db_of_stored (sm sp) root d H) as (d' & E1 & He & _).
    exists d'. rewrite EL. auto.
  Qed.

  (* the loader program run on the model of storage.rs itself: it returns what `load_db` computes from the abstract map *)
  Theorem sd_load_on_storage s sp root d :
    Rel s sp -> stored_db (hp sp) root d ->
    let r := cp_run (st_step cdata ops) (sd_load root) s in
    snd r = CrDead \/
    (Rel (fst r) sp /\ exists d', snd r = CrOk d' /\ load_db (sm sp) root = Some d' /\ sd_eqv d d').
  Proof.
    intros RL H r.
    destruct (sd_run_model ops fl K (sd_load root) s sp (sd_reads_load root) RL) as [D|[E RL']]; [left; exact D|right].
    split; [exact RL'|]. destruct (load_db_of_stored (sm sp) root d H) as (d' & E1 & He & _).
    exists d'. split; [|auto]. unfold r. rewrite E. unfold load_db in E1.
    destruct (snd (cp_run sd_step (sd_load root) (sm sp))); cbn [sd_result] in E1; congruence.
  Qed.
End OnStorage.

Lemma sd_eqv_common d d1 d2 : sd_eqv d d1 -> sd_eqv d d2 -> sd_eqv d1 d2 /\ gr d1 = gr d2 /\ vals d1 = vals d2.
Proof.
  intros H1 H2. assert (He : sd_eqv d1 d2) by (eapply sd_eqv_trans; [apply sd_eqv_sym; exact H1|exact H2]).
  split; [exact He|]. split; [apply (se_graph _ _ He)|apply (se_vals _ _ He)].
Qed.
