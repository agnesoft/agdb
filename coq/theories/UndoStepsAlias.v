(* UndoStepsAlias.v — C13_step_inverse for the alias primitives of DbModel.v:
   insert_new_alias, insert_alias (with the recorded inverse for the previous holder),
   remove_alias.  Each is `undoable` and preserves well-formedness. *)
From Agdb Require Import Bytes BytesProofs DbValue Graph DbModel Revisions UndoBase UndoObs UndoAlias UndoKv
  UndoGraphBase UndoGraph UndoAbs UndoDb.
From Coq Require Import Permutation ZifyBool ZifyNat ZifyN.
Open Scope Z_scope.

Lemma asim_remove m m' a : asim m m' -> asim (imap_remove_key m a) (imap_remove_key m' a).
Proof. intros (H1 & H2 & H3). split; [|split]; auto using alias_ok_remove, alias_eq_remove. Qed.
Lemma asim_insert m m' a i : asim m m' -> asim (imap_insert m a i) (imap_insert m' a i).
Proof. intros (H1 & H2 & H3). split; [|split]; auto using alias_ok_insert, alias_eq_insert. Qed.
Lemma asim_eq_r m m' m'' : asim m m' -> alias_eq m' m'' -> asim m m''.
Proof. intros (H1 & H2 & H3) E. split; [|split]; eauto using alias_ok_eq, alias_eq_trans. Qed.
Lemma asim_self m : alias_ok m -> asim m m.
Proof. intros H. split; [|split]; auto using alias_eq_refl. Qed.

(* insert after removing the element's alias never collides with another holder of the id *)
Lemma alias_insert_remove_gen m a i :
  alias_ok m -> imap_key m i = None -> alias_eq (imap_remove_key (imap_insert m a i) a) (imap_remove_key m a).
Proof.
  intros Hok Hi. pose proof (alias_ok_insert m a i Hok) as Hok1. split; intros.
  - rewrite !imap_remove_value, imap_insert_value by assumption.
    destruct (bytes_eqb_spec a a0) as [->|]; [reflexivity|].
    destruct (imap_value m a0) as [j|] eqn:Ej; [|reflexivity].
    destruct (Z.eqb_spec j i) as [->|]; [|reflexivity]. apply Hok in Ej. congruence.
  - rewrite !imap_remove_key_key, imap_insert_key by assumption.
    destruct (Z.eqb_spec i i0) as [->|].
    + rewrite bytes_eqb_refl, Hi. reflexivity.
    + destruct (imap_key m i0) as [b|] eqn:Eb; [|reflexivity].
      destruct (bytes_eqb_spec b a) as [->|E]; [reflexivity|].
      destruct (bytes_eqb_spec b a); [contradiction | reflexivity].
Qed.

Lemma alias_remove_absent m a : alias_ok m -> imap_value m a = None -> alias_eq (imap_remove_key m a) m.
Proof.
  intros Hok Ha. split; intros.
  - rewrite imap_remove_value. destruct (bytes_eqb_spec a a0) as [->|]; auto.
  - rewrite imap_remove_key_key by assumption. destruct (imap_key m i) as [b|] eqn:Eb; [|reflexivity].
    destruct (bytes_eqb_spec b a) as [->|]; [|reflexivity]. apply Hok in Eb. congruence.
Qed.

Section Steps.
  Variable rv : revision.
  Hypothesis Hrv : fix_rollback_replace rv = true.
  Hypothesis Hsteal : fix_alias_steal_undo rv = true.

  (* generic alias step: the new map m1, one pushed command whose undo is an operation `op` on the map *)
  Lemma alias_step d m1 c (op : imap -> imap) :
    db_ok d -> alias_ok m1 ->
    (forall e, undo_one e c = ROk (with_aliases e (op (aliases e)))) ->
    (forall me, asim me m1 -> asim (op me) (aliases d)) ->
    let d1 := with_aliases (push_undo d c) m1 in
    db_ok d1 /\ undoable rv d d1.
  Proof.
    intros Hok Hm1 Hun Hop d1. destruct Hok as [G A V I]. split.
    - constructor; cbn; auto using asim_self.
    - apply (undoable_one rv Hrv _ _ c); [reflexivity|]. intros e [Ge Ae Ve Ie]. cbn in Ge, Ae, Ve, Ie.
      rewrite Hun. eexists. split; [reflexivity|]. constructor; cbn; auto.
  Qed.

  Lemma step_insert_new_alias d id a :
    db_ok d -> imap_value (aliases d) a = None -> imap_key (aliases d) id = None ->
    db_ok (insert_new_alias d id a) /\ undoable rv d (insert_new_alias d id a).
  Proof.
    intros Hok Ha Hi. pose proof Hok as [G A V I]. destruct A as (Aok & _ & _).
    apply (alias_step d (imap_insert (aliases d) a id) (CRemoveAlias a) (fun m => imap_remove_key m a)); auto using alias_ok_insert.
    intros me Hme. eapply asim_eq_r; [apply asim_remove, Hme|]. apply alias_insert_then_remove; assumption.
  Qed.

  (* removing an existing alias (the model removes twice, like the code) *)
  Lemma step_remove_existing_alias d id a :
    db_ok d -> imap_value (aliases d) a = Some id ->
    let d1 := with_aliases (push_undo d (CInsertAlias id a)) (imap_remove_key (imap_remove_key (aliases d) a) a) in
    db_ok d1 /\ undoable rv d d1.
  Proof.
    intros Hok Ha. pose proof Hok as [G A V I]. destruct A as (Aok & _ & _).
    apply (alias_step d _ (CInsertAlias id a) (fun m => imap_insert m a id)); auto using alias_ok_remove.
    intros me Hme. eapply asim_eq_r; [apply asim_insert, Hme|].
    eapply alias_eq_trans; [|apply alias_remove_then_insert; eassumption].
    apply alias_eq_insert; auto using alias_ok_remove, alias_remove_twice.
  Qed.

  Lemma step_remove_alias d a :
    db_ok d -> db_ok (snd (remove_alias d a)) /\ undoable rv d (snd (remove_alias d a)).
  Proof.
    intros Hok. unfold remove_alias. destruct (imap_value (aliases d) a) as [id|] eqn:E; cbn [snd].
    - apply step_remove_existing_alias; assumption.
    - split; [assumption | apply undoable_refl; assumption].
  Qed.

  Lemma step_insert_alias d id a :
    db_ok d -> db_ok (insert_alias rv d id a) /\ undoable rv d (insert_alias rv d id a).
  Proof.
    intros Hok. unfold insert_alias. rewrite Hsteal.
    (* step 1: drop the element's previous alias *)
    set (d1 := match imap_key (aliases d) id with
               | Some old => with_aliases (push_undo d (CInsertAlias id old))
                               (imap_remove_key (imap_remove_key (aliases d) old) old)
               | None => d end).
    assert (H1 : (db_ok d1 /\ undoable rv d d1) /\ imap_key (aliases d1) id = None).
    { unfold d1. pose proof Hok as [G A V I]. destruct A as (Aok & _ & _).
      destruct (imap_key (aliases d) id) as [old|] eqn:E.
      - split; [apply step_remove_existing_alias; [assumption | apply Aok, E]|].
        cbn [aliases with_aliases]. pose proof (alias_ok_remove _ old Aok) as Aok1.
        rewrite !imap_remove_key_key, E, bytes_eqb_refl by assumption. reflexivity.
      - split; [split; [assumption | apply undoable_refl; assumption] | assumption]. }
    destruct H1 as ((Hok1 & U1) & Hid). clearbody d1.
    pose proof Hok1 as [G1 A1 V1 I1]. destruct A1 as (Aok1 & _ & _).
    (* step 2: record the holder, insert *)
    destruct (imap_value (aliases d1) a) as [holder|] eqn:Eh.
    - assert (H2 : db_ok (with_aliases (push_undo (push_undo d1 (CInsertAlias holder a)) (CRemoveAlias a))
                                        (imap_insert (aliases d1) a id)) /\
                   undoable rv d1 (with_aliases (push_undo (push_undo d1 (CInsertAlias holder a)) (CRemoveAlias a))
                                        (imap_insert (aliases d1) a id))).
      { split.
        - constructor; cbn [gr aliases vals indexes with_aliases push_undo]; auto.
          apply asim_self, alias_ok_insert, Aok1.
        - exists [CRemoveAlias a; CInsertAlias holder a]. split; [reflexivity|].
          intros e [Ge Ae Ve Ie]. cbn [gr aliases vals indexes with_aliases push_undo] in Ge, Ae, Ve, Ie.
          cbn [rollback_cmds undo_one].
          eexists. split; [reflexivity|].
          constructor; cbn [gr aliases vals indexes with_aliases push_undo]; auto.
          eapply asim_eq_r; [apply asim_insert, asim_remove, Ae|].
          eapply alias_eq_trans; [|apply alias_remove_then_insert; eassumption].
          apply alias_eq_insert; auto using alias_ok_remove, alias_ok_insert, alias_insert_remove_gen. }
      destruct H2 as (Hok2 & U2). split; [exact Hok2 | eapply undoable_trans; eassumption].
    - destruct (step_insert_new_alias d1 id a Hok1 Eh Hid) as (Hok2 & U2).
      split; [exact Hok2 | eapply undoable_trans; eassumption].
  Qed.
End Steps.
