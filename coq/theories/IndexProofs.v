(* IndexProofs.v — C11: counting the entries of an index (cntP) against the pairs of a property
   list (cntK); the list of indexes (idx_update / idx_find / idx_remove, remove_first_pair). *)
From Agdb Require Import Bytes DbValue DbModel DbValueEqProofs KvProofs KvSelectProofs.
From Coq Require Import ZifyBool ZifyNat ZifyN.
Open Scope Z_scope.

(* a predicate on values that cannot tell equal values apart *)
Definition respects (P : dbvalue -> bool) : Prop := forall a b, dbv_eqb a b = true -> P a = P b.

(* dbv_eqb is Leibniz equality, so every predicate does *)
Lemma respects_all P : respects P.
Proof. now intros a b ->%dbv_eqb_true. Qed.

Lemma respects_eqb v : respects (fun w => dbv_eqb w v).
Proof. apply respects_all. Qed.

Lemma respects_true : respects (fun _ => true).
Proof. apply respects_all. Qed.

(* entries of an index for element `id` whose value satisfies P *)
Definition cntP (ids : list (dbvalue * Z)) (P : dbvalue -> bool) (id : Z) : nat :=
  length (filter (fun p : dbvalue * Z => P (fst p) && (snd p =? id)) ids).

(* pairs of a property list with key `key` whose value satisfies P *)
Definition cntK (l : list kv) (key : dbvalue) (P : dbvalue -> bool) : nat :=
  length (filter (fun x : kv => dbv_eqb (fst x) key && P (snd x)) l).

Definition b2nat (b : bool) : nat := if b then 1%nat else 0%nat.

Lemma cntP_nil P id : cntP [] P id = 0%nat.
Proof. reflexivity. Qed.

Lemma cntP_cons p ids P id : cntP (p :: ids) P id = (b2nat (P (fst p) && (snd p =? id)%Z) + cntP ids P id)%nat.
Proof. unfold cntP. cbn [filter]. destruct (P (fst p) && (snd p =? id)); reflexivity. Qed.

Lemma cntP_app a b P id : cntP (a ++ b) P id = (cntP a P id + cntP b P id)%nat.
Proof. unfold cntP. now rewrite filter_app, app_length. Qed.

Lemma cntK_cons x l key P : cntK (x :: l) key P = (b2nat (dbv_eqb (fst x) key && P (snd x)) + cntK l key P)%nat.
Proof. unfold cntK. cbn [filter]. destruct (dbv_eqb (fst x) key && P (snd x)); reflexivity. Qed.

Lemma cntK_app a b key P : cntK (a ++ b) key P = (cntK a key P + cntK b key P)%nat.
Proof. unfold cntK. now rewrite filter_app, app_length. Qed.

Lemma cntK_nil key P : cntK [] key P = 0%nat.
Proof. reflexivity. Qed.

Lemma cntK_congr l key key' P : dbv_eqb key key' = true -> cntK l key P = cntK l key' P.
Proof.
  intros H. unfold cntK. f_equal. apply filter_ext. intros x. f_equal. now apply dbv_eqb_congr_r.
Qed.

(* every entry counted for "= v" is counted for a P that holds of v *)
Lemma cntP_eq_le ids P v id :
  P v = true -> (cntP ids (fun w => dbv_eqb w v) id <= cntP ids P id)%nat.
Proof.
  intros Hv. induction ids as [|p ids IH]; [reflexivity|]. rewrite !cntP_cons.
  destruct (dbv_eqb (fst p) v) eqn:E; cbn [andb b2nat]; [|lia].
  apply dbv_eqb_true in E. rewrite E, Hv. cbn [andb]. lia.
Qed.

(* remove_first_pair removes one entry (v, id), if there is one *)
Lemma cntP_remove_first_pair ids v id P id' :
  cntP (remove_first_pair ids v id) P id' =
  (cntP ids P id' - b2nat ((0 <? cntP ids (fun w => dbv_eqb w v) id)%nat && P v && (id =? id')%Z))%nat.
Proof.
  induction ids as [|[v0 id0] ids IH]; cbn [remove_first_pair]; [reflexivity|].
  rewrite !cntP_cons. cbn [fst snd]. destruct (dbv_eqb v0 v && (id0 =? id)) eqn:E; cbn [b2nat Nat.add].
  - apply andb_true_iff in E. destruct E as [->%dbv_eqb_true ->%Z.eqb_eq].
    rewrite (proj2 (Nat.ltb_lt _ _) (Nat.lt_0_succ _)). cbn [andb].
    destruct (P v && (id =? id')); cbn [b2nat]; lia.
  - rewrite cntP_cons, IH. cbn [fst snd].
    destruct ((0 <? cntP ids (fun w => dbv_eqb w v) id)%nat && P v && (id =? id')) eqn:T; cbn [b2nat]; [|lia].
    apply andb_true_iff in T. destruct T as [T ->%Z.eqb_eq]. apply andb_true_iff in T. destruct T as [T1%Nat.ltb_lt T2].
    pose proof (cntP_eq_le ids P v id' T2). lia.
Qed.

Lemma cntP_snoc_other ids v id P id' : id' <> id -> cntP (ids ++ [(v, id)]) P id' = cntP ids P id'.
Proof.
  intros Hn. rewrite cntP_app, cntP_cons, cntP_nil. cbn [fst snd].
  rewrite (proj2 (Z.eqb_neq id id')) by congruence. rewrite andb_false_r. cbn [b2nat]. lia.
Qed.

Lemma cntP_remove_other ids v id P id' : id' <> id -> cntP (remove_first_pair ids v id) P id' = cntP ids P id'.
Proof.
  intros Hn. rewrite cntP_remove_first_pair, (proj2 (Z.eqb_neq id id')) by congruence.
  rewrite andb_false_r. cbn [b2nat]. lia.
Qed.

Lemma cntK_mid pre x post key P :
  cntK (pre ++ x :: post) key P = (b2nat (dbv_eqb (fst x) key && P (snd x)) + cntK (pre ++ post) key P)%nat.
Proof. rewrite !cntK_app, cntK_cons. lia. Qed.

(* the entries of element `id` in the index of `key` are the pairs of its list `l` with that key;
   kept when a pair enters or leaves the list together with its entry *)
Definition agrees (ids : list (dbvalue * Z)) (id : Z) (l : list kv) (key : dbvalue) : Prop :=
  forall P, cntP ids P id = cntK l key P.

Lemma agrees_insert ids id pre post x key :
  agrees ids id (pre ++ post) key ->
  agrees (if dbv_eqb (fst x) key then ids ++ [(snd x, id)] else ids) id (pre ++ x :: post) key.
Proof.
  intros H P. rewrite cntK_mid, <- (H P). destruct (dbv_eqb (fst x) key); cbn [andb b2nat]; [|reflexivity].
  rewrite cntP_app, cntP_cons, cntP_nil. cbn [fst snd]. rewrite Z.eqb_refl, andb_true_r. lia.
Qed.

Lemma agrees_remove ids id pre post x key :
  agrees ids id (pre ++ x :: post) key ->
  agrees (if dbv_eqb (fst x) key then remove_first_pair ids (snd x) id else ids) id (pre ++ post) key.
Proof.
  intros H P. pose proof (H P) as HP. rewrite cntK_mid in HP.
  destruct (dbv_eqb (fst x) key) eqn:Ek; cbn [andb b2nat] in HP; [|exact HP].
  (* the entry to remove is there: the pair x itself is counted for "= snd x" *)
  pose proof (H (fun w => dbv_eqb w (snd x))) as H1.
  rewrite cntK_mid, Ek, dbv_eqb_refl in H1. cbn [andb b2nat] in H1.
  rewrite cntP_remove_first_pair, Z.eqb_refl, andb_true_r, (proj2 (Nat.ltb_lt 0 _)) by lia.
  cbn [andb]. destruct (P (snd x)); cbn [b2nat] in *; lia.
Qed.

Lemma count_occ_index_result ids v id :
  count_occ Z.eq_dec (map snd (filter (fun p : dbvalue * Z => dbv_eqb (fst p) v) ids)) id =
  cntP ids (fun w => dbv_eqb w v) id.
Proof.
  induction ids as [|[v0 id0] ids IH]; [reflexivity|]. rewrite cntP_cons. cbn [filter fst snd].
  destruct (dbv_eqb v0 v); cbn [andb map count_occ snd b2nat].
  - destruct (Z.eq_dec id0 id) as [->|Hn].
    + rewrite Z.eqb_refl, IH. reflexivity.
    + rewrite (proj2 (Z.eqb_neq id0 id) Hn), IH. reflexivity.
  - exact IH.
Qed.

Lemma cntK_absent l key P : has_key l key = false -> cntK l key P = 0%nat.
Proof.
  intros H. unfold cntK. rewrite (filter_const _ false); [reflexivity|].
  intros x Hx. now rewrite (has_key_false_in l key x H Hx).
Qed.

(* with distinct keys an element contributes at most one entry: its value for the key *)
Lemma cntK_distinct l key P :
  keys_distinct l ->
  cntK l key P = match kv_lookup l key with Some v' => b2nat (P v') | None => 0%nat end.
Proof.
  unfold kv_lookup. induction l as [|x l IH]; cbn [keys_distinct kv_find find]; [reflexivity|].
  intros [Hx Hd]. rewrite cntK_cons. fold (kv_find l key). destruct (dbv_eqb (fst x) key) eqn:E; cbn [andb].
  - rewrite cntK_absent; [lia|]. rewrite <- Hx. symmetry. now apply has_key_congr.
  - cbn [b2nat]. now apply IH.
Qed.

Definition idx_keys_distinct (ix : list index) : Prop := vals_distinct (map fst ix).

Lemma idx_find_snoc ix key key' :
  idx_find (ix ++ [(key, [])]) key' =
  match idx_find ix key' with
  | Some ids => Some ids
  | None => if dbv_eqb key key' then Some [] else None
  end.
Proof.
  induction ix as [|[k ids] r IH]; cbn [app].
  - rewrite idx_find_cons. reflexivity.
  - rewrite !idx_find_cons. destruct (dbv_eqb k key'); [reflexivity|exact IH].
Qed.

Lemma idx_find_none_mem ix key : idx_find ix key = None <-> mem dbv_eqb key (map fst ix) = false.
Proof.
  induction ix as [|[k ids] r IH]; cbn [map mem fst]; [unfold idx_find; cbn; tauto|].
  rewrite idx_find_cons. destruct (dbv_eqb k key); cbn [orb]; [split; discriminate|exact IH].
Qed.

Lemma mem_in x (l : list dbvalue) : mem dbv_eqb x l = true <-> In x l.
Proof.
  induction l as [|y l IH]; cbn [mem In]; [split; [discriminate|tauto]|].
  now rewrite orb_true_iff, dbv_eqb_true, IH.
Qed.

Lemma idx_find_remove ix key key' :
  idx_keys_distinct ix ->
  idx_find (idx_remove ix key) key' = if dbv_eqb key key' then None else idx_find ix key'.
Proof.
  unfold idx_keys_distinct. induction ix as [|[k ids] r IH]; cbn [idx_remove map fst vals_distinct].
  - intros _. now destruct (dbv_eqb key key').
  - intros [Hk Hd]. rewrite idx_find_cons. destruct (dbv_eqb k key) eqn:E.
    + apply dbv_eqb_true in E as ->. destruct (dbv_eqb key key') eqn:E2; [|reflexivity].
      apply dbv_eqb_true in E2 as <-. now apply idx_find_none_mem.
    + rewrite idx_find_cons, (IH Hd). destruct (dbv_eqb k key') eqn:E'; [|reflexivity].
      apply dbv_eqb_true in E' as ->. now rewrite (dbv_eqb_sym key key'), E.
Qed.

Lemma idx_update_length ix key f : length (idx_update ix key f) = length ix.
Proof.
  induction ix as [|[k ids] r IH]; cbn [idx_update length]; [reflexivity|].
  destruct (dbv_eqb k key); cbn [length]; [reflexivity|]. now rewrite IH.
Qed.

Lemma mem_false_sub (l l' : list dbvalue) x :
  (forall y, In y l' -> In y l) -> mem dbv_eqb x l = false -> mem dbv_eqb x l' = false.
Proof.
  intros Hsub Hm. destruct (mem dbv_eqb x l') eqn:E; [|reflexivity].
  apply mem_in, Hsub, mem_in in E. congruence.
Qed.

Lemma idx_remove_in ix key p : In p (idx_remove ix key) -> In p ix.
Proof.
  induction ix as [|[k ids] r IH]; cbn [idx_remove]; [trivial|].
  destruct (dbv_eqb k key); [now right|]. intros [H|H]; [now left|right; now apply IH].
Qed.

Lemma idx_remove_distinct ix key : idx_keys_distinct ix -> idx_keys_distinct (idx_remove ix key).
Proof.
  unfold idx_keys_distinct. induction ix as [|[k ids] r IH]; cbn [idx_remove map fst vals_distinct]; [trivial|].
  intros [Hk Hd]. destruct (dbv_eqb k key); [exact Hd|].
  cbn [map fst vals_distinct]. split; [|now apply IH].
  apply (mem_false_sub (map fst r)); [|exact Hk].
  intros y Hy. apply in_map_iff in Hy. destruct Hy as [p [<- Hp]].
  apply in_map. now apply (idx_remove_in r key).
Qed.

Lemma vals_distinct_snoc (l : list dbvalue) x :
  vals_distinct l -> mem dbv_eqb x l = false -> vals_distinct (l ++ [x]).
Proof.
  induction l as [|y l IH]; cbn [app vals_distinct mem]; [tauto|].
  intros [Hy Hd] Hx. apply orb_false_iff in Hx. destruct Hx as [Hx1 Hx2]. split; [|now apply IH].
  clear IH Hd. induction l as [|z l IH]; cbn [app mem] in *.
  - rewrite dbv_eqb_sym. now rewrite Hx1.
  - apply orb_false_iff in Hy. apply orb_false_iff in Hx2. rewrite (proj1 Hy). cbn [orb]. apply IH; tauto.
Qed.

Lemma idx_snoc_distinct ix key :
  idx_keys_distinct ix -> idx_find ix key = None -> idx_keys_distinct (ix ++ [(key, [])]).
Proof.
  unfold idx_keys_distinct. intros Hd Hn. rewrite map_app. cbn [map fst].
  apply vals_distinct_snoc; [exact Hd|]. now apply idx_find_none_mem.
Qed.

Lemma idx_find_in ix k ids : idx_keys_distinct ix -> In (k, ids) ix -> idx_find ix k = Some ids.
Proof.
  unfold idx_keys_distinct. induction ix as [|[k0 ids0] r IH]; cbn [map fst vals_distinct]; [intros _ []|].
  intros [Hk Hd] [H|H].
  - inversion H; subst. rewrite idx_find_cons, dbv_eqb_refl. reflexivity.
  - rewrite idx_find_cons. destruct (dbv_eqb k0 k) eqn:E; [|now apply IH].
    exfalso. assert (Hm : mem dbv_eqb k0 (map fst r) = true).
    { clear -H E. induction r as [|[k1 ids1] r IH]; [destruct H|]. cbn [map fst mem].
      destruct H as [H|H]; [inversion H; subst; rewrite dbv_eqb_sym, E; reflexivity|].
      rewrite (IH H). apply orb_true_r. }
    congruence.
Qed.
