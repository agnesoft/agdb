(* ValueLoadProofs.v — C07: DbValue::load_db_value on an ARBITRARY 16-byte index and an arbitrary
   record store never panics once the two checks of fixes/C07-value-index.diff are in; with only the
   numeric check (`vg_current`) it panics exactly for an unknown type nibble. *)
From Agdb Require Import Bytes BytesProofs Utf8 Codec CodecProofs DbValue ValueIndex ValueIndexProofs.
From Coq Require Import ZifyBool ZifyNat ZifyN.
Ltac Zify.zify_post_hook ::= Z.div_mod_to_equations.
Open Scope N_scope.
Arguments N.add : simpl never.
Arguments N.mul : simpl never.
Arguments N.sub : simpl never.
Arguments N.ltb : simpl never.
Arguments N.leb : simpl never.
Arguments N.eqb : simpl never.
Arguments N.land : simpl never.
Arguments N.shiftr : simpl never.

Definition ok_or_err {A} (o : outcome A) : Prop :=
  match o with Ok _ | Err => True | _ => False end.

(* records a file can hold *)
Definition store_small (st : store) : Prop := forall i b, lookup i st = Some b -> lenN b < two60.

Lemma ok_or_err_map {A B} (o : outcome A) (f : A -> B) :
  ok_or_err o -> ok_or_err (obind o (fun a => Ok (f a))).
Proof. destruct o; cbn; tauto. Qed.

Lemma ok_or_err_if {A} (b : bool) (x : A) (o : outcome A) : ok_or_err o -> ok_or_err (if b then Ok x else o).
Proof. now destruct b. Qed.

Lemma rec_get_total i st : ok_or_err (rec_get i st).
Proof. unfold rec_get. destruct (lookup i st); exact I. Qed.

Lemma value_as_total t i st : store_small st -> ty_ok t = true -> ok_or_err (value_as t i st).
Proof.
  intros Hs Ht. unfold value_as, rec_get.
  destruct (lookup i st) as [b|] eqn:E; [|exact I]. cbn [obind].
  pose proof (dec_total Debug t b (Hs i b E) Ht) as T. unfold good in T.
  revert T. destruct (dec Debug guards_fixed t b) as [[v n]| | | |]; cbn [obind ok_or_err fst]; tauto.
Qed.

Lemma load_num_8 ix : vi_size ix = 8 -> ok_or_err (load_num ix).
Proof. intros H. unfold load_num. rewrite H. exact I. Qed.

(* the unchanged match, for a known type and a well-sized numeric *)
Lemma load_known_total ix st :
  store_small st ->
  is_known_type (vi_type ix) = true ->
  (is_numeric_type (vi_type ix) = true -> vi_size ix = 8) ->
  ok_or_err (load_db_value ix st).
Proof.
  intros Hs Hk Hn. unfold is_known_type in Hk. unfold is_numeric_type in Hn.
  assert (Ht : vi_type ix = 1 \/ vi_type ix = 2 \/ vi_type ix = 3 \/ vi_type ix = 4 \/ vi_type ix = 5 \/
               vi_type ix = 6 \/ vi_type ix = 7 \/ vi_type ix = 8 \/ vi_type ix = 9) by lia.
  unfold load_db_value.
  destruct Ht as [E|[E|[E|[E|[E|[E|[E|[E|E]]]]]]]]; rewrite E in *; cbv iota.
  - apply ok_or_err_if, ok_or_err_map, rec_get_total.
  - apply ok_or_err_map, load_num_8, Hn. reflexivity.
  - apply ok_or_err_map, load_num_8, Hn. reflexivity.
  - apply ok_or_err_map, load_num_8, Hn. reflexivity.
  - apply ok_or_err_if, ok_or_err_map. now apply value_as_total.
  - apply ok_or_err_map. now apply value_as_total.
  - apply ok_or_err_map. now apply value_as_total.
  - apply ok_or_err_map. now apply value_as_total.
  - apply ok_or_err_map. now apply value_as_total.
Qed.

(* the repaired load_db_value: a value or an error for EVERY index and every store *)
Theorem load_fixed_total ix st : store_small st -> ok_or_err (load_db_value_g vg_fixed ix st).
Proof.
  intros Hs. unfold load_db_value_g. cbn [vg_num_checked vg_type_checked vg_fixed].
  destruct (is_numeric_type (vi_type ix) && negb (vi_size ix =? 8)) eqn:E1; [exact I|].
  destruct (is_known_type (vi_type ix)) eqn:E2; cbn [negb]; [|exact I].
  apply load_known_total; [exact Hs|exact E2|]. intros Hn. rewrite Hn in E1. cbn [andb] in E1. lia.
Qed.

(* `vg_current`: the only way to panic is an unknown type nibble (0 or 10..15) *)
Theorem load_current_total ix st : store_small st ->
  match load_db_value_g vg_current ix st with
  | Ok _ | Err => True
  | Panic => is_known_type (vi_type ix) = false
  | _ => False
  end.
Proof.
  intros Hs. unfold load_db_value_g. cbn [vg_num_checked vg_type_checked vg_current].
  destruct (is_numeric_type (vi_type ix) && negb (vi_size ix =? 8)) eqn:E1; [exact I|].
  destruct (is_known_type (vi_type ix)) eqn:E2; cbn [negb]; [|reflexivity].
  assert (T : ok_or_err (load_db_value ix st)).
  { apply load_known_total; [exact Hs|exact E2|]. intros Hn. rewrite Hn in E1. cbn [andb] in E1. lia. }
  destruct (load_db_value ix st); cbn in T; tauto.
Qed.

(* the checks change nothing for the indexes `store` produces: C12 carries over to every revision *)
Theorem load_g_roundtrip g alloc v st :
  wf_value v = true -> alloc_ok alloc st ->
  load_db_value_g g (fst (store_db_value alloc v st)) (snd (store_db_value alloc v st)) = Ok v.
Proof.
  intros Hwf Hal. pose proof (store_load_roundtrip alloc v st Hwf Hal) as R.
  unfold load_db_value_g.
  set (ix := fst (store_db_value alloc v st)) in *. set (st' := snd (store_db_value alloc v st)) in *.
  destruct (is_numeric_type (vi_type ix) && negb (vi_size ix =? 8)) eqn:E1.
  - (* a numeric index with size <> 8 would make the unchanged match panic: contradiction with R *)
    exfalso. apply andb_prop in E1. destruct E1 as [Hn Hz]. unfold is_numeric_type in Hn.
    assert (Ht : vi_type ix = 2 \/ vi_type ix = 3 \/ vi_type ix = 4) by lia.
    unfold load_db_value in R. unfold load_num in R.
    destruct Ht as [E|[E|E]]; rewrite E in R; cbv iota in R;
      destruct (vi_size ix =? 8); cbn [negb] in Hz; try discriminate; cbn [obind] in R; discriminate.
  - destruct (is_known_type (vi_type ix)) eqn:E2; cbn [negb]; [exact R|].
    exfalso. unfold is_known_type in E2. unfold load_db_value in R.
    destruct (vi_type ix) as [|p] eqn:Et; [discriminate|].
    (* p is none of 1..9 *)
    do 4 (destruct p as [p|p|]; try discriminate; try (cbn in E2; lia)).
Qed.

(* witnesses: what the unrepaired match does *)
Lemma load_pinned_unknown_type : load_db_value_g vg_pinned (repeat x00 16) [] = Panic.
Proof. reflexivity. Qed.
Lemma load_pinned_short_numeric : load_db_value_g vg_pinned (repeat x00 15 ++ [x23]) [] = Panic.
Proof. reflexivity. Qed.
Lemma load_current_unknown_type : load_db_value_g vg_current (repeat x00 15 ++ [xa0]) [] = Panic.
Proof. reflexivity. Qed.
Lemma load_current_short_numeric : load_db_value_g vg_current (repeat x00 15 ++ [x23]) [] = Err.
Proof. reflexivity. Qed.
