(* RaftLogHand.v — further handler-level facts for the leader-completeness proof (RaftLogLC.v):
   the (term, index) of a node's last entry never goes down lexicographically when a request is handled,
   what a granted vote tells about the candidate's last entry, and how a node becomes Candidate or Leader. *)
From Coq Require Import NArith List Bool Lia Arith.
From Agdb Require Import Raft RaftProofs RaftInv RaftElect RaftVote RaftLogWf.
Import ListNotations.
Open Scope N_scope.

(* (term of last entry, log index) of the node's own table row, lexicographic order *)
Definition lexle (nd nd' : node) : Prop :=
  p_lt (local nd) < p_lt (local nd') \/
  (p_lt (local nd) = p_lt (local nd') /\ p_li (local nd) <= p_li (local nd')).

Lemma lexle_refl : forall nd, lexle nd nd. Proof. intros; right; split; [reflexivity|lia]. Qed.
Lemma lexle_trans : forall a b c, lexle a b -> lexle b c -> lexle a c.
Proof. unfold lexle; intros a b c H1 H2. lia. Qed.

Lemma ninv_li : forall nd, ninv nd -> p_li (local nd) = lenN (n_logs nd).
Proof. intros nd I. unfold lenN. rewrite (ni_len _ I). lia. Qed.

Lemma ninv_lc : forall nd, ninv nd -> p_lc (local nd) = n_commit nd.
Proof. intros nd I. symmetry. apply (ni_commit _ I). Qed.

Lemma lexle_loop_step : forall nd r log doit,
  nwf nd -> validate_log_append nd r log = inl doit -> e_term log <= n_term nd -> lexle nd (loop_step nd r log doit).
Proof.
  intros nd r log doit W V T.
  destruct (nwf_loop_step nd r log doit W V T) as (_ & _ & F & Tr).
  destruct doit.
  - destruct (Tr eq_refl) as (A & B & _). apply validate_log_append_true in V as (_ & _ & [[E1 E2]|E]).
    + right. rewrite A, B. split; lia.
    + left. rewrite B. exact E.
  - destruct (F eq_refl) as (_ & A & B). right. split; [congruence|lia].
Qed.

Lemma lexle_append_logs : forall logs nd r,
  nwf nd -> (forall e, In e logs -> e_term e <= n_term nd) -> lexle nd (fst (append_logs nd r logs)).
Proof.
  induction logs as [|log rest IH]; intros nd r W T; [apply lexle_refl|].
  rewrite append_logs_cons. destruct (validate_log_append nd r log) as [doit|resp] eqn:V; [|apply lexle_refl].
  destruct (nwf_loop_step nd r log doit W V (T _ (or_introl eq_refl))) as (W' & T' & _).
  eapply lexle_trans; [eapply lexle_loop_step; eauto; apply T; left; reflexivity|].
  apply IH; auto. intros e H. rewrite T'. apply T. right; exact H.
Qed.

Lemma lexle_request : forall rv nd r el,
  nwf nd -> req_wf r -> q_from r <> n_index nd -> lexle nd (fst (handle_request rv nd r el)).
Proof.
  intros rv nd r el W RW Hne. pose proof (w_inv _ W) as I.
  assert (LF : lexle nd (follow nd r)).
  { right. rewrite (local_follow nd r I Hne). split; [reflexivity|lia]. }
  destruct (request_case rv nd r el) as [s O To|K|K L C T P1 P2|s K T O To|K T E|logs K T]; cbn [fst];
    try apply lexle_refl.
  - destruct (fix_vote_term rv); exact (lexle_refl nd).
  - exact (lexle_refl nd).
  - destruct (_ <? _); [|exact LF]. eapply lexle_trans; [exact LF|].
    right. rewrite local_commit_storage by apply (ni_range _ (proj1 (good_follow nd r I Hne))). cbn. split; [reflexivity|lia].
  - unfold req_wf in RW. rewrite K in RW. destruct RW as [_ Te].
    eapply lexle_trans; [exact LF | apply lexle_append_logs; [apply nwf_follow; assumption | exact Te]].
Qed.

(* a granted vote: the candidate's last entry is at least the voter's, componentwise; the voter adopts the term *)
Lemma vote_granted : forall rv nd r el,
  fix_vote_term rv = true ->
  q_kind r = KVote -> is_ok (s_result (snd (handle_request rv nd r el))) = true ->
  p_li (local nd) <= q_li r /\ p_lt (local nd) <= q_lt r /\
  n_logs (fst (handle_request rv nd r el)) = n_logs nd /\
  cl (n_state (fst (handle_request rv nd r el))) = false /\
  n_term nd < q_term r /\ n_term (fst (handle_request rv nd r el)) = q_term r.
Proof.
  intros rv nd r el FT K.
  destruct (request_case rv nd r el) as [s O To|K'|K' L C T P1 P2|s K' T O To|K' T E|logs K' T]; cbn [fst snd];
    try congruence.
  rewrite FT. intros _. repeat split; auto.
Qed.

(* the condition under which `request_ghosts` records a support is met by Vote requests only *)
Lemma request_no_vote : forall rv nd r el,
  is_vote (q_kind r) && is_ok (s_result (snd (handle_request rv nd r el))) = true -> q_kind r = KVote.
Proof. intros rv nd r el H. destruct (q_kind r); cbn in H; try discriminate. reflexivity. Qed.

(* how a node is Candidate or Leader after a response *)
Lemma response_cl : forall rv nd r s,
  fix_vote_match rv = true ->
  cl (n_state (fst (handle_response rv nd r s))) = true ->
  let nd' := fst (handle_response rv nd r s) in
  (n_state nd' = n_state nd /\ n_term nd' = n_term nd) \/
  (n_state nd = Candidate /\ is_leader (n_state nd') = true /\ n_term nd' = n_term nd) \/
  (n_state nd' = Candidate /\ n_term nd' = n_term nd + 1).
Proof.
  intros rv nd r s FM C. cbv zeta. unfold cl in C. apply orb_true_iff in C as [C|C].
  - destruct (response_candidate rv nd r s C) as [E|[(S0 & _ & _ & _ & E)|(S0 & E)]].
    + left. rewrite E. auto.
    + left. rewrite E. cbn. auto.
    + right; right. rewrite E. unfold election. cbn. auto.
  - destruct (is_leader (n_state nd)) eqn:L.
    + left. destruct (response_from_leader rv nd r s L) as [[L' E]|[F _]]; [|congruence].
      split; auto. destruct (n_state nd); try discriminate. destruct (n_state (fst (handle_response rv nd r s))); try discriminate. reflexivity.
    + right; left. destruct (response_leader rv nd r s C L) as (S0 & _ & _ & VC & _ & E).
      repeat split; auto. rewrite E. unfold vote_counts in VC. rewrite FM in VC. cbn in VC. apply N.eqb_eq in VC. exact VC.
Qed.

Lemma commit_process : forall nd el due, n_commit (fst (process nd el due)) = n_commit nd.
Proof. intros nd el due. destruct (process_case nd el due); reflexivity. Qed.

Lemma validate_log_append_false : forall nd r log,
  validate_log_append nd r log = inl false -> p_lt (local nd) = e_term log /\ e_index log <= p_li (local nd).
Proof.
  intros nd r log. unfold validate_log_append.
  destruct (N.eqb_spec (p_lt (local nd)) (e_term log)).
  - destruct (N.leb_spec (e_index log) (p_li (local nd))); [auto|].
    destruct (_ && _); discriminate.
  - destruct (_ && _ && _); discriminate.
Qed.

Lemma loop_step_lc : forall nd r log doit,
  nwf nd -> validate_log_append nd r log = inl doit -> e_term log <= n_term nd ->
  p_lc (local nd) <= p_li (local nd) ->
  let nd2 := loop_step nd r log doit in
  p_lc (local nd) <= p_lc (local nd2) /\ p_lc (local nd2) <= N.max (p_lc (local nd)) (q_lc r) /\
  (p_lc (local nd) < p_lc (local nd2) -> p_lc (local nd2) = e_index log) /\ p_lc (local nd2) <= p_li (local nd2).
Proof.
  intros nd r log doit W V T C. cbv zeta. unfold loop_step.
  set (nd1 := if doit then append_storage nd log else nd).
  pose proof (ni_range _ (w_inv _ W)) as R.
  assert (W1 : nwf nd1) by (unfold nd1; destruct doit; [eapply nwf_append_storage; eauto | auto]).
  pose proof (ni_range _ (w_inv _ W1)) as R1.
  assert (C1 : p_lc (local nd1) = p_lc (local nd)).
  { unfold nd1. destruct doit; auto. rewrite local_append_storage by exact R. reflexivity. }
  assert (L1 : p_li (local nd1) = if doit then e_index log else p_li (local nd)).
  { unfold nd1. destruct doit; auto. rewrite local_append_storage by exact R. reflexivity. }
  assert (B : e_index log <= p_li (local nd1) /\ (doit = true -> p_lc (local nd) < e_index log)).
  { destruct doit.
    - apply validate_log_append_true in V. rewrite L1. split; [lia|tauto].
    - apply validate_log_append_false in V. rewrite L1. split; [tauto|discriminate]. }
  destruct ((e_index log <=? q_lc r) && (p_lc (local nd1) <? e_index log)) eqn:E.
  - apply andb_true_iff in E as [E1 E2]. apply N.leb_le in E1. apply N.ltb_lt in E2.
    rewrite local_commit_storage by exact R1. cbn [p_set_commit p_lc p_li]. repeat split; try lia.
  - rewrite C1. repeat split; try lia. destruct doit; [|lia]. destruct B as [_ B]. specialize (B eq_refl). lia.
Qed.

(* after an entry of a chain has been skipped (the follower claims to hold it), the rest of the chain is answered Ok *)
Lemma append_logs_skip_ok : forall rest nd r prev,
  nwf nd -> chain (prev :: rest) -> (forall e, In e rest -> e_term e <= n_term nd) ->
  p_lt (local nd) = e_term prev -> e_index prev <= p_li (local nd) -> p_lc (local nd) <= e_index prev ->
  s_result (snd (append_logs nd r rest)) = ROk.
Proof.
  induction rest as [|log rest IH]; intros nd r prev W C T Ht Hi Hc; [reflexivity|].
  destruct (C O prev log eq_refl eq_refl) as [Ci Ct].
  rewrite append_logs_cons.
  destruct (validate_log_append nd r log) as [[|]|resp] eqn:V.
  - destruct (nwf_loop_step nd r log true W V (T _ (or_introl eq_refl))) as (W' & T' & _ & L).
    destruct (L eq_refl) as (A & B & Cc).
    eapply (append_logs_rest_ok rest _ r log); auto.
    + eapply chain_tail; eauto.
    + intros e H. rewrite T'. apply T. right; exact H.
  - destruct (nwf_loop_step nd r log false W V (T _ (or_introl eq_refl))) as (W' & T' & L & _).
    destruct (L eq_refl) as (_ & A & B).
    destruct (validate_log_append_false _ _ _ V) as [V1 V2].
    assert (C0 : p_lc (local nd) <= p_li (local nd)) by lia.
    destruct (loop_step_lc nd r log false W V (T _ (or_introl eq_refl)) C0) as (M1 & M2 & M3 & M4).
    eapply (IH _ r log); auto.
    + eapply chain_tail; eauto.
    + intros e H. rewrite T'. apply T. right; exact H.
    + congruence.
    + lia.
    + destruct (N.lt_ge_cases (p_lc (local nd)) (p_lc (local (loop_step nd r log false)))) as [H|H]; [rewrite (M3 H); lia | lia].
  - exfalso. unfold validate_log_append in V. rewrite Ht in V.
    destruct (N.eqb_spec (e_term prev) (e_term log)) as [E|E].
    + destruct (N.leb_spec (e_index log) (p_li (local nd))); [discriminate|].
      destruct (N.ltb_spec (p_lc (local nd)) (e_index log)); [|lia]. cbn [andb] in V.
      destruct (N.eqb_spec (p_li (local nd) + 1) (e_index log)); [discriminate|lia].
    + destruct (N.ltb_spec (e_term prev) (e_term log)); [|lia]. cbn [andb] in V.
      destruct (N.ltb_spec (p_lc (local nd)) (e_index log)); [|lia]. cbn [andb] in V.
      destruct (N.leb_spec (e_index log) (p_li (local nd) + 1)); [discriminate|lia].
Qed.

Lemma append_logs_commit : forall logs nd r,
  nwf nd -> chain logs -> (forall e, In e logs -> e_term e <= n_term nd) -> p_lc (local nd) <= p_li (local nd) ->
  let nd' := fst (append_logs nd r logs) in
  p_lc (local nd') <= p_li (local nd') /\ p_lc (local nd') <= N.max (p_lc (local nd)) (q_lc r) /\
  p_lc (local nd) <= p_lc (local nd') /\
  (p_lc (local nd) < p_lc (local nd') -> s_result (snd (append_logs nd r logs)) = ROk).
Proof.
  induction logs as [|log rest IH]; intros nd r W C T Hc; cbv zeta.
  - cbn. repeat split; try lia.
  - rewrite append_logs_cons. destruct (validate_log_append nd r log) as [doit|resp] eqn:V; cbn [fst snd]; [|repeat split; lia].
    destruct (nwf_loop_step nd r log doit W V (T _ (or_introl eq_refl))) as (W' & T' & Lf & Lt).
    destruct (loop_step_lc nd r log doit W V (T _ (or_introl eq_refl)) Hc) as (M1 & M2 & M3 & M4).
    assert (T2 : forall e, In e rest -> e_term e <= n_term (loop_step nd r log doit)) by (intros e H; rewrite T'; apply T; right; exact H).
    destruct (IH (loop_step nd r log doit) r W' (chain_tail _ _ C) T2 M4) as (I1 & I2 & I3 & I4).
    repeat split; try lia.
    intros Hr. destruct (N.lt_ge_cases (p_lc (local (loop_step nd r log doit))) (p_lc (local (fst (append_logs (loop_step nd r log doit) r rest))))) as [H|H].
    + apply I4; auto.
    + assert (Hr' : p_lc (local nd) < p_lc (local (loop_step nd r log doit))) by lia.
      specialize (M3 Hr'). destruct doit.
      * destruct (Lt eq_refl) as (A & B & Cc). eapply (append_logs_rest_ok rest _ r log); auto.
      * destruct (Lf eq_refl) as (_ & A & B). destruct (validate_log_append_false _ _ _ V) as [V1 V2].
        eapply (append_logs_skip_ok rest _ r log); auto; [congruence|lia|lia].
Qed.

(* what a request does to the commit index *)
Lemma request_commit : forall rv nd r el,
  nwf nd -> req_wf r -> q_from r <> n_index nd ->
  n_commit nd <= lenN (n_logs nd) -> (is_append_or_hb (q_kind r) = true -> q_lc r <= q_li r) ->
  let nd' := fst (handle_request rv nd r el) in
  n_commit nd' <= lenN (n_logs nd') /\ n_commit nd' <= N.max (n_commit nd) (q_lc r) /\
  (n_commit nd < n_commit nd' ->
   is_append_or_hb (q_kind r) = true /\ is_ok (s_result (snd (handle_request rv nd r el))) = true).
Proof.
  intros rv nd r el W RW Hne CL MC. cbv zeta. pose proof (w_inv _ W) as I.
  assert (LC : p_lc (local (follow nd r)) = n_commit nd) by (rewrite (local_follow nd r I Hne); apply ninv_lc, I).
  destruct (request_case rv nd r el) as [s O To|K|K L C T P1 P2|s K T O To|K T E|logs K T]; cbn [fst snd].
  - repeat split; lia.
  - repeat split; lia.
  - destruct (fix_vote_term rv); cbn [n_commit n_logs set_state set_term]; repeat split; lia.
  - cbn [n_commit n_logs set_state set_term]. repeat split; lia.
  - rewrite K in *. specialize (MC eq_refl). rewrite <- E, (ninv_li _ I) in MC. rewrite LC.
    destruct (N.ltb_spec (n_commit nd) (q_lc r)); cbn; repeat split; auto; lia.
  - pose proof (nwf_follow nd r W T Hne) as W1. unfold req_wf in RW. rewrite K in *. destruct RW as [Cn Te].
    pose proof (w_inv _ (nwf_append_logs logs (follow nd r) r W1 Te)) as I'.
    destruct (append_logs_commit logs (follow nd r) r W1 Cn Te) as (A1 & A2 & A3 & A4).
    { rewrite LC, (local_follow nd r I Hne), (ninv_li _ I). exact CL. }
    rewrite (ninv_lc _ I'), (ninv_li _ I'), LC in *. repeat split; auto. rewrite (A4 H). reflexivity.
Qed.
