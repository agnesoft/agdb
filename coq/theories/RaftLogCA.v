(* RaftLogCA.v — STATE-MACHINE SAFETY (C28c, committed_agree) for every revision with the two election repairs,
   under the hypotheses that none of the three log-replication defect classes occurs (RaftLogLC.hyps_rv; `hyps`
   for `rr_fixed`).
   Invariant CA, on top of LI (log matching) and LC (leader completeness):
     cl  a node's commit index is at most its log length;
     mc  an Append/Heartbeat in flight carries commit <= log index of the sender when it was sent, and its commit
         is at most the sender's present commit index;
     cf  every committed index of every node was committed by a leader, and the node holds that leader's entry;
     u   two leader commits of one index are commits of the same entry. *)
From Coq Require Import NArith List Bool Lia Arith.
From Agdb Require Import Raft RaftProofs RaftInv RaftElect RaftVote RaftLog RaftLogWf RaftLogMatch RaftLogHand RaftLogLC.
Import ListNotations.
Open Scope N_scope.

Record CA (c : cluster) : Prop := {
  ca_cl : forall u v, get_node c u = Some v -> n_commit v <= lenN (n_logs v);
  ca_mc : forall r, In (MReq r) (c_net c) -> is_append_or_hb (q_kind r) = true ->
            q_lc r <= q_li r /\ forall s, get_node c (q_from r) = Some s -> q_lc r <= n_commit s;
  ca_cf : forall u v idx, get_node c u = Some v -> 1 <= idx -> idx <= n_commit v ->
            exists T e, committed (c_hist c) T idx e /\ holds v idx e;
  ca_u : forall T1 T2 idx e1 e2, committed (c_hist c) T1 idx e1 -> committed (c_hist c) T2 idx e2 -> e1 = e2 }.

Lemma log_at_some_of_le : forall (l : list entry) idx, 1 <= idx -> idx <= lenN l -> exists e, log_at l idx = Some e.
Proof.
  intros l idx H1 H2. unfold log_at. destruct (N.eqb_spec idx 0); [lia|].
  destruct (nth_error l (N.to_nat (idx - 1))) eqn:E; eauto.
  apply nth_error_None in E. unfold lenN in H2. lia.
Qed.

Section Put.
Variables (sz : N) (c : cluster) (i : N) (nd nd' : node) (net' : list msg) (pre : list ghost).
Let g := pre ++ node_ghosts nd nd'.
Let c' := mkCluster (put_node c i nd') net' (c_hist c ++ g).
Hypothesis Lc : LI c.
Hypothesis Ac : CA c.
Hypothesis Cc : LC sz c.
Hypothesis G : get_node c i = Some nd.
Hypothesis Lc' : LI c'.
Hypothesis Cc' : LC sz c'.
Hypothesis Qpre : forall x, In x pre -> quiet x.
Hypothesis OT : old_term_commit_b g = false.
Hypothesis NQ : nq_node (put_node c i nd') nd nd' = false.
Hypothesis Hidx : n_index nd' = i.
Hypothesis Hsz : n_size nd' = sz.
Hypothesis St : stable nd nd'.
Hypothesis PL1 : is_leader (n_state nd) = true -> is_leader (n_state nd') = true ->
                 forall idx e, log_at (n_logs nd) idx = Some e -> log_at (n_logs nd') idx = Some e.
Hypothesis PL2 : is_leader (n_state nd) && is_leader (n_state nd') = false -> n_commit nd' <= lenN (n_logs nd').
Hypothesis FC : is_leader (n_state nd) && is_leader (n_state nd') = false -> n_commit nd < n_commit nd' ->
                exists j s, j <> i /\ get_node c j = Some s /\
                            n_logs nd' = firstn (length (n_logs nd')) (n_logs s) /\ n_commit nd' <= n_commit s.
Hypothesis NM : forall m, In m net' -> In m (c_net c) \/ new_msg nd' m.

Lemma committed_mono : forall T idx e, committed (c_hist c) T idx e -> committed (c_hist c ++ g) T idx e.
Proof. intros T idx e [j H]. exists j. apply in_or_app. auto. Qed.

(* an index committed by the acting node, as Leader, in this step *)
Lemma raised_leader : forall idx,
  is_leader (n_state nd) && is_leader (n_state nd') = true -> n_commit nd < idx -> idx <= n_commit nd' ->
  exists x, committed (c_hist c ++ g) (n_term nd') idx x /\ holds nd' idx x.
Proof.
  intros idx B H1 H2. pose proof (In_node_ghosts_commit_conv nd nd' idx H1 H2) as Hin. rewrite B in Hin.
  assert (Hg : In (GCommit (n_index nd') true (n_term nd') idx (log_at (n_logs nd') idx)) g).
  { unfold g. apply in_or_app. right. exact Hin. }
  destruct (commit_in_g sz c i nd nd' pre Qpre OT NQ Hsz _ _ _ _ Hg) as [x [E N]].
  exists x. split.
  - exists (n_index nd'). apply in_or_app. right. rewrite <- E. exact Hg.
  - destruct N as (_ & _ & _ & _ & Hh & _). exact Hh.
Qed.

Lemma cl_i : n_commit nd' <= lenN (n_logs nd').
Proof.
  destruct (Bool.bool_dec (is_leader (n_state nd) && is_leader (n_state nd')) true) as [B|B];
    [|apply PL2; apply Bool.not_true_is_false; exact B].
  destruct (N.lt_ge_cases (n_commit nd) (n_commit nd')) as [H|H].
  - destruct (raised_leader (n_commit nd') B H) as [x [_ Hh]]; [lia|]. apply holds_len in Hh. lia.
  - apply andb_true_iff in B as [B1 B2]. destruct St as (_ & _ & _ & Hm & _).
    assert (E : n_commit nd' = n_commit nd) by lia. rewrite E.
    destruct (N.eq_dec (n_commit nd) 0) as [Z|Z]; [lia|].
    destruct (log_at_some_of_le (n_logs nd) (n_commit nd)) as [e He]; [lia|apply (ca_cl _ Ac _ _ G)|].
    pose proof (PL1 B1 B2 _ _ He) as He'. apply log_at_some_lt in He'. unfold lenN. lia.
Qed.

Theorem CA_put : CA c'.
Proof.
  constructor; cbn [c' c_nodes c_net c_hist].
  - (* cl *)
    intros u v Hg. destruct (get_put _ _ _ _ _ _ _ _ G Hg) as [[-> ->]|[Hne Hg']]; [apply cl_i | eapply (ca_cl _ Ac); eauto].
  - (* mc *)
    intros r Hr A. destruct (NM _ Hr) as [Ho|Hn].
    + destruct (ca_mc _ Ac r Ho A) as [M1 M2]. split; auto.
      intros s Hs. destruct (get_put _ _ _ _ _ _ _ _ G Hs) as [[Ei ->]|[Hne Hs']]; [|auto].
      assert (G' : get_node c (q_from r) = Some nd) by (rewrite Ei; exact G).
      specialize (M2 _ G'). destruct St as (_ & _ & _ & Hm & _). lia.
    + destruct (sn_ahb _ _ Hn A) as (_ & _ & R1 & R2). pose proof (eq_trans (sn_from _ _ Hn) Hidx) as Fi.
      pose proof (get_put_eq c i nd nd' net' (c_hist c ++ g) G) as Gi. unfold get_node in Gi. pose proof (w_inv _ (li_wf _ Lc' _ _ Gi)) as I'.
      rewrite R1, R2, (ninv_li _ I'), (ninv_lc _ I'). split; [apply cl_i|].
      intros s Hs. rewrite Fi in Hs. unfold c' in Hs. rewrite (get_put_eq _ _ _ _ _ _ G) in Hs. inversion Hs; subst s. lia.
  - (* cf *)
    intros u v idx Hg H1 H2. destruct (get_put _ _ _ _ _ _ _ _ G Hg) as [[-> ->]|[Hne Hg']].
    2:{ destruct (ca_cf _ Ac _ _ _ Hg' H1 H2) as (T & e & Cm & Hh). exists T, e. split; auto. apply committed_mono; auto. }
    destruct (N.le_gt_cases idx (n_commit nd)) as [Hle|Hgt].
    + destruct (ca_cf _ Ac _ _ _ G H1 Hle) as (T & e & Cm & Hh). exists T, e. split; [apply committed_mono; auto|].
      destruct St as (_ & _ & _ & _ & Hk). apply Hk; auto.
    + destruct (Bool.bool_dec (is_leader (n_state nd) && is_leader (n_state nd')) true) as [B|B].
      * destruct (raised_leader idx B Hgt H2) as [x [Cm Hh]]. exists (n_term nd'), x. auto.
      * apply Bool.not_true_is_false in B. destruct (FC B) as (j & s & Hj & Hs & E & Hc); [lia|].
        destruct (ca_cf _ Ac _ _ idx Hs H1) as (T & e & Cm & Hh); [lia|].
        exists T, e. split; [apply committed_mono; auto|].
        unfold holds in *. rewrite (log_at_prefix _ _ idx E); auto. pose proof cl_i. lia.
  - (* u *)
    assert (ON : forall T1 T idx e1 e, committed (c_hist c) T1 idx e1 -> NEW sz c i nd nd' T idx e -> e1 = e).
    { intros T1 T idx e1 e Co N. pose proof N as (L1 & L2 & ET & _ & Hh & _ & _ & Q).
      destruct (N.le_gt_cases T1 T) as [Hle|Hgt].
      - assert (H1 : holds nd' idx e1).
        { eapply (lc_c4 _ _ Cc' T1 idx e1 i nd'); [apply committed_mono; exact Co | apply (get_put_eq _ _ _ _ _ _ G) | exact L2 | lia]. }
        unfold holds in *. congruence.
      - exfalso.
        destruct (lc_q _ _ Cc' T1 idx e1 (committed_mono _ _ _ Co)) as [S1 [N1 [Q1 H1]]].
        destruct (holders_quorum (put_node c i nd') sz T idx e) as [S [NS [QS HS]]]; auto.
        { apply (proj1 (li_cinv _ Lc')). }
        { apply (lc_len _ _ Cc'). }
        destruct (quorum_intersection_n sz S1 S N1 NS) as [w [W1 W2]]; auto.
        { intros y Hy. apply H1; auto. }
        { intros y Hy. apply HS; auto. }
        destruct (H1 _ W1) as (_ & v1 & Hv1 & _ & T1le & _). destruct (HS _ W2) as (_ & v2 & Hv2 & Tv2 & _).
        unfold get_node in Hv1. cbn [c' c_nodes] in Hv1. rewrite Hv2 in Hv1. inversion Hv1; subst v2. lia. }
    intros T1 T2 idx e1 e2 C1 C2.
    destruct (committed_cases sz c i nd nd' pre Qpre OT NQ Hsz _ _ _ C1) as [O1|N1];
      destruct (committed_cases sz c i nd nd' pre Qpre OT NQ Hsz _ _ _ C2) as [O2|N2].
    + eapply (ca_u _ Ac); eauto.
    + eapply ON; eauto.
    + symmetry. eapply ON; eauto.
    + destruct N1 as (_ & _ & _ & _ & H1 & _). destruct N2 as (_ & _ & _ & _ & H2 & _). unfold holds in *. congruence.
Qed.

End Put.

Lemma CA_same : forall c c',
  CA c -> c_nodes c' = c_nodes c -> c_hist c' = c_hist c -> (forall m, In m (c_net c') -> In m (c_net c)) -> CA c'.
Proof.
  intros c c' A N H M.
  assert (GN : forall u, get_node c' u = get_node c u) by (intros; unfold get_node; rewrite N; reflexivity).
  constructor; rewrite ?H.
  - intros u v Hg. rewrite GN in Hg. eapply (ca_cl _ A); eauto.
  - intros r Hr Ap. destruct (ca_mc _ A r (M _ Hr) Ap) as [M1 M2]. split; auto. intros s Hs. rewrite GN in Hs. auto.
  - intros u v idx Hg. rewrite GN in Hg. eapply (ca_cf _ A); eauto.
  - apply (ca_u _ A).
Qed.

(* only a node that is and stays Leader changes its commit index by handling a response *)
Lemma response_commit_same : forall rv nd r s,
  is_leader (n_state nd) && is_leader (n_state (fst (handle_response rv nd r s))) = false ->
  n_commit (fst (handle_response rv nd r s)) = n_commit nd.
Proof.
  intros rv nd r s.
  destruct (response_case rv nd r s) as [ |S|S|S K R VC|S K R VC Q|S A AC|S A AC Q|cl S|l T]; cbn [fst reconcile];
    try reflexivity.
  - destruct (fix_ack_term rv); reflexivity.
  - cbn. rewrite S. discriminate.
Qed.

Theorem CA_step : forall rv sz c e,
  fix_vote_term rv = true -> fix_vote_match rv = true -> LI c -> J sz c -> K c -> LC sz c -> CA c ->
  election_safety (c_hist (step rv c e)) ->
  ack_diverged_b (c_hist (step rv c e)) = false ->
  old_term_commit_b (c_hist (step rv c e)) = false ->
  nq_step c (step rv c e) = false ->
  CA (step rv c e).
Proof.
  intros rv sz c e FT FM Lc Jc Kc Cc Ac ES AD OT NQ.
  pose proof (LI_step rv c e FM Lc ES AD) as Lc'.
  pose proof (LC_step rv sz c e FT FM Lc Jc Kc Cc ES AD OT NQ) as Cc'.
  unfold nq_step in NQ.
  destruct (step_case rv c e) as [e0 c' En Eh Hnet | i nd el due G | i nd d G L | k r el nd Hk G | k r s el nd Hk G];
    cbn [c_nodes c_hist] in *.
  - eapply CA_same; eauto.
  - (* Tick *)
    destruct (acting_node c i nd Lc G) as [W Ei].
    pose proof (keep_process nd el due) as [Kl _].
    pose proof (commit_process nd el due) as Cp.
    pose proof (good_process nd el due (w_inv _ W)) as [I' St].
    pose proof (process_sent nd el due) as Sn.
    destruct (process nd el due) as [nd' reqs]. cbn [fst snd] in *.
    destruct (acting_frame sz c i nd nd' Lc Jc G St NQ) as (NQ' & Hi & Hs). apply old_term_new in OT.
    apply (CA_put sz c i nd nd' _ []); auto.
    + intros x [].
    + intros _ _ idx x H. rewrite Kl. exact H.
    + intros _. rewrite Cp, Kl. apply (ca_cl _ Ac _ _ G).
    + intros _ H. lia.
    + apply new_reqs; [apply incl_refl | exact Sn].
  - (* ClientAppend *)
    destruct (acting_node c i nd Lc G) as [W Ei].
    pose proof (append_state nd d) as As.
    pose proof (good_append nd d (w_inv _ W)) as [I' St].
    pose proof (append_sent nd d) as Sn.
    pose proof (append_shape nd d W) as (W' & El).
    destruct (append nd d) as [nd' reqs]. cbn [fst snd] in *.
    destruct (acting_frame sz c i nd nd' Lc Jc G St NQ) as (NQ' & Hi & Hs). apply old_term_new in OT.
    assert (B : is_leader (n_state nd) && is_leader (n_state nd') = true) by (rewrite As, L; reflexivity).
    apply (CA_put sz c i nd nd' _ []); auto.
    + intros x [].
    + intros _ _ idx x H. rewrite El. apply log_at_snoc_keep. exact H.
    + intros F. congruence.
    + intros F. congruence.
    + apply new_reqs; [apply incl_refl | intros q; apply Sn; [apply (ni_size _ (w_inv _ W)) | exact L]].
  - (* request *)
    destruct (acting_request rv c k r el nd Lc Hk G) as (RW & W & Ei & Hne & I' & St).
    pose proof (request_keeps rv nd r el) as Kp.
    assert (MC : is_append_or_hb (q_kind r) = true -> q_lc r <= q_li r).
    { intros A. apply (ca_mc _ Ac r (nth_error_In _ _ Hk) A). }
    pose proof (request_commit rv nd r el W RW Hne (ca_cl _ Ac _ _ G) MC) as (RC1 & RC2 & RC3).
    destruct (handle_request rv nd r el) as [nd' s]. cbn [fst snd] in *.
    destruct (acting_frame sz c (q_to r) nd nd' Lc Jc G St NQ) as (NQ' & Hi & Hs). apply old_term_new in OT.
    apply (CA_put sz c (q_to r) nd nd' _ (request_ghosts c nd' r s)); auto.
    + apply quiet_request_ghosts.
    + intros L1 L2 idx x H. rewrite (Kp (leader_cl _ L2)). exact H.
    + intros _ Hr. destruct (RC3 Hr) as [A O].
      rewrite !ack_diverged_app in AD. apply orb_false_iff in AD as [_ AD]. apply orb_false_iff in AD as [AD _].
      destruct (acked_prefix c k r nd' s Lc Hk I' AD A O) as (sender & Gs & Pf).
      exists (q_from r), sender. split; [congruence|]. split; auto. split; auto.
      destruct (ca_mc _ Ac r (nth_error_In _ _ Hk) A) as [_ M2]. specialize (M2 _ Gs). lia.
    + apply new_resp. intros m; apply In_remove_nth.
  - (* response *)
    destruct (acting_response rv c k r s nd Lc Hk G) as (W & Ei & Hne & I' & St).
    pose proof (keep_response rv nd r s (w_inv _ W) Hne) as [Kl _].
    pose proof (response_commit_same rv nd r s) as CS.
    pose proof (response_sent rv nd r s) as Sn.
    destruct (handle_response rv nd r s) as [nd' reqs]. cbn [fst snd] in *.
    destruct (acting_frame sz c (s_to s) nd nd' Lc Jc G St NQ) as (NQ' & Hi & Hs).
    rewrite (response_ghosts_fixed rv nd r s FM) in *. apply old_term_new in OT.
    apply (CA_put sz c (s_to s) nd nd' _ []); auto.
    + intros x [].
    + intros _ _ idx x H. rewrite Kl. exact H.
    + intros B. rewrite (CS B), Kl. apply (ca_cl _ Ac _ _ G).
    + intros B H. rewrite (CS B) in H. lia.
    + apply new_reqs; [intros m; apply In_remove_nth | intros q; apply Sn; exact W].
Qed.

Lemma init_CA : forall size, size <> 1 -> CA (init_default size).
Proof.
  intros size Hs.
  pose proof (init_hist size Hs) as Hh.
  assert (NC : forall u v, get_node (init_default size) u = Some v -> n_commit v = 0).
  { intros u v H. unfold get_node in H. destruct (init_node _ _ _ H) as [j ->]. reflexivity. }
  constructor.
  - intros u v H. rewrite (NC _ _ H). lia.
  - intros r H. cbn in H. destruct H.
  - intros u v idx H H1 H2. rewrite (NC _ _ H) in H2. lia.
  - intros T1 T2 idx e1 e2 [j H]. rewrite Hh in H. destruct H.
Qed.

Theorem CA_run : forall rv size evs,
  fix_vote_term rv = true -> fix_vote_match rv = true ->
  size <> 1 -> hyps_rv rv size evs -> CA (run rv size evs).
Proof.
  intros rv size evs FT FM Hs. induction evs as [|e evs IH] using rev_ind; intros H.
  - apply init_CA; auto.
  - destruct (hyps_prefix _ _ _ _ H) as [Hp NQ]. specialize (IH Hp).
    pose proof (election_safety_elect_fixed rv size (evs ++ [e]) FT FM) as ES.
    pose proof (LI_run rv size evs FT FM Hs (hr_ad _ _ _ Hp)) as Li.
    pose proof (LC_run rv size evs FT FM Hs Hp) as Lc.
    pose proof (run_J rv evs size _ (init_J size Hs) (or_introl FM)) as Jr.
    pose proof (run_K rv evs _ FT FM (init_K size Hs)) as Kr.
    destruct H as [A O _].
    rewrite fold_run_app in *. unfold run_from in ES, A, O |- *. cbn [fold_left] in *.
    eapply CA_step; eauto.
Qed.

(* C28c, for every revision with the two election repairs *)

Theorem committed_agree_elect_fixed : forall rv size evs,
  fix_vote_term rv = true -> fix_vote_match rv = true ->
  size <> 1 -> hyps_rv rv size evs -> committed_agree (run rv size evs).
Proof.
  intros rv size evs FT FM Hs H a b Ha Hb idx H1 H2 H3.
  pose proof (CA_run rv size evs FT FM Hs H) as A.
  apply In_nth_error in Ha as [ka Ha]. apply In_nth_error in Hb as [kb Hb].
  assert (Ga : get_node (run rv size evs) (N.of_nat ka) = Some a) by (unfold get_node; rewrite Nat2N.id; exact Ha).
  assert (Gb : get_node (run rv size evs) (N.of_nat kb) = Some b) by (unfold get_node; rewrite Nat2N.id; exact Hb).
  destruct (ca_cf _ A _ _ idx Ga H1 H2) as (T1 & e1 & C1 & Hh1).
  destruct (ca_cf _ A _ _ idx Gb H1 H3) as (T2 & e2 & C2 & Hh2).
  pose proof (ca_u _ A _ _ _ _ _ C1 C2). unfold holds in *. congruence.
Qed.

Theorem committed_agree_partial : forall size evs,
  size <> 1 -> hyps size evs -> committed_agree (run rr_fixed size evs).
Proof. intros size evs Hs H. apply committed_agree_elect_fixed; auto using hyps_fixed. Qed.

(* every committed index of every node was committed by a leader, and the node holds that leader's entry *)
Theorem committed_by_leader_elect_fixed : forall rv size evs nd idx,
  fix_vote_term rv = true -> fix_vote_match rv = true ->
  size <> 1 -> hyps_rv rv size evs -> In nd (c_nodes (run rv size evs)) -> 1 <= idx -> idx <= n_commit nd ->
  exists i T e, In (GCommit i true T idx (Some e)) (c_hist (run rv size evs)) /\ log_at (n_logs nd) idx = Some e.
Proof.
  intros rv size evs nd idx FT FM Hs H Hn H1 H2. pose proof (CA_run rv size evs FT FM Hs H) as A.
  apply In_nth_error in Hn as [k Hk].
  assert (Gk : get_node (run rv size evs) (N.of_nat k) = Some nd) by (unfold get_node; rewrite Nat2N.id; exact Hk).
  destruct (ca_cf _ A _ _ idx Gk H1 H2) as (T & e & [i Hi] & Hh). exists i, T, e. auto.
Qed.

Theorem committed_by_leader_partial : forall size evs nd idx,
  size <> 1 -> hyps size evs -> In nd (c_nodes (run rr_fixed size evs)) -> 1 <= idx -> idx <= n_commit nd ->
  exists i T e, In (GCommit i true T idx (Some e)) (c_hist (run rr_fixed size evs)) /\ log_at (n_logs nd) idx = Some e.
Proof. intros size evs nd idx Hs H. apply committed_by_leader_elect_fixed; auto using hyps_fixed. Qed.

(* non-vacuity: the fault-free 3-node history `wlog_ok` (node 0 elected, two entries replicated to and committed on
   all three nodes, leader commits recorded) satisfies every hypothesis *)
Lemma nonvacuous_stmt :
  (ack_diverged_b (c_hist (run rr_fixed 3 wlog_ok)) = false /\
   old_term_commit_b (c_hist (run rr_fixed 3 wlog_ok)) = false /\
   commit_noquorum_b rr_fixed 3 wlog_ok = false) /\
  late_leader_b (c_hist (run rr_fixed 3 wlog_ok)) = false /\
  map n_commit (c_nodes (run rr_fixed 3 wlog_ok)) = [2; 2; 2] /\
  leader_completeness_b (c_hist (run rr_fixed 3 wlog_ok)) = true /\
  existsb (fun g => match g with GCommit _ true _ _ _ => true | _ => false end) (c_hist (run rr_fixed 3 wlog_ok)) = true.
Proof.
  destruct wlog_ok_hyps as ([A O Q] & L & C & E). destruct wlog_ok_facts as (_ & _ & M & _). cbv zeta in M.
  repeat split; auto.
Qed.
