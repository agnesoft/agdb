(* IndexDb2Proofs.v — C11: the invariant where the live set or the set of indexes changes: growth and
   shrinking of E, remove_all_values, remove_index, and the entries the back-fill of a new index
   appends. *)
From Agdb Require Import Bytes DbValue Graph DbModel Search Queries DbValueEqProofs DbFrameProofs
  KvProofs KvDbProofs KvSelectProofs IndexProofs IndexDbProofs.
From Coq Require Import ZifyBool ZifyNat ZifyN.
Open Scope Z_scope.

(* the invariants only look at the values and the indexes *)
Lemma idx_exact_on_frame E d d' :
  vals d' = vals d -> indexes d' = indexes d -> idx_exact_on E d -> idx_exact_on E d'.
Proof. intros Hv Hi H key ids Hf P HP id. rewrite Hv. rewrite Hi in Hf. now apply H. Qed.

Lemma vals_live_on_frame E d d' : vals d' = vals d -> vals_live_on E d -> vals_live_on E d'.
Proof. intros Hv H i H1 H2. rewrite Hv. now apply H. Qed.

Definition E_add (E : Z -> bool) (i : Z) : Z -> bool := fun j => (j =? i) || E j.
Definition E_del (E : Z -> bool) (i : Z) : Z -> bool := fun j => E j && negb (j =? i).

Lemma E_ok_add E i : E_ok E -> i <> 0 -> E (- i) = false -> E_ok (E_add E i).
Proof.
  intros Hok Hi Hn j. unfold E_add. destruct (Z.eqb_spec j i) as [->|Hj]; cbn [orb].
  - intros _. rewrite Hn. destruct (Z.eqb_spec (- i) i); [lia|reflexivity].
  - intros Hj'. rewrite (Hok j Hj'). destruct (Z.eqb_spec (- j) i) as [E1|E1]; [|reflexivity].
    subst i. rewrite Z.opp_involutive in Hn. congruence.
Qed.

Lemma E_ok_del E i : E_ok E -> E_ok (E_del E i).
Proof.
  intros Hok j. unfold E_del. intros H. apply andb_true_iff in H. destruct H as [H _].
  now rewrite (Hok j H).
Qed.

Lemma idx_exact_on_add E d i :
  idx_exact_on E d -> vals_live_on E d -> E i = false -> E (- i) = false ->
  idx_exact_on (E_add E i) d.
Proof.
  intros Hd Hl H1 H2 key ids Hf P HP id. rewrite (Hd key ids Hf P HP id). unfold E_add.
  destruct (Z.eqb_spec id i) as [->|Hn]; cbn [orb]; [|reflexivity].
  rewrite H1, (Hl i H1 H2). reflexivity.
Qed.

Lemma vals_live_on_add E d i : vals_live_on E d -> vals_live_on (E_add E i) d.
Proof.
  intros Hl j H1 H2. unfold E_add in *. apply orb_false_iff in H1. apply orb_false_iff in H2.
  apply Hl; tauto.
Qed.

Section RemoveAll.
  Variable id : Z.

  Definition rav_ix (ix : list index) (x : kv) : list index := idx_remove_id ix (fst x) (snd x) id.

  Lemma remove_all_values_indexes d :
    indexes (remove_all_values d id) = fold_left rav_ix (kvs_get (vals d) id) (indexes d).
  Proof.
    unfold remove_all_values. cbn [indexes with_vals].
    generalize (kvs_get (vals d) id) as l. intros l. revert d.
    induction l as [|x l IH]; intros d; cbn [fold_left]; [reflexivity|]. now rewrite IH.
  Qed.

  (* the entries of `id` leave the index one pair at a time: what is left agrees with the pairs
     still to do, the entries of other elements stay *)
  Lemma rav_fold todo : forall ix key ids',
    idx_find (fold_left rav_ix todo ix) key = Some ids' ->
    exists ids, idx_find ix key = Some ids /\
      (forall P id', id' <> id -> cntP ids' P id' = cntP ids P id') /\
      (agrees ids id todo key -> agrees ids' id [] key).
  Proof.
    induction todo as [|x todo IH]; intros ix key ids' Hf; cbn [fold_left] in Hf.
    - exists ids'. now repeat split.
    - destruct (IH _ key ids' Hf) as (ids1 & Hf1 & Hne & Hag). unfold rav_ix, idx_remove_id in Hf1.
      rewrite idx_find_update in Hf1. destruct (idx_find ix key) as [ids|]; [|discriminate].
      injection Hf1 as <-. exists ids. split; [reflexivity|]. split.
      + intros P id' Hn. rewrite (Hne P id' Hn). destruct (dbv_eqb (fst x) key); [|reflexivity].
        now apply cntP_remove_other.
      + intros H. apply Hag. exact (agrees_remove ids id [] todo x key H).
  Qed.

  Lemma remove_all_values_exact E d :
    E_ok E -> idx_exact_on E d -> vals_live_on E d ->
    (E id = true \/ (E id = false /\ E (- id) = false)) ->
    idx_exact_on (E_del E id) (remove_all_values d id) /\ vals_live_on (E_del E id) (remove_all_values d id).
  Proof.
    intros Hok Hd Hl Hcase. split.
    - intros key ids' Hf P _ id'. rewrite remove_all_values_indexes in Hf.
      destruct (rav_fold _ _ _ _ Hf) as (ids & Hf0 & Hne & Hag).
      pose proof (idx_exact_count E d key ids Hd Hf0) as Hd'.
      rewrite remove_all_values_get. unfold E_del.
      destruct (Z.eqb_spec id' id) as [->|Hn].
      + rewrite andb_false_r. apply Hag. intros Q. rewrite Hd'.
        destruct Hcase as [->|[Hc1 Hc2]]; [reflexivity|]. now rewrite Hc1, (Hl id Hc1 Hc2).
      + rewrite andb_true_r, (Hne P id' Hn), Hd'. destruct (E id') eqn:Ei; [|reflexivity].
        destruct (Z.eqb_spec (Z.abs id) (Z.abs id')) as [Ha|Ha]; [|reflexivity].
        apply abs_cases in Ha. destruct Ha as [Ha|Ha]; [congruence|]. subst id'.
        destruct Hcase as [Hc|[Hc1 Hc2]]; [rewrite (Hok id Hc) in Ei|]; congruence.
    - intros i H1 H2. rewrite remove_all_values_get.
      destruct (Z.eqb_spec (Z.abs id) (Z.abs i)) as [Ha|Ha]; [reflexivity|].
      unfold E_del in *. apply Hl.
      + destruct (Z.eqb_spec i id); [lia|]. now rewrite andb_true_r in H1.
      + destruct (Z.eqb_spec (- i) id); [lia|]. now rewrite andb_true_r in H2.
  Qed.

  Lemma remove_all_values_index_keys d :
    map fst (indexes (remove_all_values d id)) = map fst (indexes d).
  Proof.
    rewrite remove_all_values_indexes. apply fold_left_inv; [reflexivity|].
    intros ix x _ H. unfold rav_ix, idx_remove_id. now rewrite idx_update_keys.
  Qed.
End RemoveAll.

Lemma remove_index_spec d key :
  idx_keys_distinct (indexes d) ->
  let r := remove_index d key in
  gr (snd r) = gr d /\ aliases (snd r) = aliases d /\ vals (snd r) = vals d /\
  (forall key', idx_find (indexes (snd r)) key' = if dbv_eqb key key' then None else idx_find (indexes d) key') /\
  idx_keys_distinct (indexes (snd r)) /\
  fst r = match idx_find (indexes d) key with Some ids => Z.of_nat (length ids) | None => 0 end.
Proof.
  intros Hdist. unfold remove_index. destruct (idx_find (indexes d) key) as [ids|] eqn:F; cbv zeta; cbn [fst snd].
  - set (d1 := fold_left _ ids d).
    assert (H1 : gr d1 = gr d /\ aliases d1 = aliases d /\ vals d1 = vals d /\ indexes d1 = indexes d).
    { subst d1. apply (fold_left_inv (fun a => gr a = gr d /\ aliases a = aliases d /\ vals a = vals d /\ indexes a = indexes d));
        [repeat split|]. intros a p _ H. exact H. }
    destruct H1 as (A & B & C & D). cbn [gr aliases vals indexes with_indexes push_undo]. rewrite D.
    repeat split; try assumption.
    + intros key'. now apply idx_find_remove.
    + now apply idx_remove_distinct.
  - repeat split; try assumption. intros key'.
    destruct (dbv_eqb key key') eqn:E; [|reflexivity]. now apply dbv_eqb_true in E as <-.
Qed.

Lemma remove_index_exact E d key :
  idx_keys_distinct (indexes d) -> idx_exact_on E d -> idx_exact_on E (snd (remove_index d key)).
Proof.
  intros Hdist Hd key' ids Hf P HP id.
  destruct (remove_index_spec d key Hdist) as (_ & _ & Hv & Hfind & _). cbv zeta in *.
  rewrite Hfind in Hf. destruct (dbv_eqb key key'); [discriminate|]. rewrite Hv. now apply Hd.
Qed.

(* the sign of an id: a slot is a node or an edge *)
Lemma is_node_neg g i : is_node g (- i) = is_node g i.
Proof.
  unfold is_node, valid_index, fmeta, from, get, zabs_nat, capacity.
  rewrite Z.abs_opp. replace (- i =? 0) with (i =? 0) by lia. reflexivity.
Qed.

Lemma node_not_edge g i : is_node g i = true -> is_edge g i = false.
Proof.
  unfold is_node, is_edge. intros H. apply andb_true_iff in H. destruct H as [H1 H2].
  rewrite H1. cbn [andb]. lia.
Qed.

Lemma graph_index_nonneg g i : 0 <= i -> graph_index g i = is_node g i.
Proof.
  intros H. unfold graph_index. destruct (Z.ltb_spec i 0); [lia|].
  destruct (Z.ltb_spec 0 i); [reflexivity|]. now replace i with 0 by lia.
Qed.

(* of the two ids of a slot, the live one is positive exactly when the slot holds a node *)
Lemma graph_index_sign g i : graph_index g i = true -> is_node g (Z.abs i) = (0 <? i).
Proof.
  unfold graph_index. destruct (Z.ltb_spec i 0); intros G.
  - replace (Z.abs i) with (- i) by lia. rewrite is_node_neg. destruct (Z.ltb_spec 0 i); [lia|].
    destruct (is_node g i) eqn:En; [|reflexivity]. apply node_not_edge in En. congruence.
  - destruct (Z.ltb_spec 0 i); [|discriminate]. now replace (Z.abs i) with i by lia.
Qed.

Section Backfill.
  Variable d : db.
  Variable key : dbvalue.

  Definition chosen (i : nat) : Z := if is_node (gr d) (Z.of_nat i) then Z.of_nat i else - Z.of_nat i.

  (* the entries contributed by the element in slot i, in map order *)
  Definition slot_pairs (i : nat) : list (dbvalue * Z) :=
    map (fun x : kv => (snd x, chosen i)) (filter (fun x : kv => dbv_eqb (fst x) key) (kvs_get (vals d) (Z.of_nat i))).

  Definition bf_inner (id : Z) (a : db) (x : kv) : db :=
    if dbv_eqb (fst x) key then index_insert_if a key (snd x) id else a.
  Definition bf_outer (acc : db) (i : nat) : db :=
    let iz := Z.of_nat i in
    let id := if is_node (gr acc) iz then iz else - iz in
    fold_left (bf_inner id) (kvs_get (vals acc) iz) acc.

  Definition append_pairs (ix : list index) (ps : list (dbvalue * Z)) : list index :=
    fold_left (fun ix p => idx_insert_id ix key (fst p) (snd p)) ps ix.

  Lemma bf_inner_fold id l : forall a,
    let a' := fold_left (bf_inner id) l a in
    gr a' = gr a /\ vals a' = vals a /\ aliases a' = aliases a /\ undo a' = undo a /\
    indexes a' = append_pairs (indexes a)
                   (map (fun x : kv => (snd x, id)) (filter (fun x : kv => dbv_eqb (fst x) key) l)).
  Proof.
    induction l as [|x l IH]; intros a; cbv zeta; cbn [fold_left filter map]; [repeat split|].
    pose proof (IH (bf_inner id a x)) as H. cbv zeta in H. destruct H as (A & B & C & D & F).
    assert (S : gr (bf_inner id a x) = gr a /\ vals (bf_inner id a x) = vals a /\
                aliases (bf_inner id a x) = aliases a /\ undo (bf_inner id a x) = undo a /\
                indexes (bf_inner id a x) =
                  if dbv_eqb (fst x) key then idx_insert_id (indexes a) key (snd x) id else indexes a).
    { unfold bf_inner. destruct (dbv_eqb (fst x) key); repeat split. }
    destruct S as (S1 & S2 & S3 & S4 & S5).
    rewrite A, B, C, D, F, S1, S2, S3, S4, S5. repeat split.
    destruct (dbv_eqb (fst x) key); reflexivity.
  Qed.

  Lemma append_pairs_app ix a b : append_pairs ix (a ++ b) = append_pairs (append_pairs ix a) b.
  Proof. unfold append_pairs. apply fold_left_app. Qed.

  Lemma bf_outer_fold slots : forall a,
    gr a = gr d -> vals a = vals d ->
    let a' := fold_left bf_outer slots a in
    gr a' = gr d /\ vals a' = vals d /\ aliases a' = aliases a /\ undo a' = undo a /\
    indexes a' = append_pairs (indexes a) (flat_map slot_pairs slots).
  Proof.
    induction slots as [|i slots IH]; intros a Hg Hv; cbv zeta; cbn [fold_left flat_map]; [repeat split; assumption|].
    unfold bf_outer at 2 4 6 8 10. cbv zeta.
    pose proof (bf_inner_fold (if is_node (gr a) (Z.of_nat i) then Z.of_nat i else - Z.of_nat i)
                              (kvs_get (vals a) (Z.of_nat i)) a) as H. cbv zeta in H.
    destruct H as (A & B & C & D & F).
    match type of A with gr ?t = _ => set (a1 := t) in * end.
    assert (Hg1 : gr a1 = gr d) by congruence. assert (Hv1 : vals a1 = vals d) by congruence.
    pose proof (IH a1 Hg1 Hv1) as H. cbv zeta in H. destruct H as (A' & B' & C' & D' & F').
    repeat split; try congruence.
    rewrite F', F, append_pairs_app. unfold slot_pairs, chosen. now rewrite Hg, Hv.
  Qed.

  Lemma idx_find_append_pairs ps : forall ix key',
    idx_find (append_pairs ix ps) key' =
    match idx_find ix key' with
    | Some ids => Some (if dbv_eqb key key' then ids ++ ps else ids)
    | None => None
    end.
  Proof.
    induction ps as [|p ps IH]; intros ix key'; cbn [append_pairs fold_left].
    - destruct (idx_find ix key'); [|reflexivity]. rewrite app_nil_r. now destruct (dbv_eqb key key').
    - fold (append_pairs (idx_insert_id ix key (fst p) (snd p)) ps). rewrite IH.
      unfold idx_insert_id. rewrite idx_find_update.
      destruct (idx_find ix key') as [ids|]; [|reflexivity].
      destruct (dbv_eqb key key'); [|reflexivity]. rewrite <- app_assoc. cbn [app].
      now destruct p.
  Qed.

  Lemma cntP_flat_map {A} (g : A -> list (dbvalue * Z)) (l : list A) P id :
    cntP (flat_map g l) P id = list_sum (map (fun i => cntP (g i) P id) l).
  Proof.
    induction l as [|x l IH]; cbn [flat_map map list_sum]; [reflexivity|]. now rewrite cntP_app, IH.
  Qed.

  Lemma cntP_slot_pairs i P id :
    cntP (slot_pairs i) P id = if chosen i =? id then cntK (kvs_get (vals d) (Z.of_nat i)) key P else 0%nat.
  Proof.
    unfold slot_pairs. generalize (kvs_get (vals d) (Z.of_nat i)) as l.
    induction l as [|x l IH]; cbn [filter map]; [now destruct (chosen i =? id)|].
    rewrite cntK_cons. destruct (dbv_eqb (fst x) key); cbn [map andb].
    - rewrite cntP_cons, IH. cbn [fst snd]. destruct (chosen i =? id); [|rewrite andb_false_r; reflexivity].
      now rewrite andb_true_r.
    - rewrite IH. cbn [b2nat]. destruct (chosen i =? id); reflexivity.
  Qed.

  Lemma list_sum_single (f : nat -> nat) (j : nat) (a n : nat) :
    (forall i, i <> j -> f i = 0%nat) ->
    list_sum (map f (seq a n)) = if (Nat.leb a j && Nat.ltb j (a + n))%bool then f j else 0%nat.
  Proof.
    intros H. revert a. induction n as [|n IH]; intros a; cbn [seq map];
      [|change (list_sum (f a :: map f (seq (S a) n))) with (f a + list_sum (map f (seq (S a) n)))%nat].
    - cbn [list_sum fold_right]. destruct (Nat.leb_spec a j), (Nat.ltb_spec j (a + 0)); cbn [andb]; try reflexivity. lia.
    - rewrite IH. destruct (Nat.eq_dec a j) as [->|Hn].
      + destruct (Nat.leb_spec (S j) j); [lia|]. cbn [andb].
        destruct (Nat.leb_spec j j); [|lia]. destruct (Nat.ltb_spec j (j + S n)); [|lia]. cbn [andb]. lia.
      + rewrite (H a Hn).
        replace (Nat.leb (S a) j) with (Nat.leb a j)
          by (destruct (Nat.leb_spec (S a) j), (Nat.leb_spec a j); try reflexivity; lia).
        replace (a + S n)%nat with (S a + n)%nat by lia. reflexivity.
  Qed.

  Lemma chosen_abs i id' : chosen i = id' -> i = zabs_nat id'.
  Proof. unfold chosen, zabs_nat. destruct (is_node (gr d) (Z.of_nat i)); lia. Qed.

  (* the entries of the freshly filled index *)
  Lemma backfill_count P id' :
    vals_live_on (graph_index (gr d)) d ->
    cntP (flat_map slot_pairs (seq 1 (length (vals d) - 1))) P id' =
    if graph_index (gr d) id' then cntK (kvs_get (vals d) id') key P else 0%nat.
  Proof.
    intros Hl. rewrite cntP_flat_map.
    rewrite (list_sum_single (fun i => cntP (slot_pairs i) P id') (zabs_nat id')).
    2:{ intros i Hi. rewrite cntP_slot_pairs. destruct (Z.eqb_spec (chosen i) id') as [Hc|]; [|reflexivity].
        apply chosen_abs in Hc. contradiction. }
    rewrite cntP_slot_pairs.
    assert (Hk : kvs_get (vals d) (Z.of_nat (zabs_nat id')) = kvs_get (vals d) id').
    { apply kvs_get_abs. unfold zabs_nat. lia. }
    rewrite Hk.
    assert (Hz : Z.of_nat (zabs_nat id') = Z.abs id') by (unfold zabs_nat; lia).
    destruct (graph_index (gr d) id') eqn:Eg.
    - (* live: the chosen sign is the sign of id' *)
      assert (Hch : chosen (zabs_nat id') = id').
      { unfold chosen. rewrite Hz, (graph_index_sign _ _ Eg). destruct (Z.ltb_spec 0 id'); lia. }
      rewrite Hch, Z.eqb_refl.
      destruct (Nat.leb_spec 1 (zabs_nat id')) as [H1|H1].
      + destruct (Nat.ltb_spec (zabs_nat id') (1 + (length (vals d) - 1))) as [H2|H2]; [reflexivity|].
        cbn [andb]. unfold kvs_get. rewrite nth_overflow by lia. reflexivity.
      + cbn [andb]. unfold graph_index in Eg. assert (id' = 0) by (unfold zabs_nat in H1; lia). subst id'.
        cbn in Eg. discriminate.
    - destruct (Nat.leb 1 (zabs_nat id') && Nat.ltb (zabs_nat id') (1 + (length (vals d) - 1)))%bool; [|reflexivity].
      destruct (Z.eqb_spec (chosen (zabs_nat id')) id') as [Hc|]; [|reflexivity].
      (* the slot's chosen id is dead: the slot is empty *)
      assert (He : kvs_get (vals d) id' = []).
      { unfold chosen in Hc. rewrite Hz in Hc. destruct (is_node (gr d) (Z.abs id')) eqn:En.
        - exfalso. rewrite graph_index_nonneg in Eg by lia. replace (Z.abs id') with id' in En by lia. congruence.
        - apply Hl; [exact Eg|]. rewrite graph_index_nonneg by lia. now replace (- id') with (Z.abs id') by lia. }
      rewrite He. reflexivity.
  Qed.
End Backfill.
