(* GraphLive.v — how the four graph mutations change the set of existing elements
   (graph_index), derived from the simulation relation of GraphSim/GraphSpec (C08).
   Used to lift the C09 / C10 / C11 invariants over query histories. *)
From Agdb Require Import Bytes Graph GraphArr GraphSim GraphProofs GraphRemove GraphSpec GraphWf.
From Coq Require Import ZifyBool.
Open Scope Z_scope.

Lemma in_opp_map_eslot (E : list aedge) j : In (- j) (map eslot E) <-> exists x, In x E /\ eslot x = - j.
Proof. rewrite in_map_iff. split; intros [x H]; exists x; tauto. Qed.

(* a live id is never 0, and the two signs of a slot are never both live *)
Lemma sim_live_sign g a fl i : sim g a fl -> graph_index g i = true -> graph_index g (- i) = false.
Proof.
  intros HS Hi. destruct (graph_index g (- i)) eqn:E; [|reflexivity]. exfalso.
  apply (sim_graph_index g a fl HS) in Hi, E. rewrite Z.opp_involutive in E.
  destruct Hi as [[Hp Hn]|[Hp He]], E as [[Hp' Hn']|[Hp' He']]; try lia.
  - exact (sim_disjoint g a fl HS i Hn He').
  - exact (sim_disjoint g a fl HS (- i) Hn' He).
Qed.

(* a slot used by no node and no edge is live under neither sign *)
Lemma sim_fresh_dead g a fl x :
  sim g a fl -> 0 < x -> ~ In x (a_nodes a) -> ~ In x (map eslot (a_edges a)) ->
  graph_index g x = false /\ graph_index g (- x) = false.
Proof.
  intros HS Hp Hn He.
  split; apply Bool.not_true_is_false; rewrite (sim_graph_index g a fl HS), ?Z.opp_involutive; intuition lia.
Qed.

Lemma insert_node_live g :
  wf g ->
  let '(x, g') := insert_node g in
  wf g' /\ 0 < x /\ graph_index g x = false /\ graph_index g (- x) = false /\
  forall j, graph_index g' j = (j =? x) || graph_index g j.
Proof.
  intros [a [fl HS]]. pose proof (insert_node_sim g a fl HS) as H.
  destruct (insert_node g) as [x g']. destruct H as (Hp & Hn & He & _ & S1).
  destruct (sim_fresh_dead g a fl x HS Hp Hn He) as [D1 D2].
  split; [eexists; eexists; exact S1|]. repeat (split; [assumption|]).
  intros j. apply Bool.eq_iff_eq_true. rewrite (sim_graph_index g' _ _ S1), orb_true_iff, (sim_graph_index g a fl HS).
  cbn [a_nodes a_edges In]. rewrite Z.eqb_eq. split.
  - intros [[Hj [Hx|Hx]]|Hj]; [left; congruence|right; left; tauto|right; right; exact Hj].
  - intros [->|[[Hj Hx]|Hj]]; [left; tauto|left; tauto|right; exact Hj].
Qed.

(* insert_edge (endpoints are live ids: db_id-resolved) *)
Lemma live_node_pos g i : wf g -> graph_index g i = true -> is_node g i = true -> 0 < i.
Proof.
  intros Hwf Hg Hn. unfold graph_index in Hg. destruct (Z.ltb_spec i 0).
  - rewrite (wf_node_edge_disjoint g i Hwf Hn) in Hg. discriminate.
  - destruct (Z.ltb_spec 0 i); [assumption|discriminate].
Qed.

Lemma insert_edge_live g f t e g' :
  wf g -> graph_index g f = true -> graph_index g t = true ->
  insert_edge g f t = Some (e, g') ->
  wf g' /\ e < 0 /\ 0 < f /\ 0 < t /\ graph_index g e = false /\ graph_index g (- e) = false /\
  forall j, graph_index g' j = (j =? e) || graph_index g j.
Proof.
  intros Hwf Hf Ht Hi.
  assert (Hnn : is_node g f = true /\ is_node g t = true).
  { unfold insert_edge in Hi. destruct (is_node g f && is_node g t) eqn:E; [|discriminate].
    now apply andb_true_iff in E. }
  destruct Hnn as [Hnf Hnt].
  pose proof (live_node_pos g f Hwf Hf Hnf) as Hfp. pose proof (live_node_pos g t Hwf Ht Hnt) as Htp.
  destruct Hwf as [a [fl HS]].
  assert (Inf : In f (a_nodes a)).
  { apply (sim_graph_index g a fl HS) in Hf. destruct Hf as [[_ H]|[H _]]; [exact H|lia]. }
  assert (Int : In t (a_nodes a)).
  { apply (sim_graph_index g a fl HS) in Ht. destruct Ht as [[_ H]|[H _]]; [exact H|lia]. }
  destruct (insert_edge_sim g a fl f t HS Inf Int) as (x & g1 & E1 & Hp & Hn & He & _ & S1).
  rewrite E1 in Hi. inversion Hi; subst e g1. clear Hi.
  destruct (sim_fresh_dead g a fl x HS Hp Hn He) as [D1 D2].
  split; [eexists; eexists; exact S1|]. split; [lia|]. rewrite Z.opp_involutive. repeat (split; [assumption|]).
  intros j. apply Bool.eq_iff_eq_true. rewrite (sim_graph_index g' _ _ S1), orb_true_iff, (sim_graph_index g a fl HS).
  cbn [a_nodes a_edges map In eslot fst]. rewrite Z.eqb_eq. split.
  - intros [Hj|[Hj [Hx|Hx]]]; [right; left; exact Hj|left; lia|right; right; tauto].
  - intros [->|[Hj|[Hj Hx]]]; [right; split; [lia|left; lia]|left; exact Hj|right; tauto].
Qed.

(* remove_edge (any non-positive id; absent ids are a no-op) *)
Lemma remove_edge_live g e :
  wf g -> e < 0 ->
  exists g', remove_edge g e = Some g' /\ wf g' /\
             forall j, graph_index g' j = graph_index g j && negb (j =? e).
Proof.
  intros [a [fl HS]] He.
  destruct (remove_edge_total g a fl e HS (Z.lt_le_incl e 0 He)) as (g2 & fl1 & E & S1).
  exists g2. split; [exact E|]. split; [eexists; eexists; exact S1|].
  intros j. apply Bool.eq_iff_eq_true. rewrite (sim_graph_index g2 _ _ S1), andb_true_iff, (sim_graph_index g a fl HS).
  cbn [a_nodes a_edges]. rewrite map_eslot_remE, in_zrem, negb_true_iff, Z.eqb_neq. split.
  - intros [[Hp Hi]|[Hp [Hi Hne]]]; [split; [left; auto|lia]|split; [right; auto|lia]].
  - intros [[[Hp Hi]|[Hp Hi]] Hne]; [left; auto|right]. split; [assumption|]. split; [assumption|lia].
Qed.

(* remove_node of a node without incident edges (DbImpl removes them first) *)
Lemma remove_node_live_sim g a fl n :
  sim g a fl -> In n (a_nodes a) -> (forall x, In x (a_edges a) -> keep_edge n x = true) ->
  exists g', remove_node g n = Some g' /\ wf g' /\
             forall j, graph_index g' j = graph_index g j && negb (j =? n).
Proof.
  intros HS Hn Hkeep. destruct (remove_node_sim g a fl n HS Hn) as (g' & fl' & E & S1).
  exists g'. split; [exact E|]. split; [eexists; eexists; exact S1|].
  rewrite (BytesProofs.filter_all _ _ Hkeep) in S1. pose proof (sim_nodes_pos g a fl HS n Hn) as Hnp.
  intros j. apply Bool.eq_iff_eq_true. rewrite (sim_graph_index g' _ _ S1), andb_true_iff, (sim_graph_index g a fl HS).
  cbn [a_nodes a_edges]. rewrite in_zrem, negb_true_iff, Z.eqb_neq. split.
  - intros [[Hp [Hi Hne]]|[Hp Hi]]; [split; [left; auto|exact Hne]|split; [right; auto|lia]].
  - intros [[[Hp Hi]|[Hp Hi]] Hne]; [left; auto|right; auto].
Qed.
