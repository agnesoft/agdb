(* BytesProofs.v — lemmas about Bytes.v, and the facts about plain lists (nth, firstn, skipn, filter,
   nth_error, Permutation) that several families use *)
From Agdb Require Import Bytes.
From Coq Require Import Permutation ZifyBool ZifyNat ZifyN.
Ltac Zify.zify_post_hook ::= Z.div_mod_to_equations.
Open Scope N_scope.
Arguments N.add : simpl never.
Arguments N.mul : simpl never.
Arguments N.div : simpl never.
Arguments N.modulo : simpl never.
Arguments N.pow : simpl never.

Lemma b2n_lt b : b2n b < 256.
Proof. unfold b2n. pose proof (Byte.to_N_bounded b). lia. Qed.

Lemma b2n_n2b n : b2n (n2b n) = n mod 256.
Proof.
  unfold b2n, n2b.
  destruct (Byte.of_N (n mod 256)) as [b|] eqn:E.
  - apply Byte.to_of_N in E. exact E.
  - exfalso. apply Byte.of_N_None_iff in E. lia.
Qed.

Lemma n2b_b2n b : n2b (b2n b) = b.
Proof.
  unfold n2b, b2n. pose proof (Byte.to_N_bounded b).
  rewrite N.mod_small by lia. rewrite Byte.of_to_N. reflexivity.
Qed.

Lemma le_length k n : length (le k n) = k.
Proof. revert n; induction k as [|k IH]; intros n; cbn [le length]; [reflexivity|now rewrite IH]. Qed.

Lemma de_lt bs : de bs < 256 ^ N.of_nat (length bs).
Proof.
  induction bs as [|b r IH]; cbn [de length].
  - cbn. lia.
  - rewrite Nat2N.inj_succ, N.pow_succ_r'. pose proof (b2n_lt b). nia.
Qed.

Lemma de_le k n : de (le k n) = n mod 256 ^ N.of_nat k.
Proof.
  revert n; induction k as [|k IH]; intros n; cbn [le de].
  - cbn. rewrite N.mod_1_r. reflexivity.
  - rewrite b2n_n2b, IH, Nat2N.inj_succ, N.pow_succ_r'.
    set (p := 256 ^ N.of_nat k). assert (0 < p) by (apply N.neq_0_lt_0, N.pow_nonzero; lia).
    rewrite N.mod_mul_r by lia. reflexivity.
Qed.

Lemma le_de bs : le (length bs) (de bs) = bs.
Proof.
  induction bs as [|b r IH]; cbn [le de length]; [reflexivity|].
  pose proof (b2n_lt b).
  f_equal.
  - replace (b2n b + 256 * de r) with (b2n b + de r * 256) by lia.
    unfold n2b. rewrite N.mod_add by lia. rewrite N.mod_small by lia.
    unfold b2n. now rewrite Byte.of_to_N.
  - replace ((b2n b + 256 * de r) / 256) with (de r); [exact IH|].
    replace (b2n b + 256 * de r) with (b2n b + de r * 256) by lia.
    rewrite N.div_add by lia. rewrite N.div_small by lia. lia.
Qed.

Lemma de_le64 n : n < two64 -> de (le64 n) = n.
Proof.
  intros H. unfold le64. rewrite de_le. apply N.mod_small.
  change (256 ^ N.of_nat 8) with two64. exact H.
Qed.

Lemma de_le32 n : n < two32 -> de (le32 n) = n.
Proof.
  intros H. unfold le32. rewrite de_le. apply N.mod_small.
  change (256 ^ N.of_nat 4) with two32. exact H.
Qed.

Lemma le64_length n : length (le64 n) = 8%nat.
Proof. apply le_length. Qed.
Lemma le32_length n : length (le32 n) = 4%nat.
Proof. apply le_length. Qed.

Lemma le64_de bs : length bs = 8%nat -> le64 (de bs) = bs.
Proof. intros H. unfold le64. rewrite <- H. apply le_de. Qed.

Lemma de_lt64 bs : length bs = 8%nat -> de bs < two64.
Proof. intros H. pose proof (de_lt bs) as L. rewrite H in L. exact L. Qed.

Lemma u2z_z2u z : (- 9223372036854775808 <= z < 9223372036854775808)%Z -> u2z (z2u z) = z.
Proof.
  intros H. unfold u2z, z2u, two63.
  destruct (N.ltb_spec (Z.to_N (z mod 18446744073709551616)) 9223372036854775808); lia.
Qed.

Lemma z2u_lt z : z2u z < two64.
Proof. unfold z2u, two64. lia. Qed.

Lemma z2u_u2z n : n < two64 -> z2u (u2z n) = n.
Proof.
  intros H. unfold u2z, z2u, two63, two64 in *.
  destruct (N.ltb_spec n 9223372036854775808); lia.
Qed.

Lemma u2z_range n : n < two64 -> (- 9223372036854775808 <= u2z n < 9223372036854775808)%Z.
Proof.
  intros H. unfold u2z, two63, two64 in *.
  destruct (N.ltb_spec n 9223372036854775808); lia.
Qed.

Lemma lenN_app {A} (a b : list A) : lenN (a ++ b) = lenN a + lenN b.
Proof. unfold lenN. rewrite app_length. lia. Qed.

Lemma lenN_cons {A} (x : A) l : lenN (x :: l) = 1 + lenN l.
Proof. unfold lenN. cbn [length]. lia. Qed.

Lemma lenN_nil {A} : lenN (@nil A) = 0.
Proof. reflexivity. Qed.

Lemma lenN_le64 n : lenN (le64 n) = 8.
Proof. unfold lenN. now rewrite le64_length. Qed.
Lemma lenN_le32 n : lenN (le32 n) = 4.
Proof. unfold lenN. now rewrite le32_length. Qed.

Lemma lenN_map {A B} (f : A -> B) (l : list A) : lenN (map f l) = lenN l.
Proof. unfold lenN. now rewrite map_length. Qed.

(* a list split at the length of its first part *)
Lemma firstn_app_exact {A} (a b : list A) n : length a = n -> firstn n (a ++ b) = a.
Proof. intros <-. now rewrite firstn_app, Nat.sub_diag, firstn_all, firstn_O, app_nil_r. Qed.

Lemma skipn_app_exact {A} (a b : list A) n : length a = n -> skipn n (a ++ b) = b.
Proof. intros <-. now rewrite skipn_app, skipn_all, Nat.sub_diag. Qed.

Lemma firstn_app_len {A} (a b : list A) n x : length a = n -> firstn (n + x) (a ++ b) = a ++ firstn x b.
Proof. intros <-. apply firstn_app_2. Qed.

Lemma skipn_app_len {A} (a b : list A) n x : length a = n -> skipn (n + x) (a ++ b) = skipn x b.
Proof. intros <-. rewrite skipn_app, skipn_all2 by lia. cbn [app]. f_equal. lia. Qed.

Lemma nth_firstn_lt {A} (d : A) (l : list A) n i : (i < n)%nat -> nth i (firstn n l) d = nth i l d.
Proof.
  revert n i; induction l as [|x l IH]; intros [|n] [|i] H; cbn [firstn nth]; try reflexivity; try lia.
  apply IH. lia.
Qed.

Lemma nth_skipn_add {A} (d : A) (l : list A) n i : nth i (skipn n l) d = nth (n + i) l d.
Proof.
  revert l; induction n as [|n IH]; intros [|x l]; cbn [skipn nth Nat.add]; try reflexivity; [now destruct i|apply IH].
Qed.

Lemma nth_error_Some_lt {A} (l : list A) i x : nth_error l i = Some x -> (i < length l)%nat.
Proof. intros H. apply nth_error_Some. congruence. Qed.

Lemma nth_error_lt_Some {A} (l : list A) i : (i < length l)%nat -> exists x, nth_error l i = Some x.
Proof. intros H. destruct (nth_error l i) eqn:E; [eauto|]. apply nth_error_None in E. lia. Qed.

Lemma list_sum_cons a l : list_sum (a :: l) = (a + list_sum l)%nat.
Proof. reflexivity. Qed.

Lemma filter_all {A} (p : A -> bool) l : (forall x, In x l -> p x = true) -> filter p l = l.
Proof.
  induction l as [|x r IH]; intros H; cbn [filter]; [reflexivity|].
  rewrite (H x (or_introl eq_refl)). f_equal. apply IH. intros y Hy; apply H; right; assumption.
Qed.

Lemma Permutation_filter {A} (f : A -> bool) l l' : Permutation l l' -> Permutation (filter f l) (filter f l').
Proof.
  induction 1 as [|x l l' _ IH|x y l|l1 l2 l3 _ IH1 _ IH2]; cbn [filter].
  - constructor.
  - destruct (f x); [constructor|]; exact IH.
  - destruct (f x), (f y); try apply Permutation_refl. apply perm_swap.
  - eapply Permutation_trans; eassumption.
Qed.

Lemma length_zero_nil {A} (l : list A) : length l = 0%nat -> l = [].
Proof. destruct l; [reflexivity|discriminate]. Qed.

Lemma slice_app_exact (a b : bytes) n : length a = n -> slice (a ++ b) 0 n = Some a.
Proof.
  intros H. unfold slice. cbn [skipn Nat.add].
  rewrite app_length, (firstn_app_exact a b n H).
  destruct (Nat.leb_spec n (length a + length b)); [reflexivity|lia].
Qed.

Lemma slice_length bs f l r : slice bs f l = Some r -> length r = l.
Proof.
  unfold slice. destruct (Nat.leb_spec (f + l) (length bs)); [|discriminate].
  intros [= <-]. rewrite firstn_length, skipn_length. lia.
Qed.

Lemma byte_eqb_eq x y : byte_eqb x y = true <-> x = y.
Proof.
  unfold byte_eqb. split.
  - apply Byte.byte_dec_bl.
  - apply Byte.byte_dec_lb.
Qed.

Lemma bytes_eqb_eq a b : bytes_eqb a b = true <-> a = b.
Proof.
  revert b; induction a as [|x a IH]; intros [|y b]; cbn [bytes_eqb];
    try (split; [discriminate|congruence]); [tauto|].
  rewrite andb_true_iff, IH, byte_eqb_eq. split; [intros [-> ->]; reflexivity|intros [= -> ->]; tauto].
Qed.

Lemma bytes_eqb_spec a b : reflect (a = b) (bytes_eqb a b).
Proof. apply iff_reflect. symmetry. apply bytes_eqb_eq. Qed.

Lemma bytes_eqb_refl (a : bytes) : bytes_eqb a a = true.
Proof. now apply bytes_eqb_eq. Qed.

Lemma bytes_eqb_neq (a b : bytes) : a <> b -> bytes_eqb a b = false.
Proof. intros H. destruct (bytes_eqb a b) eqn:E; [|reflexivity]. apply bytes_eqb_eq in E. contradiction. Qed.
