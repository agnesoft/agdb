(* RaftElect.v — C27: quorum intersection (any cluster size) and election safety for histories without
   the two decidable defect classes `double_vote_b` and `stale_vote_b`. *)
From Coq Require Import NArith List Bool Lia Arith.
From Agdb Require Import Raft RaftProofs RaftInv.
Import ListNotations.
Open Scope N_scope.

Lemma NoDup_app_disjoint : forall (A B : list N),
  NoDup A -> NoDup B -> (forall x, In x A -> ~ In x B) -> NoDup (A ++ B).
Proof.
  induction A as [|a A IH]; intros B HA HB HD; cbn; auto.
  inversion HA; subst. constructor.
  - intros H. apply in_app_or in H as [H|H]; auto. apply (HD a); cbn; auto.
  - apply IH; auto. intros x Hx. apply HD. cbn; auto.
Qed.

Lemma find_common : forall (A B : list N), (exists x, In x A /\ In x B) \/ (forall x, In x A -> ~ In x B).
Proof.
  induction A as [|a A IH]; intros B.
  - right. intros x [].
  - destruct (in_dec N.eq_dec a B) as [Hin|Hnin].
    + left. exists a. cbn; auto.
    + destruct (IH B) as [[x [H1 H2]]|H].
      * left. exists x. cbn; auto.
      * right. intros x [<-|Hx]; auto.
Qed.

(* two majorities of any universe share a member *)
Theorem quorum_intersection : forall (U A B : list N),
  NoDup A -> NoDup B -> incl A U -> incl B U ->
  (length U < 2 * length A)%nat -> (length U < 2 * length B)%nat ->
  exists x, In x A /\ In x B.
Proof.
  intros U A B HA HB IA IB QA QB.
  destruct (find_common A B) as [H|H]; auto. exfalso.
  assert (HN : NoDup (A ++ B)) by (apply NoDup_app_disjoint; auto).
  assert (HI : incl (A ++ B) U) by (apply incl_app; auto).
  pose proof (NoDup_incl_length HN HI) as HL. rewrite app_length in HL. lia.
Qed.

(* in the form used for clusters: node ids below n *)
Corollary quorum_intersection_n : forall (n : N) (A B : list N),
  NoDup A -> NoDup B -> (forall x, In x A -> x < n) -> (forall x, In x B -> x < n) ->
  n < 2 * lenN A -> n < 2 * lenN B -> exists x, In x A /\ In x B.
Proof.
  intros n A B HA HB IA IB QA QB. unfold lenN in *.
  apply (quorum_intersection (map N.of_nat (seq 0 (N.to_nat n)))); auto.
  - intros x Hx. apply in_map_iff. exists (N.to_nat x). split; [lia|]. apply in_seq. specialize (IA _ Hx). lia.
  - intros x Hx. apply in_map_iff. exists (N.to_nat x). split; [lia|]. apply in_seq. specialize (IB _ Hx). lia.
  - rewrite map_length, seq_length. lia.
  - rewrite map_length, seq_length. lia.
Qed.

Lemma state_append_storage : forall nd log, n_state (append_storage nd log) = n_state nd. Proof. reflexivity. Qed.
Lemma state_commit_storage : forall nd i, n_state (commit_storage nd i) = n_state nd. Proof. reflexivity. Qed.

Lemma state_append_logs : forall logs nd r, n_state (fst (append_logs nd r logs)) = n_state nd.
Proof.
  induction logs as [|log rest IH]; intros nd r; cbn [append_logs]; auto.
  destruct (validate_log_append nd r log) as [doit|]; cbn [fst]; auto.
  rewrite IH. destruct (_ && _); destruct doit; reflexivity.
Qed.

Definition cl (s : cstate) : bool := is_candidate s || is_leader s.

Lemma leader_cl : forall s, is_leader s = true -> cl s = true.
Proof. intros s H. unfold cl. rewrite H. apply orb_true_r. Qed.

(* a node that is Candidate or Leader after a request or a `process()` call has not been changed by it *)
Lemma request_keeps : forall rv nd r el,
  cl (n_state (fst (handle_request rv nd r el))) = true -> fst (handle_request rv nd r el) = nd.
Proof.
  intros rv nd r el. destruct (request_case rv nd r el); cbn [fst]; auto; try discriminate.
  - destruct (_ <? _); discriminate.
  - rewrite state_append_logs. discriminate.
Qed.

Lemma process_keeps : forall nd el due,
  cl (n_state (fst (process nd el due))) = true -> fst (process nd el due) = nd.
Proof.
  intros nd el due. destruct (process_case nd el due) as [S|S|L|]; cbn [fst]; auto; try discriminate.
  change (n_state (set_et (clear_votes nd) (n_hb nd))) with (n_state nd). rewrite S. discriminate.
Qed.

Lemma append_state : forall nd d, n_state (fst (append nd d)) = n_state nd.
Proof. intros. unfold append. cbn [fst]. destruct (_ =? 1); reflexivity. Qed.

(* the three ways a response can leave a node in Candidate state *)
Lemma response_candidate : forall rv nd r s,
  is_candidate (n_state (fst (handle_response rv nd r s))) = true ->
  fst (handle_response rv nd r s) = nd \/
  (n_state nd = Candidate /\ q_kind r = KVote /\ s_result s = ROk /\ vote_counts rv nd r = true /\
   fst (handle_response rv nd r s) = upd_peer nd (q_to r) (p_set_voted true)) \/
  (n_state nd = Election /\ fst (handle_response rv nd r s) = fst (election (upd_peer nd (q_to r) (p_set_voted true)))).
Proof.
  intros rv nd r s.
  destruct (response_case rv nd r s) as [ |S|S|S K R VC|S K R VC Q|S A AC|S A AC Q|cl S|l T]; cbn [fst reconcile]; auto;
    intros C.
  - cbn in C. rewrite S in C. discriminate C.
  - right; left. repeat split; assumption.
  - destruct (fix_ack_term rv); discriminate C.
  - cbn in C. rewrite S in C. discriminate C.
  - cbn in C. rewrite S in C. discriminate C.
  - discriminate C.
Qed.

(* the only way a response makes a node Leader *)
Lemma response_leader : forall rv nd r s,
  is_leader (n_state (fst (handle_response rv nd r s))) = true -> is_leader (n_state nd) = false ->
  n_state nd = Candidate /\ q_kind r = KVote /\ s_result s = ROk /\ vote_counts rv nd r = true /\
  n_size nd / 2 < votes (upd_peer nd (q_to r) (p_set_voted true)) /\
  n_term (fst (handle_response rv nd r s)) = q_term r.
Proof.
  intros rv nd r s.
  destruct (response_case rv nd r s) as [ |S|S|S K R VC|S K R VC Q|S A AC|S A AC Q|cl S|l T]; cbn [fst reconcile];
    intros L' L; try congruence; try (cbn in L'; congruence); try (rewrite S in L; discriminate L).
  repeat split; auto. destruct (fix_ack_term rv); reflexivity.
Qed.

Lemma supports_app : forall a b, supports (a ++ b) = supports a ++ supports b.
Proof. intros. unfold supports. apply flat_map_app. Qed.

Lemma leaders_app : forall a b, leaders (a ++ b) = leaders a ++ leaders b.
Proof. intros. unfold leaders. apply flat_map_app. Qed.

Lemma supports_mono : forall a b x, In x (supports a) -> In x (supports (a ++ b)).
Proof. intros. rewrite supports_app. apply in_or_app; auto. Qed.

Lemma stale_app : forall a b, stale_vote_b (a ++ b) = stale_vote_b a || stale_vote_b b.
Proof. intros. unfold stale_vote_b. apply existsb_app. Qed.

Lemma range_commits_no_support : forall i b t l (f : N -> option entry),
  supports (map (fun idx => GCommit i b t idx (f idx)) l) = [] /\
  leaders (map (fun idx => GCommit i b t idx (f idx)) l) = [].
Proof. induction l; intros; cbn; auto. Qed.

Lemma supports_node_ghosts : forall old new,
  supports (node_ghosts old new) =
  if is_candidate (n_state new) && negb (is_candidate (n_state old) && (n_term old =? n_term new))
  then [(n_index new, n_term new, n_index new)] else [].
Proof.
  intros. unfold node_ghosts. rewrite !supports_app.
  destruct (range_commits_no_support (n_index new) (is_leader (n_state old) && is_leader (n_state new)) (n_term new)
              (range_from (n_commit old + 1) (N.to_nat (n_commit new - n_commit old))) (log_at (n_logs new))) as [E _].
  rewrite E, app_nil_r.
  destruct (is_candidate (n_state new) && negb (is_candidate (n_state old) && (n_term old =? n_term new)));
    destruct (is_leader (n_state new) && negb (is_leader (n_state old))); reflexivity.
Qed.

Lemma supports_no_candidacy : forall nd nd',
  (n_state nd' = Candidate -> nd' = nd) -> supports (node_ghosts nd nd') = [].
Proof.
  intros nd nd' H. rewrite supports_node_ghosts. destruct (n_state nd') eqn:S; cbn [is_candidate andb]; auto.
  rewrite <- (H eq_refl), S, N.eqb_refl. reflexivity.
Qed.

Lemma leaders_node_ghosts : forall old new,
  leaders (node_ghosts old new) =
  if is_leader (n_state new) && negb (is_leader (n_state old)) then [(n_index new, n_term new)] else [].
Proof.
  intros. unfold node_ghosts. rewrite !leaders_app.
  destruct (range_commits_no_support (n_index new) (is_leader (n_state old) && is_leader (n_state new)) (n_term new)
              (range_from (n_commit old + 1) (N.to_nat (n_commit new - n_commit old))) (log_at (n_logs new))) as [_ E].
  rewrite E, app_nil_r.
  destruct (is_candidate (n_state new) && negb (is_candidate (n_state old) && (n_term old =? n_term new)));
    destruct (is_leader (n_state new) && negb (is_leader (n_state old))); reflexivity.
Qed.

(* `request_ghosts` under a projection of the history that ignores the two acknowledgement markers: only the
   GVote of a granted vote is left *)
Lemma flat_map_request_ghosts : forall A (f : ghost -> list A) c new r s,
  (forall a b d, f (GAckBelowVote a b d) = []) -> (forall a b, f (GAckDiverged a b) = []) ->
  flat_map f (request_ghosts c new r s) =
  if is_vote (q_kind r) && is_ok (s_result s) then f (GVote (n_index new) (q_term r) (q_from r)) else [].
Proof.
  intros A f c new r s F1 F2. unfold request_ghosts. rewrite !flat_map_app.
  destruct (is_vote (q_kind r) && is_ok (s_result s)); cbn [flat_map app];
  destruct (is_append_or_hb (q_kind r) && is_ok (s_result s) && (q_term r <? voted_term (c_hist c) (n_index new))); cbn [flat_map app];
  destruct (is_append_or_hb (q_kind r) && is_ok (s_result s)); cbn [flat_map app]; rewrite ?F1, ?app_nil_r; auto;
  (destruct (get_node c (q_from r)); [destruct (entries_eqb _ _)|]); cbn [flat_map]; rewrite ?F2, ?app_nil_r; auto.
Qed.

Lemma leaders_request_ghosts : forall c new r s, leaders (request_ghosts c new r s) = [].
Proof. intros. unfold leaders. rewrite flat_map_request_ghosts by reflexivity. destruct (_ && _); reflexivity. Qed.

Lemma leaders_response_ghosts : forall rv old r s, leaders (response_ghosts rv old r s) = [].
Proof. intros. unfold response_ghosts. destruct (_ && _); reflexivity. Qed.

Lemma supports_request_vote : forall c new r s,
  q_kind r = KVote -> s_result s = ROk ->
  In (n_index new, q_term r, q_from r) (supports (request_ghosts c new r s)).
Proof.
  intros c new r s K R. unfold request_ghosts. rewrite K, R. cbn. auto.
Qed.

Fixpoint voters (k : N) (ps : list peer) : list N :=
  match ps with
  | [] => []
  | p :: r => (if p_voted p then [k] else []) ++ voters (k + 1) r
  end.

Lemma voters_length : forall ps k, length (voters k ps) = length (filter p_voted ps).
Proof. induction ps as [|p r IH]; intros k; cbn; auto. destruct (p_voted p); cbn; rewrite IH; auto. Qed.

Lemma voters_In : forall ps k v, In v (voters k ps) ->
  exists j, v = k + N.of_nat j /\ (j < length ps)%nat /\ p_voted (nth j ps peer0) = true.
Proof.
  induction ps as [|p r IH]; intros k v H; cbn in H; [contradiction|].
  apply in_app_or in H as [H|H].
  - destruct (p_voted p) eqn:E; [|contradiction]. destruct H as [<-|[]]. exists 0%nat. cbn. split; [lia|split; [lia|auto]].
  - apply IH in H as [j [-> [Hj Hv]]]. exists (S j). cbn. split; [lia|split; [lia|auto]].
Qed.

Lemma voters_NoDup : forall ps k, NoDup (voters k ps).
Proof.
  induction ps as [|p r IH]; intros k; cbn; [constructor|].
  destruct (p_voted p); cbn; auto. constructor; auto.
  intros H. apply voters_In in H as [j [E _]]. lia.
Qed.

(* The invariant J: everything that counts as a vote is backed by a recorded support (`supports h`: a GVote, or a
   GCand for the candidate's own vote).  `cand_ok`: every row marked voted in a Candidate's table; `resp_ok`: every
   Vote/Ok answer in flight; `leader_ok`: every recorded leader of term t, by a majority of distinct supporters. *)
Definition cand_ok (h : list ghost) (nd : node) : Prop :=
  n_state nd = Candidate ->
  In (n_index nd, n_term nd, n_index nd) (supports h) /\
  forall k, p_voted (nth k (n_peers nd) peer0) = true -> N.of_nat k <> n_index nd ->
            In (N.of_nat k, n_term nd, n_index nd) (supports h).

Definition resp_ok (h : list ghost) (m : msg) : Prop :=
  match m with
  | MResp r s => q_kind r = KVote -> s_result s = ROk -> In (q_to r, q_term r, q_from r) (supports h)
  | MReq _ => True
  end.

Definition leader_ok (sz : N) (h : list ghost) : Prop :=
  forall i t, In (i, t) (leaders h) ->
  exists V, NoDup V /\ (forall v, In v V -> v < sz /\ In (v, t, i) (supports h)) /\ sz < 2 * lenN V.

Record J (sz : N) (c : cluster) : Prop := {
  j_cinv : cinv c;
  j_size : forall nd, In nd (c_nodes c) -> n_size nd = sz /\ length (n_peers nd) = N.to_nat sz;
  j_cand : forall nd, In nd (c_nodes c) -> cand_ok (c_hist c) nd;
  j_resp : forall m, In m (c_net c) -> resp_ok (c_hist c) m;
  j_lead : leader_ok sz (c_hist c) }.

Lemma cand_ok_mono : forall h g nd, cand_ok h nd -> cand_ok (h ++ g) nd.
Proof.
  intros h g nd H S. destruct (H S) as [H1 H2]. split.
  - apply supports_mono; auto.
  - intros k Hk Hne. apply supports_mono; auto.
Qed.

Lemma resp_ok_mono : forall h g m, resp_ok h m -> resp_ok (h ++ g) m.
Proof. intros h g [r|r s] H; cbn in *; auto. intros K R. apply supports_mono; auto. Qed.

Lemma leader_ok_mono : forall sz h g, leaders g = [] -> leader_ok sz h -> leader_ok sz (h ++ g).
Proof.
  intros sz h g E H i t Hin. rewrite leaders_app, E, app_nil_r in Hin.
  destruct (H _ _ Hin) as [V [N1 [N2 N3]]]. exists V. repeat split; auto.
  - apply N2; auto.
  - apply supports_mono. apply N2; auto.
Qed.

Lemma In_upd_nth : forall A (f : A -> A) l k x,
  In x (upd_nth k f l) -> In x l \/ exists y, nth_error l k = Some y /\ x = f y.
Proof.
  induction l as [|a l IH]; intros k x H; destruct k; cbn in *; auto.
  - destruct H as [<-|H]; [right; eauto | left; auto].
  - destruct H as [<-|H]; [left; auto|]. apply IH in H as [H|H]; auto.
Qed.

(* a step that changes node i from nd to nd' and appends ghosts g, for nodes: generic reconstruction of J *)
Lemma J_nodes_put : forall sz c i nd nd' g,
  J sz c -> get_node c i = Some nd -> stable nd nd' ->
  cand_ok (c_hist c ++ g) nd' ->
  (forall x, In x (put_node c i nd') -> n_size x = sz /\ length (n_peers x) = N.to_nat sz) /\
  (forall x, In x (put_node c i nd') -> cand_ok (c_hist c ++ g) x).
Proof.
  intros sz c i nd nd' g Jc G S C. unfold put_node, get_node in *. split.
  - intros x Hx. apply In_upd_nth in Hx as [Hx|[y [Hy ->]]].
    + apply (j_size _ _ Jc); auto.
    + destruct S as (_ & L & Z & _). rewrite G in Hy. inversion Hy; subst y.
      destruct (j_size _ _ Jc nd (nth_error_In _ _ G)) as [Z1 L1]. split; congruence.
  - intros x Hx. apply In_upd_nth in Hx as [Hx|[y [Hy ->]]]; auto.
    apply cand_ok_mono. apply (j_cand _ _ Jc); auto.
Qed.

Lemma clear_from_voted_false : forall ps a self k,
  a + N.of_nat k <> self -> p_voted (nth k (clear_from a self ps) peer0) = false.
Proof.
  induction ps as [|p r IH]; intros a self k H; cbn [clear_from].
  - destruct k; reflexivity.
  - destruct k; cbn [nth].
    + destruct (N.eqb_spec a self); [lia|reflexivity].
    + apply IH. lia.
Qed.

Lemma half_lt : forall sz v : N, sz / 2 < v -> sz < 2 * v.
Proof.
  intros sz v H. pose proof (N.div_mod sz 2 ltac:(lia)) as E.
  pose proof (N.mod_lt sz 2 ltac:(lia)). lia.
Qed.

(* support for every voted row of the candidate's table after it has marked the answering node *)
Lemma nd1_support : forall h nd r,
  cand_ok h nd -> n_state nd = Candidate ->
  In (q_to r, n_term nd, n_index nd) (supports h) ->
  forall k, p_voted (nth k (n_peers (upd_peer nd (q_to r) (p_set_voted true))) peer0) = true ->
  In (N.of_nat k, n_term nd, n_index nd) (supports h).
Proof.
  intros h nd r C S Hr k Hk. destruct (C S) as [C1 C2].
  destruct (N.eq_dec (N.of_nat k) (n_index nd)) as [E|Hne]; [rewrite E; auto|].
  destruct (Nat.eq_dec (N.to_nat (q_to r)) k) as [E|Hne2].
  - replace (N.of_nat k) with (q_to r) by lia. auto.
  - apply C2; auto. unfold upd_peer in Hk. cbn [n_peers set_peers] in Hk.
    rewrite nth_upd_nth_neq in Hk by auto. exact Hk.
Qed.

(* a counted Vote/Ok answers a request of the candidate's own term: by the guard of `response()` in the repaired
   revision, by the absence of the `stale_vote_b` class otherwise *)
Lemma no_stale_response : forall rv h nd r s g,
  fix_vote_match rv = true \/ stale_vote_b (h ++ response_ghosts rv nd r s ++ g) = false ->
  n_state nd = Candidate -> q_kind r = KVote -> s_result s = ROk -> vote_counts rv nd r = true ->
  q_term r = n_term nd.
Proof.
  intros rv h nd r s g [F|H] S K R VC.
  - unfold vote_counts in VC. rewrite F in VC. cbn in VC. apply N.eqb_eq. exact VC.
  - rewrite !stale_app in H.
    apply orb_false_iff in H as [_ H]. apply orb_false_iff in H as [H _].
    unfold response_ghosts in H. rewrite S, K, R, VC in H. cbn in H.
    destruct (N.eqb_spec (q_term r) (n_term nd)); auto. cbn in H. discriminate.
Qed.

Lemma step_hist : forall rv c e, exists g, c_hist (step rv c e) = c_hist c ++ g.
Proof.
  intros rv c e. destruct (step_case rv c e) as [e0 c' _ Eh _| | | |]; cbn [c_hist]; eauto.
  exists []. rewrite Eh, app_nil_r. reflexivity.
Qed.

Lemma J_same_hist : forall sz c c',
  J sz c -> cinv c' -> c_nodes c' = c_nodes c -> c_hist c' = c_hist c ->
  (forall m, In m (c_net c') -> In m (c_net c)) -> J sz c'.
Proof.
  intros sz c c' Jc I N H M. constructor; auto.
  - rewrite N. apply (j_size _ _ Jc).
  - rewrite N, H. apply (j_cand _ _ Jc).
  - rewrite H. intros m Hm. apply (j_resp _ _ Jc). auto.
  - rewrite H. apply (j_lead _ _ Jc).
Qed.

(* the acting node is changed by a handler that creates neither a candidacy nor a leader *)
Lemma J_put_quiet : forall sz c i nd nd' net' g0,
  J sz c -> cinv (mkCluster (put_node c i nd') net' (c_hist c ++ g0 ++ node_ghosts nd nd')) ->
  get_node c i = Some nd -> stable nd nd' ->
  (n_state nd' = Candidate -> nd' = nd) -> (is_leader (n_state nd') = true -> is_leader (n_state nd) = true) ->
  leaders g0 = [] ->
  (forall m, In m net' -> In m (c_net c) \/ resp_ok (c_hist c ++ g0 ++ node_ghosts nd nd') m) ->
  J sz (mkCluster (put_node c i nd') net' (c_hist c ++ g0 ++ node_ghosts nd nd')).
Proof.
  intros sz c i nd nd' net' g0 Jc CI G St Kc Kl Lg Hnet.
  assert (Cd : cand_ok (c_hist c ++ g0 ++ node_ghosts nd nd') nd').
  { intros S. pose proof (Kc S) as E. subst nd'. revert S. apply cand_ok_mono. apply (j_cand _ _ Jc). eapply nth_error_In; exact G. }
  destruct (J_nodes_put sz c i nd nd' _ Jc G St Cd) as [Z1 Z2].
  constructor; auto; cbn [c_nodes c_net c_hist].
  - intros m Hm. destruct (Hnet m Hm) as [H|H]; [apply resp_ok_mono, (j_resp _ _ Jc), H | exact H].
  - apply leader_ok_mono; [|apply (j_lead _ _ Jc)]. rewrite leaders_app, Lg, leaders_node_ghosts. cbn [app].
    destruct (is_leader (n_state nd')) eqn:L; [rewrite (Kl eq_refl)|]; reflexivity.
Qed.

Lemma new_reqs_resp_ok : forall h (net : list msg) reqs m, In m (net ++ map MReq reqs) -> In m net \/ resp_ok h m.
Proof.
  intros h net reqs m Hm. apply in_app_or in Hm as [Hm|Hm]; [left; exact Hm | right].
  apply in_map_iff in Hm as [q [<- _]]. exact I.
Qed.

Theorem J_step : forall rv sz c e,
  J sz c -> fix_vote_match rv = true \/ stale_vote_b (c_hist (step rv c e)) = false -> J sz (step rv c e).
Proof.
  intros rv sz c e Jc NS.
  pose proof (proj1 (step_inv rv c e (j_cinv _ _ Jc))) as CI.
  pose proof (j_cinv _ _ Jc) as CIc. pose proof CIc as [HN HM].
  destruct (step_case rv c e) as [e0 c' En Eh Hnet | i nd el due G | i nd d G L | k r el nd Hk G | k r s el nd Hk G].
  - eapply J_same_hist; eauto.
  - (* Tick *)
    pose proof (good_process nd el due (proj1 (HN _ _ G))) as [_ St].
    pose proof (process_keeps nd el due) as Kp.
    destruct (process nd el due) as [nd' reqs]. cbn [fst snd] in *.
    apply (J_put_quiet sz c i nd nd' _ []); auto.
    + intros S. apply Kp. rewrite S. reflexivity.
    + intros L. rewrite (Kp (leader_cl _ L)) in L. exact L.
    + apply new_reqs_resp_ok.
  - (* ClientAppend *)
    pose proof (good_append nd d (proj1 (HN _ _ G))) as [_ St].
    pose proof (append_state nd d) as As.
    destruct (append nd d) as [nd' reqs]. cbn [fst snd] in *.
    apply (J_put_quiet sz c i nd nd' _ []); auto.
    + intros S. rewrite As in S. rewrite S in L. discriminate L.
    + apply new_reqs_resp_ok.
  - (* request *)
    pose proof (delivered_request c k r nd CIc Hk G) as Hne.
    pose proof (good_request rv nd r el (proj1 (HN _ _ G)) Hne) as [_ St].
    pose proof (request_keeps rv nd r el) as Kp.
    destruct (handle_request rv nd r el) as [nd' s]. cbn [fst snd] in *.
    apply (J_put_quiet sz c (q_to r) nd nd'); auto.
    + intros S. apply Kp. rewrite S. reflexivity.
    + intros L. rewrite (Kp (leader_cl _ L)) in L. exact L.
    + apply leaders_request_ghosts.
    + intros m Hm. apply in_app_or in Hm as [Hm|[<-|[]]]; [left; eapply In_remove_nth; eauto | right].
      intros K R. rewrite !supports_app. apply in_or_app. right. apply in_or_app. left.
      destruct St as (Hi & _). rewrite <- (get_node_index _ _ _ HN G), <- Hi. apply supports_request_vote; auto.
  - (* response *)
    destruct (delivered_response c k r s nd CIc Hk G) as [Hne Hto].
    pose proof (get_node_index _ _ _ HN G) as Ei.
    pose proof (good_response rv nd r s (proj1 (HN _ _ G)) Hne) as [_ St].
    pose proof (response_candidate rv nd r s) as RC.
    pose proof (response_leader rv nd r s) as RL.
    destruct (handle_response rv nd r s) as [nd' reqs]. cbn [fst snd] in *.
    set (g := response_ghosts rv nd r s ++ node_ghosts nd nd') in *.
    pose proof (j_cand _ _ Jc nd (nth_error_In _ _ G)) as Cold.
    pose proof (j_resp _ _ Jc _ (nth_error_In _ _ Hk)) as Rold. cbn in Rold.
    assert (Sup : n_state nd = Candidate -> q_kind r = KVote -> s_result s = ROk -> vote_counts rv nd r = true ->
                  q_term r = n_term nd /\ In (q_to r, n_term nd, n_index nd) (supports (c_hist c))).
    { intros S K R VC. assert (T : q_term r = n_term nd) by (eapply no_stale_response; eauto).
      split; auto. rewrite <- T. replace (n_index nd) with (q_from r) by congruence. auto. }
    assert (Cd : cand_ok (c_hist c ++ g) nd').
    { intros S. destruct (RC ltac:(rewrite S; reflexivity)) as [E|[(S0 & K & R & VC & E)|(S0 & E)]].
      - subst nd'. apply cand_ok_mono; auto.
      - destruct (Sup S0 K R VC) as [T Hs]. subst nd'. cbn [n_index n_term upd_peer set_peers].
        destruct (Cold S0) as [C1 _]. split; [apply supports_mono; auto|].
        intros j Hj _. apply supports_mono. eapply nd1_support; eauto.
      - split.
        + unfold g. rewrite !supports_app. apply in_or_app. right. apply in_or_app. right.
          rewrite supports_node_ghosts. rewrite S, S0. cbn. auto.
        + intros j Hj Hnj. exfalso. subst nd'. unfold election in Hj, Hnj. cbn in Hj, Hnj.
          rewrite clear_from_voted_false in Hj by (cbn; lia). discriminate. }
    destruct (J_nodes_put sz c (s_to s) nd nd' g Jc G St Cd) as [Z1 Z2].
    constructor; auto; cbn [c_nodes c_net c_hist].
    + intros m Hm. destruct (new_reqs_resp_ok (c_hist c ++ g) _ _ _ Hm) as [H|H]; [|exact H].
      apply resp_ok_mono. apply (j_resp _ _ Jc). eapply In_remove_nth; eauto.
    + (* leaders *)
      destruct (is_leader (n_state nd') && negb (is_leader (n_state nd))) eqn:NL.
      2:{ apply leader_ok_mono; [|apply (j_lead _ _ Jc)]. unfold g.
          rewrite leaders_app, leaders_response_ghosts, leaders_node_ghosts, NL. reflexivity. }
      apply andb_true_iff in NL as [L1 L2]. apply negb_true_iff in L2.
      destruct (RL L1 L2) as (S0 & K & R & VC & Q & T').
      destruct (Sup S0 K R VC) as [T Hs].
      intros i0 t0 Hin. unfold g in Hin.
      rewrite !leaders_app, leaders_response_ghosts, leaders_node_ghosts, L1, L2 in Hin. cbn in Hin.
      apply in_app_or in Hin as [Hin|[Hin|[]]].
      * destruct (j_lead _ _ Jc _ _ Hin) as [V [N1 [N2 N3]]]. exists V. repeat split; auto.
        -- apply N2; auto.
        -- apply supports_mono. apply N2; auto.
      * inversion Hin; subst i0 t0; clear Hin.
        destruct St as (Hi & Hl & Hz & _).
        destruct (j_size _ _ Jc nd (nth_error_In _ _ G)) as [Zs Zl].
        exists (voters 0 (n_peers (upd_peer nd (q_to r) (p_set_voted true)))). repeat split.
        -- apply voters_NoDup.
        -- apply voters_In in H as [j [-> [Hj _]]]. unfold upd_peer in Hj. cbn in Hj.
           rewrite upd_nth_length in Hj. lia.
        -- apply voters_In in H as [j [-> [_ Hv]]]. apply supports_mono.
           rewrite T', T, Hi. replace (0 + N.of_nat j) with (N.of_nat j) by lia.
           eapply nd1_support; eauto.
        -- unfold lenN. rewrite voters_length. rewrite <- Zs. apply half_lt. exact Q.
Qed.

Lemma run_hist : forall rv evs c, exists g, c_hist (run_from rv c evs) = c_hist c ++ g.
Proof.
  intros rv. induction evs as [|e evs IH]; intros c; cbn [run_from fold_left].
  - exists []. rewrite app_nil_r. reflexivity.
  - destruct (IH (step rv c e)) as [g2 E2]. destruct (step_hist rv c e) as [g1 E1].
    exists (g1 ++ g2). unfold run_from in E2. rewrite E2, E1, app_assoc. reflexivity.
Qed.

Lemma run_J : forall rv evs sz c,
  J sz c -> fix_vote_match rv = true \/ stale_vote_b (c_hist (run_from rv c evs)) = false -> J sz (run_from rv c evs).
Proof.
  intros rv. induction evs as [|e evs IH]; intros sz c Jc NS; cbn [run_from fold_left] in *; auto.
  apply IH; auto. apply J_step; auto.
  destruct NS as [F|NS]; [left; exact F|right].
  destruct (run_hist rv evs (step rv c e)) as [g E]. unfold run_from in E. rewrite E, stale_app in NS.
  apply orb_false_iff in NS as [NS _]. exact NS.
Qed.

Lemma init_J : forall size, size <> 1 -> J size (init_default size).
Proof.
  intros size Hs. apply N.eqb_neq in Hs as Hs'.
  constructor.
  - apply init_inv; auto.
  - intros nd Hnd. unfold init_default, init in Hnd. cbn [c_nodes] in Hnd.
    apply in_map_iff in Hnd as [k [<- _]]. cbn. rewrite map_length, seq_length. auto.
  - intros nd Hnd. unfold init_default, init in Hnd. cbn [c_nodes] in Hnd.
    apply in_map_iff in Hnd as [k [<- _]]. intros S. unfold new_node in S. cbn in S. rewrite Hs' in S. discriminate.
  - intros m [].
  - intros i t Hin. rewrite (init_hist size Hs) in Hin. destruct Hin.
Qed.

(* C27, conditional form: a history in which no node supports two candidates in one term and no candidate
   counts a vote of another term has at most one leader per term — for every cluster size (other than the
   degenerate 1) and every adversarial event list *)
Theorem election_safety_cond : forall rv size evs,
  size <> 1 ->
  double_vote_b (c_hist (run rv size evs)) = false ->
  fix_vote_match rv = true \/ stale_vote_b (c_hist (run rv size evs)) = false ->
  election_safety (c_hist (run rv size evs)).
Proof.
  intros rv size evs Hs DV SV. unfold run in *.
  pose proof (run_J rv evs size _ (init_J size Hs) SV) as Jr.
  set (h := c_hist (run_from rv (init_default size) evs)) in *.
  intros i j t Hi Hj.
  destruct (j_lead _ _ Jr _ _ Hi) as [Vi [Ni [Si Qi]]].
  destruct (j_lead _ _ Jr _ _ Hj) as [Vj [Nj [Sj Qj]]].
  destruct (quorum_intersection_n size Vi Vj Ni Nj) as [x [Xi Xj]]; auto.
  { intros x Hx. apply Si; auto. }
  { intros x Hx. apply Sj; auto. }
  destruct (N.eq_dec i j) as [|Hne]; auto. exfalso.
  assert (D : double_vote_b h = true).
  { unfold double_vote_b. apply existsb_exists. exists (x, t, i). split; [apply Si; auto|].
    apply existsb_exists. exists (x, t, j). split; [apply Sj; auto|].
    rewrite !N.eqb_refl. cbn. apply negb_true_iff. apply N.eqb_neq. exact Hne. }
  congruence.
Qed.

(* `_partial`, here and in the RaftLog files: the property under the hypothesis that the named defect classes do not
   occur in the run *)
Theorem election_safety_partial : forall rv size evs,
  size <> 1 ->
  double_vote_b (c_hist (run rv size evs)) = false ->
  stale_vote_b (c_hist (run rv size evs)) = false ->
  election_safety (c_hist (run rv size evs)).
Proof. intros rv size evs Hs DV SV. apply election_safety_cond; auto. Qed.
