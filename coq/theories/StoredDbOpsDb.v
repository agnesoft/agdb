(* StoredDbOpsDb.v — proofs (stored database): the core mutations of DbImpl keep the database STORED.

     so_handles h w            the in-memory handles of DbImpl (graph, values vector) are the ones of the witness
     so_open_spec'             the handles DbImpl::try_new_with_storage builds for an existing file (from_storage)
     so_insert_node_stored     DbImpl::insert_node: stored_db for d  ==>  stored_db for insert_node_db d, same id;
                               the witness changes in the graph component only, the change is confined to the footprint *)
From Coq Require Import Permutation.
From Agdb Require Import Bytes Graph DbModel StorageSpec Collections CollWp CollVecBase CollVec CollMap CollGraph StoredDb
  StoredDbRep StoredDbLoad StoredDbFrame StoredDbOps StoredDbOpsGraph.
From Coq Require Import ZifyBool ZifyNat ZifyN.
Ltac Zify.zify_post_hook ::= Z.div_mod_to_equations.
Open Scope N_scope.

Definition so_handles (h : so_db) (w : sd_wit) : Prop := so_graph h = sw_g w /\ so_values h = sw_vh w.

(* stored_db does not look at the undo stack *)
Lemma stored_db_w_same g root d d' w :
  stored_db_w g root d w -> gr d' = gr d -> aliases d' = aliases d -> vals d' = vals d -> indexes d' = indexes d ->
  stored_db_w g root d' w.
Proof.
  intros [H1 H2 H3 H4 H5 H6 H7 H8 H9 H10 H11 H12 H13 H14 H15 H16] E1 E2 E3 E4.
  constructor; rewrite ?E1, ?E2, ?E3, ?E4; assumption.
Qed.

(* two handles of the same graph index record have the same four vectors *)
Lemma grep_same_vecs g d d' s s' a a' :
  grep g d s a -> grep g d' s' a' -> cg_index d' = cg_index d -> forall f, cv_index (cg_vec d' f) = cv_index (cg_vec d f).
Proof.
  intros H H' Hi.
  pose proof (gr_rec _ _ _ _ H) as R. pose proof (gr_rec _ _ _ _ H') as R'. rewrite Hi, R in R'. assert (E : cg_index_ser (cv_index (cg_from d)) (cv_index (cg_to d)) (cv_index (cg_from_meta d)) (cv_index (cg_to_meta d)) = cg_index_ser (cv_index (cg_from d')) (cv_index (cg_to d')) (cv_index (cg_from_meta d')) (cv_index (cg_to_meta d'))) by congruence. clear R'.
  destruct (index_ser_parts _ _ _ _ (gr_bounds _ _ _ _ H GfFrom) (gr_bounds _ _ _ _ H GfTo) (gr_bounds _ _ _ _ H GfFromMeta) (gr_bounds _ _ _ _ H GfToMeta))
    as (_ & P1 & P2 & P3 & P4).
  destruct (index_ser_parts _ _ _ _ (gr_bounds _ _ _ _ H' GfFrom) (gr_bounds _ _ _ _ H' GfTo) (gr_bounds _ _ _ _ H' GfFromMeta) (gr_bounds _ _ _ _ H' GfToMeta))
    as (_ & Q1 & Q2 & Q3 & Q4).
  change cm_index_ser with cg_index_ser in *. cbn [cg_vec] in *. rewrite <- E in Q1, Q2, Q3, Q4.
  intros f; destruct f; cbn [cg_vec]; congruence.
Qed.

Definition sd_with_handles (w : sd_wit) (dg : cg_data) (vh : cv_vec) : sd_wit :=
  {| sw_root := sw_root w; sw_g := dg; sw_gs := sw_gs w; sw_a1 := sw_a1 w; sw_a2 := sw_a2 w;
     sw_ih := sw_ih w; sw_is := sw_is w; sw_ie := sw_ie w; sw_iw := sw_iw w;
     sw_vh := vh; sw_vs := sw_vs w; sw_vi := sw_vi w; sw_vw := sw_vw w |}.

Section Ops.
  Variable fl : bool.

  (* DbImpl::try_new_with_storage on an existing file: the handles *)
  (* the witness changes in the two handles only (sd_with_handles): same footprint, same slot vector *)
  Theorem so_open_spec' root d w sp (Q : cres so_db -> spec -> Prop) :
    stored_db_w (hp sp) root d w ->
    (forall h w', stored_db_w (hp sp) root d w' -> so_handles h w' -> sd_foot root w' = sd_foot root w -> sw_vi w' = sw_vi w ->
                  Q (CrOk h) sp) ->
    cwp fl (so_open root) sp Q.
  Proof.
    intros H HQ. pose proof H as [Hroot Hu64 Hver Hg Hgi Ha1 Hk1 Ha2 Hk2 Hiv Hii Hix Hvv Hvi Hv Hnd].
    unfold so_open.
    apply cwp_bind. unfold sd_root_load. apply cwp_bind. eapply cwp_value; [exact Hroot|]. cbn [kont].
    apply cr_de_ser; [exact Hu64|]. cbn [kont].
    apply cwp_bind. rewrite <- Hgi. eapply cg_from_storage_spec; [exact Hg|]. intros dg Hg' Hgi'. cbn [kont].
    apply cwp_bind. rewrite <- Hvi. eapply cv_from_storage_spec; [exact Hvv|]. intros vh Hvv' Hvi' Hvl'. cbn [kont cwp].
    pose proof (grep_same_vecs _ _ _ _ _ _ _ Hg Hg' Hgi') as Ev.
    assert (Ef : sd_foot root (sd_with_handles w dg vh) = sd_foot root w).
    { unfold sd_foot, gfoot, foot. cbn [sd_with_handles sw_g sw_gs sw_a1 sw_a2 sw_ih sw_is sw_ie sw_iw sw_vh sw_vs sw_vw].
      rewrite Hgi', Hvi'. pose proof (Ev GfFrom) as E1. pose proof (Ev GfTo) as E2. pose proof (Ev GfFromMeta) as E3. pose proof (Ev GfToMeta) as E4.
      cbn [cg_vec] in E1, E2, E3, E4. rewrite E1, E2, E3, E4. reflexivity. }
    apply (HQ _ (sd_with_handles w dg vh)); [|split; reflexivity|exact Ef|reflexivity].
    constructor; cbn [sd_with_handles sw_root sw_g sw_gs sw_a1 sw_a2 sw_ih sw_is sw_ie sw_iw sw_vh sw_vs sw_vi sw_vw]; auto.
    - congruence.
    - congruence.
    - rewrite Ef. exact Hnd.
  Qed.

  Theorem so_open_spec root d w sp (Q : cres so_db -> spec -> Prop) :
    stored_db_w (hp sp) root d w ->
    (forall h w', stored_db_w (hp sp) root d w' -> so_handles h w' -> sd_foot root w' = sd_foot root w -> Q (CrOk h) sp) ->
    cwp fl (so_open root) sp Q.
  Proof. intros H HQ. eapply so_open_spec'; eauto. Qed.

  (* DbImpl::insert_node *)
  Theorem so_insert_node_stored root d w h sp (Q : cres (so_db * Z) -> spec -> Prop) :
    stored_db_w (hp sp) root d w -> so_handles h w -> so_graph_ok (gr d) ->
    (forall h' dg' s' sp',
        stored_db_w (hp sp') root (snd (insert_node_db d)) (sd_with_graph w dg' s') -> so_handles h' (sd_with_graph w dg' s') ->
        sdepth sp' = sdepth sp ->
        frame (hp sp) (hp sp') (sd_foot root w) (sd_foot root (sd_with_graph w dg' s')) ->
        Q (CrOk (h', fst (insert_node_db d))) sp') ->
    cwp fl (so_insert_node h) sp Q.
  Proof.
    intros H [Hh1 Hh2] OK HQ. unfold so_insert_node. apply cwp_bind. rewrite Hh1.
    eapply so_graph_insert_node_spec; [exact (sr_graph _ _ _ _ H)|exact OK|].
    unfold insert_node_db in HQ. destruct (insert_node (gr d)) as [i G']. cbn [fst snd] in *.
    intros dg' s' sp' HG Hi Hd Hf. cbn [kont cwp fst snd].
    destruct (sd_graph_update _ _ root d w dg' s' G' H Hi HG Hf) as [H' F'].
    eapply HQ; [|split; [reflexivity|exact Hh2]|exact Hd|exact F'].
    apply (stored_db_w_same _ _ _ _ _ H'); reflexivity.
  Qed.
End Ops.
