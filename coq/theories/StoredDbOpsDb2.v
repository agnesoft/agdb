(* StoredDbOpsDb2.v — proofs (stored database): the values component of a stored database replaced under a
   frame (sd_values_update, the analogue of sd_graph_update), and DbImpl::insert_key_value /
   reserve_key_value_capacity for a key that is not indexed (the primed theorems also say what happens to the slot vector
   of the witness; the unprimed ones are their corollaries). *)
From Coq Require Import Permutation.
From Agdb Require Import Bytes DbValue Graph DbModel StorageSpec Collections CollValues CollWp CollVecBase CollVec CollSep
  CollMap CollGraph CollValuesProofs StoredDbRep StoredDbFrame StoredDbOps StoredDbOpsGraph StoredDbOpsDb StoredDbOpsKv
  StoredDbOpsKv2.
From Coq Require Import ZifyBool ZifyNat ZifyN.
Ltac Zify.zify_post_hook ::= Z.div_mod_to_equations.
Open Scope N_scope.

Definition sd_head (root : N) (w : sd_wit) : list N :=
  root :: gfoot (sw_g w) (sw_gs w) ++ sd_foot_a1 (sw_a1 w) ++ sd_foot_a2 (sw_a2 w) ++
          foot bytes (ce_raw 24) sd_law24 (sw_ih w) (sw_is w) ++ sd_ix_foot (sw_ie w) (sw_iw w).

Lemma sd_foot_split_kv root w : sd_foot root w = sd_head root w ++ kvfoot (sw_vh w) (sw_vs w) (sw_vw w).
Proof. unfold sd_foot, sd_head, kvfoot. cbn [app]. rewrite <- !app_assoc. reflexivity. Qed.

(* sep_update for a footprint at the end *)
Lemma sep_update_end g g' (A F F' : list N) :
  frame g g' F F' -> NoDup (A ++ F) -> live_all g A -> NoDup F' ->
  NoDup (A ++ F') /\ frame g g' (A ++ F) (A ++ F') /\ (forall j, In j A -> g' j = g j).
Proof.
  intros Hf Hnd Hl NF'. rewrite <- (app_nil_r F) in Hnd. rewrite <- (app_nil_r A) in Hl.
  destruct (sep_update g g' A F F' [] Hf Hnd Hl NF') as (N' & Fr & Same). rewrite !app_nil_r in *. auto.
Qed.

Definition sd_with_values (w : sd_wit) (vh : cv_vec) (vs : list bytes) (vi : list N) (vw : list kvslot) : sd_wit :=
  {| sw_root := sw_root w; sw_g := sw_g w; sw_gs := sw_gs w; sw_a1 := sw_a1 w; sw_a2 := sw_a2 w;
     sw_ih := sw_ih w; sw_is := sw_is w; sw_ie := sw_ie w; sw_iw := sw_iw w;
     sw_vh := vh; sw_vs := vs; sw_vi := vi; sw_vw := vw |}.

Lemma grep_transport g g' d s a : grep g d s a -> (forall j, In j (gfoot d s) -> g' j = g j) -> grep g' d s a.
Proof.
  intros [H1 H2 H3 H4] Same. constructor; [rewrite Same; [exact H1|left; reflexivity]| |exact H3|exact H4].
  intros f. eapply vrep_transport; [apply H2|]. intros j Hj. apply Same. rewrite (gfoot_split d s f).
  apply in_or_app. right. apply in_or_app. left. exact Hj.
Qed.

Lemma stored_kvrep g root d w : stored_db_w g root d w -> kvrep g (sw_vh w) (sw_vs w) (sw_vi w) (sw_vw w) (vals d).
Proof.
  intros H. constructor; [exact (sr_v_vec _ _ _ _ H)|exact (sr_v _ _ _ _ H)|].
  pose proof (sr_nodup _ _ _ _ H) as Hnd. rewrite sd_foot_split_kv in Hnd.
  apply NoDup_app_iff in Hnd. exact (proj1 (proj2 Hnd)).
Qed.

Theorem sd_values_update g g' root d w vh' vs' vi' vw' kvs' :
  stored_db_w g root d w -> cv_index vh' = cv_index (sw_vh w) ->
  kvrep g' vh' vs' vi' vw' kvs' -> frame g g' (kvfoot (sw_vh w) (sw_vs w) (sw_vw w)) (kvfoot vh' vs' vw') ->
  stored_db_w g' root (with_vals d kvs') (sd_with_values w vh' vs' vi' vw') /\
  frame g g' (sd_foot root w) (sd_foot root (sd_with_values w vh' vs' vi' vw')).
Proof.
  intros H Hi HK Hf.
  pose proof (sr_nodup _ _ _ _ H) as Hnd. rewrite sd_foot_split_kv in Hnd.
  assert (Hl : live_all g (sd_head root w)).
  { intros j Hj. apply (stored_db_live _ _ _ _ H). rewrite sd_foot_split_kv. apply in_or_app. left. exact Hj. }
  destruct (sep_update_end g g' (sd_head root w) _ _ Hf Hnd Hl (kr_nodup _ _ _ _ _ _ HK)) as (N' & F' & SameH).
  assert (Eh : sd_head root (sd_with_values w vh' vs' vi' vw') = sd_head root w) by reflexivity.
  split; [|rewrite !sd_foot_split_kv, Eh; exact F'].
  destruct H as [Hroot Hu64 Hver Hg Hgi Ha1 Hk1 Ha2 Hk2 Hiv Hii Hix Hvv Hvi Hv _].
  unfold sd_head in SameH.
  constructor; cbn [sd_with_values sw_root sw_g sw_gs sw_a1 sw_a2 sw_ih sw_is sw_ie sw_iw sw_vh sw_vs sw_vi sw_vw with_vals gr aliases vals indexes].
  - rewrite SameH; [exact Hroot|left; reflexivity].
  - exact Hu64.
  - exact Hver.
  - eapply grep_transport; [exact Hg|]. intros j Hj. apply SameH. right. apply in_or_app. left. exact Hj.
  - exact Hgi.
  - eapply sd_transport_map; [exact Ha1|]. intros j Hj. apply SameH. right. apply in_or_app. right. apply in_or_app. left. exact Hj.
  - exact Hk1.
  - eapply sd_transport_map; [exact Ha2|]. intros j Hj. apply SameH. right. do 2 (apply in_or_app; right). apply in_or_app. left. exact Hj.
  - exact Hk2.
  - eapply vrep_transport; [exact Hiv|]. intros j Hj. apply SameH. right. do 3 (apply in_or_app; right). apply in_or_app. left. exact Hj.
  - exact Hii.
  - eapply sd_transport_ix; [exact Hix|]. intros j Hj. apply SameH. right. do 4 (apply in_or_app; right). exact Hj.
  - exact (kr_vec _ _ _ _ _ _ HK).
  - congruence.
  - exact (kr_kv _ _ _ _ _ _ HK).
  - rewrite sd_foot_split_kv. exact N'.
Qed.

(* a key without an index: the index list is not touched *)
Lemma idx_update_not_indexed ix key f : idx_find ix key = None -> idx_update ix key f = ix.
Proof.
  unfold idx_find. induction ix as [|[k ids] r IH]; [reflexivity|]. cbn [find idx_update fst].
  destruct (dbv_eqb k key); [discriminate|]. intros E. rewrite (IH E). reflexivity.
Qed.

(* the values component replaced, for a database d' that differs from d in the values (and the undo stack) only *)
Lemma stored_values_update g g' root d d' w vh' vs' vi' vw' kvs' :
  stored_db_w g root d w -> cv_index vh' = cv_index (sw_vh w) ->
  kvrep g' vh' vs' vi' vw' kvs' -> frame g g' (kvfoot (sw_vh w) (sw_vs w) (sw_vw w)) (kvfoot vh' vs' vw') ->
  gr d' = gr d -> aliases d' = aliases d -> vals d' = kvs' -> indexes d' = indexes d ->
  stored_db_w g' root d' (sd_with_values w vh' vs' vi' vw') /\
  frame g g' (sd_foot root w) (sd_foot root (sd_with_values w vh' vs' vi' vw')).
Proof.
  intros H Hi HK Hf E1 E2 E3 E4. destruct (sd_values_update _ _ root d w _ _ _ _ _ H Hi HK Hf) as [H' F'].
  split; [|exact F']. eapply stored_db_w_same; [exact H'| | | |]; cbn [with_vals gr aliases vals indexes]; auto.
Qed.

Section Ops2.
  Variable fl : bool.

  (* DbImpl::insert_key_value (key not indexed) *)
  Theorem so_insert_key_value_stored' root d w h id x sp (Q : cres so_db -> spec -> Prop) :
    stored_db_w (hp sp) root d w -> so_handles h w ->
    idx_find (indexes d) (fst x) = None ->
    so_index_ok (cg_as_u64 id) -> el_valid law_dbkv x ->
    8 + ce_size ce_dbkv * (lenN (kvs_get (vals d) id) + 1) < two64 ->
    (forall h' vh' vs' vi' vw' sp',
        stored_db_w (hp sp') root (insert_key_value d id x) (sd_with_values w vh' vs' vi' vw') ->
        so_handles h' (sd_with_values w vh' vs' vi' vw') -> sdepth sp' = sdepth sp ->
        frame (hp sp) (hp sp') (sd_foot root w) (sd_foot root (sd_with_values w vh' vs' vi' vw')) ->
        slot_alloc (zabs_nat id) (sw_vi w) vi' -> Q (CrOk h') sp') ->
    cwp fl (so_insert_key_value h id x) sp Q.
  Proof.
    intros H [Hh1 Hh2] Hnix Hix Hx Hfit HQ. unfold so_insert_key_value. apply cwp_bind. rewrite Hh2.
    eapply so_kv_insert_value_spec; [exact (stored_kvrep _ _ _ _ H)|exact Hix|exact Hx|rewrite zabs_as_u64; exact Hfit|].
    rewrite zabs_as_u64. intros vh1 vs1 vi1 vw1 sp' HK I1 D1 F1 K1 A1. cbn [kont cwp].
    destruct (stored_values_update _ _ root d (insert_key_value d id x) w vh1 vs1 vi1 vw1 _ H I1 HK F1) as [H' F']; try reflexivity.
    { apply idx_update_not_indexed. exact Hnix. }
    eapply HQ; [exact H'|split; [exact Hh1|reflexivity]|exact D1|exact F'|split; assumption].
  Qed.

  Theorem so_insert_key_value_stored root d w h id x sp (Q : cres so_db -> spec -> Prop) :
    stored_db_w (hp sp) root d w -> so_handles h w ->
    idx_find (indexes d) (fst x) = None ->
    so_index_ok (cg_as_u64 id) -> el_valid law_dbkv x ->
    8 + ce_size ce_dbkv * (lenN (kvs_get (vals d) id) + 1) < two64 ->
    (forall h' vh' vs' vi' vw' sp',
        stored_db_w (hp sp') root (insert_key_value d id x) (sd_with_values w vh' vs' vi' vw') ->
        so_handles h' (sd_with_values w vh' vs' vi' vw') -> sdepth sp' = sdepth sp ->
        frame (hp sp) (hp sp') (sd_foot root w) (sd_foot root (sd_with_values w vh' vs' vi' vw')) ->
        Q (CrOk h') sp') ->
    cwp fl (so_insert_key_value h id x) sp Q.
  Proof. intros H Hh Hnix Hix Hx Hfit HQ. eapply so_insert_key_value_stored'; eauto. Qed.

  (* DbImpl::reserve_key_value_capacity *)
  Theorem so_reserve_key_value_capacity_stored' root d w h id len sp (Q : cres so_db -> spec -> Prop) :
    stored_db_w (hp sp) root d w -> so_handles h w -> so_index_ok (cg_as_u64 id) ->
    (forall h' vh' vs' vi' vw' sp',
        stored_db_w (hp sp') root (reserve_kv d id) (sd_with_values w vh' vs' vi' vw') ->
        so_handles h' (sd_with_values w vh' vs' vi' vw') -> sdepth sp' = sdepth sp ->
        frame (hp sp) (hp sp') (sd_foot root w) (sd_foot root (sd_with_values w vh' vs' vi' vw')) ->
        slot_alloc (zabs_nat id) (sw_vi w) vi' -> Q (CrOk h') sp') ->
    cwp fl (so_reserve_key_value_capacity h id len) sp Q.
  Proof.
    intros H [Hh1 Hh2] Hix HQ. unfold so_reserve_key_value_capacity. apply cwp_bind. rewrite Hh2.
    eapply so_kv_reserve_capacity_spec; [exact (stored_kvrep _ _ _ _ H)|exact Hix|].
    rewrite zabs_as_u64, kvs_pad_reserve. intros vh1 vs1 vi1 vw1 sp' HK I1 D1 F1 K1 A1. cbn [kont cwp].
    destruct (stored_values_update _ _ root d (reserve_kv d id) w vh1 vs1 vi1 vw1 _ H I1 HK F1) as [H' F']; try reflexivity.
    eapply HQ; [exact H'|split; [exact Hh1|reflexivity]|exact D1|exact F'|split; assumption].
  Qed.

  Theorem so_reserve_key_value_capacity_stored root d w h id len sp (Q : cres so_db -> spec -> Prop) :
    stored_db_w (hp sp) root d w -> so_handles h w -> so_index_ok (cg_as_u64 id) ->
    (forall h' vh' vs' vi' vw' sp',
        stored_db_w (hp sp') root (reserve_kv d id) (sd_with_values w vh' vs' vi' vw') ->
        so_handles h' (sd_with_values w vh' vs' vi' vw') -> sdepth sp' = sdepth sp ->
        frame (hp sp) (hp sp') (sd_foot root w) (sd_foot root (sd_with_values w vh' vs' vi' vw')) ->
        Q (CrOk h') sp') ->
    cwp fl (so_reserve_key_value_capacity h id len) sp Q.
  Proof. intros H Hh Hix HQ. eapply so_reserve_key_value_capacity_stored'; eauto. Qed.
End Ops2.
