(* OpenMapRefine.v — the open-addressing table REFINES the abstract multimap of OpenMapSpec.v, for every
   history of operations from the empty map: the simulation of one step (OpenMapRefineStep.v) lifted by
   induction over operation lists; what it means for lookups (exactly the stored pairs are found; two tables
   holding the same pairs answer every lookup alike, `lookups_agree`).

   Last section: on unique keys the multimap run of MapImpl's operations (map.rs: the table used with
   insert := insert_or_replace k (|_| true) v only) IS the run of the ordinary finite map `fm_*` of
   OpenMapSpec.v — the observations are DETERMINED (equal, not just allowed). *)
From Coq Require Import List NArith Arith Bool Lia Permutation.
Import ListNotations.
From Agdb Require Import OpenMap OpenMapProofs OpenMapSpec OpenMapRefineBase OpenMapRefineOps OpenMapRefineStep.

Section Refine.
  Variables K V : Type.
  Variable keqb : K -> K -> bool.
  Variable veqb : V -> V -> bool.
  Variable h : K -> N.
  Variable mincap : nat.
  Variable rv : om_revision.

  Hypothesis keqb_eq : forall a b, keqb a b = true <-> a = b.
  Hypothesis veqb_eq : forall a b, veqb a b = true <-> a = b.
  Hypothesis Hmin : 4 <= mincap.
  Hypothesis Hguard : fix_insert_wrap_guard rv = true.
  Hypothesis Hfin : fix_iter_finished rv = true.

  Notation omapT := (omap K V).
  Notation cap := (capacity K V).
  Notation vals := (mm_values K V keqb).
  Notation rem1 := (mm_remove_one K V keqb veqb).
  Notation absm := (abs K V).
  Notation PI := (PInv K V h mincap).
  Notation sobs := (step_obs K V keqb veqb h mincap rv).
  Notation robs := (run_obs K V keqb veqb h mincap rv).
  Notation mstep := (mm_step K V keqb veqb).
  Notation mrun := (mm_run K V keqb veqb).

  (* one step: the table does what the multimap allows, and stays in the invariant *)
  Theorem step_refines : forall (m : omapT) (o : op K V) (s : mm K V),
    PI m -> Permutation (absm m) s ->
    exists m' ob s', sobs m o = Done (m', ob) /\ PI m' /\ mstep s o ob s' /\ Permutation (absm m') s'.
  Proof.
    intros m o s HI HP.
    (* on the table's own multiset; mm_step_perm then carries the step over to s *)
    assert (Hown : exists m' ob s', sobs m o = Done (m', ob) /\ PI m' /\ mstep (absm m) o ob s' /\
                                    Permutation (absm m') s').
    { destruct o as [k v|k p v|k|k v|c|k|k]; cbn [step_obs].
      - destruct (insert_spec K V keqb veqb h mincap rv keqb_eq veqb_eq Hmin m k v HI) as [m' [Hr [HI' HP']]].
        rewrite Hr. do 3 eexists. split; [reflexivity|]. split; [exact HI'|]. split; [constructor|exact HP'].
      - destruct (insert_or_replace_spec K V keqb veqb h mincap rv keqb_eq veqb_eq Hmin Hguard m k p v HI)
          as [m' [[w|] [Hr [HI' Hspec]]]]; rewrite Hr; do 3 eexists; (split; [reflexivity|]); (split; [exact HI'|]).
        + destruct Hspec as [Hin [Hpw HP']]. split; [constructor; assumption|exact HP'].
        + destruct Hspec as [Hnone HP']. split; [constructor; exact Hnone|exact HP'].
      - destruct (remove_key_spec K V keqb veqb h mincap rv keqb_eq veqb_eq Hmin m k HI) as [m' [Hr [HI' HP']]].
        rewrite Hr. do 3 eexists. split; [reflexivity|]. split; [exact HI'|]. split; [constructor|exact HP'].
      - destruct (remove_value_spec K V keqb veqb h mincap rv keqb_eq veqb_eq Hmin m k v HI) as [m' [Hr [HI' HP']]].
        rewrite Hr. do 3 eexists. split; [reflexivity|]. split; [exact HI'|]. split; [constructor|exact HP'].
      - destruct (reserve_good K V keqb veqb h mincap rv keqb_eq veqb_eq Hmin m c HI) as [m' [Hr [HI' HP']]].
        rewrite Hr. do 3 eexists. split; [reflexivity|]. split; [exact HI'|]. split; [constructor|exact HP'].
      - destruct (lookup_spec K V keqb veqb h mincap rv keqb_eq Hfin m k HI) as [l [_ [Hv HPl]]].
        rewrite Hv. do 3 eexists. split; [reflexivity|]. split; [exact HI|]. split; [|apply Permutation_refl].
        destruct l as [|w l']; constructor; [apply Permutation_nil; exact HPl|].
        apply (Permutation_in _ HPl). left. reflexivity.
      - destruct (lookup_spec K V keqb veqb h mincap rv keqb_eq Hfin m k HI) as [l [Hvs [_ HPl]]].
        rewrite Hvs. do 3 eexists. split; [reflexivity|]. split; [exact HI|]. split; [|apply Permutation_refl].
        constructor. exact HPl. }
    destruct Hown as [m' [ob [s' [Hr [HI' [Hm HP']]]]]].
    destruct (mm_step_perm K V keqb veqb keqb_eq veqb_eq _ _ _ _ _ HP Hm) as [t' [Hm' HPt]].
    exists m', ob, t'. split; [exact Hr|]. split; [exact HI'|]. split; [exact Hm'|exact (Permutation_trans HP' HPt)].
  Qed.

  Theorem run_refines : forall (ops : list (op K V)) (m : omapT) (s : mm K V),
    PI m -> Permutation (absm m) s ->
    exists m' obl s', robs m ops = Done (m', obl) /\ PI m' /\ mrun s ops obl s' /\ Permutation (absm m') s'.
  Proof.
    induction ops as [|o r IH]; intros m s HI HP; cbn [run_obs].
    - exists m, [], s. split; [reflexivity|]. split; [exact HI|]. split; [constructor|exact HP].
    - destruct (step_refines m o s HI HP) as [m1 [ob [s1 [Hs [HI1 [Hm1 HP1]]]]]]. rewrite Hs.
      destruct (IH m1 s1 HI1 HP1) as [m2 [obl [s2 [Hr [HI2 [Hm2 HP2]]]]]]. rewrite Hr.
      exists m2, (ob :: obl), s2. split; [reflexivity|]. split; [exact HI2|]. split; [|exact HP2].
      econstructor; eassumption.
  Qed.

  (* ALL histories from the empty map *)
  Theorem table_refines_multimap : forall ops : list (op K V),
    exists m obl s, robs empty_map ops = Done (m, obl) /\ mrun [] ops obl s /\
                    Permutation (iter_all K V m) s /\ len m = length s /\ PI m.
  Proof.
    intros ops.
    destruct (run_refines ops empty_map [] (PInv_empty K V h mincap) (Permutation_refl _))
      as [m [obl [s [Hr [HI [Hm HP]]]]]].
    exists m, obl, s. split; [exact Hr|]. split; [exact Hm|]. split; [exact HP|]. split; [|exact HI].
    rewrite (PInv_len K V h mincap m HI). apply Permutation_length. exact HP.
  Qed.

  (* run_obs is `run` of OpenMap.v (the function of C19_probe_bound) with the observations kept *)
  Lemma step_obs_step : forall (m m' : omapT) o ob,
    sobs m o = Done (m', ob) -> step K V keqb veqb h mincap rv m o = Done m'.
  Proof.
    intros m m' o ob. unfold step. destruct o as [k v|k p v|k|k v|c|k|k]; cbn [step_obs step_fuel].
    - fold (insert K V h mincap m k v). destruct (insert K V h mincap m k v); intros Hs; inversion Hs; reflexivity.
    - fold (insert_or_replace K V keqb h mincap rv m k p v).
      destruct (insert_or_replace K V keqb h mincap rv m k p v) as [[m1 r]|]; intros Hs; inversion Hs; reflexivity.
    - fold (remove_key K V keqb h mincap rv m k).
      destruct (remove_key K V keqb h mincap rv m k); intros Hs; inversion Hs; reflexivity.
    - fold (remove_value K V keqb veqb h mincap rv m k v).
      destruct (remove_value K V keqb veqb h mincap rv m k v); intros Hs; inversion Hs; reflexivity.
    - destruct (reserve K V h mincap m c); intros Hs; inversion Hs; reflexivity.
    - fold (value K V keqb h m k). destruct (value K V keqb h m k); intros Hs; inversion Hs; reflexivity.
    - fold (values K V keqb h rv m k). destruct (values K V keqb h rv m k); intros Hs; inversion Hs; reflexivity.
  Qed.

  Lemma run_obs_run : forall ops (m m' : omapT) obl,
    robs m ops = Done (m', obl) -> run K V keqb veqb h mincap rv m ops = Done m'.
  Proof.
    unfold run. induction ops as [|o r IH]; intros m m' obl Hr; cbn [run_obs run_fuel] in *.
    - inversion Hr; reflexivity.
    - destruct (sobs m o) as [[m1 ob]|] eqn:Hs; [|discriminate].
      apply step_obs_step in Hs. unfold step in Hs. rewrite Hs.
      destruct (robs m1 r) as [[m2 obl2]|] eqn:Hr2; [|discriminate]. inversion Hr; subst.
      exact (IH m1 m' obl2 Hr2).
  Qed.

  Lemma run_obs_app : forall ops1 ops2 (m : omapT),
    robs m (ops1 ++ ops2) =
    match robs m ops1 with
    | Done (m1, obl1) => match robs m1 ops2 with
                         | Done (m2, obl2) => Done (m2, obl1 ++ obl2)
                         | OutOfFuel => OutOfFuel
                         end
    | OutOfFuel => OutOfFuel
    end.
  Proof.
    induction ops1 as [|o r IH]; intros ops2 m; cbn [app run_obs].
    - destruct (robs m ops2) as [[m2 obl2]|]; reflexivity.
    - destruct (sobs m o) as [[m1 ob]|]; [|reflexivity]. rewrite IH.
      destruct (robs m1 r) as [[m2 obl2]|]; [|reflexivity].
      destruct (robs m2 ops2) as [[m3 obl3]|]; reflexivity.
  Qed.

  Lemma existsb_in : forall (l : list V) v, existsb (fun w => veqb w v) l = true <-> In v l.
  Proof.
    intros l v. rewrite existsb_exists. split.
    - intros [w [Hin Hw]]. apply veqb_eq in Hw. subst. exact Hin.
    - intros Hin. exists v. split; [exact Hin|apply veqb_eq; reflexivity].
  Qed.

  Lemma contains_value_in : forall k v (s : mm K V), mm_contains_value K V keqb veqb k v s = true <-> In (k, v) s.
  Proof.
    intros k v s. unfold mm_contains_value. rewrite existsb_exists. split.
    - intros [[k' v'] [Hin Hm]]. cbn in Hm. apply andb_true_iff in Hm. destruct Hm as [Hk Hv].
      apply keqb_eq in Hk. apply veqb_eq in Hv. subst. exact Hin.
    - intros Hin. exists (k, v). split; [exact Hin|]. cbn.
      rewrite (keqb_refl K keqb keqb_eq), (veqb_refl V veqb veqb_eq). reflexivity.
  Qed.

  (* on every table satisfying the invariant (in particular after every history, table_refines_multimap) *)
  Theorem lookup_finds_exactly_stored : forall (m : omapT) (k : K), PI m ->
    exists l, values K V keqb h rv m k = Done l /\
              value K V keqb h m k = Done (hd_error l) /\
              Permutation l (vals k (iter_all K V m)) /\
              (forall v, In v l <-> In (k, v) (iter_all K V m)) /\
              (forall v, contains_value K V keqb veqb h rv m k v =
                         Done (mm_contains_value K V keqb veqb k v (iter_all K V m))) /\
              values_count K V keqb h rv m k = Done (length (vals k (iter_all K V m))) /\
              len m = length (iter_all K V m).
  Proof.
    intros m k HI.
    destruct (lookup_spec K V keqb veqb h mincap rv keqb_eq Hfin m k HI) as [l [Hvs [Hv HPl]]].
    change (absm m) with (iter_all K V m) in HPl.
    assert (Hiff : forall v, In v l <-> In (k, v) (iter_all K V m)).
    { intros v. rewrite <- (in_vals K V keqb keqb_eq). split; intros Hin.
      - exact (Permutation_in _ HPl Hin).
      - exact (Permutation_in _ (Permutation_sym HPl) Hin). }
    exists l. split; [exact Hvs|]. split; [exact Hv|]. split; [exact HPl|]. split; [exact Hiff|].
    split; [|split].
    - intros v. unfold contains_value. rewrite Hvs. f_equal.
      apply eq_iff_eq_true. rewrite existsb_in, contains_value_in. apply Hiff.
    - unfold values_count. rewrite Hvs. f_equal. apply Permutation_length. exact HPl.
    - exact (PInv_len K V h mincap m HI).
  Qed.

  (* every lookup returns in m' the values it returns in m (values as multisets; value is None in both or neither) *)
  Definition same_lookups (m m' : omapT) : Prop :=
    forall k, exists l l', values K V keqb h rv m k = Done l /\ values K V keqb h rv m' k = Done l' /\
                           Permutation l' l /\
                           value K V keqb h m k = Done (hd_error l) /\
                           value K V keqb h m' k = Done (hd_error l') /\
                           (hd_error l' = None <-> hd_error l = None).

  Lemma lookups_agree : forall m m', PI m -> PI m' -> Permutation (absm m') (absm m) -> same_lookups m m'.
  Proof.
    intros m m' HI HI' HP k.
    destruct (lookup_spec K V keqb veqb h mincap rv keqb_eq Hfin m k HI) as [l [Hvs [Hv HPl]]].
    destruct (lookup_spec K V keqb veqb h mincap rv keqb_eq Hfin m' k HI') as [l' [Hvs' [Hv' HPl']]].
    assert (HPll : Permutation l' l).
    { eapply Permutation_trans; [exact HPl'|]. eapply Permutation_trans; [apply vals_perm; exact HP|].
      apply Permutation_sym. exact HPl. }
    exists l, l'. repeat split; auto.
    - destruct l as [|x l0]; [reflexivity|]. destruct l' as [|y l1]; [|discriminate].
      apply Permutation_nil in HPll. discriminate.
    - destruct l' as [|y l1]; [reflexivity|]. destruct l as [|x l0]; [|discriminate].
      apply Permutation_sym, Permutation_nil in HPll. discriminate.
  Qed.

End Refine.

Section FiniteMap.
  Variables K V : Type.
  Variable keqb : K -> K -> bool.
  Variable veqb : V -> V -> bool.
  Hypothesis keqb_eq : forall a b, keqb a b = true <-> a = b.
  Hypothesis veqb_eq : forall a b, veqb a b = true <-> a = b.

  Notation vals := (mm_values K V keqb).
  Notation rem1 := (mm_remove_one K V keqb veqb).
  Notation rmk := (mm_remove_key K V keqb).
  Notation fget := (fm_get K V keqb).

  Definition UK (s : mm K V) : Prop := NoDup (map fst s).

  Lemma keqb_false : forall a b, a <> b -> keqb a b = false.
  Proof. intros a b Hne. destruct (keqb a b) eqn:Hk; [apply keqb_eq in Hk; contradiction|reflexivity]. Qed.

  Lemma in_key : forall k v (s : mm K V), In (k, v) s -> In k (map fst s).
  Proof. intros k v s Hin. apply in_map_iff. exists (k, v). auto. Qed.

  Lemma key_in : forall k (s : mm K V), In k (map fst s) -> exists v, In (k, v) s.
  Proof. intros k s Hin. apply in_map_iff in Hin. destruct Hin as [[k' v] [Hk Hin]]. cbn in Hk. subst. eauto. Qed.

  Lemma remove_key_nokey : forall k s, ~ In k (map fst s) -> rmk k s = s.
  Proof.
    intros k. induction s as [|[k' v'] t IH]; intros Hn; [reflexivity|]. cbn [mm_remove_key filter fst].
    cbn [map fst In] in Hn. rewrite keqb_false by (intros ->; apply Hn; left; reflexivity). cbn [negb].
    f_equal. apply IH. intros Hin. apply Hn. right. exact Hin.
  Qed.

  Lemma remove_key_in : forall k k' v s, In (k', v) (rmk k s) <-> In (k', v) s /\ k' <> k.
  Proof.
    intros k k' v s. unfold mm_remove_key. rewrite filter_In. cbn [fst]. split.
    - intros [Hin Hk]. split; [exact Hin|]. intros ->. rewrite (keqb_refl K keqb keqb_eq k) in Hk. discriminate.
    - intros [Hin Hne]. split; [exact Hin|]. rewrite keqb_false by exact Hne. reflexivity.
  Qed.

  Lemma UK_remove_key : forall k s, UK s -> UK (rmk k s).
  Proof.
    intros k. unfold UK. induction s as [|[k' v'] t IH]; intros Hnd; [constructor|].
    cbn [map fst] in Hnd. inversion Hnd as [|x l Hnin Hnd']; subst. cbn [mm_remove_key filter fst].
    destruct (negb (keqb k' k)); [|apply IH; exact Hnd'].
    cbn [map fst]. constructor; [|apply IH; exact Hnd'].
    intros Hin. apply key_in in Hin. destruct Hin as [v Hin]. apply remove_key_in in Hin.
    apply Hnin. exact (in_key _ _ _ (proj1 Hin)).
  Qed.

  Lemma remove_key_nokey_after : forall k s, ~ In k (map fst (rmk k s)).
  Proof. intros k s Hin. apply key_in in Hin. destruct Hin as [v Hin]. apply remove_key_in in Hin. tauto. Qed.

  (* with unique keys, removing THE pair of k = removing all pairs of k *)
  Lemma rem1_remove_key : forall k w s, UK s -> In (k, w) s -> rem1 k w s = rmk k s.
  Proof.
    intros k w. unfold UK. induction s as [|[k' v'] t IH]; intros Hnd Hin; [contradiction|].
    cbn [map fst] in Hnd. inversion Hnd as [|x l Hnin Hnd']; subst.
    cbn [mm_remove_one mm_remove_key filter fst].
    destruct (keqb k' k) eqn:Hk.
    - apply keqb_eq in Hk. subst k'. cbn [negb].
      destruct Hin as [Heq|Hin]; [|exfalso; apply Hnin; exact (in_key _ _ _ Hin)].
      inversion Heq; subst v'. rewrite (veqb_refl V veqb veqb_eq w). cbn [andb].
      symmetry. apply remove_key_nokey. exact Hnin.
    - cbn [andb negb]. f_equal. apply IH; [exact Hnd'|].
      destruct Hin as [Heq|Hin]; [|exact Hin]. inversion Heq; subst.
      rewrite (keqb_refl K keqb keqb_eq k) in Hk. discriminate.
  Qed.

  Lemma fm_get_in : forall k w t, UK t -> In (k, w) t -> fget k t = Some w.
  Proof.
    intros k w. unfold UK. induction t as [|[k' v'] t IH]; intros Hnd Hin; [contradiction|].
    cbn [map fst] in Hnd. inversion Hnd as [|x l Hnin Hnd']; subst. cbn [fm_get].
    destruct (keqb k' k) eqn:Hk.
    - apply keqb_eq in Hk. subst k'.
      destruct Hin as [Heq|Hin]; [inversion Heq; reflexivity|exfalso; apply Hnin; exact (in_key _ _ _ Hin)].
    - apply IH; [exact Hnd'|]. destruct Hin as [Heq|Hin]; [|exact Hin]. inversion Heq; subst.
      rewrite (keqb_refl K keqb keqb_eq k) in Hk. discriminate.
  Qed.

  Lemma fm_get_none : forall k t, ~ In k (map fst t) -> fget k t = None.
  Proof.
    intros k. induction t as [|[k' v'] t IH]; intros Hn; [reflexivity|]. cbn [fm_get].
    cbn [map fst In] in Hn. rewrite keqb_false by (intros ->; apply Hn; left; reflexivity).
    apply IH. intros Hin. apply Hn. right. exact Hin.
  Qed.

  Lemma UK_perm : forall s t, Permutation s t -> UK s -> UK t.
  Proof. intros s t HP. unfold UK. apply Permutation_NoDup. apply Permutation_map. exact HP. Qed.

  Lemma vals_nil_nokey : forall k s, vals k s = [] -> ~ In k (map fst s).
  Proof.
    intros k s Hnil Hin. apply key_in in Hin. destruct Hin as [v Hin].
    apply (in_vals K V keqb keqb_eq) in Hin. rewrite Hnil in Hin. contradiction.
  Qed.

  Lemma fm_get_set_same : forall k v s, fget k (fm_set K V keqb k v s) = Some v.
  Proof. intros. cbn. rewrite (keqb_refl K keqb keqb_eq k). reflexivity. Qed.

  Lemma fm_get_remove_other : forall k k' s, k' <> k -> fget k' (fm_remove K V keqb k s) = fget k' s.
  Proof.
    intros k k' s Hne. unfold fm_remove, mm_remove_key. induction s as [|[k2 v2] t IH]; [reflexivity|].
    cbn [filter fst fm_get]. destruct (keqb k2 k) eqn:Hk; cbn [negb].
    - apply keqb_eq in Hk. subst k2. rewrite keqb_false by (intros Heq; apply Hne; symmetry; exact Heq). exact IH.
    - cbn [fm_get]. destruct (keqb k2 k'); [reflexivity|exact IH].
  Qed.

  Lemma fm_get_set_other : forall k k' v s, k' <> k -> fget k' (fm_set K V keqb k v s) = fget k' s.
  Proof.
    intros k k' v s Hne. unfold fm_set. cbn [fm_get].
    rewrite keqb_false by (intros Heq; apply Hne; symmetry; exact Heq). apply fm_get_remove_other. exact Hne.
  Qed.

  Lemma fm_get_remove_same : forall k s, fget k (fm_remove K V keqb k s) = None.
  Proof. intros. apply fm_get_none. apply remove_key_nokey_after. Qed.

  (* on unique keys the multimap step of a MapImpl operation is the finite-map step: its observation and its
     result are determined *)
  Lemma mm_step_fm : forall (o : mop K V) t ob t',
    UK t -> mm_step K V keqb veqb t (mop_op K V o) ob t' -> fm_step K V keqb t o = (ob, t') /\ UK t'.
  Proof.
    intros o t ob t' Hu Hstep.
    destruct o as [k v|k|k|c]; cbn [mop_op] in Hstep; inversion Hstep; subst; cbn [fm_step].
    - (* insert over an existing binding *)
      match goal with Hin : In _ (vals k t) |- _ => apply (in_vals K V keqb keqb_eq) in Hin; rename Hin into Hks end.
      rewrite (fm_get_in k w t Hu Hks). unfold mm_insert, fm_set, fm_remove. rewrite (rem1_remove_key k w t Hu Hks).
      split; [reflexivity|]. unfold UK. cbn [map fst].
      constructor; [apply remove_key_nokey_after|apply UK_remove_key; exact Hu].
    - (* insert of a new key *)
      assert (Hn : ~ In k (map fst t)).
      { intros Hin. apply key_in in Hin. destruct Hin as [w Hin]. apply (in_vals K V keqb keqb_eq) in Hin.
        match goal with Hnone : forall w, In w (vals k t) -> _ |- _ => specialize (Hnone w Hin); discriminate end. }
      rewrite (fm_get_none k t Hn). unfold mm_insert, fm_set, fm_remove. rewrite (remove_key_nokey k t Hn).
      split; [reflexivity|]. unfold UK. cbn [map fst]. constructor; assumption.
    - split; [reflexivity|apply UK_remove_key; exact Hu].
    - match goal with Hnil : vals k t' = [] |- _ => rewrite (fm_get_none k t' (vals_nil_nokey k t' Hnil)) end. auto.
    - match goal with Hin : In _ (vals k t') |- _ => apply (in_vals K V keqb keqb_eq) in Hin; rewrite (fm_get_in k w t' Hu Hin) end.
      auto.
    - auto.
  Qed.

  Lemma mm_run_fm : forall (mops : list (mop K V)) t obl t',
    UK t -> mm_run K V keqb veqb t (map (mop_op K V) mops) obl t' -> fm_run K V keqb t mops = (obl, t') /\ UK t'.
  Proof.
    induction mops as [|o r IH]; intros t obl t' Hu Hrun; cbn [map] in Hrun; inversion Hrun; subst; cbn [fm_run].
    - auto.
    - match goal with Hs : mm_step _ _ _ _ t _ _ _ |- _ => destruct (mm_step_fm o t _ _ Hu Hs) as [Hfs Hu1] end.
      rewrite Hfs.
      match goal with Hr : mm_run _ _ _ _ _ _ _ _ |- _ => destruct (IH _ _ _ Hu1 Hr) as [Hfr Hu2] end.
      rewrite Hfr. auto.
  Qed.

End FiniteMap.
