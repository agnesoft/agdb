(* StorageReopen.v — loading a tiled file
   (Storage::with_data / read_records) rebuilds a table and free maps that describe the
   same regions; hence closing and opening a storage preserves every live value. *)
From Agdb Require Import Bytes BytesProofs Records RecordsProofs RecordsTableProofs RecordsLoadProofs Storage StorageSpec
  StorageLayout StorageWp StorageOps StorageOps2.
From Coq Require Import ZifyBool ZifyNat ZifyN.
Open Scope N_scope.
Arguments N.div : simpl never.

(* the table after the regions rg, the first one at pos, have been entered into rs *)
Fixpoint load (rg : list region) (pos : N) (rs : records) : records :=
  match rg with
  | [] => rs
  | (i, v) :: t => load t (pos + 16 + lenN v) (set_record rs {| r_index := i; r_pos := pos; r_size := lenN v |})
  end.

Lemma slen_ge rg : 16 * lenN rg <= slen rg.
Proof.
  induction rg as [|r t IH]; [unfold lenN, slen; cbn; lia|].
  rewrite slen_cons. unfold lenN in *. cbn [length]. lia.
Qed.

Section LoadInv.
  Variable rg : list region.
  Variable cap : N.
  Hypothesis Hcap1 : 1 <= cap.
  Hypothesis Hbound : forall q i n, In (q, i, n) (layout 24 rg) -> i + 1 <= cap.
  Hypothesis Huniq : forall q i n q' n', i <> 0 -> In (q, i, n) (layout 24 rg) -> In (q', i, n') (layout 24 rg) -> q = q' /\ n = n'.

  Definition linv (rs : records) (A : list region) : Prop :=
    (exists r0, nth_error (recs rs) 0 = Some r0 /\ r_index r0 = 0) /\
    (forall q i n, i <> 0 -> In (q, i, n) (layout 24 A) ->
                   nth_error (recs rs) (N.to_nat i) = Some {| r_index := i; r_pos := q; r_size := n |}) /\
    (forall k r, nth_error (recs rs) k = Some r ->
                 r_index r = 0 \/ (r_index r = N.of_nat k /\ In (r_pos r, r_index r, r_size r) (layout 24 A))) /\
    fwf rs /\ (forall q n, In (q, 0, n) (layout 24 A) <-> m_get (fps rs) q = Some n) /\
    lenN (recs rs) <= cap.

  Lemma linv_new : linv records_new [].
  Proof.
    unfold linv. cbn [recs records_new layout].
    split; [exists rec0; split; reflexivity|]. split; [intros q i n _ []|].
    split. { intros [|[|k]] r; cbn [nth_error]; try discriminate. intros [= <-]. left; reflexivity. }
    split; [apply fwf_new|]. split; [intros q n; cbn; split; [tauto|discriminate]|].
    unfold lenN. cbn [length]. lia.
  Qed.

  Lemma linv_load B : forall A rs, rg = A ++ B -> linv rs A -> linv (load B (24 + slen A) rs) rg.
  Proof.
    induction B as [|[i v] B IH]; intros A rs Erg LI; cbn [load].
    - rewrite app_nil_r in Erg. subst A. exact LI.
    - assert (Erg' : rg = (A ++ [(i, v)]) ++ B) by (rewrite <- app_assoc; exact Erg).
      replace (24 + slen A + 16 + lenN v) with (24 + slen (A ++ [(i, v)]))
        by (rewrite slen_snoc; lia).
      apply IH; [exact Erg'|].
      destruct LI as ((r0 & H0 & Hr0) & Hb & Hc & FW & Hd & He).
      set (pos := 24 + slen A). set (r := {| r_index := i; r_pos := pos; r_size := lenN v |}).
      assert (Hin_rg : In (pos, i, lenN v) (layout 24 rg)).
      { rewrite Erg. inl. right; left; reflexivity. }
      assert (HA_rg : forall q k n, In (q, k, n) (layout 24 A) -> In (q, k, n) (layout 24 rg)).
      { intros q k n H. rewrite Erg. inl. left; exact H. }
      destruct (N.eqb_spec i 0) as [->|Hi].
      + (* a free region *)
        rewrite (set_record_free rs r eq_refl). cbn [r r_pos r_size].
        assert (Hnone : m_get (fps rs) pos = None).
        { destruct (m_get (fps rs) pos) as [n|] eqn:E; [|reflexivity]. apply Hd in E.
          apply layout_range in E. unfold pos in *. lia. }
        unfold linv. cbn [recs mark_free].
        split; [exists r0; auto|].
        split. { intros q k n Hk H. apply Hb; [exact Hk|]. revert H. inl. intros [H|[H|[]]]; [exact H|congruence]. }
        split. { intros k r' Hr'. destruct (Hc k r' Hr') as [Z|[Z1 Z2]]; [left; exact Z|right; split; [exact Z1|]]. inl. left; exact Z2. }
        split; [apply fwf_mark_free; assumption|].
        split; [|exact He].
        intros q n. rewrite fps_mark_free. inl. fold pos. destruct (N.eqb_spec pos q) as [<-|Hq].
        * split; [|intros [= <-]; right; left; reflexivity].
          intros [H|[H|[]]]; [apply layout_range in H; unfold pos in *; lia|congruence].
        * rewrite <- (Hd q n). split; [intros [H|[H|[]]]; [exact H|congruence]|intros H; left; exact H].
      + (* a live record *)
        destruct (set_record_live rs r Hi) as (Ef & Es & El & NE). cbn [r r_index] in El, NE.
        assert (Hlt0 : (0 < length (recs rs))%nat) by (apply nth_error_Some_lt in H0; exact H0).
        unfold linv.
        split.
        { exists r0. split; [|exact Hr0]. rewrite NE. destruct (Nat.eqb_spec 0 (N.to_nat i)); [lia|].
          destruct (Nat.ltb_spec 0 (length (recs rs))); [exact H0|lia]. }
        split.
        { intros q k n Hk H. revert H. inl. fold pos. intros [H|[H|[]]].
          - assert (k <> i).
            { intros ->. destruct (Huniq _ _ _ _ _ Hi (HA_rg _ _ _ H) Hin_rg) as [Eq _].
              apply layout_range in H. unfold pos in *. lia. }
            pose proof (Hb q k n Hk H) as Hs. rewrite NE. destruct (Nat.eqb_spec (N.to_nat k) (N.to_nat i)); [lia|].
            apply nth_error_Some_lt in Hs as Hl. destruct (Nat.ltb_spec (N.to_nat k) (length (recs rs))); [exact Hs|lia].
          - injection H as <- <- <-. rewrite NE, Nat.eqb_refl. reflexivity. }
        split.
        { intros k r' Hr'. rewrite NE in Hr'. destruct (Nat.eqb_spec k (N.to_nat i)) as [->|Hk].
          - injection Hr' as <-. right. cbn [r r_index r_pos r_size]. split; [lia|]. inl. right; left; reflexivity.
          - destruct (Nat.ltb_spec k (length (recs rs))).
            + destruct (Hc k r' Hr') as [Z|[Z1 Z2]]; [left; exact Z|right; split; [exact Z1|]]. inl. left; exact Z2.
            + destruct (Nat.ltb_spec k (S (N.to_nat i))); [|discriminate]. injection Hr' as <-. left; reflexivity. }
        split; [unfold fwf; rewrite Ef, Es; exact FW|].
        split.
        { intros q n. rewrite Ef, <- (Hd q n). inl. split; [intros [H|[H|[]]]; [exact H|congruence]|intros H; left; exact H]. }
        unfold lenN in *. rewrite El. pose proof (Hbound _ _ _ Hin_rg). lia.
  Qed.

  (* the loaded and rebuilt table describes the layout *)
  Lemma load_table : cap < two64 ->
    let T := rebuild_free_index (load rg 24 records_new) in
    trel T (layout 24 rg) /\ rwf T.
  Proof.
    intros Hcap T.
    pose proof (linv_load rg [] records_new eq_refl linv_new) as LI. rewrite slen_nil, N.add_0_r in LI.
    set (L := load rg 24 records_new) in *.
    destruct LI as ((r0 & H0 & Hr0) & Hb & Hc & FW & Hd & He).
    assert (Hlen : (1 <= length (recs L))%nat) by (apply nth_error_Some_lt in H0; lia).
    assert (PW : pwf (recs L) 1).
    { exists r0, []. split; [exact H0|]. split; [rewrite Hr0; constructor|]. split; [constructor|]. split; [intros x []|].
      intros i r Hi Hr. split; [intros; lia|]. intros _.
      destruct (Hc i r Hr) as [Z|[Z _]]; [left; exact Z|right; exact Z]. }
    destruct (rebuild_from_spec (length (recs L) - 1) 1 L PW ltac:(lia) ltac:(lia)) as (P & LL & F1 & F2 & LV).
    fold (rebuild_free_index L) in P, LL, F1, F2, LV. fold T in P, LL, F1, F2, LV.
    split.
    - split.
      + intros q i n Hi. rewrite LV. split.
        * intros H. apply live_at_some. split; [exact Hi|]. apply Hb; assumption.
        * intros H. apply live_at_some in H. destruct H as [_ H].
          destruct (Hc _ _ H) as [Z|[_ Z]]; [cbn in Z; congruence|exact Z].
      + intros q n. rewrite F1. apply Hd.
    - split.
      + apply pwf_twf; [unfold lenN in *; rewrite LL; lia|rewrite LL; exact P].
      + unfold fwf. rewrite F1, F2. exact FW.
  Qed.
End LoadInv.

Section Reopen.
  Variable ops : store_ops cdata.
  Hypothesis CN : canon ops.

  (* the strict calculus: the computation returns normally.  StorageWp.wp allows a panic, and here
     the conclusion is that opening succeeds, so the rules are stated again for the primitives
     that loading uses *)
  Definition wps {A} (m : MM A) (s : ST) (Q : ST -> A -> Prop) : Prop :=
    match m s with (s', ROk a) => Q s' a | _ => False end.
  Lemma wps_bind {A B} (m : MM A) (f : A -> MM B) s Q : wps m s (fun s' a => wps (f a) s' Q) -> wps (bind cdata m f) s Q.
  Proof. unfold wps, bind. destruct (m s) as [s' [a|e| |]]; auto. Qed.
  Lemma wps_ret {A} (a : A) s (Q : ST -> A -> Prop) : Q s a -> wps (ret cdata a) s Q.
  Proof. exact (fun H => H). Qed.
  Lemma wps_get_len s (Q : ST -> N -> Prop) : Q s (lenN (cur (sdata s))) -> wps (get_len cdata ops) s Q.
  Proof. unfold wps, get_len. rewrite (cn_len _ CN). exact (fun H => H). Qed.
  Lemma wps_get_rtab s (Q : ST -> records -> Prop) : Q s (rtab s) -> wps (get_rtab cdata) s Q.
  Proof. exact (fun H => H). Qed.
  Lemma wps_put_rtab r s (Q : ST -> unit -> Prop) : Q (set_rtab cdata s r) tt -> wps (put_rtab cdata r) s Q.
  Proof. exact (fun H => H). Qed.
  Lemma wps_dread pos n s (Q : ST -> bytes -> Prop) :
    pos + n <= lenN (cur (sdata s)) -> Q s (bs_read (cur (sdata s)) (N.to_nat pos) (N.to_nat n)) -> wps (dread cdata ops pos n) s Q.
  Proof.
    intros Hp HQ. unfold wps, dread. rewrite (cn_read _ CN). unfold c_read.
    destruct (N.leb_spec (pos + n) (lenN (cur (sdata s)))); [exact HQ|lia].
  Qed.

  (* reading a record header *)
  Lemma wps_read_record pre i n post pos s (Q : ST -> srec -> Prop) :
    cur (sdata s) = pre ++ (le64 i ++ le64 n) ++ post -> N.to_nat pos = length pre -> i < two64 -> n < two64 ->
    Q s {| r_index := i; r_pos := pos; r_size := n |} -> wps (read_record cdata ops pos) s Q.
  Proof.
    intros Hc Hp Hi Hn HQ. unfold read_record. apply wps_bind, wps_dread.
    { rewrite Hc, !lenN_app, !lenN_le64. unfold lenN. lia. }
    rewrite Hc, bs_read_mid; [|exact Hp|rewrite app_length, !le64_length; reflexivity].
    apply wps_ret.
    rewrite (firstn_app_exact (le64 i)) by (rewrite le64_length; reflexivity).
    rewrite (skipn_app_exact (le64 i)) by (rewrite le64_length; reflexivity).
    rewrite firstn_all2 by (rewrite le64_length; lia).
    rewrite !de_le64 by assumption. exact HQ.
  Qed.

  (* the loop of read_records over the regions B that follow the regions A *)
  Lemma load_records_spec B : forall A s fuel (Q : ST -> unit -> Prop),
    cur (sdata s) = vrec ++ ser (A ++ B) -> (length B < fuel)%nat ->
    (forall i v, In (i, v) B -> i < two64 /\ lenN v < two64) ->
    Q (set_rtab cdata s (load B (24 + slen A) (rtab s))) tt ->
    wps (load_records cdata ops fuel (lenN (cur (sdata s))) (24 + slen A)) s Q.
  Proof.
    induction B as [|[i v] B IH]; intros A s fuel Q Hcur Hfuel Hb HQ.
    - destruct fuel as [|f]; [lia|]. cbn [load_records].
      assert (HL : lenN (cur (sdata s)) = 24 + slen A).
      { rewrite Hcur, app_nil_r, lenN_app, lenN_vrec. reflexivity. }
      rewrite HL. destruct (N.ltb_spec (24 + slen A) (24 + slen A)); [lia|].
      apply wps_ret. cbn [load] in HQ. destruct s; exact HQ.
    - destruct fuel as [|f]; [cbn [length] in Hfuel; lia|]. cbn [load_records].
      destruct (Hb i v (or_introl eq_refl)) as [Hi64 Hv64].
      assert (Hcur2 : cur (sdata s) = (vrec ++ ser A) ++ (le64 i ++ le64 (lenN v)) ++ (v ++ ser B)).
      { rewrite Hcur, ser_app. cbn [ser]. unfold enc. cbn [fst snd]. rewrite <- !app_assoc. reflexivity. }
      assert (HL : lenN (cur (sdata s)) = 24 + slen A + 16 + lenN v + slen B).
      { rewrite Hcur2, !lenN_app, !lenN_le64, lenN_vrec. unfold slen. lia. }
      destruct (N.ltb_spec (24 + slen A) (lenN (cur (sdata s)))) as [_|]; [|lia].
      apply wps_bind, (wps_read_record (vrec ++ ser A) i (lenN v) (v ++ ser B));
        [exact Hcur2|rewrite length_vrec_ser; reflexivity|assumption|assumption|]. cbn [r_size].
      destruct (N.ltb_spec (lenN (cur (sdata s)) - (24 + slen A) + 16) (lenN v)); [lia|].
      apply wps_bind. apply wps_bind, wps_get_rtab, wps_put_rtab.
      unfold r_end. cbn [r_pos r_size].
      replace (24 + slen A + 16 + lenN v) with (24 + slen (A ++ [(i, v)]))
        by (rewrite slen_snoc; lia).
      change (lenN (cur (sdata s))) with (lenN (cur (sdata (set_rtab cdata s (set_record (rtab s) {| r_index := i; r_pos := 24 + slen A; r_size := lenN v |}))))).
      apply IH.
      + st. rewrite <- app_assoc. exact Hcur.
      + cbn [length] in Hfuel. lia.
      + intros k w Hkw. apply Hb. right; exact Hkw.
      + st. cbn [load] in HQ.
        replace (24 + slen (A ++ [(i, v)])) with (24 + slen A + 16 + lenN v)
          by (rewrite slen_snoc; lia).
        exact HQ.
  Qed.

  (* opening a file whose content is a tiling *)
  Lemma with_data_spec s0 rg d :
    tiles s0 rg -> cur d = cur (sdata s0) ->
    exists s', with_data cdata ops d = (s', ROk tt) /\ tiles s' rg /\ tx s' = 0 /\ sdata s' = d.
  Proof.
    intros T0 Hd. pose proof (tiles_elim _ _ T0) as (Hcur0 & Hlen0 & [TL0 TF0] & [TW0 FW0] & Hv0).
    set (cap := lenN (recs (rtab s0))).
    assert (Hcap : cap < two64) by (destruct TW0 as [H _]; exact H).
    assert (Hcap1 : 1 <= cap).
    { destruct TW0 as (_ & r0 & fl & H0 & _). apply nth_error_Some_lt in H0. unfold cap, lenN. lia. }
    assert (Hbound : forall q i n, In (q, i, n) (layout 24 rg) -> i + 1 <= cap).
    { intros q i n H. destruct (N.eqb_spec i 0) as [->|Hi]; [lia|]. apply TL0 in H; [|exact Hi].
      apply live_at_lt in H. unfold cap. lia. }
    assert (Huniq : forall q i n q' n', i <> 0 -> In (q, i, n) (layout 24 rg) -> In (q', i, n') (layout 24 rg) -> q = q' /\ n = n').
    { intros q i n q' n' Hi H1 H2. apply TL0 in H1, H2; try assumption. rewrite H1 in H2. injection H2 as <- <-. auto. }
    assert (Hsz : forall i v, In (i, v) rg -> i < two64 /\ lenN v < two64).
    { intros i v H. destruct (In_layout 24 _ _ _ H) as (q & Hq). pose proof (Hbound _ _ _ Hq).
      apply layout_range in Hq. rewrite Hcur0, lenN_app, lenN_vrec in Hlen0. unfold slen in *. lia. }
    destruct (load_table rg cap Hcap1 Hbound Huniq Hcap) as [TR RW].
    set (T := rebuild_free_index (load rg 24 records_new)) in *.
    set (sF := {| sdata := d; rtab := T; tx := 0; version := 1 |}).
    assert (W : wps (read_records cdata ops) {| sdata := d; rtab := records_new; tx := 0; version := 0 |}
                   (fun s' _ => s' = sF)).
    { assert (Hc : cur d = vrec ++ ser rg) by congruence.
      assert (HL24 : 24 <= lenN (cur d)) by (rewrite Hc, lenN_app, lenN_vrec; lia).
      unfold read_records. apply wps_bind, wps_get_len. st.
      apply wps_bind. destruct (N.leb_spec 16 (lenN (cur d))) as [_|]; [|lia].
      apply wps_bind, (wps_read_record [] 0 8 (le64 1 ++ ser rg));
        [st; rewrite Hc; reflexivity|reflexivity|unfold two64; lia|unfold two64; lia|]. cbn [r_index]. rewrite N.eqb_refl.
      apply wps_bind. unfold extract_version. cbn [r_size]. destruct (N.ltb_spec 8 8); [lia|].
      apply wps_bind. unfold read_value, value_start. cbn [r_pos r_size]. apply wps_dread; [st; lia|]. st.
      assert (Ev : bs_read (cur d) (N.to_nat (0 + 16)) (N.to_nat 8) = le64 1).
      { rewrite Hc. unfold vrec.
        change ((le64 0 ++ le64 8 ++ le64 1) ++ ser rg) with ((le64 0 ++ le64 8) ++ le64 1 ++ ser rg).
        apply bs_read_mid; reflexivity. }
      rewrite Ev. apply wps_ret. rewrite firstn_all2 by (rewrite le64_length; lia).
      rewrite de_le64 by (unfold two64; lia).
      unfold wps. st.
      (* the version is current *)
      apply wps_bind. unfold wps at 1, validate_or_update_version. st. unfold CURRENT_VERSION.
      destruct (N.ltb_spec 1 1); [lia|]. rewrite N.eqb_refl.
      apply wps_bind, wps_get_len. st.
      apply wps_bind.
      change (r_end version_record) with (24 + slen []).
      set (s1 := set_version cdata {| sdata := d; rtab := records_new; tx := 0; version := 0 |} 1).
      change (lenN (cur d)) with (lenN (cur (sdata s1))).
      apply (load_records_spec rg [] s1).
      - exact Hc.
      - pose proof (slen_ge rg) as G. change (cur (sdata s1)) with (cur d). rewrite Hc, lenN_app, lenN_vrec. fold (slen rg). unfold lenN in *.
        assert (N.of_nat (length rg) <= (24 + slen rg) / 16) by (apply N.div_le_lower_bound; lia). lia.
      - exact Hsz.
      - st. rewrite slen_nil, N.add_0_r. apply wps_bind, wps_get_rtab. st. apply wps_put_rtab. reflexivity. }
    unfold with_data. unfold wps in W.
    destruct (read_records cdata ops {| sdata := d; rtab := records_new; tx := 0; version := 0 |}) as [s' [[]|e| |]];
      [|destruct W|destruct W|destruct W]. rewrite W.
    exists sF. split; [reflexivity|]. split; [|split; reflexivity].
    apply tiles_intro; unfold sF; st.
    - congruence.
    - congruence.
    - exact TR.
    - exact RW.
    - reflexivity.
  Qed.
End Reopen.
