(* StorageRefine.v — the refinement relation between the storage model and the abstract map
   (StorageSpec.v); one step of every operation but optimize and reopen refines one step of the
   specification (those two and the histories: StorageProofs.v). *)
From Agdb Require Import Bytes BytesProofs Records RecordsProofs RecordsTableProofs Storage StorageSpec
  StorageLayout StorageWp StorageOps StorageOps2.
From Coq Require Import ZifyBool ZifyNat ZifyN.
Open Scope N_scope.

(* the abstract map holds exactly the live regions *)
Definition agree (rg : list region) (m : vmap) : Prop :=
  m_get m 0 = None /\ forall j, j <> 0 -> m_get m j = m_get rg j.

(* the refinement relation: the file tiles and its live values are the specification's map;
   the transaction depths agree; the durable content is a tiling of the committed map; at
   depth 0 nothing is uncommitted *)
Definition Rel (s : ST) (sp : spec) : Prop :=
  (exists rg, tiles s rg /\ agree rg (sm sp)) /\
  tx s = sdepth sp /\
  (exists s0 rg0, tiles s0 rg0 /\ cur (sdata s0) = dur (sdata s) /\ agree rg0 (scommitted sp)) /\
  (sdepth sp = 0 -> dur (sdata s) = cur (sdata s) /\ scommitted sp = sm sp).

Lemma Rel_mutate s sp F s' m' :
  Rel s sp -> opost s F s' -> m_get m' 0 = None -> (forall j, j <> 0 -> m_get m' j = F j) ->
  Rel s' (mutate sp m').
Proof.
  intros (_ & Htx & (s0 & rg0 & T0 & Hc0 & Ag0) & H0) (rg' & T' & HF & Htx' & Hdur') Hm0 Hm.
  assert (Ag' : agree rg' m') by (split; [exact Hm0|intros j Hj; rewrite (Hm j Hj), (HF j Hj); reflexivity]).
  unfold Rel, mutate. cbn [sm sdepth scommitted]. rewrite Htx in Hdur'.
  split; [exists rg'; auto|]. split; [congruence|].
  destruct (N.eqb_spec (sdepth sp) 0) as [E0|N0].
  - split; [exists s', rg'; auto|]. intros _. auto.
  - split; [exists s0, rg0; split; [exact T0|]; split; [congruence|exact Ag0]|]. intros E. congruence.
Qed.

Lemma agree_put rg m i v (F : N -> option bytes) :
  agree rg m -> i <> 0 -> (forall j, j <> 0 -> F j = if j =? i then Some v else m_get rg j) ->
  m_get (m_put m i v) 0 = None /\ (forall j, j <> 0 -> m_get (m_put m i v) j = F j).
Proof.
  intros [A0 A] Hi HF. split.
  - rewrite m_get_put. destruct (N.eqb_spec i 0); [congruence|exact A0].
  - intros j Hj. rewrite m_get_put, (HF j Hj), (N.eqb_sym j i). destruct (i =? j); [reflexivity|apply A; exact Hj].
Qed.

Lemma Rel_put s sp rg i v s' :
  Rel s sp -> agree rg (sm sp) -> i <> 0 -> opost s (fun j => if j =? i then Some v else m_get rg j) s' ->
  Rel s' (mutate sp (m_put (sm sp) i v)).
Proof.
  intros RL Ag Hi OP. destruct (agree_put rg (sm sp) i v _ Ag Hi (fun j _ => eq_refl)) as [P0 P].
  exact (Rel_mutate _ _ _ _ _ RL OP P0 P).
Qed.

Lemma agree_del rg m i (F : N -> option bytes) :
  agree rg m -> (forall j, j <> 0 -> F j = if j =? i then None else m_get rg j) ->
  m_get (m_del m i) 0 = None /\ (forall j, j <> 0 -> m_get (m_del m i) j = F j).
Proof.
  intros [A0 A] HF. split.
  - rewrite m_get_del. destruct (i =? 0); [reflexivity|exact A0].
  - intros j Hj. rewrite m_get_del, (HF j Hj), (N.eqb_sym j i). destruct (i =? j); [reflexivity|apply A; exact Hj].
Qed.

Lemma agree_none rg m i : agree rg m -> (i = 0 \/ m_get rg i = None) -> m_get m i = None.
Proof. intros [A0 A] [->|H]; [exact A0|]. destruct (N.eqb_spec i 0) as [->|Hi]; [exact A0|]. rewrite A; assumption. Qed.

Lemma agree_some rg m i v : agree rg m -> i <> 0 -> m_get rg i = Some v -> m_get m i = Some v.
Proof. intros [_ A] Hi H. rewrite A; assumption. Qed.

(* operations other than the maintenance ones (handled separately) *)
Definition plain (o : sop) : bool :=
  match o with SOptimize | SReopen | SReopenCopy => false | _ => true end.

Section Refine.
  Variable ops : store_ops cdata.
  Hypothesis CN : canon ops.
  Variable fl : bool.

  Lemma step_plain s sp o :
    Rel s sp -> plain o = true ->
    snd (st_step cdata ops s o) = ObPanic \/
    exists sp', spec_step fl sp o (snd (st_step cdata ops s o)) = Some sp' /\ Rel (fst (st_step cdata ops s o)) sp'.
  Proof.
    intros RL Hp. pose proof RL as ((rg & T & Ag) & Htx & Hcm & H0).
    set (P := fun o (x : ST * obs) =>
                snd x = ObPanic \/ exists sp', spec_step fl sp o (snd x) = Some sp' /\ Rel (fst x) sp').
    change (P o (st_step cdata ops s o)).
    pose proof (agree_none rg (sm sp)) as NF. pose proof (agree_some rg (sm sp)) as SM.
    (* an error leaves the state as it was; the specification answers it in the same way *)
    assert (Same : forall o e, spec_step fl sp o (ObErr e) = Some sp -> P o (s, ObErr e)) by (intros; right; eauto).
    destruct o; try discriminate Hp; cbn [st_step].
    - (* insert *)
      apply (wp_lift _ _ _ _ _ _ (insert_spec ops CN s rg bs T)); [|intros s' e []|left; reflexivity].
      intros s' idx (Hi & Hnone & OP). right. cbn [fst snd spec_step].
      destruct (N.eqb_spec idx 0); [congruence|]. cbn [negb]. rewrite (NF _ Ag (or_intror Hnone)).
      eexists; split; [reflexivity|]. exact (Rel_put _ _ _ _ _ _ RL Ag Hi OP).
    - (* insert_at *)
      apply (wp_lift _ _ _ _ _ _ (insert_at_spec ops CN s rg index offset bs T)); [| |left; reflexivity].
      + intros s' [] (v & Hi & Hget & OP). right. cbn [fst snd spec_step ou]. rewrite (SM _ _ Ag Hi Hget).
        eexists; split; [reflexivity|]. exact (Rel_put _ _ _ _ _ _ RL Ag Hi OP).
      + intros s' e (-> & Hnone & ->). apply Same. cbn [spec_step]. rewrite (NF _ Ag Hnone). reflexivity.
    - (* replace *)
      apply (wp_lift _ _ _ _ _ _ (replace_spec ops CN s rg index bs T)); [| |left; reflexivity].
      + intros s' [] (Hi & Hsome & OP). right. cbn [fst snd spec_step ou].
        destruct (m_get rg index) as [v|] eqn:Hget; [|congruence]. rewrite (SM _ _ Ag Hi Hget).
        eexists; split; [reflexivity|]. exact (Rel_put _ _ _ _ _ _ RL Ag Hi OP).
      + (* the transaction of the failed call stays open *)
        intros s' e (-> & Hnone & ->). right. cbn [fst snd spec_step]. rewrite (NF _ Ag Hnone).
        eexists; split; [reflexivity|]. unfold Rel. cbn [sm sdepth scommitted]. st.
        split; [exists rg; split; [apply tiles_set_tx; exact T|exact Ag]|]. split; [congruence|].
        split; [exact Hcm|]. intros E. lia.
    - (* resize *)
      apply (wp_lift _ _ _ _ _ _ (resize_spec ops CN s rg index size T)); [| |left; reflexivity].
      + intros s' [] (v & Hi & Hget & OP). right. cbn [fst snd spec_step ou]. rewrite (SM _ _ Ag Hi Hget).
        eexists; split; [reflexivity|]. exact (Rel_put _ _ _ _ _ _ RL Ag Hi OP).
      + intros s' e (-> & Hnone & ->). apply Same. cbn [spec_step]. rewrite (NF _ Ag Hnone). reflexivity.
    - (* move *)
      apply (wp_lift _ _ _ _ _ _ (move_spec ops CN s rg index from to size T)); [| |left; reflexivity].
      + intros s' [] (v & Hi & Hget & Hf1 & Hf2 & OP). right. cbn [fst snd spec_step ou]. rewrite (SM _ _ Ag Hi Hget).
        destruct (N.ltb_spec (lenN v) from); [lia|]. destruct (N.ltb_spec (lenN v) (from + size)); [lia|].
        eexists; split; [reflexivity|]. exact (Rel_put _ _ _ _ _ _ RL Ag Hi OP).
      + intros s' e (-> & [[-> Hnone]|(-> & v & Hi & Hget & Hbad)]); apply Same; cbn [spec_step].
        * rewrite (NF _ Ag Hnone). reflexivity.
        * rewrite (SM _ _ Ag Hi Hget).
          destruct (N.ltb_spec (lenN v) from), (N.ltb_spec (lenN v) (from + size)); try reflexivity. lia.
    - (* remove *)
      apply (wp_lift _ _ _ _ _ _ (remove_spec ops CN s rg index T)); [| |left; reflexivity].
      + intros s' [] (Hi & Hsome & OP). right. cbn [fst snd spec_step ou].
        destruct (m_get rg index) as [v|] eqn:Hget; [|congruence]. rewrite (SM _ _ Ag Hi Hget).
        eexists; split; [reflexivity|].
        destruct (agree_del rg (sm sp) index _ Ag (fun j _ => eq_refl)) as [P0 P1].
        exact (Rel_mutate _ _ _ _ _ RL OP P0 P1).
      + intros s' e (-> & Hnone & ->). apply Same. cbn [spec_step]. rewrite (NF _ Ag Hnone). reflexivity.
    - (* transaction *)
      unfold tx_begin, lift. destruct (N.leb_spec two64 (tx s + 1)); cbn [fst snd to_obs]; [left; reflexivity|]. right.
      cbn [fst snd spec_step]. rewrite Htx. unfold is_num. rewrite N.eqb_refl.
      eexists; split; [reflexivity|]. unfold Rel. cbn [sm sdepth scommitted]. st.
      split; [exists rg; split; [apply tiles_set_tx; exact T|exact Ag]|]. split; [congruence|].
      split; [exact Hcm|]. intros E. lia.
    - (* commit *)
      unfold tx_commit, lift. right. cbn [spec_step]. rewrite <- Htx.
      destruct (N.eqb_spec (tx s) id) as [Eid|Nid]; cbn [negb fst snd to_obs ou obs_eqb_err guard]; [|eauto].
      destruct (N.eqb_spec (tx s) 0) as [E0|N0]; cbn [fst snd to_obs ou is_unit guard]; [eauto|].
      (* the state is `committed s` *)
      assert (Est : (if tx (set_tx cdata s (tx s - 1)) =? 0 then dflush cdata ops (set_tx cdata s (tx s - 1))
                     else (set_tx cdata s (tx s - 1), ROk tt)) = (committed s, ROk tt)).
      { unfold committed. cbn zeta. destruct (tx (set_tx cdata s (tx s - 1)) =? 0); [|reflexivity].
        unfold dflush. rewrite (cn_flush _ CN). reflexivity. }
      rewrite Est. cbn [fst snd to_obs ou]. eexists; split; [reflexivity|].
      unfold Rel. cbn [sm sdepth scommitted].
      split; [exists rg; split; [apply tiles_committed; exact T|exact Ag]|].
      split; [rewrite committed_tx; congruence|].
      rewrite committed_dur, committed_cur. destruct (N.eqb_spec (tx s - 1) 0) as [E1|N1].
      + split; [exists (committed s), rg; split; [apply tiles_committed; exact T|]; split; [apply committed_cur|exact Ag]|]. auto.
      + split; [exact Hcm|]. intros E. congruence.
    - (* value *)
      apply (wp_lift _ _ _ _ _ _ (value_spec ops CN s rg index T)); [| |left; reflexivity].
      + intros s' b (-> & Hi & Hget). right. cbn [fst snd spec_step]. rewrite (SM _ _ Ag Hi Hget).
        unfold is_bytes. rewrite bytes_eqb_refl. cbn [guard]. eauto.
      + intros s' e (-> & -> & Hnone). apply Same. cbn [spec_step]. rewrite (NF _ Ag Hnone). reflexivity.
    - (* value at *)
      apply (wp_lift _ _ _ _ _ _ (value_at_spec ops CN s rg index offset T)); [| |left; reflexivity].
      + intros s' b (-> & v & Hi & Hget & Hoff & ->). right. cbn [fst snd spec_step]. rewrite (SM _ _ Ag Hi Hget).
        destruct (N.ltb_spec (lenN v) offset); [lia|]. unfold is_bytes. rewrite bytes_eqb_refl. cbn [guard]. eauto.
      + intros s' e (-> & [[-> Hnone]|(-> & v & Hi & Hget & Hbad)]); apply Same; cbn [spec_step].
        * rewrite (NF _ Ag Hnone). reflexivity.
        * rewrite (SM _ _ Ag Hi Hget). destruct (N.ltb_spec (lenN v) offset); [reflexivity|lia].
    - (* value at size *)
      apply (wp_lift _ _ _ _ _ _ (value_at_size_spec ops CN s rg index offset size T)); [| |left; reflexivity].
      + intros s' b (-> & v & Hi & Hget & Hoff & Hn & ->). right. cbn [fst snd spec_step]. rewrite (SM _ _ Ag Hi Hget).
        destruct (N.ltb_spec (lenN v) offset); [lia|]. destruct (N.ltb_spec (lenN v) (offset + size)); [lia|].
        unfold is_bytes. rewrite bytes_eqb_refl. cbn [orb guard]. eauto.
      + intros s' e (-> & [[-> Hnone]|(-> & v & Hi & Hget & Hbad)]); apply Same; cbn [spec_step].
        * rewrite (NF _ Ag Hnone). reflexivity.
        * rewrite (SM _ _ Ag Hi Hget).
          destruct (N.ltb_spec (lenN v) offset), (N.ltb_spec (lenN v) (offset + size)); try reflexivity. lia.
    - (* value size *)
      apply (wp_lift _ _ _ _ _ _ (value_size_spec s rg index T)); [| |left; reflexivity].
      + intros s' n (-> & v & Hi & Hget & ->). right. cbn [fst snd spec_step]. rewrite (SM _ _ Ag Hi Hget).
        unfold is_num. rewrite N.eqb_refl. cbn [guard]. eauto.
      + intros s' e (-> & [[-> Hnone]|(_ & v & _ & _ & [])]). apply Same. cbn [spec_step].
        rewrite (NF _ Ag Hnone). reflexivity.
    - (* len *)
      right. unfold get_len, lift. cbn [fst snd to_obs spec_step]. eauto.
  Qed.
End Refine.
