(* StoredDbOpsQuery.v — proofs (stored database): the programs that the correspondence run compares byte for byte
   with the real database — so_q_insert_node (insert nodes values), so_q_insert_values (insert values ids); so_q_remove is in
   StoredDbOpsRemove.v, so_q_insert_edge in StoredDbOpsLink.v: the core operations as the public queries issue them inside transaction_mut's
   storage transaction — keep the database stored and compute DbModel's functions; the slot of the element worked on is
   allocated afterwards and every allocated slot stays so (so_spost; the primed theorems). *)
From Coq Require Import Permutation.
From Agdb Require Import Bytes DbValue Graph DbModel StorageSpec Collections CollWp CollVecBase CollVec CollGraph
  CollValuesProofs StoredDbRep StoredDbProofs StoredDbFrame StoredDbOps StoredDbOpsGraph StoredDbOpsDb StoredDbOpsKv
  StoredDbOpsKv2 StoredDbOpsDb2 StoredDbOpsDb3.
From Coq Require Import ZifyBool ZifyNat ZifyN.
Ltac Zify.zify_post_hook ::= Z.div_mod_to_equations.
Open Scope N_scope.

(* the model of the two loops over a property list *)
Definition mq_insert_key_values (d : db) (id : Z) (l : list kv) : db := fold_left (fun a x => insert_key_value a id x) l d.
Definition mq_insert_or_replace_key_values (d : db) (id : Z) (l : list kv) : db :=
  fold_left (fun a x => insert_or_replace_key_value a id x) l d.

Fixpoint so_kvs_ok (d : db) (id : Z) (l : list kv) : Prop :=
  match l with
  | [] => True
  | x :: t => (idx_find (indexes d) (fst x) = None /\ el_valid law_dbkv x /\ so_kv_fits d id) /\ so_kvs_ok (insert_key_value d id x) id t
  end.
Fixpoint so_iors_ok (d : db) (id : Z) (l : list kv) : Prop :=
  match l with
  | [] => True
  | x :: t => (so_not_indexed d id x /\ el_valid law_dbkv x /\ so_kv_fits d id) /\ so_iors_ok (insert_or_replace_key_value d id x) id t
  end.

Definition so_qpost (root : N) (w : sd_wit) (sp : spec) (d' : db) (r : cres so_db) (sp' : spec) : Prop :=
  exists h' w', r = CrOk h' /\ stored_db_w (hp sp') root d' w' /\ so_handles h' w' /\ sdepth sp' = sdepth sp /\
                frame (hp sp) (hp sp') (sd_foot root w) (sd_foot root w').

(* the same for a program returning `ret h'`, with a relation P between the slot vectors of DbKeyValues before and after *)
Definition so_spost {A} (root : N) (w : sd_wit) (sp : spec) (d' : db) (ret : so_db -> A) (P : list N -> list N -> Prop)
  (r : cres A) (sp' : spec) : Prop :=
  exists h' w', r = CrOk (ret h') /\ stored_db_w (hp sp') root d' w' /\ so_handles h' w' /\ sdepth sp' = sdepth sp /\
                frame (hp sp) (hp sp') (sd_foot root w) (sd_foot root w') /\ P (sw_vi w) (sw_vi w').

Section Query.
  Variable fl : bool.

  Lemma so_insert_key_values_stored' root id : so_index_ok (cg_as_u64 id) -> forall l d w h sp,
    stored_db_w (hp sp) root d w -> so_handles h w -> so_kvs_ok d id l ->
    cwp fl (so_insert_key_values h id l) sp (so_spost root w sp (mq_insert_key_values d id l) (fun h' => h') slot_keep).
  Proof.
    intros Hix. induction l as [|x t IH]; intros d w h sp H Hh OK; cbn [so_insert_key_values mq_insert_key_values fold_left so_kvs_ok] in *.
    - cbn [cwp]. exists h, w. repeat (split; [first [reflexivity|assumption]|]). split; [apply frame_refl; intros j; reflexivity|apply slot_keep_refl].
    - destruct OK as [(O1 & O2 & O3) OK']. apply cwp_bind.
      eapply so_insert_key_value_stored'; [exact H|exact Hh|exact O1|exact Hix|exact O2|exact O3|].
      intros h1 vh1 vs1 vi1 vw1 sp1 H1 Hh1 D1 F1 [K1 _]. cbn [kont].
      eapply cwp_mono; [|eapply IH; eassumption].
      intros r sp2 (h2 & w2 & -> & H2 & Hh2 & D2 & F2 & K2). exists h2, w2.
      split; [reflexivity|]. split; [exact H2|]. split; [exact Hh2|]. split; [congruence|].
      split; [eapply frame_trans; eassumption|eapply slot_keep_trans; [exact K1|exact K2]].
  Qed.

  Lemma so_insert_or_replace_key_values_stored' root id : so_index_ok (cg_as_u64 id) -> forall l d w h sp,
    stored_db_w (hp sp) root d w -> so_handles h w -> so_iors_ok d id l ->
    cwp fl (so_insert_or_replace_key_values h id l) sp
        (so_spost root w sp (mq_insert_or_replace_key_values d id l) (fun h' => h') slot_keep).
  Proof.
    intros Hix. induction l as [|x t IH]; intros d w h sp H Hh OK;
      cbn [so_insert_or_replace_key_values mq_insert_or_replace_key_values fold_left so_iors_ok] in *.
    - cbn [cwp]. exists h, w. repeat (split; [first [reflexivity|assumption]|]). split; [apply frame_refl; intros j; reflexivity|apply slot_keep_refl].
    - destruct OK as [(O1 & O2 & O3) OK']. apply cwp_bind.
      eapply so_insert_or_replace_key_value_stored'; [exact H|exact Hh|exact O1|exact Hix|exact O2|exact O3|].
      intros h1 vh1 vs1 vi1 vw1 sp1 H1 Hh1 D1 F1 [K1 _]. cbn [kont fst].
      eapply cwp_mono; [|eapply IH; eassumption].
      intros r sp2 (h2 & w2 & -> & H2 & Hh2 & D2 & F2 & K2). exists h2, w2.
      split; [reflexivity|]. split; [exact H2|]. split; [exact Hh2|]. split; [congruence|].
      split; [eapply frame_trans; eassumption|eapply slot_keep_trans; [exact K1|exact K2]].
  Qed.

  (* transaction_mut's storage transaction around a program on a stored database: how it begins ... *)
  Lemma so_begin root d w sp (Q : cres N -> spec -> Prop) :
    stored_db_w (hp sp) root d w ->
    (forall sp0, stored_db_w (hp sp0) root d w -> sdepth sp0 = sdepth sp + 1 ->
        frame (hp sp) (hp sp0) (sd_foot root w) (sd_foot root w) -> Q (CrOk (sdepth sp + 1)) sp0) ->
    cwp fl cp_transaction sp Q.
  Proof.
    intros H HQ. apply hwp_transaction. intros sp0 Hm0 Hd0.
    apply HQ; [eapply stored_db_w_heq; eassumption|exact Hd0|apply frame_refl; exact Hm0].
  Qed.

  (* ... and ends *)
  Lemma so_commit {A} root w sp d' (ret : so_db -> A) (P : list N -> list N -> Prop) h' w' sp3 :
    stored_db_w (hp sp3) root d' w' -> so_handles h' w' -> sdepth sp3 = sdepth sp + 1 ->
    frame (hp sp) (hp sp3) (sd_foot root w) (sd_foot root w') -> P (sw_vi w) (sw_vi w') ->
    cwp fl (cp_commit (sdepth sp + 1) ;;~ CRet (ret h')) sp3 (so_spost root w sp d' ret P).
  Proof.
    intros H' Hh' D' F' HP. apply cwp_bind. apply hwp_commit; [exact D'|lia|]. intros sp4 Hm4 Hd4. cbn [kont cwp].
    exists h', w'. split; [reflexivity|]. split; [eapply stored_db_w_heq; eassumption|]. split; [exact Hh'|]. split; [lia|].
    split; [eapply frame_trans; [exact F'|apply frame_refl; exact Hm4]|exact HP].
  Qed.

  (* insert nodes (count 1, no alias) values [l]: the slot of the new node is allocated (reserve_key_value_capacity) *)
  Theorem so_q_insert_node_stored' root d w h l sp :
    stored_db_w (hp sp) root d w -> so_handles h w -> so_graph_ok (gr d) ->
    let id := fst (insert_node_db d) in
    let d2 := reserve_kv (snd (insert_node_db d)) id in
    so_index_ok (cg_as_u64 id) -> so_kvs_ok d2 id l ->
    cwp fl (so_q_insert_node h l) sp
        (so_spost root w sp (mq_insert_key_values d2 id l) (fun h' => (h', id)) (slot_alloc (zabs_nat id))).
  Proof.
    intros H Hh OK id d2 Hix Hkv. unfold so_q_insert_node.
    apply cwp_bind. eapply so_begin; [exact H|]. intros sp0 H0 D0 F0. cbn [kont].
    apply cwp_bind. eapply so_insert_node_stored; [exact H0|exact Hh|exact OK|].
    intros h1 dg1 s1 sp1 H1 Hh1 D1 F1. cbn [kont fst snd]. fold id.
    apply cwp_bind. eapply so_reserve_key_value_capacity_stored'; [exact H1|exact Hh1|exact Hix|].
    intros h2 vh2 vs2 vi2 vw2 sp2 H2 Hh2 D2 F2 [K2 A2]. cbn [kont]. fold d2 in H2.
    cbn [sd_with_graph sw_vi] in K2.
    apply cwp_bind. eapply cwp_mono; [|eapply so_insert_key_values_stored'; [exact Hix|exact H2|exact Hh2|exact Hkv]].
    intros r sp3 (h3 & w3 & -> & H3 & Hh3 & D3 & F3 & K3). cbn [kont]. cbn [sd_with_values sw_vi] in K3.
    apply (so_commit root w sp _ (fun h' => (h', id)) _ h3 w3 sp3 H3 Hh3); [lia| |].
    - eapply frame_trans; [exact F0|]. eapply frame_trans; [exact F1|]. eapply frame_trans; [exact F2|exact F3].
    - split; [eapply slot_keep_trans; [exact K2|exact K3]|apply K3; exact A2].
  Qed.

  Theorem so_q_insert_node_stored root d w h l sp :
    stored_db_w (hp sp) root d w -> so_handles h w -> so_graph_ok (gr d) ->
    let id := fst (insert_node_db d) in
    let d2 := reserve_kv (snd (insert_node_db d)) id in
    so_index_ok (cg_as_u64 id) -> so_kvs_ok d2 id l ->
    cwp fl (so_q_insert_node h l) sp
        (fun r sp' => exists h' w', r = CrOk (h', id) /\ stored_db_w (hp sp') root (mq_insert_key_values d2 id l) w' /\
                                    so_handles h' w' /\ sdepth sp' = sdepth sp /\
                                    frame (hp sp) (hp sp') (sd_foot root w) (sd_foot root w')).
  Proof.
    intros H Hh OK id d2 Hix Hkv. eapply cwp_mono; [|eapply so_q_insert_node_stored'; eassumption].
    intros r sp' (h' & w' & E & H' & Hh' & D' & F' & _). exists h', w'. auto.
  Qed.

  (* insert values [l] ids id, on an existing element *)
  Theorem so_q_insert_values_stored' root d w h id l sp :
    stored_db_w (hp sp) root d w -> so_handles h w -> so_index_ok (cg_as_u64 id) ->
    so_iors_ok (reserve_kv d id) id l ->
    cwp fl (so_q_insert_values h id l) sp
        (so_spost root w sp (mq_insert_or_replace_key_values (reserve_kv d id) id l) (fun h' => h') (slot_alloc (zabs_nat id))).
  Proof.
    intros H Hh Hix Hkv. unfold so_q_insert_values.
    apply cwp_bind. eapply so_begin; [exact H|]. intros sp0 H0 D0 F0. cbn [kont].
    apply cwp_bind. eapply so_reserve_key_value_capacity_stored'; [exact H0|exact Hh|exact Hix|].
    intros h2 vh2 vs2 vi2 vw2 sp2 H2 Hh2 D2 F2 [K2 A2]. cbn [kont].
    apply cwp_bind. eapply cwp_mono; [|eapply so_insert_or_replace_key_values_stored'; [exact Hix|exact H2|exact Hh2|exact Hkv]].
    intros r sp3 (h3 & w3 & -> & H3 & Hh3 & D3 & F3 & K3). cbn [kont]. cbn [sd_with_values sw_vi] in K3.
    apply (so_commit root w sp _ (fun h' => h') _ h3 w3 sp3 H3 Hh3); [lia| |].
    - eapply frame_trans; [exact F0|]. eapply frame_trans; [exact F2|exact F3].
    - split; [eapply slot_keep_trans; [exact K2|exact K3]|apply K3; exact A2].
  Qed.

  Theorem so_q_insert_values_stored root d w h id l sp :
    stored_db_w (hp sp) root d w -> so_handles h w -> so_index_ok (cg_as_u64 id) ->
    so_iors_ok (reserve_kv d id) id l ->
    cwp fl (so_q_insert_values h id l) sp (so_qpost root w sp (mq_insert_or_replace_key_values (reserve_kv d id) id l)).
  Proof.
    intros H Hh Hix Hkv. eapply cwp_mono; [|eapply so_q_insert_values_stored'; eassumption].
    intros r sp' (h' & w' & E & H' & Hh' & D' & F' & _). exists h', w'. auto.
  Qed.
End Query.
