(* StorageOps.v — every operation of
   Storage.v preserves the tiling invariant and acts on the live values as the
   abstract map does. *)
From Agdb Require Import Bytes BytesProofs Records RecordsProofs RecordsTableProofs Storage StorageLayout StorageWp.
From Coq Require Import ZifyBool ZifyNat ZifyN.
Open Scope N_scope.

Lemma tiles_committed s rg : tiles (committed s) rg <-> tiles s rg.
Proof. unfold committed. cbn zeta. destruct (tx (set_tx cdata s (tx s - 1)) =? 0); unfold tiles, gtiles; st; tauto. Qed.
Lemma committed_tx s : tx (committed s) = tx s - 1.
Proof. unfold committed. cbn zeta. destruct (tx (set_tx cdata s (tx s - 1)) =? 0); reflexivity. Qed.
Lemma committed_cur s : cur (sdata (committed s)) = cur (sdata s).
Proof. unfold committed. cbn zeta. destruct (tx (set_tx cdata s (tx s - 1)) =? 0); reflexivity. Qed.
Lemma committed_dur s : dur (sdata (committed s)) = if tx s - 1 =? 0 then cur (sdata s) else dur (sdata s).
Proof. unfold committed. cbn zeta. st. destruct (tx s - 1 =? 0); reflexivity. Qed.

(* what an operation promises: the new state tiles, its live values are F, the transaction
   depth is unchanged, and at depth 0 the new content is the durable one *)
Definition opost (s : ST) (F : N -> option bytes) (s' : ST) : Prop :=
  exists rg', tiles s' rg' /\ (forall j, j <> 0 -> m_get rg' j = F j) /\ tx s' = tx s /\
    dur (sdata s') = (if tx s =? 0 then cur (sdata s') else dur (sdata s)).

(* the state reached by the body of an operation that began with tx_begin on s0 *)
Lemma opost_commit s0 s1 F rg' :
  tiles s1 rg' -> (forall j, j <> 0 -> m_get rg' j = F j) ->
  tx s1 = tx s0 + 1 -> dur (sdata s1) = dur (sdata s0) ->
  opost s0 F (committed s1).
Proof.
  intros T HF Htx Hdur. exists rg'. split; [apply tiles_committed; exact T|]. split; [exact HF|].
  rewrite committed_tx, committed_dur, committed_cur, Htx, Hdur.
  replace (tx s0 + 1 - 1) with (tx s0) by lia. auto.
Qed.

Lemma tiles_live s A i v B : tiles s (A ++ (i, v) :: B) -> i <> 0 ->
  live_at (recs (rtab s)) i = Some (24 + slen A, lenN v).
Proof.
  intros T Hi. destruct (tiles_elim _ _ T) as (_ & _ & [TL _] & _). apply TL; [exact Hi|].
  apply (layout_mid A i v B _ _ eq_refl). left; reflexivity.
Qed.

Lemma tiles_not_live s rg j : tiles s rg -> j <> 0 -> live_at (recs (rtab s)) j = None -> m_get rg j = None.
Proof.
  intros T Hj HL. destruct (tiles_elim _ _ T) as (_ & _ & [TL _] & _ & _).
  apply m_get_notin. intros v Hin. destruct (In_layout 24 _ _ _ Hin) as (q & Hq).
  apply TL in Hq; [congruence|assumption].
Qed.

(* an index occurs once: the table has one position for it *)
Lemma tiles_unique s A i v B : tiles s (A ++ (i, v) :: B) -> i <> 0 -> m_get A i = None /\ m_get B i = None.
Proof.
  intros T Hi. pose proof (tiles_live _ _ _ _ _ T Hi) as HL.
  destruct (tiles_elim _ _ T) as (_ & _ & [TL _] & _ & _).
  assert (HH : forall q n, In (q, i, n) (layout 24 A ++ layout (24 + slen A + (16 + lenN v)) B) -> False).
  { intros q n Hin. pose proof (layout_hole _ _ _ _ _ _ Hin) as R.
    assert (Hl : In (q, i, n) (layout 24 (A ++ (i, v) :: B))) by (apply (layout_mid A i v B _ _ eq_refl); auto).
    apply TL in Hl; [|exact Hi]. rewrite HL in Hl. injection Hl as <- <-. lia. }
  split; apply m_get_notin; intros v' Hin.
  - destruct (In_layout 24 _ _ _ Hin) as (q & Hq). apply (HH q (lenN v')), in_or_app. auto.
  - destruct (In_layout (24 + slen A + (16 + lenN v)) _ _ _ Hin) as (q & Hq). apply (HH q (lenN v')), in_or_app. auto.
Qed.

Lemma lookup_spec s rg i (Q : ST -> srec -> Prop) (E : ST -> serr -> Prop) :
  tiles s rg ->
  (forall A v B, rg = A ++ (i, v) :: B -> i <> 0 -> m_get A i = None -> m_get B i = None ->
                 Q s {| r_index := i; r_pos := 24 + slen A; r_size := lenN v |}) ->
  (i = 0 \/ m_get rg i = None -> E s SeNotFound) ->
  wp (lookup cdata i) s Q E.
Proof.
  intros T HQ HE. destruct (tiles_elim _ _ T) as (_ & _ & [TL _] & [TW _] & _).
  unfold wp, lookup. rewrite (record_spec _ _ TW).
  destruct (N.eqb_spec i 0) as [->|Hi]; [rewrite live_at_0; auto|].
  destruct (m_get rg i) as [v|] eqn:G.
  - destruct (m_get_split _ _ _ _ G) as (A & B & -> & HA).
    rewrite (tiles_live _ _ _ _ _ T Hi). apply (HQ A v B); auto. apply (tiles_unique _ _ _ _ _ T Hi).
  - destruct (live_at (recs (rtab s)) i) as [[q n]|] eqn:HL; [|auto].
    exfalso. apply TL in HL; [|assumption]. apply layout_In in HL. destruct HL as (v & Hin & _).
    exact (m_get_none_In _ _ _ _ G Hin).
Qed.

Lemma gtiles_nil s A B : gtiles s A [] B -> tiles s (A ++ B).
Proof.
  intros (Hcur & Hlen & TR & RW & Hv). apply tiles_intro; auto.
  - rewrite Hcur, ser_app. reflexivity.
  - rewrite layout_app. rewrite lenN_nil, N.add_0_r in TR. exact TR.
Qed.

(* the bytes of a tiling around one region *)
Lemma cur_split s A i v B : tiles s (A ++ (i, v) :: B) ->
  cur (sdata s) = (vrec ++ ser A ++ le64 i ++ le64 (lenN v)) ++ v ++ ser B /\
  lenN (cur (sdata s)) = 24 + slen A + 16 + lenN v + slen B /\
  length (vrec ++ ser A ++ le64 i ++ le64 (lenN v)) = N.to_nat (24 + slen A + 16).
Proof.
  intros T. destruct (tiles_elim _ _ T) as (Hcur & _).
  assert (E : cur (sdata s) = (vrec ++ ser A ++ le64 i ++ le64 (lenN v)) ++ v ++ ser B).
  { rewrite Hcur, ser_app. cbn [ser]. unfold enc. cbn [fst snd]. rewrite <- !app_assoc. reflexivity. }
  split; [exact E|]. split.
  - rewrite E, !lenN_app, !lenN_le64, lenN_vrec. unfold slen. lia.
  - rewrite !app_length, !le64_length. change (length vrec) with 24%nat. unfold slen, lenN. lia.
Qed.

(* the live regions of a region list, in file order *)
Definition lmap (rg : list region) : list region := filter (fun r => negb (fst r =? 0)) rg.

Lemma lmap_app a b : lmap (a ++ b) = lmap a ++ lmap b.
Proof. apply filter_app. Qed.
Lemma lmap_free F : all_free F -> lmap F = [].
Proof.
  induction F as [|[k x] F IH]; intros HF; [reflexivity|].
  unfold lmap. cbn [filter fst]. rewrite (HF k x (or_introl eq_refl)). cbn [negb].
  apply IH. intros i v H. apply (HF i v). right; exact H.
Qed.
Lemma lmap_cons0 x b : lmap ((0, x) :: b) = lmap b.
Proof. reflexivity. Qed.
Lemma lmap_cons_live i v b : i <> 0 -> lmap ((i, v) :: b) = (i, v) :: lmap b.
Proof. intros Hi. unfold lmap. cbn [filter fst]. destruct (N.eqb_spec i 0); [congruence|reflexivity]. Qed.
Lemma m_get_lmap rg j : j <> 0 -> m_get (lmap rg) j = m_get rg j.
Proof.
  intros Hj. induction rg as [|[k x] t IH]; [reflexivity|].
  unfold lmap. cbn [filter fst m_get]. destruct (N.eqb_spec k 0) as [->|Hk]; cbn [negb m_get].
  - destruct (N.eqb_spec 0 j); [congruence|exact IH].
  - destruct (k =? j); [reflexivity|exact IH].
Qed.
Lemma lmap_get_eq a b j : lmap a = lmap b -> j <> 0 -> m_get a j = m_get b j.
Proof. intros E Hj. rewrite <- (m_get_lmap a j Hj), <- (m_get_lmap b j Hj), E. reflexivity. Qed.

(* free regions merged around a gap: the live regions are the same *)
Lemma lmap_merged A' F1 X F2 B' : all_free F1 -> all_free F2 ->
  lmap (A' ++ (0, X) :: B') = lmap ((A' ++ F1) ++ F2 ++ B').
Proof. intros H1 H2. rewrite !lmap_app, lmap_cons0, (lmap_free F1 H1), (lmap_free F2 H2), app_nil_r. reflexivity. Qed.

(* the values of a region list whose live regions are those of A ++ B, with (i, v) put in *)
Lemma m_get_put_in A B A' B' i v k : k <> 0 -> m_get A' i = None -> lmap (A' ++ B') = lmap (A ++ B) ->
  m_get (A' ++ (i, v) :: B') k = if k =? i then Some v else m_get (A ++ B) k.
Proof.
  intros Hk HA' E. destruct (N.eqb_spec k i) as [->|Hki].
  - apply m_get_mid, HA'.
  - rewrite m_get_skip by assumption. apply lmap_get_eq; assumption.
Qed.

(* ... with (i, v) taken out *)
Lemma m_get_take_out A i v B rg' k : k <> 0 -> m_get A i = None -> m_get B i = None -> lmap rg' = lmap (A ++ B) ->
  m_get rg' k = if k =? i then None else m_get (A ++ (i, v) :: B) k.
Proof.
  intros Hk HA HB E. rewrite (lmap_get_eq _ _ k E Hk). destruct (N.eqb_spec k i) as [->|Hki].
  - rewrite m_get_app, HA. exact HB.
  - symmetry. apply m_get_skip. assumption.
Qed.

(* the last region has gone: cut the file there *)
Lemma gtiles_truncate s A g :
  gtiles s A g [] -> tiles (set_cur s (bs_resize (cur (sdata s)) (N.to_nat (24 + slen A)))) A.
Proof.
  intros (Hcur & Hlen & TR & RW & Hv).
  assert (E : bs_resize (cur (sdata s)) (N.to_nat (24 + slen A)) = vrec ++ ser A).
  { rewrite Hcur, app_assoc. apply bs_resize_prefix. symmetry. apply length_vrec_ser. }
  apply tiles_intro; st; rewrite ?E; auto.
  - rewrite Hcur, !lenN_app in Hlen. rewrite lenN_app. lia.
  - cbn [layout] in TR. rewrite app_nil_r in TR. exact TR.
Qed.

(* overwriting the size field of a record header *)
Lemma hdr_size_write (pre rest : bytes) i n new P :
  P = (length pre + 8)%nat ->
  bs_write (pre ++ le64 i ++ le64 n ++ rest) P (le64 new) = pre ++ le64 i ++ le64 new ++ rest.
Proof.
  intros ->. rewrite (app_assoc pre (le64 i)). rewrite bs_write_mid.
  - now rewrite <- app_assoc.
  - rewrite app_length, le64_length. reflexivity.
  - now rewrite !le64_length.
Qed.

Section Ops.
  Variable ops : store_ops cdata.
  Hypothesis CN : canon ops.

  (* the end of a mutating operation: the transaction begun on s0 is committed *)
  Lemma commit_spec s0 s1 F rg' (Q : ST -> unit -> Prop) E :
    tiles s1 rg' -> (forall j, j <> 0 -> m_get rg' j = F j) ->
    tx s1 = tx s0 + 1 -> dur (sdata s1) = dur (sdata s0) ->
    (forall s', opost s0 F s' -> Q s' tt) ->
    wp (tx_commit cdata ops (tx s0 + 1)) s1 Q E.
  Proof.
    intros T HF Htx Hdur HQ. apply (wp_tx_commit ops CN); [exact Htx|lia|].
    apply HQ. eapply opost_commit; eassumption.
  Qed.

  Lemma insert_spec s rg bs :
    tiles s rg ->
    wp (insert_bytes cdata ops bs) s
       (fun s' idx => idx <> 0 /\ m_get rg idx = None /\
                      opost s (fun j => if j =? idx then Some bs else m_get rg j) s')
       (fun _ _ => False).
  Proof.
    intros T. pose proof (tiles_elim _ _ T) as (Hcur & Hlen & TR & RW & Hv).
    pose proof TR as [TL TF]. pose proof RW as [TW FW].
    unfold insert_bytes. apply wp_bind, wp_get_rtab.
    destruct (take_free (rtab s) (lenN bs)) as [[rs1 [fpos fsize]]|] eqn:TFr.
    - (* a free region (0, p) is reused *)
      destruct (take_free_spec _ _ _ _ _ FW TFr) as (Hf & Hle & Hsz & ->).
      destruct (layout_split _ _ _ _ _ (proj2 (TF _ _) Hf)) as (A & p & B & -> & <- & ->).
      pose proof (new_record_spec (remove_free (rtab s) (24 + slen A)) (24 + slen A) (lenN bs) TW) as NR.
      apply wp_bind, wp_opt_panic. intros [rs2 r] ENR. rewrite ENR in NR.
      destruct NR as (Er & Hj0 & Hj64 & Hjnone & Hlive & TW2 & Hfps2 & Hfsp2).
      set (j := r_index r) in *. cbn [recs remove_free] in Hjnone.
      assert (HAj : m_get (A ++ (0, p) :: B) j = None) by (apply (tiles_not_live _ _ _ T Hj0 Hjnone)).
      destruct (m_get_app_none _ _ _ _ HAj) as [HAj1 _].
      set (F := fun k => if k =? j then Some bs else m_get (A ++ (0, p) :: B) k).
      apply wp_bind, wp_put_rtab. apply wp_bind, wp_tx_begin. intros Htx.
      apply wp_bind. unfold write_record. rewrite Er. cbn [r_pos r_index r_size].
      (* the free region, taken out of the maps, is a gap *)
      pose proof (xt_taken_gap _ _ _ _ _ (xt_take _ _ _ _ T Hf)) as X1.
      pose proof (lenN_enc (0, p)) as HE. cbn [snd] in HE.
      pose proof (xgtiles_len _ _ _ _ _ _ X1) as HLEN. rewrite HE in HLEN. cbn [sdata set_rtab] in HLEN.
      apply (wp_dwrite ops CN); [st; lia|]. intros _.
      apply wp_bind. unfold value_start. cbn [r_pos].
      apply (wp_dwrite ops CN).
      { st. unfold lenN. rewrite bs_write_length, app_length, !le64_length. unfold lenN in HLEN. lia. }
      intros _. st.
      set (g := skipn (16 + length bs) (enc (0, p))).
      assert (Hg : lenN g = lenN p - lenN bs).
      { unfold g, lenN. rewrite skipn_length. unfold lenN in *. lia. }
      (* the state now: regions A, the new record, the rest g of the old free region, regions B *)
      set (s2 := set_cur (set_cur (set_tx cdata (set_rtab cdata s rs2) (tx s + 1)) _) _).
      assert (GT : gtiles s2 (A ++ [(j, bs)]) g B).
      { apply (xg_place _ s2 A _ B j None bs (lenN bs) rs2 X1 Hj0 Hjnone Hlive TW2 Hfps2 Hfsp2);
          [reflexivity|lia|reflexivity|reflexivity|reflexivity]. }
      assert (Htx2 : tx s2 = tx s + 1) by reflexivity.
      assert (Hdur2 : dur (sdata s2) = dur (sdata s)) by reflexivity.
      clearbody s2. clear Hcur HLEN Hlen.
      destruct (N.ltb_spec (lenN bs) (lenN p)) as [Hlt|Hge].
      + (* the rest of the free region stays free *)
        apply wp_bind. unfold r_end. cbn [r_pos r_size r_index].
        replace (24 + slen A + 16 + lenN bs) with (24 + slen (A ++ [(j, bs)]))
          by (rewrite slen_snoc; lia).
        replace (lenN p - 16 - lenN bs) with (lenN g - 16) by lia.
        apply (free_a_region_spec ops CN _ _ _ _ _ _ GT); [lia|].
        intros s' A' F1 F2 B' X EA EB HF1 HF2 T' Hlen' Htx' Hdur'.
        destruct (app_last_live _ _ _ _ _ EA HF1 Hj0) as [-> ->]. subst B.
        apply wp_bind, (commit_spec s s' F _ _ _ T'); [|congruence|congruence|].
        * intros k Hk. unfold F. rewrite <- app_assoc. apply m_get_put_in; [exact Hk|exact HAj1|].
          rewrite !lmap_app, !lmap_cons0, lmap_app, (lmap_free F2 HF2). reflexivity.
        * intros s3 OP. apply wp_ret. auto.
      + (* the free region is used up *)
        assert (Eg : g = []) by (apply lenN_0_nil; lia). rewrite Eg in GT. apply gtiles_nil in GT.
        apply wp_bind, wp_ret. apply wp_bind, (commit_spec s s2 F _ _ _ GT); [|congruence|congruence|].
        * intros k Hk. unfold F. rewrite <- app_assoc. apply m_get_put_in; [exact Hk|exact HAj1|].
          rewrite !lmap_app, lmap_cons0. reflexivity.
        * intros s3 OP. apply wp_ret. auto.
    - (* appended at the end *)
      apply wp_bind, (wp_get_len ops CN).
      set (L := lenN (cur (sdata s))).
      assert (HL : L = 24 + slen rg) by (unfold L; rewrite Hcur, lenN_app, lenN_vrec; reflexivity).
      pose proof (new_record_spec (rtab s) L (lenN bs) TW) as NR.
      apply wp_bind, wp_opt_panic. intros [rs2 r] ENR. rewrite ENR in NR.
      destruct NR as (Er & Hj0 & Hj64 & Hjnone & Hlive & TW2 & Hfps2 & Hfsp2).
      set (j := r_index r) in *.
      assert (HAj : m_get rg j = None) by (apply (tiles_not_live _ _ _ T Hj0 Hjnone)).
      set (F := fun k => if k =? j then Some bs else m_get rg k).
      apply wp_bind, wp_put_rtab. apply wp_bind, wp_tx_begin. intros Htx.
      apply wp_bind. unfold write_record. rewrite Er. cbn [r_pos r_index r_size].
      apply (wp_dwrite ops CN); [st; unfold L; lia|]. intros _.
      apply wp_bind. unfold append. apply wp_bind, (wp_get_len ops CN). st.
      assert (HLn : N.to_nat L = length (cur (sdata s))) by (unfold L, lenN; lia).
      assert (Hlen1 : lenN (bs_write (cur (sdata s)) (N.to_nat L) (le64 j ++ le64 (lenN bs))) = L + 16).
      { unfold lenN. rewrite bs_write_length, app_length, !le64_length. unfold L, lenN. lia. }
      rewrite Hlen1.
      apply (wp_dwrite ops CN); [st; rewrite Hlen1; lia|]. intros Hov. st.
      rewrite (place_end (cur (sdata s)) (le64 j ++ le64 (lenN bs)) bs (N.to_nat L) (N.to_nat (L + 16)));
        [|assumption|rewrite app_length, !le64_length; reflexivity|lia].
      set (s2 := set_cur (set_cur (set_tx cdata (set_rtab cdata s rs2) (tx s + 1)) _) _).
      assert (T2 : tiles s2 (rg ++ [(j, bs)])).
      { apply (xt_place_end s s2 rg j None bs (lenN bs) rs2 (proj1 (tiles_xt _ _) T) Hj0 Hjnone Hlive TW2 Hfps2 Hfsp2 eq_refl);
          [fold L; lia|reflexivity|reflexivity|reflexivity]. }
      assert (Htx2 : tx s2 = tx s + 1) by reflexivity.
      assert (Hdur2 : dur (sdata s2) = dur (sdata s)) by reflexivity.
      clearbody s2.
      apply wp_bind, (commit_spec s s2 F _ _ _ T2); [|congruence|congruence|].
      + intros k Hk. unfold F. rewrite (m_get_put_in rg [] rg [] j bs k Hk HAj eq_refl), app_nil_r. reflexivity.
      + intros s3 OP. apply wp_ret. auto.
  Qed.

  Lemma remove_spec s rg i :
    tiles s rg ->
    wp (remove_value cdata ops i) s
       (fun s' _ => i <> 0 /\ m_get rg i <> None /\ opost s (fun j => if j =? i then None else m_get rg j) s')
       (fun s' e => e = SeNotFound /\ (i = 0 \/ m_get rg i = None) /\ s' = s).
  Proof.
    intros T. pose proof (tiles_elim _ _ T) as (Hcur & Hlen & TR & RW & Hv). pose proof RW as [TW FW].
    unfold remove_value. apply wp_bind. apply (lookup_spec s rg i); [exact T| |intros H; auto].
    intros A v B -> Hi HA HB.
    pose proof (tiles_live _ _ _ _ _ T Hi) as HLi.
    destruct (free_index_spec (rtab s) i _ _ TW HLi) as (Hlive & TW2 & Hfps2 & Hfsp2 & _).
    destruct (cur_split _ _ _ _ _ T) as (_ & HLEN & _).
    set (F := fun j => if j =? i then None else m_get (A ++ (i, v) :: B) j).
    assert (Fin : forall s', opost s F s' -> i <> 0 /\ m_get (A ++ (i, v) :: B) i <> None /\ opost s F s').
    { intros s' OP. rewrite (m_get_mid _ A B i v HA). repeat split; [exact Hi|discriminate|exact OP]. }
    apply wp_bind, wp_tx_begin. intros Htx.
    apply wp_bind, wp_bind, wp_get_rtab, wp_put_rtab. st.
    apply wp_bind, (wp_is_at_end ops CN). st.
    unfold r_end. cbn [r_pos r_size].
    set (s1 := set_rtab cdata (set_tx cdata s (tx s + 1)) (free_index (rtab s) i)).
    (* without index i the table describes the other regions; the bytes of (i, v) are a gap *)
    assert (GT : gtiles s1 A (enc (i, v)) B).
    { unfold gtiles, s1. st. split; [rewrite Hcur, ser_app; reflexivity|]. split; [exact Hlen|].
      split; [|split; [apply (rwf_table (rtab s)); assumption|exact Hv]].
      rewrite lenN_enc. cbn [snd].
      apply (trel_live (rtab s) _ i _ None (layout 24 A ++ layout (24 + slen A + (16 + lenN v)) B) _ _ TR Hi HLi Hlive Hfps2).
      - intros x. apply layout_mid. reflexivity.
      - intros x. cbn [at_idx]. intros -> Hin. apply layout_hole in Hin. lia.
      - intros x. cbn [at_idx]. tauto. }
    destruct (N.eqb_spec (lenN (cur (sdata s))) (24 + slen A + 16 + lenN v)) as [Eend|Nend].
    - (* the record is the last region: truncate *)
      assert (B = []) by (apply slen_0; lia). subst B.
      apply wp_bind. unfold truncate. apply wp_bind, (wp_get_len ops CN).
      change (cur (sdata s1)) with (cur (sdata s)).
      destruct (N.ltb_spec (24 + slen A) (lenN (cur (sdata s)))) as [_|]; [|lia].
      apply (wp_dresize ops CN).
      apply (commit_spec s _ F _ _ _ (gtiles_truncate _ _ _ GT)); [|reflexivity|reflexivity|exact Fin].
      intros j Hj. apply m_get_take_out; auto. now rewrite app_nil_r.
    - (* the region becomes free *)
      apply wp_bind.
      replace (lenN v) with (lenN (enc (i, v)) - 16) by (rewrite lenN_enc; cbn [snd]; lia).
      apply (free_a_region_spec ops CN _ _ _ _ _ _ GT); [rewrite lenN_enc; lia|].
      intros s' A' F1 F2 B' X EA EB HF1 HF2 T' Hlen' Htx' Hdur'.
      apply (commit_spec s s' F _ _ _ T'); [|rewrite Htx'; reflexivity|rewrite Hdur'; reflexivity|exact Fin].
      intros j Hj. apply m_get_take_out; auto. subst A B. apply lmap_merged; assumption.
  Qed.

  (* index i now holds v'; everything else is as it was; r' is the record of i *)
  Definition vpost (s : ST) (A : list region) (i : N) (B : list region) (v' : bytes) (s' : ST) (r' : srec) : Prop :=
    exists A2 B2, tiles s' (A2 ++ (i, v') :: B2) /\
      r' = {| r_index := i; r_pos := 24 + slen A2; r_size := lenN v' |} /\
      lmap (A2 ++ B2) = lmap (A ++ B) /\
      tx s' = tx s /\ dur (sdata s') = dur (sdata s).

  (* the size field of the header of (i, v) is overwritten *)
  Lemma size_field_write s A i v B new : tiles s (A ++ (i, v) :: B) ->
    bs_write (cur (sdata s)) (N.to_nat (24 + slen A + 8)) (le64 new) = vrec ++ ser A ++ le64 i ++ le64 new ++ v ++ ser B.
  Proof.
    intros T. destruct (tiles_elim _ _ T) as (Hcur & _).
    rewrite Hcur, ser_app. cbn [ser]. unfold enc. cbn [fst snd].
    rewrite <- !app_assoc, !(app_assoc vrec (ser A)). apply hdr_size_write. rewrite length_vrec_ser. lia.
  Qed.

  Lemma move_to_end_spec s A i v B new :
    tiles s (A ++ (i, v) :: B) -> i <> 0 ->
    wp (move_to_end cdata ops {| r_index := i; r_pos := 24 + slen A; r_size := lenN v |} new) s
       (vpost s A i B (pad_to v new)) (fun _ _ => False).
  Proof.
    intros T Hi. destruct (cur_split _ _ _ _ _ T) as (Hcur2 & HLEN & HPL).
    pose proof (lenN_enc (i, v)) as HE. cbn [snd] in HE.
    assert (X0 : xgtiles s A (enc (i, v)) B [(24 + slen A, i, lenN v)] (fun _ => False))
      by (apply xt_give_up; [apply tiles_xt; exact T|exact Hi]).
    unfold move_to_end. apply wp_bind. unfold read_value, value_start. cbn [r_pos r_size].
    apply (wp_dread ops CN); [lia|].
    rewrite Hcur2, bs_read_mid; [|lia|unfold lenN; lia].
    apply wp_bind, (wp_get_len ops CN). apply wp_bind.
    replace (lenN v) with (lenN (enc (i, v)) - 16) at 1 by lia.
    apply (free_a_region_x ops CN _ _ _ _ _ _ _ _ X0); [lia|tauto|].
    intros s1 A' F1 F2 B' Y EA EB HF1 HF2 X1 _ Hlen1 Htx1 Hdur1.
    rewrite <- Hlen1. set (L := lenN (cur (sdata s1))). set (rg1 := A' ++ (0, Y) :: B') in *.
    pose proof X1 as (Hcur1 & Hlt1 & HL1 & _ & _ & [TW1 _] & _).
    assert (HL : L = 24 + slen rg1) by (unfold L; rewrite Hcur1, lenN_app, lenN_vrec; reflexivity).
    assert (HLi1 : live_at (recs (rtab s1)) i = Some (24 + slen A, lenN v)) by (apply HL1; [exact Hi|left; reflexivity]).
    destruct (set_pos_size_live (rtab s1) i _ _ L new TW1 HLi1) as (Hl & TWb & Hfb & Hsb).
    apply wp_bind, (wp_update_record ops CN); [st; lia|]. cbn [r_index].
    apply wp_bind. unfold append. apply wp_bind, (wp_get_len ops CN). st.
    assert (HLn : N.to_nat L = length (cur (sdata s1))) by (unfold L, lenN; lia).
    assert (Hlen2 : lenN (bs_write (cur (sdata s1)) (N.to_nat L) (le64 i ++ le64 new)) = L + 16).
    { unfold lenN. rewrite bs_write_length, app_length, !le64_length. unfold L, lenN. lia. }
    rewrite Hlen2.
    apply (wp_dwrite ops CN); [st; rewrite Hlen2; lia|]. intros Hov. st.
    rewrite (place_end (cur (sdata s1)) (le64 i ++ le64 new) (pad_to v new) (N.to_nat L) (N.to_nat (L + 16)));
      [|assumption|rewrite app_length, !le64_length; reflexivity|lia].
    apply wp_ret. rewrite lenN_pad_to in Hov.
    exists rg1, []. split.
    { apply (xt_place_end s1 _ rg1 i (Some (24 + slen A, lenN v)) (pad_to v new) new _ X1 Hi HLi1 Hl TWb Hfb Hsb);
        [apply lenN_pad_to|fold L; lia|reflexivity|reflexivity|reflexivity]. }
    split; [rewrite lenN_pad_to; f_equal; exact HL|].
    split; [|split; [exact Htx1|exact Hdur1]].
    rewrite app_nil_r. unfold rg1. subst A B. apply lmap_merged; assumption.
  Qed.

  Lemma enlarge_at_end_spec s A i v new :
    tiles s (A ++ [(i, v)]) -> i <> 0 -> lenN v < new ->
    wp (enlarge_at_end cdata ops {| r_index := i; r_pos := 24 + slen A; r_size := lenN v |} new) s
       (vpost s A i [] (pad_to v new)) (fun _ _ => False).
  Proof.
    intros T Hi Hnew. pose proof (tiles_elim _ _ T) as (Hcur & Hlen & TR & RW & Hv). pose proof RW as [TW FW].
    destruct (cur_split _ _ _ _ _ T) as (_ & HLEN & _). rewrite slen_nil in HLEN.
    pose proof (tiles_live _ _ _ _ _ T Hi) as HLi.
    unfold enlarge_at_end, with_size. cbn [r_index r_pos r_size].
    apply wp_bind, wp_do_set_size.
    apply wp_bind. apply (wp_dwrite ops CN); [st; lia|]. intros _. st.
    apply wp_bind. unfold append. apply wp_bind, (wp_get_len ops CN). st.
    rewrite (size_field_write _ _ _ _ _ new T). cbn [ser]. rewrite app_nil_r.
    assert (Hlen1 : lenN (vrec ++ ser A ++ le64 i ++ le64 new ++ v) = lenN (cur (sdata s))).
    { rewrite HLEN, !lenN_app, !lenN_le64, lenN_vrec. unfold slen. lia. }
    rewrite Hlen1.
    apply (wp_dwrite ops CN); [st; rewrite Hlen1; lia|]. intros Hov. st. apply wp_ret.
    rewrite bs_write_end by (unfold lenN in *; lia).
    destruct (set_size_live (rtab s) i _ _ new TW HLi) as (Hl2 & TWb & Hfb & Hsb).
    rewrite lenN_zeros in Hov.
    exists A, []. split.
    { apply tiles_intro; st.
      - rewrite ser_app. cbn [ser]. rewrite app_nil_r. unfold enc. cbn [fst snd].
        rewrite lenN_pad_to, pad_to_grow by lia. rewrite <- !app_assoc. reflexivity.
      - rewrite lenN_app, Hlen1, lenN_zeros. lia.
      - apply (trel_live (rtab s) _ i _ (Some (24 + slen A, new)) (layout 24 A) _ _ TR Hi HLi Hl2 Hfb).
        + intros x. apply layout_snoc.
        + intros x. cbn [at_idx]. intros -> Hin. apply layout_range in Hin. lia.
        + intros x. rewrite layout_snoc, lenN_pad_to. reflexivity.
      - apply (rwf_table (rtab s)); assumption.
      - exact Hv. }
    split; [rewrite lenN_pad_to; reflexivity|]. split; [reflexivity|]. split; reflexivity.
  Qed.

  Lemma enlarge_in_place_spec s A i v p B1 new :
    tiles s (A ++ (i, v) :: (0, p) :: B1) -> i <> 0 -> lenN v < new ->
    (16 + lenN p = new - lenN v \/ new - lenN v <= lenN p) ->
    wp (enlarge_in_place cdata ops {| r_index := i; r_pos := 24 + slen A; r_size := lenN v |} new (lenN p))
       (set_rtab cdata s (remove_free (rtab s) (24 + slen A + 16 + lenN v)))
       (vpost s A i ((0, p) :: B1) (pad_to v new)) (fun _ _ => False).
  Proof.
    intros T Hi Hnew Hfit. pose proof (tiles_elim _ _ T) as (Hcur & Hlen & TR & RW & Hv).
    pose proof TR as [_ TF]. pose proof RW as [TW FW].
    destruct (cur_split _ _ _ _ _ T) as (_ & HLEN & _). rewrite slen_cons in HLEN. cbn [snd] in HLEN.
    pose proof (tiles_live _ _ _ _ _ T Hi) as HLi.
    pose proof (lenN_enc (0, p)) as HE. cbn [snd] in HE.
    assert (He : 24 + slen A + 16 + lenN v = 24 + slen (A ++ [(i, v)]))
      by (rewrite slen_snoc; lia).
    set (e := 24 + slen A + 16 + lenN v) in *. set (d := new - lenN v).
    (* the free region that follows is taken out of the maps: a gap after (i, v) *)
    assert (T1 : tiles s ((A ++ [(i, v)]) ++ (0, p) :: B1)) by (rewrite <- app_assoc; exact T).
    assert (Hfe : m_get (fps (rtab s)) e = Some (lenN p)).
    { destruct (tiles_elim _ _ T1) as (_ & _ & [_ TF'] & _). apply TF', (layout_mid _ 0 p B1 _ _ eq_refl).
      left. rewrite He. reflexivity. }
    assert (TR0 : trel (remove_free (rtab s) e)
                    (layout 24 (A ++ [(i, v)]) ++ layout (24 + slen (A ++ [(i, v)]) + lenN (enc (0, p))) B1)).
    { rewrite He in *. exact (proj1 (proj2 (proj2 (proj2 (gtiles_xg _ _ _ _) (xt_taken_gap _ _ _ _ _ (xt_take _ _ _ _ T1 Hfe)))))). }
    unfold enlarge_in_place, with_size, r_end. cbn [r_index r_pos r_size]. fold e.
    apply wp_bind, wp_do_set_size.
    apply wp_bind. apply (wp_dwrite ops CN); [st; lia|]. intros _. st.
    rewrite (size_field_write _ _ _ _ _ new T). cbn [ser].
    assert (Hd : d <= 16 + lenN p) by (unfold d; lia).
    apply wp_bind. apply (wp_dwrite ops CN).
    { st. rewrite !lenN_app, !lenN_le64, lenN_vrec, HE. unfold e, slen. lia. }
    intros _. st.
    set (g := skipn (N.to_nat d) (enc (0, p))).
    assert (Hg : lenN g = 16 + lenN p - d).
    { unfold g, lenN. rewrite skipn_length. unfold lenN in HE. lia. }
    assert (Hcur2 : bs_write (vrec ++ ser A ++ le64 i ++ le64 new ++ v ++ enc (0, p) ++ ser B1) (N.to_nat e) (zeros d)
                    = vrec ++ ser (A ++ [(i, pad_to v new)]) ++ g ++ ser B1).
    { rewrite <- (firstn_skipn (N.to_nat d) (enc (0, p))) at 1. fold g.
      replace (vrec ++ ser A ++ le64 i ++ le64 new ++ v ++ (firstn (N.to_nat d) (enc (0, p)) ++ g) ++ ser B1)
        with ((vrec ++ ser A ++ le64 i ++ le64 new ++ v) ++ firstn (N.to_nat d) (enc (0, p)) ++ (g ++ ser B1))
        by (rewrite <- !app_assoc; reflexivity).
      rewrite bs_write_mid.
      - rewrite ser_app. cbn [ser]. rewrite app_nil_r. unfold enc. cbn [fst snd].
        rewrite lenN_pad_to, pad_to_grow by lia. fold d. rewrite <- !app_assoc. reflexivity.
      - rewrite !app_length, !le64_length. change (length vrec) with 24%nat. unfold e, slen, lenN. lia.
      - rewrite zeros_length, firstn_length. unfold lenN in *. lia. }
    fold d. rewrite Hcur2.
    destruct (set_size_live (remove_free (rtab s) e) i _ _ new TW HLi) as (Hl2 & TWb & Hfb & Hsb).
    set (s2 := set_cur (set_cur (set_rtab cdata (set_rtab cdata s (remove_free (rtab s) e)) _) _) _).
    assert (GT : gtiles s2 (A ++ [(i, pad_to v new)]) g B1).
    { unfold gtiles, s2. st. split; [reflexivity|]. split.
      { rewrite !lenN_app, lenN_vrec, Hg. rewrite ser_app, lenN_app. cbn [ser]. rewrite app_nil_r, lenN_enc.
        cbn [snd]. rewrite lenN_pad_to. rewrite HLEN in Hlen. unfold slen in *. lia. }
      split; [|split; [|exact Hv]].
      - apply (trel_live _ _ i _ (Some (24 + slen A, new))
                 (layout 24 A ++ layout (24 + slen A + (16 + lenN v + (16 + lenN p))) B1) _ _ TR0 Hi HLi Hl2 Hfb).
        + intros x. apply layout_snoc_hole. rewrite HE. reflexivity.
        + intros x. cbn [at_idx]. intros -> Hin. apply layout_hole in Hin. lia.
        + intros x. cbn [at_idx].
          rewrite (layout_snoc_hole A i (pad_to v new) (lenN g) B1 (16 + lenN v + (16 + lenN p)) x), lenN_pad_to;
            [reflexivity|rewrite lenN_pad_to, Hg; unfold d; lia].
      - apply (rwf_table (remove_free (rtab s) e)); try assumption.
        split; [exact TW|exact (fwf_remove_free _ _ _ FW Hfe)]. }
    assert (Htx2 : tx s2 = tx s) by reflexivity.
    assert (Hdur2 : dur (sdata s2) = dur (sdata s)) by reflexivity.
    clearbody s2. clear Hcur2.
    replace (lenN v + 16 + lenN p - new) with (16 + lenN p - d) by (unfold d; lia).
    destruct (N.eqb_spec (16 + lenN p - d) 0) as [Ez|Enz]; cbn [negb].
    - assert (Eg : g = []) by (apply lenN_0_nil; lia). rewrite Eg in GT. apply gtiles_nil in GT.
      rewrite <- app_assoc in GT. cbn [app] in GT.
      apply wp_bind, wp_ret. apply wp_ret. exists A, B1. split; [exact GT|].
      split; [rewrite lenN_pad_to; reflexivity|]. split; [|split; assumption].
      rewrite !lmap_app, lmap_cons0. reflexivity.
    - assert (16 <= lenN g) by (rewrite Hg; unfold d in *; lia).
      apply wp_bind.
      replace (24 + slen A + 16 + new) with (24 + slen (A ++ [(i, pad_to v new)]))
        by (rewrite slen_snoc, lenN_pad_to; lia).
      replace (16 + lenN p - d - 16) with (lenN g - 16) by lia.
      apply (free_a_region_spec ops CN _ _ _ _ _ _ GT); [assumption|].
      intros s' A' F1 F2 B' X EA EB HF1 HF2 T' Hlen' Htx' Hdur'.
      destruct (app_last_live _ _ _ _ _ EA HF1 Hi) as [-> ->]. subst B1.
      rewrite <- app_assoc in T'. cbn [app] in T'.
      apply wp_ret. exists A, ((0, X) :: B'). split; [exact T'|].
      split; [rewrite lenN_pad_to; reflexivity|]. split; [|split; congruence].
      rewrite !lmap_app, !lmap_cons0, lmap_app, (lmap_free F2 HF2). reflexivity.
  Qed.

  Lemma enlarge_move_to_spec s A i v B new fpos fs :
    tiles s (A ++ (i, v) :: B) -> i <> 0 -> lenN v < new ->
    m_get (fps (rtab s)) fpos = Some fs -> (fs = new \/ new + 16 <= fs) ->
    wp (enlarge_move_to cdata ops {| r_index := i; r_pos := 24 + slen A; r_size := lenN v |} new fpos fs)
       (set_rtab cdata s (remove_free (rtab s) fpos))
       (vpost s A i B (pad_to v new)) (fun _ _ => False).
  Proof.
    intros T Hi Hnew Hfp Hfit. destruct (cur_split _ _ _ _ _ T) as (Hcur2 & HLEN & HPL).
    pose proof (tiles_elim _ _ T) as (_ & _ & [_ TF] & _).
    pose proof (lenN_enc (i, v)) as HE. cbn [snd] in HE.
    (* the free region taken for the value lies outside the region of (i, v) *)
    assert (Hin0 : In (fpos, 0, fs) (layout 24 A ++ layout (24 + slen A + lenN (enc (i, v))) B)).
    { apply TF in Hfp. apply (layout_mid A i v B _ _ HE) in Hfp. destruct Hfp as [E|Hin]; [congruence|exact Hin]. }
    assert (HPf : fpos <> 24 + slen A) by (intros ->; apply layout_hole in Hin0; lia).
    set (s0 := set_rtab cdata s (remove_free (rtab s) fpos)).
    assert (X0 : xgtiles s0 A (enc (i, v)) B [(24 + slen A, i, lenN v)] (eq fpos))
      by (apply xt_give_up; [exact (xt_take _ _ _ _ T Hfp)|exact Hi]).
    unfold enlarge_move_to. apply wp_bind. unfold value_start. cbn [r_pos r_size].
    apply (wp_dread ops CN); [unfold s0; st; lia|].
    change (cur (sdata s0)) with (cur (sdata s)). rewrite Hcur2, bs_read_mid; [|lia|unfold lenN; lia].
    apply wp_bind. replace (lenN v) with (lenN (enc (i, v)) - 16) at 1 by lia.
    apply (free_a_region_x ops CN _ _ _ _ _ _ _ _ X0); [lia|exact HPf|].
    intros s1 A' F1 F2 B' Y EA EB HF1 HF2 X1 Hstay Hlen1 Htx1 Hdur1.
    (* the taken region is still there: the file is C1, (0, p'), C2 *)
    destruct (layout_split _ _ _ _ _ (Hstay _ _ eq_refl Hin0)) as (C1 & p' & C2 & Erg1 & <- & ->).
    assert (Hlm : lmap (C1 ++ C2) = lmap (A ++ B)).
    { transitivity (lmap (A' ++ (0, Y) :: B')); [rewrite Erg1, !lmap_app, lmap_cons0; reflexivity|].
      subst A B. apply lmap_merged; assumption. }
    rewrite Erg1 in X1. apply xt_taken_gap in X1.
    pose proof (xgtiles_len _ _ _ _ _ _ X1) as HLEN1. rewrite lenN_enc in HLEN1. cbn [snd] in HLEN1.
    destruct X1 as [Hc1 XR1]. pose proof XR1 as (_ & HL1 & _ & _ & [TW1 _] & _).
    assert (HLi1 : live_at (recs (rtab s1)) i = Some (24 + slen A, lenN v)) by (apply HL1; [exact Hi|left; reflexivity]).
    destruct (set_pos_size_live (rtab s1) i _ _ (24 + slen C1) new TW1 HLi1) as (Hl & TWb & Hfb & Hsb).
    apply wp_bind, (wp_update_record ops CN); [lia|]. cbn [r_index].
    apply wp_bind. unfold value_start. cbn [r_pos]. apply (wp_dwrite ops CN).
    { st. unfold lenN. rewrite bs_write_length, app_length, !le64_length. unfold lenN in HLEN1. lia. }
    intros _. st.
    set (g2 := skipn (16 + length (pad_to v new)) (enc (0, p'))).
    assert (Hg2 : lenN g2 = lenN p' - new).
    { unfold g2, lenN. rewrite skipn_length, pad_to_length. pose proof (lenN_enc (0, p')) as E. cbn [snd] in E. unfold lenN in E. lia. }
    set (s3 := set_cur (set_cur (set_rtab cdata s1 _) _) _).
    assert (GT : gtiles s3 (C1 ++ [(i, pad_to v new)]) g2 C2).
    { apply (xg_place s1 s3 C1 _ C2 i (Some (24 + slen A, lenN v)) (pad_to v new) new _ (conj Hc1 XR1) Hi HLi1 Hl TWb Hfb Hsb);
        [apply lenN_pad_to|rewrite lenN_enc; cbn [snd]; lia|reflexivity|reflexivity|reflexivity]. }
    assert (Htx3 : tx s3 = tx s) by exact Htx1.
    assert (Hdur3 : dur (sdata s3) = dur (sdata s)) by exact Hdur1.
    clearbody s3.
    destruct (N.ltb_spec new (lenN p')) as [Hlt|Hge].
    - apply wp_bind. unfold r_end. cbn [r_pos r_size].
      replace (24 + slen C1 + 16 + new) with (24 + slen (C1 ++ [(i, pad_to v new)])) by (rewrite slen_snoc, lenN_pad_to; lia).
      replace (lenN p' - new - 16) with (lenN g2 - 16) by lia.
      apply (free_a_region_spec ops CN _ _ _ _ _ _ GT); [lia|].
      intros s' A'' F1' F2' B'' X2 EA' EB' HF1' HF2' T' Hlen' Htx' Hdur'.
      destruct (app_last_live _ _ _ _ _ EA' HF1' Hi) as [-> ->]. subst C2.
      rewrite <- app_assoc in T'. cbn [app] in T'.
      apply wp_ret. exists C1, ((0, X2) :: B''). split; [exact T'|].
      split; [rewrite lenN_pad_to; reflexivity|]. split; [|split; congruence].
      rewrite <- Hlm, !lmap_app, lmap_cons0, (lmap_free F2' HF2'). reflexivity.
    - assert (Eg : g2 = []) by (apply lenN_0_nil; lia). rewrite Eg in GT. apply gtiles_nil in GT.
      rewrite <- app_assoc in GT. cbn [app] in GT.
      apply wp_bind, wp_ret. apply wp_ret. exists C1, C2. split; [exact GT|].
      split; [rewrite lenN_pad_to; reflexivity|]. split; [exact Hlm|split; assumption].
  Qed.

  Lemma enlarge_value_spec s A i v B new :
    tiles s (A ++ (i, v) :: B) -> i <> 0 -> lenN v < new ->
    wp (enlarge_value cdata ops {| r_index := i; r_pos := 24 + slen A; r_size := lenN v |} new) s
       (vpost s A i B (pad_to v new)) (fun _ _ => False).
  Proof.
    intros T Hi Hnew. pose proof (tiles_elim _ _ T) as (Hcur & Hlen & [TL TF] & [TW FW] & Hv).
    destruct (cur_split _ _ _ _ _ T) as (_ & HLEN & _).
    unfold enlarge_value. apply wp_bind, (wp_is_at_end ops CN).
    unfold r_end. cbn [r_pos r_size].
    destruct (N.eqb_spec (lenN (cur (sdata s))) (24 + slen A + 16 + lenN v)) as [Eend|Nend].
    - assert (B = []) by (apply slen_0; lia). subst B. apply enlarge_at_end_spec; assumption.
    - apply wp_bind, wp_get_rtab.
      destruct (take_free_after (rtab s) (24 + slen A + 16 + lenN v) (new - lenN v)) as [[rs' [q fs]]|] eqn:TA.
      + destruct (take_free_after_spec _ _ _ _ _ _ TA) as (-> & Hfe & Hfit & ->).
        (* the free region that starts where (i, v) ends is the next region *)
        apply TF, (layout_mid A i v B _ _ eq_refl) in Hfe. destruct Hfe as [E|Hin]; [congruence|].
        apply in_app_or in Hin. destruct Hin as [Hin|Hin]; [apply layout_range in Hin; lia|].
        replace (24 + slen A + 16 + lenN v) with (24 + slen A + (16 + lenN v)) in * by lia.
        destruct (layout_at_start _ _ _ _ Hin) as (p & B1 & -> & <-).
        replace (24 + slen A + (16 + lenN v)) with (24 + slen A + 16 + lenN v) in * by lia.
        apply wp_bind, wp_put_rtab. apply enlarge_in_place_spec; assumption.
      + destruct (take_free (rtab s) new) as [[rs' [fpos fs]]|] eqn:TK.
        * destruct (take_free_spec _ _ _ _ _ FW TK) as (Hfp & Hle & Hfit & ->).
          apply wp_bind, wp_put_rtab. apply enlarge_move_to_spec; assumption.
        * apply move_to_end_spec; assumption.
  Qed.

  Lemma shrink_value_spec s A i v B new :
    tiles s (A ++ (i, v) :: B) -> i <> 0 -> new < lenN v ->
    wp (shrink_value cdata ops {| r_index := i; r_pos := 24 + slen A; r_size := lenN v |} new) s
       (vpost s A i B (pad_to v new)) (fun _ _ => False).
  Proof.
    intros T Hi Hnew. pose proof (tiles_elim _ _ T) as (Hcur & Hlen & TR & RW & Hv). pose proof RW as [TW FW].
    destruct (cur_split _ _ _ _ _ T) as (_ & HLEN & _).
    pose proof (tiles_live _ _ _ _ _ T Hi) as HLi.
    set (v1 := (firstn (N.to_nat new) v : bytes)). set (v2 := (skipn (N.to_nat new) v : bytes)).
    assert (Ev : v = v1 ++ v2) by (symmetry; apply firstn_skipn).
    assert (Hv1 : lenN v1 = new) by (unfold v1, lenN in *; rewrite firstn_length; lia).
    assert (Hv2 : lenN v2 = lenN v - new) by (unfold v2, lenN in *; rewrite skipn_length; lia).
    rewrite (pad_to_shrink v new) by lia. fold v1.
    destruct (set_size_live (rtab s) i _ _ new TW HLi) as (Hl2 & TWb & Hfb & Hsb).
    (* in both in-place cases the size field is rewritten: the tail v2 of the value is then a gap *)
    set (s2 := set_cur (set_rtab cdata s (set_size (rtab s) i new))
                       (bs_write (cur (sdata s)) (N.to_nat (24 + slen A + 8)) (le64 new))).
    assert (GT : gtiles s2 (A ++ [(i, v1)]) v2 B).
    { unfold gtiles, s2. st. split.
      { rewrite (size_field_write _ _ _ _ _ new T), ser_app. cbn [ser]. rewrite app_nil_r. unfold enc. cbn [fst snd].
        rewrite Hv1, Ev at 1. rewrite <- !app_assoc. reflexivity. }
      split.
      { rewrite (size_field_write _ _ _ _ _ new T), !lenN_app, !lenN_le64, lenN_vrec. rewrite HLEN in Hlen. unfold slen in *. lia. }
      split; [|split; [apply (rwf_table (rtab s)); assumption|exact Hv]].
      apply (trel_live (rtab s) _ i _ (Some (24 + slen A, new))
               (layout 24 A ++ layout (24 + slen A + (16 + lenN v)) B) _ _ TR Hi HLi Hl2 Hfb).
      - intros x. apply layout_mid. reflexivity.
      - intros x. cbn [at_idx]. intros -> Hin. apply layout_hole in Hin. lia.
      - intros x. cbn [at_idx]. rewrite <- Hv1 at 1. apply layout_snoc_hole. lia. }
    assert (Htx2 : tx s2 = tx s) by reflexivity.
    assert (Hdur2 : dur (sdata s2) = dur (sdata s)) by reflexivity.
    assert (Hlen2 : lenN (cur (sdata s2)) = lenN (cur (sdata s))).
    { rewrite (gtiles_len _ _ _ _ GT), slen_snoc. lia. }
    unfold shrink_value. apply wp_bind, (wp_is_at_end ops CN).
    unfold r_end, with_size. cbn [r_pos r_size r_index].
    destruct (N.eqb_spec (lenN (cur (sdata s))) (24 + slen A + 16 + lenN v)) as [Eend|Nend].
    - (* at the end: truncate *)
      assert (B = []) by (apply slen_0; lia). subst B.
      apply wp_bind, wp_do_set_size.
      apply wp_bind. apply (wp_dwrite ops CN); [st; lia|]. intros _. change (set_cur _ _) with s2.
      apply wp_bind. unfold truncate. apply wp_bind, (wp_get_len ops CN). rewrite Hlen2.
      destruct (N.ltb_spec (24 + slen A + 16 + new) (lenN (cur (sdata s)))) as [_|]; [|lia].
      apply (wp_dresize ops CN). apply wp_ret. exists A, []. split.
      { rewrite <- (app_nil_r (A ++ [(i, v1)])).
        replace (24 + slen A + 16 + new) with (24 + slen (A ++ [(i, v1)]))
          by (rewrite slen_snoc; lia).
        rewrite app_nil_r. exact (gtiles_truncate _ _ _ GT). }
      split; [rewrite Hv1; reflexivity|]. split; [reflexivity|split; reflexivity].
    - destruct (N.leb_spec 16 (lenN v - new)) as [H16|Hsmall].
      + (* the freed tail becomes a free region *)
        apply wp_bind, wp_do_set_size.
        apply wp_bind. apply (wp_dwrite ops CN); [st; lia|]. intros _. change (set_cur _ _) with s2.
        apply wp_bind.
        replace (24 + slen A + 16 + new) with (24 + slen (A ++ [(i, v1)]))
          by (rewrite slen_snoc, Hv1; lia).
        replace (lenN v - new - 16) with (lenN v2 - 16) by lia.
        apply (free_a_region_spec ops CN _ _ _ _ _ _ GT); [lia|].
        intros s' A' F1 F2 B' X EA EB HF1 HF2 T' Hlen' Htx' Hdur'.
        destruct (app_last_live _ _ _ _ _ EA HF1 Hi) as [-> ->]. subst B.
        rewrite <- app_assoc in T'. cbn [app] in T'.
        apply wp_ret. exists A, ((0, X) :: B'). split; [exact T'|].
        split; [rewrite Hv1; reflexivity|]. split; [|split; congruence].
        rewrite !lmap_app, lmap_cons0, (lmap_free F2 HF2). reflexivity.
      + (* too small to split: move to the end *)
        unfold v1. rewrite <- (pad_to_shrink v new) by lia. apply move_to_end_spec; assumption.
  Qed.
End Ops.
