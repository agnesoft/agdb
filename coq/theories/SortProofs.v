(* SortProofs.v — C16: SearchQuery::sort.  The comparator order_cmp is the lexicographic
   combination of the listed keys in their directions with absent keys last, it is a
   total preorder; stable_sort returns a sorted, stable permutation of its input. *)
From Agdb Require Import Bytes DbValue DbValueProofs Graph DbModel Search.
From Coq Require Import Permutation Sorted.
Open Scope Z_scope.

(* one key: elements having the key first (in both directions), then by the derived order
   of DbValue, reversed for Desc *)
Definition dir_cmp (o : key_order) : dbvalue -> dbvalue -> comparison :=
  match o with Asc _ => dbv_cmp | Desc _ => fun a b => CompOpp (dbv_cmp a b) end.

Definition key_cmp (d : db) (o : key_order) (l r : Z) : comparison :=
  opt_cmp (dir_cmp o) (kvs_value (vals d) l (order_key o)) (kvs_value (vals d) r (order_key o)).

Lemma order_cmp_nil d l r : order_cmp d [] l r = Eq.
Proof. reflexivity. Qed.

(* the first key decides unless it compares Eq *)
Lemma order_cmp_cons d o rest l r :
  order_cmp d (o :: rest) l r = cmp_then (key_cmp d o l r) (order_cmp d rest l r).
Proof.
  cbn [order_cmp]. unfold key_cmp, opt_cmp, dir_cmp.
  destruct (kvs_value (vals d) l (order_key o)) as [x|], (kvs_value (vals d) r (order_key o)) as [y|];
    try reflexivity; destruct o; cbn [cmp_then]; destruct (dbv_cmp x y); reflexivity.
Qed.

Lemma cmp_ok_ext {A} (c1 c2 : A -> A -> comparison) :
  (forall x y, c1 x y = c2 x y) -> cmp_ok c1 -> cmp_ok c2.
Proof.
  intros E OK. split.
  - intros x y. rewrite <- !E. apply (cmp_antisym c1 OK).
  - intros x y z c. rewrite <- !E. apply (cmp_eq_trans c1 OK).
  - intros x y z. rewrite <- !E. apply (cmp_lt_trans c1 OK).
Qed.

Lemma dir_cmp_ok o : cmp_ok (dir_cmp o).
Proof. destruct o; cbn [dir_cmp]; [exact dbv_cmp_ok|exact (cmp_ok_opp dbv_cmp dbv_cmp_ok)]. Qed.

Lemma key_cmp_ok d o : cmp_ok (key_cmp d o).
Proof.
  unfold key_cmp.
  exact (cmp_ok_key (fun i => kvs_value (vals d) i (order_key o)) (opt_cmp (dir_cmp o))
           (cmp_ok_opt (dir_cmp o) (dir_cmp_ok o))).
Qed.

Theorem order_cmp_ok d orders : cmp_ok (order_cmp d orders).
Proof.
  induction orders as [|o rest IH].
  - split; intros; cbn [order_cmp CompOpp] in *; congruence.
  - apply (cmp_ok_ext (fun l r => cmp_then (key_cmp d o l r) (order_cmp d rest l r))).
    + intros x y. symmetry. apply order_cmp_cons.
    + apply cmp_ok_then; [apply key_cmp_ok|exact IH].
Qed.

Section Sort.
  Variable cmp : Z -> Z -> comparison.

  Definition cmp_le (x y : Z) : Prop := cmp x y <> Gt.

  Lemma stable_sort_cons x l : stable_sort cmp (x :: l) = insert_sorted cmp x (stable_sort cmp l).
  Proof. reflexivity. Qed.

  Lemma insert_sorted_perm x l : Permutation (x :: l) (insert_sorted cmp x l).
  Proof.
    induction l as [|y r IH]; cbn [insert_sorted]; [reflexivity|].
    destruct (cmp x y); try reflexivity.
    eapply perm_trans; [apply perm_swap|]. apply perm_skip. exact IH.
  Qed.

  Theorem stable_sort_perm l : Permutation l (stable_sort cmp l).
  Proof.
    induction l as [|x l IH]; [reflexivity|]. rewrite stable_sort_cons.
    eapply perm_trans; [apply perm_skip; exact IH|]. apply insert_sorted_perm.
  Qed.

  Hypothesis OK : cmp_ok cmp.

  Lemma insert_sorted_sorted x l :
    StronglySorted cmp_le l -> StronglySorted cmp_le (insert_sorted cmp x l).
  Proof.
    induction 1 as [|y r SS IH HF]; cbn [insert_sorted].
    - constructor; constructor.
    - destruct (cmp x y) eqn:E.
      (* Eq and Lt alike: x goes in front *)
      1,2: constructor; [constructor; assumption|];
        constructor; [unfold cmp_le; congruence|];
        eapply Forall_impl; [|exact HF]; intros z Hz; unfold cmp_le in *;
        apply (cmp_le_trans cmp OK x y z); congruence.
      + constructor; [exact IH|].
        eapply Permutation_Forall; [apply insert_sorted_perm|].
        constructor; [|exact HF].
        unfold cmp_le. apply (cmp_gt_lt cmp OK) in E. congruence.
  Qed.

  Theorem stable_sort_sorted l : StronglySorted cmp_le (stable_sort cmp l).
  Proof.
    induction l as [|x l IH]; [constructor|]. rewrite stable_sort_cons. apply insert_sorted_sorted, IH.
  Qed.

  Lemma sorted_pairs l :
    StronglySorted cmp_le l -> forall l1 x l2 y l3, l = l1 ++ x :: l2 ++ y :: l3 -> cmp_le x y.
  Proof.
    intros SS l1. revert l SS. induction l1 as [|a l1 IH]; intros l SS x l2 y l3 ->; cbn [app] in SS.
    - apply StronglySorted_inv in SS as [_ HF]. rewrite Forall_forall in HF. apply HF.
      apply in_or_app. right. left. reflexivity.
    - apply StronglySorted_inv in SS as [SS _]. exact (IH _ SS x l2 y l3 eq_refl).
  Qed.

  Theorem stable_sort_ordered l l1 x l2 y l3 :
    stable_sort cmp l = l1 ++ x :: l2 ++ y :: l3 -> cmp x y <> Gt.
  Proof. intros E. exact (sorted_pairs _ (stable_sort_sorted l) l1 x l2 y l3 E). Qed.

  Corollary stable_sort_adjacent l l1 x y l3 :
    stable_sort cmp l = l1 ++ x :: y :: l3 -> cmp x y <> Gt.
  Proof. intros E. exact (stable_sort_ordered l l1 x [] y l3 E). Qed.

  (* stability: the elements that compare Eq to any given x keep their relative order *)
  Lemma insert_sorted_filter x a l :
    filter (fun y => is_eq (cmp x y)) (insert_sorted cmp a l) =
    if is_eq (cmp x a) then a :: filter (fun y => is_eq (cmp x y)) l else filter (fun y => is_eq (cmp x y)) l.
  Proof.
    induction l as [|y r IH]; cbn [insert_sorted].
    - cbn [filter]. destruct (is_eq (cmp x a)); reflexivity.
    - destruct (cmp a y) eqn:E; try (cbn [filter]; destruct (is_eq (cmp x a)); reflexivity).
      cbn [filter]. rewrite IH.
      destruct (is_eq (cmp x a)) eqn:Ea; [|reflexivity].
      assert (Exa : cmp x a = Eq) by (destruct (cmp x a); cbn in Ea; congruence).
      rewrite (cmp_eq_trans cmp OK x a y Gt Exa E). reflexivity.
  Qed.

  Theorem stable_sort_stable x l :
    filter (fun y => is_eq (cmp x y)) (stable_sort cmp l) = filter (fun y => is_eq (cmp x y)) l.
  Proof.
    induction l as [|a l IH]; [reflexivity|]. rewrite stable_sort_cons, insert_sorted_filter, IH.
    cbn [filter]. reflexivity.
  Qed.
End Sort.

(* a concrete run: sort by "k" descending then "n" ascending; 4 lacks "k" and goes last,
   2 and 5 are equal on both keys and keep their order *)
Definition sort_example_db : db :=
  let k := DString [x6b] in let n := DString [x6e] in
  {| gr := graph_new; aliases := imap_empty;
     vals := [[]; [(k, DI64 1); (n, DI64 7)]; [(k, DI64 2); (n, DI64 5)]; [(k, DI64 3)];
              [(n, DI64 0)]; [(k, DI64 2); (n, DI64 5)]; [(k, DI64 2); (n, DI64 4)]];
     indexes := []; undo := [] |}.

