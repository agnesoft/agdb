(* UndoDb.v — C13, database level: the simulation relation `sim` (both states well formed and
   observationally equal, component by component), the notion `undoable d d1` (rolling back the
   commands pushed between d and d1 from ANY state similar to d1 gives a state similar to d),
   its composition, and the final rollback statement. *)
From Agdb Require Import Bytes BytesProofs DbValue Graph DbModel Revisions UndoBase UndoObs UndoAlias UndoKv
  UndoGraphBase UndoGraph UndoGraphEdge UndoGraphOps UndoAbs.
From Coq Require Import Permutation ZifyBool ZifyNat ZifyN.
Ltac Zify.zify_post_hook ::= Z.div_mod_to_equations.
Open Scope Z_scope.

Definition gsim (g g' : graph) : Prop := exists a a', rep g a /\ rep g' a' /\ aeqv a a'.
Definition asim (m m' : imap) : Prop := alias_ok m /\ alias_ok m' /\ alias_eq m m'.
Definition vsim (s s' : kvstore) : Prop :=
  (forall i, keys_ok (kvs_get s i)) /\ (forall i, keys_ok (kvs_get s' i)) /\
  (forall i, Permutation (kvs_get s i) (kvs_get s' i)).
Definition isim (ix ix' : list index) : Prop :=
  idx_ok ix /\ idx_ok ix' /\ (forall key, idx_rel (idx_find ix key) (idx_find ix' key)).

Record sim (d d' : db) : Prop := {
  sim_g : gsim (gr d) (gr d');
  sim_a : asim (aliases d) (aliases d');
  sim_v : vsim (vals d) (vals d');
  sim_i : isim (indexes d) (indexes d')
}.

(* well-formedness of one state = similarity with itself *)
Definition db_ok (d : db) : Prop := sim d d.

(* a graph has (up to extensional equality) one abstract view *)
Lemma rep_unique g a a' : rep g a -> rep g a' -> aeqv a a'.
Proof.
  unfold rep. intros R R'. constructor.
  - intros i Hi. rewrite (r_kind _ _ _ _ R), (r_kind _ _ _ _ R') by assumption. reflexivity.
  - rewrite (r_count _ _ _ _ R), (r_count _ _ _ _ R'). reflexivity.
  - intros n Hn Hk. assert (Hk' : ak a' n = KNode).
    { rewrite (r_kind _ _ _ _ R') by assumption. rewrite <- (r_kind _ _ _ _ R) by assumption. exact Hk. }
    destruct (r_out _ _ _ _ R n Hn Hk) as (Hc & _). destruct (r_out _ _ _ _ R' n Hn Hk') as (Hc' & _).
    rewrite (chain_det _ _ _ _ Hc Hc'). reflexivity.
  - intros n Hn Hk. assert (Hk' : ak a' n = KNode).
    { rewrite (r_kind _ _ _ _ R') by assumption. rewrite <- (r_kind _ _ _ _ R) by assumption. exact Hk. }
    destruct (r_in _ _ _ _ R n Hn Hk) as (Hc & _). destruct (r_in _ _ _ _ R' n Hn Hk') as (Hc' & _).
    rewrite (chain_det _ _ _ _ Hc Hc'). reflexivity.
  - intros k. rewrite (fchain_det _ _ _ _ (r_free _ _ _ _ R) (r_free _ _ _ _ R')).
    rewrite (r_acap _ _ _ _ R), (r_acap _ _ _ _ R'). reflexivity.
Qed.

Lemma gsim_sym g g' : gsim g g' -> gsim g' g.
Proof. intros (a & a' & R & R' & E). exists a', a. auto using aeqv_sym. Qed.
Lemma gsim_trans g1 g2 g3 : gsim g1 g2 -> gsim g2 g3 -> gsim g1 g3.
Proof.
  intros (a1 & a2 & R1 & R2 & E12) (a2' & a3 & R2' & R3 & E23). exists a1, a3. split; [assumption|]. split; [assumption|].
  eapply aeqv_trans; [exact E12|]. eapply aeqv_trans; [|exact E23]. apply (rep_unique g2); assumption.
Qed.
Lemma gsim_refl_l g g' : gsim g g' -> gsim g g.
Proof. intros (a & a' & R & R' & E). exists a, a. auto using aeqv_refl. Qed.
Lemma gsim_of_rep g a : rep g a -> gsim g g.
Proof. intros R. exists a, a. auto using aeqv_refl. Qed.

Lemma asim_sym m m' : asim m m' -> asim m' m.
Proof. intros (H1 & H2 & H3). split; [|split]; auto using alias_eq_sym. Qed.
Lemma asim_trans m1 m2 m3 : asim m1 m2 -> asim m2 m3 -> asim m1 m3.
Proof. intros (H1 & H2 & H3) (H4 & H5 & H6). split; [|split]; eauto using alias_eq_trans. Qed.
Lemma asim_refl_l m m' : asim m m' -> asim m m.
Proof. intros (H1 & H2 & H3). split; [|split]; auto using alias_eq_refl. Qed.

Lemma vsim_sym s s' : vsim s s' -> vsim s' s.
Proof. intros (H1 & H2 & H3). repeat split; auto. intros i. symmetry. apply H3. Qed.
Lemma vsim_trans s1 s2 s3 : vsim s1 s2 -> vsim s2 s3 -> vsim s1 s3.
Proof. intros (H1 & H2 & H3) (H4 & H5 & H6). repeat split; auto. intros i. rewrite H3. apply H6. Qed.
Lemma vsim_refl_l s s' : vsim s s' -> vsim s s.
Proof. intros (H1 & H2 & H3). repeat split; auto. Qed.

Lemma isim_sym ix ix' : isim ix ix' -> isim ix' ix.
Proof. intros (H1 & H2 & H3). repeat split; auto. intros k. apply idx_rel_sym, H3. Qed.
Lemma isim_trans i1 i2 i3 : isim i1 i2 -> isim i2 i3 -> isim i1 i3.
Proof. intros (H1 & H2 & H3) (H4 & H5 & H6). repeat split; auto. intros k. eapply idx_rel_trans; [apply H3 | apply H6]. Qed.
Lemma isim_refl_l ix ix' : isim ix ix' -> isim ix ix.
Proof. intros (H1 & H2 & H3). repeat split; auto. intros k. apply idx_rel_refl. Qed.

Lemma sim_sym d d' : sim d d' -> sim d' d.
Proof. intros [G A V I]. constructor; auto using gsim_sym, asim_sym, vsim_sym, isim_sym. Qed.
Lemma sim_trans d1 d2 d3 : sim d1 d2 -> sim d2 d3 -> sim d1 d3.
Proof.
  intros [G A V I] [G' A' V' I']. constructor;
    eauto using gsim_trans, asim_trans, vsim_trans, isim_trans.
Qed.
Lemma sim_ok_l d d' : sim d d' -> db_ok d.
Proof. intros [G A V I]. constructor; eauto using gsim_refl_l, asim_refl_l, vsim_refl_l, isim_refl_l. Qed.
Lemma sim_ok_r d d' : sim d d' -> db_ok d'.
Proof. intros H. apply sim_sym in H. eapply sim_ok_l, H. Qed.

(* the undo stack is not observable *)
Lemma sim_undo_irrelevant d d' u : sim d d' -> sim {| gr := gr d; aliases := aliases d; vals := vals d; indexes := indexes d; undo := u |} d'.
Proof. intros [G A V I]. constructor; assumption. Qed.

Lemma db_ok_new : db_ok db_new.
Proof.
  constructor; cbn [db_new gr aliases vals indexes].
  - apply (gsim_of_rep _ _ rep_new).
  - split; [|split]; [apply alias_ok_empty | apply alias_ok_empty | apply alias_eq_refl].
  - assert (E : forall i, kvs_get [] i = []) by (intros i; unfold kvs_get; destruct (zabs_nat i); reflexivity).
    split; [|split]; intros i; rewrite !E.
    + constructor.
    + constructor.
    + constructor.
  - repeat split; try constructor.
Qed.

Lemma rollback_cmds_app rv d cs cs' :
  fix_rollback_replace rv = true ->
  rollback_cmds rv d (cs ++ cs') =
  match rollback_cmds rv d cs with ROk d1 => rollback_cmds rv d1 cs' | RErr k => RErr k end.
Proof.
  intros Hrv. revert d. induction cs as [|c r IH]; intros d; cbn [app rollback_cmds]; [reflexivity|].
  destruct (undo_one d c) as [d1|k]; [|reflexivity]. rewrite Hrv. destruct c; apply IH.
Qed.

Lemma rollback_cmds_one rv d c :
  fix_rollback_replace rv = true -> rollback_cmds rv d [c] = undo_one d c.
Proof.
  intros Hrv. cbn [rollback_cmds]. destruct (undo_one d c); [|reflexivity]. rewrite Hrv. destruct c; reflexivity.
Qed.

Section Undoable.
  Variable rv : revision.
  Hypothesis Hrv : fix_rollback_replace rv = true.

  Definition undoable (d d1 : db) : Prop :=
    exists cs, undo d1 = cs ++ undo d /\
      forall e, sim e d1 -> exists e', rollback_cmds rv e cs = ROk e' /\ sim e' d.

  Lemma undoable_refl d : db_ok d -> undoable d d.
  Proof. intros Hok. exists []. split; [reflexivity|]. intros e He. exists e. split; [reflexivity | assumption]. Qed.

  Lemma undoable_trans d d1 d2 : undoable d d1 -> undoable d1 d2 -> undoable d d2.
  Proof.
    intros (cs1 & E1 & H1) (cs2 & E2 & H2). exists (cs2 ++ cs1). split.
    - rewrite E2, E1, app_assoc. reflexivity.
    - intros e He. destruct (H2 e He) as (e1 & R1 & S1). destruct (H1 e1 S1) as (e2 & R2 & S2).
      exists e2. split; [|assumption]. rewrite rollback_cmds_app, R1 by assumption. exact R2.
  Qed.

  (* a step that pushes one command whose undo leads from every state similar to d1 to one similar to d *)
  Lemma undoable_one d d1 c :
    undo d1 = c :: undo d ->
    (forall e, sim e d1 -> exists e', undo_one e c = ROk e' /\ sim e' d) -> undoable d d1.
  Proof.
    intros Eu H. exists [c]. split; [exact Eu|]. intros e He.
    rewrite rollback_cmds_one by assumption. apply H, He.
  Qed.

  (* a step that pushes nothing and keeps the state similar *)
  Lemma undoable_neutral d d1 : undo d1 = undo d -> sim d1 d -> undoable d d1.
  Proof.
    intros Eu S. exists []. split; [assumption|]. intros e He. exists e. split; [reflexivity|].
    eapply sim_trans; eassumption.
  Qed.

  (* the target may be replaced by a similar state with the same undo stack *)
  Lemma undoable_sim_r d d1 d1' : undoable d d1 -> sim d1' d1 -> undo d1' = undo d1 -> undoable d d1'.
  Proof.
    intros (cs & E & H) S Eu. exists cs. split; [congruence|]. intros e He. apply H. eapply sim_trans; eassumption.
  Qed.

  (* the final statement: roll back everything pushed since d *)
  Theorem undoable_rollback d d1 :
    undo d = [] -> undoable d d1 -> db_ok d1 ->
    exists e', rollback rv d1 = ROk e' /\ sim e' d.
  Proof.
    intros Eu (cs & E & H) Hok. unfold rollback. rewrite E, Eu, app_nil_r. apply H.
    unfold clear_undo. apply sim_undo_irrelevant, Hok.
  Qed.
End Undoable.
