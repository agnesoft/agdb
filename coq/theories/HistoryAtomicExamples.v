(* HistoryAtomicExamples.v — non-vacuity of the history theorems of HistoryAtomicProofs.v (a concrete
   history with failing queries and failing transactions of the kinds InsertNodes, InsertEdges,
   InsertValues, Remove, RemoveValues), and the
   witness showing why the quantifier `query_ok` (no insert list names a key twice) cannot be dropped
   from the "no observable effect" statement. *)
From Agdb Require Import Bytes BytesProofs DbValue Graph DbModel Search Queries Revisions
  KvProofs QueryInvProofs UndoObs UndoGraph HistoryAtomicProofs.
Open Scope Z_scope.

Definition ha_k : dbvalue := DString [x6b].
Definition ha_l : dbvalue := DString [x6c].

Definition ha_history : list hitem :=
  [ (* nodes 1 ("a", k:1) and 2 (k:2, l:3); an index on k; edge -3 : 1 -> 2 (l:5) *)
    HQuery (InsertNodes 2 (Multi [[(ha_k, DI64 1)]; [(ha_k, DI64 2); (ha_l, DI64 3)]]) [[x61]] (Ids []));
    HQuery (InsertIndex ha_k);
    HQuery (InsertEdges (Ids [QId 1]) (Ids [QId 2]) (Single [(ha_l, DI64 5)]) false (Ids []));
    (* a query failing part-way: the second id does not exist, the (indexed) value written on node 1 is rolled back *)
    HQuery (InsertValues (Ids [QId 1; QId 9]) (Single [(ha_k, DI64 7)]));
    (* a transaction failing at the end: node 1 removed through its alias (cascade: edge -3 with its value,
       alias, indexed value), a new node reusing a freed slot with the alias "b", an indexed value removed *)
    HTxn [Remove (Ids [QAlias [x61]]);
          InsertNodes 1 (Single [(ha_k, DI64 9)]) [[x62]] (Ids []);
          RemoveValues (Ids [QId 2]) [ha_k]] true;
    (* a transaction whose third query fails (node 1 is gone by then) *)
    HTxn [InsertEdges (Ids [QId 2]) (Ids [QId 1]) (Single []) false (Ids []);
          Remove (Ids [QId 1]);
          InsertEdges (Ids [QId 1]) (Ids [QId 2]) (Single []) false (Ids [])] false;
    (* and a committed removal *)
    HQuery (Remove (Ids [QId 2])) ].

Ltac kd := cbn [keys_distinct]; repeat split; (reflexivity || exact I).
Ltac fk := repeat (apply Forall_cons; [kd|]); apply Forall_nil.
Ltac qk := cbn [query_ok qvalues_ok]; first [exact I | kd | fk].
Ltac ik := cbn [item_ok]; first [qk | (repeat (apply Forall_cons; [qk|]); apply Forall_nil)].

Fixpoint failed_flags (d : db) (its : list hitem) : list bool :=
  match its with
  | [] => []
  | it :: r => item_failed rv_fixed d it :: failed_flags (run_item rv_fixed d it) r
  end.

Lemma ha_history_ok :
  Forall item_ok ha_history /\ bounded rv_fixed db_new ha_history /\
  failed_flags db_new ha_history = [false; false; false; true; true; true; false].
Proof.
  split; [|split].
  - unfold ha_history. repeat (apply Forall_cons; [ik|]). apply Forall_nil.
  - cbn [bounded ha_history]. repeat split; vm_compute; discriminate.
  - vm_compute. reflexivity.
Qed.

(* ---- why query_ok is needed -------------------------------------------------------------------
   `insert nodes values [[k:1, k:2]]` creates node 1 with TWO pairs named k (insert_key_value of a new
   element does not look for an existing key).  The transaction [remove values k from node 1; fail] is
   rolled back by re-appending the removed pairs newest first: the list comes back as [k:2, k:1].  The
   two states are equal for the observation relation of C13 (lists are compared as multisets), yet
   they are distinguishable: a key lookup reads the FIRST pair, so `search elements where k == 1` finds
   node 1 before the failed transaction and nothing after it. *)
Definition dup_d0 : db :=
  fst (exec rv_fixed db_new (InsertNodes 1 (Multi [[(ha_k, DI64 1); (ha_k, DI64 2)]]) [] (Ids []))).
Definition dup_txn : list query := [RemoveValues (Ids [QId 1]) [ha_k]].
Definition dup_d1 : db := fst (transaction rv_fixed dup_d0 dup_txn true).
Definition dup_search : search_query :=
  {| s_algorithm := AElements; s_origin := QId 0; s_destination := QId 0; s_limit := 0; s_offset := 0;
     s_order_by := []; s_conditions := [Cond LAnd MNone (CKeyValue ha_k CEqual (DI64 1))] |}.

