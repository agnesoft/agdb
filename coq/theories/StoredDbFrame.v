(* StoredDbFrame.v — one component of a stored database replaced under a frame.  An operation on ONE component that
   keeps that component's invariant and touches exactly its footprint (`frame`, what every L2 history theorem delivers)
   keeps the WHOLE database stored: the other components are untouched and stay disjoint, because all footprints of
   `stored_db` are pairwise distinct and live.

     stored_db_live        every record of the footprint of a stored database is live
     sd_transport_*        a component is still represented in any heap that agrees with the old one on its footprint
     sd_graph_update       the graph component replaced under a frame: the database with the new graph is stored
   The operations of graph.rs are lifted to the stored database with sd_graph_update in StoredDbOpsGraph*.v. *)
From Agdb Require Import Bytes Graph DbModel StorageSpec StorageLayout Collections CollValues CollWp CollVecBase CollVec
  CollElems CollSep CollMap CollGraph CollValuesProofs StoredDbRep.
Open Scope N_scope.

Lemma sd_map_live K V EK EV LK LV g (w : sd_mapw K V) idx l :
  sd_map_rep K V EK EV LK LV g w idx l -> live_all g (sd_map_foot K V EK EV LK LV w).
Proof. intros (HM & _ & _). destruct HM as [HS _ _]. eapply msep_live. exact HS. Qed.

(* an index entry is the 16-byte value index of its key, then the storage index of its id table *)
Lemma sd_entry_split g ixb key (r : bytes) : dbv_rep g ixb key -> firstn 16 (ixb ++ r) = ixb /\ skipn 16 (ixb ++ r) = r.
Proof.
  intros Hk. pose proof (el_len ce_dbvalue law_dbvalue _ _ _ Hk) as HL. cbn [ce_size ce_dbvalue] in HL. unfold lenN in HL.
  split; [apply BytesProofs.firstn_app_exact|apply BytesProofs.skipn_app_exact]; lia.
Qed.

Lemma sd_ix_live g : forall es ws ixs, sd_ix_rep g es ws ixs -> live_all g (sd_ix_foot es ws).
Proof.
  induction es as [|e r IH]; intros [|w ws] [|ix ixs] H; cbn [sd_ix_rep sd_ix_foot] in *; try contradiction; try (intros j []).
  destruct H as [(ixb & mi & -> & _ & Hk & Hm) Hr]. rewrite (proj1 (sd_entry_split g ixb (fst ix) _ Hk)).
  apply live_all_app. split.
  - intros j Hj. eapply (el_live ce_dbvalue law_dbvalue); [exact Hk|exact Hj].
  - apply live_all_app. split; [eapply sd_map_live; exact Hm|apply (IH ws ixs Hr)].
Qed.

Lemma sd_kv_live g : forall idxs ws kvs, sd_kv_rep g idxs ws kvs -> live_all g (sd_kv_foot ws).
Proof.
  induction idxs as [|i r IH]; intros [|w ws] [|l kvs] H; cbn [sd_kv_rep sd_kv_foot] in *; try contradiction; try (intros j []).
  destruct H as [Hs Hr]. destruct w as [[h bss]|]; cbn [sd_kv_slot_rep] in Hs; [|apply (IH ws kvs Hr)].
  destruct Hs as (_ & _ & HR). apply live_all_app. split; [eapply vrep_live; exact HR|apply (IH ws kvs Hr)].
Qed.

Definition sd_rest (w : sd_wit) : list N :=
  sd_foot_a1 (sw_a1 w) ++ sd_foot_a2 (sw_a2 w) ++
  foot bytes (ce_raw 24) sd_law24 (sw_ih w) (sw_is w) ++ sd_ix_foot (sw_ie w) (sw_iw w) ++
  foot N ce_u64 law_u64 (sw_vh w) (sw_vs w) ++ sd_kv_foot (sw_vw w).

Lemma sd_foot_split root w : sd_foot root w = [root] ++ gfoot (sw_g w) (sw_gs w) ++ sd_rest w.
Proof. reflexivity. Qed.

Lemma sd_rest_live g root d w : stored_db_w g root d w -> live_all g (sd_rest w).
Proof.
  intros [_ _ _ _ _ Ha1 _ Ha2 _ Hiv _ Hix Hvv _ Hv _]. unfold sd_rest.
  apply live_all_app. split; [eapply sd_map_live; exact Ha1|].
  apply live_all_app. split; [eapply sd_map_live; exact Ha2|].
  apply live_all_app. split; [eapply vrep_live; exact Hiv|].
  apply live_all_app. split; [eapply sd_ix_live; exact Hix|].
  apply live_all_app. split; [eapply vrep_live; exact Hvv|eapply sd_kv_live; exact Hv].
Qed.

Theorem stored_db_live g root d w : stored_db_w g root d w -> live_all g (sd_foot root w).
Proof.
  intros H. rewrite sd_foot_split. apply live_all_app. split; [|apply live_all_app; split].
  - intros j [<-|[]]. rewrite (sr_root _ _ _ _ H). discriminate.
  - eapply grep_live. exact (sr_graph _ _ _ _ H).
  - eapply sd_rest_live. exact H.
Qed.

(* a component in a heap that agrees on its footprint *)
(* agreement on a footprint is agreement on each of its parts *)
Lemma agree_app (g g' : heap) A B :
  (forall j, In j (A ++ B) -> g' j = g j) -> (forall j, In j A -> g' j = g j) /\ (forall j, In j B -> g' j = g j).
Proof. intros H. split; intros j Hj; apply H, in_or_app; auto. Qed.

Lemma sd_transport_map K V EK EV LK LV g g' (w : sd_mapw K V) idx l :
  sd_map_rep K V EK EV LK LV g w idx l -> (forall j, In j (sd_map_foot K V EK EV LK LV w) -> g' j = g j) ->
  sd_map_rep K V EK EV LK LV g' w idx l.
Proof.
  intros (HM & Hi & HP) Hs. split; [|auto]. destruct HM as [[Hrec Rs Rk Rv Hb Hnd] Hl Hsame].
  pose proof (Hs _ (or_introl eq_refl)) as Hidx.
  assert (Hs' : forall j, In j (tl (sd_map_foot K V EK EV LK LV w)) -> g' j = g j) by (intros j Hj; apply Hs; right; exact Hj).
  cbn [sd_map_foot mfoot tl] in Hs'. apply agree_app in Hs' as [Ss Hs']. apply agree_app in Hs' as [Sk Sv].
  constructor; [|exact Hl|exact Hsame]. constructor; auto.
  - rewrite Hidx. exact Hrec.
  - exact (vrep_transport _ _ _ _ _ _ _ _ Rs Ss).
  - exact (vrep_transport _ _ _ _ _ _ _ _ Rk Sk).
  - exact (vrep_transport _ _ _ _ _ _ _ _ Rv Sv).
Qed.

Lemma sd_transport_ix g g' : forall es ws ixs,
  sd_ix_rep g es ws ixs -> (forall j, In j (sd_ix_foot es ws) -> g' j = g j) -> sd_ix_rep g' es ws ixs.
Proof.
  induction es as [|e r IH]; intros [|w ws] [|ix ixs] H Hs; cbn [sd_ix_rep sd_ix_foot] in *; auto.
  destruct H as [(ixb & mi & -> & Hmi & Hk & Hm) Hr]. rewrite (proj1 (sd_entry_split g ixb (fst ix) _ Hk)) in Hs.
  apply agree_app in Hs as [Sk Hs]. apply agree_app in Hs as [Sm Sr].
  split; [|exact (IH _ _ Hr Sr)].
  exists ixb, mi. split; [reflexivity|]. split; [exact Hmi|]. split.
  - exact (el_local ce_dbvalue law_dbvalue _ _ _ _ Hk Sk).
  - exact (sd_transport_map _ _ _ _ _ _ _ _ _ _ _ Hm Sm).
Qed.

Lemma sd_transport_kv g g' : forall idxs ws kvs,
  sd_kv_rep g idxs ws kvs -> (forall j, In j (sd_kv_foot ws) -> g' j = g j) -> sd_kv_rep g' idxs ws kvs.
Proof.
  induction idxs as [|i r IH]; intros [|w ws] [|l kvs] H Hs; cbn [sd_kv_rep sd_kv_foot] in *; auto.
  destruct H as [Hslot Hr]. destruct w as [[h bss]|]; cbn [sd_kv_slot_rep] in *.
  - apply agree_app in Hs as [Sh Sr]. destruct Hslot as (H1 & H2 & HR).
    split; [|exact (IH _ _ Hr Sr)]. split; [exact H1|]. split; [exact H2|]. exact (vrep_transport _ _ _ _ _ _ _ _ HR Sh).
  - split; [exact Hslot|exact (IH _ _ Hr Hs)].
Qed.

Definition sd_with_graph (w : sd_wit) (dg : cg_data) (gs : cg_slots) : sd_wit :=
  {| sw_root := sw_root w; sw_g := dg; sw_gs := gs; sw_a1 := sw_a1 w; sw_a2 := sw_a2 w;
     sw_ih := sw_ih w; sw_is := sw_is w; sw_ie := sw_ie w; sw_iw := sw_iw w;
     sw_vh := sw_vh w; sw_vs := sw_vs w; sw_vi := sw_vi w; sw_vw := sw_vw w |}.

Theorem sd_graph_update g g' root d w dg' s' gr' :
  stored_db_w g root d w -> cg_index dg' = cg_index (sw_g w) ->
  grep g' dg' s' (sd_arrays gr') -> frame g g' (gfoot (sw_g w) (sw_gs w)) (gfoot dg' s') ->
  stored_db_w g' root (with_gr d gr') (sd_with_graph w dg' s') /\
  frame g g' (sd_foot root w) (sd_foot root (sd_with_graph w dg' s')).
Proof.
  intros H Hi HG Hf.
  pose proof (sr_nodup _ _ _ _ H) as Hnd. rewrite sd_foot_split in Hnd.
  assert (Hl : live_all g ([root] ++ sd_rest w)).
  { apply live_all_app. split; [|eapply sd_rest_live; exact H]. intros j [<-|[]]. rewrite (sr_root _ _ _ _ H). discriminate. }
  destruct (sep_update g g' [root] _ _ (sd_rest w) Hf Hnd Hl (gr_nodup _ _ _ _ HG)) as (N' & F' & Same).
  assert (SameR : forall j, In j (sd_rest w) -> g' j = g j) by (intros j Hj; apply Same; apply in_or_app; right; exact Hj).
  split; [|rewrite !sd_foot_split; exact F'].
  destruct H as [Hroot Hu64 Hver Hg Hgi Ha1 Hk1 Ha2 Hk2 Hiv Hii Hix Hvv Hvi Hv _].
  unfold sd_rest in SameR. apply agree_app in SameR as [Sa1 SameR]. apply agree_app in SameR as [Sa2 SameR].
  apply agree_app in SameR as [Siv SameR]. apply agree_app in SameR as [Six SameR]. apply agree_app in SameR as [Svv Skv].
  constructor; cbn [sd_with_graph sw_root sw_g sw_gs sw_a1 sw_a2 sw_ih sw_is sw_ie sw_iw sw_vh sw_vs sw_vi sw_vw with_gr gr aliases vals indexes];
    try assumption.                                  (* N' is the footprint's NoDup, by sd_foot_split *)
  - rewrite Same; [exact Hroot|left; reflexivity].
  - congruence.
  - exact (sd_transport_map _ _ _ _ _ _ _ _ _ _ _ Ha1 Sa1).
  - exact (sd_transport_map _ _ _ _ _ _ _ _ _ _ _ Ha2 Sa2).
  - exact (vrep_transport _ _ _ _ _ _ _ _ Hiv Siv).
  - exact (sd_transport_ix _ _ _ _ _ Hix Six).
  - exact (vrep_transport _ _ _ _ _ _ _ _ Hvv Svv).
  - exact (sd_transport_kv _ _ _ _ _ Hv Skv).
Qed.

Definition sd_graph_of (a : cg_arrays) : graph :=
  {| g_from := ga_from a; g_to := ga_to a; g_fmeta := ga_from_meta a; g_tmeta := ga_to_meta a |}.
Lemma sd_arrays_of a : sd_arrays (sd_graph_of a) = a.
Proof. destruct a. reflexivity. Qed.
