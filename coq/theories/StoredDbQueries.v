(* StoredDbQueries.v — what `sd_eqv` leaves open is invisible to every read-only
   query except the two that return a hash table's iteration order.

   `sd_eqv d d'` fixes the graph arrays, every property list (order included), both alias lookups, the index keys
   in order and each index's ids as a multiset.  The read-only queries of Queries.v use
     - the graph and the property lists                    (searches, select values / keys / key_count / edge_count / node_count)
     - the alias lookups                                   (ids given as aliases, `ids` conditions, select aliases)
     - the index keys and the NUMBER of ids per index      (select indexes)
   and only two of them anything else:
     - SelectAllAliases   lists k2v (sorted by the model; the code returns the table's iteration order)
     - a search with algorithm Index   returns the ids of one index value in the list's order
   `sd_query_ok` excludes exactly these two (also as the search inside the ids of another query); for every other
   read-only query the results on d and d' are EQUAL. *)
From Coq Require Import Permutation.
From Agdb Require Import Bytes DbValue DbModel Search ElementsSearchProofs Queries StoredDbRep.
Open Scope Z_scope.

(* two databases with the same graph, the same property lists and the same alias -> id lookup *)
Definition sd_core (d d' : db) : Prop :=
  gr d = gr d' /\ vals d = vals d' /\ forall a, imap_value (aliases d) a = imap_value (aliases d') a.

Lemma sd_eqv_core d d' : sd_eqv d d' -> sd_core d d'.
Proof. intros H. split; [apply (se_graph _ _ H)|]. split; [apply (se_vals _ _ H)|apply (se_alias_value _ _ H)]. Qed.

Section Rev.
  Variable rv : revision.
  Variables d d' : db.
  Hypothesis HC : sd_core d d'.

  Let Hg : gr d = gr d' := proj1 HC.
  Let Hv : vals d = vals d' := proj1 (proj2 HC).
  Let Ha : forall a, imap_value (aliases d) a = imap_value (aliases d') a := proj2 (proj2 HC).

  Lemma sd_ids_match index ids : ids_match d index ids = ids_match d' index ids.
  Proof.
    unfold ids_match. induction ids as [|q r IH]; cbn [existsb]; [reflexivity|]. rewrite IH.
    destruct q as [id|a]; [reflexivity|]. rewrite Ha. reflexivity.
  Qed.

  Lemma sd_eval_data index distance c : eval_data rv d index distance c = eval_data rv d' index distance c.
  Proof.
    revert index distance. induction c as [v| |v|v|v|ids|key op value|keys| |conds IH] using cond_data_ind'; intros index distance;
      cbn [eval_data]; rewrite <- ?Hg, <- ?Hv; try reflexivity.
    - rewrite sd_ids_match. reflexivity.
    - generalize (Continue true). induction IH as [|[lg md data] r Hx _ IHr]; intros result; [reflexivity|].
      cbn [cond_payload] in Hx. rewrite Hx. apply IHr.
  Qed.

  Lemma sd_eval_conditions index distance conds : eval_conditions rv d index distance conds = eval_conditions rv d' index distance conds.
  Proof. unfold eval_conditions. apply sd_eval_data. Qed.

  Lemma sd_search_loop a reverse origin conds h : forall fuel work vis counter acc,
    search_loop rv d a reverse origin conds h fuel work vis counter acc =
    search_loop rv d' a reverse origin conds h fuel work vis counter acc.
  Proof.
    induction fuel as [|f IH]; intros work vis counter acc; cbn [search_loop]; [reflexivity|].
    destruct work as [|[index dist] rest]; [reflexivity|]. rewrite <- Hg.
    destruct (visited vis index); [apply IH|].
    rewrite sd_eval_conditions. destruct (handle h counter _) as [control counter'].
    destruct control; rewrite ?IH; reflexivity.
  Qed.

  Lemma sd_graph_search a reverse origin conds h :
    graph_search rv d a reverse origin conds h = graph_search rv d' a reverse origin conds h.
  Proof. unfold graph_search. rewrite <- Hg. destruct (_ || _); [apply sd_search_loop|reflexivity]. Qed.

  Lemma sd_elements_loop conds h : forall els distance counter acc,
    elements_loop rv d conds h els distance counter acc = elements_loop rv d' conds h els distance counter acc.
  Proof.
    induction els as [|index r IH]; intros distance counter acc; cbn [elements_loop]; [reflexivity|].
    rewrite sd_eval_conditions. destruct (handle h counter _) as [control counter']. destruct control; rewrite ?IH; reflexivity.
  Qed.

  Lemma sd_elements_search conds h : elements_search rv d conds h = elements_search rv d' conds h.
  Proof. unfold elements_search. rewrite <- Hg. apply sd_elements_loop. Qed.

  Lemma sd_path_cost conds index distance : path_cost rv d conds index distance = path_cost rv d' conds index distance.
  Proof. unfold path_cost. rewrite sd_eval_conditions. reflexivity. Qed.

  Lemma sd_path_loop conds dest : forall fuel paths vis, path_loop rv d conds dest fuel paths vis = path_loop rv d' conds dest fuel paths vis.
  Proof.
    induction fuel as [|f IH]; intros paths vis; cbn [path_loop]; [reflexivity|].
    destruct (rev (sort_paths paths)) as [|cur rest_rev]; [reflexivity|].
    destruct (visited vis (last_index cur)); [apply IH|]. destruct (last_index cur =? dest); [reflexivity|].
    rewrite <- Hg, IH. erewrite flat_map_ext; [reflexivity|]. intros e. cbv beta zeta. rewrite !sd_path_cost. reflexivity.
  Qed.

  Lemma sd_path_search conds origin dest : path_search rv d conds origin dest = path_search rv d' conds origin dest.
  Proof. unfold path_search. rewrite <- Hg, sd_path_cost, sd_path_loop. reflexivity. Qed.

  Lemma sd_order_cmp orders l r : order_cmp d orders l r = order_cmp d' orders l r.
  Proof. induction orders as [|o rest IH]; cbn [order_cmp]; [reflexivity|]. rewrite <- Hv, IH. reflexivity. Qed.

  Lemma sd_stable_sort_ext (c1 c2 : Z -> Z -> comparison) (l : list Z) : (forall x y, c1 x y = c2 x y) -> stable_sort c1 l = stable_sort c2 l.
  Proof.
    intros H. unfold stable_sort. induction l as [|x r IH]; cbn [fold_right]; [reflexivity|]. rewrite IH.
    generalize (fold_right (fun x0 acc => insert_sorted c2 x0 acc) [] r). intros s.
    induction s as [|y t IHs]; cbn [insert_sorted]; [reflexivity|]. rewrite H, IHs. reflexivity.
  Qed.

  Lemma sd_stable_sort orders l : stable_sort (order_cmp d orders) l = stable_sort (order_cmp d' orders) l.
  Proof. apply sd_stable_sort_ext, sd_order_cmp. Qed.

  Lemma sd_db_id q : db_id d q = db_id d' q.
  Proof. destruct q as [id|a]; cbn [db_id]; [rewrite Hg; reflexivity|rewrite Ha; reflexivity]. Qed.

  Lemma sd_sorted_slice s r :
    match r with
    | SOk ids => slice_ids rv (s_limit s) (s_offset s) (stable_sort (order_cmp d (s_order_by s)) ids)
    | e => e
    end =
    match r with
    | SOk ids => slice_ids rv (s_limit s) (s_offset s) (stable_sort (order_cmp d' (s_order_by s)) ids)
    | e => e
    end.
  Proof.
    destruct r; try reflexivity. rewrite sd_stable_sort. reflexivity.
  Qed.

  (* Breadth-first and depth-first differ in a constant only.  In each case: an id that does not resolve is the same
     error on both sides; then the searches agree, and so do the sorted slices of their results. *)
  Lemma sd_search s : s_algorithm s <> AIndex -> search rv d s = search rv d' s.
  Proof.
    intros Hn. unfold search. cbv beta zeta. rewrite !sd_db_id.
    destruct (s_algorithm s); try contradiction; [| |rewrite !sd_elements_search, sd_stable_sort; reflexivity].
    all: destruct (is_zero_id (s_destination s)); [|destruct (is_zero_id (s_origin s))].
    all: repeat (destruct (db_id d' _); [|reflexivity]).
    all: rewrite ?sd_graph_search, ?sd_path_search, sd_sorted_slice; reflexivity.
  Qed.
End Rev.

Definition sd_ids_ok (ids : qids) : Prop :=
  match ids with Ids _ => True | QSearch s => s_algorithm s <> AIndex end.

(* read-only queries whose result does not depend on a hash table's iteration order *)
Definition sd_query_ok (q : query) : Prop :=
  match q with
  | SelectValues _ ids | SelectKeys ids | SelectKeyCount ids | SelectAliases ids | SelectEdgeCount ids _ _ => sd_ids_ok ids
  | SelectIndexes | SelectNodeCount => True
  | SearchQ s => s_algorithm s <> AIndex
  | _ => False      (* SelectAllAliases; the mutating queries (not covered here: see C05_db_operations_preserve_stored_db) *)
  end.

Section Select.
  Variable rv : revision.
  Variables d d' : db.
  Hypothesis HE : sd_eqv d d'.

  Let HC : sd_core d d' := sd_eqv_core d d' HE.
  Let Hg : gr d = gr d' := se_graph _ _ HE.
  Let Hv : vals d = vals d' := se_vals _ _ HE.

  Lemma sd_elem id values : elem d id values = elem d' id values.
  Proof. unfold elem, from_id, to_id. rewrite Hg. reflexivity. Qed.

  Lemma sd_resolve_all l : resolve_all d l = resolve_all d' l.
  Proof. induction l as [|q r IH]; cbn [resolve_all]; [reflexivity|]. rewrite (sd_db_id d d' HC), IH. reflexivity. Qed.

  Lemma sd_resolve_ids ids : sd_ids_ok ids -> resolve_ids rv d ids = resolve_ids rv d' ids.
  Proof. destruct ids as [l|s]; cbn [resolve_ids sd_ids_ok]; intros H; [rewrite sd_resolve_all; reflexivity|apply sd_search; assumption]. Qed.

  Lemma sd_map_elem (f f' : Z -> list kv) l : (forall id, f id = f' id) ->
    map (fun id => elem d id (f id)) l = map (fun id => elem d' id (f' id)) l.
  Proof. intros H. apply map_ext. intros id. rewrite H. apply sd_elem. Qed.

  Lemma sd_select_simple ids f f' total total' :
    sd_ids_ok ids -> (forall id, f id = f' id) -> (forall l, total l = total' l) ->
    select_simple rv d ids f total = select_simple rv d' ids f' total'.
  Proof.
    intros Hi Hf Ht. unfold select_simple. rewrite (sd_resolve_ids ids Hi).
    destruct (resolve_ids rv d' ids); try reflexivity. rewrite Ht, (sd_map_elem f f' _ Hf). reflexivity.
  Qed.

  Lemma sd_select_values keys ids : sd_ids_ok ids -> select_values rv d keys ids = select_values rv d' keys ids.
  Proof.
    intros Hi. unfold select_values. rewrite (sd_resolve_ids ids Hi).
    destruct (resolve_ids rv d' ids) as [db_ids| |]; try reflexivity.
    match goal with |- match ?A with _ => _ end = match ?B with _ => _ end => assert (E : A = B); [|rewrite E; reflexivity] end.
    rewrite <- Hv. induction db_ids as [|id r IH]; [reflexivity|]. cbn beta iota.
    match goal with |- (if ?c then _ else _) = _ => destruct c end; [reflexivity|].
    rewrite IH. rewrite sd_elem. reflexivity.
  Qed.

  Lemma sd_select_aliases ids : sd_ids_ok ids -> select_aliases rv d ids = select_aliases rv d' ids.
  Proof.
    intros Hi. destruct ids as [l|s]; cbn [select_aliases sd_ids_ok] in *.
    - match goal with |- match ?A with _ => _ end = match ?B with _ => _ end => assert (E : A = B); [|rewrite E; reflexivity] end.
      induction l as [|q r IH]; [reflexivity|]. cbn beta iota. rewrite IH.
      destruct q as [id|a].
      + rewrite (se_alias_key _ _ HE). destruct (imap_key (aliases d') id); [rewrite sd_elem|]; reflexivity.
      + rewrite (sd_db_id d d' HC). destruct (db_id d' (QAlias a)); [rewrite sd_elem|]; reflexivity.
    - rewrite (sd_search rv d d' HC s Hi). destruct (search rv d' s) as [db_ids| |]; try reflexivity.
      assert (E : flat_map (fun id => match imap_key (aliases d) id with Some a => [elem d id [alias_kv a]] | None => [] end) db_ids =
                  flat_map (fun id => match imap_key (aliases d') id with Some a => [elem d' id [alias_kv a]] | None => [] end) db_ids).
      { apply flat_map_ext. intros id. rewrite (se_alias_key _ _ HE). destruct (imap_key (aliases d') id); [rewrite sd_elem|]; reflexivity. }
      rewrite E. reflexivity.
  Qed.

  Lemma sd_select_indexes :
    map (fun ix : index => (fst ix, DU64 (N.of_nat (length (snd ix))))) (indexes d) =
    map (fun ix : index => (fst ix, DU64 (N.of_nat (length (snd ix))))) (indexes d').
  Proof.
    induction (se_indexes _ _ HE) as [|a b l l' [H1 H2] _ IH]; cbn [map]; [reflexivity|].
    rewrite IH, H1, (Permutation_length H2). reflexivity.
  Qed.

  Theorem sd_exec_select q : sd_query_ok q -> exec_select rv d q = exec_select rv d' q.
  Proof.
    destruct q; cbn [sd_query_ok exec_select]; intros Hq; try contradiction.
    - apply sd_select_values; exact Hq.
    - apply sd_select_simple; [exact Hq|intros id; rewrite Hv; reflexivity|reflexivity].
    - apply sd_select_simple; [exact Hq|intros id; rewrite Hv; reflexivity|intros l; rewrite Hv; reflexivity].
    - apply sd_select_aliases; exact Hq.
    - apply sd_select_simple; [exact Hq|intros id; unfold edge_count; rewrite Hg; reflexivity|intros l; unfold edge_count; rewrite Hg; reflexivity].
    - rewrite sd_select_indexes. reflexivity.
    - rewrite Hg. reflexivity.
    - rewrite (sd_search rv d d' HC s Hq). destruct (search rv d' s); try reflexivity.
      rewrite (sd_map_elem (fun _ => []) (fun _ => []) ids) by reflexivity. reflexivity.
  Qed.

  (* one query = one transaction (DbImpl::exec): on databases at rest (empty undo stack) *)
  Theorem sd_exec q : sd_query_ok q -> undo d = [] -> undo d' = [] ->
    snd (exec rv d q) = snd (exec rv d' q) /\ sd_eqv (fst (exec rv d q)) (fst (exec rv d' q)).
  Proof.
    intros Hq Hu Hu'.
    assert (Hm : is_mutating q = false) by (destruct q; cbn [sd_query_ok] in Hq; try contradiction; reflexivity).
    assert (Hc : sd_eqv (clear_undo d) (clear_undo d')) by (destruct HE; constructor; assumption).
    unfold exec, exec_in_txn. rewrite Hm, (sd_exec_select q Hq).
    destruct (exec_select rv d' q) as [n els|e|]; cbn [fst snd commit].
    - split; [reflexivity|exact Hc].
    - unfold rollback. rewrite Hu, Hu'. cbn [rollback_cmds fst snd]. split; [reflexivity|exact Hc].
    - split; [reflexivity|exact HE].
  Qed.
End Select.
