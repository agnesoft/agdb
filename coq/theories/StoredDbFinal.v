(* StoredDbFinal.v — reload and maintenance preserve every order-independent
   read-only query result (`Queries.exec` is a function of the database; `sd_query_ok` names the queries whose
   result does not depend on what a reload leaves open, StoredDbQueries.v). *)
From Agdb Require Import Bytes DbModel Queries Records Storage StorageSpec StorageRefine StorageProofs Collections
  CollVecBase StoredDb StoredDbRep StoredDbProofs StoredDbQueries.
Open Scope N_scope.

(* a database at rest (no transaction running: empty undo stack) that lies in a record store: the database loaded
   from the store answers every order-independent read-only query exactly as d does *)
Theorem sd_queries_after_reload rv m root d :
  stored_db (m_get m) root d -> undo d = [] ->
  exists d1, load_db m root = Some d1 /\ sd_eqv d d1 /\
             forall q, sd_query_ok q -> snd (exec rv d1 q) = snd (exec rv d q).
Proof.
  intros H Hu. destruct (load_db_of_stored m root d H) as (d1 & E & He & Hu1).
  exists d1. split; [exact E|]. split; [exact He|].
  intros q Hq. symmetry. apply (proj1 (sd_exec rv d d1 He q Hq Hu Hu1)).
Qed.

Section OnStorage.
  Variable ops : store_ops cdata.
  Variable fl : bool.
  Hypothesis K : kind ops fl.

  (* optimize_storage / drop + open / backup + open on the model of storage.rs, with no transaction open *)
  Theorem sd_queries_after_maintenance rv s sp o root d :
    Rel s sp -> sdepth sp = 0 -> cv_is_maint o = true -> stored_db (hp sp) root d -> undo d = [] ->
    snd (st_step cdata ops s o) = ObPanic \/
    exists sp' d1, Rel (fst (st_step cdata ops s o)) sp' /\ sdepth sp' = 0 /\
                   stored_db (hp sp') root d /\
                   load_db (sm sp) root = Some d1 /\ load_db (sm sp') root = Some d1 /\ sd_eqv d d1 /\
                   forall q, sd_query_ok q -> snd (exec rv d1 q) = snd (exec rv d q).
  Proof.
    intros RL Hd Hm H Hu.
    destruct (sd_maintenance_on_storage ops fl K s sp o root d RL Hd Hm H) as [P|(sp' & RL' & Hd' & H' & d1 & E1 & E2 & He)];
      [left; exact P|right].
    exists sp', d1. split; [exact RL'|]. split; [exact Hd'|]. split; [exact H'|]. split; [exact E1|]. split; [exact E2|].
    split; [exact He|].
    destruct (load_db_of_stored (sm sp) root d H) as (d2 & E3 & _ & Hu2).
    assert (d2 = d1) by congruence. subst d2.
    intros q Hq. symmetry. apply (proj1 (sd_exec rv d d1 He q Hq Hu Hu2)).
  Qed.
End OnStorage.
