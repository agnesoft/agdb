(* C13 — A failed transaction or query leaves no observable effect.
   Statements, each proved in a few lines from the theorems of theories/Undo*.v, HistoryAtomic*.v;
   the closed witnesses are evaluated here.

   Model: theories/DbModel.v (every DbImpl mutation with the undo commands it pushes,
   `undo_one` = one arm of DbImpl::rollback, `rollback_cmds`/`rollback`), theories/Queries.v
   (`exec` = one query as one transaction, `transaction` = transaction_mut with a closure that
   runs the queries and optionally fails at the end).
   `obs_eq d d'` (theories/UndoObs.v) is the equivalence the property allows: every slot has the
   same kind (free / node / edge with the same endpoints), same node count, every node's
   out-/in-lists are permutations, every element's key-value list is a permutation, the alias maps
   agree in both directions, every index key is present in both with permuted (value,id) lists. *)
From Agdb Require Import Bytes DbValue Graph DbModel Search Queries Revisions UndoBase UndoObs UndoWitness
  UndoKv UndoGraph UndoGraphOps UndoDb UndoBridge UndoStepsKv UndoStepsKv2 UndoMain UndoFinal UndoLift UndoRemoveNode.
From Coq Require Import Permutation Lia.
Open Scope Z_scope.

(* ======================================================================================
   Positive theorems (for every revision with fix_rollback_replace and fix_alias_steal_undo on,
   in particular rv_fixed = /repo).

   Vocabulary (theories/UndoDb.v, UndoGraph.v, UndoMain.v):
   * `rep g a`   : the four slot arrays g are well formed (equal lengths, capacity <= 2^63, the free
                   chain is duplicate free and consists of zeroed free slots, every node's out-/in-chain
                   is duplicate free, consists exactly of the edges whose source/target it is and has
                   the recorded degree, every edge's endpoints are nodes) and represent the abstract
                   graph a (kinds, out-/in-lists, count, LIFO free list, capacity).
   * `sim d d'`  : both states are well formed (graph `rep`, alias map a bijection, unique keys per
                   element, unique index keys) and observationally equal: same kinds/endpoints, node
                   count, adjacency up to order, SAME allocation stream (free list then capacity,
                   capacity+1, ...), alias maps equal as functions, key-value lists permutations,
                   index lists permutations.   `db_ok d := sim d d`.
   * `pstep rv d d1` : d1 results from d by one mutation primitive of DbModel.v (insert_node_db,
                   insert_edge_db, remove_edge_db on an edge, removal of an isolated node = last step
                   of remove_node_db, insert_new_alias on an unused alias and alias-less element,
                   insert_alias, remove_alias, insert_key_value of a new key,
                   insert_or_replace_key_value, reserve_kv, remove_keys, remove_all_values,
                   insert_index, remove_index); removals of indexed pairs carry the side condition
                   that the index lists the pair (`idx_has`).   `psteps` = finite sequences.
   ====================================================================================== *)

(* C13_step_inverse — for each primitive: the commands cs it pushed, rolled back from the
   post-state (or from any state similar to it — the congruence needed for sequences), give a
   state similar to the pre-state.  The re-inserted node/edge gets its old slot because the free
   list is LIFO (part of `sim`: same allocation stream). *)
Theorem C13_step_inverse :
  forall rv, fix_rollback_replace rv = true -> fix_alias_steal_undo rv = true ->
  forall d d1, db_ok d -> pstep rv d d1 -> capacity (gr d1) <= two63z ->
    exists cs, undo d1 = cs ++ undo d /\
      (forall e, sim e d1 -> exists e', rollback_cmds rv e cs = ROk e' /\ sim e' d) /\
      (exists d', rollback_cmds rv d1 cs = ROk d' /\ obs_eq d d') /\
      db_ok d1.
Proof.
  intros rv Hrv Hsteal d d1 Hok Hs Hb.
  destruct (pstep_ok rv Hrv Hsteal d d1 Hok Hs Hb) as (Hok1 & cs & Eu & Hinv).
  exists cs. split; [assumption|]. split; [assumption|]. split; [|assumption].
  destruct (Hinv d1 Hok1) as (d' & Hr & S). exists d'. split; [assumption|].
  apply sim_obs_eq, sim_sym, S.
Qed.
Print Assumptions C13_step_inverse.

(* the equivalence is a congruence for the undo commands of a primitive *)
Theorem C13_undo_congruence :
  forall rv, fix_rollback_replace rv = true -> fix_alias_steal_undo rv = true ->
  forall d d1 e1 e2 cs,
    db_ok d -> pstep rv d d1 -> capacity (gr d1) <= two63z -> undo d1 = cs ++ undo d ->
    sim e1 d1 -> sim e2 d1 ->
    exists e1' e2', rollback_cmds rv e1 cs = ROk e1' /\ rollback_cmds rv e2 cs = ROk e2' /\ sim e1' e2'.
Proof.
  intros rv Hrv Hsteal d d1 e1 e2 cs Hok Hs Hb Eu S1 S2.
  destruct (pstep_ok rv Hrv Hsteal d d1 Hok Hs Hb) as (Hok1 & cs' & Eu' & Hinv).
  assert (cs' = cs) by (rewrite Eu in Eu'; apply app_inv_tail in Eu'; congruence). subst cs'.
  destruct (Hinv e1 S1) as (e1' & H1 & T1). destruct (Hinv e2 S2) as (e2' & H2 & T2).
  exists e1', e2'. split; [assumption|]. split; [assumption|].
  eapply sim_trans; [exact T1 | apply sim_sym, T2].
Qed.
Print Assumptions C13_undo_congruence.

(* C13_rollback_restores — every finite sequence of primitives executed from a well-formed state
   with an empty undo stack (= inside one transaction) is undone by `rollback`: it succeeds and the
   result is observationally equal to the start, with the same degree counters and handing out
   the same ids afterwards; and it is again well formed.  (capacity <= 2^63: ids fit i64.) *)
Theorem C13_rollback_restores :
  forall rv, fix_rollback_replace rv = true -> fix_alias_steal_undo rv = true ->
  forall d d1, db_ok d -> undo d = [] -> psteps rv d d1 -> capacity (gr d1) <= two63z ->
    exists d', rollback rv d1 = ROk d' /\
      obs_eq d d' /\
      (forall n, slot_kind (gr d) n = KNode ->
         edge_count_from (gr d) n = edge_count_from (gr d') n /\ edge_count_to (gr d) n = edge_count_to (gr d') n) /\
      (forall k, capacity (gr d) + Z.of_nat k <= two63z -> capacity (gr d') + Z.of_nat k <= two63z ->
         next_slots k (gr d) = next_slots k (gr d')) /\
      db_ok d'.
Proof. exact rollback_restores_obs. Qed.
Print Assumptions C13_rollback_restores.

(* remove_node_db (alias removal; for every edge of the node remove_edge_db + remove_all_values; then
   the node, which is isolated by then) is a sequence of these primitives, so both theorems above
   apply to it: same side condition (the indexed properties of the node's edges are listed in
   their indexes), the alias given is the node's alias. *)
Theorem C13_step_inverse_remove_node_db :
  forall rv, fix_rollback_replace rv = true -> fix_alias_steal_undo rv = true ->
  forall d n alias,
    db_ok d -> 0 < n -> is_node (gr d) n = true ->
    match alias with Some a => imap_value (aliases d) a = Some n | None => True end ->
    (forall x, In x (node_edges d n) -> idx_has_all d (fst (fst x))) ->
    exists d1, remove_node_db d n alias = (d1, None) /\ psteps rv d d1 /\ capacity (gr d1) = capacity (gr d).
Proof. exact remove_node_db_psteps. Qed.
Print Assumptions C13_step_inverse_remove_node_db.

(* non-vacuity: the empty database is well formed; a concrete 7-step history (2 nodes, an edge, an
   alias, a property, the edge removed, the property replaced) satisfies the hypotheses; a concrete
   graph with an edge satisfies the graph well-formedness premise *)
Example C13_db_ok_new : db_ok db_new.
Proof. exact db_ok_new. Qed.
Print Assumptions C13_db_ok_new.

Example C13_history_restored :
  psteps rv_fixed db_new ex_d7 /\
  node_count (gr ex_d7) = 2 /\ kvs_get (vals ex_d7) 1 = [(DString [x6b], DI64 2)] /\ length (undo ex_d7) = 7%nat /\
  exists d', rollback rv_fixed ex_d7 = ROk d' /\ obs_eq db_new d' /\ db_ok d'.
Proof.
  split; [exact ex_psteps|]. split; [reflexivity|]. split; [reflexivity|]. split; [reflexivity|].
  destruct (rollback_restores_obs rv_fixed eq_refl eq_refl db_new ex_d7 db_ok_new eq_refl ex_psteps)
    as (d' & Hr & Ho & _ & _ & Hok).
  - vm_compute. discriminate.
  - exists d'. auto.
Qed.
Print Assumptions C13_history_restored.

Example C13_graph_wf_example :
  exists a, rep (gr ex_d5) a /\ ak a 3 = KEdge 1 2 /\ aout a 1 = [3] /\ ain a 2 = [3] /\ afree a = [].
Proof.
  destruct (rep_insert_node graph_new ag_new 1 (gr ex_d1) rep_new eq_refl) as (_ & R1); [vm_compute; discriminate|].
  destruct (rep_insert_node _ _ 2 (gr ex_d2) R1 eq_refl) as (_ & R2); [vm_compute; discriminate|].
  destruct (rep_insert_edge _ _ 1 2 (-3) (gr ex_d3) R2) as (_ & R3); try reflexivity; try lia; [vm_compute; discriminate|].
  eexists. split; [exact R3|]. repeat split.
Qed.
Print Assumptions C13_graph_wf_example.

(* Queries.exec / Queries.transaction for the `liftable` queries — InsertAliases, RemoveAliases,
   InsertIndex, RemoveIndex and every read-only query, whose primitives need no side condition across
   components — from every well-formed d and for every revision with the two rollback fixes: a failing
   query, and a transaction that fails (a failing query or a failure injected at the end, no panic),
   end in a state d' with obs_eq d d'.  The other mutating kinds need the joint invariant of C09 / C10 /
   C11 for the side conditions of their primitives; for them see C13_exec_failure_restores and
   C13_transaction_failure_restores below. *)
Theorem C13_exec_failure_restores_partial :
  forall rv, fix_rollback_replace rv = true -> fix_alias_steal_undo rv = true ->
  forall d q d' e,
    liftable q = true -> db_ok d -> undo d = [] -> exec rv d q = (d', QErr e) ->
    obs_eq d d' /\ db_ok d' /\ undo d' = [].
Proof. exact exec_failure_restores. Qed.
Print Assumptions C13_exec_failure_restores_partial.

Theorem C13_transaction_failure_restores_partial :
  forall rv, fix_rollback_replace rv = true -> fix_alias_steal_undo rv = true ->
  forall d qs fail_at_end,
    Forall (fun q => liftable q = true) qs -> db_ok d -> undo d = [] ->
    let '(d1, results, all_ok) := txn_run rv d qs [] in
    existsb (fun r => match r with QPanic => true | _ => false end) results = false ->
    all_ok && negb fail_at_end = false ->
    exists d', transaction rv d qs fail_at_end = (d', results) /\ obs_eq d d' /\ db_ok d' /\ undo d' = [].
Proof. exact transaction_failure_restores. Qed.
Print Assumptions C13_transaction_failure_restores_partial.

(* non-vacuity: the alias-stealing transaction of witness (ii) is covered, from a well-formed state *)
Example C13_lift_example :
  let d := fst (exec rv_fixed db_new (InsertNodes 2 (Single []) [[x61]; [x62]] (Ids []))) in
  let qs := [InsertAliases (Ids [QId 2]) [[x61]]] in
  Forall (fun q => liftable q = true) qs /\ db_ok d /\ undo d = [] /\
  exists d', transaction rv_fixed d qs true = (d', [QOk 1 []]) /\ obs_eq d d'.
Proof. exact lift_example. Qed.
Print Assumptions C13_lift_example.

(* ---- the two defects of the pinned tree (all fix flags off), repaired by fix: commits ---- *)

(* (i) rollback stopped at the first ReplaceKeyValue command: db = node 1 {k:1};
   transaction [insert a node; set k:2 on node 1] that fails at the end keeps node 2. *)
Theorem C13_pinned_refuted_replace :
  let d := fst (exec rv_pinned db_new (InsertNodes 1 (Single [(DString [x6b], DI64 1)]) [] (Ids []))) in
  let d' := fst (transaction rv_pinned d
                   [InsertNodes 1 (Single []) [] (Ids []);
                    InsertValues (Ids [QId 1]) (Single [(DString [x6b], DI64 2)])] true) in
  ~ obs_eq d d' /\
  slot_kind (gr d) 2 = KFree /\ slot_kind (gr d') 2 = KNode /\
  node_count (gr d) = 1 /\ node_count (gr d') = 2.
Proof.
  cbv zeta. split; [|vm_compute; auto].
  intros [[_ Hc _ _] _ _ _ _]. vm_compute in Hc. discriminate.
Qed.
Print Assumptions C13_pinned_refuted_replace.

(* (ii) stealing an alias recorded no inverse for the previous holder: nodes 1 "a", 2 "b";
   transaction [alias "a" -> node 2] that fails leaves node 1 without its alias. *)
Theorem C13_pinned_refuted_alias_steal :
  let d := fst (exec rv_pinned db_new (InsertNodes 2 (Single []) [[x61]; [x62]] (Ids []))) in
  let d' := fst (transaction rv_pinned d [InsertAliases (Ids [QId 2]) [[x61]]] true) in
  ~ obs_eq d d' /\
  imap_value (aliases d) [x61] = Some 1 /\ imap_value (aliases d') [x61] = None /\
  imap_key (aliases d) 1 = Some [x61] /\ imap_key (aliases d') 1 = None.
Proof.
  cbv zeta. split; [|vm_compute; auto].
  intros [_ _ Ha _ _]. specialize (Ha [x61]). vm_compute in Ha. discriminate.
Qed.
Print Assumptions C13_pinned_refuted_alias_steal.

(* (iii) flag fix_nodes_ids_alias off, every other fix on (repaired by fix: 883e1ef): `insert nodes ids [2] aliases ["a"]`
   called insert_new_alias on the existing node 2, dropping its alias "b" and stealing "a" from
   node 1 with only `RemoveAlias "a"` recorded: after the failed transaction both nodes have no alias. *)
Theorem C13_nodes_ids_alias_refuted :
  let rv := {| fix_rollback_replace := true; fix_alias_steal_undo := true; fix_alias_nodes_only := true;
               fix_strict_order := true; fix_slice_clamp := true; fix_edge_origin := true;
               fix_visited_chain := true; fix_nodes_ids_alias := false; fix_empty_alias := false |} in
  let d := fst (exec rv db_new (InsertNodes 2 (Single []) [[x61]; [x62]] (Ids []))) in
  let d' := fst (transaction rv d [InsertNodes 0 (Single []) [[x61]] (Ids [QId 2])] true) in
  ~ obs_eq d d' /\
  imap_key (aliases d) 1 = Some [x61] /\ imap_key (aliases d) 2 = Some [x62] /\
  imap_key (aliases d') 1 = None /\ imap_key (aliases d') 2 = None.
Proof.
  cbv zeta. split; [|vm_compute; auto].
  intros [_ _ Ha _ _]. specialize (Ha [x61]). vm_compute in Ha. discriminate.
Qed.
Print Assumptions C13_nodes_ids_alias_refuted.

Example C13_fixed_restores_nodes_ids_alias :
  let d := fst (exec rv_fixed db_new (InsertNodes 2 (Single []) [[x61]; [x62]] (Ids []))) in
  let d' := fst (transaction rv_fixed d [InsertNodes 0 (Single []) [[x61]] (Ids [QId 2])] true) in
  obs_eq d d' /\ undo d' = [].
Proof. cbv zeta. split; [apply obs_eqb_sound; vm_compute; reflexivity | vm_compute; auto]. Qed.
Print Assumptions C13_fixed_restores_nodes_ids_alias.

(* the same transactions on the repaired revision restore the state, including the ids
   that are handed out next *)
Example C13_fixed_restores_replace :
  let d := fst (exec rv_fixed db_new (InsertNodes 1 (Single [(DString [x6b], DI64 1)]) [] (Ids []))) in
  let d' := fst (transaction rv_fixed d
                   [InsertNodes 1 (Single []) [] (Ids []);
                    InsertValues (Ids [QId 1]) (Single [(DString [x6b], DI64 2)])] true) in
  obs_eq d d' /\ next_slots 4 (gr d) = next_slots 4 (gr d') /\ undo d' = [].
Proof. cbv zeta. split; [apply obs_eqb_sound; vm_compute; reflexivity | vm_compute; auto]. Qed.
Print Assumptions C13_fixed_restores_replace.

Example C13_fixed_restores_alias_steal :
  let d := fst (exec rv_fixed db_new (InsertNodes 2 (Single []) [[x61]; [x62]] (Ids []))) in
  let d' := fst (transaction rv_fixed d [InsertAliases (Ids [QId 2]) [[x61]]] true) in
  obs_eq d d' /\ next_slots 4 (gr d) = next_slots 4 (gr d') /\ undo d' = [].
Proof. cbv zeta. split; [apply obs_eqb_sound; vm_compute; reflexivity | vm_compute; auto]. Qed.
Print Assumptions C13_fixed_restores_alias_steal.

(* a single query failing part-way (second id does not exist) on the repaired revision *)
Example C13_fixed_restores_failing_query :
  let d := fst (exec rv_fixed db_new (InsertNodes 1 (Single [(DString [x6b], DI64 1)]) [] (Ids []))) in
  let '(d', r) := exec rv_fixed d (InsertValues (Ids [QId 1; QId 9]) (Single [(DString [x6b], DI64 2)])) in
  r = QErr ENotFound /\ obs_eq d d' /\ kvs_get (vals d') 1 = [(DString [x6b], DI64 1)].
Proof.
  cbv zeta. vm_compute exec. split; [reflexivity|]. split; [|reflexivity].
  apply obs_eqb_sound; vm_compute; reflexivity.
Qed.
Print Assumptions C13_fixed_restores_failing_query.

(* ======================================================================================
   ALL QUERY KINDS, AND WHOLE HISTORIES
   theories/PstepOpsProofs.v, WfRepProofs.v, RollbackInvProofs.v, NoPanicProofs.v,
   HistoryAtomicProofs.v, HistoryAtomicExamples.v.

   The decomposition of InsertNodes, InsertEdges, InsertValues, Remove (nodes with the cascade over their
   edges, edges) and RemoveValues into the 14 primitives of C13_step_inverse needs side conditions that
   are exactly what the joint invariant `Inv` of C09 / C10 / C11 (Props/C10.v: graph wf, aliases a
   bijection onto existing nodes, no element with two equal keys, indexes exact, values only on existing
   elements) provides — C13_primitives_from_Inv:
     - a removed / replaced pair of an existing element is listed in the index on its key (idx_exact);
     - a slot handed out by the allocator carries no values and no alias (vals_live, alias_nodes);
     - remove_node_db removes every incident edge (with its values) before the node (graph wf).
   Hence every mutating query, whatever its outcome, and every prefix of a transaction, is a sequence of
   primitives (C13_query_decomposes; `reach rv d d1` = capacities only grow, and when db_ok d holds and
   capacity (gr d1) <= 2^63, psteps rv d d1), and C13_rollback_restores applies.

   HInv d  =  Inv d /\ db_ok d /\ undo d = []     (both invariants, outside a transaction)
   restored d d' = obs_eq d d' /\ same degree counters /\ same ids handed out next (C13_restored_def).
   hitem = HQuery q (Db::exec / exec_mut: one query as its own transaction)
         | HTxn qs fail_at_end (transaction_mut running qs, then failing or not);
   run_item / run_items run a history; item_peak = the state just before the commit / rollback;
   item_failed = the query returned an error / the transaction was rolled back;
   bounded rv d its = the capacity of every item_peak along the history is <= 2^63.

   SCOPE (the two hypotheses that are not in the property text):
     (a) item_ok / query_ok: no insert list names a key twice (C09's quantifier).  Both invariants have a
         unique-keys component; and WITHOUT this quantifier "no observable effect" is FALSE for the model
         (hence, the model being faithful, presumably for the code): C13_duplicate_keys_refuted.
     (b) the capacity bound 2^63 (ids fit i64; slot 2^63 would collide with the free-list sentinel
         i64::MIN) — `bounded` / the `capacity ... <= two63z` premises.
   ====================================================================================== *)
From Agdb Require GraphSim.
From Agdb Require Import AliasProofs IndexDb3Proofs DbInvProofs QueryInvProofs QStepProofs RollbackInvProofs
  PstepOpsProofs TraversalLiveProofs NoPanicProofs WfRepProofs HistoryAtomicProofs HistoryAtomicExamples.

Theorem C13_restored_def :
  forall d d', restored d d' <->
    obs_eq d d' /\
    (forall n, slot_kind (gr d) n = KNode ->
       edge_count_from (gr d) n = edge_count_from (gr d') n /\ edge_count_to (gr d) n = edge_count_to (gr d') n) /\
    (forall k, capacity (gr d) + Z.of_nat k <= two63z -> capacity (gr d') + Z.of_nat k <= two63z ->
       next_slots k (gr d) = next_slots k (gr d')).
Proof. intros d d'. reflexivity. Qed.
Print Assumptions C13_restored_def.

(* what Inv provides to the primitives *)
Theorem C13_primitives_from_Inv :
  forall d, Inv d ->
  (forall id, live d id = true -> idx_has_all d id) /\
  (live d (fst (insert_node_db d)) = false /\
   kvs_get (vals (snd (insert_node_db d))) (fst (insert_node_db d)) = [] /\
   imap_key (aliases d) (fst (insert_node_db d)) = None) /\
  (forall n alias d0, 0 < n -> live d n = true ->
     match alias with Some al => imap_value (aliases d) al = Some n | None => True end ->
     remove_node_db d n alias = (d0, None) ->
     reach rv_fixed d (remove_all_values d0 n)).
Proof.
  intros d Hd. split; [intros id Hl; now apply idx_has_all_of_Inv|]. split.
  - pose proof (insert_node_db_fresh d Hd) as Hf. split; [exact Hf|]. split; [apply (insert_node_db_Inv d Hd)|].
    now apply fresh_no_alias.
  - intros n alias d0 Hn Hl Hal E. exact (remove_node_full_reach rv_fixed eq_refl eq_refl d n alias d0 Hd Hn Hl Hal E).
Qed.
Print Assumptions C13_primitives_from_Inv.

Theorem C13_reach_def :
  forall d d1, reach rv_fixed d d1 <->
    capacity (gr d) <= capacity (gr d1) /\ (db_ok d -> capacity (gr d1) <= two63z -> psteps rv_fixed d d1).
Proof. intros d d1. reflexivity. Qed.
Print Assumptions C13_reach_def.

(* every query (all kinds), whatever its outcome, and every prefix of a transaction *)
Theorem C13_query_decomposes :
  (forall d q, query_ok q -> Inv d -> reach rv_fixed d (fst (exec_in_txn rv_fixed d q))) /\
  (forall qs d acc, Forall query_ok qs -> Inv d -> reach rv_fixed d (fst (fst (txn_run rv_fixed d qs acc)))).
Proof.
  split.
  - exact (exec_in_txn_reach rv_fixed eq_refl eq_refl eq_refl search_live_fixed).
  - exact (txn_run_reach rv_fixed eq_refl eq_refl eq_refl eq_refl search_live_fixed).
Qed.
Print Assumptions C13_query_decomposes.

(* the repaired code never panics, so a query / transaction always ends in a commit or a rollback *)
Theorem C13_no_panic :
  forall d q, snd (exec_in_txn rv_fixed d q) <> QPanic.
Proof. exact (exec_in_txn_no_panic rv_fixed eq_refl). Qed.
Print Assumptions C13_no_panic.

(* every rollback keeps the graph invariant and the alias bijection; Inv is invariant under `sim` *)
Theorem C13_rollback_keeps_wf :
  forall d d', rollback rv_fixed d = ROk d' -> uok d -> GraphSim.wf (gr d) -> alias_bij d ->
    GraphSim.wf (gr d') /\ alias_bij d'.
Proof. exact (rollback_wf_bij rv_fixed). Qed.
Print Assumptions C13_rollback_keeps_wf.

Theorem C13_Inv_of_sim :
  forall d d', Inv d -> UndoDb.sim d' d -> GraphSim.wf (gr d') -> alias_bij d' -> Inv d'.
Proof. exact Inv_of_sim. Qed.
Print Assumptions C13_Inv_of_sim.

(* the C13 well-formedness follows from the joint invariant (theories/WfRepProofs.v: the graph invariant
   wf of C08 implies the array well-formedness `rep` of C13 when the capacity fits i64), so Inv is the
   only assumption on the state below *)
Theorem C13_db_ok_from_Inv :
  forall d, Inv d -> capacity (gr d) <= two63z -> db_ok d.
Proof. exact Inv_db_ok. Qed.
Print Assumptions C13_db_ok_from_Inv.

(* ---- a failing query: ALL query kinds, from EVERY state satisfying Inv (outside a transaction) ---- *)
Theorem C13_exec_failure_restores :
  forall d q d' e,
    query_ok q -> Inv d -> undo d = [] -> capacity (gr (fst (exec_in_txn rv_fixed d q))) <= two63z ->
    exec rv_fixed d q = (d', QErr e) ->
    restored d d' /\ Inv d' /\ undo d' = [] /\ capacity (gr d') <= two63z.
Proof.
  intros d q d' e Hq Hi Hu Hb He.
  destruct (exec_in_txn_reach rv_fixed eq_refl eq_refl eq_refl search_live_fixed d q Hq Hi) as [Hc _].
  assert (Hd : HInv d) by (apply HInv_of_Inv; [exact Hi|exact Hu|lia]).
  destruct (exec_failure_restores_fixed d q d' e Hq Hd Hb He) as [Hr Hd'].
  split; [exact Hr|]. split; [apply Hd'|]. split; [apply Hd'|now apply HInv_cap].
Qed.
Print Assumptions C13_exec_failure_restores.

(* ---- a transaction: committed, or failing at any point (a failing query, or a failure injected after
        the last query): the results are those of the queries run, the state satisfies HInv, and when it
        failed the state is restored ---- *)
Theorem C13_transaction_failure_restores :
  forall d qs fail_at_end,
    Forall query_ok qs -> Inv d -> undo d = [] -> capacity (gr (fst (fst (txn_run rv_fixed d qs [])))) <= two63z ->
    let r := transaction rv_fixed d qs fail_at_end in
    (Inv (fst r) /\ undo (fst r) = [] /\ capacity (gr (fst r)) <= two63z) /\
    snd r = snd (fst (txn_run rv_fixed d qs [])) /\
    (negb (snd (txn_run rv_fixed d qs []) && negb fail_at_end) = true -> restored d (fst r)).
Proof.
  intros d qs fail_at_end Hq Hi Hu Hb. cbv zeta.
  destruct (txn_run_reach rv_fixed eq_refl eq_refl eq_refl eq_refl search_live_fixed qs d [] Hq Hi) as [Hc _].
  assert (Hd : HInv d) by (apply HInv_of_Inv; [exact Hi|exact Hu|lia]).
  destruct (transaction_atomic_fixed d qs fail_at_end Hq Hd Hb) as (H1 & H2 & H3).
  split; [|split; [exact H2|exact H3]]. split; [apply H1|]. split; [apply H1|now apply HInv_cap].
Qed.
Print Assumptions C13_transaction_failure_restores.

(* ---- every history of queries and transactions from the empty database, failing or not: at every
        point both invariants hold, and every failed item was a no-op observationally ---- *)
Theorem C13_history_atomic :
  forall its pre it post,
    Forall item_ok its -> bounded rv_fixed db_new its -> its = pre ++ it :: post ->
    let a := run_items rv_fixed db_new pre in
    HInv a /\ HInv (run_item rv_fixed a it) /\
    (item_failed rv_fixed a it = true -> restored a (run_item rv_fixed a it)).
Proof.
  intros its pre it post Hok Hb.
  exact (history_atomic rv_fixed eq_refl eq_refl eq_refl eq_refl eq_refl search_live_fixed db_new its pre it post Hok HInv_new Hb).
Qed.
Print Assumptions C13_history_atomic.

Theorem C13_history_invariant :
  forall its, Forall item_ok its -> bounded rv_fixed db_new its ->
    Inv (run_items rv_fixed db_new its) /\ db_ok (run_items rv_fixed db_new its) /\ undo (run_items rv_fixed db_new its) = [].
Proof. exact history_HInv_fixed. Qed.
Print Assumptions C13_history_invariant.

(* non-vacuity: seven items; a query failing part-way on an indexed value, a transaction failing at the
   end after removing an aliased node with its edge (cascade) and creating a node in the freed slot, a
   transaction whose third query fails, a committed removal *)
Example C13_history_nonvacuous :
  Forall item_ok ha_history /\ bounded rv_fixed db_new ha_history /\
  failed_flags db_new ha_history = [false; false; false; true; true; true; false].
Proof. exact ha_history_ok. Qed.
Print Assumptions C13_history_nonvacuous.

Example C13_history_states :
  let d3 := run_items rv_fixed db_new (firstn 3 ha_history) in
  let d6 := run_items rv_fixed db_new (firstn 6 ha_history) in
  let d7 := run_items rv_fixed db_new ha_history in
  elements (gr d3) = [1; 2; -3] /\ obs_eqb d3 d6 = true /\
  next_slots 3 (gr d3) = next_slots 3 (gr d6) /\
  search rv_fixed d6 {| s_algorithm := AIndex; s_origin := QId 0; s_destination := QId 0; s_limit := 0; s_offset := 0;
                        s_order_by := []; s_conditions := [Cond LAnd MNone (CKeyValue ha_k CEqual (DI64 1))] |} = SOk [1] /\
  imap_value (aliases d6) [x61] = Some 1 /\ imap_value (aliases d6) [x62] = None /\
  elements (gr d7) = [1] /\ undo d7 = [].
Proof. vm_compute. repeat split; reflexivity. Qed.
Print Assumptions C13_history_states.

(* ---- why (a) is needed: with a key named twice in one insert list, a rolled-back transaction is
        observable.  History: `insert nodes values [[k:1, k:2]]` (node 1 gets BOTH pairs), then the
        transaction [remove values k from node 1; fail].  Rollback re-appends the pairs newest first:
        node 1 ends with [k:2, k:1] — equal for obs_eq (multisets), but a key lookup reads the first
        pair: `search elements where k == 1` returns [1] before and [] after the failed transaction. ---- *)
Theorem C13_duplicate_keys_refuted :
  ~ query_ok (InsertNodes 1 (Multi [[(ha_k, DI64 1); (ha_k, DI64 2)]]) [] (Ids [])) /\
  snd (transaction rv_fixed dup_d0 dup_txn true) = [QOk 2 []] /\
  kvs_get (vals dup_d0) 1 = [(ha_k, DI64 1); (ha_k, DI64 2)] /\
  kvs_get (vals dup_d1) 1 = [(ha_k, DI64 2); (ha_k, DI64 1)] /\
  obs_eq dup_d0 dup_d1 /\
  search rv_fixed dup_d0 dup_search = SOk [1] /\
  search rv_fixed dup_d1 dup_search = SOk [] /\
  exec_select rv_fixed dup_d0 (SearchQ dup_search) <> exec_select rv_fixed dup_d1 (SearchQ dup_search).
Proof.
  split; [|split; [|split; [|split; [|split; [|split; [|split]]]]]].
  - cbn [query_ok qvalues_ok]. intros H. inversion H as [|? ? H1 _]; subst.
    cbn [KvProofs.keys_distinct] in H1. destruct H1 as [H1 _]. vm_compute in H1. discriminate.
  - vm_compute. reflexivity.
  - vm_compute. reflexivity.
  - vm_compute. reflexivity.
  - apply obs_eqb_sound. vm_compute. reflexivity.
  - vm_compute. reflexivity.
  - vm_compute. reflexivity.
  - vm_compute. discriminate.
Qed.
Print Assumptions C13_duplicate_keys_refuted.
