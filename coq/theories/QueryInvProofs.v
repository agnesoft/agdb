(* QueryInvProofs.v — every mutating query of Queries.v keeps the combined invariant `Inv`
   (whatever its outcome: the partial state left by a failing query satisfies it too), hence so do
   committed queries and transactions.  The traversal searches (breadth/depth first, path) enter
   through one hypothesis: the ids they return exist (`search_live`).
   The case analysis over the query kinds is done once, for any property of states that the element
   operations of DbImpl keep (section Keeps).  Its instances: `Inv`, alone or with a further property
   kept in its presence (section Closed; C13's decomposition of queries into mutation primitives,
   PstepOpsProofs.v), and "the empty alias does not resolve" (EmptyAliasProofs.v), which needs
   no invariant. *)
From Agdb Require Import Bytes BytesProofs DbValue Graph DbModel Search Queries Revisions
  GraphArr GraphSim GraphProofs GraphRemove GraphSpec GraphWf GraphC08 GraphLive DbCascadeProofs
  AssocProofs ImapProofs DbFrameProofs AliasProofs AliasQueryProofs DbValueEqProofs KvProofs KvDbProofs KvSelectProofs
  IndexProofs IndexDbProofs IndexDb2Proofs IndexDb3Proofs IndexDb4Proofs IndexInvProofs
  DbInvProofs QStepProofs.
From Coq Require Import ZifyBool.
Open Scope Z_scope.

(* the property's quantifier: keys within one insert list are distinct *)
Definition qvalues_ok (v : qvalues) : Prop :=
  match v with Single l => keys_distinct l | Multi ls => Forall keys_distinct ls end.
Definition query_ok (q : query) : Prop :=
  match q with
  | InsertNodes _ v _ _ => qvalues_ok v
  | InsertEdges _ _ v _ _ => qvalues_ok v
  | InsertValues _ v => qvalues_ok v
  | _ => True
  end.

(* every id returned by a search denotes an existing element *)
Definition search_live (rv : revision) : Prop :=
  forall d s ids, Inv d -> search rv d s = SOk ids -> forall id, In id ids -> live d id = true.

Lemma in_combine_both {A B} (l1 : list A) (l2 : list B) x y : In (x, y) (combine l1 l2) -> In x l1 /\ In y l2.
Proof. intros H. split; [eapply in_combine_l|eapply in_combine_r]; exact H. Qed.

Lemma Forall_repeat {A} (P : A -> Prop) x n : P x -> Forall P (repeat x n).
Proof. intros H. induction n; cbn [repeat]; constructor; assumption. Qed.

Definition same_gr (d a : db) : Prop := gr a = gr d.

Lemma insert_values_new_Inv a acc alias kvs :
  Inv a -> keys_distinct kvs -> Inv (fst (insert_values_new a acc alias kvs)).
Proof.
  intros Ha Hk. unfold insert_values_new.
  pose proof (insert_node_db_Inv a Ha) as H. destruct (insert_node_db a) as [id a1]. cbn [fst snd] in H.
  destruct H as (Ha1 & Hp & Hl & He & _).
  set (a2 := match alias with Some al => insert_new_alias a1 id al | None => a1 end).
  assert (Ha2 : Inv a2 /\ gr a2 = gr a1 /\ vals a2 = vals a1).
  { unfold a2. destruct alias as [al|]; [|auto]. split; [now apply insert_new_alias_Inv|split; reflexivity]. }
  destruct Ha2 as (Ha2 & Hg2 & Hv2). cbn [fst].
  apply insert_kvs_new_Inv; [exact Ha2| | |exact Hk].
  - unfold live. rewrite Hg2. exact Hl.
  - rewrite Hv2. exact He.
Qed.

Lemma db_id_alias_none a al e : db_id a (QAlias al) = RErr e -> imap_value (aliases a) al = None.
Proof. cbn [db_id]. destruct (imap_value (aliases a) al); [discriminate|reflexivity]. Qed.

(* Every mutating query applies a handful of DbImpl operations to ids it resolved.  A property Q of
   states that each of these operations keeps is kept by every query, whatever its outcome.  The
   operations may rely on what the query layer guarantees of their arguments: S a id, known of every
   id resolved (by id, alias or search) in a state with the graph of a; K kvs, known of every inserted
   key-value list; a new alias does not resolve and has passed the check for the empty alias. *)
Section Keeps.
  Variable rv : revision.
  Variable Q : db -> Prop.
  Variable S : db -> Z -> Prop.
  Variable K : list kv -> Prop.

  Hypothesis S_db_id : forall a q id, Q a -> db_id a q = ROk id -> S a id.
  Hypothesis S_search : forall d s ids, Q d -> search rv d s = SOk ids -> forall id, In id ids -> S d id.
  Hypothesis S_gr : forall a a' id, gr a' = gr a -> S a id -> S a' id.

  Definition checked_alias (al : bytes) : Prop := fix_empty_alias rv = true -> al <> [].

  Hypothesis Q_replace : forall a id kvs, Q a -> S a id -> Q (insert_kvs_replace a id kvs).
  Hypothesis Q_new : forall a acc alias kvs,
    Q a -> K kvs ->
    match alias with Some al => imap_value (aliases a) al = None /\ checked_alias al | None => True end ->
    Q (fst (insert_values_new a acc alias kvs)).
  Hypothesis Q_edge : forall a f t id a1 kvs,
    Q a -> S a f -> S a t -> insert_edge_db a f t = ROk (id, a1) -> K kvs ->
    Q (insert_kvs_new a1 id kvs) /\ (forall j, S a j -> S (insert_kvs_new a1 id kvs) j).
  (* `~ id < 0` is all the query has tested of the ids (no edge id among them); that id is not 0 is for
     S to say (an existing element is never 0) *)
  Hypothesis Q_node_alias : forall a id al,
    Q a -> ~ id < 0 -> S a id -> checked_alias al ->
    Q (if fix_nodes_ids_alias rv then insert_alias rv a id al else insert_new_alias a id al).
  Hypothesis Q_remove_alias : forall a al, Q a -> Q (snd (remove_alias a al)).
  Hypothesis Q_remove_keys : forall a id keys, Q a -> S a id -> Q (snd (remove_keys a id keys)).
  Hypothesis Q_remove_id : forall a id, Q a -> Q (fst (remove_id a id)).
  Hypothesis Q_remove_q : forall a q, Q a -> Q (fst (remove_q a q)).
  Hypothesis Q_insert_index : forall a key n a1, Q a -> insert_index a key = ROk (n, a1) -> Q a1.
  Hypothesis Q_remove_index : forall a key, Q a -> Q (snd (remove_index a key)).

  Definition values_ok (v : qvalues) : Prop :=
    match v with Single l => K l | Multi ls => Forall K ls end.

  (* while the graph is still that of d, what was resolved in d is known of a *)
  Let Qg (d a : db) : Prop := Q a /\ same_gr d a.

  Lemma resolve_all_S d l ids : Q d -> resolve_all d l = ROk ids -> forall id, In id ids -> S d id.
  Proof.
    intros Hd. revert ids. induction l as [|q l IH]; intros ids; cbn [resolve_all].
    - intros H. inversion H. intros id [].
    - destruct (db_id d q) as [i|e] eqn:E; [|discriminate].
      destruct (resolve_all d l) as [r|e]; [|discriminate]. intros H. inversion H; subst.
      intros id [<-|Hin]; [now apply (S_db_id d q)|now apply (IH r)].
  Qed.

  Lemma resolve_ids_S d ids l : Q d -> resolve_ids rv d ids = SOk l -> forall id, In id l -> S d id.
  Proof.
    intros Hd. destruct ids as [ql|s]; cbn [resolve_ids]; [|now apply S_search].
    destruct (resolve_all d ql) as [r|e] eqn:E; [|discriminate]. intros H. inversion H; subst.
    now apply (resolve_all_S d ql).
  Qed.

  Lemma edge_db_ids_S d ids l : Q d -> edge_db_ids rv d ids = SOk l -> forall id, In id l -> S d id.
  Proof.
    intros Hd. destruct ids as [ql|s]; cbn [edge_db_ids].
    - destruct (resolve_all d ql) as [r|e] eqn:E; [|discriminate]. intros H. inversion H; subst.
      now apply (resolve_all_S d ql).
    - destruct (search rv d s) as [r|e|] eqn:E; try discriminate. intros H. inversion H; subst.
      intros id Hin. apply filter_In in Hin. now apply (S_search d s r Hd E).
  Qed.

  Lemma checked_nth (als : list bytes) i al :
    fix_empty_alias rv && existsb (fun al : bytes => match al with [] => true | _ => false end) als = false ->
    nth_error als i = Some al -> checked_alias al.
  Proof.
    intros Hc Hn Hf ->. rewrite Hf in Hc. apply nth_error_In in Hn.
    assert (H : existsb (fun al : bytes => match al with [] => true | _ => false end) als = true); [|cbn in Hc; congruence].
    apply existsb_exists. exists []. now split.
  Qed.

  Lemma replace_step_g d a id kvs : Qg d a -> S d id -> Qg d (insert_kvs_replace a id kvs).
  Proof.
    intros [Ha Hg] Hl. split.
    - apply Q_replace; [exact Ha|]. now apply (S_gr d).
    - unfold same_gr. now rewrite (proj1 (insert_kvs_replace_ga a id kvs)).
  Qed.

  Lemma insert_nodes_keeps d count values als ids :
    values_ok values -> Q d -> Q (step_db (insert_nodes rv d count values als ids)).
  Proof.
    intros Hv Hd. unfold insert_nodes.
    destruct (fix_empty_alias rv && existsb _ als) eqn:Eals; cbn [step_db]; [exact Hd|].
    destruct (resolve_ids rv d ids) as [query_ids|e|] eqn:Er; cbn [step_db]; try exact Hd.
    set (vals_list := match values with
                      | Single v => repeat v (Nat.max (length query_ids) (Z.to_nat (Z.max count (lenZ als))))
                      | Multi v => v end).
    assert (Hvl : Forall K vals_list).
    { unfold vals_list. destruct values as [v|v]; [now apply Forall_repeat|exact Hv]. }
    destruct (Nat.ltb (length vals_list) (length als)); cbn [step_db]; [exact Hd|].
    destruct (negb (Nat.eqb (length query_ids) 0)).
    - (* insert-or-update of the existing nodes `ids` *)
      destruct (existsb (fun id => id <? 0) query_ids) eqn:Eneg; cbn [step_db]; [exact Hd|].
      destruct (negb (Nat.eqb (length vals_list) (length query_ids))); cbn [step_db]; [exact Hd|].
      unfold ok_elements. cbn [step_db]. refine (proj1 (_ : Qg d _)).
      apply fold_left_inv; [split; [exact Hd|reflexivity]|].
      intros a [i [id kvs]] Hin Ha.
      apply in_combine_both in Hin. destruct Hin as [_ Hin]. apply in_combine_both in Hin. destruct Hin as [Hid _].
      pose proof (resolve_ids_S d ids query_ids Hd Er id Hid) as Hl.
      assert (Hp : ~ id < 0).
      { intros Hn. assert (Hex : existsb (fun id => id <? 0) query_ids = true); [|congruence].
        apply existsb_exists. exists id. split; [exact Hid|lia]. }
      destruct (replace_step_g d a id kvs Ha Hl) as [Ha1 Hg1].
      destruct (nth_error als i) as [al|] eqn:En; [|exact (conj Ha1 Hg1)]. split.
      + apply Q_node_alias; [exact Ha1|exact Hp|now apply (S_gr d)|now apply (checked_nth als i)].
      + destruct (fix_nodes_ids_alias rv); [|exact Hg1].
        unfold same_gr. rewrite (proj1 (insert_alias_gvi rv _ id al)). exact Hg1.
    - (* new nodes, or insert-or-update of the nodes the aliases name *)
      match goal with |- context [fold_left ?f ?l ?a0] =>
        assert (H : (fun acc : db * list Z => Q (fst acc)) (fold_left f l a0)) end.
      { apply fold_left_inv; [exact Hd|].
        intros [a out] [i kvs] Hin Ha. cbn [fst] in *.
        apply in_combine_both in Hin. destruct Hin as [_ Hin].
        assert (Hk : K kvs) by (rewrite Forall_forall in Hvl; now apply Hvl).
        destruct (nth_error als i) as [al|] eqn:En.
        - destruct (db_id a (QAlias al)) as [id|e] eqn:Ei.
          + cbn [fst]. apply Q_replace; [exact Ha|]. now apply (S_db_id a (QAlias al)).
          + pose proof (Q_new a (0, []) (Some al) kvs Ha Hk (conj (db_id_alias_none a al e Ei) (checked_nth als i al Eals En))) as H.
            unfold insert_values_new in H. destruct (insert_node_db a) as [id a1]. exact H.
        - pose proof (Q_new a (0, []) None kvs Ha Hk I) as H. unfold insert_values_new in H.
          destruct (insert_node_db a) as [id a1]. exact H. }
      match goal with |- context [fold_left ?f ?l ?a0] => destruct (fold_left f l a0) as [d1 ids_rev] end.
      exact H.
  Qed.

  Lemma edge_values_ok values n vl : values_ok values -> edge_values values n = ROk vl -> Forall K vl.
  Proof.
    intros Hv. unfold edge_values.
    destruct (Nat.eqb _ n); [|discriminate]. intros H. inversion H; subst.
    destruct values as [v|v]; [now apply Forall_repeat|exact Hv].
  Qed.

  Lemma insert_edge_list_keeps d pairs :
    Q d -> (forall f t kvs, In ((f, t), kvs) pairs -> S d f /\ S d t /\ K kvs) ->
    Q (step_db (insert_edge_list d pairs)).
  Proof.
    intros Hd Hp. unfold insert_edge_list.
    match goal with |- context [st_fold ?f d [] pairs] =>
      assert (H : (fun a => Q a /\ forall j, S d j -> S a j) (step_db (st_fold f d [] pairs))) end.
    { apply st_fold_inv; [split; [exact Hd|auto]|].
      intros a out [[f t] kvs] Hin [Ha Hm]. destruct (Hp f t kvs Hin) as (Hf & Ht & Hk).
      destruct (insert_edge_db a f t) as [[id a1]|e] eqn:Ei; cbn [step_db]; [|exact (conj Ha Hm)].
      destruct (Q_edge a f t id a1 kvs Ha (Hm f Hf) (Hm t Ht) Ei Hk) as [Ha1 Hm1]. split; [exact Ha1|auto]. }
    destruct (st_fold _ d [] pairs) as [d1 out|d1 e|d1]; apply H.
  Qed.

  Lemma insert_edges_keeps d from to values each ids :
    values_ok values -> Q d -> Q (step_db (insert_edges rv d from to values each ids)).
  Proof.
    intros Hv Hd. unfold insert_edges.
    destruct (resolve_ids rv d ids) as [query_ids|e|] eqn:Er; cbn [step_db]; try exact Hd.
    destruct (negb (Nat.eqb (length query_ids) 0)).
    - (* insert-or-update of the existing edges `ids` *)
      destruct (existsb (fun id => 0 <? id) query_ids); cbn [step_db]; [exact Hd|].
      destruct (edge_values values (length query_ids)) as [vl|e]; cbn [step_db]; [|exact Hd].
      unfold ok_elements. cbn [step_db]. refine (proj1 (_ : Qg d _)).
      apply fold_left_inv; [split; [exact Hd|reflexivity]|].
      intros a [id kvs] Hin Ha. apply in_combine_both in Hin. destruct Hin as [Hid _]. cbn [fst snd].
      apply (replace_step_g d a id kvs Ha). now apply (resolve_ids_S d ids query_ids Hd Er).
    - destruct (edge_db_ids rv d from) as [fl|e|] eqn:Ef; cbn [step_db]; try exact Hd.
      destruct (edge_db_ids rv d to) as [tl|e|] eqn:Et; cbn [step_db]; try exact Hd.
      set (pairs := if each || negb (Nat.eqb (length fl) (length tl))
                    then flat_map (fun f => map (fun t => (f, t)) tl) fl else combine fl tl).
      assert (Hpairs : forall f t, In (f, t) pairs -> In f fl /\ In t tl).
      { intros f t. unfold pairs. destruct (each || negb (Nat.eqb (length fl) (length tl))).
        - rewrite in_flat_map. intros [f0 [Hf0 Hin]]. apply in_map_iff in Hin.
          destruct Hin as [t0 [Heq Ht0]]. inversion Heq; subst. tauto.
        - apply in_combine_both. }
      destruct (edge_values values (length pairs)) as [vl|e] eqn:Ev; cbn [step_db]; [|exact Hd].
      pose proof (edge_values_ok values _ vl Hv Ev) as Hvl.
      assert (H : Q (step_db (insert_edge_list d (combine pairs vl)))).
      { apply insert_edge_list_keeps; [exact Hd|]. intros f t kvs Hin. apply in_combine_both in Hin.
        destruct Hin as [Hft Hk]. destruct (Hpairs f t Hft) as [Hf Ht].
        split; [now apply (edge_db_ids_S d from fl Hd Ef)|].
        split; [now apply (edge_db_ids_S d to tl Hd Et)|].
        rewrite Forall_forall in Hvl. now apply Hvl. }
      destruct (insert_edge_list d (combine pairs vl)) as [d1 out|d1 e|d1]; exact H.
  Qed.

  Lemma insert_values_q_keeps a acc q kvs : Q a -> K kvs -> Q (step_db (insert_values_q rv a acc q kvs)).
  Proof.
    intros Ha Hk. unfold insert_values_q. destruct (db_id a q) as [id|e] eqn:Ei.
    - unfold insert_values_id. cbn [step_db]. apply Q_replace; [exact Ha|]. now apply (S_db_id a q).
    - destruct q as [id|al].
      + destruct (id =? 0); cbn [step_db]; [|exact Ha].
        pose proof (Q_new a acc None kvs Ha Hk I) as H.
        destruct (insert_values_new a acc None kvs) as [d1 r]. exact H.
      + destruct (fix_empty_alias rv && _) eqn:Ec; cbn [step_db]; [exact Ha|].
        assert (Hc : checked_alias al) by (intros Hf ->; rewrite Hf in Ec; discriminate).
        pose proof (Q_new a acc (Some al) kvs Ha Hk (conj (db_id_alias_none a al e Ei) Hc)) as H.
        destruct (insert_values_new a acc (Some al) kvs) as [d1 r]. exact H.
  Qed.

  Lemma insert_values_keeps d ids values :
    values_ok values -> Q d -> Q (step_db (insert_values rv d ids values)).
  Proof.
    intros Hv Hd. unfold insert_values. destruct ids as [l|s].
    - destruct values as [kvs|vl].
      + apply st_fold_inv; [exact Hd|]. intros a acc q _ Ha. now apply insert_values_q_keeps.
      + destruct (negb (Nat.eqb (length l) (length vl))); cbn [step_db]; [exact Hd|].
        apply st_fold_inv; [exact Hd|]. intros a acc [q kvs] Hin Ha. cbn [fst snd].
        apply insert_values_q_keeps; [exact Ha|]. apply in_combine_both in Hin.
        cbn [values_ok] in Hv. rewrite Forall_forall in Hv. now apply Hv.
    - destruct (search rv d s) as [db_ids|e|] eqn:Es; cbn [step_db]; try exact Hd.
      pose proof (S_search d s db_ids Hd Es) as Hl.
      destruct values as [kvs|vl].
      + refine (proj1 (_ : Qg d _)).
        apply st_fold_inv; [split; [exact Hd|reflexivity]|]. intros a acc id Hin Ha.
        unfold insert_values_id. cbn [step_db]. apply (replace_step_g d a id kvs Ha). now apply Hl.
      + destruct (negb (Nat.eqb (length db_ids) (length vl))); cbn [step_db]; [exact Hd|].
        refine (proj1 (_ : Qg d _)).
        apply st_fold_inv; [split; [exact Hd|reflexivity]|]. intros a acc [id kvs] Hin Ha.
        unfold insert_values_id. cbn [step_db fst snd]. apply in_combine_both in Hin.
        apply (replace_step_g d a id kvs Ha). now apply Hl.
  Qed.

  Lemma remove_query_keeps d ids : Q d -> Q (step_db (remove_query rv d ids)).
  Proof.
    intros Hd. unfold remove_query. destruct ids as [l|s].
    - rewrite step_db_counted. apply st_fold_inv; [exact Hd|]. intros a n q _ Ha.
      pose proof (Q_remove_q a q Ha) as H. destruct (remove_q a q) as [a1 [[|]|e]]; exact H.
    - destruct (search rv d s) as [db_ids|e|]; cbn [step_db]; try exact Hd.
      rewrite step_db_counted. apply st_fold_inv; [exact Hd|]. intros a n id _ Ha.
      pose proof (Q_remove_id a id Ha) as H. destruct (remove_id a id) as [a1 [[|]|e]]; exact H.
  Qed.

  Lemma remove_aliases_keeps d als : Q d -> Q (step_db (remove_aliases d als)).
  Proof.
    intros Hd. unfold remove_aliases.
    match goal with |- context [fold_left ?f als ?a0] =>
      assert (H : (fun acc : Z * db => Q (snd acc)) (fold_left f als a0)) end.
    { apply fold_left_inv; [exact Hd|].
      intros [n a] al _ Ha. cbn [fst snd] in *.
      pose proof (Q_remove_alias a al Ha) as H. destruct (remove_alias a al) as [b a1]. exact H. }
    match goal with |- context [fold_left ?f als ?a0] => destruct (fold_left f als a0) as [n d1] end.
    exact H.
  Qed.

  Lemma remove_values_keeps d ids keys : Q d -> Q (step_db (remove_values rv d ids keys)).
  Proof.
    intros Hd. unfold remove_values. destruct ids as [l|s].
    - rewrite step_db_counted. apply st_fold_inv; [exact Hd|]. intros a n q _ Ha.
      destruct (db_id a q) as [id|e] eqn:Ei; cbn [step_db]; [|exact Ha].
      pose proof (Q_remove_keys a id keys Ha (S_db_id a q id Ha Ei)) as H.
      destruct (remove_keys a id keys) as [k a1]. exact H.
    - destruct (search rv d s) as [db_ids|e|] eqn:Es; cbn [step_db]; try exact Hd.
      rewrite step_db_counted. refine (proj1 (_ : Qg d _)).
      apply st_fold_inv; [split; [exact Hd|reflexivity]|]. intros a n id Hin [Ha Hg].
      pose proof (Q_remove_keys a id keys Ha (S_gr d a id Hg (S_search d s db_ids Hd Es id Hin))) as H.
      pose proof (remove_keys_ga a id keys) as G.
      destruct (remove_keys a id keys) as [k a1]. cbn [step_db snd] in *. split; [exact H|].
      unfold same_gr. rewrite (proj1 G). exact Hg.
  Qed.

  Definition keys_ok_query (q : query) : Prop :=
    match q with
    | InsertNodes _ v _ _ | InsertEdges _ _ v _ _ | InsertValues _ v => values_ok v
    | _ => True
    end.

  (* InsertAliases is the one query whose element step is guarded by a repair (only node ids may be
     aliased): that insert_alias keeps Q on the ids let through is asked for this query only. *)
  Theorem exec_mut_step_keeps d q :
    (forall ids als, q = InsertAliases ids als ->
       forall a x id b al, Q a -> db_id a x = ROk id -> fix_alias_nodes_only rv && (id <? 0) = false ->
                           Q (insert_alias rv a id (b :: al))) ->
    keys_ok_query q -> Q d -> Q (step_db (exec_mut_step rv d q)).
  Proof.
    intros Hia Hq Hd. destruct q; cbn [exec_mut_step keys_ok_query] in *; try exact Hd.
    - now apply insert_nodes_keeps.
    - now apply insert_edges_keeps.
    - apply insert_aliases_inv; [exact Hd|exact (Hia ids aliases eq_refl)].
    - now apply insert_values_keeps.
    - destruct (insert_index d key) as [[n d1]|e] eqn:Ei; cbn [step_db]; [|exact Hd].
      now apply (Q_insert_index d key n d1).
    - pose proof (Q_remove_index d key Hd) as H. destruct (remove_index d key) as [n d1]. exact H.
    - now apply remove_query_keeps.
    - now apply remove_aliases_keeps.
    - now apply remove_values_keeps.
  Qed.
End Keeps.

(* the invariant, together with any property the operations keep in its presence *)
Lemma insert_edge_kvs_Inv a f t id a1 kvs :
  Inv a -> live a f = true -> live a t = true -> insert_edge_db a f t = ROk (id, a1) -> keys_distinct kvs ->
  Inv (insert_kvs_new a1 id kvs) /\ (forall j, live a j = true -> live (insert_kvs_new a1 id kvs) j = true).
Proof.
  intros Ha Hf Ht Ei Hk. destruct (insert_edge_db_Inv a f t id a1 Ha Hf Ht Ei) as (Ha1 & _ & Hl & He & Hm).
  split; [now apply insert_kvs_new_Inv|].
  intros j Hj. unfold live. rewrite (proj1 (insert_kvs_new_ga a1 id kvs)). now apply Hm.
Qed.

Section Closed.
  Variable rv : revision.
  Hypothesis Hsearch : search_live rv.

  Variable P : db -> Prop.
  Hypothesis P_replace : forall a id kvs, Inv a -> live a id = true -> P a -> P (insert_kvs_replace a id kvs).
  Hypothesis P_new : forall a acc alias kvs,
    Inv a -> keys_distinct kvs ->
    match alias with Some al => imap_value (aliases a) al = None | None => True end ->
    P a -> P (fst (insert_values_new a acc alias kvs)).
  Hypothesis P_edge : forall a f t id a1 kvs,
    Inv a -> live a f = true -> live a t = true -> insert_edge_db a f t = ROk (id, a1) -> keys_distinct kvs ->
    P a -> P (insert_kvs_new a1 id kvs).
  Hypothesis P_node_alias : forall a id al,
    Inv a -> 0 < id -> live a id = true ->
    P a -> P (if fix_nodes_ids_alias rv then insert_alias rv a id al else insert_new_alias a id al).
  Hypothesis P_insert_alias : forall a id al, Inv a -> 0 < id -> live a id = true -> P a -> P (insert_alias rv a id al).
  Hypothesis P_remove_alias : forall a al, Inv a -> P a -> P (snd (remove_alias a al)).
  Hypothesis P_remove_keys : forall a id keys, Inv a -> live a id = true -> P a -> P (snd (remove_keys a id keys)).
  Hypothesis P_remove_id : forall a id, Inv a -> P a -> P (fst (remove_id a id)).
  Hypothesis P_remove_q : forall a q, Inv a -> P a -> P (fst (remove_q a q)).
  Hypothesis P_insert_index : forall a key n a1, Inv a -> insert_index a key = ROk (n, a1) -> P a -> P a1.
  Hypothesis P_remove_index : forall a key, Inv a -> P a -> P (snd (remove_index a key)).

  (* the repair of InsertAliases matters to that query only *)
  Theorem exec_mut_step_closed d q :
    (forall ids als, q = InsertAliases ids als -> fix_alias_nodes_only rv = true) ->
    query_ok q -> Inv d /\ P d -> Inv (step_db (exec_mut_step rv d q)) /\ P (step_db (exec_mut_step rv d q)).
  Proof.
    intros Hfix Hq.
    apply (exec_mut_step_keeps rv (fun a => Inv a /\ P a) (fun a id => live a id = true) keys_distinct);
      [..|exact Hq]. (* query_ok q unfolds to keys_ok_query keys_distinct q *)
    - intros a x id [Ha _]. apply db_id_live, Ha.
    - intros a s ids [Ha _]. now apply Hsearch.
    - intros a a' id Hg. unfold live. now rewrite Hg.
    - intros a id kvs [Ha Hp] Hl. split; [now apply insert_kvs_replace_Inv|now apply P_replace].
    - intros a acc alias kvs [Ha Hp] Hk Hal. split; [now apply insert_values_new_Inv|].
      apply P_new; try assumption. destruct alias; [apply Hal|exact I].
    - intros a f t id a1 kvs [Ha Hp] Hf Ht Ei Hk.
      destruct (insert_edge_kvs_Inv a f t id a1 kvs Ha Hf Ht Ei Hk) as [Ha1 Hm].
      split; [split; [exact Ha1|now apply (P_edge a f t id a1)]|exact Hm].
    - intros a id al [Ha Hp] Hn Hl _. pose proof (live_nonzero a id Hl). assert (0 < id) by lia.
      split; [|now apply P_node_alias].
      destruct (fix_nodes_ids_alias rv); [now apply insert_alias_Inv|now apply insert_new_alias_Inv].
    - intros a al [Ha Hp]. split; [now apply remove_alias_Inv|now apply P_remove_alias].
    - intros a id keys [Ha Hp] Hl. split; [now apply remove_keys_Inv|now apply P_remove_keys].
    - intros a id [Ha Hp]. split; [apply (remove_id_Inv a id Ha)|now apply P_remove_id].
    - intros a x [Ha Hp]. split; [apply (remove_q_Inv a x Ha)|now apply P_remove_q].
    - intros a key n a1 [Ha Hp] Ei. split; [now apply (insert_index_Inv a key n a1)|now apply (P_insert_index a key n a1)].
    - intros a key [Ha Hp]. split; [now apply remove_index_Inv|now apply P_remove_index].
    - intros ids als -> a x id b al [Ha Hp] Ei Hn. rewrite (Hfix ids als eq_refl) in Hn.
      pose proof (db_id_live a x id (proj1 (proj2 (proj2 Ha))) Ei) as Hl. pose proof (live_nonzero a id Hl).
      split; [apply insert_alias_Inv|apply P_insert_alias]; (assumption || lia).
  Qed.
End Closed.

Section QueryInv.
  Variable rv : revision.
  Hypothesis Hsearch : search_live rv.
  Hypothesis Hfix : fix_alias_nodes_only rv = true.

  Theorem exec_mut_step_Inv d q : query_ok q -> Inv d -> Inv (step_db (exec_mut_step rv d q)).
  Proof.
    intros Hq Hd. apply (exec_mut_step_closed rv Hsearch (fun _ => True)); auto.
  Qed.

  Lemma exec_in_txn_db d q :
    fst (exec_in_txn rv d q) = if is_mutating q then step_db (exec_mut_step rv d q) else d.
  Proof.
    unfold exec_in_txn. destruct (is_mutating q); [|reflexivity].
    destruct (exec_mut_step rv d q) as [d1 [n els]|d1 e|d1]; reflexivity.
  Qed.

  (* inside a transaction the invariant holds after every query, failing ones included *)
  Theorem exec_in_txn_Inv d q : query_ok q -> Inv d -> Inv (fst (exec_in_txn rv d q)).
  Proof.
    intros Hq Hd. rewrite exec_in_txn_db. destruct (is_mutating q); [now apply exec_mut_step_Inv|exact Hd].
  Qed.

  Lemma Inv_clear_undo d : Inv d -> Inv (clear_undo d).
  Proof. intros H. exact H. Qed.

  (* a query that does not fail is committed: the invariant holds afterwards *)
  Theorem exec_ok_Inv d q :
    query_ok q -> Inv d -> is_failure (snd (exec rv d q)) = false -> Inv (fst (exec rv d q)).
  Proof.
    intros Hq Hd. unfold exec. pose proof (exec_in_txn_Inv d q Hq Hd) as H.
    destruct (exec_in_txn rv d q) as [d1 r]. cbn [fst] in H.
    destruct r as [n els|e|]; cbn [fst snd is_failure].
    - intros _. exact H.
    - destruct (rollback rv d1); cbn [snd is_failure]; discriminate.
    - discriminate.
  Qed.

  (* the state after the queries of a transaction run so far (the failing one included); the suffix
     `_sl` marks the theorems under `search_live`, beside those under `traversal_live` of HistoryInvProofs.v *)
  Theorem txn_run_Inv_sl qs : forall d acc,
    Forall query_ok qs -> Inv d -> Inv (fst (fst (txn_run rv d qs acc))).
  Proof.
    induction qs as [|q r IH]; intros d acc Hq Hd; [exact Hd|].
    inversion Hq as [|? ? Hq1 Hq2]; subst. cbn [txn_run].
    pose proof (exec_in_txn_Inv d q Hq1 Hd) as H.
    destruct (exec_in_txn rv d q) as [d1 res]. cbn [fst] in H.
    destruct (is_failure res); [exact H|now apply IH].
  Qed.

  Theorem transaction_commit_Inv_sl d qs :
    Forall query_ok qs -> Inv d ->
    (let '(d1, results, all_ok) := txn_run rv d qs [] in
     existsb (fun r => match r with QPanic => true | _ => false end) results = false /\ all_ok = true) ->
    Inv (fst (transaction rv d qs false)).
  Proof.
    intros Hq Hd. unfold transaction. pose proof (txn_run_Inv_sl qs d [] Hq Hd) as H.
    destruct (txn_run rv d qs []) as [[d1 results] all_ok]. cbn [fst] in H.
    intros [Hp Hok]. rewrite Hp, Hok. cbn [andb negb fst]. exact H.
  Qed.
End QueryInv.
