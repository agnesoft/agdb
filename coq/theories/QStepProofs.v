(* QStepProofs.v — generic facts about the step monad of Queries.v (st_fold) and the notion of a
   history (a list of queries, each executed as its own transaction by `exec`). *)
From Agdb Require Import Bytes DbValue Graph DbModel Search Queries DbFrameProofs.
Open Scope Z_scope.

Arguments StOk {A} d a.
Arguments StErr {A} d e.
Arguments StPanic {A} d.

Definition step_db {A} (s : step A) : db :=
  match s with StOk d _ => d | StErr d _ => d | StPanic d => d end.

Definition step_is_ok {A} (s : step A) : bool :=
  match s with StOk _ _ => true | _ => false end.

(* the counting folds of the removal and alias queries end by pairing the count with no elements *)
Lemma step_db_counted (r : step Z) :
  step_db (match r with StOk d n => StOk d (n, @nil element) | StErr d e => StErr d e | StPanic d => StPanic d end) = step_db r.
Proof. now destruct r. Qed.

(* a property of the state that every element step preserves (whatever its outcome) is preserved
   by the whole fold, whatever its outcome *)
Lemma st_fold_inv {A B} (P : db -> Prop) (f : db -> B -> A -> step B) (l : list A) (d : db) (b : B) :
  P d -> (forall a b x, In x l -> P a -> P (step_db (f a b x))) -> P (step_db (st_fold f d b l)).
Proof.
  revert d b. induction l as [|x l IH]; cbn [st_fold]; intros d b Hd Hf; [exact Hd|].
  pose proof (Hf d b x (or_introl eq_refl) Hd) as Hx.
  destruct (f d b x) as [d1 b1|d1 e|d1]; cbn [step_db] in *; [|exact Hx|exact Hx].
  apply IH; [exact Hx|]. intros a b0 y Hy. apply Hf. now right.
Qed.

Lemma st_fold_not_ok {A B} (f : db -> B -> A -> step B) (l : list A) (x : A) (d : db) (b : B) :
  In x l -> (forall a b, step_is_ok (f a b x) = false) -> step_is_ok (st_fold f d b l) = false.
Proof.
  revert d b. induction l as [|y l IH]; cbn [st_fold]; intros d b Hin Hx; [destruct Hin|].
  destruct Hin as [->|Hin].
  - specialize (Hx d b). destruct (f d b x); [discriminate|reflexivity|reflexivity].
  - destruct (f d b y); [now apply IH|reflexivity|reflexivity].
Qed.

Lemma st_fold_no_panic {A B} (f : db -> B -> A -> step B) (l : list A) (d : db) (b : B) :
  (forall a b x, match f a b x with StPanic _ => False | _ => True end) ->
  match st_fold f d b l with StPanic _ => False | _ => True end.
Proof.
  intros Hf. revert d b. induction l as [|y l IH]; cbn [st_fold]; intros d b; [exact I|].
  specialize (Hf d b y). destruct (f d b y); [apply IH|exact I|contradiction].
Qed.

Definition exec_all (rv : revision) (d : db) (qs : list query) : db :=
  fold_left (fun a q => fst (exec rv a q)) qs d.

Lemma exec_all_inv (rv : revision) (P : db -> Prop) (qs : list query) (d : db) :
  P d -> (forall a q, P a -> P (fst (exec rv a q))) -> P (exec_all rv d qs).
Proof.
  intros Hd Hstep. unfold exec_all. apply fold_left_inv; [exact Hd|].
  intros acc q _. apply Hstep.
Qed.

Lemma db_eta (d : db) :
  {| gr := gr d; aliases := aliases d; vals := vals d; indexes := indexes d; undo := undo d |} = d.
Proof. now destruct d. Qed.

Lemma clear_undo_id (d : db) : undo d = [] -> clear_undo d = d.
Proof. destruct d; cbn. now intros ->. Qed.

(* a mutating query rejected before it touched the database: the rollback of the empty undo stack
   gives the database back as it was *)
Lemma exec_rejected (rv : revision) (d : db) (q : query) e :
  is_mutating q = true -> undo d = [] -> exec_mut_step rv d q = StErr d e -> exec rv d q = (d, QErr e).
Proof.
  intros Hm Hu He. unfold exec, exec_in_txn. rewrite Hm, He.
  unfold rollback. rewrite Hu. cbn [rollback_cmds]. now rewrite (clear_undo_id d Hu).
Qed.
