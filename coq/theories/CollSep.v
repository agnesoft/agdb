(* CollSep.v — proofs (collections): structures that live side by side in one storage.  An
   operation changes exactly its own footprint (`frame`); a neighbour whose footprint consists of
   live records is therefore untouched, and stays disjoint from the new footprint (records
   entering a footprint were free before).  Used at both levels: the records owned by the slots
   of one vector, and the vectors of a map or a graph. *)
From Agdb Require Import Bytes CollVecBase.
Open Scope N_scope.

Definition live_all (g : heap) (F : list N) : Prop := forall j, In j F -> g j <> None.

Lemma live_all_app g A B : live_all g (A ++ B) <-> live_all g A /\ live_all g B.
Proof.
  unfold live_all. split.
  - intros H. split; intros j Hj; apply H; apply in_or_app; auto.
  - intros [HA HB] j Hj. apply in_app_or in Hj. destruct Hj; auto.
Qed.

Lemma frame_keeps g g' F F' j : frame g g' F F' -> ~ In j F -> g j <> None -> g' j = g j /\ ~ In j F'.
Proof.
  intros (A1 & A2 & A3) Hj Hl.
  assert (Hn : ~ In j F') by (intros I; apply Hl; apply A2; assumption).
  split; [apply A1; assumption|exact Hn].
Qed.

Lemma live_all_frame g g' F F' X : frame g g' F F' -> live_all g X -> (forall j, In j X -> ~ In j F) -> live_all g' X.
Proof. intros Hf Hl Hd j Hj. destruct (frame_keeps _ _ _ _ j Hf (Hd j Hj) (Hl j Hj)) as [E _]. rewrite E. apply Hl. exact Hj. Qed.

(* one component F of a duplicate-free list of live footprints changes to F' *)
Lemma sep_update g g' (A F F' B : list N) :
  frame g g' F F' -> NoDup (A ++ F ++ B) -> live_all g (A ++ B) -> NoDup F' ->
  NoDup (A ++ F' ++ B) /\ frame g g' (A ++ F ++ B) (A ++ F' ++ B) /\ (forall j, In j (A ++ B) -> g' j = g j).
Proof.
  intros Hf Hnd Hl NF'.
  apply NoDup_app_iff in Hnd. destruct Hnd as (NA & NFB & DA). apply NoDup_app_iff in NFB. destruct NFB as (NF & NB & DF).
  assert (K : forall j, In j (A ++ B) -> g' j = g j /\ ~ In j F').
  { intros j Hj. apply (frame_keeps _ _ F); [exact Hf| |exact (Hl j Hj)].
    intros I. apply in_app_or in Hj. destruct Hj as [Hj|Hj]; [apply (DA j Hj); apply in_or_app; auto|exact (DF j I Hj)]. }
  split; [|split].
  - apply NoDup_app_iff. split; [exact NA|]. split.
    + apply NoDup_app_iff. split; [exact NF'|]. split; [exact NB|]. intros j I1 I2. apply (K j); [apply in_or_app; auto|exact I1].
    + intros j I1 I2. apply in_app_or in I2. destruct I2 as [I2|I2]; [apply (K j); [apply in_or_app; auto|exact I2]|].
      apply (DA j I1). apply in_or_app. auto.
  - apply frame_widen. exact Hf.
  - intros j Hj. apply K. exact Hj.
Qed.

Lemma sep_update_at g g' (G G' A F F' B : list N) :
  live_all g G -> NoDup G -> G = A ++ F ++ B -> G' = A ++ F' ++ B -> frame g g' F F' -> NoDup F' ->
  NoDup G' /\ frame g g' G G' /\ (forall j, In j (A ++ B) -> g' j = g j).
Proof.
  intros Hl Hnd -> -> Hf NF'. apply sep_update; auto.
  intros j Hj. apply Hl. rewrite !in_app_iff in *. tauto.
Qed.
