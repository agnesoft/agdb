(* NoPanicProofs.v — with the slice clamp in (fix_slice_clamp, the code of /repo) no query panics:
   the only panic of the model is SearchQuery::slice (SliceProofs.search_no_panic), and every query
   reaches it only through `search`.  Needed by the history theorems: `exec` / `transaction` then
   always either commit or roll back. *)
From Agdb Require Import Bytes BytesProofs DbValue Graph DbModel Search Queries Revisions
  QStepProofs AliasQueryProofs SliceProofs.
Open Scope Z_scope.

Notation no_panic s := (match s with StPanic _ => False | _ => True end).

Section NoPanic.
  Variable rv : revision.
  Hypothesis Hclamp : fix_slice_clamp rv = true.

  Lemma resolve_ids_no_panic d ids : resolve_ids rv d ids <> SPanic.
  Proof.
    destruct ids as [l|s]; cbn [resolve_ids]; [|now apply search_no_panic].
    destruct (resolve_all d l); discriminate.
  Qed.

  Lemma edge_db_ids_no_panic d ids : edge_db_ids rv d ids <> SPanic.
  Proof.
    destruct ids as [l|s]; cbn [edge_db_ids].
    - destruct (resolve_all d l); discriminate.
    - pose proof (search_no_panic rv d s Hclamp) as H. destruct (search rv d s); [discriminate|discriminate|congruence].
  Qed.

  (* a query that resolves ids first passes on a panic of the resolution and nothing else *)
  Lemma after_sres_no_panic {A} (r : sres) (d : db) (f : list Z -> step A) :
    r <> SPanic -> (forall l, no_panic (f l)) ->
    no_panic (match r with SOk l => f l | SErr e => StErr d e | SPanic => StPanic d end).
  Proof. intros Hr Hf. destruct r; [apply Hf|exact I|congruence]. Qed.

  Lemma finish_no_panic (r : step Z) :
    no_panic r ->
    no_panic (match r with StOk d1 n => StOk d1 (n, @nil element) | StErr d1 e => StErr d1 e | StPanic d1 => StPanic d1 end).
  Proof. destruct r; trivial. Qed.

  Lemma insert_nodes_no_panic d count values als ids : no_panic (insert_nodes rv d count values als ids).
  Proof.
    unfold insert_nodes. destruct (fix_empty_alias rv && existsb _ als); [exact I|].
    apply after_sres_no_panic; [apply resolve_ids_no_panic|intros query_ids].
    match goal with |- context [Nat.ltb ?x ?y] => destruct (Nat.ltb x y) end; [exact I|].
    destruct (negb (Nat.eqb (length query_ids) 0)).
    - destruct (existsb _ query_ids); [exact I|]. match goal with |- context [negb ?b] => destruct (negb b) end; exact I.
    - match goal with |- context [fold_left ?f ?l ?a0] => destruct (fold_left f l a0) as [d1 ids_rev] end. exact I.
  Qed.

  Lemma insert_edge_list_no_panic d pairs : no_panic (insert_edge_list d pairs).
  Proof.
    unfold insert_edge_list.
    match goal with |- context [st_fold ?f d [] pairs] =>
      pose proof (st_fold_no_panic f pairs d []) as H end.
    match type of H with ?P -> _ => assert (Hp : P) end.
    { intros a b [[f t] kvs]. destruct (insert_edge_db a f t) as [[id a1]|e]; exact I. }
    specialize (H Hp). destruct (st_fold _ d [] pairs); [exact I|exact I|contradiction].
  Qed.

  Lemma insert_edges_no_panic d from to values each ids : no_panic (insert_edges rv d from to values each ids).
  Proof.
    unfold insert_edges. apply after_sres_no_panic; [apply resolve_ids_no_panic|intros query_ids].
    destruct (negb (Nat.eqb (length query_ids) 0)).
    - destruct (existsb _ query_ids); [exact I|]. destruct (edge_values values (length query_ids)); exact I.
    - apply after_sres_no_panic; [apply edge_db_ids_no_panic|intros fl].
      apply after_sres_no_panic; [apply edge_db_ids_no_panic|intros tl].
      match goal with |- context [edge_values values ?n] => destruct (edge_values values n) as [vl|e] end; [|exact I].
      match goal with |- context [insert_edge_list d ?p] =>
        pose proof (insert_edge_list_no_panic d p) as H; destruct (insert_edge_list d p) end; [exact I|exact I|contradiction].
  Qed.

  Lemma insert_values_q_no_panic a acc q kvs : no_panic (insert_values_q rv a acc q kvs).
  Proof.
    unfold insert_values_q. destruct (db_id a q) as [id|e].
    - destruct (insert_values_id a acc id kvs). exact I.
    - destruct q as [id|al].
      + destruct (id =? 0); [|exact I]. destruct (insert_values_new a acc None kvs). exact I.
      + destruct (fix_empty_alias rv && _); [exact I|].
        destruct (insert_values_new a acc (Some al) kvs). exact I.
  Qed.

  Lemma insert_values_no_panic d ids values : no_panic (insert_values rv d ids values).
  Proof.
    unfold insert_values. destruct ids as [l|s].
    - destruct values as [kvs|vl].
      + apply st_fold_no_panic. intros a b x. apply insert_values_q_no_panic.
      + destruct (negb (Nat.eqb (length l) (length vl))); [exact I|].
        apply st_fold_no_panic. intros a b x. apply insert_values_q_no_panic.
    - apply after_sres_no_panic; [now apply search_no_panic|intros db_ids].
      destruct values as [kvs|vl].
      + apply st_fold_no_panic. intros a b x. destruct (insert_values_id a b x kvs). exact I.
      + destruct (negb (Nat.eqb (length db_ids) (length vl))); [exact I|].
        apply st_fold_no_panic. intros a b x. destruct (insert_values_id a b (fst x) (snd x)). exact I.
  Qed.

  Lemma remove_query_no_panic d ids : no_panic (remove_query rv d ids).
  Proof.
    unfold remove_query. destruct ids as [l|s].
    - apply finish_no_panic. apply st_fold_no_panic. intros a b x. destruct (remove_q a x) as [a1 [[|]|e]]; exact I.
    - apply after_sres_no_panic; [now apply search_no_panic|intros db_ids].
      apply finish_no_panic. apply st_fold_no_panic. intros a b x. destruct (remove_id a x) as [a1 [[|]|e]]; exact I.
  Qed.

  Lemma remove_values_no_panic d ids keys : no_panic (remove_values rv d ids keys).
  Proof.
    unfold remove_values. destruct ids as [l|s].
    - apply finish_no_panic. apply st_fold_no_panic. intros a b x. destruct (db_id a x) as [id|e]; [|exact I].
      destruct (remove_keys a id keys). exact I.
    - apply after_sres_no_panic; [now apply search_no_panic|intros db_ids].
      apply finish_no_panic. apply st_fold_no_panic. intros a b x. destruct (remove_keys a x keys). exact I.
  Qed.

  Lemma exec_mut_step_no_panic d q : no_panic (exec_mut_step rv d q).
  Proof.
    destruct q; cbn [exec_mut_step]; try exact I.
    - apply insert_nodes_no_panic.
    - apply insert_edges_no_panic.
    - apply insert_aliases_no_panic.
    - apply insert_values_no_panic.
    - destruct (insert_index d key) as [[n d1]|e]; exact I.
    - destruct (remove_index d key). exact I.
    - apply remove_query_no_panic.
    - unfold remove_aliases. match goal with |- context [fold_left ?f ?l ?a0] => destruct (fold_left f l a0) end. exact I.
    - apply remove_values_no_panic.
  Qed.

  Lemma select_simple_no_panic d ids f total : select_simple rv d ids f total <> QPanic.
  Proof.
    unfold select_simple. pose proof (resolve_ids_no_panic d ids) as Hr.
    destruct (resolve_ids rv d ids); [discriminate|discriminate|congruence].
  Qed.

  Lemma exec_select_no_panic d q : exec_select rv d q <> QPanic.
  Proof.
    destruct q; cbn [exec_select]; try discriminate; try apply select_simple_no_panic.
    - unfold select_values. pose proof (resolve_ids_no_panic d ids) as Hr.
      destruct (resolve_ids rv d ids) as [db_ids|e|]; [|discriminate|congruence].
      match goal with |- context [match ?g db_ids with _ => _ end] => destruct (g db_ids) end; discriminate.
    - unfold select_aliases. destruct ids as [l|s].
      + match goal with |- context [match ?g l with _ => _ end] => destruct (g l) end; discriminate.
      + pose proof (search_no_panic rv d s Hclamp) as Hs. destruct (search rv d s); [discriminate|discriminate|congruence].
    - pose proof (search_no_panic rv d s Hclamp) as Hs. destruct (search rv d s); [discriminate|discriminate|congruence].
  Qed.

  Theorem exec_in_txn_no_panic d q : snd (exec_in_txn rv d q) <> QPanic.
  Proof.
    unfold exec_in_txn. destruct (is_mutating q); [|apply exec_select_no_panic].
    pose proof (exec_mut_step_no_panic d q) as H.
    destruct (exec_mut_step rv d q) as [d1 [n els]|d1 e|d1]; cbn [snd]; [discriminate|discriminate|contradiction].
  Qed.

  Definition is_panic (r : qres) : bool := match r with QPanic => true | _ => false end.

  Theorem txn_run_no_panic qs : forall d acc,
    existsb is_panic acc = false -> existsb is_panic (snd (fst (txn_run rv d qs acc))) = false.
  Proof.
    assert (Hrev : forall l, existsb is_panic l = false -> existsb is_panic (rev l) = false).
    { intros l H. destruct (existsb is_panic (rev l)) eqn:E; [|reflexivity].
      apply existsb_exists in E. destruct E as [x [Hx Hp]]. apply in_rev in Hx.
      assert (existsb is_panic l = true) by (apply existsb_exists; eauto). congruence. }
    induction qs as [|q r IH]; intros d acc Ha; cbn [txn_run].
    - cbn [fst snd]. now apply Hrev.
    - pose proof (exec_in_txn_no_panic d q) as Hq. destruct (exec_in_txn rv d q) as [d1 res]. cbn [snd] in Hq.
      assert (Ha' : existsb is_panic (res :: acc) = false).
      { cbn [existsb]. rewrite Ha. destruct res; [reflexivity|reflexivity|congruence]. }
      destruct (is_failure res); [cbn [fst snd]; now apply Hrev|now apply IH].
  Qed.
End NoPanic.
