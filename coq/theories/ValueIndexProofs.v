(* ValueIndexProofs.v — C12: every stored value reads back bit-for-bit
   (lemmas about ValueIndex.v). *)
From Agdb Require Import Bytes BytesProofs Utf8 Codec CodecProofs DbValue ValueIndex.
From Coq Require Import ZifyBool ZifyNat ZifyN.
Ltac Zify.zify_post_hook ::= Z.div_mod_to_equations.
Open Scope N_scope.
Arguments N.add : simpl never.
Arguments N.mul : simpl never.
Arguments N.sub : simpl never.
Arguments N.div : simpl never.
Arguments N.modulo : simpl never.
Arguments N.ltb : simpl never.
Arguments N.leb : simpl never.
Arguments N.eqb : simpl never.
Arguments N.of_nat : simpl never.
Arguments N.to_nat : simpl never.
Arguments N.land : simpl never.
Arguments N.lor : simpl never.
Arguments N.shiftl : simpl never.
Arguments N.shiftr : simpl never.

(* byte 15 = type nibble * 16 + size nibble *)

Lemma land15 x : N.land x 15 = x mod 16.
Proof. exact (N.land_ones x 4). Qed.

Lemma shiftr4 x : N.shiftr x 4 = x / 16.
Proof. exact (N.shiftr_div_pow2 x 4). Qed.

Lemma nibbles b : b < 256 ->
  N.land b 15 < 16 /\ N.shiftr b 4 < 16 /\ N.shiftr b 4 * 16 + N.land b 15 = b.
Proof. intros Hb. rewrite land15, shiftr4. lia. Qed.

(* the byte set_size writes: the masks of the two operands do not overlap, so `& 15` and `>> 4`
   each see one operand only *)
Lemma size_byte_fields b s : b < 256 ->
  let v := N.lor (N.land s 15) (N.land b 240) in
  v < 256 /\ N.land v 15 = s mod 16 /\ N.shiftr v 4 = N.shiftr b 4.
Proof.
  intros Hb v.
  assert (L : N.land v 15 = s mod 16).
  { unfold v. rewrite N.land_lor_distr_l, <- !N.land_assoc.
    change (N.land 15 15) with 15. change (N.land 240 15) with 0.
    now rewrite N.land_0_r, N.lor_0_r, land15. }
  assert (H : N.shiftr v 4 = N.shiftr b 4).
  { unfold v. rewrite N.shiftr_lor, !N.shiftr_land.
    change (N.shiftr 15 4) with 0. change (N.shiftr 240 4) with 15.
    rewrite N.land_0_r, N.lor_0_l, land15, shiftr4. lia. }
  split; [|now split]. clearbody v. rewrite land15 in L. rewrite !shiftr4 in H. lia.
Qed.

Lemma type_byte_fields b t :
  let v := N.lor (N.land (N.shiftl t 4) 255) (N.land b 15) in
  v < 256 /\ N.shiftr v 4 = t mod 16 /\ N.land v 15 = N.land b 15.
Proof.
  intros v.
  assert (L : N.land v 15 = N.land b 15).
  { unfold v. rewrite N.land_lor_distr_l, <- !N.land_assoc.
    change (N.land 255 15) with 15. change (N.land 15 15) with 15.
    rewrite (land15 (N.shiftl t 4)), N.shiftl_mul_pow2. change (2 ^ 4) with 16.
    replace (t * 16 mod 16) with 0 by lia. apply N.lor_0_l. }
  assert (H : N.shiftr v 4 = t mod 16).
  { unfold v. rewrite N.shiftr_lor, !N.shiftr_land.
    change (N.shiftr 255 4) with 15. change (N.shiftr 15 4) with 0.
    rewrite N.land_0_r, N.lor_0_r, land15, shiftr4, N.shiftl_mul_pow2. change (2 ^ 4) with 16. lia. }
  split; [|now split]. clearbody v. rewrite shiftr4 in H. lia.
Qed.

Lemma firstn_app_le {A} (a b : list A) n : (n <= length a)%nat -> firstn n (a ++ b) = firstn n a.
Proof.
  intros H. rewrite firstn_app. replace (n - length a)%nat with 0%nat by lia.
  cbn [firstn]. apply app_nil_r.
Qed.

Definition wf_ix (ix : vindex) : Prop := length ix = 16%nat.

Lemma vi_new_wf : wf_ix vi_new.
Proof. reflexivity. Qed.

Lemma byte15_lt ix : byte15 ix < 256.
Proof. apply b2n_lt. Qed.

Lemma put15_wf ix n : wf_ix ix -> wf_ix (put15 ix n).
Proof.
  unfold wf_ix, put15. intros H. rewrite app_length, firstn_length. cbn [length]. lia.
Qed.

Lemma byte15_put15 ix n : wf_ix ix -> n < 256 -> byte15 (put15 ix n) = n.
Proof.
  unfold wf_ix, put15, byte15. intros H Hn.
  rewrite app_nth2; rewrite firstn_length; [|lia].
  replace (15 - Nat.min 15 (length ix))%nat with 0%nat by lia. cbn [nth].
  rewrite b2n_n2b. apply N.mod_small. exact Hn.
Qed.

Lemma firstn15_put15 ix n : wf_ix ix -> firstn 15 (put15 ix n) = firstn 15 ix.
Proof.
  unfold wf_ix, put15. intros H. apply firstn_app_exact. rewrite firstn_length. lia.
Qed.

Lemma firstn_put15 ix n k : wf_ix ix -> (k <= 15)%nat -> firstn k (put15 ix n) = firstn k ix.
Proof.
  intros H Hk. replace k with (Nat.min k 15) by lia.
  rewrite <- !firstn_firstn. now rewrite firstn15_put15.
Qed.

Lemma overwrite_wf ix src : wf_ix ix -> (length src <= 15)%nat -> wf_ix (overwrite ix src).
Proof.
  unfold wf_ix, overwrite. intros H Hs. rewrite app_length, skipn_length. lia.
Qed.

Lemma byte15_overwrite ix src : wf_ix ix -> (length src <= 15)%nat ->
  byte15 (overwrite ix src) = byte15 ix.
Proof.
  unfold wf_ix, overwrite, byte15. intros H Hs.
  rewrite app_nth2 by lia. rewrite nth_skipn_add. f_equal. f_equal. lia.
Qed.

Lemma firstn_overwrite ix src : firstn (length src) (overwrite ix src) = src.
Proof. unfold overwrite. now apply firstn_app_exact. Qed.

Lemma skipn_overwrite ix src : skipn (length src) (overwrite ix src) = skipn (length src) ix.
Proof. unfold overwrite. now apply skipn_app_exact. Qed.

Lemma skipn_firstn_overwrite ix src : (length src <= 15)%nat ->
  skipn (length src) (firstn 15 (overwrite ix src)) = skipn (length src) (firstn 15 ix).
Proof.
  intros Hs. unfold overwrite. rewrite firstn_app.
  rewrite (firstn_all2 src) by lia.
  rewrite skipn_app_exact by reflexivity.
  rewrite skipn_firstn_comm.
  replace (length src + (15 - length src))%nat with 15%nat by lia. reflexivity.
Qed.

(* set_size / set_type: each writes its own nibble of byte 15 (from its argument's low four
   bits) and nothing else *)

Lemma set_size_wf ix s : wf_ix ix -> wf_ix (set_size ix s).
Proof. intros H. now apply put15_wf. Qed.

Lemma set_size_fields ix s : wf_ix ix ->
  vi_size (set_size ix s) = s mod 16 /\
  vi_type (set_size ix s) = vi_type ix /\
  firstn 15 (set_size ix s) = firstn 15 ix.
Proof.
  intros H. unfold vi_size, vi_type, set_size.
  pose proof (size_byte_fields (byte15 ix) s (byte15_lt ix)) as F. cbv zeta in F.
  destruct F as (Hlt & Hsz & Hty). rewrite byte15_put15 by assumption.
  repeat split; try assumption. now apply firstn15_put15.
Qed.

Lemma set_size_keeps_type ix s : wf_ix ix ->
  vi_type (set_size ix s) = vi_type ix /\ firstn 15 (set_size ix s) = firstn 15 ix.
Proof. intros H. apply (set_size_fields ix s H). Qed.

Lemma set_type_wf ix t : wf_ix ix -> wf_ix (set_type ix t).
Proof. intros H. now apply put15_wf. Qed.

Lemma set_type_fields ix t : wf_ix ix ->
  vi_type (set_type ix t) = t mod 16 /\
  vi_size (set_type ix t) = vi_size ix /\
  firstn 15 (set_type ix t) = firstn 15 ix.
Proof.
  intros H. unfold vi_type, set_type, vi_size.
  pose proof (type_byte_fields (byte15 ix) t) as F. cbv zeta in F.
  destruct F as (Hlt & Hty & Hsz). rewrite byte15_put15 by assumption.
  repeat split; try assumption. now apply firstn15_put15.
Qed.

Lemma overwrite_fields ix src : wf_ix ix -> (length src <= 15)%nat ->
  vi_type (overwrite ix src) = vi_type ix /\
  vi_size (overwrite ix src) = vi_size ix /\
  firstn (length src) (overwrite ix src) = src /\
  skipn (length src) (overwrite ix src) = skipn (length src) ix.
Proof.
  intros H Hs. unfold vi_type, vi_size. rewrite byte15_overwrite by assumption.
  repeat split; [apply firstn_overwrite|apply skipn_overwrite].
Qed.

Lemma lenN_le_nat {A} (l : list A) k : lenN l <= N.of_nat k -> (length l <= k)%nat.
Proof. unfold lenN. lia. Qed.

Lemma set_index_wf ix n : wf_ix ix -> wf_ix (set_index ix n).
Proof.
  intros H. unfold set_index. apply overwrite_wf; [now apply set_size_wf|].
  rewrite le64_length. lia.
Qed.

Lemma set_value_wf ix bs : wf_ix ix -> wf_ix (snd (set_value ix bs)).
Proof.
  intros H. unfold set_value. destruct (15 <? lenN bs) eqn:E; cbn [snd]; [exact H|].
  apply overwrite_wf; [now apply set_size_wf|]. unfold lenN in E. lia.
Qed.

Lemma set_value_fields ix bs : wf_ix ix -> lenN bs <= 15 ->
  let r := set_value ix bs in
  fst r = true /\ wf_ix (snd r) /\
  vi_type (snd r) = vi_type ix /\ vi_size (snd r) = lenN bs /\ vi_value (snd r) = bs /\
  skipn (length bs) (firstn 15 (snd r)) = skipn (length bs) (firstn 15 ix).
Proof.
  intros H Hl. pose proof (set_value_wf ix bs H) as Hwf. unfold set_value in *.
  destruct (15 <? lenN bs) eqn:E; [lia|]. cbn [fst snd] in *.
  pose proof (lenN_le_nat bs 15 Hl) as Hn.
  pose proof (set_size_wf ix (lenN bs) H) as Hw.
  destruct (set_size_fields ix (lenN bs) H) as (Hsz & Hty & Hpay).
  rewrite N.mod_small in Hsz by lia.
  destruct (overwrite_fields (set_size ix (lenN bs)) bs Hw Hn) as (Hty' & Hsz' & Hfst & Hskp).
  split; [reflexivity|]. split; [exact Hwf|].
  split; [congruence|]. split; [congruence|]. split.
  - unfold vi_value. rewrite Hsz', Hsz. unfold lenN. rewrite Nat2N.id. exact Hfst.
  - rewrite skipn_firstn_overwrite by assumption. now rewrite Hpay.
Qed.

Lemma set_value_too_long ix bs : 15 < lenN bs -> set_value ix bs = (false, ix).
Proof. intros H. unfold set_value. destruct (15 <? lenN bs) eqn:E; [reflexivity|lia]. Qed.

Lemma set_index_fields ix n : wf_ix ix -> n < two64 ->
  wf_ix (set_index ix n) /\
  vi_type (set_index ix n) = vi_type ix /\ vi_size (set_index ix n) = 0 /\
  vi_index (set_index ix n) = n /\
  skipn 8 (firstn 15 (set_index ix n)) = skipn 8 (firstn 15 ix).
Proof.
  intros H Hn. split; [now apply set_index_wf|]. unfold set_index.
  pose proof (set_size_wf ix 0 H) as Hw.
  destruct (set_size_fields ix 0 H) as (Hsz & Hty & Hpay). change (0 mod 16) with 0 in Hsz.
  assert (Hl : (length (le64 n) <= 15)%nat) by (rewrite le64_length; lia).
  destruct (overwrite_fields (set_size ix 0) (le64 n) Hw Hl) as (Hty' & Hsz' & Hfst & Hskp).
  split; [congruence|]. split; [congruence|]. split.
  - unfold vi_index. rewrite le64_length in Hfst. rewrite Hfst. now apply de_le64.
  - pose proof (skipn_firstn_overwrite (set_size ix 0) (le64 n) Hl) as E.
    rewrite le64_length in E. rewrite E. now rewrite Hpay.
Qed.

(* the two forms of index store_db_value builds *)
(* inline: type t, at most 15 payload bytes *)
Lemma inline_ix t bs : t < 16 -> lenN bs <= 15 ->
  let ix := snd (set_value (set_type vi_new t) bs) in
  vi_type ix = t /\ vi_size ix = lenN bs /\ vi_value ix = bs /\ is_value ix = true.
Proof.
  intros Ht Hl. cbv zeta.
  pose proof (set_type_wf vi_new t vi_new_wf) as Hw.
  destruct (set_type_fields vi_new t vi_new_wf) as (Hty & _ & Hpay). rewrite N.mod_small in Hty by exact Ht.
  destruct (set_value_fields (set_type vi_new t) bs Hw Hl) as (_ & _ & Hty' & Hsz' & Hval & Hrest).
  repeat split; try assumption; try congruence.
  unfold is_value. rewrite Hsz'. destruct bs as [|b bs']; [|reflexivity].
  (* the empty payload: size 0, and bytes 0..8 are still the zeros of vi_new *)
  unfold vi_index. replace 8%nat with (Nat.min 8 15) by reflexivity.
  cbn [length skipn] in Hrest. now rewrite <- firstn_firstn, Hrest, Hpay.
Qed.

(* out of line: type t, storage index i *)
Lemma outline_ix t i : t < 16 -> i < two64 -> i <> 0 ->
  let ix := set_index (set_type vi_new t) i in
  vi_type ix = t /\ vi_index ix = i /\ is_value ix = false.
Proof.
  intros Ht Hi Hnz. cbv zeta.
  pose proof (set_type_wf vi_new t vi_new_wf) as Hw.
  destruct (set_type_fields vi_new t vi_new_wf) as (Hty & _). rewrite N.mod_small in Hty by exact Ht.
  destruct (set_index_fields (set_type vi_new t) i Hw Hi) as (_ & Hty' & Hsz' & Hix & _).
  repeat split; try congruence. unfold is_value. rewrite Hsz', Hix. cbn [negb orb]. lia.
Qed.

(* what the allocator must guarantee at a store: a fresh, non-zero u64 index *)
Definition alloc_ok (alloc : store -> N) (st : store) : Prop :=
  alloc st <> 0 /\ alloc st < two64 /\ lookup (alloc st) st = None.

Lemma lookup_cons_eq i b st : lookup i ((i, b) :: st) = Some b.
Proof. cbn [lookup]. now rewrite N.eqb_refl. Qed.

Lemma lookup_cons_ne i j b st : j <> i -> lookup i ((j, b) :: st) = lookup i st.
Proof. intros H. cbn [lookup]. destruct (j =? i) eqn:E; [lia|reflexivity]. Qed.

(* removing an index that names no record keeps every pair *)
Lemma filter_fresh i st : lookup i st = None -> filter (fun p => negb (fst p =? i)) st = st.
Proof.
  induction st as [|[j b] st IH]; cbn [lookup filter fst]; [reflexivity|].
  destruct (j =? i); [discriminate|]. intros H. cbn [negb]. f_equal. now apply IH.
Qed.

Lemma st_remove_fresh i b st : lookup i st = None -> st_remove i ((i, b) :: st) = Ok st.
Proof.
  intros H. unfold st_remove. rewrite lookup_cons_eq. cbn [filter fst].
  rewrite N.eqb_refl. cbn [negb]. f_equal. now apply filter_fresh.
Qed.

Lemma lookup_some_in i st b : lookup i st = Some b -> In i (keys st).
Proof.
  induction st as [|[j c] st IH]; cbn [lookup keys map fst In]; [discriminate|].
  destruct (j =? i) eqn:E; [left; lia|]. intros H. right. now apply IH.
Qed.

Lemma fold_max_ge l i : In i l -> i <= fold_right N.max 0 l.
Proof.
  induction l as [|x l IH]; cbn [In fold_right]; [tauto|]. intros [->|H]; [lia|].
  specialize (IH H). lia.
Qed.

Lemma fold_max_bound l c :
  (forall i, In i l -> i + c < two64) ->
  fold_right N.max 0 l + c < two64 \/ fold_right N.max 0 l = 0.
Proof.
  intros Hb. induction l as [|x l IH]; cbn [fold_right]; [now right|].
  left. assert (Hx := Hb x (or_introl eq_refl)).
  destruct IH as [IH|IH]; [intros i Hi; apply Hb; now right| |]; lia.
Qed.

(* the driver's allocator is fresh as long as the indexes in use leave room *)
Lemma fresh_ix_ok st : (forall i, In i (keys st) -> i + 1 < two64) -> alloc_ok fresh_ix st.
Proof.
  intros Hb. unfold alloc_ok, fresh_ix. repeat split; [lia| |].
  - pose proof (fold_max_bound (keys st) 1 Hb). unfold two64 in *. lia.
  - destruct (lookup (1 + fold_right N.max 0 (keys st)) st) eqn:E; [|reflexivity].
    apply lookup_some_in, fold_max_ge in E. lia.
Qed.

Lemma forallb_map {A B} (f : B -> bool) (g : A -> B) l : forallb f (map g l) = forallb (fun x => f (g x)) l.
Proof. induction l as [|x l IH]; cbn [map forallb]; [reflexivity|now rewrite IH]. Qed.

Lemma value_as_found t v i st :
  ty_ok t = true -> has_type t v = true ->
  lookup i st = Some (enc v) -> value_as t i st = Ok v.
Proof.
  intros Hty Hv Hl. unfold value_as, rec_get. rewrite Hl. cbn [obind].
  rewrite <- (app_nil_r (enc v)). rewrite (roundtrip Debug guards_fixed t v [] Hty Hv).
  reflexivity.
Qed.

(* a stored vector: the record decodes to the elements, each unwrapped by `un` *)
Lemma value_as_vec ety {A} (mk : A -> val) (un : val -> A) (W : list A -> dbvalue) l i st :
  ty_ok (TVec ety) = true -> (forall x, un (mk x) = x) ->
  forallb (fun x => has_type ety (mk x)) l && (lenN l <? two60) = true ->
  lookup i st = Some (enc (VVec (map mk l))) ->
  obind (value_as (TVec ety) i st) (fun v => Ok (W (map un (un_vec v)))) = Ok (W l).
Proof.
  intros Ht Hu Hh Hl. rewrite (value_as_found _ (VVec (map mk l)) i st Ht); [|cbn [has_type]; now rewrite forallb_map, lenN_map|exact Hl].
  cbn [obind un_vec]. rewrite map_map. f_equal. f_equal. rewrite <- (map_id l) at 2. now apply map_ext.
Qed.

Definition extends (st st' : store) : Prop :=
  forall i b, lookup i st = Some b -> lookup i st' = Some b.

(* `store` adds at most one record, under the allocator's fresh index; every
   existing record is unchanged and no other index becomes readable *)
Definition adds_only (alloc : store -> N) (st st' : store) : Prop :=
  st' = st \/ exists b, st' = (alloc st, b) :: st.

Lemma extends_refl st : extends st st.
Proof. intros i b H. exact H. Qed.

Lemma extends_trans a b c : extends a b -> extends b c -> extends a c.
Proof. intros H1 H2 i x H. apply H2, H1, H. Qed.

Lemma adds_only_extends alloc st st' : alloc_ok alloc st -> adds_only alloc st st' -> extends st st'.
Proof.
  intros (_ & _ & Hf) [->|[b ->]] i c H; [exact H|].
  rewrite lookup_cons_ne; [exact H|]. intros E. rewrite E in Hf. congruence.
Qed.

Lemma adds_only_others alloc st st' i :
  adds_only alloc st st' -> i <> alloc st -> lookup i st' = lookup i st.
Proof. intros [->|[b ->]] H; [reflexivity|]. apply lookup_cons_ne. congruence. Qed.

(* the 15 / 16 boundary of Bytes and String *)
Lemma store_inline_or_eq alloc t bs rec st :
  store_inline_or alloc t bs rec st =
  if lenN bs <=? 15 then (snd (set_value (set_type vi_new t) bs), st)
  else (set_index (set_type vi_new t) (alloc st), (alloc st, rec) :: st).
Proof.
  unfold store_inline_or, set_value, st_insert.
  destruct (15 <? lenN bs) eqn:E, (lenN bs <=? 15) eqn:E'; try lia; reflexivity.
Qed.

(* every value is stored in one of the two forms *)
Lemma store_cases alloc v st :
  (exists t bs, t < 16 /\ lenN bs <= 15 /\
     store_db_value alloc v st = (snd (set_value (set_type vi_new t) bs), st)) \/
  (exists t rec, t < 16 /\
     store_db_value alloc v st = (set_index (set_type vi_new t) (alloc st), (alloc st, rec) :: st)).
Proof.
  destruct v as [bs|z|n|b|bs|l|l|l|l]; cbn [store_db_value]; rewrite ?store_inline_or_eq.
  1, 5: destruct (lenN bs <=? 15) eqn:E;
        [left; eexists _, _; refine (conj _ (conj _ eq_refl)); [reflexivity|lia]
        |right; eexists _, _; refine (conj _ eq_refl); reflexivity].
  1-3: left; eexists _, _; refine (conj _ (conj _ eq_refl)); [reflexivity|rewrite lenN_le64; lia].
  all: right; eexists _, _; refine (conj _ eq_refl); reflexivity.
Qed.

Lemma store_adds_only alloc v st : adds_only alloc st (snd (store_db_value alloc v st)).
Proof.
  destruct (store_cases alloc v st) as [(t & bs & _ & _ & ->)|(t & rec & _ & ->)]; [now left|right; now exists rec].
Qed.

Lemma store_ix_wf alloc v st : wf_ix (fst (store_db_value alloc v st)).
Proof.
  destruct (store_cases alloc v st) as [(t & bs & _ & _ & ->)|(t & rec & _ & ->)]; cbn [fst];
    [apply set_value_wf|apply set_index_wf]; apply set_type_wf, vi_new_wf.
Qed.

(* either the value is inline and the store is untouched, or exactly one
   record was inserted under the allocator's index and the index names it *)
Definition stored_shape (alloc : store -> N) (st : store) (r : vindex * store) : Prop :=
  wf_ix (fst r) /\
  ((is_value (fst r) = true /\ snd r = st) \/
   (is_value (fst r) = false /\ vi_index (fst r) = alloc st /\ exists b, snd r = (alloc st, b) :: st)).

Lemma store_shape alloc v st : alloc_ok alloc st -> stored_shape alloc st (store_db_value alloc v st).
Proof.
  intros (Hnz & Hlt & _). split; [apply store_ix_wf|].
  destruct (store_cases alloc v st) as [(t & bs & Ht & Hl & ->)|(t & rec & Ht & ->)]; cbn [fst snd].
  - left. split; [apply (inline_ix t bs Ht Hl)|reflexivity].
  - right. destruct (outline_ix t (alloc st) Ht Hlt Hnz) as (_ & Hix & Hv). repeat split; [exact Hv|exact Hix|now exists rec].
Qed.

Lemma num_roundtrip t n : t < 16 -> n < two64 ->
  let ix := snd (set_value (set_type vi_new t) (le64 n)) in
  vi_type ix = t /\ load_num ix = Ok n.
Proof.
  intros Ht Hn. cbv zeta.
  assert (Hl : lenN (le64 n) <= 15) by (rewrite lenN_le64; lia).
  destruct (inline_ix t (le64 n) Ht Hl) as (Hty & Hsz & Hval & _).
  split; [exact Hty|]. unfold load_num. rewrite Hsz, lenN_le64, Hval. now rewrite de_le64.
Qed.

Lemma i64_ok_range z : i64_ok z = true -> (- 9223372036854775808 <= z < 9223372036854775808)%Z.
Proof. unfold i64_ok. lia. Qed.

Theorem store_load_roundtrip_ext alloc v st st' :
  wf_value v = true -> alloc_ok alloc st ->
  extends (snd (store_db_value alloc v st)) st' ->
  load_db_value (fst (store_db_value alloc v st)) st' = Ok v.
Proof.
  intros Hwf (Hnz & Hlt & _) Hext.
  (* an out-of-line index names the record just inserted, which st' still holds *)
  assert (Hout : forall t rec, t < 16 -> extends ((alloc st, rec) :: st) st' ->
            let ix := set_index (set_type vi_new t) (alloc st) in
            vi_type ix = t /\ vi_index ix = alloc st /\ is_value ix = false /\ lookup (alloc st) st' = Some rec).
  { intros t rec Ht He. destruct (outline_ix t (alloc st) Ht Hlt Hnz) as (H1 & H2 & H3).
    repeat split; try assumption. apply He, lookup_cons_eq. }
  destruct v as [bs|z|n|b|bs|l|l|l|l]; cbn [store_db_value wf_value] in *;
    rewrite ?store_inline_or_eq in *; unfold store_out, st_insert in *;
    unfold BYTES_META, I64_META, U64_META, F64_META, STRING_META,
           VEC_I64_META, VEC_U64_META, VEC_F64_META, VEC_STRING_META in *; unfold load_db_value.
  - (* Bytes: raw record *)
    destruct (lenN bs <=? 15) eqn:E; cbn [fst snd] in *.
    + destruct (inline_ix 1 bs eq_refl ltac:(lia)) as (Hty & _ & Hval & Hisv). now rewrite Hty, Hisv, Hval.
    + destruct (Hout 1 bs eq_refl Hext) as (Hty & Hix & Hisv & Hrec). rewrite Hty, Hisv, Hix.
      unfold rec_get. now rewrite Hrec.
  - destruct (num_roundtrip 2 (z2u z) eq_refl (z2u_lt z)) as (Hty & Hnum). cbn [fst snd].
    rewrite Hty, Hnum. cbn [obind]. now rewrite u2z_z2u by now apply i64_ok_range.
  - destruct (num_roundtrip 3 n eq_refl ltac:(lia)) as (Hty & Hnum). cbn [fst snd]. now rewrite Hty, Hnum.
  - (* F64: eight opaque bytes, every one of the 2^64 patterns *)
    destruct (num_roundtrip 4 b eq_refl ltac:(lia)) as (Hty & Hnum). cbn [fst snd]. now rewrite Hty, Hnum.
  - (* String: the record is the serialized String *)
    unfold str_ok in Hwf. apply andb_prop in Hwf. destruct Hwf as [Hu Hl60].
    destruct (lenN bs <=? 15) eqn:E; cbn [fst snd] in *.
    + destruct (inline_ix 5 bs eq_refl ltac:(lia)) as (Hty & _ & Hval & Hisv). rewrite Hty, Hisv, Hval.
      unfold utf8_lossy. now rewrite Hu.
    + destruct (Hout 5 _ eq_refl Hext) as (Hty & Hix & Hisv & Hrec). rewrite Hty, Hisv, Hix.
      rewrite (value_as_found TStr (VStr bs) _ _ eq_refl); [reflexivity| |exact Hrec].
      cbn [has_type]. now rewrite Hu, Hl60.
  - destruct (Hout 6 _ eq_refl Hext) as (Hty & Hix & _ & Hrec). cbn [fst]. rewrite Hty, Hix.
    now apply (value_as_vec TI64 VI64 un_i64 DVecI64).
  - destruct (Hout 7 _ eq_refl Hext) as (Hty & Hix & _ & Hrec). cbn [fst]. rewrite Hty, Hix.
    now apply (value_as_vec TU64 VU64 un_n DVecU64).
  - destruct (Hout 8 _ eq_refl Hext) as (Hty & Hix & _ & Hrec). cbn [fst]. rewrite Hty, Hix.
    now apply (value_as_vec TF64 VF64 un_n DVecF64).
  - destruct (Hout 9 _ eq_refl Hext) as (Hty & Hix & _ & Hrec). cbn [fst]. rewrite Hty, Hix.
    now apply (value_as_vec TStr VStr un_str DVecString).
Qed.

Theorem store_load_roundtrip alloc v st :
  wf_value v = true -> alloc_ok alloc st ->
  load_db_value (fst (store_db_value alloc v st)) (snd (store_db_value alloc v st)) = Ok v.
Proof. intros Hwf Hal. apply store_load_roundtrip_ext; [assumption|assumption|apply extends_refl]. Qed.

Lemma vi_deserialize_app ix rest : wf_ix ix -> vi_deserialize (ix ++ rest) = Ok ix.
Proof.
  intros H. unfold vi_deserialize. rewrite (slice_app_exact ix rest 16 H). reflexivity.
Qed.

Lemma vi_deserialize_wf ix : wf_ix ix -> vi_deserialize ix = Ok ix.
Proof. intros H. rewrite <- (app_nil_r ix) at 1. now apply vi_deserialize_app. Qed.

(* VecValue<DbValue>::remove applied to the stored index gives back the store
   as it was before `store`: the record `store` allocated is freed, nothing else *)
Theorem remove_frees_exactly alloc v st :
  alloc_ok alloc st ->
  remove_value (fst (store_db_value alloc v st)) (snd (store_db_value alloc v st)) = Ok st.
Proof.
  intros Hal. destruct (store_shape alloc v st Hal) as (Hw & [(Hv & Hst)|(Hv & Hix & b & Hst)]);
    unfold remove_value; rewrite (vi_deserialize_wf _ Hw); cbn [obind]; rewrite Hv.
  - now rewrite Hst.
  - rewrite Hst, Hix. apply st_remove_fresh. apply Hal.
Qed.

(* and a value that is not inline really occupies a record, which is gone afterwards *)
Theorem remove_unreadable alloc v st :
  alloc_ok alloc st -> is_value (fst (store_db_value alloc v st)) = false ->
  lookup (vi_index (fst (store_db_value alloc v st))) (snd (store_db_value alloc v st)) <> None /\
  lookup (vi_index (fst (store_db_value alloc v st))) st = None.
Proof.
  intros Hal Hnv. destruct (store_shape alloc v st Hal) as (Hw & [(Hv & Hst)|(Hv & Hix & b & Hst)]);
    [congruence|].
  rewrite Hst, Hix, lookup_cons_eq. split; [discriminate|apply Hal].
Qed.

(* key-value pairs: two indexes, 32 bytes *)

Lemma store_kv_length alloc k v st : length (fst (store_kv alloc k v st)) = 32%nat.
Proof.
  unfold store_kv.
  pose proof (store_ix_wf alloc k st) as Hk.
  destruct (store_db_value alloc k st) as [ki st1].
  pose proof (store_ix_wf alloc v st1) as Hv.
  destruct (store_db_value alloc v st1) as [vi st2]. cbn [fst snd] in *.
  unfold wf_ix in *. rewrite app_length. lia.
Qed.

Theorem kv_roundtrip alloc k v st :
  wf_value k = true -> wf_value v = true ->
  alloc_ok alloc st -> alloc_ok alloc (snd (store_db_value alloc k st)) ->
  load_kv (fst (store_kv alloc k v st)) (snd (store_kv alloc k v st)) = Ok (k, v).
Proof.
  intros Hk Hv Hal Hal1. unfold store_kv.
  pose proof (store_ix_wf alloc k st) as Hkw.
  pose proof (store_load_roundtrip_ext alloc k st) as Hkr.
  destruct (store_db_value alloc k st) as [ki st1]. cbn [fst snd] in *.
  pose proof (store_ix_wf alloc v st1) as Hvw.
  pose proof (store_load_roundtrip alloc v st1 Hv Hal1) as Hvr.
  pose proof (store_adds_only alloc v st1) as Hadd.
  destruct (store_db_value alloc v st1) as [vi st2]. cbn [fst snd] in *.
  unfold load_kv. rewrite (vi_deserialize_app ki vi Hkw). cbn [obind].
  rewrite (skipn_app_exact ki vi 16 Hkw), (vi_deserialize_wf vi Hvw). cbn [obind].
  rewrite (Hkr st2 Hk Hal (adds_only_extends alloc st1 st2 Hal1 Hadd)). cbn [obind].
  rewrite Hvr. reflexivity.
Qed.

Theorem kv_remove_frees_exactly alloc k v st :
  alloc_ok alloc st -> alloc_ok alloc (snd (store_db_value alloc k st)) ->
  remove_kv (fst (store_kv alloc k v st)) (snd (store_kv alloc k v st)) = Ok st.
Proof.
  intros Hal Hal1. unfold store_kv.
  pose proof (store_shape alloc k st Hal) as Hks.
  destruct (store_db_value alloc k st) as [ki st1]. cbn [fst snd] in *.
  pose proof (store_shape alloc v st1 Hal1) as Hvs.
  destruct (store_db_value alloc v st1) as [vi st2]. cbn [fst snd] in *.
  destruct Hks as (Hkw & Hks), Hvs as (Hvw & Hvs). cbn [fst snd] in *.
  unfold remove_kv. rewrite (vi_deserialize_app ki vi Hkw). cbn [obind].
  rewrite (skipn_app_exact ki vi 16 Hkw), (vi_deserialize_wf vi Hvw). cbn [obind].
  destruct Hal1 as (Hnz1 & Hlt1 & Hf1).
  destruct Hks as [(Hkv & Hst1)|(Hkv & Hkix & kb & Hst1)];
  destruct Hvs as [(Hvv & Hst2)|(Hvv & Hvix & vb & Hst2)]; rewrite Hkv; subst st1 st2.
  - cbn [obind]. now rewrite Hvv.
  - cbn [obind]. rewrite Hvv, Hvix. now apply st_remove_fresh.
  - rewrite Hkix, (st_remove_fresh _ _ _ (proj2 (proj2 Hal))). cbn [obind]. now rewrite Hvv.
  - (* both out of line: the key's record lies under the value's *)
    rewrite Hkix.
    assert (Hne : alloc ((alloc st, kb) :: st) <> alloc st).
    { intros E. rewrite E in Hf1. now rewrite lookup_cons_eq in Hf1. }
    assert (Hf1' : lookup (alloc ((alloc st, kb) :: st)) st = None).
    { rewrite lookup_cons_ne in Hf1 by congruence. exact Hf1. }
    unfold st_remove at 1. rewrite lookup_cons_ne by exact Hne. rewrite lookup_cons_eq.
    cbn [filter fst]. replace (alloc ((alloc st, kb) :: st) =? alloc st) with false by lia.
    rewrite N.eqb_refl. cbn [negb obind].
    rewrite (filter_fresh _ _ (proj2 (proj2 Hal))).
    rewrite Hvv, Hvix. now apply st_remove_fresh.
Qed.

Definition ex_str16 : bytes :=     (* 16 bytes: 12 ASCII + one 4-byte sequence, ends exactly at 16 *)
  repeat x61 12 ++ [xf0; x9f; x98; x80].
Definition ex_str15 : bytes :=     (* 15 bytes: 12 ASCII + one 3-byte sequence *)
  repeat x61 12 ++ [xe2; x82; xac].
Definition ex_values : list dbvalue :=
  [DBytes []; DBytes (repeat xff 15); DBytes (repeat xff 16); DI64 (-9223372036854775808);
   DU64 18446744073709551615; DF64 9221120237041090561 (* NaN with payload 1 *);
   DF64 9223372036854775808 (* -0.0 *); DString ex_str15; DString ex_str16;
   DVecI64 []; DVecU64 [0; 18446744073709551615]; DVecF64 [18444492273895866368];
   DVecString [[]; ex_str16]].

Definition rt_ok (v : dbvalue) (st : store) : bool :=
  let r := store_db_value fresh_ix v st in
  match load_db_value (fst r) (snd r) with Ok v' => dbv_eqb v v' | _ => false end.

(* what a damaged index does: unknown type and wrong-length numerics panic *)
Lemma load_panics_unknown_type : load_db_value (repeat x00 16) [] = Panic.
Proof. reflexivity. Qed.
Lemma load_panics_short_i64 : load_db_value (repeat x00 15 ++ [x23]) [] = Panic.
Proof. reflexivity. Qed.
