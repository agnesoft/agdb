(* C23 — Concurrent reads see the same results as sequential reads.
   The statements, derived from the invariant of every interleaved run (ConcReadProofs.Inv_reachable); the model is theories/ConcRead.v
   (small-step interleaving semantics of FileStorage::read: the range check against the file length (a range
   beyond the file is rejected at once, without lock or system call — the code after fix: dfdbce3), then try_lock,
   then seek + read_exact on the SHARED handle under the lock, or open + seek + read_exact on a PRIVATE handle when contended;
   one schedule entry = one system call / lock action of one thread). *)
From Agdb Require Import Bytes ConcRead ConcReadProofs.
Local Open Scope nat_scope.

(* For every number of threads, every reader program per thread (a deterministic reader that issues
   reads depending on the bytes read before), every initial position of the shared cursor and EVERY
   schedule: each completed read returned exactly what the same read returns alone
   (`file_read content pos len`: the bytes, or the OutOfBounds error of a range beyond the file), and the completed reads of
   each thread, followed by the sequential reads of the rest of its program, are the reads it issues
   when run alone. *)
Theorem C23_reads_linear :
  forall (A : Type) (content : bytes) (c0 : nat) (ps : list (prog A)) (sched : list nat),
    let s := run true content (init c0 ps) sched in
    (forall t pos len r, In (t, pos, len, r) (log s) -> r = file_read content pos len) /\
    (forall t p0 th, nth_error ps t = Some p0 -> nth_error (threads s) t = Some th ->
       seq_trace content p0 = tlog t (log s) ++ seq_trace content (code th)).
Proof.
  intros A content c0 ps sched s. destruct (Inv_reachable content ps c0 sched) as [_ Hlog Hth]. split.
  - intros t pos len r Hin. exact (proj1 (Forall_forall _ _) Hlog _ Hin).
  - intros t p0 th Hp Ht. apply (Hth t th p0 Ht Hp).
Qed.
Print Assumptions C23_reads_linear.

(* the instance for fixed request lists (pos,len): a thread's completed reads are a prefix of its
   request list with the sequential results *)
Theorem C23_reads_linear_requests :
  forall (content : bytes) (c0 : nat) (reqs : list (list (nat * nat))) (sched : list nat) t rs,
    nth_error reqs t = Some rs ->
    exists n, tlog t (log (run true content (init_reqs c0 reqs) sched))
              = firstn n (map (fun '(p, l) => (p, l, file_read content p l)) rs).
Proof.
  intros content c0 reqs sched t rs Hrs. unfold init_reqs.
  set (ps := map (fun rs => prog_of_reqs rs []) reqs).
  assert (Hp : nth_error ps t = Some (prog_of_reqs rs [])) by (unfold ps; now rewrite nth_error_map, Hrs).
  pose proof (Inv_reachable content ps c0 sched) as I.
  destruct (Inv_thread_exists _ _ _ _ _ _ I Hp) as [th Hth].
  destruct (inv_thread _ _ _ _ I _ _ _ Hth Hp) as [_ [H _]]. rewrite seq_trace_reqs in H.
  exists (length (tlog t (log (run true content (init c0 ps) sched)))).
  now rewrite H, firstn_app, Nat.sub_diag, firstn_all, app_nil_r.
Qed.
Print Assumptions C23_reads_linear_requests.

(* A thread with pending work always has an enabled action (try_lock never blocks): in ANY state,
   with or without the lock, its next action either advances it inside `read` or completes the read. *)
Theorem C23_no_deadlock :
  forall (A : Type) (ul : bool) (content : bytes) (s : state A) t th pos len k,
    nth_error (threads s) t = Some th -> code th = Rd pos len k ->
    exists th', nth_error (threads (step ul content s t)) t = Some th' /\
      ((phase (pc th') = S (phase (pc th)) /\ code th' = code th /\ log (step ul content s t) = log s) \/
       ((phase (pc th) = 3 \/ (pc th = Idle /\ in_range content pos len = false)) /\ pc th' = Idle /\
        exists r, code th' = k r /\ log (step ul content s t) = log s ++ [(t, pos, len, r)])).
Proof.
  (* branch by branch through `step`: the seven that stay inside the read give the left disjunct,
     the three that answer it (rejected at Idle, LUnlock, PRead) the right one *)
  intros A ul content s t th pos len k Hth Hc. unfold step. rewrite Hth, Hc.
  destruct (pc th) eqn:Hpc; [destruct (in_range content pos len) eqn:Hr; cbn [negb]; [destruct ul; [destruct (lock s)|]|]|..];
    cbn [threads log];
    eexists; (split; [apply (nth_error_upd_same _ _ _ _ _ Hth)|]); cbn [pc code phase];
    try (left; repeat split; auto; fail); right; repeat split; eauto.
Qed.
Print Assumptions C23_no_deadlock.

(* ... and nobody can delay it: a reader scheduled `steps_seq` times (the number of actions it needs ALONE: 4 per read
   in range, 1 per read rejected by the range check; at most 4 x the number of its sequential reads) has returned,
   with its sequential value, whatever the other threads did in between. *)
Theorem C23_completes :
  forall (A : Type) (content : bytes) c0 (ps : list (prog A)) sched t p0,
    nth_error ps t = Some p0 -> steps_seq content p0 <= occ t sched ->
    nth_error (threads (run true content (init c0 ps) sched)) t = Some (mkThread Idle (Ret (run_seq content p0))).
Proof. exact completes. Qed.
Print Assumptions C23_completes.

(* FULL STATEMENT of the property's second half: "every immutable query / read transaction run by
   several threads returns the result it returns when run alone, and none fails".
   What is proved (partial): every reader above the byte store that is a deterministic function of
   the bytes its reads return (a `prog`: Storage::value_as_bytes, the collection loaders and the
   queries built on them take &self and keep no other shared mutable state) returns, under every
   schedule, its sequential value `run_seq content p0` — in particular it fails iff it fails alone.
   Missing: (1) the real query code is not translated into `prog` (the correspondence is the
   stress run of checks/c23.py: results of 16-64 threads = sequential baseline); (2) the model
   cannot exhibit kernel-level offset sharing between duplicated descriptors, short reads of
   read_exact, or memory ordering; the memory-mapped variant reads an immutable in-memory buffer
   and is the instance with no shared cursor at all. *)
Theorem C23_queries_equal_partial :
  forall (A : Type) (content : bytes) c0 (ps : list (prog A)) sched t p0 th a,
    nth_error ps t = Some p0 ->
    nth_error (threads (run true content (init c0 ps) sched)) t = Some th ->
    code th = Ret a -> a = run_seq content p0.
Proof.
  intros A content c0 ps sched t p0 th a Hp Ht Hc.
  destruct (inv_thread _ _ _ _ (Inv_reachable content ps c0 sched) _ _ _ Ht Hp) as [_ (_ & Hrun & _)].
  now rewrite Hrun, Hc.
Qed.
Print Assumptions C23_queries_equal_partial.

(* The mutation the lock guards against: the same program with every thread on the shared handle
   and no lock has a 2-thread schedule returning wrong bytes to one thread and a spurious error to
   the other (the same schedule with the lock returns the sequential results). *)
Theorem C23_refuted_without_lock :
  log (run false wit_content (init_reqs 4 wit_reqs) wit_sched)
    = [(0, 0, 2, Some [x03; x04]); (1, 2, 2, None)] /\
  file_read wit_content 0 2 = Some [x01; x02] /\ file_read wit_content 2 2 = Some [x03; x04] /\
  log (run true wit_content (init_reqs 4 wit_reqs) (wit_sched ++ [1; 1]))
    = [(0, 0, 2, Some [x01; x02]); (1, 2, 2, Some [x03; x04])].
Proof. vm_compute. repeat split. Qed.
Print Assumptions C23_refuted_without_lock.

(* non-vacuity: three threads (two adaptive readers: read a length byte, then that many bytes; one
   reading inside, straddling the end (error) and an empty read beyond the end (error)); the lock is taken
   by thread 1 first (0 and 2 contended), later by 0 (1 and 2 contended) *)
Example C23_nonvacuous :
  let s := run true ex_content (init 5 ex_progs) ex_sched in
  map code (threads s) = [Ret (Some [x0a; x0b]); Ret None; Ret (Some [x0a; x0b])] /\
  log s = [(1, 3, 2, Some [x0c; x0d]); (0, 0, 1, Some [x02]); (2, 0, 1, Some [x02]); (1, 4, 2, None); (1, 9, 0, None);
           (0, 1, 2, Some [x0a; x0b]); (2, 1, 2, Some [x0a; x0b])] /\
  lock s = None /\
  run_seq ex_content ex_adaptive = Some [x0a; x0b].
Proof. vm_compute. repeat split. Qed.
Print Assumptions C23_nonvacuous.
