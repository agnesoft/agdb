(* GraphOps.v — the primitive steps (allocate, count, link, unlink, free) preserve the relaxed
   simulation relation of GraphSim.v: first on the four accessor functions (rsimF), then, through
   a description of a graph by such functions (gdesc), for the operations of Graph.v on the arrays
   (rsim); unlinking never runs out of fuel. *)
From Agdb Require Import Bytes Graph GraphArr GraphSim.
From Coq Require Import ZifyBool ZifyNat ZifyN.
Ltac Zify.zify_post_hook ::= Z.div_mod_to_equations.
Open Scope Z_scope.

Lemma used_range n nodes ER j : base n nodes ER -> used nodes ER j -> 0 < j < n.
Proof.
  intros B [Hj|Hj].
  - apply (b_nodes_range _ _ _ B). assumption.
  - apply in_map_iff in Hj. destruct Hj as [x [<- Hx]]. apply (b_ER_range _ _ _ B). assumption.
Qed.

(* the free-list part only looks at slot 0 and at unused slots *)
Lemma freeS_frame n F T FM TM F' T' FM' TM' nodes ER fl cnt :
  base n nodes ER ->
  (forall j, ~ used nodes ER j -> F' j = F j /\ T' j = T j /\ FM' j = FM j /\ TM' j = TM j) ->
  freeS n F T FM TM nodes ER fl cnt -> freeS n F' T' FM' TM' nodes ER fl cnt.
Proof.
  intros B Hext. apply freeS_ext; [tauto|].
  intros j [->|[_ Hj]]; apply Hext; [|assumption].
  intros Hu. pose proof (used_range _ _ _ _ B Hu). lia.
Qed.

Lemma upd_used nodes ER f i v j : used nodes ER i -> ~ used nodes ER j -> upd f i v j = f j.
Proof. intros Hi Hj. apply upd_other. intros ->. contradiction. Qed.

Section Steps.
  Variables (n : Z) (F T FM TM : Z -> Z) (nodes : list Z) (PO PI : Z -> Prop)
            (ER EO EI : list aedge) (fl : list Z) (cnt : Z).
  Hypothesis R : rsimF n F T FM TM nodes PO PI ER EO EI fl cnt.

  Let B : base n nodes ER := r_base _ _ _ _ _ _ _ _ _ _ _ _ _ R.
  Let HO := r_out _ _ _ _ _ _ _ _ _ _ _ _ _ R.
  Let HI := r_in _ _ _ _ _ _ _ _ _ _ _ _ _ R.

  Lemma rsimF_ext F' T' FM' TM' :
    (forall j, 0 <= j < n -> F' j = F j /\ T' j = T j /\ FM' j = FM j /\ TM' j = TM j) ->
    rsimF n F' T' FM' TM' nodes PO PI ER EO EI fl cnt.
  Proof.
    intros Hext. pose proof R as [R1 R2 R3 R4 R5].
    assert (Hu : forall j, used nodes ER j -> F' j = F j /\ T' j = T j /\ FM' j = FM j /\ TM' j = TM j).
    { intros j Hj. apply Hext. pose proof (used_range _ _ _ _ B Hj). lia. }
    constructor; try assumption.
    - eapply half_ext; [|exact R3]. intros j Hj. destruct (Hu j Hj) as (? & ? & ? & ?). auto.
    - eapply half_ext; [|exact R4]. intros j Hj. destruct (Hu j Hj) as (? & ? & ? & ?). auto.
    - eapply freeS_ext; [| |exact R5]; [tauto|]. intros j Hj. apply Hext. lia.
  Qed.

  (* an update that leaves the unused slots alone: only the two lists have to be re-established *)
  Lemma rsimF_touch F' T' FM' TM' EO' EI' :
    (forall j, ~ used nodes ER j -> F' j = F j /\ T' j = T j /\ FM' j = FM j /\ TM' j = TM j) ->
    half F' FM' nodes PO esrc ER EO' -> half T' TM' nodes PI etgt ER EI' ->
    rsimF n F' T' FM' TM' nodes PO PI ER EO' EI' fl cnt.
  Proof.
    intros Hfr HO' HI'. pose proof R as [R1 R2 R3 R4 R5]. constructor; try assumption.
    eapply freeS_frame; eassumption.
  Qed.

  (* an edge record, its endpoints, and their slots as used slots *)
  Lemma rec_used e :
    In e ER -> In (esrc e) nodes /\ In (etgt e) nodes /\
               used nodes ER (esrc e) /\ used nodes ER (etgt e) /\ used nodes ER (eslot e).
  Proof.
    intros He. destruct (b_ends _ _ _ B e He) as [Hs Ht].
    split; [exact Hs|]. split; [exact Ht|]. split; [left; exact Hs|]. split; [left; exact Ht|right; apply in_map, He].
  Qed.

  Lemma rsimF_link_out e :
    In e ER -> ~ In (eslot e) (map eslot EO) ->
    rsimF n (upd F (esrc e) (eslot e)) T
          (upd (upd FM (eslot e) (F (esrc e))) (esrc e) (FM (esrc e) + 1)) TM
          nodes PO PI ER (e :: EO) EI fl cnt.
  Proof.
    intros He Hn. destruct (rec_used e He) as (Hs & Ht & Us & Ut & Ue).
    apply rsimF_touch; [|apply (half_link n); assumption|exact HI].
    intros j Hj. rewrite !(upd_used nodes ER) by assumption. auto.
  Qed.

  Lemma rsimF_link_in e :
    In e ER -> ~ In (eslot e) (map eslot EI) ->
    rsimF n F (upd T (etgt e) (eslot e)) FM
          (upd (upd TM (eslot e) (T (etgt e))) (etgt e) (TM (etgt e) + 1))
          nodes PO PI ER EO (e :: EI) fl cnt.
  Proof.
    intros He Hn. destruct (rec_used e He) as (Hs & Ht & Us & Ut & Ue).
    apply rsimF_touch; [|exact HO|apply (half_link n); assumption].
    intros j Hj. rewrite !(upd_used nodes ER) by assumption. auto.
  Qed.

  Lemma rsimF_unlink_out_head e :
    In e EO -> PO (esrc e) -> F (esrc e) = eslot e ->
    rsimF n (upd F (esrc e) (FM (eslot e))) T (upd FM (esrc e) (FM (esrc e) - 1)) TM
          nodes PO PI ER (remE (eslot e) EO) EI fl cnt.
  Proof.
    intros He HP Hh. destruct (rec_used e (h_incl _ _ _ _ _ _ _ HO e He)) as (Hs & Ht & Us & Ut & Ue).
    apply rsimF_touch; [|apply (half_unlink_head n); assumption|exact HI].
    intros j Hj. rewrite !(upd_used nodes ER) by assumption. auto.
  Qed.

  Lemma rsimF_unlink_in_head e :
    In e EI -> PI (etgt e) -> T (etgt e) = eslot e ->
    rsimF n F (upd T (etgt e) (TM (eslot e))) FM (upd TM (etgt e) (TM (etgt e) - 1))
          nodes PO PI ER EO (remE (eslot e) EI) fl cnt.
  Proof.
    intros He HP Hh. destruct (rec_used e (h_incl _ _ _ _ _ _ _ HI e He)) as (Hs & Ht & Us & Ut & Ue).
    apply rsimF_touch; [|exact HO|apply (half_unlink_head n); assumption].
    intros j Hj. rewrite !(upd_used nodes ER) by assumption. auto.
  Qed.

  Lemma rsimF_unlink_out_inner e (fuel : nat) :
    (forall z, FM (- z) = FM z) -> n <= Z.of_nat fuel ->
    In e EO -> PO (esrc e) -> F (esrc e) <> eslot e ->
    exists p', find_prev FM fuel (- F (esrc e)) (eslot e) = Some p' /\ 0 < Z.abs p' < n /\
      Z.abs p' <> esrc e /\
      rsimF n F T (upd (upd FM (Z.abs p') (FM (eslot e))) (esrc e) (FM (esrc e) - 1)) TM
            nodes PO PI ER (remE (eslot e) EO) EI fl cnt.
  Proof.
    intros Hev Hfuel He HP Hh. destruct (rec_used e (h_incl _ _ _ _ _ _ _ HO e He)) as (Hs & Ht & Us & Ut & Ue).
    destruct (half_unlink_inner n esrc F FM nodes PO ER EO e fuel) as (p' & Hf & Hp & Hhalf); try assumption.
    assert (Up : used nodes ER (Z.abs p')) by (right; assumption).
    exists p'. split; [assumption|]. split; [apply (used_range n nodes ER); assumption|].
    split; [intros E0; apply (b_disj _ _ _ B _ Hs); rewrite <- E0; assumption|].
    apply rsimF_touch; [|exact Hhalf|exact HI].
    intros j Hj. rewrite !(upd_used nodes ER) by assumption. auto.
  Qed.

  Lemma rsimF_unlink_in_inner e (fuel : nat) :
    (forall z, TM (- z) = TM z) -> n <= Z.of_nat fuel ->
    In e EI -> PI (etgt e) -> T (etgt e) <> eslot e ->
    exists p', find_prev TM fuel (- T (etgt e)) (eslot e) = Some p' /\ 0 < Z.abs p' < n /\
      Z.abs p' <> etgt e /\
      rsimF n F T FM (upd (upd TM (Z.abs p') (TM (eslot e))) (etgt e) (TM (etgt e) - 1))
            nodes PO PI ER EO (remE (eslot e) EI) fl cnt.
  Proof.
    intros Hev Hfuel He HP Hh. destruct (rec_used e (h_incl _ _ _ _ _ _ _ HI e He)) as (Hs & Ht & Us & Ut & Ue).
    destruct (half_unlink_inner n etgt T TM nodes PI ER EI e fuel) as (p' & Hf & Hp & Hhalf); try assumption.
    assert (Up : used nodes ER (Z.abs p')) by (right; assumption).
    exists p'. split; [assumption|]. split; [apply (used_range n nodes ER); assumption|].
    split; [intros E0; apply (b_disj _ _ _ B _ Ht); rewrite <- E0; assumption|].
    apply rsimF_touch; [|exact HO|exact Hhalf].
    intros j Hj. rewrite !(upd_used nodes ER) by assumption. auto.
  Qed.

  (* free a slot: an unthreaded edge record, or an isolated node.
     nodes' / ER' are what is left; the slot s goes to the head of the free list *)
  Lemma rsimF_free s nodes' ER' :
    used nodes ER s -> (forall j, used nodes' ER' j <-> used nodes ER j /\ j <> s) ->
    base n nodes' ER' -> incl nodes' nodes -> incl ER' ER -> incl EO ER' -> incl EI ER' ->
    rsimF n (upd F s 0) (upd T s 0) (upd (upd FM s (FM 0)) 0 (- s)) (upd TM s 0)
          nodes' PO PI ER' EO EI (if - s =? i64_min then [] else s :: fl) cnt.
  Proof.
    intros Us Hu B' Hn He HEO HEI. pose proof R as [R1 R2 R3 R4 R5].
    pose proof (used_range _ _ _ _ B Us) as Hsr.
    assert (Hnu : forall j, In j nodes' \/ In j (map eslot ER') ->
              upd F s 0 j = F j /\ upd (upd FM s (FM 0)) 0 (- s) j = FM j /\
              upd T s 0 j = T j /\ upd TM s 0 j = TM j).
    { intros j Hj. apply Hu in Hj. destruct Hj as [Hj Hne].
      pose proof (used_range _ _ _ _ B Hj). rewrite !upd_other by lia. auto. }
    constructor; try assumption.
    - eapply half_ext; [|eapply half_shrink; [exact Hn|exact He|exact HEO|exact R3]].
      intros j Hj. destruct (Hnu j Hj) as (? & ? & ? & ?). auto.
    - eapply half_ext; [|eapply half_shrink; [exact Hn|exact He|exact HEI|exact R4]].
      intros j Hj. destruct (Hnu j Hj) as (? & ? & ? & ?). auto.
    - apply (freeS_free _ _ _ _ _ nodes ER); assumption.
  Qed.

  Lemma rsimF_free_rec e :
    In e ER -> ~ In (eslot e) (map eslot EO) -> ~ In (eslot e) (map eslot EI) ->
    let s := eslot e in
    rsimF n (upd F s 0) (upd T s 0) (upd (upd FM s (FM 0)) 0 (- s)) (upd TM s 0)
          nodes PO PI (remE s ER) EO EI (if - s =? i64_min then [] else s :: fl) cnt.
  Proof.
    intros He HnO HnI s.
    assert (Hincl : forall E, incl E ER -> ~ In s (map eslot E) -> incl E (remE s ER)).
    { intros E Hi Hn x Hx. apply in_remE. split; [auto|]. intros E0. apply Hn. rewrite <- E0. apply in_map, Hx. }
    apply rsimF_free.
    - right. apply in_map, He.
    - intros j. unfold used. rewrite map_eslot_remE, in_zrem. split; [|tauto].
      intros [Hj|[Hj Hne]]; [|tauto]. split; [left; assumption|].
      apply (base_node_not_slot _ _ _ B _ _ Hj He).
    - apply base_free_rec, B.
    - apply incl_refl.
    - intros x Hx. apply in_remE in Hx. tauto.
    - apply Hincl; [apply (h_incl _ _ _ _ _ _ _ HO)|assumption].
    - apply Hincl; [apply (h_incl _ _ _ _ _ _ _ HI)|assumption].
  Qed.

  Lemma rsimF_free_node m :
    In m nodes -> (forall y, In y ER -> esrc y <> m /\ etgt y <> m) ->
    rsimF n (upd F m 0) (upd T m 0) (upd (upd FM m (FM 0)) 0 (- m)) (upd TM m 0)
          (zrem m nodes) PO PI ER EO EI (if - m =? i64_min then [] else m :: fl) cnt.
  Proof.
    intros Hm Hiso. apply rsimF_free.
    - left. assumption.
    - intros j. unfold used. rewrite in_zrem. split; [|tauto].
      intros [[Hj Hne]|Hj]; [tauto|]. split; [right; assumption|].
      intros ->. apply (b_disj _ _ _ B m Hm Hj).
    - apply base_free_node; [exact B|assumption].
    - intros x Hx. apply in_zrem in Hx. tauto.
    - apply incl_refl.
    - apply (h_incl _ _ _ _ _ _ _ HO).
    - apply (h_incl _ _ _ _ _ _ _ HI).
  Qed.
End Steps.

Lemma rsimF_alloc_pop n F T FM TM nodes PO PI ER EO EI x rest cnt :
  rsimF n F T FM TM nodes PO PI ER EO EI (x :: rest) cnt ->
  rsimF n F T (upd (upd FM 0 (FM x)) x 0) TM (x :: nodes) PO PI ER EO EI rest cnt.
Proof.
  intros [R1 R2 R3 R4 R5].
  destruct (f_fl _ _ _ _ _ _ _ _ _ R5 x (or_introl eq_refl)) as [Hxr [Hxm [Hxn Hxe]]].
  destruct (f_unused _ _ _ _ _ _ _ _ _ R5 x Hxr Hxn Hxe) as [U1 [U2 [U3 U4]]].
  assert (Hext : forall j, In j nodes \/ In j (map eslot ER) -> j <> x /\ j <> 0).
  { intros j Hj. split; [intros ->; destruct Hj; contradiction|].
    pose proof (used_range _ _ _ _ R2 Hj). lia. }
  constructor; try assumption.
  - apply base_add_node; assumption.
  - apply half_add_node; try assumption.
    + apply upd_same.
    + eapply half_ext; [|exact R3]. intros j Hj. destruct (Hext j Hj). rewrite !upd_other by assumption. auto.
    + intros y Hy. apply (b_ends _ _ _ R2 y Hy).
  - apply half_add_node; try assumption.
    intros y Hy. apply (b_ends _ _ _ R2 y Hy).
  - apply freeS_alloc_pop. assumption.
Qed.

Lemma rsimF_alloc_grow n F T FM TM nodes PO PI ER EO EI cnt :
  F n = 0 -> T n = 0 -> FM n = 0 -> TM n = 0 ->
  rsimF n F T FM TM nodes PO PI ER EO EI [] cnt ->
  rsimF (n + 1) F T FM TM (n :: nodes) PO PI ER EO EI [] cnt.
Proof.
  intros E1 E2 E3 E4 [R1 R2 R3 R4 R5].
  assert (Hnn : ~ In n nodes).
  { intros Hi. pose proof (b_nodes_range _ _ _ R2 n Hi). lia. }
  assert (Hne : ~ In n (map eslot ER)).
  { intros Hi. apply in_map_iff in Hi. destruct Hi as [y [Hy Hi]].
    pose proof (b_ER_range _ _ _ R2 y Hi). lia. }
  constructor; try assumption.
  - lia.
  - apply base_add_node; try assumption; [|lia]. eapply base_grow; [|exact R2]. lia.
  - apply half_add_node; try assumption. intros y Hy. apply (b_ends _ _ _ R2 y Hy).
  - apply half_add_node; try assumption. intros y Hy. apply (b_ends _ _ _ R2 y Hy).
  - apply freeS_alloc_grow; assumption.
Qed.

(* a fresh node s (head of the node list, no edges) becomes the record of edge (s, (f, t)) *)
Lemma rsimF_node_to_rec n F T FM TM nodes PO PI ER EO EI fl cnt s f t :
  rsimF n F T FM TM (s :: nodes) PO PI ER EO EI fl cnt ->
  In f nodes -> In t nodes ->
  (forall y, In y ER -> esrc y <> s /\ etgt y <> s) ->
  rsimF n (upd F s (- f)) (upd T s (- t)) FM TM nodes PO PI ((s, (f, t)) :: ER) EO EI fl cnt.
Proof.
  intros [R1 R2 R3 R4 R5] Hf Ht Hiso. set (x := (s, (f, t)) : aedge).
  constructor; try assumption.
  - apply (base_node_to_rec n nodes ER x); assumption.
  - apply (half_node_to_rec n esrc F FM nodes PO ER EO x); assumption.
  - apply (half_node_to_rec n etgt T TM nodes PI ER EI x); assumption.
  - eapply freeS_ext; [| |exact R5].
    + intros j. unfold used. cbn [map In]. change (eslot x) with s. tauto.
    + intros j Hj.
      assert (j <> s).
      { destruct Hj as [->|[_ Hj]].
        - pose proof (b_nodes_range _ _ _ R2 s (or_introl eq_refl)). lia.
        - intros ->. apply Hj. left. left. reflexivity. }
      rewrite !upd_other by assumption. auto.
Qed.

(* describing a graph by its four accessor functions.  Only slots j >= 0 are described: `get` reads
   slot |i|, so a write `set_* g i v` is an `upd` of the function at |i| on non-negative arguments only *)

Definition gdesc (g : graph) (n : Z) (F T FM TM : Z -> Z) : Prop :=
  wfl g /\ capacity g = n /\
  forall j, 0 <= j -> from g j = F j /\ to g j = T j /\ fmeta g j = FM j /\ tmeta g j = TM j.

Lemma gdesc_self g : wfl g -> gdesc g (capacity g) (from g) (to g) (fmeta g) (tmeta g).
Proof. intros H. split; [assumption|]. split; [reflexivity|]. auto. Qed.

(* writing slot s = |i| of an array, read back on the non-negative slots *)
Lemma get_set_upd l i s v j :
  Z.abs i = s -> s < Z.of_nat (length l) -> 0 <= j -> get (set l i v) j = upd (get l) s v j.
Proof.
  intros Hs Hl Hj. rewrite get_set. unfold upd.
  destruct (Z.eqb_spec (Z.abs i) (Z.abs j)); destruct (Z.eqb_spec j s);
    destruct (Z.ltb_spec (Z.abs i) (Z.of_nat (length l))); cbn [andb]; try reflexivity; lia.
Qed.

Section Desc.
  Variables (g : graph) (n : Z) (F T FM TM : Z -> Z).
  Hypothesis D : gdesc g n F T FM TM.

  Lemma gdesc_from j : from g j = F (Z.abs j).
  Proof. destruct D as [_ [_ H]]. unfold from. rewrite <- get_abs. apply (H (Z.abs j)). lia. Qed.
  Lemma gdesc_to j : to g j = T (Z.abs j).
  Proof. destruct D as [_ [_ H]]. unfold to. rewrite <- get_abs. apply (H (Z.abs j)). lia. Qed.
  Lemma gdesc_fmeta j : fmeta g j = FM (Z.abs j).
  Proof. destruct D as [_ [_ H]]. unfold fmeta. rewrite <- get_abs. apply (H (Z.abs j)). lia. Qed.
  Lemma gdesc_tmeta j : tmeta g j = TM (Z.abs j).
  Proof. destruct D as [_ [_ H]]. unfold tmeta. rewrite <- get_abs. apply (H (Z.abs j)). lia. Qed.

  Lemma gdesc_grow : gdesc (grow g) (n + 1) F T FM TM.
  Proof.
    destruct D as [[L1 [L2 L3]] [Hc H]]. unfold capacity in Hc.
    split; [|split].
    - unfold wfl, grow; cbn [g_from g_to g_fmeta g_tmeta]. rewrite !app_length. cbn [length]. lia.
    - unfold capacity, grow; cbn [g_from]. rewrite app_length. cbn [length]. lia.
    - intros j Hj. destruct (H j Hj) as [H1 [H2 [H3 H4]]].
      unfold from, to, fmeta, tmeta, grow in *; cbn [g_from g_to g_fmeta g_tmeta].
      rewrite !get_app0. auto.
  Qed.

  Lemma gdesc_overflow : F n = 0 /\ T n = 0 /\ FM n = 0 /\ TM n = 0.
  Proof.
    destruct D as [[L1 [L2 L3]] [Hc H]]. unfold capacity in Hc.
    assert (Hn : 0 <= n) by lia.
    destruct (H n Hn) as [H1 [H2 [H3 H4]]]. rewrite <- H1, <- H2, <- H3, <- H4.
    unfold from, to, fmeta, tmeta. rewrite !get_overflow by lia. auto.
  Qed.

  Lemma gdesc_ext F' T' FM' TM' :
    (forall j, 0 <= j -> F' j = F j /\ T' j = T j /\ FM' j = FM j /\ TM' j = TM j) ->
    gdesc g n F' T' FM' TM'.
  Proof.
    intros Hext. destruct D as [W [Hc H]]. split; [assumption|]. split; [assumption|].
    intros j Hj. destruct (H j Hj) as [H1 [H2 [H3 H4]]]. destruct (Hext j Hj) as [-> [-> [-> ->]]]. auto.
  Qed.
End Desc.

(* one array write: the describing function of that array is updated at the slot *)
Section DescSet.
  Context {g : graph} {n : Z} {F T FM TM : Z -> Z}.
  Hypothesis D : gdesc g n F T FM TM.

  Lemma gdesc_set_from i s v : Z.abs i = s -> s < n -> gdesc (set_from g i v) n (upd F s v) T FM TM.
  Proof.
    destruct D as (W & Hc & H). intros Hs Hn. unfold gdesc, wfl, capacity, from, to, fmeta, tmeta in *.
    cbn [set_from g_from g_to g_fmeta g_tmeta]. rewrite length_set. split; [exact W|]. split; [exact Hc|].
    intros j Hj. destruct (H j Hj) as (H1 & H2 & H3 & H4). rewrite (get_set_upd _ i s) by lia.
    unfold upd. rewrite H1. auto.
  Qed.

  Lemma gdesc_set_to i s v : Z.abs i = s -> s < n -> gdesc (set_to g i v) n F (upd T s v) FM TM.
  Proof.
    destruct D as (W & Hc & H). intros Hs Hn. unfold gdesc, wfl, capacity, from, to, fmeta, tmeta in *.
    cbn [set_to g_from g_to g_fmeta g_tmeta]. rewrite length_set. split; [exact W|]. split; [exact Hc|].
    intros j Hj. destruct (H j Hj) as (H1 & H2 & H3 & H4). rewrite (get_set_upd _ i s) by lia.
    unfold upd. rewrite H2. auto.
  Qed.

  Lemma gdesc_set_fmeta i s v : Z.abs i = s -> s < n -> gdesc (set_fmeta g i v) n F T (upd FM s v) TM.
  Proof.
    destruct D as (W & Hc & H). intros Hs Hn. unfold gdesc, wfl, capacity, from, to, fmeta, tmeta in *.
    cbn [set_fmeta g_from g_to g_fmeta g_tmeta]. rewrite length_set. split; [exact W|]. split; [exact Hc|].
    intros j Hj. destruct (H j Hj) as (H1 & H2 & H3 & H4). rewrite (get_set_upd _ i s) by lia.
    unfold upd. rewrite H3. auto.
  Qed.

  Lemma gdesc_set_tmeta i s v : Z.abs i = s -> s < n -> gdesc (set_tmeta g i v) n F T FM (upd TM s v).
  Proof.
    destruct D as (W & Hc & H). intros Hs Hn. unfold gdesc, wfl, capacity, from, to, fmeta, tmeta in *.
    cbn [set_tmeta g_from g_to g_fmeta g_tmeta]. rewrite length_set. split; [exact W|]. split; [exact Hc|].
    intros j Hj. destruct (H j Hj) as (H1 & H2 & H3 & H4). rewrite (get_set_upd _ i s) by lia.
    unfold upd. rewrite H4. auto.
  Qed.
End DescSet.

Lemma rsim_gdesc g nodes PO PI ER EO EI fl cnt :
  rsim g nodes PO PI ER EO EI fl cnt ->
  exists n F T FM TM, gdesc g n F T FM TM /\ rsimF n F T FM TM nodes PO PI ER EO EI fl cnt /\
    n = capacity g /\ FM = fmeta g /\ TM = tmeta g /\ F = from g /\ T = to g.
Proof.
  intros [W R]. exists (capacity g), (from g), (to g), (fmeta g), (tmeta g).
  split; [apply gdesc_self; assumption|]. auto 10.
Qed.

Lemma rsim_of_gdesc {g n F T FM TM nodes PO PI ER EO EI fl cnt} :
  gdesc g n F T FM TM -> rsimF n F T FM TM nodes PO PI ER EO EI fl cnt ->
  rsim g nodes PO PI ER EO EI fl cnt.
Proof.
  intros [W [Hc H]] R. split; [assumption|]. rewrite Hc.
  eapply rsimF_ext; [exact R|]. intros j Hj. apply H. lia.
Qed.

Lemma fmeta_even g z : fmeta g (- z) = fmeta g z.
Proof. apply get_neg. Qed.
Lemma tmeta_even g z : tmeta g (- z) = tmeta g z.
Proof. apply get_neg. Qed.

Section Ops.
  Context {g : graph} {nodes : list Z} {PO PI : Z -> Prop} {ER EO EI : list aedge} {fl : list Z} {cnt : Z}.
  Hypothesis RS : rsim g nodes PO PI ER EO EI fl cnt.

  Let W : wfl g := proj1 RS.
  Let R := proj2 RS.
  Let D := gdesc_self g W.
  Let FS := r_free _ _ _ _ _ _ _ _ _ _ _ _ _ R.
  Let Hcap := r_cap _ _ _ _ _ _ _ _ _ _ _ _ _ R.

  Lemma alloc_spec x g' :
    get_free_index g = (x, g') ->
    0 < x /\ ~ In x nodes /\ ~ In x (map eslot ER) /\ (x = capacity g \/ In x fl) /\
    rsim g' (x :: nodes) PO PI ER EO EI (tl fl) cnt.
  Proof.
    unfold get_free_index. rewrite (f_head _ _ _ _ _ _ _ _ _ FS).
    destruct fl as [|x0 rest] eqn:Efl; cbn [fhead tl].
    - rewrite Z.eqb_refl. intros [= <- <-].
      split; [lia|]. split.
      { intros Hi. pose proof (rsim_node_range RS _ Hi). lia. }
      split.
      { intros Hi. apply in_map_iff in Hi. destruct Hi as [y [Hy Hi]].
        pose proof (rsim_slot_range RS y Hi). lia. }
      split; [left; reflexivity|].
      destruct (gdesc_overflow _ _ _ _ _ _ D) as [O1 [O2 [O3 O4]]].
      refine (rsim_of_gdesc (gdesc_grow _ _ _ _ _ _ D) _). apply rsimF_alloc_grow; assumption.
    - destruct (f_fl _ _ _ _ _ _ _ _ _ FS x0 (or_introl eq_refl)) as [Hxr [Hxm [Hxn Hxe]]].
      destruct (Z.eqb_spec (- x0) i64_min) as [E0|E0]; [contradiction|].
      rewrite Z.opp_involutive. intros [= <- <-].
      split; [lia|]. split; [assumption|]. split; [assumption|]. split; [right; left; reflexivity|].
      pose proof (gdesc_set_fmeta D 0 0 (fmeta g x0) eq_refl ltac:(lia)) as D1.
      pose proof (gdesc_set_fmeta D1 x0 x0 0 ltac:(lia) ltac:(lia)) as D2.
      refine (rsim_of_gdesc D2 _). apply rsimF_alloc_pop, R.
  Qed.

  Lemma cnt_spec c : rsim (set_tmeta g 0 c) nodes PO PI ER EO EI fl c.
  Proof.
    refine (rsim_of_gdesc (gdesc_set_tmeta D 0 0 c eq_refl ltac:(lia)) _).
    pose proof R as [R1 R2 R3 R4 R5]. constructor; try assumption.
    - eapply half_ext; [|exact R4]. intros j Hj. pose proof (used_range _ _ _ _ R2 Hj).
      rewrite upd_other by lia. auto.
    - eapply freeS_cnt. eassumption.
  Qed.

  Lemma node_count_spec : node_count g = cnt.
  Proof. apply (f_cnt _ _ _ _ _ _ _ _ _ FS). Qed.

  Lemma link_out_spec e :
    In e ER -> ~ In (eslot e) (map eslot EO) ->
    rsim (update_from_edge g (esrc e) (- eslot e)) nodes PO PI ER (e :: EO) EI fl cnt.
  Proof.
    intros He Hn. destruct (rsim_ends RS e He) as [Hs _].
    pose proof (rsim_slot_range RS e He). pose proof (rsim_node_range RS _ Hs).
    pose proof (rsim_node_not_slot RS _ _ Hs He).
    unfold update_from_edge. rewrite Z.opp_involutive.
    pose proof (gdesc_set_fmeta D (- eslot e) (eslot e) (from g (esrc e)) ltac:(lia) ltac:(lia)) as D1.
    pose proof (gdesc_set_from D1 (esrc e) (esrc e) (eslot e) ltac:(lia) ltac:(lia)) as D2.
    rewrite (gdesc_fmeta _ _ _ _ _ _ D2), Z.abs_eq, upd_other by lia.
    pose proof (gdesc_set_fmeta D2 (esrc e) (esrc e) (fmeta g (esrc e) + 1) ltac:(lia) ltac:(lia)) as D3.
    refine (rsim_of_gdesc D3 _). apply rsimF_link_out; assumption.
  Qed.

  Lemma link_in_spec e :
    In e ER -> ~ In (eslot e) (map eslot EI) ->
    rsim (update_to_edge g (etgt e) (- eslot e)) nodes PO PI ER EO (e :: EI) fl cnt.
  Proof.
    intros He Hn. destruct (rsim_ends RS e He) as [_ Ht].
    pose proof (rsim_slot_range RS e He). pose proof (rsim_node_range RS _ Ht).
    pose proof (rsim_node_not_slot RS _ _ Ht He).
    unfold update_to_edge. rewrite Z.opp_involutive.
    pose proof (gdesc_set_tmeta D (- eslot e) (eslot e) (to g (etgt e)) ltac:(lia) ltac:(lia)) as D1.
    pose proof (gdesc_set_to D1 (etgt e) (etgt e) (eslot e) ltac:(lia) ltac:(lia)) as D2.
    rewrite (gdesc_tmeta _ _ _ _ _ _ D2), Z.abs_eq, upd_other by lia.
    pose proof (gdesc_set_tmeta D2 (etgt e) (etgt e) (tmeta g (etgt e) + 1) ltac:(lia) ltac:(lia)) as D3.
    refine (rsim_of_gdesc D3 _). apply rsimF_link_in; assumption.
  Qed.

  (* unlink: never out of fuel *)
  Lemma unlink_out_spec e :
    In e EO -> PO (esrc e) ->
    exists g', remove_from_edge g (- eslot e) = Some g' /\
      rsim g' nodes PO PI ER (remE (eslot e) EO) EI fl cnt /\
      g_tmeta g' = g_tmeta g.
  Proof.
    intros He HP.
    pose proof (r_out _ _ _ _ _ _ _ _ _ _ _ _ _ R) as HO.
    assert (HeR : In e ER) by (apply (h_incl _ _ _ _ _ _ _ HO); assumption).
    pose proof (rsim_slot_range RS e HeR). pose proof (rsim_node_range RS _ (proj1 (rsim_ends RS e HeR))).
    destruct (h_rec _ _ _ _ _ _ _ HO e HeR) as [Hrec _].
    unfold remove_from_edge.
    rewrite (get_neg (g_from g) (eslot e) : from g (- eslot e) = from g (eslot e)).
    rewrite Hrec, !Z.opp_involutive, (fmeta_even g (eslot e)).
    destruct (Z.eqb_spec (- from g (esrc e)) (- eslot e)) as [Eh|Eh].
    - pose proof (gdesc_set_from D (esrc e) (esrc e) (fmeta g (eslot e)) ltac:(lia) ltac:(lia)) as D1.
      rewrite (gdesc_fmeta _ _ _ _ _ _ D1), Z.abs_eq by lia.
      pose proof (gdesc_set_fmeta D1 (esrc e) (esrc e) (fmeta g (esrc e) - 1) ltac:(lia) ltac:(lia)) as D2.
      eexists. split; [reflexivity|]. split; [|reflexivity].
      refine (rsim_of_gdesc D2 _). apply rsimF_unlink_out_head; [assumption..|lia].
    - destruct (rsimF_unlink_out_inner _ _ _ _ _ _ _ _ _ _ _ _ _ R e (length (g_from g)))
        as [p' [Hf [Hpr [Hpk RF]]]]; try assumption; [apply fmeta_even|unfold capacity; lia|lia|].
      change (fun p : Z => fmeta g p) with (fmeta g). rewrite Hf.
      pose proof (gdesc_set_fmeta D p' (Z.abs p') (fmeta g (eslot e)) eq_refl ltac:(lia)) as D1.
      rewrite (gdesc_fmeta _ _ _ _ _ _ D1), (Z.abs_eq (esrc e)), upd_other by lia.
      pose proof (gdesc_set_fmeta D1 (esrc e) (esrc e) (fmeta g (esrc e) - 1) ltac:(lia) ltac:(lia)) as D2.
      eexists. split; [reflexivity|]. split; [|reflexivity].
      refine (rsim_of_gdesc D2 _). apply RF.
  Qed.

  Lemma unlink_in_spec e :
    In e EI -> PI (etgt e) ->
    exists g', remove_to_edge g (- eslot e) = Some g' /\
      rsim g' nodes PO PI ER EO (remE (eslot e) EI) fl cnt /\
      g_fmeta g' = g_fmeta g.
  Proof.
    intros He HP.
    pose proof (r_in _ _ _ _ _ _ _ _ _ _ _ _ _ R) as HI.
    assert (HeR : In e ER) by (apply (h_incl _ _ _ _ _ _ _ HI); assumption).
    pose proof (rsim_slot_range RS e HeR). pose proof (rsim_node_range RS _ (proj2 (rsim_ends RS e HeR))).
    destruct (h_rec _ _ _ _ _ _ _ HI e HeR) as [Hrec _].
    unfold remove_to_edge.
    rewrite (get_neg (g_to g) (eslot e) : to g (- eslot e) = to g (eslot e)).
    rewrite Hrec, !Z.opp_involutive, (tmeta_even g (eslot e)).
    destruct (Z.eqb_spec (- to g (etgt e)) (- eslot e)) as [Eh|Eh].
    - pose proof (gdesc_set_to D (etgt e) (etgt e) (tmeta g (eslot e)) ltac:(lia) ltac:(lia)) as D1.
      rewrite (gdesc_tmeta _ _ _ _ _ _ D1), Z.abs_eq by lia.
      pose proof (gdesc_set_tmeta D1 (etgt e) (etgt e) (tmeta g (etgt e) - 1) ltac:(lia) ltac:(lia)) as D2.
      eexists. split; [reflexivity|]. split; [|reflexivity].
      refine (rsim_of_gdesc D2 _). apply rsimF_unlink_in_head; [assumption..|lia].
    - destruct (rsimF_unlink_in_inner _ _ _ _ _ _ _ _ _ _ _ _ _ R e (length (g_from g)))
        as [p' [Hf [Hpr [Hpk RF]]]]; try assumption; [apply tmeta_even|unfold capacity; lia|lia|].
      change (fun p : Z => tmeta g p) with (tmeta g). rewrite Hf.
      pose proof (gdesc_set_tmeta D p' (Z.abs p') (tmeta g (eslot e)) eq_refl ltac:(lia)) as D1.
      rewrite (gdesc_tmeta _ _ _ _ _ _ D1), (Z.abs_eq (etgt e)), upd_other by lia.
      pose proof (gdesc_set_tmeta D1 (etgt e) (etgt e) (tmeta g (etgt e) - 1) ltac:(lia) ltac:(lia)) as D2.
      eexists. split; [reflexivity|]. split; [|reflexivity].
      refine (rsim_of_gdesc D2 _). apply RF.
  Qed.

  Lemma free_desc s :
    0 < s < capacity g ->
    gdesc (free_index g s) (capacity g)
          (upd (from g) s 0) (upd (to g) s 0) (upd (upd (fmeta g) s (fmeta g 0)) 0 (- s)) (upd (tmeta g) s 0).
  Proof.
    intros Hs. unfold free_index.
    pose proof (gdesc_set_fmeta D s s (fmeta g 0) ltac:(lia) ltac:(lia)) as D1.
    pose proof (gdesc_set_fmeta D1 0 0 (- s) eq_refl ltac:(lia)) as D2.
    pose proof (gdesc_set_from D2 s s 0 ltac:(lia) ltac:(lia)) as D3.
    pose proof (gdesc_set_to D3 s s 0 ltac:(lia) ltac:(lia)) as D4.
    exact (gdesc_set_tmeta D4 s s 0 ltac:(lia) ltac:(lia)).
  Qed.

  Lemma free_rec_spec e :
    In e ER -> ~ In (eslot e) (map eslot EO) -> ~ In (eslot e) (map eslot EI) ->
    rsim (free_index g (eslot e)) nodes PO PI (remE (eslot e) ER) EO EI
         (if - eslot e =? i64_min then [] else eslot e :: fl) cnt.
  Proof.
    intros He H1 H2.
    refine (rsim_of_gdesc (free_desc _ (rsim_slot_range RS e He)) _). apply (rsimF_free_rec _ _ _ _ _ _ _ _ _ _ _ _ _ R e); assumption.
  Qed.

  Lemma free_node_spec m :
    In m nodes -> (forall y, In y ER -> esrc y <> m /\ etgt y <> m) ->
    rsim (free_index g m) (zrem m nodes) PO PI ER EO EI
         (if - m =? i64_min then [] else m :: fl) cnt.
  Proof.
    intros Hm Hiso.
    refine (rsim_of_gdesc (free_desc _ (rsim_node_range RS m Hm)) _). apply (rsimF_free_node _ _ _ _ _ _ _ _ _ _ _ _ _ R m); assumption.
  Qed.

  Lemma drop_out_spec e :
    In e EO -> ~ PO (esrc e) -> rsim g nodes PO PI ER (remE (eslot e) EO) EI fl cnt.
  Proof.
    intros H1 H2. split; [exact W|].
    apply (rsimF_touch _ _ _ _ _ _ _ _ _ _ _ _ _ R); [auto|apply half_drop; [assumption..|apply R]|apply R].
  Qed.

  Lemma drop_in_spec e :
    In e EI -> ~ PI (etgt e) -> rsim g nodes PO PI ER EO (remE (eslot e) EI) fl cnt.
  Proof.
    intros H1 H2. split; [exact W|].
    apply (rsimF_touch _ _ _ _ _ _ _ _ _ _ _ _ _ R); [auto|apply R|apply half_drop; [assumption..|apply R]].
  Qed.

  Lemma weaken_spec (PO' PI' : Z -> Prop) :
    (forall m, In m nodes -> PO' m -> PO m) -> (forall m, In m nodes -> PI' m -> PI m) ->
    rsim g nodes PO' PI' ER EO EI fl cnt.
  Proof.
    intros H1 H2. split; [exact W|]. pose proof R as [R1 R2 R3 R4 R5].
    constructor; try assumption; eapply half_weaken; eassumption.
  Qed.
End Ops.

(* a fresh node s becomes the record of the edge (s, (f, t)) *)
Lemma node_to_rec_spec g nodes PO PI ER EO EI fl cnt s f t :
  rsim g (s :: nodes) PO PI ER EO EI fl cnt ->
  In f nodes -> In t nodes -> (forall y, In y ER -> esrc y <> s /\ etgt y <> s) ->
  rsim (set_to (set_from g (- s) (- f)) (- s) (- t)) nodes PO PI ((s, (f, t)) :: ER) EO EI fl cnt.
Proof.
  intros RS Hf Ht Hiso. pose proof (rsim_node_range RS s (or_introl eq_refl)).
  pose proof (gdesc_set_from (gdesc_self g (proj1 RS)) (- s) s (- f) ltac:(lia) ltac:(lia)) as D1.
  pose proof (gdesc_set_to D1 (- s) s (- t) ltac:(lia) ltac:(lia)) as D2.
  refine (rsim_of_gdesc D2 _). apply rsimF_node_to_rec; [apply RS|assumption..].
Qed.
