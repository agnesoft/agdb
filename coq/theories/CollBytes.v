(* CollBytes.v — proofs (collections): the byte layout of a vector record,
     record = header ++ concat slots ++ spare        (every slot `k` bytes)
   and what the value operations of the abstract record map (StorageSpec.v: v_insert_at,
   v_resize, v_move) do to it: read a slot, overwrite a slot, append a slot into / beyond the
   spare bytes, rewrite the header, resize, move the tail down over a slot (remove), move one
   slot onto another (swap). *)
From Agdb Require Import Bytes BytesProofs Records Storage StorageSpec StorageLayout Collections.
From Coq Require Import ZifyBool ZifyNat ZifyN.
Ltac Zify.zify_post_hook ::= Z.div_mod_to_equations.
Open Scope N_scope.
Arguments N.add : simpl never.
Arguments N.mul : simpl never.
Arguments N.sub : simpl never.
Arguments N.of_nat : simpl never.
Arguments N.to_nat : simpl never.
Arguments N.eqb : simpl never.
Arguments N.ltb : simpl never.
Arguments N.leb : simpl never.
Arguments N.div : simpl never.

Lemma cl_upd_length {T} (l : list T) i x : length (cl_upd l i x) = length l.
Proof. revert i; induction l as [|y t IH]; intros [|i]; cbn [cl_upd length]; auto. Qed.

Lemma cl_upd_split {T} (l : list T) i x :
  (i < length l)%nat -> cl_upd l i x = firstn i l ++ x :: skipn (S i) l.
Proof.
  revert i; induction l as [|y t IH]; intros [|i] H; cbn [length] in H; try lia; cbn [cl_upd firstn skipn app].
  - reflexivity.
  - f_equal. apply IH. lia.
Qed.

Lemma cl_upd_oob {T} (l : list T) i x : (length l <= i)%nat -> cl_upd l i x = l.
Proof.
  revert i; induction l as [|y t IH]; intros [|i] H; cbn [length] in H; try lia; cbn [cl_upd]; [reflexivity|reflexivity|].
  f_equal. apply IH. lia.
Qed.

Lemma cl_upd_upd {T} (l : list T) i x y : cl_upd (cl_upd l i x) i y = cl_upd l i y.
Proof. revert i; induction l as [|z t IH]; intros [|i]; cbn [cl_upd]; try reflexivity. f_equal. apply IH. Qed.

Lemma cl_upd_app {T} (a b : list T) x y : cl_upd (a ++ x :: b) (length a) y = a ++ y :: b.
Proof. induction a as [|z a IH]; cbn [app length cl_upd]; [reflexivity|f_equal; exact IH]. Qed.

Lemma cl_remove_app {T} (a b : list T) x : cl_remove (a ++ x :: b) (length a) = a ++ b.
Proof.
  unfold cl_remove. rewrite firstn_app_exact by reflexivity. f_equal.
  change (a ++ x :: b) with (a ++ [x] ++ b). rewrite app_assoc. apply skipn_app_exact. rewrite app_length. cbn [length]. lia.
Qed.

Lemma nth_error_cl_upd {T} (l : list T) i x j :
  nth_error (cl_upd l i x) j = if Nat.eqb i j then (if Nat.ltb i (length l) then Some x else None) else nth_error l j.
Proof.
  revert i j; induction l as [|y t IH]; intros [|i] [|j]; cbn [cl_upd nth_error length Nat.eqb]; try reflexivity.
  - destruct (Nat.eqb i j); reflexivity.
  - rewrite IH. destruct (Nat.eqb i j); [|reflexivity].
    destruct (Nat.ltb_spec i (length t)), (Nat.ltb_spec (S i) (S (length t))); try reflexivity; lia.
Qed.

(* validate_index against the list *)
Lemma leb_nth_error {T} (l : list T) i :
  (lenN l <=? i) = match nth_error l (N.to_nat i) with Some _ => false | None => true end.
Proof.
  destruct (nth_error l (N.to_nat i)) eqn:E.
  - apply nth_error_Some_lt in E. apply N.leb_gt. unfold lenN. lia.
  - apply nth_error_None in E. apply N.leb_le. unfold lenN. lia.
Qed.

Lemma in_snoc {T} (x y : T) l : In x (l ++ [y]) <-> In x (y :: l).
Proof. rewrite in_app_iff. cbn [In]. tauto. Qed.

(* a record of u64 fields (MapDataIndex, GraphDataStorageIndexes, DbStorageIndex): field k is read at 8 * k *)
Fixpoint ser64 (x : N) (l : list N) : bytes :=
  match l with [] => le64 x | y :: t => le64 x ++ ser64 y t end.

Lemma ser64_field : forall l x k y, nth_error (x :: l) k = Some y -> Forall (fun z => z < two64) (x :: l) ->
  8 <= lenN (skipn (8 * k) (ser64 x l)) /\ de (firstn 8 (skipn (8 * k) (ser64 x l))) = y.
Proof.
  induction l as [|x' t IH]; intros x [|k] y Hy HF; cbn [nth_error ser64] in *.
  - injection Hy as <-. change (8 * 0)%nat with 0%nat. cbn [skipn]. rewrite lenN_le64. split; [lia|].
    rewrite firstn_all2 by (rewrite le64_length; lia). apply de_le64. exact (Forall_inv HF).
  - destruct k; discriminate Hy.
  - injection Hy as <-. change (8 * 0)%nat with 0%nat. cbn [skipn]. rewrite lenN_app, lenN_le64. split; [lia|].
    rewrite firstn_app_exact by (rewrite le64_length; reflexivity). apply de_le64. exact (Forall_inv HF).
  - rewrite skipn_app, skipn_all2, le64_length by (rewrite le64_length; lia).
    replace (8 * S k - 8)%nat with (8 * k)%nat by lia. cbn [app].
    apply IH; [exact Hy|exact (Forall_inv_tail HF)].
Qed.

Definition chunks (k : nat) (bss : list bytes) : Prop := Forall (fun b => length b = k) bss.

Lemma chunks_app k a b : chunks k (a ++ b) <-> chunks k a /\ chunks k b.
Proof. apply Forall_app. Qed.

Lemma chunks_nth k bss i : chunks k bss -> (i < length bss)%nat -> length (nth i bss []) = k.
Proof. unfold chunks. rewrite Forall_forall. intros H Hi. apply H. apply nth_In. exact Hi. Qed.

Lemma chunks_upd k bss i b : chunks k bss -> length b = k -> chunks k (cl_upd bss i b).
Proof. unfold chunks. intros H Hb. revert i. induction H as [|y t Hy Ht IH]; intros [|i]; cbn [cl_upd]; constructor; auto. Qed.

Lemma concat_length_chunks k bss : chunks k bss -> length (concat bss) = (k * length bss)%nat.
Proof.
  induction 1 as [|b t Hb Ht IH]; cbn [concat length]; [lia|]. rewrite app_length, IH, Hb. lia.
Qed.

(* record = P ++ concat (A ++ b :: B) ++ Sp: the slot b starts at |P| + k * |A| *)
Lemma slot_decomp k (P Sp : bytes) (A : list bytes) (b : bytes) B :
  chunks k (A ++ b :: B) ->
  P ++ concat (A ++ b :: B) ++ Sp = (P ++ concat A) ++ b ++ (concat B ++ Sp) /\
  length (P ++ concat A) = (length P + k * length A)%nat /\ length b = k.
Proof.
  intros H. apply chunks_app in H. destruct H as [HA HB]. split; [|split].
  - rewrite concat_app. cbn [concat]. rewrite <- !app_assoc. reflexivity.
  - rewrite app_length, (concat_length_chunks k) by exact HA. reflexivity.
  - exact (Forall_inv HB).
Qed.

Lemma slot_read k (P Sp : bytes) bss i :
  chunks k bss -> (i < length bss)%nat ->
  bs_read (P ++ concat bss ++ Sp) (length P + k * i) k = nth i bss [].
Proof.
  intros H Hi. destruct (nth_error_lt_Some bss i Hi) as (b & Hb). destruct (nth_error_split _ _ Hb) as (A & B & -> & <-).
  destruct (slot_decomp k P Sp A b B H) as (-> & HL & Hn). rewrite nth_middle.
  apply bs_read_mid; [symmetry; exact HL|symmetry; exact Hn].
Qed.

Lemma slot_write k (P Sp : bytes) bss i b' :
  chunks k bss -> (i < length bss)%nat -> length b' = k ->
  bs_write (P ++ concat bss ++ Sp) (length P + k * i) b' = P ++ concat (cl_upd bss i b') ++ Sp.
Proof.
  intros H Hi Hb'. destruct (nth_error_lt_Some bss i Hi) as (b & Hb). destruct (nth_error_split _ _ Hb) as (A & B & -> & <-).
  destruct (slot_decomp k P Sp A b B H) as (-> & HL & Hn).
  rewrite bs_write_mid by (try (symmetry; exact HL); lia).
  rewrite cl_upd_app, concat_app. cbn [concat]. rewrite <- !app_assoc. reflexivity.
Qed.

(* a write starting at the end of A: into the rest, or beyond it *)
Lemma bs_write_at (A Sp b : bytes) : bs_write (A ++ Sp) (length A) b = A ++ b ++ skipn (length b) Sp.
Proof.
  unfold bs_write. rewrite firstn_app_exact by reflexivity.
  replace (length A - length (A ++ Sp))%nat with 0%nat by (rewrite app_length; lia). cbn [repeat app].
  f_equal. f_equal. rewrite skipn_app. rewrite (skipn_all2 A) by lia. cbn [app]. f_equal. lia.
Qed.

Lemma slot_append k (P Sp : bytes) bss b :
  chunks k bss -> length b = k ->
  bs_write (P ++ concat bss ++ Sp) (length P + k * length bss) b = P ++ concat (bss ++ [b]) ++ skipn k Sp.
Proof.
  intros H Hb. rewrite app_assoc.
  replace (length P + k * length bss)%nat with (length (P ++ concat bss)) by (rewrite app_length, (concat_length_chunks k) by exact H; lia).
  rewrite bs_write_at. rewrite concat_app. cbn [concat]. rewrite app_nil_r, Hb, <- !app_assoc. reflexivity.
Qed.

Lemma header_write (P P' R : bytes) : length P' = length P -> bs_write (P ++ R) 0 P' = P' ++ R.
Proof.
  intros HL. change (P ++ R) with ([] ++ P ++ R). rewrite bs_write_mid by (cbn; auto). reflexivity.
Qed.

Lemma pad_keep (A Sp : bytes) n :
  lenN A <= n -> exists S', pad_to (A ++ Sp) n = A ++ S' /\ lenN (A ++ S') = n.
Proof.
  intros H. destruct (N.le_ge_cases (lenN (A ++ Sp)) n) as [Hc|Hc].
  - rewrite pad_to_grow by exact Hc. exists (Sp ++ zeros (n - lenN (A ++ Sp))). rewrite <- app_assoc. split; [reflexivity|].
    rewrite !lenN_app, lenN_zeros. rewrite lenN_app in Hc. lia.
  - rewrite pad_to_shrink by exact Hc. exists (firstn (N.to_nat n - length A) Sp).
    rewrite firstn_app. rewrite firstn_all2 by (unfold lenN in H; lia). split; [reflexivity|].
    rewrite lenN_app. unfold lenN in *. rewrite firstn_length. rewrite app_length in Hc. lia.
Qed.

Lemma v_insert_at_eq v off bs : v_insert_at v off bs = bs_write v (N.to_nat off) bs.
Proof. reflexivity. Qed.

(* source and destination do not overlap: copy, then zero the source *)
Lemma v_move_disjoint x from to n :
  0 < n -> (to + n <= from \/ from + n <= to) ->
  v_move x from to n =
  bs_write (bs_write x (N.to_nat to) (bs_read x (N.to_nat from) (N.to_nat n))) (N.to_nat from) (zeros n).
Proof.
  intros Hn H. unfold v_move, v_insert_at.
  destruct (N.ltb_spec from to) as [L|L].
  - f_equal. f_equal. lia.
  - destruct (N.ltb_spec to from) as [L'|L']; [|lia].
    replace (N.max (to + n) from) with from by lia. f_equal. f_equal. lia.
Qed.

(* moving C down over B (|A| = to, |A ++ B| = from) *)
Lemma v_move_down (A B C D : bytes) :
  v_move (A ++ B ++ C ++ D) (lenN (A ++ B)) (lenN A) (lenN C) =
  A ++ C ++ skipn (length C) B ++ zeros (N.min (lenN B) (lenN C)) ++ D.
Proof.
  unfold v_move, v_insert_at.
  assert (Hr : bs_read (A ++ B ++ C ++ D) (N.to_nat (lenN (A ++ B))) (N.to_nat (lenN C)) = C).
  { rewrite !to_nat_lenN. rewrite app_assoc. apply bs_read_mid; reflexivity. }
  rewrite Hr. rewrite !to_nat_lenN.
  assert (H1 : bs_write (A ++ B ++ C ++ D) (length A) C = A ++ C ++ skipn (length C) (B ++ C ++ D)) by apply bs_write_at.
  rewrite H1. rewrite lenN_app.
  destruct (N.ltb_spec (lenN A + lenN B) (lenN A)) as [L|L]; [lia|].
  destruct (N.ltb_spec (lenN A) (lenN A + lenN B)) as [L'|L'].
  - destruct (N.le_ge_cases (lenN B) (lenN C)) as [Hc|Hc].
    + (* overlap: the zeroed part is the last |B| bytes of the source *)
      replace (N.max (lenN A + lenN C) (lenN A + lenN B)) with (lenN A + lenN C) by lia.
      replace (lenN A + lenN B + lenN C - (lenN A + lenN C)) with (lenN B) by lia.
      replace (N.min (lenN B) (lenN C)) with (lenN B) by lia.
      rewrite (skipn_all2 B) by (unfold lenN in Hc; lia). cbn [app].
      (* skipn |C| (B ++ C ++ D) = W ++ D with |W| = |B| *)
      rewrite (app_assoc B C D), skipn_app.
      replace (length C - length (B ++ C))%nat with 0%nat by (rewrite app_length; lia). cbn [skipn].
      rewrite (app_assoc A C), (app_assoc (A ++ C)).
      replace (N.to_nat (lenN A + lenN C)) with (length (A ++ C)) by (rewrite app_length; unfold lenN; lia).
      rewrite <- app_assoc at 1.
      rewrite bs_write_mid; [rewrite <- !app_assoc; reflexivity|reflexivity|].
      rewrite zeros_length, skipn_length, app_length. unfold lenN in *. lia.
    + (* no overlap: the whole source is zeroed *)
      replace (N.max (lenN A + lenN C) (lenN A + lenN B)) with (lenN A + lenN B) by lia.
      replace (lenN A + lenN B + lenN C - (lenN A + lenN B)) with (lenN C) by lia.
      replace (N.min (lenN B) (lenN C)) with (lenN C) by lia.
      rewrite skipn_app. replace (length C - length B)%nat with 0%nat by (unfold lenN in Hc; lia). cbn [skipn].
      replace (N.to_nat (lenN A + lenN B)) with (length (A ++ C ++ skipn (length C) B))
        by (rewrite !app_length, skipn_length; unfold lenN in *; lia).
      replace (A ++ C ++ skipn (length C) B ++ C ++ D) with ((A ++ C ++ skipn (length C) B) ++ C ++ D)
        by (rewrite <- !app_assoc; reflexivity).
      rewrite bs_write_mid; [rewrite <- !app_assoc; reflexivity|reflexivity|].
      rewrite zeros_length. unfold lenN. lia.
  - assert (HB : B = []) by (apply lenN_0_nil; lia). subst B. cbn [app skipn length].
    rewrite skipn_app_exact by reflexivity. replace (N.min (lenN []) (lenN C)) with 0 by (unfold lenN; cbn; lia).
    rewrite skipn_nil. reflexivity.
Qed.
