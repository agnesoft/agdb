(* StoredDbOpsGraph4.v — proofs (stored database): graph.rs's removals as programs over the storage compute Graph.v's functions.
   GraphImpl::remove_edge: validate_edge, transaction, remove_from_edge, remove_to_edge (each: three reads, the head case or
   the `while` walk to the predecessor, the degree counter), free_index, commit.  GraphImpl::remove_node for a node WITHOUT
   edges (the two unlink loops run zero times).  Both lifted to the stored database, graph component only: the alias and the
   properties of the removed element are DbImpl's business.

     so_remove_edge_ok G e   what the code needs to run without an error (each a consequence of C08's wf): the slots it
                             visits are inside the arrays, the walks end within `capacity` rounds, the decremented degree
                             counters stay i64 values *)
From Agdb Require Import Bytes Graph GraphArr DbModel StorageSpec Collections CollWp CollVecBase CollElems CollGraph StoredDbRep
  StoredDbFrame StoredDbOps StoredDbOpsGraph StoredDbOpsGraph2 StoredDbOpsDb.
From Coq Require Import ZifyBool ZifyNat ZifyN.
Ltac Zify.zify_post_hook ::= Z.div_mod_to_equations.
Open Scope N_scope.

Definition so_unlink (g : cg_data) (f fm : cg_field) (index : Z) : cprog unit :=
  fi <~ cg_get g f index ;;
  let node_index := (- fi)%Z in
  ff <~ cg_get g f node_index ;;
  let first_index := (- ff)%Z in
  next <~ cg_get g fm index ;;
  (if (first_index =? index)%Z then cg_set g f node_index next
   else previous <~ so_find_prev g fm (N.to_nat (cg_capacity g)) first_index (- index) ;;
        cg_set g fm previous next) ;;~
  count <~ cg_get g fm node_index ;;
  cg_set g fm node_index (count - 1).

Lemma so_remove_from_edge_unlink g index : so_remove_from_edge g index = so_unlink g GfFrom GfFromMeta index.
Proof. reflexivity. Qed.
Lemma so_remove_to_edge_unlink g index : so_remove_to_edge g index = so_unlink g GfTo GfToMeta index.
Proof. reflexivity. Qed.

Definition g_unlink (G : graph) (f fm : cg_field) (index : Z) : option graph :=
  let node_index := (- get (garr G f) index)%Z in
  let first_index := (- get (garr G f) node_index)%Z in
  let next := get (garr G fm) index in
  let og :=
    if (first_index =? index)%Z then Some (gset G f node_index next)
    else match find_prev (fun p => get (garr G fm) p) (length (g_from G)) first_index (- index) with
         | Some previous => Some (gset G fm previous next)
         | None => None
         end in
  match og with
  | Some g1 => let count := get (garr g1 fm) node_index in Some (gset g1 fm node_index (count - 1))
  | None => None
  end.

Lemma remove_from_edge_unlink G index : remove_from_edge G index = g_unlink G GfFrom GfFromMeta index.
Proof. reflexivity. Qed.
Lemma remove_to_edge_unlink G index : remove_to_edge G index = g_unlink G GfTo GfToMeta index.
Proof. reflexivity. Qed.

Fixpoint prev_ok (next : Z -> Z) (n : nat) (fuel : nat) (previous target : Z) : Prop :=
  match fuel with
  | O => True
  | S k => (zabs_nat previous < n)%nat /\ ((next previous =? target)%Z = false -> prev_ok next n k (next previous) target)
  end.

Lemma find_prev_range next n : forall fuel previous target p,
  prev_ok next n fuel previous target -> find_prev next fuel previous target = Some p -> (zabs_nat p < n)%nat.
Proof.
  induction fuel as [|k IH]; intros previous target p Hok E; cbn [find_prev prev_ok] in *; [discriminate|].
  destruct Hok as [Hr Hn]. destruct (next previous =? target)%Z eqn:Eq.
  - injection E as <-. exact Hr.
  - eapply IH; [apply Hn; reflexivity|exact E].
Qed.

Definition unlink_ok (G : graph) (n : nat) (f fm : cg_field) (index : Z) : Prop :=
  let node_index := (- get (garr G f) index)%Z in
  let first_index := (- get (garr G f) node_index)%Z in
  (zabs_nat index < n)%nat /\ (zabs_nat node_index < n)%nat /\
  ((first_index =? index)%Z = false ->
     prev_ok (fun p => get (garr G fm) p) n (length (g_from G)) first_index (- index) /\
     find_prev (fun p => get (garr G fm) p) (length (g_from G)) first_index (- index) <> None) /\
  (forall G', g_unlink G f fm index = Some G' -> i64_range (get (garr G' fm) node_index)).

Lemma free_index_tmeta0 G index : (0 < zabs_nat index)%nat -> tmeta (Graph.free_index G index) 0 = tmeta G 0.
Proof.
  intros Hi. unfold Graph.free_index, tmeta. cbn [set_tmeta set_to set_from set_fmeta g_tmeta]. rewrite get_set.
  destruct (Z.eqb_spec (Z.abs index) (Z.abs 0)) as [E|_]; [unfold zabs_nat in Hi; lia|reflexivity].
Qed.

(* the unlink loops of remove_node on a node without edges *)
Lemma so_remove_from_edges_0 fuel g : so_remove_from_edges fuel g 0 = CRet tt.
Proof. destruct fuel; reflexivity. Qed.
Lemma so_remove_to_edges_0 fuel g : so_remove_to_edges fuel g 0 = CRet tt.
Proof. destruct fuel; reflexivity. Qed.
Lemma remove_from_edges_0 fuel G : remove_from_edges fuel G 0 = Some G.
Proof. destruct fuel; reflexivity. Qed.
Lemma remove_to_edges_0 fuel G : remove_to_edges fuel G 0 = Some G.
Proof. destruct fuel; reflexivity. Qed.

Section EdgeRemoval.
  Variable fl : bool.

  Lemma so_free_index_spec g0 d s0 n dep G index sp (Q : cres unit -> spec -> Prop) :
    gst g0 d s0 n dep G sp -> (zabs_nat index < n)%nat -> (1 <= n)%nat -> (Z.of_nat n <= 1152921504606846976)%Z ->
    (forall sp', gst g0 d s0 n dep (Graph.free_index G index) sp' -> Q (CrOk tt) sp') ->
    cwp fl (so_free_index d index) sp Q.
  Proof.
    intros S Hi Hn Hcap HQ. unfold so_free_index.
    assert (Z0 : i64_range 0%Z) by (unfold i64_range; lia).
    apply cwp_bind. eapply (gst_get fl _ _ _ _ _ G GfFromMeta 0%Z); [exact S|cbn; lia|]. cbn [kont].
    apply cwp_bind. eapply gst_set; [exact S|eapply gst_range; exact S|exact Hi|]. intros sp1 S1. cbn [kont].
    apply cwp_bind. eapply gst_set; [exact S1|exact (slot_neg_i64 _ _ Hi Hcap)|cbn; lia|]. intros sp2 S2. cbn [kont].
    apply cwp_bind. eapply gst_set; [exact S2|exact Z0|exact Hi|]. intros sp3 S3. cbn [kont].
    apply cwp_bind. eapply gst_set; [exact S3|exact Z0|exact Hi|]. intros sp4 S4. cbn [kont].
    eapply gst_set; [exact S4|exact Z0|exact Hi|exact HQ].
  Qed.

  Lemma so_find_prev_spec g0 d s0 n dep G fm sp : gst g0 d s0 n dep G sp ->
    forall fuel previous target (Q : cres Z -> spec -> Prop),
      prev_ok (fun p => get (garr G fm) p) n fuel previous target ->
      match find_prev (fun p => get (garr G fm) p) fuel previous target with
      | Some p => Q (CrOk p) sp
      | None => Q (CrErr CvData) sp
      end ->
      cwp fl (so_find_prev d fm fuel previous target) sp Q.
  Proof.
    intros S. induction fuel as [|k IH]; intros previous target Q Hok HQ; cbn [so_find_prev find_prev prev_ok] in *; [exact HQ|].
    destruct Hok as [Hr Hn].
    apply cwp_bind. eapply gst_get; [exact S|exact Hr|]. cbn [kont].
    destruct (get (garr G fm) previous =? target)%Z eqn:Eq; [cbn [cwp]; exact HQ|].
    apply cwp_bind. eapply gst_get; [exact S|exact Hr|]. cbn [kont].
    apply IH; [apply Hn; reflexivity|exact HQ].
  Qed.

  Lemma so_unlink_spec g0 d s0 n dep G f fm index sp (Q : cres unit -> spec -> Prop) :
    gst g0 d s0 n dep G sp -> n = length (g_from G) -> unlink_ok G n f fm index ->
    (forall G' sp', g_unlink G f fm index = Some G' -> gst g0 d s0 n dep G' sp' -> Q (CrOk tt) sp') ->
    cwp fl (so_unlink d f fm index) sp Q.
  Proof.
    intros S En (Hi & Hnode & Hwalk & Hcnt) HQ. unfold so_unlink. unfold g_unlink in HQ, Hcnt.
    set (node_index := (- get (garr G f) index)%Z) in *.
    set (first_index := (- get (garr G f) node_index)%Z) in *.
    set (next := get (garr G fm) index) in *.
    assert (Hnext : i64_range next) by (eapply gst_range; exact S).
    apply cwp_bind. eapply gst_get; [exact S|exact Hi|]. cbn [kont]. fold node_index.
    apply cwp_bind. eapply gst_get; [exact S|exact Hnode|]. cbn [kont]. fold first_index.
    apply cwp_bind. eapply gst_get; [exact S|exact Hi|]. cbn [kont]. fold next.
    (* after the list is relinked (state G1): the degree counter *)
    assert (Tail : forall G1 sp1, gst g0 d s0 n dep G1 sp1 ->
              (forall G', Some (gset G1 fm node_index (get (garr G1 fm) node_index - 1)) = Some G' -> i64_range (get (garr G' fm) node_index)) ->
              (forall sp', gst g0 d s0 n dep (gset G1 fm node_index (get (garr G1 fm) node_index - 1)) sp' -> Q (CrOk tt) sp') ->
              cwp fl (count <~ cg_get d fm node_index ;; cg_set d fm node_index (count - 1)) sp1 Q).
    { intros G1 sp1 S1 Hc HQ1. specialize (Hc _ eq_refl). rewrite (get_gset_same G1 _ fm node_index _ (proj1 S1) Hnode) in Hc.
      apply cwp_bind. eapply gst_get; [exact S1|exact Hnode|]. cbn [kont].
      eapply gst_set; [exact S1|exact Hc|exact Hnode|exact HQ1]. }
    apply cwp_bind. destruct (first_index =? index)%Z eqn:Eh.
    - eapply gst_set; [exact S|exact Hnext|exact Hnode|]. intros sp1 S1. cbn [kont].
      apply (Tail _ sp1 S1 Hcnt). intros sp' S'. exact (HQ _ sp' eq_refl S').
    - destruct (Hwalk eq_refl) as [Hok Hsome].
      apply cwp_bind. replace (N.to_nat (cg_capacity d)) with (length (g_from G)) by (rewrite (gst_capacity _ _ _ _ _ _ _ S); symmetry; exact En).
      eapply so_find_prev_spec; [exact S|exact Hok|].
      destruct (find_prev (fun p => get (garr G fm) p) (length (g_from G)) first_index (- index)) as [previous|] eqn:Ep; [|contradiction].
      cbn [kont]. pose proof (find_prev_range _ _ _ _ _ _ Hok Ep) as Hp.
      eapply gst_set; [exact S|exact Hnext|exact Hp|]. intros sp1 S1. cbn [kont].
      apply (Tail _ sp1 S1 Hcnt). intros sp' S'. exact (HQ _ sp' eq_refl S').
  Qed.

  Definition so_remove_edge_ok (G : graph) (e : Z) : Prop :=
    is_edge G e = true ->
    unlink_ok G (length (g_from G)) GfFrom GfFromMeta e /\
    (forall G1, remove_from_edge G e = Some G1 -> unlink_ok G1 (length (g_from G)) GfTo GfToMeta e).

  (* GraphImpl::remove_edge *)
  Theorem so_graph_remove_edge_spec d s G e sp (Q : cres unit -> spec -> Prop) :
    grep (hp sp) d s (sd_arrays G) -> so_graph_ok G -> so_remove_edge_ok G e ->
    (forall G', Graph.remove_edge G e = Some G' ->
       forall s' sp', grep (hp sp') d s' (sd_arrays G') -> sdepth sp' = sdepth sp ->
         frame (hp sp) (hp sp') (gfoot d s) (gfoot d s') -> Q (CrOk tt) sp') ->
    cwp fl (so_graph_remove_edge d e) sp Q.
  Proof.
    intros H OK Hok HQ. pose proof (glen_of_ok G OK) as HL. pose proof OK as [_ _ _ Lpos Lcap _ _].
    unfold so_graph_remove_edge, Graph.remove_edge in *.
    apply cwp_bind. eapply so_validate_edge_spec; [exact H|exact OK|]. cbn [kont].
    destruct (is_edge G e) eqn:Ne; cbn [negb].
    2:{ cbn [cwp]. eapply (HQ G eq_refl s sp); [exact H|reflexivity|apply frame_refl; intros j; reflexivity]. }
    destruct (Hok Ne) as [U1 U2]. pose proof U1 as (Hi & _).
    apply cwp_bind. apply hwp_transaction. intros sp0 Hm0 Hd0. cbn [kont].
    pose proof (gst_init_heq d s _ G sp sp0 H HL Hm0) as S0.
    apply cwp_bind. rewrite so_remove_from_edge_unlink.
    eapply so_unlink_spec; [exact S0|reflexivity|exact U1|].
    intros G1 sp1 E1 S1. cbn [kont]. rewrite <- remove_from_edge_unlink in E1. rewrite E1 in HQ.
    apply cwp_bind. rewrite so_remove_to_edge_unlink.
    eapply so_unlink_spec; [exact S1|symmetry; apply (proj1 S1 GfFrom)|apply U2; exact E1|].
    intros G2 sp2 E2 S2. cbn [kont]. rewrite <- remove_to_edge_unlink in E2. rewrite E2 in HQ.
    apply cwp_bind.
    eapply so_free_index_spec; [exact S2|rewrite zabs_opp; exact Hi|exact Lpos|lia|].
    intros sp3 (_ & D3 & s3 & H3 & F3). cbn [kont].
    apply hwp_commit; [lia|lia|]. intros sp4 Hm4 Hd4.
    eapply (HQ _ eq_refl s3 sp4); [eapply grep_heq; [exact H3|exact Hm4]|lia|].
    eapply frame_trans; [exact F3|apply frame_refl; exact Hm4].
  Qed.

  (* lifted to the stored database: the graph component only (the edge's properties are DbImpl's business) *)
  Theorem so_remove_edge_stored root d w h e sp (Q : cres unit -> spec -> Prop) :
    stored_db_w (hp sp) root d w -> so_handles h w -> so_graph_ok (gr d) -> so_remove_edge_ok (gr d) e ->
    (forall G', Graph.remove_edge (gr d) e = Some G' ->
       forall s' sp', stored_db_w (hp sp') root (with_gr d G') (sd_with_graph w (sw_g w) s') -> sdepth sp' = sdepth sp ->
         frame (hp sp) (hp sp') (sd_foot root w) (sd_foot root (sd_with_graph w (sw_g w) s')) -> Q (CrOk tt) sp') ->
    cwp fl (so_graph_remove_edge (so_graph h) e) sp Q.
  Proof.
    intros H [Hh1 _] OK Hok HQ. rewrite Hh1.
    eapply so_graph_remove_edge_spec; [exact (sr_graph _ _ _ _ H)|exact OK|exact Hok|].
    intros G' EG s' sp' HG Hd Hf.
    destruct (sd_graph_update _ _ root d w (sw_g w) s' G' H eq_refl HG Hf) as [H' F'].
    exact (HQ G' EG s' sp' H' Hd F').
  Qed.
  (* GraphImpl::remove_node on a node without edges (or an invalid index: no-op) *)
  Theorem so_graph_remove_isolated_node_spec d s G index sp (Q : cres unit -> spec -> Prop) :
    grep (hp sp) d s (sd_arrays G) -> so_graph_ok G ->
    (is_node G index = true -> from G index = 0%Z /\ to G index = 0%Z /\ (1 <= tmeta G 0)%Z) ->
    (forall G', remove_node G index = Some G' ->
       forall s' sp', grep (hp sp') d s' (sd_arrays G') -> sdepth sp' = sdepth sp ->
         frame (hp sp) (hp sp') (gfoot d s) (gfoot d s') -> Q (CrOk tt) sp') ->
    cwp fl (so_graph_remove_node d index) sp Q.
  Proof.
    intros H OK Hiso HQ. pose proof (glen_of_ok G OK) as HL. pose proof OK as [_ _ _ Lpos Lcap _ Lcnt].
    unfold so_graph_remove_node, remove_node in *.
    apply cwp_bind. eapply so_validate_node_spec; [exact H|exact OK|]. cbn [kont].
    destruct (is_node G index) eqn:Nn; cbn [negb].
    2:{ cbn [cwp]. eapply (HQ G eq_refl s sp); [exact H|reflexivity|apply frame_refl; intros j; reflexivity]. }
    destruct (Hiso eq_refl) as (Ef & Et & Hc). pose proof (is_node_range _ _ Nn) as Hr.
    assert (Hnz : (0 < zabs_nat index)%nat).
    { unfold is_node, valid_index in Nn. destruct (Z.eqb_spec index 0) as [->|X]; [discriminate Nn|]. unfold zabs_nat. lia. }
    rewrite Ef in HQ. change (- 0)%Z with 0%Z in HQ. rewrite remove_from_edges_0, Et in HQ.
    change (- 0)%Z with 0%Z in HQ. rewrite remove_to_edges_0 in HQ.
    unfold node_count in HQ. rewrite (free_index_tmeta0 G index Hnz) in HQ.
    apply cwp_bind. apply hwp_transaction. intros sp0 Hm0 Hd0. cbn [kont].
    pose proof (gst_init_heq d s _ G sp sp0 H HL Hm0) as S0.
    apply cwp_bind. eapply (gst_get fl _ _ _ _ _ G GfFrom); [exact S0|exact Hr|]. cbn [kont].
    change (get (garr G GfFrom) index) with (from G index). rewrite Ef. change (- 0)%Z with 0%Z.
    rewrite so_remove_from_edges_0. cbn [cbind cwp kont].
    apply cwp_bind. eapply (gst_get fl _ _ _ _ _ G GfTo); [exact S0|exact Hr|]. cbn [kont].
    change (get (garr G GfTo) index) with (to G index). rewrite Et. change (- 0)%Z with 0%Z.
    rewrite so_remove_to_edges_0. cbn [cbind cwp kont].
    apply cwp_bind. eapply so_free_index_spec; [exact S0|exact Hr|exact Lpos|lia|]. intros sp1 S1. cbn [kont].
    (* node_count, set_node_count(count - 1) *)
    apply cwp_bind. apply cwp_bind. eapply (gst_get fl _ _ _ _ _ _ GfToMeta 0%Z); [exact S1|cbn; lia|]. cbn [kont cwp].
    change (get (garr (Graph.free_index G index) GfToMeta) 0) with (tmeta (Graph.free_index G index) 0).
    rewrite (free_index_tmeta0 G index Hnz).
    apply cwp_bind. unfold cg_set_node_count. rewrite u2z_z2u_pred by lia.
    eapply (gst_set fl _ _ _ _ _ _ GfToMeta 0%Z); [exact S1|unfold i64_range; lia|cbn; lia|].
    intros sp2 (_ & D2 & s2 & H2 & F2). cbn [kont].
    apply hwp_commit; [lia|lia|]. intros sp3 Hm3 Hd3.
    eapply (HQ _ eq_refl s2 sp3); [eapply grep_heq; [exact H2|exact Hm3]|lia|].
    eapply frame_trans; [exact F2|apply frame_refl; exact Hm3].
  Qed.

  (* lifted to the stored database: the graph component only *)
  Theorem so_remove_isolated_node_stored root d w h index sp (Q : cres unit -> spec -> Prop) :
    stored_db_w (hp sp) root d w -> so_handles h w -> so_graph_ok (gr d) ->
    (is_node (gr d) index = true -> from (gr d) index = 0%Z /\ to (gr d) index = 0%Z /\ (1 <= tmeta (gr d) 0)%Z) ->
    (forall G', remove_node (gr d) index = Some G' ->
       forall s' sp', stored_db_w (hp sp') root (with_gr d G') (sd_with_graph w (sw_g w) s') -> sdepth sp' = sdepth sp ->
         frame (hp sp) (hp sp') (sd_foot root w) (sd_foot root (sd_with_graph w (sw_g w) s')) -> Q (CrOk tt) sp') ->
    cwp fl (so_graph_remove_node (so_graph h) index) sp Q.
  Proof.
    intros H [Hh1 _] OK Hiso HQ. rewrite Hh1.
    eapply so_graph_remove_isolated_node_spec; [exact (sr_graph _ _ _ _ H)|exact OK|exact Hiso|].
    intros G' EG s' sp' HG Hd Hf.
    destruct (sd_graph_update _ _ root d w (sw_g w) s' G' H eq_refl HG Hf) as [H' F'].
    exact (HQ G' EG s' sp' H' Hd F').
  Qed.
End EdgeRemoval.
