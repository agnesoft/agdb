(* CollElems.v — proofs (collections): the element classes of vec.rs / map.rs meet
   `elem_law`: u64 (StorageIndex), i64 (DbId), an inline element of n raw bytes
   (DbValueIndex with an inline value, DbIndexStorageIndex), MapValueState, and String — the
   one class whose slot (the 8-byte index) owns another record (le64 len ++ utf8 bytes). *)
From Agdb Require Import Bytes BytesProofs Utf8 Storage StorageSpec StorageLayout Collections CollWp
  CollBytes CollVecBase CollVecOps.
From Coq Require Import ZifyBool ZifyNat ZifyN.
Open Scope N_scope.

Lemma de64_le64 x : x < two64 -> de (firstn 8 (le64 x)) = x.
Proof. intros H. rewrite firstn_all2 by (rewrite le64_length; lia). apply de_le64. exact H. Qed.

Lemma cp_de64_le64 x : x < two64 -> cp_de64 (le64 x) = CRet x.
Proof.
  intros H. unfold cp_de64. rewrite lenN_le64. replace (8 <? 8) with false by reflexivity.
  rewrite de64_le64 by exact H. reflexivity.
Qed.

(* an inline class: the slot is a function of the value, owns nothing *)
Section Inline.
  Variable T : Type.
  Variable E : cv_elem T.
  Variable valid : T -> Prop.
  Variable enc : T -> bytes.
  Hypothesis Hsize : 0 < ce_size E.
  Hypothesis Hlen : forall x, valid x -> lenN (enc x) = ce_size E.
  Hypothesis Hstore : forall x, ce_store E x = CRet (enc x).
  Hypothesis Hload : forall x, valid x -> ce_load E (enc x) = CRet x.
  Hypothesis Hremove : forall bs, ce_remove E bs = CRet tt.

  Definition inline_law : elem_law E.
  Proof.
    refine {| el_valid := valid; el_rep := fun _ bs x => bs = enc x /\ valid x; el_own := fun _ => [] |}.
    - exact Hsize.
    - intros g bs x [-> Hv]. apply Hlen. exact Hv.
    - intros g bs x j _ [].
    - intros. constructor.
    - intros g g' bs x H _. exact H.
    - intros fl x sp Q Hv HQ. rewrite Hstore. cbn [cwp]. apply HQ; auto. intros j [].
    - intros fl bs x sp Q [-> Hv] HQ. rewrite Hload by exact Hv. exact HQ.
    - intros fl bs x sp Q _ HQ. rewrite Hremove. cbn [cwp]. apply HQ; auto. intros j [].
  Defined.
End Inline.

Definition law_u64 : elem_law ce_u64.
Proof.
  apply (inline_law N ce_u64 (fun x => x < two64) le64).
  - cbn. lia.
  - intros x _. apply lenN_le64.
  - reflexivity.
  - intros x Hx. cbn [ce_load ce_u64]. apply cp_de64_le64. exact Hx.
  - reflexivity.
Defined.

Definition i64_range (z : Z) : Prop := (- 9223372036854775808 <= z < 9223372036854775808)%Z.

Definition law_i64 : elem_law ce_i64.
Proof.
  apply (inline_law Z ce_i64 i64_range (fun z => le64 (z2u z))).
  - cbn. lia.
  - intros x _. apply lenN_le64.
  - reflexivity.
  - intros x Hx. cbn [ce_load ce_i64]. rewrite cp_de64_le64 by apply z2u_lt. cbn [cbind]. rewrite u2z_z2u by exact Hx. reflexivity.
  - reflexivity.
Defined.

Definition law_raw (n : N) (Hn : 0 < n) : elem_law (ce_raw n).
Proof.
  apply (inline_law bytes (ce_raw n) (fun b => lenN b = n) (fun b => b)).
  - exact Hn.
  - intros x Hx. exact Hx.
  - reflexivity.
  - intros x Hx. cbn [ce_load ce_raw]. destruct (N.ltb_spec (lenN x) n); [lia|].
    rewrite firstn_all2 by (unfold lenN in Hx; lia). reflexivity.
  - reflexivity.
Defined.

Definition law_state : elem_law ce_state.
Proof.
  apply (inline_law cm_st ce_state (fun _ => True) cm_state_ser).
  - cbn. lia.
  - intros [] _; reflexivity.
  - reflexivity.
  - intros [] _; reflexivity.
  - reflexivity.
Defined.

Definition str_valid (s : bytes) : Prop := utf8_valid s = true /\ 8 + lenN s < two64.
Definition str_rep (g : heap) (bs : bytes) (s : bytes) : Prop :=
  exists i, bs = le64 i /\ i < two64 /\ g i = Some (cv_str_ser s) /\ str_valid s.
Definition str_own (bs : bytes) : list N := [de (firstn 8 bs)].

Lemma str_de_ser fl s sp (Q : cres bytes -> spec -> Prop) :
  str_valid s -> Q (CrOk s) sp -> cwp fl (cv_str_de (cv_str_ser s)) sp Q.
Proof.
  intros [Hu Hl] HQ. unfold cv_str_de, cv_str_ser.
  apply cwp_bind. apply cwp_de64; [rewrite lenN_app, lenN_le64; lia|]. cbn [kont].
  rewrite firstn_app_exact by (rewrite le64_length; reflexivity).
  assert (Hlt : lenN s < two64) by lia. rewrite (de_le64 _ Hlt).
  destruct (N.leb_spec two64 (8 + lenN s)); [lia|].
  rewrite lenN_app, lenN_le64. destruct (N.ltb_spec (8 + lenN s) (8 + lenN s)); [lia|].
  rewrite skipn_app_exact by (rewrite le64_length; reflexivity).
  rewrite firstn_all2 by (unfold lenN; lia). rewrite Hu. exact HQ.
Qed.

Definition law_string : elem_law ce_string.
Proof.
  refine {| el_valid := str_valid; el_rep := str_rep; el_own := str_own |}.
  - cbn. lia.
  - intros g bs s (i & -> & _). apply lenN_le64.
  - intros g bs s j (i & -> & Hi & Hg & _) [<-|[]]. unfold str_own in *. rewrite de64_le64 by exact Hi. congruence.
  - intros. unfold str_own. constructor; [intros []|constructor].
  - intros g g' bs s (i & -> & Hi & Hg & Hv) Hsame. exists i. split; [reflexivity|]. split; [exact Hi|]. split; [|exact Hv].
    rewrite Hsame; [exact Hg|]. unfold str_own. rewrite de64_le64 by exact Hi. left; reflexivity.
  - intros fl s sp Q Hv HQ. cbn [ce_store ce_string]. apply cwp_bind. apply hwp_insert.
    intros i sp' Hi Hlt Hn Hm Hd. cbn [kont cwp].
    apply HQ; [|exact Hd| |].
    + exists i. split; [reflexivity|]. split; [exact Hlt|]. split; [|exact Hv]. rewrite Hm. apply hupd_same.
    + unfold str_own; rewrite de64_le64 by exact Hlt. intros j [<-|[]]. exact Hn.
    + unfold str_own; rewrite de64_le64 by exact Hlt. intros j Hj. rewrite Hm. apply hupd_other. intros ->. apply Hj. left; reflexivity.
  - intros fl bs s sp Q (i & -> & Hi & Hg & Hv) HQ. cbn [ce_load ce_string].
    apply cwp_bind. apply cwp_de64; [rewrite lenN_le64; lia|]. cbn [kont]. rewrite de64_le64 by exact Hi.
    apply cwp_bind. eapply cwp_value; [exact Hg|]. cbn [kont]. apply str_de_ser; assumption.
  - intros fl bs s sp Q (i & -> & Hi & Hg & Hv) HQ. cbn [ce_remove ce_string].
    apply cwp_bind. apply cwp_de64; [rewrite lenN_le64; lia|]. cbn [kont]. rewrite de64_le64 by exact Hi.
    eapply hwp_remove; [exact Hg|]. intros sp' Hm Hd.
    apply HQ; [exact Hd| |]; unfold str_own; rewrite de64_le64 by exact Hi.
    + intros j [<-|[]]. rewrite Hm. unfold hdel. rewrite N.eqb_refl. reflexivity.
    + intros j Hj. rewrite Hm. unfold hdel. destruct (N.eqb_spec i j); [subst; exfalso; apply Hj; left; reflexivity|reflexivity].
Defined.
