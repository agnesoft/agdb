(* AssocProofs.v — lookup / removal / insertion facts about the association lists of DbModel.v
   (used by the alias map, C10). *)
From Agdb Require Import Bytes DbModel.
Open Scope Z_scope.

Section AssocFacts.
  Context {K V : Type} (keqb : K -> K -> bool).
  Hypothesis keqb_eq : forall a b, keqb a b = true <-> a = b.

  Lemma keqb_refl a : keqb a a = true.
  Proof. now apply keqb_eq. Qed.

  Lemma keqb_spec a b : reflect (a = b) (keqb a b).
  Proof.
    destruct (keqb a b) eqn:E; constructor.
    - now apply keqb_eq.
    - intros ->. rewrite keqb_refl in E. discriminate.
  Qed.

  Lemma alookup_aremove (m : list (K * V)) k k' :
    alookup keqb (aremove keqb m k) k' = if keqb k k' then None else alookup keqb m k'.
  Proof.
    induction m as [|[k0 v0] m IH]; cbn [alookup aremove].
    - now destruct (keqb k k').
    - destruct (keqb_spec k0 k) as [->|Hne].
      + rewrite IH. destruct (keqb_spec k k'); reflexivity.
      + cbn [alookup]. rewrite IH.
        destruct (keqb_spec k0 k') as [->|Hne'].
        * destruct (keqb_spec k k') as [->|]; [contradiction|reflexivity].
        * reflexivity.
  Qed.

  Lemma alookup_app1 (m : list (K * V)) k v k' :
    alookup keqb (m ++ [(k, v)]) k' =
    match alookup keqb m k' with
    | Some x => Some x
    | None => if keqb k k' then Some v else None
    end.
  Proof.
    induction m as [|[k0 v0] m IH]; cbn [alookup app].
    - reflexivity.
    - destruct (keqb k0 k'); [reflexivity|apply IH].
  Qed.

  Lemma alookup_ainsert (m : list (K * V)) k v k' :
    alookup keqb (snd (ainsert keqb m k v)) k' = if keqb k k' then Some v else alookup keqb m k'.
  Proof.
    unfold ainsert. cbn [snd]. rewrite alookup_app1, alookup_aremove.
    destruct (keqb k k'); [reflexivity|]. now destruct (alookup keqb m k').
  Qed.

  Lemma in_aremove (m : list (K * V)) k k' v :
    In (k', v) (aremove keqb m k) -> In (k', v) m /\ k' <> k.
  Proof.
    induction m as [|[k0 v0] m IH]; cbn [aremove]; [intros []|].
    destruct (keqb_spec k0 k) as [->|Hne].
    - intros H. apply IH in H. split; [right|]; tauto.
    - intros [H|H].
      + inversion H; subst. split; [now left|assumption].
      + apply IH in H. split; [right|]; tauto.
  Qed.

  Lemma in_keys_aremove (m : list (K * V)) k k' :
    In k' (map fst (aremove keqb m k)) -> In k' (map fst m) /\ k' <> k.
  Proof.
    intros H. apply in_map_iff in H. destruct H as [[k1 v1] [E H]]. cbn in E. subst k1.
    apply in_aremove in H. split; [|tauto]. apply in_map_iff. exists (k', v1). tauto.
  Qed.

  Lemma nodup_aremove (m : list (K * V)) k :
    NoDup (map fst m) -> NoDup (map fst (aremove keqb m k)).
  Proof.
    induction m as [|[k0 v0] m IH]; cbn [aremove map fst]; [trivial|].
    intros H. inversion H as [|? ? Hni Hnd]; subst.
    destruct (keqb k0 k); [now apply IH|].
    cbn [map fst]. constructor; [|now apply IH].
    intros Hin. apply in_keys_aremove in Hin. tauto.
  Qed.

  Lemma nodup_snoc {A} (l : list A) (x : A) : NoDup l -> ~ In x l -> NoDup (l ++ [x]).
  Proof.
    induction l as [|y l IH]; cbn [app]; intros Hnd Hni.
    - constructor; [intros []|constructor].
    - inversion Hnd as [|? ? Hy Hl]; subst. constructor.
      + rewrite in_app_iff. cbn [In]. intros [H|[H|[]]]; [tauto|].
        subst. apply Hni. now left.
      + apply IH; [assumption|]. intros H. apply Hni. now right.
  Qed.

  Lemma nodup_ainsert (m : list (K * V)) k v :
    NoDup (map fst m) -> NoDup (map fst (snd (ainsert keqb m k v))).
  Proof.
    intros H. unfold ainsert. cbn [snd]. rewrite map_app. cbn [map fst].
    apply nodup_snoc; [now apply nodup_aremove|].
    intros Hin. apply in_keys_aremove in Hin. tauto.
  Qed.

  Lemma alookup_in (m : list (K * V)) k v : alookup keqb m k = Some v -> In (k, v) m.
  Proof.
    induction m as [|[k0 v0] m IH]; cbn [alookup]; [discriminate|].
    destruct (keqb_spec k0 k) as [->|Hne].
    - intros H. inversion H. now left.
    - intros H. right. now apply IH.
  Qed.

  Lemma in_alookup (m : list (K * V)) k v :
    NoDup (map fst m) -> In (k, v) m -> alookup keqb m k = Some v.
  Proof.
    induction m as [|[k0 v0] m IH]; cbn [alookup map fst]; [intros _ []|].
    intros Hnd [H|H].
    - inversion H; subst. now rewrite keqb_refl.
    - inversion Hnd as [|? ? Hni Hnd']; subst.
      destruct (keqb_spec k0 k) as [->|Hne].
      + exfalso. apply Hni. apply in_map_iff. exists (k, v). tauto.
      + now apply IH.
  Qed.
End AssocFacts.
