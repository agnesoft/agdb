(* GraphSpec.v — read side of the graph (adjacency iterators, degree counts, element
   iteration), the abstract multigraph specification as an acceptor, and the lifting of the
   simulation to all histories of operations. *)
From Agdb Require Import Bytes Graph GraphArr GraphSim GraphOps GraphProofs GraphRemove.
From Coq Require Import Sorted.
From Coq Require Import ZifyBool ZifyNat ZifyN.
Ltac Zify.zify_post_hook ::= Z.div_mod_to_equations.
Open Scope Z_scope.

(* edge ids are the negated slots *)
Definition a_edge_ids (a : agraph) : list Z := map (fun x => - eslot x) (a_edges a).
(* out- / in-adjacency of a node, newest edge first, as edge ids; a self-loop is in both *)
Definition a_out (a : agraph) (n : Z) : list Z := map Z.opp (adj esrc (a_edges a) n).
Definition a_in (a : agraph) (n : Z) : list Z := map Z.opp (adj etgt (a_edges a) n).
Lemma in_adj_ids key E n e :
  In e (map Z.opp (adj key E n)) <-> exists x, In x E /\ e = - eslot x /\ key x = n.
Proof.
  rewrite in_map_iff. split.
  - intros [s [<- Hs]]. apply in_adj in Hs. destruct Hs as [x [Hx [<- Hk]]]. exists x. auto.
  - intros [x [Hx [-> Hk]]]. exists (eslot x). split; [reflexivity|]. apply in_adj. exists x. auto.
Qed.

(* endpoints of the edge with id e *)
Definition a_edge (a : agraph) (e : Z) : option (Z * Z) :=
  match find (fun x => eslot x =? - e) (a_edges a) with Some x => Some (snd x) | None => None end.

Section Read.
  Variables (g : graph) (a : agraph) (fl : list Z).
  Hypothesis HS : sim g a fl.

  Let R := proj2 HS.
  Let B := r_base _ _ _ _ _ _ _ _ _ _ _ _ _ R.

  Lemma sim_node_count : node_count g = Z.of_nat (length (a_nodes a)).
  Proof. apply (node_count_spec HS). Qed.

  Lemma sim_nodes_pos n : In n (a_nodes a) -> 0 < n < capacity g.
  Proof. apply (rsim_node_range HS). Qed.

  Lemma sim_edges_pos x : In x (a_edges a) -> 0 < eslot x < capacity g.
  Proof. apply (rsim_slot_range HS). Qed.

  Lemma sim_nodes_nodup : NoDup (a_nodes a).
  Proof. apply (b_nodes_nodup _ _ _ B). Qed.

  Lemma sim_edges_nodup : NoDup (map eslot (a_edges a)).
  Proof. apply (rsim_slots_nodup HS). Qed.

  Lemma sim_disjoint n : In n (a_nodes a) -> ~ In n (map eslot (a_edges a)).
  Proof. apply (b_disj _ _ _ B). Qed.

  Lemma sim_ends x : In x (a_edges a) -> In (esrc x) (a_nodes a) /\ In (etgt x) (a_nodes a).
  Proof. apply (rsim_ends HS). Qed.

  Lemma sim_graph_index i :
    graph_index g i = true <-> (0 < i /\ In i (a_nodes a)) \/ (i < 0 /\ In (- i) (map eslot (a_edges a))).
  Proof.
    unfold graph_index.
    destruct (Z.ltb_spec i 0) as [Hi|Hi].
    - rewrite (is_edge_iff _ _ _ _ _ _ _ _ _ HS). rewrite Z.abs_neq by lia. split; [intros; right; auto|].
      intros [[H _]|[_ H]]; [lia|assumption].
    - destruct (Z.ltb_spec 0 i) as [Hp|Hp].
      + rewrite (is_node_iff _ _ _ _ _ _ _ _ _ HS). rewrite Z.abs_eq by lia. split; [intros; left; auto|].
        intros [[_ H]|[H _]]; [assumption|lia].
      + split; [discriminate|]. intros [[H _]|[H _]]; lia.
  Qed.

  (* the edge iterator walks the whole list of a node: the fuel (the capacity) exceeds the
     number of edge slots *)
  Lemma sim_edge_list key (M : Z -> Z) h n :
    (forall z, M (- z) = M z) -> chain M h (adj key (a_edges a) n) ->
    edge_list (fun e => - M e) (length (g_from g)) (- h) = map Z.opp (adj key (a_edges a) n).
  Proof.
    intros Hev Hc. apply edge_list_chain; [exact Hev| |exact Hc|].
    - intros y Hy. apply in_adj in Hy. destruct Hy as (x & Hx & <- & _). apply (sim_edges_pos x Hx).
    - apply adj_length_le; [apply sim_edges_nodup|]. intros x Hx. apply (sim_edges_pos x Hx).
  Qed.

  Lemma sim_out_edges n :
    In n (a_nodes a) ->
    out_edges g n = a_out a n /\ edge_count_from g n = Z.of_nat (length (a_out a n)).
  Proof.
    intros Hn. destruct (h_chain _ _ _ _ _ _ _ (r_out _ _ _ _ _ _ _ _ _ _ _ _ _ R) n Hn I) as [Hc Hd].
    unfold a_out. rewrite map_length. split; [|exact Hd].
    apply (sim_edge_list esrc (fmeta g)); [apply fmeta_even|exact Hc].
  Qed.

  Lemma sim_in_edges n :
    In n (a_nodes a) ->
    in_edges g n = a_in a n /\ edge_count_to g n = Z.of_nat (length (a_in a n)).
  Proof.
    intros Hn. destruct (h_chain _ _ _ _ _ _ _ (r_in _ _ _ _ _ _ _ _ _ _ _ _ _ R) n Hn I) as [Hc Hd].
    unfold a_in. rewrite map_length. split; [|exact Hd].
    apply (sim_edge_list etgt (tmeta g)); [apply tmeta_even|exact Hc].
  Qed.

  Lemma sim_edge_ends x :
    In x (a_edges a) -> edge_from g (- eslot x) = esrc x /\ edge_to g (- eslot x) = etgt x.
  Proof. apply (edge_ends _ _ _ _ _ _ _ _ _ HS). Qed.
End Read.

(* element iteration: holds for every graph, by definition *)

Definition abs_lt (x y : Z) : Prop := Z.abs x < Z.abs y.

Lemma element_at_sound g s i :
  element_at g s = Some i -> (1 <= s)%nat -> (s < length (g_from g))%nat ->
  graph_index g i = true /\ Z.abs i = Z.of_nat s.
Proof.
  unfold element_at. intros H H1 H2.
  destruct (Z.ltb_spec (fmeta g (Z.of_nat s)) 0) as [Hf|Hf]; [discriminate|].
  destruct (Z.ltb_spec (from g (Z.of_nat s)) 0) as [Hfr|Hfr]; injection H as <-.
  - split; [|lia]. unfold graph_index, is_edge, valid_index, capacity, fmeta, from. rewrite !get_neg.
    unfold fmeta, from in *. destruct (Z.ltb_spec (- Z.of_nat s) 0); [|lia]. lia.
  - split; [|lia]. unfold graph_index, is_node, valid_index, capacity.
    destruct (Z.ltb_spec (Z.of_nat s) 0); [lia|]. destruct (Z.ltb_spec 0 (Z.of_nat s)); [|lia]. lia.
Qed.

Lemma element_at_complete g i :
  graph_index g i = true ->
  element_at g (Z.to_nat (Z.abs i)) = Some i /\ 1 <= Z.abs i < Z.of_nat (length (g_from g)).
Proof.
  unfold graph_index, element_at. intros H.
  rewrite Z2Nat.id by lia.
  assert (Hf : fmeta g (Z.abs i) = fmeta g i) by apply get_abs.
  assert (Hfr : from g (Z.abs i) = from g i) by apply get_abs.
  rewrite Hf, Hfr.
  unfold is_edge, is_node, valid_index, capacity in H.
  destruct (Z.ltb_spec i 0).
  - destruct (Z.ltb_spec (fmeta g i) 0); [lia|]. destruct (Z.ltb_spec (from g i) 0); [|lia].
    split; [f_equal|]; lia.
  - destruct (Z.ltb_spec 0 i); [|discriminate].
    destruct (Z.ltb_spec (fmeta g i) 0); [lia|]. destruct (Z.ltb_spec (from g i) 0); [lia|].
    split; [f_equal|]; lia.
Qed.

Definition opt_list (o : option Z) : list Z := match o with Some e => [e] | None => [] end.

Lemma flat_seq_in (f : nat -> option Z) a k e :
  In e (flat_map (fun s => opt_list (f s)) (seq a k)) <-> exists s, (a <= s < a + k)%nat /\ f s = Some e.
Proof.
  rewrite in_flat_map. split.
  - intros [s [Hs He]]. apply in_seq in Hs. exists s. split; [lia|].
    destruct (f s); cbn [opt_list] in He; [destruct He as [->|[]]; reflexivity|destruct He].
  - intros [s [Hs He]]. exists s. split; [apply in_seq; lia|]. rewrite He. left. reflexivity.
Qed.

Lemma flat_seq_sorted (f : nat -> option Z) :
  (forall s e, f s = Some e -> Z.abs e = Z.of_nat s) ->
  forall k a, StronglySorted abs_lt (flat_map (fun s => opt_list (f s)) (seq a k)).
Proof.
  intros Hf. induction k as [|k IH]; intros a; cbn [seq flat_map]; [constructor|].
  destruct (f a) as [e|] eqn:E; cbn [opt_list app]; [|apply IH].
  constructor; [apply IH|].
  apply Forall_forall. intros y Hy. apply flat_seq_in in Hy. destruct Hy as [s [Hs Hy]].
  unfold abs_lt. rewrite (Hf _ _ E), (Hf _ _ Hy). lia.
Qed.

Lemma elements_in g i : In i (elements g) <-> graph_index g i = true.
Proof.
  unfold elements. rewrite (flat_seq_in (element_at g)). split.
  - intros [s [Hs He]]. apply (element_at_sound g s i He); lia.
  - intros H. destruct (element_at_complete g i H) as [He Hr].
    exists (Z.to_nat (Z.abs i)). split; [lia|assumption].
Qed.

Lemma elements_sorted g : StronglySorted abs_lt (elements g).
Proof.
  apply flat_seq_sorted. intros s e. unfold element_at.
  destruct (fmeta g (Z.of_nat s) <? 0); [discriminate|].
  destruct (from g (Z.of_nat s) <? 0); intros [= <-]; lia.
Qed.

Lemma sorted_abs_nodup l : StronglySorted abs_lt l -> NoDup l.
Proof.
  induction 1 as [|x l Hs IH Hf]; constructor; [|assumption].
  intros Hi. rewrite Forall_forall in Hf. specialize (Hf x Hi). unfold abs_lt in Hf. lia.
Qed.

Lemma elements_nodup g : NoDup (elements g).
Proof. apply sorted_abs_nodup, elements_sorted. Qed.

(* a listed element is never a freed slot, never slot 0, never beyond the arrays *)
Lemma elements_not_freed g i : In i (elements g) -> 0 <= fmeta g i /\ i <> 0 /\ Z.abs i < capacity g.
Proof.
  intros H. apply elements_in in H. unfold graph_index, is_edge, is_node, valid_index in H.
  destruct (Z.ltb_spec i 0); [lia|]. destruct (Z.ltb_spec 0 i); [lia|discriminate].
Qed.

Lemma elements_sign g i :
  In i (elements g) -> (0 < i /\ is_node g i = true) \/ (i < 0 /\ is_edge g i = true).
Proof.
  intros H. apply elements_in in H. unfold graph_index in H.
  destruct (Z.ltb_spec i 0); [right; auto|]. destruct (Z.ltb_spec 0 i); [left; auto|discriminate].
Qed.

(* with the simulation: exactly the abstract nodes and edge ids *)
Lemma sim_elements g a fl i :
  sim g a fl -> (In i (elements g) <-> In i (a_nodes a) \/ In i (a_edge_ids a)).
Proof.
  intros HS. rewrite elements_in, (sim_graph_index _ _ _ HS). unfold a_edge_ids.
  split.
  - intros [[_ H]|[_ H]]; [left; assumption|right].
    apply in_map_iff in H. destruct H as [x [Hx H]]. apply in_map_iff. exists x. split; [lia|assumption].
  - intros [H|H].
    + left. split; [|assumption]. apply (sim_nodes_pos _ _ _ HS i H).
    + right. apply in_map_iff in H. destruct H as [x [Hx H]].
      pose proof (sim_edges_pos _ _ _ HS x H). split; [lia|].
      apply in_map_iff. exists x. split; [lia|assumption].
Qed.

Inductive gop :=
| GInsertNode
| GInsertEdge (f t : Z)
| GRemoveNode (n : Z)
| GRemoveEdge (e : Z).

(* the implementation step: new graph and the returned id; None = an unlink loop ran out of fuel *)
Definition gstep (g : graph) (op : gop) : option (graph * option Z) :=
  match op with
  | GInsertNode => let '(i, g') := insert_node g in Some (g', Some i)
  | GInsertEdge f t => match insert_edge g f t with
                       | Some (i, g') => Some (g', Some i)
                       | None => Some (g, None)
                       end
  | GRemoveNode n => match remove_node g n with Some g' => Some (g', None) | None => None end
  | GRemoveEdge e => match remove_edge g e with Some g' => Some (g', None) | None => None end
  end.

Definition zmem (i : Z) (l : list Z) : bool := existsb (Z.eqb i) l.

(* the magnitude |id| is used by neither a node nor an edge *)
Definition a_fresh (a : agraph) (s : Z) : bool := negb (zmem s (a_nodes a)) && negb (zmem s (map eslot (a_edges a))).

(* the abstract multigraph step, given the id the implementation returned (acceptor):
   None = the specification rejects the implementation's answer *)
Definition astep (a : agraph) (op : gop) (out : option Z) : option agraph :=
  match op, out with
  | GInsertNode, Some i =>
      if (0 <? i) && a_fresh a i then Some {| a_nodes := i :: a_nodes a; a_edges := a_edges a |} else None
  | GInsertEdge f t, Some i =>
      if (i <? 0) && a_fresh a (- i) && zmem f (a_nodes a) && zmem t (a_nodes a)
      then Some {| a_nodes := a_nodes a; a_edges := (- i, (f, t)) :: a_edges a |} else None
  | GInsertEdge f t, None =>
      if zmem f (a_nodes a) && zmem t (a_nodes a) then None else Some a
  | GRemoveNode n, None =>
      Some {| a_nodes := zrem n (a_nodes a); a_edges := filter (keep_edge n) (a_edges a) |}
  | GRemoveEdge e, None =>
      Some {| a_nodes := a_nodes a; a_edges := remE (- e) (a_edges a) |}
  | _, _ => None
  end.

(* ids are passed with the sign of their kind (DbImpl::graph_index dispatches on the sign) *)
Definition gop_ok (op : gop) : Prop :=
  match op with
  | GInsertNode => True
  | GInsertEdge f t => 0 <= f /\ 0 <= t
  | GRemoveNode n => 0 <= n
  | GRemoveEdge e => e <= 0
  end.

Fixpoint grun (g : graph) (a : agraph) (ops : list gop) : option (graph * agraph) :=
  match ops with
  | [] => Some (g, a)
  | op :: r =>
    match gstep g op with
    | None => None
    | Some (g', out) =>
      match astep a op out with
      | None => None
      | Some a' => grun g' a' r
      end
    end
  end.

Lemma zmem_iff i l : zmem i l = true <-> In i l.
Proof.
  unfold zmem. rewrite existsb_exists. split.
  - intros [x [Hx E]]. apply Z.eqb_eq in E. subst. assumption.
  - intros H. exists i. split; [assumption|apply Z.eqb_refl].
Qed.

Lemma zmem_false i l : zmem i l = false <-> ~ In i l.
Proof. rewrite <- zmem_iff. destruct (zmem i l); split; intros; congruence. Qed.

Lemma a_fresh_def a s : a_fresh a s = true <-> ~ In s (a_nodes a) /\ ~ In s (map eslot (a_edges a)).
Proof. unfold a_fresh. rewrite Bool.andb_true_iff, !Bool.negb_true_iff, !zmem_false. reflexivity. Qed.

Lemma gstep_sim g a fl op :
  sim g a fl -> gop_ok op ->
  exists g' out a' fl', gstep g op = Some (g', out) /\ astep a op out = Some a' /\ sim g' a' fl'.
Proof.
  intros HS Hok. destruct op as [|f t|n|e]; cbn [gstep astep gop_ok] in *.
  - pose proof (insert_node_sim g a fl HS) as H. destruct (insert_node g) as [x g'].
    destruct H as (H1 & H2 & H3 & _ & S1). exists g', (Some x). eexists. exists (tl fl).
    rewrite (proj2 (Z.ltb_lt 0 x) H1), (proj2 (a_fresh_def a x) (conj H2 H3)). split; [reflexivity|]. split; [reflexivity|exact S1].
  - destruct Hok as [Hf Ht].
    destruct (zmem f (a_nodes a)) eqn:Zf; [destruct (zmem t (a_nodes a)) eqn:Zt|].
    + apply zmem_iff in Zf, Zt.
      destruct (insert_edge_sim g a fl f t HS Zf Zt) as (x & g' & -> & H1 & H2 & H3 & _ & S1).
      exists g', (Some (- x)). eexists. exists (tl fl). rewrite Z.opp_involutive.
      rewrite (proj2 (Z.ltb_lt (- x) 0)), (proj2 (a_fresh_def a x) (conj H2 H3)) by lia. split; [reflexivity|]. split; [reflexivity|exact S1].
    + apply zmem_false in Zt. rewrite (insert_edge_none g a fl f t HS Hf Ht) by tauto. exists g, None, a, fl. auto.
    + apply zmem_false in Zf. rewrite (insert_edge_none g a fl f t HS Hf Ht) by tauto. exists g, None, a, fl. auto.
  - destruct (remove_node_total g a fl n HS Hok) as (g' & fl' & -> & S1). exists g', None. eauto.
  - destruct (remove_edge_total g a fl e HS Hok) as (g' & fl' & -> & S1). exists g', None. eauto.
Qed.

(* every history of sign-correct operations from the empty graph: no loop runs out of fuel,
   every id the implementation returns is accepted by the abstract multigraph, and the final
   states are related by the simulation *)
Theorem grun_sim ops :
  Forall gop_ok ops ->
  forall g a fl, sim g a fl -> exists g' a' fl', grun g a ops = Some (g', a') /\ sim g' a' fl'.
Proof.
  induction 1 as [|op r Hok _ IH]; intros g a fl HS; cbn [grun].
  - exists g, a, fl. split; [reflexivity|exact HS].
  - destruct (gstep_sim g a fl op HS Hok) as [g1 [out [a1 [fl1 [E1 [E2 S1]]]]]].
    rewrite E1, E2. apply (IH g1 a1 fl1 S1).
Qed.

Corollary grun_new ops :
  Forall gop_ok ops -> exists g a fl, grun graph_new a_empty ops = Some (g, a) /\ sim g a fl.
Proof. intros H. apply (grun_sim ops H graph_new a_empty [] sim_new). Qed.

Corollary grun_wf ops g a :
  Forall gop_ok ops -> grun graph_new a_empty ops = Some (g, a) -> wf g.
Proof.
  intros H E. destruct (grun_new ops H) as [g' [a' [fl [E' S1]]]].
  rewrite E in E'. injection E' as <- <-. exists a, fl. exact S1.
Qed.
