(* SearchLiveProofs.v — `search_live` (every id returned by a search exists) reduced to the two
   traversal engines: index searches and element scans are discharged here from the invariant;
   sorting and slicing only select from the engine's result. *)
From Agdb Require Import Bytes Graph DbModel Search
  GraphSim ElementsSearchProofs ElementsGraphProofs SortProofs
  IndexProofs IndexDb3Proofs DbInvProofs QueryInvProofs.
From Coq Require Import ZifyBool Permutation.
Open Scope Z_scope.

(* what is assumed of the graph traversals (C14 / C17 territory): they only return existing
   elements.  The path-search clause is false without existing endpoints
   (TraversalLiveProofs.traversal_live_refuted); the form that holds is traversal_live_on there. *)
Definition traversal_live (rv : revision) : Prop :=
  (forall d a reverse origin conds h ids,
     wf (gr d) -> graph_index (gr d) origin = true ->
     graph_search rv d a reverse origin conds h = Some ids ->
     forall id, In id ids -> graph_index (gr d) id = true) /\
  (forall d conds origin dest ids,
     wf (gr d) -> path_search rv d conds origin dest = Some ids ->
     forall id, In id ids -> graph_index (gr d) id = true).

Lemma stable_sort_in cmp l y : In y (stable_sort cmp l) -> In y l.
Proof. apply Permutation_in, Permutation_sym, stable_sort_perm. Qed.

Lemma firstn_in {A} n (l : list A) y : In y (firstn n l) -> In y l.
Proof.
  revert l. induction n as [|n IH]; intros [|x l]; cbn [firstn In]; try tauto.
  intros [<-|H]; [now left|right; now apply IH].
Qed.

Lemma skipn_in {A} n (l : list A) y : In y (skipn n l) -> In y l.
Proof.
  revert l. induction n as [|n IH]; intros [|x l]; cbn [skipn In]; try tauto.
  intros H. right. now apply IH.
Qed.

Lemma slice_ids_in rv limit offset l out y : slice_ids rv limit offset l = SOk out -> In y out -> In y l.
Proof.
  unfold slice_ids.
  destruct ((limit =? 0) && (offset =? 0)); [intros H; inversion H; subst; trivial|].
  destruct (limit =? 0).
  - destruct (offset <=? Z.of_nat (length l)).
    + intros H; inversion H; subst. apply skipn_in.
    + destruct (fix_slice_clamp rv); [|discriminate]. intros H; inversion H; subst. intros [].
  - destruct (offset =? 0).
    + intros H; inversion H; subst. apply firstn_in.
    + destruct (offset + limit <=? Z.of_nat (length l)).
      * intros H; inversion H; subst. intros Hy. apply firstn_in in Hy. now apply skipn_in in Hy.
      * destruct (fix_slice_clamp rv); [|discriminate]. intros H; inversion H; subst.
        intros Hy. apply firstn_in in Hy. now apply skipn_in in Hy.
Qed.

Lemma sorted_slice_in rv d limit offset order (r : sres) out y :
  sorted_slice rv d limit offset order r = SOk out -> In y out -> exists l, r = SOk l /\ In y l.
Proof.
  destruct r as [l|e|]; try discriminate. intros H Hy. exists l. split; [reflexivity|].
  apply (stable_sort_in (order_cmp d order)). now apply (slice_ids_in rv limit offset _ out).
Qed.

Lemma opt_ids_ok o l : opt_ids o = SOk l -> o = Some l.
Proof. destruct o; cbn; [intros H; now inversion H|discriminate]. Qed.

Lemma index_entry_live d key ids p :
  idx_exact d -> idx_find (indexes d) key = Some ids -> In p ids -> live d (snd p) = true.
Proof.
  intros Hd Hf Hp. pose proof (Hd key ids Hf _ respects_true (snd p)) as H.
  destruct (live d (snd p)); [reflexivity|]. exfalso.
  assert (Hpos : (0 < cntP ids (fun _ => true) (snd p))%nat); [|lia].
  clear -Hp. induction ids as [|q ids IH]; [destruct Hp|]. rewrite cntP_cons.
  destruct Hp as [->|Hp]; [rewrite Z.eqb_refl; cbn; lia|]. specialize (IH Hp). lia.
Qed.

(* the traversal facts in the form that asks the path search's endpoints to exist *)
Lemma search_live_from rv :
  (forall d a reverse origin conds h ids,
     wf (gr d) -> graph_index (gr d) origin = true ->
     graph_search rv d a reverse origin conds h = Some ids ->
     forall id, In id ids -> graph_index (gr d) id = true) ->
  (forall d conds origin dest ids,
     wf (gr d) -> graph_index (gr d) origin = true -> graph_index (gr d) dest = true ->
     path_search rv d conds origin dest = Some ids ->
     forall id, In id ids -> graph_index (gr d) id = true) ->
  search_live rv.
Proof.
  intros Hgs Hps d s ids Hd Hs id Hin. unfold live.
  pose proof (proj1 Hd) as Hwf. pose proof (proj1 (proj2 (proj2 Hd))) as Hal.
  assert (Halg : s_algorithm s = AIndex \/ s_algorithm s <> AIndex)
    by (destruct (s_algorithm s); (left; reflexivity) || (right; discriminate)).
  destruct Halg as [Ealg|Hne].
  - unfold search in Hs. rewrite Ealg in Hs.
    destruct (s_conditions s) as [|[lg md cd] rest]; [discriminate|].
    destruct cd; try discriminate.
    destruct (idx_find (indexes d) key) as [ids0|] eqn:Ef; [|discriminate].
    inversion Hs; subst. apply in_map_iff in Hin. destruct Hin as [p [<- Hp]]. apply filter_In in Hp.
    apply (index_entry_live d key ids0 p); [apply Hd|exact Ef|tauto].
  - destruct (search_engine rv d s Hne) as [[e H]|(streams & run & Heng & H)];
      specialize (H (s_limit s) (s_offset s) (s_order_by s)); rewrite resliced_id in H; rewrite H in Hs;
      [discriminate|].
    (* whatever the engine, under whatever handler *)
    assert (Hrun : forall h l, run h = SOk l -> forall y, In y l -> graph_index (gr d) y = true).
    { destruct Heng as [a reverse q origin Eo | qo qd origin dest Eo Ed | ]; intros h l Hl y Hy.
      - apply opt_ids_ok in Hl.
        exact (Hgs d a reverse origin _ h l Hwf (db_id_live d q origin Hal Eo) Hl y Hy).
      - apply opt_ids_ok in Hl.
        exact (Hps d _ origin dest l Hwf (db_id_live d qo origin Hal Eo) (db_id_live d qd dest Hal Ed) Hl y Hy).
      - injection Hl as <-. exact (elements_search_existing rv d _ h y Hy). }
    destruct (streams && _); [exact (Hrun _ _ Hs id Hin)|].
    destruct (sorted_slice_in _ _ _ _ _ _ _ id Hs Hin) as (l0 & El & Hl). exact (Hrun _ _ El id Hl).
Qed.

Theorem search_live_of_traversal rv : traversal_live rv -> search_live rv.
Proof.
  intros [Hgs Hps]. apply search_live_from; [exact Hgs|].
  intros d conds origin dest ids Hwf _ _. exact (Hps d conds origin dest ids Hwf).
Qed.
