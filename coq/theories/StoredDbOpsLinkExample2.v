(* StoredDbOpsLinkExample2.v — non-vacuity of the covered-history theorem of
   StoredDbOpsLinkHist2.v.  In the hand-built example file of StoredDbExampleBase.v node 2 has NO property vector (slot 0:
   slots_ok fails — a file written by the real database never looks like that, every public insertion reserves capacity).
   Running `insert values [] ids 2` on it (the program so_q_insert_values on the model of storage.rs, replayed on the
   abstract record map) allocates the vector and changes nothing else: the resulting record map holds the SAME database
   sx_db with slots_ok, sx_db satisfies HInv (reached by four public queries from db_new), and the history
   [insert edge 2 -> 1; remove that edge (-4, no properties)] is covered. *)
From Agdb Require Import Bytes DbValue Graph DbModel Search Queries Revisions Storage StorageSpec StorageWp Collections CollWp CollVecBase CollGraph StoredDbProofs
  StoredDb StoredDbRep StoredDbExampleBase StoredDbOps StoredDbOpsDb StoredDbOpsKv2 StoredDbOpsQuery StoredDbOpsExample
  StoredDbOpsLink StoredDbOpsLinkHist StoredDbOpsLinkHist2 StoredDbOpsLinkFinal2 StoredDbOpsLinkExample.
From Agdb Require HistoryAtomicProofs.
From Coq Require Import ZifyBool ZifyNat ZifyN.
Open Scope Z_scope.

Definition sz_prog : cprog so_db := h <~ so_open 1 ;; so_q_insert_values h 2 [].

Lemma sx_elements id : graph_index (gr sx_db) id = true -> id = 1 \/ id = 2 \/ id = -3.
Proof.
  intros G.
  assert (B : -4 < id < 4).
  { unfold graph_index, is_edge, is_node, valid_index in G. change (capacity (gr sx_db)) with 4 in G.
    destruct (Z.ltb_spec id 0); [lia|]. destruct (Z.ltb_spec 0 id); [lia|discriminate]. }
  assert (C : id = -3 \/ id = -2 \/ id = -1 \/ id = 0 \/ id = 1 \/ id = 2 \/ id = 3) by lia.
  destruct C as [-> | [-> | [-> | [-> | [-> | [-> | -> ]]]]]]; vm_compute in G; try discriminate; auto.
Qed.

Lemma sz_cwp fl :
  cwp fl sz_prog (sd_spec_of sx_store)
      (fun r sp' => exists w', stored_db_w (hp sp') 1 sx_db w' /\ slots_ok sx_db w').
Proof.
  unfold sz_prog. apply cwp_bind. eapply so_open_spec'; [exact sx_stored|]. intros h w1 H1 Hh1 _ Ev. cbn [kont].
  eapply cwp_mono; [|eapply (so_q_insert_values_stored' fl); [exact H1|exact Hh1|vm_compute; reflexivity|exact I]].
  intros r sp' (h' & w' & -> & H' & Hh' & D' & F' & [K A]). exists w'. split; [exact H'|].
  intros id G. destruct (sx_elements id G) as [-> | [-> | -> ]].
  - apply K. rewrite Ev. vm_compute. discriminate.
  - exact A.
  - apply K. rewrite Ev. vm_compute. discriminate.
Qed.

Lemma sz_covered_all2 : so_covered_all2 rv_fixed sx_db [CqInsertEdge 2 1; CqRemove (-4)].
Proof.
  cbn [so_covered_all2]. split; [exact sx_covered_insert_edge|]. split; [cbn; constructor|].
  split; [unfold so_cap_ok; vm_compute; reflexivity|].
  split; [|split; [exact I|split; [unfold so_cap_ok; vm_compute; reflexivity|exact I]]].
  cbn [so_covered2]. split; [unfold so_cap_ok; vm_compute; reflexivity|]. split.
  - intros x Hx. vm_compute in Hx. destruct Hx.
  - left. split; [lia|vm_compute; reflexivity].
Qed.

Theorem sz_sample :
  exists sp w, stored_db_w (hp sp) 1 sx_db w /\ slots_ok sx_db w /\ HistoryAtomicProofs.HInv sx_db /\
               so_covered_all2 rv_fixed sx_db [CqInsertEdge 2 1; CqRemove (-4)] /\
               kvs_get (vals (fst (Queries.exec rv_fixed sx_db (cq_query (CqInsertEdge 2 1))))) (-4) = [].
Proof.
  destruct (so_replay_ends (st_step cdata ops_file) true sz_prog sx_state _ _ (sz_cwp true)) as (r & sp' & w' & H' & S');
    [vm_compute; reflexivity|].
  exists sp', w'. split; [exact H'|]. split; [exact S'|]. split; [exact sx_HInv|]. split; [exact sz_covered_all2|].
  vm_compute. reflexivity.
Qed.
