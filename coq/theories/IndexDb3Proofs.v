(* IndexDb3Proofs.v — C11: the invariants for the live set given by the graph; insert_index
   (back-fill, duplicate error) establishes / keeps them. *)
From Agdb Require Import Bytes DbValue Graph DbModel Search Queries DbValueEqProofs DbFrameProofs
  KvProofs KvDbProofs KvSelectProofs IndexProofs IndexDbProofs IndexDb2Proofs QStepProofs.
From Coq Require Import ZifyBool ZifyNat ZifyN.
Open Scope Z_scope.

(* the database-state invariants of C11, for the live set given by the graph *)
Definition live (d : db) : Z -> bool := graph_index (gr d).
Definition idx_exact (d : db) : Prop := idx_exact_on (live d) d.
Definition vals_live (d : db) : Prop := vals_live_on (live d) d.
Definition idx_distinct (d : db) : Prop := idx_keys_distinct (indexes d).

Lemma live_ok d : E_ok (live d).
Proof.
  intros i H. unfold live in *. destruct (graph_index (gr d) (- i)) eqn:H'; [|reflexivity].
  pose proof (graph_index_sign _ _ H) as S. pose proof (graph_index_sign _ _ H') as S'.
  rewrite Z.abs_opp, S in S'. assert (i = 0) by lia. subst i. discriminate H.
Qed.

Lemma idx_exact_new : idx_exact db_new.
Proof. intros key ids Hf. discriminate. Qed.

Lemma vals_live_new : vals_live db_new.
Proof. intros i _ _. unfold kvs_get. cbn. now destruct (zabs_nat i). Qed.

Lemma idx_distinct_new : idx_distinct db_new.
Proof. exact I. Qed.

Lemma append_pairs_keys key ps : forall ix0 : list index, map fst (append_pairs key ix0 ps) = map fst ix0.
Proof.
  induction ps as [|p ps IH]; intros ix0; [reflexivity|]. cbn [append_pairs fold_left].
  fold (append_pairs key (idx_insert_id ix0 key (fst p) (snd p)) ps). rewrite IH.
  unfold idx_insert_id. apply idx_update_keys.
Qed.

Definition backfill_pairs (d : db) (key : dbvalue) : list (dbvalue * Z) :=
  flat_map (slot_pairs d key) (seq 1 (length (vals d) - 1)).

(* creating an index: an existing one is an error without effect; a new one is filled with the
   entries of all data inserted before, and no other index changes *)
Lemma insert_index_spec d key :
  match insert_index d key with
  | RErr e => e = ENotAllowed /\ idx_find (indexes d) key <> None
  | ROk (n, d') =>
      idx_find (indexes d) key = None /\
      gr d' = gr d /\ vals d' = vals d /\ aliases d' = aliases d /\
      (forall key', idx_find (indexes d') key' =
                    match idx_find (indexes d) key' with
                    | Some ids => Some ids
                    | None => if dbv_eqb key key' then Some (backfill_pairs d key) else None
                    end) /\
      map fst (indexes d') = map fst (indexes d) ++ [key] /\
      n = Z.of_nat (length (backfill_pairs d key))
  end.
Proof.
  unfold insert_index. destruct (idx_find (indexes d) key) as [ids|] eqn:F; [split; congruence|].
  cbv zeta. set (d2 := with_indexes (push_undo d (CRemoveIndex key)) _).
  (* the two loops of insert_index are bf_outer / bf_inner written out *)
  change (fold_left _ (seq 1 (length (vals d2) - 1)) d2)
    with (fold_left (bf_outer key) (seq 1 (length (vals d2) - 1)) d2).
  pose proof (bf_outer_fold d key (seq 1 (length (vals d2) - 1)) d2 eq_refl eq_refl) as H.
  cbv zeta in H. destruct H as (A & B & C & D & Fx).
  set (d3 := fold_left (bf_outer key) _ d2) in *.
  assert (Hfind : forall key', idx_find (indexes d3) key' =
                    match idx_find (indexes d) key' with
                    | Some ids => Some ids
                    | None => if dbv_eqb key key' then Some (backfill_pairs d key) else None
                    end).
  { intros key'. rewrite Fx, idx_find_append_pairs. subst d2.
    cbn [indexes with_indexes push_undo vals]. rewrite idx_find_snoc.
    destruct (idx_find (indexes d) key') as [ids|] eqn:F'.
    - destruct (dbv_eqb key key') eqn:E; [|reflexivity].
      apply dbv_eqb_true in E as <-. congruence.
    - destruct (dbv_eqb key key'); reflexivity. }
  split; [reflexivity|]. split; [exact A|]. split; [exact B|]. split; [exact C|]. split; [exact Hfind|]. split.
  - rewrite Fx, append_pairs_keys. subst d2. cbn [indexes with_indexes push_undo]. rewrite map_app. reflexivity.
  - rewrite Hfind, F, dbv_eqb_refl. reflexivity.
Qed.

Lemma live_same_gr d d' : gr d' = gr d -> forall i, live d i = live d' i.
Proof. intros H i. unfold live. now rewrite H. Qed.

Lemma insert_index_exact d key n d' :
  insert_index d key = ROk (n, d') -> idx_exact d -> vals_live d -> idx_distinct d ->
  idx_exact d' /\ vals_live d' /\ idx_distinct d'.
Proof.
  intros Hi Hd Hl Hk. pose proof (insert_index_spec d key) as S. rewrite Hi in S.
  destruct S as (F & A & B & C & Hfind & Hkeys & _).
  split; [|split].
  - apply (idx_exact_on_ext (live d)); [now apply live_same_gr|].
    intros key' ids Hf P HP id. rewrite Hfind in Hf. rewrite B.
    destruct (idx_find (indexes d) key') as [ids0|] eqn:F'.
    + inversion Hf; subst. now apply Hd.
    + destruct (dbv_eqb key key') eqn:E; [|discriminate]. inversion Hf; subst.
      unfold backfill_pairs. rewrite (backfill_count d key P id Hl). unfold live.
      destruct (graph_index (gr d) id); [|reflexivity]. now apply cntK_congr.
  - apply (vals_live_on_ext (live d)); [now apply live_same_gr|].
    now apply (vals_live_on_frame (live d) d d').
  - unfold idx_distinct, idx_keys_distinct. rewrite Hkeys.
    apply vals_distinct_snoc; [exact Hk|]. now apply idx_find_none_mem.
Qed.

(* an existing index: error, nothing changes (at the query level the state is literally the same) *)
Lemma insert_index_duplicate d key :
  idx_find (indexes d) key <> None -> insert_index d key = RErr ENotAllowed.
Proof. unfold insert_index. destruct (idx_find (indexes d) key); [reflexivity|congruence]. Qed.

