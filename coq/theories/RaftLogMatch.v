(* RaftLogMatch.v — LOG MATCHING for the repaired election code, under the hypothesis that no follower ever
   acknowledges an Append/Heartbeat from a diverged log (KnownClass ack-from-diverged-log never occurs):
   if two nodes hold entries of the same term at one index, their logs are identical up to that index.

   Invariant LI over `run rv size evs` for a revision `rv` with both election repairs (one leader per term,
   RaftVote.election_safety_elect_fixed, is used at every step):
     - every log is well formed (index = position, terms sorted, entry terms <= the node's term);
     - every Append request in flight carries consecutive indices and sorted terms;
     - a node in state Leader is recorded as leader of its term; a recorded leader (i, t) has term > t or is still
       Leader of t; an Append/Heartbeat in flight comes from a recorded leader of its term;
     - every entry has the term of a recorded leader; the Leader of term T holds every entry of term T that
       exists in any log, at that entry's index;
     - log matching.
   The marker's negation is used exactly once: after an acknowledged Append the follower's log is a prefix of the
   sender's present log, so every fact about the sender's log transfers to the follower. *)
From Coq Require Import NArith List Bool Lia Arith.
From Agdb Require Import Raft RaftProofs RaftInv RaftElect RaftVote RaftLogWf.
Import ListNotations.
Open Scope N_scope.

Definition lmatch (la lb : list entry) : Prop :=
  forall k ea eb, nth_error la k = Some ea -> nth_error lb k = Some eb -> e_term ea = e_term eb ->
                  firstn (S k) la = firstn (S k) lb.

Lemma lmatch_refl : forall l, lmatch l l.
Proof. intros l k ea eb _ _ _. reflexivity. Qed.

Lemma lmatch_sym : forall a b, lmatch a b -> lmatch b a.
Proof. intros a b H k ea eb H1 H2 E. symmetry. eapply H; eauto. Qed.

Lemma nth_error_prefix : forall (a s : list entry) k x,
  a = firstn (length a) s -> nth_error a k = Some x -> nth_error s k = Some x.
Proof.
  intros a s k x E H. assert (L : (k < length a)%nat) by (apply nth_error_Some; congruence).
  rewrite E in H. rewrite nth_error_firstn_lt in H; auto.
Qed.

Lemma lmatch_prefix : forall a s b, a = firstn (length a) s -> lmatch s b -> lmatch a b.
Proof.
  intros a s b E H k ea eb H1 H2 T.
  assert (L : (k < length a)%nat) by (apply nth_error_Some; congruence).
  pose proof (nth_error_prefix _ _ _ _ E H1) as H1'.
  rewrite <- (H k ea eb H1' H2 T). rewrite E at 1. rewrite firstn_firstn. f_equal. lia.
Qed.

Lemma lmatch_snoc : forall a x b,
  lmatch a b -> (forall eb, nth_error b (length a) = Some eb -> e_term eb <> e_term x) -> lmatch (a ++ [x]) b.
Proof.
  intros a x b H N k ea eb H1 H2 T. destruct (Nat.lt_ge_cases k (length a)).
  - rewrite nth_error_app1 in H1 by auto. rewrite firstn_app.
    replace (S k - length a)%nat with O by lia. cbn [firstn]. rewrite app_nil_r. eapply H; eauto.
  - rewrite nth_error_app2 in H1 by auto. destruct (k - length a)%nat eqn:E; cbn in H1; [|destruct n; discriminate].
    inversion H1; subst ea. exfalso. apply (N eb); [|congruence]. replace (length a) with k by lia. exact H2.
Qed.

Definition msg_wf (m : msg) : Prop := match m with MReq r => req_wf r | MResp _ _ => True end.

Record LI (c : cluster) : Prop := {
  li_cinv : cinv c;
  li_wf : forall k nd, nth_error (c_nodes c) k = Some nd -> nwf nd;
  li_msg : forall m, In m (c_net c) -> msg_wf m;
  li_lh1 : forall k nd, nth_error (c_nodes c) k = Some nd -> is_leader (n_state nd) = true ->
             In (N.of_nat k, n_term nd) (leaders (c_hist c));
  li_lh2 : forall k nd t, nth_error (c_nodes c) k = Some nd -> In (N.of_nat k, t) (leaders (c_hist c)) ->
             t < n_term nd \/ (t = n_term nd /\ is_leader (n_state nd) = true);
  li_mh : forall r, In (MReq r) (c_net c) -> is_append_or_hb (q_kind r) = true ->
             In (q_from r, q_term r) (leaders (c_hist c));
  li_lv : forall i t, In (i, t) (leaders (c_hist c)) -> (N.to_nat i < length (c_nodes c))%nat;
  li_el : forall k nd e, nth_error (c_nodes c) k = Some nd -> In e (n_logs nd) ->
             exists i, In (i, e_term e) (leaders (c_hist c));
  li_has : forall kl l kv v e, nth_error (c_nodes c) kl = Some l -> nth_error (c_nodes c) kv = Some v ->
             is_leader (n_state l) = true -> In e (n_logs v) -> e_term e = n_term l ->
             log_at (n_logs l) (e_index e) = Some e;
  li_lm : forall ka a kb b, nth_error (c_nodes c) ka = Some a -> nth_error (c_nodes c) kb = Some b ->
             lmatch (n_logs a) (n_logs b) }.

(* what LI gives for the node that acts in a step *)
Lemma acting_node : forall c i nd, LI c -> get_node c i = Some nd -> nwf nd /\ n_index nd = i.
Proof.
  intros c i nd Lc G. split; [apply (li_wf _ Lc _ _ G) | apply (get_node_index _ _ _ (proj1 (li_cinv _ Lc)) G)].
Qed.

Lemma acting_request : forall rv c k r el nd,
  LI c -> nth_error (c_net c) k = Some (MReq r) -> get_node c (q_to r) = Some nd ->
  req_wf r /\ nwf nd /\ n_index nd = q_to r /\ q_from r <> n_index nd /\ good nd (fst (handle_request rv nd r el)).
Proof.
  intros rv c k r el nd Lc Hk G. destruct (acting_node c _ nd Lc G) as [W Ei].
  pose proof (delivered_request c k r nd (li_cinv _ Lc) Hk G) as Hne.
  split; [apply (li_msg _ Lc _ (nth_error_In _ _ Hk))|]. split; [exact W|]. split; [exact Ei|]. split; [exact Hne|].
  apply good_request; [apply W | exact Hne].
Qed.

Lemma acting_response : forall rv c k r s nd,
  LI c -> nth_error (c_net c) k = Some (MResp r s) -> get_node c (s_to s) = Some nd ->
  nwf nd /\ n_index nd = s_to s /\ q_to r <> n_index nd /\ good nd (fst (handle_response rv nd r s)).
Proof.
  intros rv c k r s nd Lc Hk G. destruct (acting_node c _ nd Lc G) as [W Ei].
  destruct (delivered_response c k r s nd (li_cinv _ Lc) Hk G) as [Hne _].
  split; [exact W|]. split; [exact Ei|]. split; [exact Hne|]. apply good_response; [apply W | exact Hne].
Qed.

(* how the acting node's log changes in one step *)
Definition log_change (c : cluster) (i : N) (nd nd' : node) : Prop :=
  n_logs nd' = n_logs nd \/
  (is_leader (n_state nd) = true /\ is_leader (n_state nd') = true /\
   exists d, n_logs nd' = n_logs nd ++ [mkEntry (lenN (n_logs nd) + 1) (n_term nd) d]) \/
  (is_leader (n_state nd') = false /\
   exists j s, j <> N.to_nat i /\ nth_error (c_nodes c) j = Some s /\
               n_logs nd' = firstn (length (n_logs nd')) (n_logs s)).

Lemma In_prefix : forall (a s : list entry) e, a = firstn (length a) s -> In e a -> In e s.
Proof. intros a s e E H. rewrite E in H. eapply In_firstn; eauto. Qed.

Lemma log_at_none_len : forall (l : list entry) e, log_at l (N.of_nat (S (length l))) = Some e -> False.
Proof.
  intros l e H. rewrite log_at_nth in H. assert (nth_error l (length l) = None) by (apply nth_error_None; lia). congruence.
Qed.

Lemma LI_put : forall c i nd nd' net' g,
  LI c -> get_node c i = Some nd ->
  cinv (mkCluster (put_node c i nd') net' (c_hist c ++ g)) ->
  election_safety (c_hist c ++ g) ->
  nwf nd' ->
  n_term nd <= n_term nd' ->
  leaders g = (if is_leader (n_state nd') && negb (is_leader (n_state nd)) then [(i, n_term nd')] else []) ->
  (is_leader (n_state nd) = true ->
   (is_leader (n_state nd') = true /\ n_term nd' = n_term nd) \/
   (is_leader (n_state nd') = false /\ n_term nd < n_term nd')) ->
  log_change c i nd nd' ->
  n_index nd' = i ->
  (forall m, In m net' -> In m (c_net c) \/ new_msg nd' m) ->
  LI (mkCluster (put_node c i nd') net' (c_hist c ++ g)).
Proof.
  intros c i nd nd' net' g Lc G CI ES W' Tm Lg LL LC Hi NM.
  pose proof G as G0. unfold get_node in G0.
  assert (Wnd : nwf nd) by (eapply (li_wf _ Lc); eauto).
  assert (LH1o : is_leader (n_state nd) = true -> In (i, n_term nd) (leaders (c_hist c))).
  { intros H. pose proof (li_lh1 _ Lc _ _ G0 H) as X. rewrite N2Nat.id in X. exact X. }
  assert (LH2o : forall t, In (i, t) (leaders (c_hist c)) -> t < n_term nd \/ (t = n_term nd /\ is_leader (n_state nd) = true)).
  { intros t H. apply (li_lh2 _ Lc (N.to_nat i) nd t G0). rewrite N2Nat.id. exact H. }
  (* a Leader after the step is a recorded leader of its term *)
  assert (LH1 : is_leader (n_state nd') = true -> In (i, n_term nd') (leaders (c_hist c ++ g))).
  { intros L'. rewrite leaders_app. apply in_or_app. destruct (is_leader (n_state nd)) eqn:L.
    - left. destruct (LL eq_refl) as [[_ E]|[F _]]; [|congruence]. rewrite E. auto.
    - right. rewrite Lg, L'. cbn. auto. }
  (* the old entries of the logs after the step *)
  assert (OLD : forall j x e, nth_error (put_node c i nd') j = Some x -> In e (n_logs x) ->
                (exists j0 x0, nth_error (c_nodes c) j0 = Some x0 /\ In e (n_logs x0)) \/
                (j = N.to_nat i /\ x = nd' /\ is_leader (n_state nd) = true /\ is_leader (n_state nd') = true /\
                 e_term e = n_term nd /\ e_index e = N.of_nat (S (length (n_logs nd))) /\
                 n_logs nd' = n_logs nd ++ [e])).
  { intros j x e Hj He. destruct (put_nth _ _ _ _ _ _ G Hj) as [[-> ->]|[Hne Hj']]; [|left; eauto].
    destruct LC as [E|[(L1 & L2 & d & E)|(L2 & j0 & s0 & Hj0 & Hs0 & E)]].
    - left. exists (N.to_nat i), nd. rewrite <- E. auto.
    - rewrite E in He. apply in_app_or in He as [He|[<-|[]]]; [left; eauto|].
      right. repeat split; auto. cbn. unfold lenN. lia.
    - left. exists j0, s0. split; auto. eapply In_prefix; eauto. }
  constructor; cbn [c_nodes c_net c_hist].
  - exact CI.
  - intros k x Hk. destruct (put_nth _ _ _ _ _ _ G Hk) as [[-> ->]|[Hne Hk']]; auto. eapply (li_wf _ Lc); eauto.
  - intros m Hm. destruct (NM m Hm) as [H|H]; [apply (li_msg _ Lc); auto|].
    destruct m; [apply (sn_wf _ _ H) | exact I].
  - (* lh1 *)
    intros k x Hk L. destruct (put_nth _ _ _ _ _ _ G Hk) as [[-> ->]|[Hne Hk']].
    + rewrite N2Nat.id. auto.
    + rewrite leaders_app. apply in_or_app. left. eapply (li_lh1 _ Lc); eauto.
  - (* lh2 *)
    intros k x t Hk Hin. rewrite leaders_app in Hin. apply in_app_or in Hin.
    destruct (put_nth _ _ _ _ _ _ G Hk) as [[-> ->]|[Hne Hk']].
    + rewrite N2Nat.id in Hin. destruct Hin as [Hin|Hin].
      * destruct (LH2o _ Hin) as [H|[-> L]]; [left; lia|].
        destruct (LL L) as [[L' E]|[L' E]]; [right; auto|left; lia].
      * rewrite Lg in Hin. destruct (is_leader (n_state nd') && negb (is_leader (n_state nd))) eqn:B; [|destruct Hin].
        destruct Hin as [Hin|[]]. inversion Hin; subst t. apply andb_true_iff in B as [B _]. right; auto.
    + destruct Hin as [Hin|Hin]; [eapply (li_lh2 _ Lc); eauto|].
      rewrite Lg in Hin. destruct (is_leader (n_state nd') && negb (is_leader (n_state nd))); [|destruct Hin].
      destruct Hin as [Hin|[]]. inversion Hin. exfalso. apply Hne. lia.
  - (* mh *)
    intros r Hr A. destruct (NM _ Hr) as [H|H].
    + rewrite leaders_app. apply in_or_app. left. apply (li_mh _ Lc); auto.
    + destruct (sn_ahb _ _ H A) as (L' & -> & _). rewrite (sn_from _ _ H), Hi. auto.
  - (* lv *)
    intros i0 t Hin. unfold put_node. rewrite upd_nth_length. rewrite leaders_app in Hin. apply in_app_or in Hin as [Hin|Hin].
    + eapply (li_lv _ Lc); eauto.
    + rewrite Lg in Hin. destruct (is_leader (n_state nd') && negb (is_leader (n_state nd))); [|destruct Hin].
      destruct Hin as [Hin|[]]. inversion Hin; subst. apply nth_error_Some. congruence.
  - (* el *)
    intros k x e Hk He. destruct (OLD _ _ _ Hk He) as [(j0 & x0 & Hj0 & He0)|(-> & -> & L1 & L2 & Et & _)].
    + destruct (li_el _ Lc _ _ _ Hj0 He0) as [i0 Hi0]. exists i0. rewrite leaders_app. apply in_or_app. auto.
    + exists i. rewrite Et. destruct (LL L1) as [[_ E]|[F _]]; [|congruence]. rewrite <- E. auto.
  - (* has *)
    intros kl l kv v e Hl Hv L He Et.
    destruct (put_nth _ _ _ _ _ _ G Hl) as [[-> ->]|[Hnel Hl']].
    + (* the leader is the acting node *)
      destruct (is_leader (n_state nd)) eqn:L0.
      * destruct (LL eq_refl) as [[_ E]|[F _]]; [|congruence].
        assert (KEEP : forall idx x, log_at (n_logs nd) idx = Some x -> log_at (n_logs nd') idx = Some x).
        { intros idx x H. destruct LC as [E'|[(_ & _ & d & E')|(L2 & _)]]; [rewrite E'; auto| |congruence].
          rewrite E'. apply log_at_snoc_keep; auto. }
        destruct (OLD _ _ _ Hv He) as [(j0 & x0 & Hj0 & He0)|(-> & _ & _ & _ & _ & Ei & El)].
        -- apply KEEP. eapply (li_has _ Lc _ nd _ x0); eauto. congruence.
        -- rewrite El, Ei. rewrite log_at_nth. rewrite nth_error_app2 by lia. rewrite Nat.sub_diag. reflexivity.
      * (* newly elected: no entry of its term exists *)
        exfalso.
        assert (Hold : exists j0 x0, nth_error (c_nodes c) j0 = Some x0 /\ In e (n_logs x0)).
        { destruct (OLD _ _ _ Hv He) as [H|(_ & _ & F & _)]; [exact H|congruence]. }
        destruct Hold as (j0 & x0 & Hj0 & He0).
        destruct (li_el _ Lc _ _ _ Hj0 He0) as [i0 Hi0].
        assert (i0 = i).
        { apply (ES i0 i (n_term nd')); [rewrite leaders_app; apply in_or_app; left; rewrite <- Et; exact Hi0 | apply LH1; exact L]. }
        subst i0. rewrite Et in Hi0.
        destruct (LH2o _ Hi0) as [H|[_ H]]; [lia|congruence].
    + (* another leader, unchanged *)
      destruct (OLD _ _ _ Hv He) as [(j0 & x0 & Hj0 & He0)|(-> & -> & L1 & L2 & Et' & _)].
      * eapply (li_has _ Lc kl l j0 x0); eauto.
      * exfalso. apply Hnel.
        assert (N.of_nat kl = i); [|lia].
        apply (ES (N.of_nat kl) i (n_term l)).
        -- rewrite leaders_app; apply in_or_app; left. eapply (li_lh1 _ Lc); eauto.
        -- rewrite <- Et, Et'. rewrite leaders_app; apply in_or_app; left. auto.
  - (* lm *)
    assert (ONE : forall kb b, kb <> N.to_nat i -> nth_error (c_nodes c) kb = Some b -> lmatch (n_logs nd') (n_logs b)).
    { intros kb b Hne Hb. destruct LC as [E|[(L1 & L2 & d & E)|(L2 & j0 & s0 & Hj0 & Hs0 & E)]].
      - rewrite E. eapply (li_lm _ Lc); eauto.
      - rewrite E. apply lmatch_snoc; [eapply (li_lm _ Lc); eauto|].
        intros eb Heb Teq. cbn [e_term] in Teq.
        pose proof (li_has _ Lc _ nd _ b eb G0 Hb L1 (nth_error_In _ _ Heb) Teq) as H.
        destruct (w_log _ (li_wf _ Lc _ _ Hb)) as [P _]. rewrite (P _ _ Heb) in H.
        eapply log_at_none_len; eauto.
      - eapply lmatch_prefix; [exact E|]. eapply (li_lm _ Lc); eauto. }
    intros ka a kb b Ha Hb.
    destruct (put_nth _ _ _ _ _ _ G Ha) as [[-> ->]|[Hnea Ha']]; destruct (put_nth _ _ _ _ _ _ G Hb) as [[-> ->]|[Hneb Hb']].
    + apply lmatch_refl.
    + eapply ONE; eauto.
    + apply lmatch_sym. eapply ONE; eauto.
    + eapply (li_lm _ Lc); eauto.
Qed.

Lemma ack_diverged_app : forall a b, ack_diverged_b (a ++ b) = ack_diverged_b a || ack_diverged_b b.
Proof. intros. unfold ack_diverged_b. apply existsb_app. Qed.

Lemma entries_eqb_eq : forall a b, entries_eqb a b = true -> a = b.
Proof.
  induction a as [|x a IH]; intros [|y b] H; cbn in H; try discriminate; auto.
  apply andb_true_iff in H as [H1 H2]. apply entry_eqb_eq in H1. f_equal; auto.
Qed.

(* no GAckDiverged recorded for an acknowledged Append/Heartbeat: the follower's log is a prefix of the sender's *)
Lemma no_ack_diverged : forall c new r s sender,
  ack_diverged_b (request_ghosts c new r s) = false ->
  is_append_or_hb (q_kind r) = true -> is_ok (s_result s) = true ->
  get_node c (q_from r) = Some sender -> ninv new ->
  n_logs new = firstn (length (n_logs new)) (n_logs sender).
Proof.
  intros c new r s sender H A O G I. unfold request_ghosts in H. rewrite !ack_diverged_app in H.
  apply orb_false_iff in H as [_ H]. apply orb_false_iff in H as [_ H].
  rewrite A, O, G in H. cbn [andb] in H.
  destruct (entries_eqb _ _) eqn:E; [|discriminate H].
  apply entries_eqb_eq in E. rewrite <- (ni_len _ I) in E. rewrite firstn_all in E. exact E.
Qed.

Lemma LI_same : forall c c',
  LI c -> cinv c' -> c_nodes c' = c_nodes c -> c_hist c' = c_hist c ->
  (forall m, In m (c_net c') -> In m (c_net c)) -> LI c'.
Proof.
  intros c c' L CI N H M. constructor; rewrite ?N, ?H; try apply L; auto.
  - intros m Hm. apply (li_msg _ L). auto.
  - intros r Hr. apply (li_mh _ L). auto.
Qed.

(* an acknowledged Append/Heartbeat, no GAckDiverged recorded: the sender exists and the follower's log is a
   prefix of the sender's *)
Lemma acked_prefix : forall c k r nd' s,
  LI c -> nth_error (c_net c) k = Some (MReq r) -> ninv nd' ->
  ack_diverged_b (request_ghosts c nd' r s) = false ->
  is_append_or_hb (q_kind r) = true -> is_ok (s_result s) = true ->
  exists sender, get_node c (q_from r) = Some sender /\ n_logs nd' = firstn (length (n_logs nd')) (n_logs sender).
Proof.
  intros c k r nd' s Lc Hk I' AD A O.
  assert (V : (N.to_nat (q_from r) < length (c_nodes c))%nat).
  { eapply (li_lv _ Lc). apply (li_mh _ Lc); eauto. eapply nth_error_In; eauto. }
  destruct (get_node c (q_from r)) as [sender|] eqn:Gs; [|unfold get_node in Gs; apply nth_error_None in Gs; lia].
  exists sender. split; [reflexivity|]. eapply no_ack_diverged; eauto.
Qed.

Theorem LI_step : forall rv c e,
  fix_vote_match rv = true -> LI c -> election_safety (c_hist (step rv c e)) -> ack_diverged_b (c_hist (step rv c e)) = false ->
  LI (step rv c e).
Proof.
  intros rv c e FM Lc ES AD.
  pose proof (proj1 (step_inv rv c e (li_cinv _ Lc))) as CI.
  destruct (step_case rv c e) as [e0 c' En Eh Hnet | i nd el due G | i nd d G L | k r el nd Hk G | k r s el nd Hk G].
  - eapply LI_same; eauto.
  - (* Tick *)
    destruct (acting_node c i nd Lc G) as [W Ei].
    pose proof (term_process nd el due) as Tm.
    pose proof (keep_process nd el due) as Kp.
    pose proof (leader_process nd el due) as Lp.
    pose proof (good_process nd el due (w_inv _ W)) as [I' (Hi & _)].
    pose proof (process_sent nd el due) as Sn.
    destruct (process nd el due) as [nd' reqs]. cbn [fst snd c_hist c_nodes c_net] in *.
    apply (LI_put c i nd nd'); auto; try lia.
    + eapply nwf_keep; eauto. lia.
    + rewrite leaders_node_ghosts, Lp. destruct (is_leader (n_state nd)); reflexivity.
    + intros L. left. split; congruence.
    + left. apply Kp.
    + apply new_reqs; [apply incl_refl | exact Sn].
  - (* ClientAppend *)
    destruct (acting_node c i nd Lc G) as [W Ei].
    pose proof (term_append nd d) as Tm.
    pose proof (append_state nd d) as As.
    pose proof (good_append nd d (w_inv _ W)) as [_ (Hi & _)].
    pose proof (append_sent nd d) as Sn.
    pose proof (append_shape nd d W) as (W' & El).
    destruct (append nd d) as [nd' reqs]. cbn [fst snd c_hist c_nodes c_net] in *.
    apply (LI_put c i nd nd'); auto; try lia.
    + rewrite leaders_node_ghosts, As, L. reflexivity.
    + intros _. left. rewrite As. auto.
    + right; left. rewrite As. repeat split; auto. exists d. exact El.
    + apply new_reqs; [apply incl_refl | intros q; apply Sn; [apply (ni_size _ (w_inv _ W)) | exact L]].
  - (* request *)
    destruct (acting_request rv c k r el nd Lc Hk G) as (RW & W & Ei & Hne & I' & St).
    pose proof (request_keeps rv nd r el) as Kp.
    pose proof (request_term rv nd r el) as (T1 & _ & _).
    pose proof (request_shape rv nd r el W RW Hne) as [W' Sh].
    pose proof (request_leader rv nd r el) as RL.
    destruct (handle_request rv nd r el) as [nd' s]. cbn [fst snd c_hist c_nodes c_net] in *.
    destruct St as (Hi & _).
    rewrite ack_diverged_app in AD. apply orb_false_iff in AD as [_ AD].
    rewrite ack_diverged_app in AD. apply orb_false_iff in AD as [AD _].
    apply (LI_put c (q_to r) nd nd'); auto.
    + rewrite leaders_app, leaders_request_ghosts, leaders_node_ghosts, Hi, Ei. reflexivity.
    + intros L. destruct (RL L) as [->|(A & T2 & T3 & L')]; [left; auto|right; split; auto].
      destruct (N.eq_dec (n_term nd) (q_term r)) as [E|]; [exfalso|lia].
      apply Hne. rewrite Ei. apply (ES (q_from r) (q_to r) (q_term r)); rewrite leaders_app; apply in_or_app; left.
      * apply (li_mh _ Lc); auto. eapply nth_error_In; eauto.
      * rewrite <- E, <- Ei. rewrite <- (N2Nat.id (n_index nd)). rewrite Ei. eapply (li_lh1 _ Lc); eauto.
    + destruct Sh as [E|[A O]]; [left; exact E|].
      destruct (is_leader (n_state nd')) eqn:L'; [left; rewrite (Kp (leader_cl _ L')); reflexivity|].
      right; right. split; auto.
      destruct (acked_prefix c k r nd' s Lc Hk I' AD A O) as (sender & Gs & Pf).
      exists (N.to_nat (q_from r)), sender. split; [lia|]. split; auto.
    + congruence.
    + apply new_resp. intros m; apply In_remove_nth.
  - (* response *)
    destruct (acting_response rv c k r s nd Lc Hk G) as (W & Ei & Hne & I' & St).
    pose proof (response_term rv nd r s FM) as T1.
    pose proof (keep_response rv nd r s (w_inv _ W) Hne) as Kp.
    pose proof (response_from_leader rv nd r s) as RL.
    pose proof (response_sent rv nd r s) as Sn.
    destruct (handle_response rv nd r s) as [nd' reqs]. cbn [fst snd c_hist c_nodes c_net] in *.
    destruct St as (Hi & _).
    rewrite (response_ghosts_fixed rv nd r s FM) in *. cbn [app] in *.
    apply (LI_put c (s_to s) nd nd'); auto.
    + eapply nwf_keep; eauto.
    + rewrite leaders_node_ghosts, Hi, Ei. reflexivity.
    + left. apply Kp.
    + congruence.
    + apply new_reqs; [intros m; apply In_remove_nth | intros q; apply Sn; exact W].
Qed.

Lemma init_node : forall size k nd,
  nth_error (c_nodes (init_default size)) k = Some nd -> exists j, nd = new_node size j 1000 1000 3000.
Proof.
  intros size k nd H. unfold init_default, init in H. cbn [c_nodes] in H. rewrite nth_error_map in H.
  destruct (nth_error (seq 0 (N.to_nat size)) k); [|discriminate]. cbn in H. inversion H. eauto.
Qed.

Lemma new_node_lt : forall size j, p_lt (local (new_node size j 1000 1000 3000)) = 0.
Proof.
  intros size j. unfold local, node_at, new_node. cbn [n_peers n_index].
  set (l := map _ _). set (k := N.to_nat j).
  assert (A : forall p, In p l -> p_lt p = 0).
  { intros p Hp. unfold l in Hp. apply in_map_iff in Hp as [x [<- _]]. reflexivity. }
  destruct (Nat.lt_ge_cases k (length l)).
  - apply A. apply nth_In. auto.
  - rewrite nth_overflow by auto. reflexivity.
Qed.

Lemma init_LI : forall size, size <> 1 -> LI (init_default size).
Proof.
  intros size Hs. pose proof (init_inv size Hs) as CI.
  pose proof (init_hist size Hs) as Hh.
  assert (NL : forall k nd, nth_error (c_nodes (init_default size)) k = Some nd ->
               n_logs nd = [] /\ is_leader (n_state nd) = false /\ p_lt (local nd) = 0).
  { intros k nd H. destruct (init_node _ _ _ H) as [j ->]. split; [reflexivity|]. split; [|apply new_node_lt].
    unfold new_node. cbn [n_state]. apply N.eqb_neq in Hs. rewrite Hs. reflexivity. }
  constructor; rewrite ?Hh.
  - exact CI.
  - intros k nd H. destruct (NL _ _ H) as (E & _ & Lt). constructor.
    + destruct CI as [HN _]. apply (HN _ _ H).
    + rewrite E. apply wf_log_nil.
    + rewrite E, Lt. reflexivity.
    + rewrite E. intros e [].
  - intros m H. cbn in H. destruct H.
  - intros k nd H L. destruct (NL _ _ H) as (_ & F & _). congruence.
  - intros k nd t _ [].
  - intros r H. cbn in H. destruct H.
  - intros i t [].
  - intros k nd e H He. destruct (NL _ _ H) as (E & _). rewrite E in He. destruct He.
  - intros kl l kv v e Hl Hv L. destruct (NL _ _ Hl) as (_ & F & _). congruence.
  - intros ka a kb b Ha Hb. destruct (NL _ _ Ha) as (E & _). rewrite E. intros k ea eb H. destruct k; discriminate.
Qed.

Theorem LI_run : forall rv size evs,
  fix_vote_term rv = true -> fix_vote_match rv = true ->
  size <> 1 -> ack_diverged_b (c_hist (run rv size evs)) = false -> LI (run rv size evs).
Proof.
  intros rv size evs FT FM Hs. induction evs as [|e evs IH] using rev_ind; intros AD.
  - apply init_LI; auto.
  - pose proof (election_safety_elect_fixed rv size (evs ++ [e]) FT FM) as ES.
    rewrite fold_run_app in *. unfold run_from in *. cbn [fold_left] in *.
    apply LI_step; auto. apply IH.
    destruct (step_hist rv (run rv size evs) e) as [g Hg]. rewrite Hg, ack_diverged_app in AD.
    apply orb_false_iff in AD. tauto.
Qed.

(* LOG MATCHING: if two nodes hold entries of the same term at index idx, their logs agree at every index <= idx
   (in particular the two entries are equal: an (index, term) pair determines the entry) *)
Definition log_matching (c : cluster) : Prop :=
  forall a b, In a (c_nodes c) -> In b (c_nodes c) ->
  forall idx ea eb, log_at (n_logs a) idx = Some ea -> log_at (n_logs b) idx = Some eb -> e_term ea = e_term eb ->
  forall j, j <= idx -> log_at (n_logs a) j = log_at (n_logs b) j.

Lemma lmatch_log_at : forall la lb idx ea eb j,
  lmatch la lb -> log_at la idx = Some ea -> log_at lb idx = Some eb -> e_term ea = e_term eb -> j <= idx ->
  log_at la j = log_at lb j.
Proof.
  intros la lb idx ea eb j M Ha Hb T Hj. unfold log_at in *.
  destruct (N.eqb_spec idx 0); [discriminate|]. destruct (N.eqb_spec j 0); [reflexivity|].
  pose proof (M _ _ _ Ha Hb T) as E.
  rewrite <- (nth_error_firstn_lt _ la (S (N.to_nat (idx - 1)))) by lia.
  rewrite <- (nth_error_firstn_lt _ lb (S (N.to_nat (idx - 1)))) by lia.
  rewrite E. reflexivity.
Qed.

(* for every revision with the two election repairs, the acknowledgement repair or not (`rr_before_ack_fix`, `rr_fixed`) *)
Theorem log_matching_elect_fixed : forall rv size evs,
  fix_vote_term rv = true -> fix_vote_match rv = true ->
  size <> 1 -> ack_diverged_b (c_hist (run rv size evs)) = false -> log_matching (run rv size evs).
Proof.
  intros rv size evs FT FM Hs AD a b Ha Hb idx ea eb H1 H2 T j Hj.
  pose proof (LI_run rv size evs FT FM Hs AD) as L.
  apply In_nth_error in Ha as [ka Ha]. apply In_nth_error in Hb as [kb Hb].
  eapply lmatch_log_at; eauto. eapply (li_lm _ L); eauto.
Qed.

Theorem log_matching_partial : forall size evs,
  size <> 1 -> ack_diverged_b (c_hist (run rr_fixed size evs)) = false -> log_matching (run rr_fixed size evs).
Proof. intros size evs. apply log_matching_elect_fixed; reflexivity. Qed.

(* the other facts of the invariant, for every node of every such history: logs are well formed *)
Theorem logs_wf_elect_fixed : forall rv size evs nd,
  fix_vote_term rv = true -> fix_vote_match rv = true ->
  size <> 1 -> ack_diverged_b (c_hist (run rv size evs)) = false -> In nd (c_nodes (run rv size evs)) ->
  (forall idx e, log_at (n_logs nd) idx = Some e -> e_index e = idx /\ e_term e <= n_term nd) /\
  (forall i j ei ej, i <= j -> log_at (n_logs nd) i = Some ei -> log_at (n_logs nd) j = Some ej -> e_term ei <= e_term ej).
Proof.
  intros rv size evs nd FT FM Hs AD Hn. pose proof (LI_run rv size evs FT FM Hs AD) as L.
  apply In_nth_error in Hn as [k Hk]. pose proof (li_wf _ L _ _ Hk) as W. split.
  - intros idx e H. split; [eapply log_at_wf_index; eauto; apply (w_log _ W)|].
    apply (w_term _ W). unfold log_at in H. destruct (idx =? 0); [discriminate|]. eapply nth_error_In; eauto.
  - intros i j ei ej Hij Hi Hj. destruct (w_log _ W) as [_ S]. unfold log_at in *.
    destruct (N.eqb_spec i 0); [discriminate|]. destruct (N.eqb_spec j 0); [discriminate|].
    eapply S; [|exact Hi|exact Hj]. lia.
Qed.

Theorem logs_wf_partial : forall size evs nd,
  size <> 1 -> ack_diverged_b (c_hist (run rr_fixed size evs)) = false -> In nd (c_nodes (run rr_fixed size evs)) ->
  (forall idx e, log_at (n_logs nd) idx = Some e -> e_index e = idx /\ e_term e <= n_term nd) /\
  (forall i j ei ej, i <= j -> log_at (n_logs nd) i = Some ei -> log_at (n_logs nd) j = Some ej -> e_term ei <= e_term ej).
Proof. intros size evs nd. apply logs_wf_elect_fixed; reflexivity. Qed.

(* non-vacuity: a fault-free 3-node history (node 0 elected, two entries replicated to and committed on all three
   nodes) satisfies the hypothesis — and those of the other two log-replication classes *)
Definition wlog_ok : list event :=
  Tick 0 0 [] :: repeat (Deliver 0%nat 0) 16 ++ ClientAppend 0 11 :: repeat (Deliver 0%nat 0) 10 ++
  ClientAppend 0 12 :: repeat (Deliver 0%nat 0) 10.

Lemma wlog_ok_facts :
  let c := run rr_fixed 3 wlog_ok in
  ack_diverged_b (c_hist c) = false /\ old_term_commit_b (c_hist c) = false /\
  map n_commit (c_nodes c) = [2; 2; 2] /\
  map n_logs (c_nodes c) = [[mkEntry 1 1 11; mkEntry 2 1 12]; [mkEntry 1 1 11; mkEntry 2 1 12]; [mkEntry 1 1 11; mkEntry 2 1 12]].
Proof. vm_compute. repeat split; reflexivity. Qed.
