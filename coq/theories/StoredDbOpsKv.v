(* StoredDbOpsKv.v — proofs (stored database): DbKeyValues (db_key_value.rs) as programs over the storage
   (StoredDbOps.v): the vector of element slots + the elements' DbVec<DbKeyValue>.

     kvrep g vh vs vi vw kvs   the values component of stored_db on its own: the slot vector (vrep for u64), one
                               DbVec<DbKeyValue> per non-zero slot (sd_kv_rep), pairwise distinct footprints
     kv_step_vec / kv_step_slot  an operation on the slot vector / on one element's vector under a frame
     kvrep_view / kvrep_at     what kvrep says of one position n: the slot, the witness of the element's vector, its pairs
     slot_keep / slot_keep_but / slot_alloc   what an operation does to the slot vector: allocated slots (<> 0) stay
                               allocated (but one: `remove`), the slot worked on is allocated afterwards.  The specifications
                               of StoredDbOpsKv2/3/4.v expose it: the removal of an element WITHOUT properties needs to know
                               that its vector was allocated (so_slot_valid), which only the history can tell. *)
From Coq Require Import Permutation.
From Agdb Require Import Bytes DbValue DbModel Collections CollValues CollVecBase CollVec CollElems CollSep CollMap
  CollValuesProofs StoredDbRep StoredDbFrame.
From Coq Require Import ZifyBool ZifyNat ZifyN.
Ltac Zify.zify_post_hook ::= Z.div_mod_to_equations.
Open Scope N_scope.
Arguments N.add : simpl never.
Arguments N.mul : simpl never.
Arguments N.sub : simpl never.
Arguments N.of_nat : simpl never.
Arguments N.to_nat : simpl never.
Arguments N.eqb : simpl never.
Arguments N.ltb : simpl never.
Arguments N.leb : simpl never.
Arguments N.div : simpl never.

Notation vrepU := (vrep N ce_u64 law_u64).
Notation footU := (foot N ce_u64 law_u64).
Notation vrepK := (vrep kv ce_dbkv law_dbkv).
Notation footK := (foot kv ce_dbkv law_dbkv).
Notation kvslot := (option (cv_vec * list bytes))%type.

Definition kvs_pad (s : kvstore) (n : nat) : kvstore := s ++ repeat [] (S n - length s).

Lemma kvs_set_nth_pad : forall n (s : kvstore) v, kvs_set_nth (kvs_pad s n) n v = kvs_set_nth s n v.
Proof.
  unfold kvs_pad. induction n as [|n IH]; intros [|x t] v; cbn [length Nat.sub repeat app kvs_set_nth].
  - reflexivity.
  - rewrite app_nil_r. reflexivity.
  - f_equal. specialize (IH [] v). cbn [length app] in IH. rewrite Nat.sub_0_r in IH. exact IH.
  - f_equal. apply IH.
Qed.

Lemma kvs_set_nth_same : forall n (s : kvstore), (n < length s)%nat -> kvs_set_nth s n (nth n s []) = s.
Proof. induction n as [|n IH]; intros [|x t] H; cbn [length] in H; try lia; cbn [kvs_set_nth nth]; [reflexivity|rewrite IH by lia; reflexivity]. Qed.

Lemma kvs_pad_length s n : (n < length (kvs_pad s n))%nat.
Proof. unfold kvs_pad. rewrite app_length, repeat_length. lia. Qed.

Lemma kvs_pad_nth s n : nth n (kvs_pad s n) [] = nth n s [].
Proof.
  unfold kvs_pad. destruct (Nat.lt_ge_cases n (length s)) as [H|H].
  - rewrite app_nth1 by exact H. reflexivity.
  - rewrite app_nth2 by exact H. rewrite (nth_overflow s) by exact H.
    destruct (nth_in_or_default (n - length s) (repeat (@nil kv) (S n - length s)) []) as [I|E]; [|exact E].
    apply repeat_spec in I. exact I.
Qed.

Lemma kvs_pad_in s n : (n < length s)%nat -> kvs_pad s n = s.
Proof. intros H. unfold kvs_pad. replace (S n - length s)%nat with 0%nat by lia. apply app_nil_r. Qed.

Lemma kvs_pad_reserve kvs n : kvs_pad kvs n = if Nat.ltb n (length kvs) then kvs else kvs_set_nth kvs n [].
Proof.
  destruct (Nat.ltb_spec n (length kvs)) as [Hl|Hl]; [apply kvs_pad_in; exact Hl|].
  transitivity (kvs_set_nth (kvs_pad kvs n) n (nth n (kvs_pad kvs n) [])); [symmetry; apply kvs_set_nth_same, kvs_pad_length|].
  rewrite kvs_set_nth_pad, kvs_pad_nth, nth_overflow by exact Hl. reflexivity.
Qed.

Lemma kvs_set_nth_mid (ka : kvstore) l kb v : kvs_set_nth (ka ++ l :: kb) (length ka) v = ka ++ v :: kb.
Proof. induction ka as [|x t IH]; cbn [app length kvs_set_nth]; [reflexivity|rewrite IH; reflexivity]. Qed.

Lemma nth_mid {A} (a : list A) x b d : nth (length a) (a ++ x :: b) d = x.
Proof. rewrite app_nth2 by lia. rewrite Nat.sub_diag. reflexivity. Qed.

Lemma nth_error_mid {A} (a : list A) x b : nth_error (a ++ x :: b) (length a) = Some x.
Proof. rewrite nth_error_app2 by lia. rewrite Nat.sub_diag. reflexivity. Qed.

Lemma cl_upd_mid {A} (a : list A) x b y : cl_upd (a ++ x :: b) (length a) y = a ++ y :: b.
Proof. induction a as [|z t IH]; cbn [app length cl_upd]; [reflexivity|rewrite IH; reflexivity]. Qed.

Lemma split_at {A} (l : list A) n : (n < length l)%nat -> exists a x b, l = a ++ x :: b /\ length a = n.
Proof.
  revert l. induction n as [|n IH]; intros [|y t] H; cbn [length] in H; try lia.
  - exists [], y, t. split; reflexivity.
  - destruct (IH t) as (a & x & b & -> & <-); [lia|]. exists (y :: a), x, b. split; reflexivity.
Qed.

(* a slot <> 0 holds the index of the element's property vector; DbKeyValues never frees one except in `remove` *)
Definition slot_keep (vi vi' : list N) : Prop := forall n, nth n vi 0 <> 0 -> nth n vi' 0 <> 0.
(* every allocated slot but k stays allocated *)
Definition slot_keep_but (k : nat) (vi vi' : list N) : Prop := forall n, n <> k -> nth n vi 0 <> 0 -> nth n vi' 0 <> 0.
(* ... and slot k is allocated afterwards *)
Definition slot_alloc (k : nat) (vi vi' : list N) : Prop := slot_keep vi vi' /\ nth k vi' 0 <> 0.

Lemma slot_keep_refl vi : slot_keep vi vi.
Proof. intros n H. exact H. Qed.
Lemma slot_keep_trans a b c : slot_keep a b -> slot_keep b c -> slot_keep a c.
Proof. intros H1 H2 n H. apply H2, H1, H. Qed.
Lemma slot_keep_app vi x : slot_keep vi (vi ++ x).
Proof.
  intros n H. destruct (Nat.lt_ge_cases n (length vi)) as [L|L]; [rewrite app_nth1 by exact L; exact H|].
  rewrite nth_overflow in H by exact L. contradiction H. reflexivity.
Qed.
Lemma nth_mid_other {A} (a : list A) x y b n d : n <> length a -> nth n (a ++ x :: b) d = nth n (a ++ y :: b) d.
Proof.
  intros Hn. destruct (Nat.lt_ge_cases n (length a)) as [L|L]; [rewrite !app_nth1 by exact L; reflexivity|].
  rewrite !app_nth2 by exact L. destruct (n - length a)%nat eqn:E; [lia|reflexivity].
Qed.
Lemma slot_keep_mid0 ia i ib : slot_keep (ia ++ 0 :: ib) (ia ++ i :: ib).
Proof.
  intros n H. destruct (Nat.eq_dec n (length ia)) as [->|Hn]; [rewrite nth_mid in H; contradiction H; reflexivity|].
  rewrite (nth_mid_other ia i 0 ib n 0 Hn). exact H.
Qed.

Definition slotfoot (w : kvslot) : list N := match w with None => [] | Some (h, bss) => footK h bss end.

Lemma sd_kv_foot_cons w r : sd_kv_foot (w :: r) = slotfoot w ++ sd_kv_foot r.
Proof. destruct w as [[h bss]|]; reflexivity. Qed.

Lemma sd_kv_foot_app a b : sd_kv_foot (a ++ b) = sd_kv_foot a ++ sd_kv_foot b.
Proof. induction a as [|w r IH]; [reflexivity|]. cbn [app]. rewrite !sd_kv_foot_cons, IH, app_assoc. reflexivity. Qed.

Lemma sd_kv_foot_mid a w b : sd_kv_foot (a ++ w :: b) = sd_kv_foot a ++ slotfoot w ++ sd_kv_foot b.
Proof. rewrite sd_kv_foot_app, sd_kv_foot_cons. reflexivity. Qed.

Lemma sd_kv_foot_none k : sd_kv_foot (repeat None k) = [].
Proof. induction k as [|k IH]; [reflexivity|exact IH]. Qed.

Lemma sd_kv_rep_lengths g : forall vi vw kvs, sd_kv_rep g vi vw kvs -> length vw = length vi /\ length kvs = length vi.
Proof.
  induction vi as [|i r IH]; intros [|w ws] [|l kvs] H; cbn [sd_kv_rep] in H; try contradiction; [split; reflexivity|].
  destruct H as [_ Hr]. destruct (IH _ _ Hr). cbn [length]. split; congruence.
Qed.

Lemma sd_kv_rep_app g : forall ia a ka ib b kb,
  sd_kv_rep g ia a ka -> sd_kv_rep g ib b kb -> sd_kv_rep g (ia ++ ib) (a ++ b) (ka ++ kb).
Proof.
  induction ia as [|i r IH]; intros [|w ws] [|l kvs] ib b kb H1 H2; cbn [sd_kv_rep app] in *; try contradiction; [exact H2|].
  destruct H1 as [Hs Hr]. split; [exact Hs|]. apply IH; assumption.
Qed.

Lemma sd_kv_rep_split g : forall ia a ka ib b kb,
  length a = length ia -> length ka = length ia ->
  sd_kv_rep g (ia ++ ib) (a ++ b) (ka ++ kb) -> sd_kv_rep g ia a ka /\ sd_kv_rep g ib b kb.
Proof.
  induction ia as [|i r IH]; intros [|w ws] [|l kvs] ib b kb L1 L2 H; cbn [length] in *; try lia; cbn [app sd_kv_rep] in *.
  - split; [exact I|exact H].
  - destruct H as [Hs Hr]. destruct (IH ws kvs ib b kb) as [A B]; [lia|lia|exact Hr|]. split; [split; assumption|exact B].
Qed.

Lemma sd_kv_rep_none g k : sd_kv_rep g (repeat 0 k) (repeat None k) (repeat [] k).
Proof. induction k as [|k IH]; cbn [repeat sd_kv_rep]; [exact I|]. split; [split; reflexivity|exact IH]. Qed.

(* the decomposition at a position *)
Lemma sd_kv_rep_at g vi vw kvs n :
  sd_kv_rep g vi vw kvs -> (n < length kvs)%nat ->
  exists ia i ib a w b ka l kb,
    vi = ia ++ i :: ib /\ vw = a ++ w :: b /\ kvs = ka ++ l :: kb /\ length ia = n /\ length a = n /\ length ka = n /\
    sd_kv_rep g ia a ka /\ sd_kv_slot_rep g i w l /\ sd_kv_rep g ib b kb.
Proof.
  intros H Hn. destruct (sd_kv_rep_lengths _ _ _ _ H) as [L1 L2].
  destruct (split_at vi n) as (ia & i & ib & -> & Lia); [lia|].
  destruct (split_at vw n) as (a & w & b & -> & La); [lia|].
  destruct (split_at kvs n) as (ka & l & kb & -> & Lka); [lia|].
  exists ia, i, ib, a, w, b, ka, l, kb. repeat (split; [first [reflexivity|assumption]|]).
  destruct (sd_kv_rep_split g ia a ka (i :: ib) (w :: b) (l :: kb)) as [A B]; [lia|lia|exact H|].
  cbn [sd_kv_rep] in B. destruct B as [Bs Br]. split; [exact A|]. split; assumption.
Qed.

Lemma sd_kv_rep_mid g ia i ib a w b ka l kb :
  sd_kv_rep g ia a ka -> sd_kv_slot_rep g i w l -> sd_kv_rep g ib b kb ->
  sd_kv_rep g (ia ++ i :: ib) (a ++ w :: b) (ka ++ l :: kb).
Proof. intros A S B. apply sd_kv_rep_app; [exact A|]. cbn [sd_kv_rep]. split; assumption. Qed.

Lemma ownedU bss : owned N ce_u64 law_u64 bss = [].
Proof. unfold owned. induction bss as [|b r IH]; [reflexivity|]. cbn [flat_map]. rewrite IH. reflexivity. Qed.

Lemma footU_eq h bss : footU h bss = [cv_index h].
Proof. unfold foot. rewrite ownedU. reflexivity. Qed.

Definition kvfoot (vh : cv_vec) (vs : list bytes) (vw : list kvslot) : list N := footU vh vs ++ sd_kv_foot vw.

Record kvrep (g : heap) (vh : cv_vec) (vs : list bytes) (vi : list N) (vw : list kvslot) (kvs : kvstore) : Prop := {
  kr_vec : vrepU g vh vs vi;
  kr_kv : sd_kv_rep g vi vw kvs;
  kr_nodup : NoDup (kvfoot vh vs vw)
}.

Lemma kvrep_live g vh vs vi vw kvs : kvrep g vh vs vi vw kvs -> live_all g (kvfoot vh vs vw).
Proof.
  intros [A B _]. apply live_all_app. split; [eapply vrep_live; exact A|eapply sd_kv_live; exact B].
Qed.

Lemma kvrep_heq g g' vh vs vi vw kvs : kvrep g vh vs vi vw kvs -> heq g' g -> kvrep g' vh vs vi vw kvs.
Proof.
  intros [A B C] Hm. constructor; [eapply vrep_heq; eauto| |exact C].
  eapply sd_transport_kv; [exact B|]. intros j _. apply Hm.
Qed.

(* the slot vector changes under a frame while the element vectors X stay *)
Lemma kv_step_vec_raw g g' vh vs vh' vs' vi' (X : list N) :
  NoDup (footU vh vs ++ X) -> live_all g X -> vrepU g' vh' vs' vi' -> frame g g' (footU vh vs) (footU vh' vs') ->
  NoDup (footU vh' vs' ++ X) /\ frame g g' (footU vh vs ++ X) (footU vh' vs' ++ X) /\ (forall j, In j X -> g' j = g j).
Proof.
  intros C Hl HR' Hf.
  destruct (sep_update g g' [] _ _ X Hf C) as (N' & F' & Same); [exact Hl|eapply vrep_nodup; exact HR'|].
  cbn [app] in *. split; [exact N'|split; [exact F'|exact Same]].
Qed.

Lemma kv_step_vec g g' vh vs vi vw kvs vh' vs' vi' :
  kvrep g vh vs vi vw kvs -> vrepU g' vh' vs' vi' -> frame g g' (footU vh vs) (footU vh' vs') ->
  sd_kv_rep g' vi vw kvs /\ NoDup (kvfoot vh' vs' vw) /\ frame g g' (kvfoot vh vs vw) (kvfoot vh' vs' vw).
Proof.
  intros [A B C] HR' Hf.
  destruct (kv_step_vec_raw g g' vh vs vh' vs' vi' _ C (sd_kv_live _ _ _ _ B) HR' Hf) as (N' & F' & Same).
  split; [eapply sd_transport_kv; [exact B|exact Same]|split; assumption].
Qed.

(* an operation on one element's vector under a frame: F' is the new footprint of that one slot (footK of the new vector;
   [] when the vector is freed) *)
Lemma kv_step_slot {g g' vh vs ia i ib a w b ka l kb} F' n :
  kvrep g vh vs (ia ++ i :: ib) (a ++ w :: b) (ka ++ l :: kb) ->
  length ia = n -> length a = n -> length ka = n ->
  frame g g' (slotfoot w) F' -> NoDup F' ->
  vrepU g' vh vs (ia ++ i :: ib) /\ sd_kv_rep g' ia a ka /\ sd_kv_rep g' ib b kb /\
  NoDup (footU vh vs ++ sd_kv_foot a ++ F' ++ sd_kv_foot b) /\
  frame g g' (kvfoot vh vs (a ++ w :: b)) (footU vh vs ++ sd_kv_foot a ++ F' ++ sd_kv_foot b).
Proof.
  intros H Lia La Lka Hf NF'. pose proof H as [A B C]. unfold kvfoot in *. rewrite sd_kv_foot_mid in *.
  destruct (sd_kv_rep_split g ia a ka (i :: ib) (w :: b) (l :: kb) (eq_trans La (eq_sym Lia)) (eq_trans Lka (eq_sym Lia)) B) as [Ba Bb]. cbn [sd_kv_rep] in Bb. destruct Bb as [Bs Bb].
  rewrite app_assoc in C.
  destruct (sep_update g g' (footU vh vs ++ sd_kv_foot a) _ _ (sd_kv_foot b) Hf C) as (N' & Fr & Same).
  { apply live_all_app. split; [apply live_all_app; split; [eapply vrep_live; exact A|eapply sd_kv_live; exact Ba]|eapply sd_kv_live; exact Bb]. }
  { exact NF'. }
  rewrite <- !app_assoc in N', Fr. rewrite <- app_assoc in C.
  split; [|split; [|split; [|split]]].
  - eapply vrep_transport; [exact A|]. intros j Hj. apply Same. apply in_or_app. left. apply in_or_app. left. exact Hj.
  - eapply sd_transport_kv; [exact Ba|]. intros j Hj. apply Same. apply in_or_app. left. apply in_or_app. right. exact Hj.
  - eapply sd_transport_kv; [exact Bb|]. intros j Hj. apply Same. apply in_or_app. right. exact Hj.
  - exact N'.
  - rewrite <- !app_assoc in Fr. exact Fr.
Qed.

(* position n: the slot, the witness of the element's vector, the element's pairs *)
Lemma kvrep_view g vh vs vi vw kvs n :
  kvrep g vh vs vi vw kvs -> (n < length kvs)%nat ->
  exists i w, nth_error vi n = Some i /\ nth_error vw n = Some w /\ sd_kv_slot_rep g i w (nth n kvs []).
Proof.
  intros H Hn.
  destruct (sd_kv_rep_at _ _ _ _ _ (kr_kv _ _ _ _ _ _ H) Hn) as (ia & i & ib & a & w & b & ka & l & kb & -> & -> & -> & <- & La & Lka & _ & Bs & _).
  exists i, w. split; [apply nth_error_mid|]. split; [rewrite <- La; apply nth_error_mid|]. rewrite <- Lka, nth_mid. exact Bs.
Qed.

Lemma kvrep_at g vh vs vi vw kvs n k bss :
  kvrep g vh vs vi vw kvs -> nth_error vw n = Some (Some (k, bss)) ->
  (n < length kvs)%nat /\ nth n vi 0 <> 0 /\ cv_index k = nth n vi 0 /\ vrepK g k bss (nth n kvs []).
Proof.
  intros H Hw. destruct (sd_kv_rep_lengths _ _ _ _ (kr_kv _ _ _ _ _ _ H)) as [L1 L2].
  assert (Hn : (n < length kvs)%nat) by (assert (n < length vw)%nat by (apply nth_error_Some; congruence); lia).
  destruct (kvrep_view _ _ _ _ _ _ n H Hn) as (i & w & Ei & Ew & Bs). rewrite Hw in Ew. injection Ew as <-.
  rewrite (nth_error_nth _ _ 0 Ei). exact (conj Hn Bs).
Qed.
