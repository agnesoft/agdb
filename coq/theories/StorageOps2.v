(* StorageOps2.v — the public operations
   resize_value, insert_bytes_at, replace_with_bytes, move_at and the reads. *)
From Agdb Require Import Bytes BytesProofs Records RecordsProofs RecordsTableProofs Storage StorageSpec
  StorageLayout StorageWp StorageOps.
From Coq Require Import ZifyBool ZifyNat ZifyN.
Open Scope N_scope.

Lemma tiles_set_tx s t rg : tiles (set_tx cdata s t) rg <-> tiles s rg.
Proof. unfold tiles, gtiles. st. tauto. Qed.

Section Ops2.
  Variable ops : store_ops cdata.
  Hypothesis CN : canon ops.

  (* a write inside a value *)
  Lemma write_value_spec s A i v B off bs (Q : ST -> unit -> Prop) E :
    tiles s (A ++ (i, v) :: B) -> off + lenN bs <= lenN v ->
    (forall s', tiles s' (A ++ (i, bs_write v (N.to_nat off) bs) :: B) -> tx s' = tx s ->
                dur (sdata s') = dur (sdata s) -> Q s' tt) ->
    wp (dwrite cdata ops (24 + slen A + 16 + off) bs) s Q E.
  Proof.
    intros T Hoff HQ. pose proof (tiles_elim _ _ T) as (Hcur & Hlen & TR & RW & Hv).
    destruct (cur_split _ _ _ _ _ T) as (Hcur2 & HLEN & HPL).
    apply (wp_dwrite ops CN); [lia|]. intros _.
    assert (HL' : length (bs_write v (N.to_nat off) bs) = length v) by (apply bs_write_within_length; unfold lenN in *; lia).
    assert (HLN : lenN (bs_write v (N.to_nat off) bs) = lenN v) by (unfold lenN; rewrite HL'; reflexivity).
    apply HQ; [|reflexivity|reflexivity].
    apply tiles_intro; st.
    - rewrite Hcur2, bs_write_inner with (off := N.to_nat off); [|lia|unfold lenN in *; lia].
      rewrite ser_app. cbn [ser]. unfold enc. cbn [fst snd]. rewrite HLN, <- !app_assoc. reflexivity.
    - unfold lenN. rewrite bs_write_length. unfold lenN in *. lia.
    - refine (eq_ind _ (fun L => trel (rtab s) L) TR _ _). symmetry. apply layout_same_len. exact HLN.
    - exact RW.
    - exact Hv.
  Qed.

  (* the live values after a value changed its size *)
  Lemma vpost_get s A i B v v' s' r' : i <> 0 -> vpost s A i B v' s' r' ->
    exists rg', tiles s' rg' /\
      (forall j, j <> 0 -> m_get rg' j = if j =? i then Some v' else m_get (A ++ (i, v) :: B) j) /\
      tx s' = tx s /\ dur (sdata s') = dur (sdata s).
  Proof.
    intros Hi (A2 & B2 & T' & _ & Hlm & Htx & Hdur). exists (A2 ++ (i, v') :: B2).
    split; [exact T'|]. split; [|auto].
    destruct (tiles_unique _ _ _ _ _ T' Hi) as [HA2 HB2].
    intros j Hj. destruct (N.eqb_spec j i) as [->|Hji].
    - apply m_get_mid, HA2.
    - rewrite !m_get_skip by assumption. apply lmap_get_eq; assumption.
  Qed.

  Lemma finish_vpost s s1 A i v B v' s2 r' :
    tx s1 = tx s + 1 -> dur (sdata s1) = dur (sdata s) -> i <> 0 -> vpost s1 A i B v' s2 r' ->
    tx s2 = tx s + 1 /\ opost s (fun j => if j =? i then Some v' else m_get (A ++ (i, v) :: B) j) (committed s2).
  Proof.
    intros Htx Hdur Hi VP. destruct (vpost_get _ _ _ _ v _ _ _ Hi VP) as (rg' & T' & Hg & Htx' & Hdur').
    split; [congruence|]. eapply opost_commit; [exact T'|exact Hg|congruence|congruence].
  Qed.

  Lemma insert_at_spec s rg i off bs :
    tiles s rg ->
    wp (insert_bytes_at cdata ops i off bs) s
       (fun s' _ => exists v, i <> 0 /\ m_get rg i = Some v /\
                              opost s (fun j => if j =? i then Some (v_insert_at v off bs) else m_get rg j) s')
       (fun s' e => e = SeNotFound /\ (i = 0 \/ m_get rg i = None) /\ s' = s).
  Proof.
    intros T. unfold insert_bytes_at. apply wp_bind. apply (lookup_spec s rg i); [exact T| |intros H; auto].
    intros A v B -> Hi HA HB.
    pose proof (m_get_mid _ A B i v HA) as Hget.
    apply wp_bind, wp_tx_begin. intros Htx.
    set (s1 := set_tx cdata s (tx s + 1)).
    assert (T1 : tiles s1 (A ++ (i, v) :: B)) by (apply tiles_set_tx; exact T).
    apply wp_bind. unfold ensure_size. cbn [r_size].
    destruct (N.leb_spec two64 (off + lenN bs)) as [|Hov]; [exact I|].
    destruct (N.ltb_spec (lenN v) (off + lenN bs)) as [Hgrow|Hfits].
    - eapply wp_mono; [apply (enlarge_value_spec ops CN); eassumption| |intros ? ? []].
      intros s2 r' VP. pose proof VP as (A2 & B2 & T2 & -> & Hlm & Htx2 & Hdur2).
      apply wp_bind. unfold value_start. cbn [r_pos].
      apply (write_value_spec s2 A2 i (pad_to v (off + lenN bs)) B2 off bs); [exact T2|rewrite lenN_pad_to; lia|].
      intros s3 T3 Htx3 Hdur3. rewrite bs_write_pad in T3 by lia.
      assert (VP3 : vpost s1 A i B (bs_write v (N.to_nat off) bs) s3
                          {| r_index := i; r_pos := 24 + slen A2; r_size := lenN (bs_write v (N.to_nat off) bs) |}).
      { exists A2, B2. split; [exact T3|]. split; [reflexivity|]. split; [exact Hlm|]. split; congruence. }
      destruct (finish_vpost s s1 A i v B _ s3 _ eq_refl eq_refl Hi VP3) as [Htx3' OP].
      apply (wp_tx_commit ops CN); [exact Htx3'|lia|].
      exists v. split; [exact Hi|]. split; [exact Hget|exact OP].
    - apply wp_ret. apply wp_bind. unfold value_start. cbn [r_pos].
      apply (write_value_spec s1 A i v B off bs); [exact T1|lia|].
      intros s3 T3 Htx3 Hdur3.
      assert (VP3 : vpost s1 A i B (bs_write v (N.to_nat off) bs) s3
                          {| r_index := i; r_pos := 24 + slen A; r_size := lenN (bs_write v (N.to_nat off) bs) |}).
      { exists A, B. split; [exact T3|]. split; [reflexivity|]. split; [reflexivity|]. split; assumption. }
      destruct (finish_vpost s s1 A i v B _ s3 _ eq_refl eq_refl Hi VP3) as [Htx3' OP].
      apply (wp_tx_commit ops CN); [exact Htx3'|lia|].
      exists v. split; [exact Hi|]. split; [exact Hget|exact OP].
  Qed.

  Lemma resize_spec s rg i new :
    tiles s rg ->
    wp (resize_value cdata ops i new) s
       (fun s' _ => exists v, i <> 0 /\ m_get rg i = Some v /\
                              opost s (fun j => if j =? i then Some (pad_to v new) else m_get rg j) s')
       (fun s' e => e = SeNotFound /\ (i = 0 \/ m_get rg i = None) /\ s' = s).
  Proof.
    intros T. unfold resize_value. apply wp_bind. apply (lookup_spec s rg i); [exact T| |intros H; auto].
    intros A v B -> Hi HA HB.
    pose proof (m_get_mid _ A B i v HA) as Hget.
    apply wp_bind, wp_tx_begin. intros Htx. cbn [r_size].
    set (s1 := set_tx cdata s (tx s + 1)).
    assert (T1 : tiles s1 (A ++ (i, v) :: B)) by (apply tiles_set_tx; exact T).
    assert (Fin : forall s2 r', vpost s1 A i B (pad_to v new) s2 r' ->
                    wp (tx_commit cdata ops (tx s + 1)) s2
                       (fun s' _ => exists v0, i <> 0 /\ m_get (A ++ (i, v) :: B) i = Some v0 /\
                           opost s (fun j => if j =? i then Some (pad_to v0 new) else m_get (A ++ (i, v) :: B) j) s')
                       (fun s' e => e = SeNotFound /\ (i = 0 \/ m_get (A ++ (i, v) :: B) i = None) /\ s' = s)).
    { intros s2 r' VP. destruct (vpost_get _ _ _ _ v _ _ _ Hi VP) as (rg' & T' & Hg & Htx' & Hdur').
      apply (wp_tx_commit ops CN); [rewrite Htx'; reflexivity|lia|].
      exists v. split; [exact Hi|]. split; [exact Hget|].
      eapply opost_commit; [exact T'|exact Hg|rewrite Htx'; reflexivity|rewrite Hdur'; reflexivity]. }
    apply wp_bind.
    destruct (N.ltb_spec (lenN v) new) as [Hgrow|Hngrow].
    - apply wp_bind. eapply wp_mono; [apply (enlarge_value_spec ops CN); eassumption| |intros ? ? []].
      intros s2 r' VP. apply wp_ret. apply Fin with (r' := r'). exact VP.
    - destruct (N.ltb_spec new (lenN v)) as [Hshrink|Hsame].
      + apply wp_bind. eapply wp_mono; [apply (shrink_value_spec ops CN); eassumption| |intros ? ? []].
        intros s2 r' VP. apply wp_ret. apply Fin with (r' := r'). exact VP.
      + apply wp_ret. assert (new = lenN v) by lia. subst new.
        apply Fin with (r' := {| r_index := i; r_pos := 24 + slen A; r_size := lenN (pad_to v (lenN v)) |}).
        exists A, B. rewrite pad_to_same. split; [exact T1|]. split; [reflexivity|]. split; [reflexivity|split; reflexivity].
  Qed.

  (* opost with a transaction open: the durable content does not move *)
  Lemma opost_open s F s' : tx s <> 0 -> opost s F s' ->
    exists rg', tiles s' rg' /\ (forall j, j <> 0 -> m_get rg' j = F j) /\ tx s' = tx s /\ dur (sdata s') = dur (sdata s).
  Proof.
    intros Ht (rg' & T' & HF & Htx & Hdur). exists rg'.
    split; [exact T'|]. split; [exact HF|]. split; [exact Htx|].
    destruct (N.eqb_spec (tx s) 0); [congruence|exact Hdur].
  Qed.

  Lemma replace_spec s rg i bs :
    tiles s rg ->
    wp (replace_with_bytes cdata ops i bs) s
       (fun s' _ => i <> 0 /\ m_get rg i <> None /\ opost s (fun j => if j =? i then Some bs else m_get rg j) s')
       (fun s' e => e = SeNotFound /\ (i = 0 \/ m_get rg i = None) /\ s' = set_tx cdata s (tx s + 1)).
  Proof.
    intros T. unfold replace_with_bytes. apply wp_bind, wp_tx_begin. intros Htx.
    set (s1 := set_tx cdata s (tx s + 1)).
    assert (T1 : tiles s1 rg) by (apply tiles_set_tx; exact T).
    assert (Ht1 : tx s1 <> 0) by (unfold s1; st; lia).
    apply wp_bind. eapply wp_mono; [apply (insert_at_spec s1 rg i 0 bs T1)| |intros s' e H; exact H].
    intros s2 _ (v & Hi & Hget & OP2).
    destruct (opost_open _ _ _ Ht1 OP2) as (rg2 & T2 & Hg2 & Htx2 & Hdur2).
    assert (Ht2 : tx s2 <> 0) by congruence.
    apply wp_bind. eapply wp_mono; [apply (resize_spec s2 rg2 i (lenN bs) T2)| |].
    2:{ intros s' e (_ & Hnone & _). exfalso. rewrite (Hg2 i Hi), N.eqb_refl in Hnone. destruct Hnone; congruence. }
    intros s3 _ (v2 & _ & Hget2 & OP3).
    destruct (opost_open _ _ _ Ht2 OP3) as (rg3 & T3 & Hg3 & Htx3 & Hdur3).
    apply (wp_tx_commit ops CN); [rewrite Htx3, Htx2; reflexivity|lia|].
    split; [exact Hi|]. split; [congruence|].
    eapply opost_commit; [exact T3| |rewrite Htx3, Htx2; reflexivity|rewrite Hdur3, Hdur2; reflexivity].
    intros j Hj. rewrite (Hg3 j Hj). destruct (N.eqb_spec j i) as [->|Hji].
    - rewrite (Hg2 i Hi), N.eqb_refl in Hget2. injection Hget2 as <-. unfold v_insert_at.
      change (N.to_nat 0) with 0%nat. rewrite pad_to_write0. reflexivity.
    - rewrite (Hg2 j Hj). destruct (N.eqb_spec j i); [congruence|reflexivity].
  Qed.

  Definition read_err (s : ST) (rg : list region) (i : N) (bad : bytes -> Prop) (s' : ST) (e : serr) : Prop :=
    s' = s /\ ((e = SeNotFound /\ (i = 0 \/ m_get rg i = None)) \/
               (e = SeOutOfBounds /\ exists v, i <> 0 /\ m_get rg i = Some v /\ bad v)).

  Lemma value_size_spec s rg i :
    tiles s rg ->
    wp (value_size cdata i) s
       (fun s' n => s' = s /\ exists v, i <> 0 /\ m_get rg i = Some v /\ n = lenN v)
       (read_err s rg i (fun _ => False)).
  Proof.
    intros T. unfold value_size. apply wp_bind. apply (lookup_spec s rg i); [exact T| |intros H; split; auto].
    intros A v B -> Hi HA HB. apply wp_ret. split; [reflexivity|]. exists v. split; [exact Hi|].
    rewrite (m_get_mid _ A B i v HA). auto.
  Qed.

  Lemma value_at_size_spec s rg i off n :
    tiles s rg ->
    wp (value_as_bytes_at_size cdata ops i off n) s
       (fun s' b => s' = s /\ exists v, i <> 0 /\ m_get rg i = Some v /\ off <= lenN v /\ off + n <= lenN v /\
                                        b = bs_read v (N.to_nat off) (N.to_nat n))
       (read_err s rg i (fun v => lenN v < off \/ lenN v < off + n)).
  Proof.
    intros T. unfold value_as_bytes_at_size. apply wp_bind. apply (lookup_spec s rg i); [exact T| |intros H; split; auto].
    intros A v B -> Hi HA HB. cbn [r_size].
    pose proof (m_get_mid _ A B i v HA) as Hget.
    destruct (cur_split _ _ _ _ _ T) as (Hcur2 & HLEN & HPL).
    apply wp_bind. unfold validate_read_size.
    destruct (N.ltb_spec (lenN v) off) as [Hb1|Hok1].
    { split; [reflexivity|]. right. split; [reflexivity|]. exists v. auto. }
    destruct (N.leb_spec two64 (off + n)) as [|Hov]; [exact I|].
    destruct (N.ltb_spec (lenN v) (off + n)) as [Hb2|Hok2].
    { split; [reflexivity|]. right. split; [reflexivity|]. exists v. auto. }
    apply wp_ret. unfold value_start. cbn [r_pos].
    apply (wp_dread ops CN); [lia|].
    split; [reflexivity|]. exists v. split; [exact Hi|]. split; [exact Hget|]. split; [exact Hok1|]. split; [exact Hok2|].
    rewrite Hcur2. apply bs_read_inner; [lia|unfold lenN in *; lia].
  Qed.

  Lemma value_at_spec s rg i off :
    tiles s rg ->
    wp (value_as_bytes_at cdata ops i off) s
       (fun s' b => s' = s /\ exists v, i <> 0 /\ m_get rg i = Some v /\ off <= lenN v /\ b = skipn (N.to_nat off) v)
       (read_err s rg i (fun v => lenN v < off)).
  Proof.
    intros T. unfold value_as_bytes_at. apply wp_bind.
    eapply wp_mono; [apply (value_size_spec s rg i T)| |].
    2:{ intros s' e (-> & [H|(_ & v & _ & _ & [])]). split; [reflexivity|left; exact H]. }
    intros s' n (-> & v & Hi & Hget & ->).
    eapply wp_mono; [apply (value_at_size_spec s rg i off _ T)| |].
    - intros s' b (-> & v' & _ & Hget' & Hoff & Hn & ->). assert (v' = v) by congruence. subst v'.
      split; [reflexivity|]. exists v. split; [exact Hi|]. split; [exact Hget|]. split; [exact Hoff|].
      unfold bs_read. apply firstn_all2. rewrite skipn_length. unfold lenN in *. lia.
    - intros s' e (-> & [H|(-> & v' & _ & Hget' & Hbad)]); (split; [reflexivity|]); [left; exact H|].
      right. split; [reflexivity|]. assert (v' = v) by congruence. subst v'. exists v. split; [exact Hi|]. split; [exact Hget|].
      destruct Hbad; lia.
  Qed.

  Lemma value_spec s rg i :
    tiles s rg ->
    wp (value_as_bytes cdata ops i) s
       (fun s' b => s' = s /\ i <> 0 /\ m_get rg i = Some b)
       (fun s' e => s' = s /\ e = SeNotFound /\ (i = 0 \/ m_get rg i = None)).
  Proof.
    intros T. unfold value_as_bytes. eapply wp_mono; [apply (value_at_spec s rg i 0 T)| |].
    - intros s' b (-> & v & Hi & Hget & _ & ->). auto.
    - intros s' e (-> & [[-> H]|(_ & v & _ & _ & Hbad)]); [auto|lia].
  Qed.

  Lemma move_spec s rg i from to size :
    tiles s rg ->
    wp (move_at cdata ops i from to size) s
       (fun s' _ => exists v, i <> 0 /\ m_get rg i = Some v /\ from <= lenN v /\ from + size <= lenN v /\
                              opost s (fun j => if j =? i then Some (v_move v from to size) else m_get rg j) s')
       (read_err s rg i (fun v => lenN v < from \/ lenN v < from + size)).
  Proof.
    intros T. unfold move_at. apply wp_bind.
    eapply wp_mono; [apply (value_at_size_spec s rg i from size T)| |intros s' e H; exact H].
    intros s' b (-> & v & Hi & Hget & Hf1 & Hf2 & ->).
    apply wp_bind, wp_tx_begin. intros Htx.
    set (s1 := set_tx cdata s (tx s + 1)).
    assert (T1 : tiles s1 rg) by (apply tiles_set_tx; exact T).
    assert (Ht1 : tx s1 <> 0) by (unfold s1; st; lia).
    set (b := bs_read v (N.to_nat from) (N.to_nat size)).
    apply wp_bind. eapply wp_mono; [apply (insert_at_spec s1 rg i to b T1)| |].
    2:{ intros s' e (_ & Hnone & _). exfalso. destruct Hnone; congruence. }
    intros s2 _ (v' & _ & Hget' & OP2). assert (v' = v) by congruence. subst v'.
    destruct (opost_open _ _ _ Ht1 OP2) as (rg2 & T2 & Hg2 & Htx2 & Hdur2).
    set (v1 := v_insert_at v to b) in *.
    apply wp_bind. apply (lookup_spec s2 rg2 i); [exact T2| |].
    2:{ intros Hnone. exfalso. rewrite (Hg2 i Hi), N.eqb_refl in Hnone. destruct Hnone; congruence. }
    intros A2 w B2 -> _ HA2 HB2.
    assert (w = v1).
    { pose proof (Hg2 i Hi) as E. rewrite (m_get_mid _ A2 B2 i w HA2), N.eqb_refl in E. congruence. }
    subst w.
    assert (Hlen1 : lenN v <= lenN v1).
    { unfold v1, v_insert_at, lenN. rewrite bs_write_length. lia. }
    assert (Fin : forall s3 w, tiles s3 (A2 ++ (i, w) :: B2) -> tx s3 = tx s2 -> dur (sdata s3) = dur (sdata s2) ->
                    w = v_move v from to size ->
                    wp (tx_commit cdata ops (tx s + 1)) s3
                       (fun s' _ => exists v0, i <> 0 /\ m_get rg i = Some v0 /\ from <= lenN v0 /\ from + size <= lenN v0 /\
                           opost s (fun j => if j =? i then Some (v_move v0 from to size) else m_get rg j) s')
                       (read_err s rg i (fun v => lenN v < from \/ lenN v < from + size))).
    { intros s3 w T3 Htx3 Hdur3 ->.
      apply (wp_tx_commit ops CN); [rewrite Htx3, Htx2; reflexivity|lia|].
      exists v. split; [exact Hi|]. split; [exact Hget|]. split; [exact Hf1|]. split; [exact Hf2|].
      eapply opost_commit; [exact T3| |rewrite Htx3, Htx2; reflexivity|rewrite Hdur3, Hdur2; reflexivity].
      intros j Hj. destruct (N.eqb_spec j i) as [->|Hji].
      - apply m_get_mid, HA2.
      - rewrite m_get_skip by assumption. rewrite <- (m_get_skip _ A2 B2 i v1 j Hji), (Hg2 j Hj).
        destruct (N.eqb_spec j i); [congruence|reflexivity]. }
    apply wp_bind. unfold erase_bytes, value_start. cbn [r_pos].
    destruct (N.ltb_spec from to) as [Hlt|Hnlt].
    - apply (write_value_spec s2 A2 i v1 B2 from); [exact T2|rewrite lenN_zeros; lia|].
      intros s3 T3 Htx3 Hdur3. apply (Fin s3 _ T3 Htx3 Hdur3). unfold v_move. fold b. fold v1.
      destruct (N.ltb_spec from to); [reflexivity|lia].
    - destruct (N.ltb_spec to from) as [Hgt|Heq].
      + apply (write_value_spec s2 A2 i v1 B2 (N.max (to + size) from)); [exact T2|rewrite lenN_zeros; lia|].
        intros s3 T3 Htx3 Hdur3. apply (Fin s3 _ T3 Htx3 Hdur3). unfold v_move. fold b. fold v1.
        destruct (N.ltb_spec from to); [lia|]. destruct (N.ltb_spec to from); [reflexivity|lia].
      + apply wp_ret. apply (Fin s2 _ T2 eq_refl eq_refl). unfold v_move. fold b. fold v1.
        destruct (N.ltb_spec from to); [lia|]. destruct (N.ltb_spec to from); [lia|reflexivity].
  Qed.
End Ops2.
