(* AuthProofsExamples.v — the batch sequence on which C25 evaluates its audit theorem (run against the
   scenario AuthProofsMatrix.mx_state). *)
From Agdb Require Import Bytes Auth.
Open Scope N_scope.

(* batches by a writer, a failing batch, a denied batch, a read-only batch, the server admin *)
Definition batch_trace : list event :=
  [ (0, Some 3, ReqDb 1 10 (OExecMut [QInsertNode 5; QSetValue [QRes 0; QId 1] 6; QCount]));
    (0, Some 3, ReqDb 1 10 (OExecMut [QInsertNode 8; QSelect [QId 99]]));           (* fails: no node 99 *)
    (0, Some 4, ReqDb 1 10 (OExecMut [QInsertNode 9]));                             (* denied: read role *)
    (0, Some 3, ReqDb 1 10 (OExecMut [QSearch; QSelect [QRes 0]]));                 (* read-only batch *)
    (0, Some 3, ReqDb 1 10 (OExec [QCount]));
    (0, Some 0, ReqAdminDb 1 10 (OExecMut [QRemoveValue [QId 1]; QProbe PRemoveIndex])) ].
