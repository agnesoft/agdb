(* LoadOutcomeExample.v — every outcome of `load_outcome` that load_outcome_g_total allows occurs (non-vacuity of C07_db_load_total_partial):
   the stored example database of StoredDbExampleBase.v loads; one damaged byte in it (the type nibble of the first
   index key) gives the listed panic at OPEN — an error once the type check is in; a missing root record, a short root
   record, a legacy-sized root record. *)
From Agdb Require Import Bytes Utf8 Codec DbValue ValueIndex Graph DbModel Records Storage StorageSpec Collections CollValues
  StoredDb StoredDbExampleBase LoadOutcome.
Open Scope N_scope.

Definition lo_set_byte (bs : bytes) (off : nat) (b : byte) : bytes := firstn off bs ++ [b] ++ skipn (S off) bs.
(* the record of the DbVec<DbIndexStorageIndex>: the fifth word of the root record *)
Definition lo_ex_ixrec : N := sx_word (sx_rec 1) 4.
(* entry 0 starts at offset 8; its value index ends with the type/size byte at 8 + 15 *)
Definition lo_ex_damaged : vmap := m_put sx_store lo_ex_ixrec (lo_set_byte (sx_rec lo_ex_ixrec) 23 x00).

Lemma lo_ex_loads : load_outcome sx_store 1 = Loaded sx_db /\ lo_open_class sx_store 1 = 0 /\ lo_phase vg_current (lo_limit sx_store) sx_store 1 = 2.
Proof. vm_compute. repeat split; reflexivity. Qed.

Lemma lo_ex_panic :
  load_outcome lo_ex_damaged 1 = LPanic /\ lo_open_class lo_ex_damaged 1 = 2 /\
  load_outcome_g vg_fixed (lo_limit lo_ex_damaged) lo_ex_damaged 1 = LErr.
Proof. vm_compute. repeat split; reflexivity. Qed.

Definition lo_ex_legacy : vmap :=
  [(1, repeat x00 32 ++ le64 2);                               (* 40 bytes: graph, aliases x 2, indexes = 0, values = 2 *)
   (2, le64 0 ++ le64 3 ++ le64 3 ++ le64 3);                  (* a table record: len 0, three empty vectors *)
   (3, le64 0)].

Lemma lo_ex_others :
  load_outcome [] 1 = LFresh /\
  load_outcome [(1, repeat x00 39)] 1 = LErr /\
  load_outcome [(1, repeat x00 40)] 1 = LErr /\
  load_outcome lo_ex_legacy 1 = LLegacy /\
  load_outcome [(1, repeat x00 48)] 1 = LErr.
Proof. vm_compute. repeat split; reflexivity. Qed.
