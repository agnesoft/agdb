(* HistoryAtomicProofs.v — C13 for ALL query kinds and the invariant across FAILING queries:
   from a state satisfying `HInv` (= the joint invariant Inv of C09/C10/C11 with graph wf, the C13
   well-formedness db_ok, and an empty undo stack)
     * a failing query is rolled back to an observationally equal state, which satisfies HInv again;
     * a failing transaction (a failing query at any point, or a failure injected after the last query)
       likewise;  a succeeding query / transaction is committed to a state satisfying HInv;
     * hence, by induction, the same at every point of every history of queries and transactions.
   Side conditions: `query_ok` (no insert list names a key twice — C09's quantifier, needed by the
   unique-keys component of both invariants) and the capacity bound 2^63 on the state reached before the
   commit / rollback (ids fit i64; at 2^63 the free-list sentinel i64::MIN would collide with a slot). *)
From Agdb Require Import Bytes BytesProofs DbValue Graph DbModel Search Queries Revisions
  GraphSim GraphWf GraphLive AliasProofs KvProofs KvDbProofs
  IndexProofs IndexDbProofs IndexDb3Proofs IndexInvProofs
  DbInvProofs QStepProofs QueryInvProofs TraversalLiveProofs DbInvariantProofs SliceProofs NoPanicProofs.
From Agdb Require Import UndoBase UndoObs UndoAlias UndoKv UndoGraphBase UndoGraph UndoAbs UndoDb UndoBridge
  UndoMain UndoFinal UndoLift RollbackInvProofs PstepOpsProofs WfRepProofs.
From Coq Require Import Permutation ZifyBool ZifyNat ZifyN.
Ltac Zify.zify_post_hook ::= Z.div_mod_to_equations.
Open Scope Z_scope.

Definition HInv (d : db) : Prop := Inv d /\ db_ok d /\ undo d = [].

Lemma HInv_new : HInv db_new.
Proof. split; [exact Inv_new|]. split; [exact db_ok_new|reflexivity]. Qed.

(* the strong form of "no observable effect": obs_eq + same degree counters + same ids handed out next *)
Definition restored (d d' : db) : Prop :=
  obs_eq d d' /\
  (forall n, slot_kind (gr d) n = KNode ->
     edge_count_from (gr d) n = edge_count_from (gr d') n /\ edge_count_to (gr d) n = edge_count_to (gr d') n) /\
  (forall k, capacity (gr d) + Z.of_nat k <= two63z -> capacity (gr d') + Z.of_nat k <= two63z ->
     next_slots k (gr d) = next_slots k (gr d')).

(* histories: single queries (each its own transaction) and explicit transactions *)
Inductive hitem := HQuery (q : query) | HTxn (qs : list query) (fail_at_end : bool).

Definition item_ok (it : hitem) : Prop :=
  match it with HQuery q => query_ok q | HTxn qs _ => Forall query_ok qs end.

Section Atomic.
  Variable rv : revision.
  Hypothesis Hrv : fix_rollback_replace rv = true.
  Hypothesis Hsteal : fix_alias_steal_undo rv = true.
  Hypothesis Hfix : fix_alias_nodes_only rv = true.
  Hypothesis Hnia : fix_nodes_ids_alias rv = true.
  Hypothesis Hclamp : fix_slice_clamp rv = true.
  Hypothesis Hsearch : search_live rv.

  Notation reach := (PstepOpsProofs.reach rv).

  Lemma rollback_restores_HInv d d1 :
    HInv d -> Inv d1 -> reach d d1 -> capacity (gr d1) <= two63z ->
    exists d', rollback rv d1 = ROk d' /\ restored d d' /\ HInv d'.
  Proof.
    intros (Hi & Hok & Hu) Hi1 [_ Hr] Hb. pose proof (Hr Hok Hb) as Hp.
    destruct (rollback_restores rv Hrv Hsteal d d1 Hok Hu Hp Hb) as (d' & Hroll & S).
    destruct (sim_observable d' d S) as (Ho & Hdeg & Hnext & Hok').
    destruct (psteps_uok rv Hsteal d d1 Hp (proj1 Hi)) as [_ Hu1]; [unfold uok; rewrite Hu; constructor|].
    destruct (rollback_wf_bij rv d1 d' Hroll Hu1 (proj1 Hi1) (proj1 (proj2 Hi1))) as [W B].
    exists d'. split; [exact Hroll|]. split; [exact (conj Ho (conj Hdeg Hnext))|].
    split; [exact (Inv_of_sim d d' Hi S W B)|]. split; [exact Hok'|]. exact (rollback_undo rv d1 d' Hroll).
  Qed.

  Lemma commit_HInv d d1 :
    HInv d -> Inv d1 -> reach d d1 -> capacity (gr d1) <= two63z -> HInv (commit d1).
  Proof.
    intros (Hi & Hok & Hu) Hi1 [_ Hr] Hb. pose proof (Hr Hok Hb) as Hp.
    destruct (psteps_ok rv Hrv Hsteal d d1 Hok Hp Hb) as [Hok1 _].
    split; [exact Hi1|]. split; [|reflexivity].
    unfold commit, clear_undo. apply sim_undo_irrelevant. apply sim_sym. apply sim_undo_irrelevant. exact Hok1.
  Qed.

  Theorem exec_atomic d q :
    query_ok q -> HInv d -> capacity (gr (fst (exec_in_txn rv d q))) <= two63z ->
    HInv (fst (exec rv d q)) /\
    (is_failure (snd (exec rv d q)) = true ->
     restored d (fst (exec rv d q)) /\ snd (exec rv d q) = snd (exec_in_txn rv d q)).
  Proof.
    intros Hq Hd Hb. unfold exec.
    pose proof (exec_in_txn_reach rv Hrv Hsteal Hnia Hsearch d q Hq (proj1 Hd)) as Hr.
    pose proof (exec_in_txn_Inv rv Hsearch Hfix d q Hq (proj1 Hd)) as Hi.
    pose proof (exec_in_txn_no_panic rv Hclamp d q) as Hnp.
    destruct (exec_in_txn rv d q) as [d1 r]. cbn [fst snd] in *.
    destruct r as [n els|e|]; [| |congruence].
    - cbn [fst snd is_failure]. split; [now apply (commit_HInv d d1)|discriminate].
    - destruct (rollback_restores_HInv d d1 Hd Hi Hr Hb) as (d' & Hroll & Hres & Hd'). rewrite Hroll.
      cbn [fst snd]. split; [exact Hd'|]. intros _. split; [exact Hres|reflexivity].
  Qed.

  (* C13_exec_failure_restores *)
  Theorem exec_failure_restores_all d q d' e :
    query_ok q -> HInv d -> capacity (gr (fst (exec_in_txn rv d q))) <= two63z ->
    exec rv d q = (d', QErr e) -> restored d d' /\ HInv d'.
  Proof.
    intros Hq Hd Hb He. destruct (exec_atomic d q Hq Hd Hb) as [H1 H2]. rewrite He in H1, H2. cbn [fst snd] in *.
    split; [apply H2; reflexivity|exact H1].
  Qed.

  Definition txn_failed (d : db) (qs : list query) (fail_at_end : bool) : bool :=
    negb (snd (txn_run rv d qs []) && negb fail_at_end).

  Theorem transaction_atomic d qs fail_at_end :
    Forall query_ok qs -> HInv d -> capacity (gr (fst (fst (txn_run rv d qs [])))) <= two63z ->
    HInv (fst (transaction rv d qs fail_at_end)) /\
    snd (transaction rv d qs fail_at_end) = snd (fst (txn_run rv d qs [])) /\
    (txn_failed d qs fail_at_end = true -> restored d (fst (transaction rv d qs fail_at_end))).
  Proof.
    intros Hq Hd Hb. unfold transaction, txn_failed.
    pose proof (txn_run_reach rv Hrv Hsteal Hfix Hnia Hsearch qs d [] Hq (proj1 Hd)) as Hr.
    pose proof (txn_run_Inv_sl rv Hsearch Hfix qs d [] Hq (proj1 Hd)) as Hi.
    pose proof (txn_run_no_panic rv Hclamp qs d [] eq_refl) as Hnp.
    destruct (txn_run rv d qs []) as [[d1 results] all_ok]. cbn [fst snd] in *.
    change (existsb (fun r => match r with QPanic => true | _ => false end) results) with (existsb is_panic results).
    rewrite Hnp. destruct (all_ok && negb fail_at_end) eqn:Ec; cbn [negb].
    - cbn [fst snd]. split; [now apply (commit_HInv d d1)|]. split; [reflexivity|discriminate].
    - destruct (rollback_restores_HInv d d1 Hd Hi Hr Hb) as (d' & Hroll & Hres & Hd'). rewrite Hroll.
      cbn [fst snd]. split; [exact Hd'|]. split; [reflexivity|]. intros _. exact Hres.
  Qed.

  Definition run_item (d : db) (it : hitem) : db :=
    match it with
    | HQuery q => fst (exec rv d q)
    | HTxn qs f => fst (transaction rv d qs f)
    end.

  (* the state before the commit / rollback that ends the item *)
  Definition item_peak (d : db) (it : hitem) : db :=
    match it with
    | HQuery q => fst (exec_in_txn rv d q)
    | HTxn qs f => fst (fst (txn_run rv d qs []))
    end.

  Definition item_failed (d : db) (it : hitem) : bool :=
    match it with
    | HQuery q => is_failure (snd (exec rv d q))
    | HTxn qs f => txn_failed d qs f
    end.

  Definition run_items (d : db) (its : list hitem) : db := fold_left run_item its d.

  (* every id handed out along the history fits i64 *)
  Fixpoint bounded (d : db) (its : list hitem) : Prop :=
    match its with
    | [] => True
    | it :: r => capacity (gr (item_peak d it)) <= two63z /\ bounded (run_item d it) r
    end.

  Theorem item_atomic d it :
    item_ok it -> HInv d -> capacity (gr (item_peak d it)) <= two63z ->
    HInv (run_item d it) /\ (item_failed d it = true -> restored d (run_item d it)).
  Proof.
    intros Hok Hd Hb. destruct it as [q|qs f]; cbn [item_ok run_item item_peak item_failed] in *.
    - destruct (exec_atomic d q Hok Hd Hb) as [H1 H2]. split; [exact H1|]. intros Hf. now apply H2.
    - destruct (transaction_atomic d qs f Hok Hd Hb) as (H1 & _ & H3). now split.
  Qed.

  Lemma run_items_app d l1 l2 : run_items d (l1 ++ l2) = run_items (run_items d l1) l2.
  Proof. unfold run_items. apply fold_left_app. Qed.

  Lemma bounded_app d l1 l2 : bounded d (l1 ++ l2) -> bounded d l1 /\ bounded (run_items d l1) l2.
  Proof.
    revert d. induction l1 as [|it r IH]; intros d H; cbn [app bounded] in *; [now split|].
    destruct H as [H1 H2]. destruct (IH _ H2) as [H3 H4]. split; [now split|exact H4].
  Qed.

  Theorem history_HInv its : forall d,
    Forall item_ok its -> HInv d -> bounded d its -> HInv (run_items d its).
  Proof.
    induction its as [|it r IH]; intros d Hok Hd Hb; [exact Hd|].
    inversion Hok as [|? ? Hok1 Hok2]; subst. destruct Hb as [Hb1 Hb2]. cbn [run_items fold_left].
    apply (IH (run_item d it) Hok2); [|exact Hb2]. apply (item_atomic d it Hok1 Hd Hb1).
  Qed.

  (* C13_history_atomic: at every point of the history *)
  Theorem history_atomic d its pre it post :
    Forall item_ok its -> HInv d -> bounded d its -> its = pre ++ it :: post ->
    let a := run_items d pre in
    HInv a /\ HInv (run_item a it) /\ (item_failed a it = true -> restored a (run_item a it)).
  Proof.
    intros Hok Hd Hb ->. cbv zeta.
    apply Forall_app in Hok. destruct Hok as [Hok1 Hok2]. inversion Hok2 as [|? ? Hok3 _]; subst.
    destruct (bounded_app d pre (it :: post) Hb) as [Hb1 Hb2]. cbn [bounded] in Hb2. destruct Hb2 as [Hb2 _].
    pose proof (history_HInv pre d Hok1 Hd Hb1) as Ha. split; [exact Ha|].
    exact (item_atomic _ it Hok3 Ha Hb2).
  Qed.
End Atomic.

Definition run_item_fixed := run_item rv_fixed.
Definition run_items_fixed := run_items rv_fixed.

Theorem exec_failure_restores_fixed d q d' e :
  query_ok q -> HInv d -> capacity (gr (fst (exec_in_txn rv_fixed d q))) <= two63z ->
  exec rv_fixed d q = (d', QErr e) -> restored d d' /\ HInv d'.
Proof. exact (exec_failure_restores_all rv_fixed eq_refl eq_refl eq_refl eq_refl eq_refl search_live_fixed d q d' e). Qed.

Theorem transaction_atomic_fixed d qs fail_at_end :
  Forall query_ok qs -> HInv d -> capacity (gr (fst (fst (txn_run rv_fixed d qs [])))) <= two63z ->
  HInv (fst (transaction rv_fixed d qs fail_at_end)) /\
  snd (transaction rv_fixed d qs fail_at_end) = snd (fst (txn_run rv_fixed d qs [])) /\
  (txn_failed rv_fixed d qs fail_at_end = true -> restored d (fst (transaction rv_fixed d qs fail_at_end))).
Proof. exact (transaction_atomic rv_fixed eq_refl eq_refl eq_refl eq_refl eq_refl search_live_fixed d qs fail_at_end). Qed.

Theorem history_HInv_fixed its :
  Forall item_ok its -> bounded rv_fixed db_new its -> HInv (run_items rv_fixed db_new its).
Proof. intros Hok Hb. exact (history_HInv rv_fixed eq_refl eq_refl eq_refl eq_refl eq_refl search_live_fixed its db_new Hok HInv_new Hb). Qed.

Theorem history_wf_fixed its :
  Forall item_ok its -> bounded rv_fixed db_new its -> wf (gr (run_items rv_fixed db_new its)).
Proof. intros Hok Hb. apply (history_HInv_fixed its Hok Hb). Qed.

(* with the joint invariant `Inv` as the only assumption on the state: db_ok follows from Inv
   (WfRepProofs.Inv_db_ok) when the capacity fits i64 *)
Lemma HInv_of_Inv d : Inv d -> undo d = [] -> capacity (gr d) <= two63z -> HInv d.
Proof. intros Hi Hu Hc. split; [exact Hi|]. split; [now apply Inv_db_ok|exact Hu]. Qed.

Lemma HInv_cap d : HInv d -> capacity (gr d) <= two63z.
Proof. intros (_ & Hok & _). destruct (UndoStepsGraph.db_ok_rep d Hok) as (a & R). apply (r_cap _ _ _ _ R). Qed.
