(* AliasRollbackProofs.v — C10: a rejected InsertAliases query has no effect.  The undo commands
   recorded by DbImpl::insert_alias (with the alias-steal fix) restore, on every lookup, the alias
   map the query started from; graph, values and indexes are not touched at all. *)
From Agdb Require Import Bytes BytesProofs DbValue Graph DbModel Search Queries Revisions
  AssocProofs ImapProofs DbFrameProofs AliasProofs QStepProofs AliasQueryProofs.
Open Scope Z_scope.

Lemma insert_old_k_equiv m m' a id : imap_equiv m m' -> insert_old_k m a id = insert_old_k m' a id.
Proof. intros [Hv Hk]. unfold insert_old_k. now rewrite Hv, Hk. Qed.

Lemma imap_insert_equiv m m' a id : imap_equiv m m' -> imap_equiv (imap_insert m a id) (imap_insert m' a id).
Proof.
  intros He. pose proof He as [Hv Hk]. split.
  - intros x. rewrite !imap_insert_value_raw, (insert_old_k_equiv m m' a id He), Hv. reflexivity.
  - intros y. rewrite !imap_insert_key, Hv, Hk. reflexivity.
Qed.

Lemma imap_remove_key_equiv m m' a : imap_equiv m m' -> imap_equiv (imap_remove_key m a) (imap_remove_key m' a).
Proof.
  intros [Hv Hk]. split.
  - intros x. now rewrite !imap_remove_key_value, Hv.
  - intros y. now rewrite !imap_remove_key_key, Hv, Hk.
Qed.

Lemma bij_equiv m m' : imap_equiv m m' -> (forall a id, imap_value m a = Some id <-> imap_key m id = Some a) ->
  forall a id, imap_value m' a = Some id <-> imap_key m' id = Some a.
Proof. intros [Hv Hk] H a id. rewrite <- Hv, <- Hk. apply H. Qed.

Lemma remove_unmapped m a : imap_value m a = None -> imap_equiv (imap_remove_key m a) m.
Proof.
  intros Hn. split.
  - intros x. rewrite imap_remove_key_value. destruct (bytes_eqb_spec a x) as [->|]; [now rewrite Hn|reflexivity].
  - intros y. now rewrite imap_remove_key_key, Hn.
Qed.

Lemma remove_after_insert n a id :
  bij n -> imap_value n a = None -> imap_key n id = None ->
  imap_equiv (imap_remove_key (imap_insert n a id) a) n.
Proof.
  intros Hb Ha Hi. pose proof (bij_imap_insert n a id Hb) as Hb'. split.
  - intros x. rewrite imap_remove_key_value, (imap_insert_value n a id x Hb), Hi.
    destruct (bytes_eqb_spec a x) as [->|]; [now rewrite Ha|reflexivity].
  - intros y. rewrite imap_remove_key_key, (imap_insert_value n a id a Hb), bytes_eqb_refl, !imap_insert_key, Ha.
    destruct (Z.eqb_spec id y) as [->|]; [now rewrite Hi|reflexivity].
Qed.

Lemma insert_after_remove n a h :
  bij n -> imap_value n a = Some h -> imap_equiv (imap_insert (imap_remove_key n a) a h) n.
Proof.
  intros Hb Ha. pose proof (bij_imap_remove_key n a Hb) as Hb1.
  pose proof (proj1 (bij_value_key n a h Hb) Ha) as Hk. split.
  - intros x. rewrite (imap_insert_value _ a h x Hb1), imap_remove_key_key, Ha, Z.eqb_refl, imap_remove_key_value.
    destruct (bytes_eqb_spec a x) as [->|]; [now rewrite Ha|reflexivity].
  - intros y. rewrite imap_insert_key, imap_remove_key_value, bytes_eqb_refl, imap_remove_key_key, Ha.
    destruct (Z.eqb_spec h y) as [->|]; [now rewrite Hk|reflexivity].
Qed.

(* IndexedMap::insert first unmaps the alias anyway *)
Lemma insert_unmaps_first m a id :
  bij m -> imap_equiv (imap_insert m a id) (imap_insert (imap_remove_key m a) a id).
Proof.
  intros Hb. pose proof (bij_imap_remove_key m a Hb) as Hb1. split.
  - intros x. rewrite (imap_insert_value m a id x Hb), (imap_insert_value _ a id x Hb1).
    destruct (bytes_eqb_spec a x) as [->|Hax]; [reflexivity|].
    rewrite imap_remove_key_key, imap_remove_key_value.
    rewrite (bytes_eqb_neq a x Hax).
    destruct (imap_value m a) as [v|] eqn:Ev; [|reflexivity].
    destruct (Z.eqb_spec v id) as [->|]; [|reflexivity].
    apply (bij_value_key m a id Hb) in Ev. rewrite Ev.
    now rewrite (bytes_eqb_neq a x Hax).
  - intros y. rewrite !imap_insert_key, imap_remove_key_value, bytes_eqb_refl, imap_remove_key_key.
    destruct (id =? y); [reflexivity|]. destruct (imap_value m a) as [v|]; [|reflexivity].
    now destruct (v =? y).
Qed.

Definition alias_undo_map (m' : imap) (a : bytes) (holder : option Z) (id : Z) (old : option bytes) : imap :=
  let u0 := imap_remove_key m' a in
  let u1 := match holder with Some h => imap_insert u0 a h | None => u0 end in
  match old with Some o => imap_insert u1 o id | None => u1 end.

Lemma insert_alias_undo_equiv m id a :
  bij m ->
  let old := imap_key m id in
  let m1 := drop_alias m old in
  imap_equiv (alias_undo_map (imap_insert m1 a id) a (imap_value m1 a) id old) m.
Proof.
  intros Hb. cbv zeta. set (old := imap_key m id). set (m1 := drop_alias m old).
  assert (Hb1 : bij m1) by (apply drop_alias_bij; exact Hb).
  assert (Hm1 : imap_equiv m1 (match old with Some o => imap_remove_key m o | None => m end)).
  { unfold m1. destruct old as [o|]; [apply remove_twice_equiv|apply imap_equiv_refl]. }
  assert (Hk1 : imap_key m1 id = None).
  { rewrite (proj2 Hm1). unfold old. destruct (imap_key m id) as [o|] eqn:Eo; [|exact Eo].
    rewrite imap_remove_key_key. rewrite (proj2 (bij_value_key m o id Hb) Eo), Z.eqb_refl. reflexivity. }
  (* n = m1 without the alias a *)
  set (n := imap_remove_key m1 a).
  assert (Hbn : bij n) by (apply bij_imap_remove_key; exact Hb1).
  assert (Hna : imap_value n a = None) by (unfold n; now rewrite imap_remove_key_value, bytes_eqb_refl).
  assert (Hni : imap_key n id = None).
  { unfold n. rewrite imap_remove_key_key, Hk1. destruct (imap_value m1 a) as [v|]; [|reflexivity]. now destruct (v =? id). }
  (* u0 ~ n *)
  assert (Hu0 : imap_equiv (imap_remove_key (imap_insert m1 a id) a) n).
  { eapply imap_equiv_trans; [apply imap_remove_key_equiv, (insert_unmaps_first m1 a id Hb1)|].
    now apply remove_after_insert. }
  (* u1 ~ m1 *)
  assert (Hu1 : imap_equiv (match imap_value m1 a with
                            | Some h => imap_insert (imap_remove_key (imap_insert m1 a id) a) a h
                            | None => imap_remove_key (imap_insert m1 a id) a end) m1).
  { destruct (imap_value m1 a) as [h|] eqn:Eh.
    - eapply imap_equiv_trans; [apply imap_insert_equiv, Hu0|]. now apply insert_after_remove.
    - eapply imap_equiv_trans; [exact Hu0|]. now apply remove_unmapped. }
  unfold alias_undo_map. destruct old as [o|] eqn:Eo.
  - eapply imap_equiv_trans; [apply imap_insert_equiv, Hu1|].
    eapply imap_equiv_trans; [apply imap_insert_equiv, Hm1|].
    apply insert_after_remove; [exact Hb|]. apply (bij_value_key m o id Hb). exact Eo.
  - eapply imap_equiv_trans; [exact Hu1|exact Hm1].
Qed.

(* databases that differ only in the representation of the alias map *)
Definition db_equiv (d d' : db) : Prop :=
  gr d = gr d' /\ vals d = vals d' /\ indexes d = indexes d' /\ undo d = undo d' /\
  imap_equiv (aliases d) (aliases d').

Lemma db_equiv_refl d : db_equiv d d.
Proof. repeat split; reflexivity. Qed.

Lemma db_equiv_trans d1 d2 d3 : db_equiv d1 d2 -> db_equiv d2 d3 -> db_equiv d1 d3.
Proof.
  intros (A & B & C & D & E) (A' & B' & C' & D' & E'). repeat split; try congruence.
  - intros x. rewrite (proj1 E). apply E'.
  - intros y. rewrite (proj2 E). apply E'.
Qed.

Definition alias_cmd (c : command) : Prop :=
  match c with CInsertAlias _ _ | CRemoveAlias _ => True | _ => False end.

Section Rollback.
  Variable rv : revision.

  Lemma rollback_cmds_alias_equiv cs : forall d d',
    Forall alias_cmd cs -> db_equiv d d' ->
    exists r r', rollback_cmds rv d cs = ROk r /\ rollback_cmds rv d' cs = ROk r' /\ db_equiv r r'.
  Proof.
    induction cs as [|c cs IH]; intros d d' Hc He; [exists d, d'; auto|].
    inversion Hc as [|? ? Hc1 Hc2]; subst. destruct He as (A & B & C & D & E).
    destruct c; try contradiction; cbn [rollback_cmds undo_one].
    - apply IH; [exact Hc2|]. repeat split; try assumption; apply (imap_insert_equiv _ _ alias id E).
    - apply IH; [exact Hc2|]. repeat split; try assumption; apply (imap_remove_key_equiv _ _ alias E).
  Qed.

  Lemma rollback_cmds_alias_app l1 : forall d l2,
    Forall alias_cmd l1 ->
    rollback_cmds rv d (l1 ++ l2) =
    match rollback_cmds rv d l1 with ROk d1 => rollback_cmds rv d1 l2 | RErr e => RErr e end.
  Proof.
    induction l1 as [|c l1 IH]; intros d l2 Hc; [reflexivity|].
    inversion Hc as [|? ? Hc1 Hc2]; subst. destruct c; try contradiction; cbn [app rollback_cmds undo_one]; now apply IH.
  Qed.

  Hypothesis Hsteal : fix_alias_steal_undo rv = true.

  (* the undo commands pushed by one insert_alias, newest first *)
  Definition alias_new_cmds (m : imap) (id : Z) (a : bytes) : list command :=
    let old := imap_key m id in
    let m1 := drop_alias m old in
    CRemoveAlias a ::
    (match imap_value m1 a with Some h => [CInsertAlias h a] | None => [] end) ++
    (match old with Some o => [CInsertAlias id o] | None => [] end).

  Lemma insert_alias_undo d id a :
    undo (insert_alias rv d id a) = alias_new_cmds (aliases d) id a ++ undo d.
  Proof.
    unfold insert_alias, alias_new_cmds. rewrite Hsteal.
    destruct (imap_key (aliases d) id) as [old|]; cbn [drop_alias aliases with_aliases push_undo];
      match goal with |- context [imap_value ?m a] => destruct (imap_value m a) end; reflexivity.
  Qed.

  Lemma alias_new_cmds_alias m id a : Forall alias_cmd (alias_new_cmds m id a).
  Proof.
    unfold alias_new_cmds. cbv zeta. constructor; [exact I|]. apply Forall_app. split.
    - destruct (imap_value _ a); repeat constructor.
    - destruct (imap_key m id); repeat constructor.
  Qed.

  (* rolling the new commands back from the state after the insert gives the state before (up to the
     representation of the alias map), with the undo stack of the starting point of the rollback *)
  Lemma insert_alias_rollback_new d0 d id a :
    alias_bij d -> gr d0 = gr d -> vals d0 = vals d -> indexes d0 = indexes d ->
    aliases d0 = aliases (insert_alias rv d id a) ->
    exists r, rollback_cmds rv d0 (alias_new_cmds (aliases d) id a) = ROk r /\
              gr r = gr d /\ vals r = vals d /\ indexes r = indexes d /\ undo r = undo d0 /\
              imap_equiv (aliases r) (aliases d).
  Proof.
    intros Hb Hg Hv Hi Ha. rewrite insert_alias_aliases in Ha. unfold insert_alias_map in Ha.
    pose proof (insert_alias_undo_equiv (aliases d) id a Hb) as He. cbv zeta in He.
    unfold alias_new_cmds. cbv zeta.
    set (old := imap_key (aliases d) id) in *. set (m1 := drop_alias (aliases d) old) in *.
    unfold alias_undo_map in He. cbv zeta in He.
    change (match old with Some o => imap_remove_key (imap_remove_key (aliases d) o) o | None => aliases d end)
      with m1 in Ha.
    cbn [rollback_cmds undo_one app].
    destruct (imap_value m1 a) as [h|]; destruct old as [o|]; cbn [rollback_cmds undo_one app];
      eexists; (split; [reflexivity|]);
      cbn [gr vals indexes undo aliases with_aliases]; rewrite Ha;
      repeat split; try assumption; apply He.
  Qed.
End Rollback.

Section Query.
  Variable rv : revision.
  Hypothesis Hsteal : fix_alias_steal_undo rv = true.

  (* what is known of a state reached from d by alias insertions *)
  Definition alias_log_ok (d d1 : db) : Prop :=
    same_gvi d d1 /\ alias_bij d1 /\ Forall alias_cmd (undo d1) /\
    exists r, rollback_cmds rv (clear_undo d1) (undo d1) = ROk r /\ db_equiv r d.

  Lemma alias_log_ok_start d : alias_bij d -> undo d = [] -> alias_log_ok d d.
  Proof.
    intros Hb Hu. split; [repeat split|]. split; [exact Hb|]. split; [rewrite Hu; constructor|].
    rewrite Hu. cbn [rollback_cmds]. eexists. split; [reflexivity|].
    rewrite (clear_undo_id d Hu). apply db_equiv_refl.
  Qed.

  Lemma alias_log_ok_step d d1 id a : alias_log_ok d d1 -> alias_log_ok d (insert_alias rv d1 id a).
  Proof.
    intros ((Hg & Hv & Hi) & Hb & Hc & r & Hr & He).
    destruct (insert_alias_gvi rv d1 id a) as (Hg' & Hv' & Hi').
    split; [repeat split; congruence|]. split; [now apply insert_alias_bij|].
    rewrite (insert_alias_undo rv Hsteal). split; [apply Forall_app; split; [apply alias_new_cmds_alias|exact Hc]|].
    rewrite (rollback_cmds_alias_app rv _ _ _ (alias_new_cmds_alias (aliases d1) id a)).
    destruct (insert_alias_rollback_new rv (clear_undo (insert_alias rv d1 id a)) d1 id a Hb)
      as (r1 & Hr1 & G1 & V1 & I1 & U1 & E1); try assumption; try reflexivity.
    rewrite Hr1.
    assert (Heq : db_equiv r1 (clear_undo d1)).
    { repeat split; try assumption; apply E1. }
    destruct (rollback_cmds_alias_equiv rv (undo d1) r1 (clear_undo d1) Hc Heq) as (x & x' & Hx & Hx' & Hxx).
    rewrite Hr in Hx'. inversion Hx'; subst x'. exists x. split; [exact Hx|].
    now apply (db_equiv_trans x r d).
  Qed.

  (* a rejected InsertAliases query: error, and the database is as before (same graph, values,
     indexes, empty undo stack, an alias map that answers every lookup alike) *)
  Theorem insert_aliases_rejected_no_effect d ids (als : list bytes) :
    alias_bij d -> undo d = [] -> step_is_ok (insert_aliases rv d ids als) = false ->
    exists d2 e, exec rv d (InsertAliases ids als) = (d2, QErr e) /\ db_equiv d2 d.
  Proof.
    intros Hb Hu Hno. unfold exec, exec_in_txn. cbn [is_mutating exec_mut_step].
    assert (Hlog : alias_log_ok d (step_db (insert_aliases rv d ids als))).
    { apply insert_aliases_inv; [now apply alias_log_ok_start|]. intros a q id b al Ha _ _. now apply alias_log_ok_step. }
    pose proof (insert_aliases_no_panic rv d ids als) as Hp.
    destruct (insert_aliases rv d ids als) as [d1 [n els]|d1 e|d1]; [discriminate| |contradiction].
    cbn [step_db] in Hlog. destruct Hlog as (_ & _ & _ & r & Hr & He).
    unfold rollback. rewrite Hr. exists r, e. split; [reflexivity|exact He].
  Qed.
End Query.

(* the defect of the pinned code (no undo record for the previous holder) *)
Definition c10_steal_history : list query := [InsertNodes 2 (Single []) [[x78]] (Ids [])].
Definition c10_steal_query : query := InsertAliases (Ids [QId 2; QId 1]) [[x78]; []].
