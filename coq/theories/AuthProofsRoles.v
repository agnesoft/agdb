(* AuthProofsRoles.v — a removed role stays removed until somebody entitled grants it again (C24). *)
From Agdb Require Import Bytes Auth AuthProofs AuthProofsPerm.
Open Scope N_scope.

(* the caller may not grant roles on (o, d): unauthenticated, or neither the server admin, nor the
   owner name o, nor a db admin of (o, d) *)
Definition nongrant (s : state) (now : N) (tok : option N) (o d : N) : Prop :=
  match user_of_token s now tok with
  | None => True
  | Some u => u <> s_admin s /\ u <> o /\ role_of s u o d <> Some RoAdmin
  end.

Lemma nongrant_step_norole : forall s now tok req v o d,
  nongrant s now tok o d -> role_of s v o d = None -> role_of (snd (step s now tok req)) v o d = None.
Proof.
  intros s now tok req v o d W. unfold nongrant in W. unfold role_of.
  destruct (nonadmin_step s now tok req o d) as [E|(u & r & _ & F & [(_ & c & au & E)|E])].
  - intros u Ut. rewrite Ut in W. exact W.
  - rewrite E. auto.
  - rewrite E, F. auto.
  - rewrite E, F. cbn. rewrite lookup_drop. destruct (u =? v); auto.
Qed.

(* every request of the sequence is made by a `nongrant` caller, in the state reached at that point *)
Fixpoint all_nongrant (s : state) (tr : list event) (o d : N) : Prop :=
  match tr with
  | [] => True
  | (now, tok, req) :: t => nongrant s now tok o d /\ all_nongrant (snd (step s now tok req)) t o d
  end.

(* once user v has no role on (o, d), no sequence of requests by callers who may not grant roles on
   (o, d) gives it back (hence, by no_role_denied, v stays refused every operation on (o, d) unless v
   is the owner name) *)
Theorem removed_role_stays : forall tr s v o d,
  role_of s v o d = None -> all_nongrant s tr o d -> role_of (run s tr) v o d = None.
Proof.
  induction tr as [|[[now tok] req] tr IH]; intros s v o d H W; cbn [run]; [exact H|].
  destruct W as [W1 W2]. apply IH; [|exact W2]. apply nongrant_step_norole; assumption.
Qed.
