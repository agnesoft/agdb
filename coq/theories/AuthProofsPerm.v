(* AuthProofsPerm.v — the guards imply the documented permission; what a caller who is not entitled
   can do to a database: nothing (without write permission), no granting of roles (without admin
   rights) (C24). *)
From Agdb Require Import Bytes Auth AuthProofs.
From Coq Require Import Lia ZifyBool ZifyN.
Open Scope N_scope.

Definition proj {A} (g : dbrec -> A) (dbs : list dbrec) (o d : N) : option A :=
  match find_db dbs o d with Some r => Some (g r) | None => None end.

(* content and audit log of database (o, d), if it exists *)
Definition db_view (s : state) (o d : N) : option (content * list aentry) :=
  proj (fun r => (d_content r, d_audit r)) (s_dbs s) o d.

(* what the documentation requires, spelled out on the state *)
Definition permitted (s : state) (u o d : N) (op : dbop) : Prop :=
  match doc_perm (tag_of op) with
  | POwner => u = o
  | PAdmin => role_of s u o d = Some RoAdmin
  | PWrite => role_of s u o d = Some RoAdmin \/ role_of s u o d = Some RoWrite
  | PRead => role_of s u o d <> None
  end.

(* the one undocumented allowance: a user removing themselves *)
Definition self_remove (u : N) (op : dbop) : Prop := match op with OUserRemove t => t = u | _ => False end.

Theorem authorize_db_sound : forall s u o d op,
  authorize_db s u o d op = Allow -> permitted s u o d op \/ self_remove u op.
Proof.
  (* per endpoint and role of the caller, the guard's tests that let the request through give the
     equality or the role the table asks for *)
  intros s u o d op A. unfold permitted.
  destruct op; cbn [tag_of doc_perm self_remove]; unfold authorize_db, is_db_admin in A;
    destruct (role_of s u o d) as [[| |]|]; cbn in A; split_ifs A; try discriminate A;
    solve [left; (lia || congruence) | left; left; reflexivity | left; right; reflexivity | right; lia].
Qed.

Theorem admin_only : forall s now tok req,
  match req with
  | ReqAdminDbList | ReqAdminDb _ _ _ | ReqAdminUserAdd _ _ | ReqAdminUserChangePassword _ _
  | ReqAdminUserDelete _ | ReqAdminUserLogout _ _ | ReqAdminUserLogoutAll | ReqAdminUserList | ReqAdminStatus => True
  | _ => False
  end ->
  authorize s now tok req = Allow -> user_of_token s now tok = Some (s_admin s).
Proof.
  intros s now tok req Hreq A.
  destruct req; try contradiction; cbn [authorize] in A;
    destruct (user_of_token s now tok) as [cu|]; try discriminate A;
    destruct (cu =? s_admin s) eqn:E; cbn in A; try discriminate A; apply N.eqb_eq in E; subst; reflexivity.
Qed.

Theorem no_role_denied : forall s u o d op,
  role_of s u o d = None -> u <> o -> authorize_db s u o d op <> Allow.
Proof.
  intros s u o d op R U A. destruct (authorize_db_sound _ _ _ _ _ A) as [P|P].
  - unfold permitted in P. destruct (doc_perm (tag_of op)); try congruence. destruct P; congruence.
  - destruct op; cbn in P; try contradiction. subst.
    unfold authorize_db in A. rewrite R in A. cbn in A.
    destruct (o =? u); discriminate A.
Qed.

Lemma lookup_drop : forall rs c v,
  lookup_role (drop_role rs c) v = if c =? v then None else lookup_role rs v.
Proof.
  intros rs c v. unfold lookup_role, drop_role. induction rs as [|[a r] rs IH]; cbn.
  - destruct (c =? v); reflexivity.
  - destruct (a =? c) eqn:E1; cbn; destruct (a =? v) eqn:E2; rewrite ?IH; destruct (c =? v) eqn:E3;
      reflexivity || lia.
Qed.

(* an operation on (o, d) that the guards allow to a caller u who is neither the owner name nor a db
   admin leaves the database as it is, or (u a writer) replaces its content and audit log, or removes
   u's own role *)
Lemma nonadmin_apply_db : forall s u o d op,
  authorize_db s u o d op = Allow -> u <> o -> role_of s u o d <> Some RoAdmin ->
  exists r, find_db (s_dbs s) o d = Some r /\
    let r' := find_db (s_dbs (snd (apply_db s u o d op u))) o d in
    r' = Some r \/
    (role_of s u o d = Some RoWrite /\ exists c au, r' = Some (set_content_audit c au r)) \/
    r' = Some (set_roles (drop_role (d_roles r) u) r).
Proof.
  intros s u o d op A U R.
  destruct (role_of s u o d) as [ro|] eqn:Ro; [|destruct (no_role_denied _ _ _ _ op Ro U A)].
  pose proof Ro as F. unfold role_of in F. destruct (find_db (s_dbs s) o d) as [r|] eqn:Fr; [|discriminate F].
  exists r. split; [reflexivity|]. cbv zeta. unfold apply_db. rewrite Fr.
  destruct (authorize_db_sound _ _ _ _ _ A) as [P|P]; unfold permitted in P; rewrite ?Ro in P;
    destruct op; cbn in P; try contradiction; try congruence; cbn [snd].
  - (* audit *) auto.
  - (* copy *) dm; cbn [snd with_dbs s_dbs]; auto using find_db_app_some.
  - (* exec *) dm; auto.
  - (* exec_mut *)
    dm; cbn [snd with_dbs s_dbs]; auto. right; left. split; [destruct P; congruence|].
    eexists _, _. apply (find_db_update_same _ _ _ _ r Fr); reflexivity.
  - (* optimize *) auto.
  - (* user list *) auto.
  - (* user remove: self *)
    subst u0. right; right.
    apply (find_db_update_same _ _ _ (fun x => set_roles (drop_role (d_roles x) u) x) r Fr); reflexivity.
Qed.

(* the same for any request by a caller who is neither the server admin, nor the owner name o, nor a db
   admin of (o, d) (or is not authenticated) *)
Lemma nonadmin_step : forall s now tok req o d,
  (forall u, user_of_token s now tok = Some u ->
             u <> s_admin s /\ u <> o /\ role_of s u o d <> Some RoAdmin) ->
  let r' := find_db (s_dbs (snd (step s now tok req))) o d in
  r' = find_db (s_dbs s) o d \/
  exists u r, user_of_token s now tok = Some u /\ find_db (s_dbs s) o d = Some r /\
    ((role_of s u o d = Some RoWrite /\ exists c au, r' = Some (set_content_audit c au r)) \/
     r' = Some (set_roles (drop_role (d_roles r) u) r)).
Proof.
  intros s now tok req o d W. cbv zeta. unfold step.
  destruct (authorize s now tok req) eqn:A; [|left; reflexivity].
  destruct req; cbn [apply snd]; try (left; reflexivity);
    (* admin endpoints change databases, but their caller would be the server admin *)
    try (apply admin_only in A; [destruct (W _ A) as [[] _]; reflexivity|exact I]).
  cbn [authorize] in A. destruct (user_of_token s now tok) as [u|] eqn:Ut; [|discriminate A].
  destruct (W u eq_refl) as (_ & W2 & W3).
  destruct ((o0 =? o) && (d0 =? d)) eqn:K; [|left; apply apply_db_other; assumption].
  assert (o0 = o /\ d0 = d) as [-> ->] by lia.
  destruct (nonadmin_apply_db _ _ _ _ _ A W2 W3) as (r & F & [E|E]); [left; congruence|].
  right. exists u, r. auto.
Qed.

(* the caller of a request is unauthenticated, or is neither the server admin nor the owner name o
   and holds no role or only Read on (o, d) *)
Definition weak (s : state) (now : N) (tok : option N) (o d : N) : Prop :=
  match user_of_token s now tok with
  | None => True
  | Some u => u <> s_admin s /\ u <> o /\ (role_of s u o d = None \/ role_of s u o d = Some RoRead)
  end.

Lemma weak_step_view : forall s now tok req o d,
  weak s now tok o d -> db_view (snd (step s now tok req)) o d = db_view s o d.
Proof.
  intros s now tok req o d W. unfold weak in W. unfold db_view, proj.
  destruct (nonadmin_step s now tok req o d) as [E|(u & r & Ut & F & [[Ro _]|E])].
  - intros u Ut. rewrite Ut in W. destruct W as (W1 & W2 & [W3|W3]); rewrite W3; repeat split; congruence.
  - rewrite E. reflexivity.
  - rewrite Ut in W. destruct W as (_ & _ & [W3|W3]); congruence.
  - rewrite E, F. reflexivity.
Qed.

(* every request of the sequence is made by a `weak` caller, in the state reached at that point *)
Fixpoint all_weak (s : state) (tr : list event) (o d : N) : Prop :=
  match tr with
  | [] => True
  | (now, tok, req) :: t => weak s now tok o d /\ all_weak (snd (step s now tok req)) t o d
  end.
