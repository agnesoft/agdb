(* DeriveTypeProofs.v — C22: values of derived user types read back unchanged (model DeriveType.v). *)
From Agdb Require Import Bytes BytesProofs Utf8 Codec CodecProofs DbValue Graph DbModel Search Queries DeriveType.
From Agdb Require Import DbFrameProofs KvProofs KvDbProofs DbValueEqProofs KvSelectProofs DbInvProofs.
From Coq Require Import Lia ZifyBool ZifyNat ZifyN.
Open Scope N_scope.

Lemma omap_map_ok {A B} (f : A -> outcome B) (g : B -> A) (l : list B) :
  (forall x, In x l -> f (g x) = Ok x) -> omap f (map g l) = Ok l.
Proof.
  induction l as [|x l IH]; intros H; cbn [map omap]; [reflexivity|].
  rewrite (H x (or_introl eq_refl)). cbn [obind]. rewrite IH; [reflexivity|].
  intros y Hy. apply H. now right.
Qed.

Lemma opt_all_map_some {A B} (f : A -> option B) (g : B -> A) (l : list B) :
  (forall x, f (g x) = Some x) -> opt_all f (map g l) = Some l.
Proof. intros H. induction l as [|x l IH]; cbn [map opt_all]; [reflexivity|]. now rewrite H, IH. Qed.

Lemma deser_enc p t v : ty_ok t = true -> has_type t v = true -> deser p t (enc v) = Ok v.
Proof.
  intros Ht Hv. unfold deser. rewrite <- (app_nil_r (enc v)).
  now rewrite (roundtrip p guards_fixed t v [] Ht Hv).
Qed.

Lemma enc_vvec_nonempty (l : list val) : exists b r, enc (VVec l) = b :: r.
Proof. cbn [enc]. unfold le64. cbn [le app]. eexists. eexists. reflexivity. Qed.

(* a derive(DbValue) value as a DbValue, serialized inside a Vec<DbValue> *)
Definition wrap (v : val) : val := val_of_dbvalue (DBytes (enc v)).

Lemma wrap_has_type v : size v <? two60 = true -> has_type dbvalue_ty (wrap v) = true.
Proof.
  intros H. unfold wrap, val_of_dbvalue, dbvalue_ty. cbn [has_type pick_types has_types Nat.ltb Nat.leb].
  rewrite <- size_enc, H. reflexivity.
Qed.

Lemma wrap_back v : dbvalue_of_val (wrap v) = Some (DBytes (enc v)).
Proof. reflexivity. Qed.

Lemma opt_all_wrap (l : list val) : opt_all dbvalue_of_val (map wrap l) = Some (map (fun v => DBytes (enc v)) l).
Proof. induction l as [|v l IH]; cbn [map opt_all]; [reflexivity|]. now rewrite wrap_back, IH. Qed.

Lemma vec_items_custom p (l : list val) :
  forallb (fun v => size v <? two60) l = true -> lenN l <? two60 = true -> l <> [] ->
  vec_items p (DBytes (enc (VVec (map wrap l)))) = Ok (map (fun v => DBytes (enc v)) l).
Proof.
  intros Hs Hn Hne. unfold vec_items.
  destruct (enc_vvec_nonempty (map wrap l)) as (b & r & E). rewrite E, <- E.
  rewrite deser_enc.
  - cbn [obind]. now rewrite opt_all_wrap.
  - reflexivity.
  - cbn [has_type]. rewrite lenN_map, Hn, andb_true_r. rewrite forallb_forall. intros x Hx.
    apply in_map_iff in Hx. destruct Hx as (v & <- & Hv). apply wrap_has_type.
    rewrite forallb_forall in Hs. now apply Hs.
Qed.

(* narrowing succeeds on widened values, every kind reads back exactly what was written *)
Theorem conv_roundtrip p k v : fval_ok k v = true -> from_dbvalue p k (to_dbvalue v) = Ok v.
Proof.
  intros H. destruct k, v; try discriminate; cbn [fval_ok] in H; cbn [to_dbvalue from_dbvalue];
    try reflexivity.   (* the kinds that are stored as they are *)
  - unfold to_u32. cbn [to_u64 obind]. now rewrite H.
  - unfold to_i32. cbn [to_i64 obind]. now rewrite H.
  - cbn [to_bool obind]. destruct b; reflexivity.
  - cbn [vec_items obind]. rewrite omap_map_ok; [reflexivity|]. intros; reflexivity.
  - cbn [vec_items obind]. rewrite omap_map_ok; [reflexivity|]. intros; reflexivity.
  - cbn [vec_items obind]. rewrite omap_map_ok; [reflexivity|]. intros; reflexivity.
  - cbn [vec_items obind]. rewrite omap_map_ok; [reflexivity|]. intros; reflexivity.
  - cbn [vec_items obind]. rewrite omap_map_ok; [reflexivity|].
    intros x Hx. rewrite forallb_forall in H. unfold to_i32. cbn [to_i64 obind]. now rewrite (H x Hx).
  - cbn [vec_items obind]. rewrite omap_map_ok; [reflexivity|].
    intros x Hx. rewrite forallb_forall in H. unfold to_u32. cbn [to_u64 obind]. now rewrite (H x Hx).
  - cbn [vec_items obind]. rewrite map_map.
    rewrite (omap_map_ok to_bool (fun b => DU64 (b2u b))).
    + reflexivity.
    + intros x _. destruct x; reflexivity.
  - apply andb_true_iff in H. destruct H as [Ht Hv]. unfold custom_of. now rewrite deser_enc.
  - apply andb_true_iff in H. destruct H as [H Hn]. apply andb_true_iff in H. destruct H as [Ht Hl].
    destruct l as [|v0 l0]; [reflexivity|].
    change (match v0 :: l0 with [] => DBytes [] | _ :: _ => DBytes (enc (VVec (map (fun v => val_of_dbvalue (DBytes (enc v))) (v0 :: l0)))) end)
      with (DBytes (enc (VVec (map wrap (v0 :: l0))))).
    rewrite vec_items_custom.
    + cbn [obind]. rewrite omap_map_ok; [reflexivity|].
      intros x Hx. unfold custom_of. rewrite forallb_forall in Hl. specialize (Hl x Hx).
      apply andb_true_iff in Hl. destruct Hl as [H1 _]. now apply deser_enc.
    + rewrite forallb_forall in *. intros x Hx. specialize (Hl x Hx). apply andb_true_iff in Hl. tauto.
    + exact Hn.
    + discriminate.
Qed.

Section FdescInd.
  Variable P : fdesc -> Prop.
  Hypothesis Hplain : forall n k, P (DPlain n k).
  Hypothesis Hopt : forall n k, P (DOpt n k).
  Hypothesis Hflat : forall fs, Forall P fs -> P (DFlatten fs).
  Hypothesis Hskip : forall b, P (DSkip b).
  Hypothesis Hid : forall b, P (DId b).
  Fixpoint fdesc_ind' (d : fdesc) : P d :=
    match d with
    | DPlain n k => Hplain n k
    | DOpt n k => Hopt n k
    | DFlatten fs =>
        Hflat fs ((fix go (l : list fdesc) : Forall P l :=
                     match l with
                     | [] => Forall_nil P
                     | x :: r => Forall_cons x (fdesc_ind' x) (go r)
                     end) fs)
    | DSkip b => Hskip b
    | DId b => Hid b
    end.
End FdescInd.

(* the keys a struct stores under (field names after rename, through flatten) *)
Fixpoint names_f (d : fdesc) : list bytes :=
  match d with
  | DPlain n _ => [n]
  | DOpt n _ => [n]
  | DFlatten fs => flat_map names_f fs
  | _ => []
  end.
Definition names (fs : list fdesc) : list bytes := flat_map names_f fs.

Definition fields_values (fs : list fdesc) (l : list sval) : list kv := zip_fields to_values_f (@app kv) [] fs l.

(* `stored` answers the lookups of the struct's keys as the value demands *)
Fixpoint agree (stored : list kv) (d : fdesc) (v : sval) {struct d} : Prop :=
  match d, v with
  | DPlain n _, SPlain x => find_key n stored = Some (to_dbvalue x)
  | DOpt n _, SOpt (Some x) => find_key n stored = Some (to_dbvalue x)
  | DOpt n _, SOpt None => find_key n stored = None
  | DFlatten fs, SFlat l => zip_fields (agree stored) and True fs l
  | _, _ => True
  end.
Definition agree_all (stored : list kv) (fs : list fdesc) (l : list sval) : Prop :=
  zip_fields (agree stored) and True fs l.

Lemma from_f_flatten p id kvs fs :
  from_f p id kvs (DFlatten fs) = obind (omap (from_f p id kvs) fs) (fun l => Ok (SFlat l)).
Proof.
  cbn [from_f]. f_equal. induction fs as [|d fs IH]; cbn [omap]; [reflexivity|]. now rewrite IH.
Qed.

(* lookups as demanded => from_db_element rebuilds the value *)
Lemma from_agree p id stored : forall d v,
  sval_ok d v = true -> agree stored d v -> from_f p id stored d = Ok (norm_f id v).
Proof.
  induction d as [n k|n k|fs IH|b|b] using fdesc_ind'; intros v Hok Hag; destruct v; try discriminate;
    cbn [sval_ok] in Hok.
  - cbn [agree] in Hag. cbn [from_f norm_f]. rewrite Hag. now rewrite conv_roundtrip.
  - destruct o as [x|]; cbn [agree] in Hag; cbn [from_f norm_f]; rewrite Hag; [now rewrite conv_roundtrip|reflexivity].
  - rewrite from_f_flatten. cbn [norm_f agree] in *.
    apply andb_true_iff in Hok. destruct Hok as [Hlen Hok]. apply Nat.eqb_eq in Hlen.
    assert (H : omap (from_f p id stored) fs = Ok (map (norm_f id) l)).
    { revert l Hlen Hok Hag. induction IH as [|d fs Hd _ IHfs]; intros [|x l] Hlen Hok Hag; try discriminate; [reflexivity|].
      cbn [zip_fields] in Hok, Hag. apply andb_true_iff in Hok. destruct Hok as [Hx Hl]. destruct Hag as [Ax Al].
      cbn [omap map]. rewrite (Hd x Hx Ax). cbn [obind]. rewrite (IHfs l); [reflexivity|..]; auto. }
    now rewrite H.
  - reflexivity.
  - reflexivity.
Qed.

Lemma from_agree_all p id stored fs l :
  svals_ok fs l = true -> agree_all stored fs l -> from_element p id stored fs = Ok (norm id l).
Proof.
  intros Hok Hag. pose proof (from_agree p id stored (DFlatten fs) (SFlat l) Hok Hag) as H.
  rewrite from_f_flatten in H. unfold from_element, norm. cbn [norm_f] in H.
  destruct (omap (from_f p id stored) fs); cbn [obind] in H; congruence.
Qed.

Lemma find_app {A} (P : A -> bool) a b : find P (a ++ b) = match find P a with Some x => Some x | None => find P b end.
Proof. induction a as [|x a IH]; cbn [app find]; [reflexivity|]. destruct (P x); [reflexivity|exact IH]. Qed.

Lemma find_key_app n a b :
  find_key n (a ++ b) = match find_key n a with Some v => Some v | None => find_key n b end.
Proof. unfold find_key. rewrite find_app. now destruct (find _ a). Qed.

(* a struct only stores under its own keys *)
Lemma find_key_foreign n : forall d v, ~ In n (names_f d) -> find_key n (to_values_f d v) = None.
Proof.
  induction d as [m k|m k|fs IH|b|b] using fdesc_ind'; intros v Hn; destruct v; try reflexivity; cbn [to_values_f names_f] in *.
  - unfold find_key. cbn [find fst]. rewrite bytes_eqb_neq; [reflexivity|]. intros ->. apply Hn. now left.
  - destruct o; [|reflexivity]. unfold find_key. cbn [find fst]. rewrite bytes_eqb_neq; [reflexivity|]. intros ->. apply Hn. now left.
  - revert l Hn. induction IH as [|d fs Hd _ IHfs]; intros [|x l] Hn; try reflexivity.
    cbn [zip_fields flat_map] in *. rewrite find_key_app, Hd, IHfs; [reflexivity|..];
      intros Hin; apply Hn; apply in_or_app; auto.
Qed.

(* agree only depends on the lookups of the struct's own keys *)
Lemma agree_ext s1 s2 : forall d v,
  (forall n, In n (names_f d) -> find_key n s1 = find_key n s2) -> agree s1 d v -> agree s2 d v.
Proof.
  induction d as [m k|m k|fs IH|b|b] using fdesc_ind'; intros v He Ha; destruct v; try exact I; cbn [agree names_f] in *.
  - rewrite <- He; [exact Ha|now left].
  - destruct o; (rewrite <- He; [exact Ha|now left]).
  - revert l He Ha. induction IH as [|d fs Hd _ IHfs]; intros [|x l] He Ha; try exact I.
    cbn [zip_fields flat_map] in *. destruct Ha as [A1 A2]. split.
    + apply Hd; [|exact A1]. intros n Hn. apply He. apply in_or_app. now left.
    + apply IHfs; [|exact A2]. intros n Hn. apply He. apply in_or_app. now right.
Qed.

Lemma NoDup_app_l {A} (a b : list A) : NoDup (a ++ b) -> NoDup a.
Proof.
  induction a as [|x a IH]; intros H; [constructor|]. inversion H; subst. constructor; [|now apply IH].
  intros Hin. apply H2. apply in_or_app. now left.
Qed.
Lemma NoDup_app_r {A} (a b : list A) : NoDup (a ++ b) -> NoDup b.
Proof. induction a as [|x a IH]; intros H; [exact H|]. inversion H; subst. now apply IH. Qed.
Lemma NoDup_app_disj {A} (a b : list A) x : NoDup (a ++ b) -> In x a -> In x b -> False.
Proof.
  induction a as [|y a IH]; intros H Ha Hb; [destruct Ha|]. inversion H; subst. destruct Ha as [->|Ha].
  - apply H2. apply in_or_app. now right.
  - now apply IH.
Qed.

(* the pairs of to_db_values answer the lookups as demanded; the pairs of the sibling fields do not
   interfere (agree_ext), since they are stored under other keys (find_key_foreign) *)
Lemma agree_self : forall d v,
  sval_ok d v = true -> NoDup (names_f d) -> agree (to_values_f d v) d v.
Proof.
  induction d as [m k|m k|fs IH|b|b] using fdesc_ind'; intros v Hok Hnd; destruct v; try discriminate;
    cbn [sval_ok] in Hok; cbn [agree to_values_f names_f] in *; try exact I.
  - unfold find_key. cbn [find fst]. now rewrite bytes_eqb_refl.
  - destruct o; [|reflexivity]. unfold find_key. cbn [find fst]. now rewrite bytes_eqb_refl.
  - apply andb_true_iff in Hok. destruct Hok as [Hlen Hok]. apply Nat.eqb_eq in Hlen.
    revert l Hlen Hok Hnd. induction IH as [|d fs Hd _ IHfs]; intros [|x l] Hlen Hok Hnd; try discriminate; [exact I|].
    cbn [zip_fields flat_map] in *. apply andb_true_iff in Hok. destruct Hok as [Hx Hl].
    split.
    + apply (agree_ext (to_values_f d x)); [|apply Hd; [exact Hx|now apply NoDup_app_l in Hnd]].
      intros n Hn. rewrite find_key_app. destruct (find_key n (to_values_f d x)); [reflexivity|]. symmetry.
      apply (find_key_foreign n (DFlatten fs) (SFlat l)). intros Hin. exact (NoDup_app_disj _ _ n Hnd Hn Hin).
    + apply (agree_ext (zip_fields to_values_f (@app kv) [] fs l) _ (DFlatten fs) (SFlat l));
        [|apply IHfs; [now injection Hlen|exact Hl|now apply NoDup_app_r in Hnd]].
      intros n Hn. rewrite find_key_app, (find_key_foreign n d x); [reflexivity|].
      intros Hin. exact (NoDup_app_disj _ _ n Hnd Hin Hn).
Qed.

(* any pair list that answers the lookups of the struct's keys like the list of to_db_values does:
   extra unrelated pairs, any order that keeps the first occurrence of each of the struct's keys *)
Theorem roundtrip_lookup p id fs l stored :
  NoDup (names fs) -> svals_ok fs l = true ->
  (forall n, In n (names fs) -> find_key n stored = find_key n (fields_values fs l)) ->
  from_element p id stored fs = Ok (norm id l).
Proof.
  intros Hnd Hok Hl. apply from_agree_all; [exact Hok|].
  apply (agree_ext (fields_values fs l) stored (DFlatten fs) (SFlat l)).
  - intros n Hn. symmetry. now apply Hl.
  - exact (agree_self (DFlatten fs) (SFlat l) Hok Hnd).
Qed.

(* the stored pairs themselves, between unrelated pairs (other keys of the element, a DbElement's
   "db_element_id" pair): nothing around them may answer one of the struct's keys *)
Theorem roundtrip_context p id fs l pre post :
  NoDup (names fs) -> svals_ok fs l = true ->
  (forall n, In n (names fs) -> find_key n pre = None /\ find_key n post = None) ->
  from_element p id (pre ++ fields_values fs l ++ post) fs = Ok (norm id l).
Proof.
  intros Hnd Hok Hctx. apply roundtrip_lookup; [exact Hnd|exact Hok|].
  intros n Hn. destruct (Hctx n Hn) as [Hp Hq]. rewrite !find_key_app, Hp, Hq.
  now destruct (find_key n (fields_values fs l)).
Qed.

Lemma element_pair_foreign element fs n :
  (element = None \/ ~ In element_id_key (names fs)) -> In n (names fs) ->
  find_key n (match element with Some e => [(DString element_id_key, DString e)] | None => [] end) = None.
Proof.
  intros Hel Hn. destruct element as [e|]; [|reflexivity]. destruct Hel as [Hel|Hel]; [discriminate|].
  unfold find_key. cbn [find fst]. rewrite bytes_eqb_neq; [reflexivity|]. intros E. apply Hel. now rewrite E.
Qed.

(* what insert().element(&v) stores and select returns: to_db_values (with the element id pair of a
   #[derive(DbElement)] type, whose key must not be a field name) *)
Theorem roundtrip p id element fs l :
  NoDup (names fs) -> svals_ok fs l = true ->
  (element = None \/ ~ In element_id_key (names fs)) ->
  from_element p id (to_values element fs l) fs = Ok (norm id l).
Proof.
  intros Hnd Hok Hel. unfold to_values. fold (fields_values fs l).
  apply (roundtrip_context p id fs l [] _ Hnd Hok). intros n Hn. split; [reflexivity|].
  now apply (element_pair_foreign element fs).
Qed.

(* `insert().element(&v)` with db_id = Some(id) builds InsertValuesQuery { ids: [id], values: Multi([to_db_values]) }
   (query_builder/insert.rs); on an existing element that is insert_values_id = insert-or-replace per key *)
Section Update.
  Variable rv : revision.
  Open Scope Z_scope.

  Lemma kvs_get_insert_or_replace_same s i x :
    kvs_get (snd (kvs_insert_or_replace s i x)) i =
    match replace_first (kvs_get s i) x with Some (_, l') => l' | None => kvs_get s i ++ [x] end.
  Proof.
    unfold kvs_insert_or_replace. destruct (replace_first (kvs_get s i) x) as [[old l']|]; cbn [snd].
    - rewrite kvs_get_set. now rewrite abs_eqb_refl.
    - rewrite kvs_get_insert_value. now rewrite abs_eqb_refl.
  Qed.

  Lemma fold_upsert kvs : forall s i,
    kvs_get (fold_left (fun s x => snd (kvs_insert_or_replace s i x)) kvs s) i = upsert_pairs (kvs_get s i) kvs.
  Proof.
    induction kvs as [|x kvs IH]; intros s i; cbn [fold_left]; [reflexivity|].
    rewrite IH, kvs_get_insert_or_replace_same. unfold upsert_pairs. reflexivity.
  Qed.

  Lemma insert_kvs_replace_same d id kvs :
    kvs_get (vals (insert_kvs_replace d id kvs)) id = upsert_pairs (kvs_get (vals d) id) kvs.
  Proof.
    unfold insert_kvs_replace. rewrite insert_kvs_replace_vals, reserve_kv_vals, fold_upsert.
    now rewrite kvs_get_reserve.
  Qed.

  Theorem update_by_id d id kvs :
    graph_index (gr d) id = true ->
    exists d', exec rv d (InsertValues (Ids [QId id]) (Multi [kvs])) = (d', QOk (lenZ kvs) []) /\
      gr d' = gr d /\ aliases d' = aliases d /\
      (forall j, Z.abs id <> Z.abs j -> kvs_get (vals d') j = kvs_get (vals d) j) /\
      kvs_get (vals d') id = upsert_pairs (kvs_get (vals d) id) kvs.
  Proof.
    intros Hg. exists (commit (insert_kvs_replace d id kvs)).
    split.
    - unfold exec, exec_in_txn. cbn [is_mutating exec_mut_step insert_values length Nat.eqb negb combine st_fold fst snd].
      unfold insert_values_q. cbn [db_id]. rewrite Hg. unfold insert_values_id. cbn [fst snd]. reflexivity.
    - destruct (insert_kvs_replace_ga d id kvs) as [G A]. repeat split.
      + exact G.
      + exact A.
      + intros j Hj. cbn [commit clear_undo vals]. now apply insert_kvs_replace_other.
      + cbn [commit clear_undo vals]. apply insert_kvs_replace_same.
  Qed.
End Update.


(* no Option field anywhere (through flatten) *)
Fixpoint plain_f (d : fdesc) : bool :=
  match d with
  | DOpt _ _ => false
  | DFlatten fs => forallb plain_f fs
  | _ => true
  end.

(* the anonymous inner fix of struct_keys (fixed = true), named so that lemmas can speak of it *)
Fixpoint keys_go (l : list fdesc) : option (list bytes) :=
  match l with
  | [] => Some []
  | DPlain n _ :: r => option_map (cons n) (keys_go r)
  | (DFlatten _ as d') :: r =>
      let k := struct_keys true d' in
      if is_nil k then None else option_map (app k) (keys_go r)
  | _ :: r => keys_go r
  end.

Lemma struct_keys_unfold fs :
  struct_keys true (DFlatten fs) =
  if existsb own_option fs then [] else match keys_go fs with Some k => k | None => [] end.
Proof.
  cbn [struct_keys]. destruct (existsb own_option fs); [reflexivity|].
  match goal with |- match ?a with _ => _ end = match ?b with _ => _ end => assert (E : a = b); [|now rewrite E] end.
  induction fs as [|d fs IH]; [reflexivity|].
  destruct d; cbn [keys_go andb]; rewrite <- ?IH; reflexivity.
Qed.

Local Opaque struct_keys.
(* a non-empty key list is exactly the struct's keys, and then the struct has no Option field at all *)
Lemma keys_nonempty : forall d,
  match d with
  | DFlatten fs => struct_keys true d <> [] -> struct_keys true d = names_f d /\ plain_f d = true
  | _ => True
  end.
Proof.
  induction d as [n k|n k|fs IH|b|b] using fdesc_ind'; try exact I.
  rewrite struct_keys_unfold. destruct (existsb own_option fs) eqn:Eo; [intros H; now contradiction H|].
  cbn [names_f plain_f].
  assert (G : forall k, keys_go fs = Some k -> k = flat_map names_f fs /\ forallb plain_f fs = true).
  { clear -IH Eo. induction IH as [|d fs Hd _ IHfs]; intros k Hk.
    - cbn [keys_go] in Hk. inversion Hk. split; reflexivity.
    - cbn [existsb] in Eo. apply orb_false_iff in Eo. destruct Eo as [Eo1 Eo2]. specialize (IHfs Eo2).
      destruct d as [n kd|n kd|gs|b|b]; cbn [keys_go flat_map names_f forallb plain_f] in *.
      + destruct (keys_go fs) as [k'|]; [|discriminate]. cbn [option_map] in Hk. inversion Hk; subst.
        destruct (IHfs k' eq_refl) as [-> ->]. split; reflexivity.
      + discriminate.
      + destruct (is_nil (struct_keys true (DFlatten gs))) eqn:En; [discriminate|].
        destruct (keys_go fs) as [k'|]; [|discriminate]. cbn [option_map] in Hk. inversion Hk; subst.
        destruct (IHfs k' eq_refl) as [-> ->].
        assert (Hne : struct_keys true (DFlatten gs) <> []) by (intros E; rewrite E in En; discriminate).
        destruct (Hd Hne) as [E1 E2]. cbn [names_f plain_f] in E1, E2. rewrite E1, E2. split; reflexivity.
      + destruct (IHfs k Hk) as [-> ->]. split; reflexivity.
      + destruct (IHfs k Hk) as [-> ->]. split; reflexivity. }
  destruct (keys_go fs) as [k|]; [|intros H; now contradiction H].
  intros _. exact (G k eq_refl).
Qed.

Local Transparent struct_keys.

Lemma db_keys_cases fs :
  db_keys true fs = [] \/ (db_keys true fs = names fs /\ forallb plain_f fs = true).
Proof.
  unfold db_keys. destruct (struct_keys true (DFlatten fs)) eqn:E; [now left|right].
  pose proof (keys_nonempty (DFlatten fs)) as H. cbn beta iota in H. rewrite E in H.
  destruct H as [H1 H2]; [discriminate|]. cbn [names_f plain_f] in H1, H2. split; [exact H1|exact H2].
Qed.

(* without Option fields every key of the struct is stored *)
Lemma plain_found : forall d v n,
  plain_f d = true -> sval_ok d v = true -> In n (names_f d) -> exists x, In (DString n, x) (to_values_f d v).
Proof.
  induction d as [m k|m k|fs IH|b|b] using fdesc_ind'; intros v n Hp Hok Hn; destruct v; try discriminate;
    cbn [names_f to_values_f plain_f sval_ok] in *; try (now destruct Hn).
  - destruct Hn as [->|[]]. eexists. now left.
  - apply andb_true_iff in Hok. destruct Hok as [Hlen Hok]. apply Nat.eqb_eq in Hlen.
    revert l Hlen Hok Hp Hn. induction IH as [|d fs Hd _ IHfs]; intros [|x l] Hlen Hok Hp Hn; try discriminate; [destruct Hn|].
    cbn [zip_fields flat_map forallb] in *. apply andb_true_iff in Hok. destruct Hok as [Hx Hl].
    apply andb_true_iff in Hp. destruct Hp as [Hp1 Hp2]. apply in_app_or in Hn. destruct Hn as [Hn|Hn].
    + destruct (Hd x n Hp1 Hx Hn) as [y Hy]. exists y. apply in_or_app. now left.
    + destruct (IHfs l) as [y Hy]; auto. exists y. apply in_or_app. now right.
Qed.

Lemma find_key_in_some n l x : In (DString n, x) l -> find_key n l <> None.
Proof.
  unfold find_key. induction l as [|y l IH]; intros H; [destruct H|]. cbn [find].
  destruct H as [->|H].
  - cbn [fst]. now rewrite bytes_eqb_refl.
  - destruct (match fst y with DString s => bytes_eqb s n | _ => false end); [discriminate|now apply IH].
Qed.

Definition is_key (n : bytes) (x : kv) : bool := match fst x with DString s => bytes_eqb s n | _ => false end.

Lemma find_key_find n l : find_key n l = match find (is_key n) l with Some x => Some (snd x) | None => None end.
Proof. reflexivity. Qed.

Lemma is_key_eq n x : is_key n x = true -> fst x = DString n.
Proof.
  unfold is_key. destruct (fst x) eqn:E; try discriminate. intros H. apply bytes_eqb_eq in H. now subst.
Qed.

Lemma dstring_eqb a b : dbv_eqb (DString a) (DString b) = bytes_eqb a b.
Proof.
  unfold dbv_eqb. cbn [dbv_cmp]. destruct (bytes_eqb a b) eqn:E.
  - apply bytes_eqb_eq in E. subst. now rewrite (cmp_refl bytes_cmp bytes_cmp_ok).
  - destruct (bytes_cmp a b) eqn:C; try reflexivity. apply DbValueEqProofs.bytes_cmp_eq in C. subst.
    now rewrite bytes_eqb_refl in E.
Qed.

Lemma position_in keys n : In n keys -> forall s, exists m, position (map DString keys) (DString n) s = Some m.
Proof.
  induction keys as [|k keys IH]; intros H s; [destruct H|]. cbn [map position]. rewrite dstring_eqb.
  destruct (bytes_eqb k n) eqn:E; [eauto|]. destruct H as [->|H]; [now rewrite bytes_eqb_refl in E|]. apply IH. exact H.
Qed.

Lemma find_filter_none {A} (P Q : A -> bool) l : find P l = None -> find P (filter Q l) = None.
Proof.
  induction l as [|x l IH]; cbn [find filter]; [reflexivity|].
  destruct (P x) eqn:E; [discriminate|]. intros H. destruct (Q x); cbn [find]; [rewrite E|]; now apply IH.
Qed.

Lemma find_filter_implied {A} (P Q : A -> bool) l : (forall x, P x = true -> Q x = true) -> find P (filter Q l) = find P l.
Proof.
  intros H. induction l as [|x l IH]; cbn [find filter]; [reflexivity|].
  destruct (P x) eqn:E.
  - rewrite (H x E). cbn [find]. now rewrite E.
  - destruct (Q x); cbn [find]; [rewrite E|]; exact IH.
Qed.

Lemma find_filter_excluded {A} (P Q : A -> bool) l : (forall x, P x = true -> Q x = false) -> find P (filter Q l) = None.
Proof.
  intros H. induction l as [|x l IH]; cbn [find filter]; [reflexivity|].
  destruct (Q x) eqn:E; [|exact IH]. cbn [find]. destruct (P x) eqn:E2; [|exact IH]. rewrite (H x E2) in E. discriminate.
Qed.

Lemma select_keeps_first keys n stored :
  In n keys ->
  find_key n (kvs_values_by_keys [stored] 0 (map DString keys)) = find_key n stored.
Proof.
  intros Hin. rewrite KvSelectProofs.kvs_values_by_keys_buckets.
  change (kvs_get [stored] 0) with stored.
  destruct (position_in keys n Hin 0%nat) as [m0 Hm0].
  pose proof (KvSelectProofs.position_bounds _ _ _ _ Hm0) as Hb.
  set (dkeys := map DString keys) in *.
  set (g := fun m : nat => filter (fun p : kv => KvSelectProofs.pos_is dkeys (fst p) m) stored).
  rewrite !find_key_find. f_equal.
  (* buckets other than m0 hold no pair with key n; bucket m0 holds them all, in order *)
  assert (Hother : forall m, m <> m0 -> find (is_key n) (g m) = None).
  { intros m Hm. apply find_filter_excluded. intros x Hx. apply is_key_eq in Hx. rewrite Hx.
    unfold KvSelectProofs.pos_is. rewrite Hm0. apply Nat.eqb_neq. lia. }
  assert (Hm : find (is_key n) (g m0) = find (is_key n) stored).
  { apply find_filter_implied. intros x Hx. apply is_key_eq in Hx. rewrite Hx.
    unfold KvSelectProofs.pos_is. rewrite Hm0. apply Nat.eqb_refl. }
  assert (Hseq : In m0 (seq 0 (length dkeys))) by (apply in_seq; lia).
  assert (G : forall ms, In m0 ms -> find (is_key n) (flat_map g ms) = find (is_key n) stored).
  { induction ms as [|m ms IH]; intros Hi; [destruct Hi|]. cbn [flat_map]. rewrite find_app.
    destruct (Nat.eq_dec m m0) as [->|Hne].
    - rewrite Hm. destruct (find (is_key n) stored) eqn:E; [reflexivity|].
      (* nothing anywhere *)
      clear -E. induction ms as [|m ms IH]; [reflexivity|]. cbn [flat_map]. rewrite find_app.
      unfold g at 1. rewrite (find_filter_none _ _ _ E). exact IH.
    - rewrite (Hother m Hne). apply IH. destruct Hi as [->|Hi]; [contradiction|exact Hi]. }
  now rewrite (G _ Hseq).
Qed.

Lemma select_no_missing keys stored :
  (forall n, In n keys -> find_key n stored <> None) ->
  existsb (fun k => negb (existsb (fun x : kv => dbv_eqb (fst x) k) (kvs_values_by_keys [stored] 0 (map DString keys))))
          (map DString keys) = false.
Proof.
  intros H. apply not_true_iff_false. intros E. apply existsb_exists in E. destruct E as (k & Hk & Hneg).
  apply in_map_iff in Hk. destruct Hk as (n & <- & Hn).
  apply negb_true_iff in Hneg.
  pose proof (select_keeps_first keys n stored Hn) as Hs. specialize (H n Hn).
  rewrite (find_key_find n (kvs_values_by_keys [stored] 0 (map DString keys))) in Hs.
  destruct (find (is_key n) (kvs_values_by_keys [stored] 0 (map DString keys))) as [x|] eqn:F.
  - apply find_some in F. destruct F as [Fi Fk]. apply is_key_eq in Fk.
    assert (C : existsb (fun x0 : kv => dbv_eqb (fst x0) (DString n)) (kvs_values_by_keys [stored] 0 (map DString keys)) = true).
    { apply existsb_exists. exists x. split; [exact Fi|]. rewrite Fk. apply dbv_eqb_refl. }
    congruence.
  - symmetry in Hs. exact (H Hs).
Qed.

(* "selecting it back as that type": select().elements::<T>().ids(id) = SelectValuesQuery { keys: T::db_keys(), ids: [id] }
   on the element's pairs, then from_db_element — with the repaired db_keys *)
Theorem select_roundtrip p id fs l stored :
  NoDup (names fs) -> svals_ok fs l = true ->
  (forall n, In n (names fs) -> find_key n stored = find_key n (fields_values fs l)) ->
  exists sel, select_pairs (db_keys true fs) stored = Ok sel /\ from_element p id sel fs = Ok (norm id l).
Proof.
  intros Hnd Hok Hl. destruct (db_keys_cases fs) as [E|[E Hp]]; rewrite E.
  - exists stored. split; [reflexivity|]. now apply roundtrip_lookup.
  - (* all keys requested, all of them stored *)
    assert (Hfound : forall n, In n (names fs) -> find_key n stored <> None).
    { intros n Hn. rewrite (Hl n Hn).
      destruct (plain_found (DFlatten fs) (SFlat l) n Hp Hok Hn) as [x Hx]. exact (find_key_in_some n _ x Hx). }
    unfold select_pairs. remember (names fs) as ks eqn:En in |- *. destruct ks as [|k0 ks].
    + exists stored. split; [reflexivity|]. now apply roundtrip_lookup.
    + rewrite En. rewrite (select_no_missing (names fs) stored Hfound), andb_false_r.
      eexists. split; [reflexivity|]. apply roundtrip_lookup; [exact Hnd|exact Hok|].
      intros n Hn. rewrite select_keeps_first by exact Hn. now apply Hl.
Qed.

(* `select_pairs` IS the select query of the validated database model on the element's pairs:
   Transaction::exec(SelectValuesQuery { keys, ids: [id] }) = Queries.exec_select *)
Section SelectLink.
  Variable rv : revision.

  Lemma kvs_values_by_keys_local s i keys :
    kvs_values_by_keys s i keys = kvs_values_by_keys [kvs_get s i] 0 keys.
  Proof. reflexivity. Qed.

  Theorem select_is_query d id keys :
    graph_index (gr d) id = true ->
    exec_select rv d (SelectValues (map DString keys) (Ids [QId id])) =
    match select_pairs keys (kvs_get (vals d) id) with
    | Ok sel => QOk 1 [elem d id sel]
    | _ => QErr ENotFound
    end.
  Proof.
    intros Hg. unfold exec_select, select_values. cbn [resolve_ids resolve_all db_id]. rewrite Hg.
    destruct keys as [|k ks].
    - cbn [map length Nat.eqb negb andb existsb select_pairs]. rewrite andb_false_r. reflexivity.
    - unfold select_pairs. rewrite <- kvs_values_by_keys_local.
      set (dk := map DString (k :: ks)). cbn [negb andb].
      change (match dk with [] => kvs_get (vals d) id | _ :: _ => kvs_values_by_keys (vals d) id dk end)
        with (kvs_values_by_keys (vals d) id dk).
      destruct (negb (length (kvs_values_by_keys (vals d) id dk) =? length dk)%nat &&
                existsb (fun k0 => negb (existsb (fun x : kv => dbv_eqb (fst x) k0) (kvs_values_by_keys (vals d) id dk))) dk);
        reflexivity.
  Qed.
End SelectLink.

Section EndToEnd.
  Variable rv : revision.

  (* insert().element(&v) with db_id = None: InsertValuesQuery { ids: [Id(0)], values: Multi([to_db_values(v)]) } creates
     a node; select().elements::<T>().ids(id) on the new element reads the value back *)
  Theorem insert_select_roundtrip p d element fs l :
    DbInvProofs.Inv d ->
    NoDup (names fs) -> svals_ok fs l = true -> (element = None \/ ~ In element_id_key (names fs)) ->
    let kvs := to_values element fs l in
    exists id d1,
      exec rv d (InsertValues (Ids [QId 0]) (Multi [kvs])) = (d1, QOk (lenZ kvs) [elem d1 id []]) /\
      graph_index (gr d1) id = true /\ kvs_get (vals d1) id = kvs /\
      exists sel,
        exec_select rv d1 (SelectValues (map DString (db_keys true fs)) (Ids [QId id])) = QOk 1 [elem d1 id sel] /\
        from_element p id sel fs = Ok (norm id l).
  Proof.
    intros HI Hnd Hok Hel kvs.
    destruct (DbInvProofs.insert_node_db_Inv d HI) as (_ & Hpos & Hlive & Hempty & _).
    destruct (insert_node_db d) as [id d0] eqn:En. cbn [fst snd] in *.
    set (d3 := insert_kvs_new d0 id kvs).
    exists id, (commit d3).
    assert (Hga : gr d3 = gr d0) by (apply (DbInvProofs.insert_kvs_new_ga d0 id kvs)).
    assert (Hkv : kvs_get (vals (commit d3)) id = kvs).
    { cbn [commit clear_undo vals]. unfold d3. rewrite insert_kvs_new_get, abs_eqb_refl, Hempty. reflexivity. }
    assert (Hgi : graph_index (gr (commit d3)) id = true).
    { cbn [commit clear_undo gr]. rewrite Hga. exact Hlive. }
    split; [|split; [exact Hgi|split; [exact Hkv|]]].
    - unfold exec, exec_in_txn. cbn [is_mutating exec_mut_step insert_values length Nat.eqb negb combine st_fold fst snd].
      unfold insert_values_q. cbn [db_id graph_index Z.ltb Z.compare Z.eqb]. unfold insert_values_new. rewrite En.
      fold d3. cbn [fst snd app Z.add]. reflexivity.
    - destruct (select_roundtrip p id fs l kvs Hnd Hok) as (sel & Hs & Hf).
      + intros n Hn. unfold kvs, to_values. fold (fields_values fs l). rewrite find_key_app.
        destruct (find_key n (fields_values fs l)) as [v|] eqn:E; [reflexivity|]. now apply (element_pair_foreign element fs).
      + exists sel. split; [|exact Hf]. rewrite (select_is_query rv (commit d3) id (db_keys true fs) Hgi), Hkv, Hs. reflexivity.
  Qed.
End EndToEnd.

(* the structs on which the db_keys of the macro before fixes/C22-flatten-option-keys.diff lose a key: *)
(* struct Inner { p: Option<u64>, q: i64 }   struct Outer { db_id: Option<DbId>, t: u64, #[agdb(flatten)] inner: Inner } *)
Definition w_fs : list fdesc := [DId true; DPlain [x74] KU64; DFlatten [DOpt [x70] KU64; DPlain [x71] KI64]].
Definition w_val : list sval := [SId None; SPlain (FU64 32); SFlat [SOpt (Some (FU64 5)); SPlain (FI64 286)]].
(* struct AllOpt { m: Option<u64> }   struct Outer2 { k: u64, #[agdb(flatten)] inner: AllOpt } *)
Definition w2_fs : list fdesc := [DPlain [x6b] KU64; DFlatten [DOpt [x6d] KU64]].
Definition w2_val : list sval := [SPlain (FU64 1); SFlat [SOpt (Some (FU64 5))]].

Definition select_then_read (fixed : bool) (fs : list fdesc) (l : list sval) : outcome (list sval) :=
  obind (select_pairs (db_keys fixed fs) (to_values None fs l)) (fun sel => from_element Release 1 sel fs).

(* an example using every kind of field: *)
(* #[derive(DbElement)] struct E { db_id: Option<DbId>, n: u32, #[agdb(rename = "nm")] name: String, tags: Vec<String>,
     opt: Option<i32> (None), flags: Vec<bool>, cv: CV { a: u64, s: String }, vcv: Vec<CV> (two), evc: Vec<CV> (empty),
     #[agdb(skip)] cache: u64, #[agdb(flatten)] inner: { x: f64, y: Option<Vec<u8>> } } *)
Definition ex_cv : ty := TStruct [TU64; TStr].
Definition ex_fs : list fdesc :=
  [DId true; DPlain [x6e] KU32; DPlain [x6e; x6d] KStr; DPlain [x74] KVecStr; DOpt [x6f] KI32; DPlain [x66] KVecBool;
   DPlain [x63] (KCustom ex_cv); DPlain [x76] (KVecCustom ex_cv); DPlain [x65] (KVecCustom ex_cv); DSkip false;
   DFlatten [DPlain [x78] KF64; DOpt [x79] KBytes]].
Definition ex_val : list sval :=
  [SId None; SPlain (FU32 4294967295); SPlain (FStr [x61; x62]); SPlain (FVecStr [[x61]; []]); SOpt None;
   SPlain (FVecBool [true; false]); SPlain (FCustom (VStruct [VU64 7; VStr [x7a]]));
   SPlain (FVecCustom [VStruct [VU64 1; VStr []]; VStruct [VU64 2; VStr [x71]]]); SPlain (FVecCustom []); SSkip;
   SFlat [SPlain (FF64 9221120237041090560); SOpt (Some (FBytes [x00; xff]))]].
