(* AuthProofsTokens.v — revocation: logged-out, expired and deleted users' tokens stay rejected (C24). *)
From Agdb Require Import Bytes Auth AuthProofs.
From Coq Require Import Lia ZifyBool ZifyN.
Open Scope N_scope.

Lemma NoDup_map_inj : forall {A B} (f : A -> B) l x y,
  NoDup (map f l) -> In x l -> In y l -> f x = f y -> x = y.
Proof.
  intros A B f l x y. induction l as [|h l IH]; cbn; intros N Ix Iy E; [contradiction|].
  inversion N as [|a b N1 N2]; subst.
  destruct Ix as [Ix|Ix]; destruct Iy as [Iy|Iy]; subst; try reflexivity.
  - exfalso. apply N1. rewrite E. apply in_map. exact Iy.
  - exfalso. apply N1. rewrite <- E. apply in_map. exact Ix.
  - apply IH; assumption.
Qed.

Lemma NoDup_sub : forall (l l' : list tokrec),
  NoDup (map t_id l) -> (forall r, In r l' -> In r l) -> NoDup l' -> NoDup (map t_id l').
Proof.
  intros l l' N S. induction l' as [|a l' IH]; intros D; cbn; [constructor|].
  inversion D as [|x y D1 D2]; subst. constructor.
  - intros C. apply in_map_iff in C. destruct C as (z & Ez & Iz).
    rewrite (NoDup_map_inj t_id l z a N) in Iz; auto using in_eq, in_cons.
  - apply IH; [intros r Hr; apply S; right; exact Hr|exact D2].
Qed.

(* which sessions a request revokes, according to the documentation of the logout / delete endpoints *)
Definition killed (s : state) (now : N) (tok : option N) (req : request) (r : tokrec) : bool :=
  match req with
  | ReqLogout sel =>
    match user_of_token s now tok, tok with
    | Some u, Some t =>
      match sel with
      | LoCurrent => t_id r =? t
      | LoAll => t_user r =? u
      | LoOthers => (t_user r =? u) && negb (t_id r =? t)
      | LoSession sid => t_id r =? sid
      end
    | _, _ => false
    end
  | ReqAdminUserLogout v (LoSession sid) => t_id r =? sid
  | ReqAdminUserLogout v _ => t_user r =? v
  | ReqAdminUserLogoutAll => negb (t_user r =? s_admin s)
  | ReqAdminUserDelete v => t_user r =? v
  | _ => false
  end.

(* the token table after one request: a login appends a session with the next fresh id; any other
   request removes exactly the sessions it should revoke if it succeeds, and none otherwise *)
Lemma step_tokens : forall s now tok req,
  let s' := snd (step s now tok req) in
  (s_next s' = s_next s /\
   s_tokens s' = filter (fun r => negb (resp_ok (fst (step s now tok req)) && killed s now tok req r)) (s_tokens s))
  \/
  (is_login req = true /\ s_next s' = s_next s + 1 /\ exists u e, s_tokens s' = s_tokens s ++ [mkTok (s_next s) u e]).
Proof.
  intros s now tok req. cbv zeta.
  assert (Same : forall (q : tokrec -> bool) l, (forall r, q r = false) -> l = filter (fun r => negb (q r)) l).
  { intros q l F. induction l as [|a l IH]; cbn; [|rewrite F; cbn; rewrite <- IH]; reflexivity. }
  unfold step. destruct (authorize s now tok req) eqn:A; [|left; split; [reflexivity|apply Same; reflexivity]].
  destruct req; cbn [apply fst snd];
    try (left; split; [reflexivity|apply Same; reflexivity]);
    (* database operations leave the token table alone *)
    try (left; edestruct apply_db_frame as (T & Nx & _);
         split; [exact Nx|rewrite T; apply Same; intros; apply Bool.andb_false_r]).
  - right. cbn. eauto.
  - (* logout: authorized, so tok = Some t is the caller's live token *)
    left. cbn [authorize] in A. destruct (user_of_token s now tok) as [u|] eqn:U; [|discriminate A].
    destruct tok as [t|]; [|discriminate U].
    split; [reflexivity|]. cbn [killed resp_ok andb]. rewrite U. unfold logout_tokens.
    destruct sel; cbn [with_tokens s_tokens]; try reflexivity.
    apply filter_ext. intros r. destruct (t_user r =? u), (t_id r =? t); reflexivity.
  - left. split; reflexivity.
  - left. split; [reflexivity|]. destruct sel; reflexivity.
  - left. split; [reflexivity|]. apply filter_ext. intros r. cbn. now rewrite Bool.negb_involutive.
Qed.

(* every record carrying token id t satisfies P, and t is older than the next fresh id *)
Definition tok_inv (P : tokrec -> Prop) (s : state) (t : N) : Prop :=
  (forall r, In r (s_tokens s) -> t_id r = t -> P r) /\ t < s_next s.

(* token ids are unique and below the next fresh id (holds initially, kept by every request) *)
Definition tok_wf (s : state) : Prop :=
  NoDup (map t_id (s_tokens s)) /\ forall r, In r (s_tokens s) -> t_id r < s_next s.

Lemma tok_inv_step : forall P t s now tok req,
  tok_inv P s t -> tok_inv P (snd (step s now tok req)) t.
Proof.
  intros P t s now tok req [H1 H2].
  destruct (step_tokens s now tok req) as [(Nx & T)|(_ & Nx & u & e & T)];
    unfold tok_inv; rewrite T.
  - split; [|rewrite Nx; exact H2]. intros r Hr. apply filter_In in Hr. apply H1, Hr.
  - split; [|rewrite Nx; lia]. intros r Hr E. apply in_app_or in Hr. destruct Hr as [Hr|[Hr|[]]].
    + apply H1; assumption.
    + subst r. cbn in E. lia.
Qed.

Lemma tok_wf_init : forall admin ttl users, tok_wf (init_state admin ttl users).
Proof. intros. split; cbn; [constructor|intros r []]. Qed.

Lemma tok_wf_step : forall s now tok req, tok_wf s -> tok_wf (snd (step s now tok req)).
Proof.
  intros s now tok req [N B].
  destruct (step_tokens s now tok req) as [(Nx & T)|(_ & Nx & u & e & T)];
    unfold tok_wf; rewrite T, Nx; split.
  - apply NoDup_sub with (l := s_tokens s); [exact N|apply incl_filter|].
    apply NoDup_filter, NoDup_map_inv with (f := t_id), N.
  - intros r H. apply filter_In in H. apply B, H.
  - (* the fresh id is above every id in use *)
    rewrite map_app. apply (NoDup_Add (Add_app _ _ [])). rewrite app_nil_r. split; [exact N|].
    intros C. apply in_map_iff in C. destruct C as (r & E & I). specialize (B r I). cbn in E. lia.
  - intros r H. apply in_app_or in H. destruct H as [H|[H|[]]].
    + specialize (B r H). lia.
    + subst r. cbn. lia.
Qed.

(* a token all of whose records have expired (in particular one without record) is rejected by every
   later request of every sequence: sessions are never extended and ids never reused *)
Theorem rejected_forever : forall P s t tr now req,
  tok_inv P s t -> (forall r, P r -> t_exp r < now) -> is_login req = false ->
  step (run s tr) now (Some t) req = (RespErr 401, run s tr).
Proof.
  intros P s t tr now req H Ex L. apply unauthenticated_step; [|exact L].
  destruct (run_inv (fun s => tok_inv P s t) (tok_inv_step P t) tr s H) as [H1 _].
  cbn [user_of_token]. unfold find_token.
  destruct (find (fun r => t_id r =? t) (s_tokens (run s tr))) as [r|] eqn:F; [|reflexivity].
  apply find_some in F. destruct F as [I E]. apply N.eqb_eq in E.
  specialize (Ex r (H1 r I E)). destruct (t_exp r <? now) eqn:Lt; [reflexivity|lia].
Qed.

