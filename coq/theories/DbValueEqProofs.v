(* DbValueEqProofs.v — `dbv_eqb` (DbValue's derived Eq, through the derived Ord) is Leibniz
   equality: the order `dbv_cmp` answers Eq on identical values only, f64 payloads included
   (f64_key is injective on bit patterns).  Hence it is an equivalence and a congruence. *)
From Agdb Require Import Bytes BytesProofs DbValue.
From Agdb Require Export DbValueProofs.
From Coq Require Import ZifyBool ZifyNat ZifyN.
Open Scope N_scope.

Lemma lex_cmp_eq {A} (cmp : A -> A -> comparison) :
  (forall x y, cmp x y = Eq <-> x = y) -> forall a b, lex_cmp cmp a b = Eq <-> a = b.
Proof.
  intros Hc a. induction a as [|x a IH]; intros [|y b]; cbn [lex_cmp]; try (split; discriminate); [tauto|].
  rewrite cmp_then_eq, Hc, IH. split; [intros [-> ->]; reflexivity|]. intros E. now inversion E.
Qed.

Lemma byte_cmp_eq a b : byte_cmp a b = Eq <-> a = b.
Proof.
  unfold byte_cmp. rewrite N.compare_eq_iff. split; [|now intros ->].
  intros E. now rewrite <- (n2b_b2n a), <- (n2b_b2n b), E.
Qed.

Lemma bytes_cmp_eq a b : bytes_cmp a b = Eq <-> a = b.
Proof. apply lex_cmp_eq, byte_cmp_eq. Qed.

(* the two halves of f64_key land in disjoint ranges, each injectively *)
Lemma f64_cmp_eq a b : f64_cmp a b = Eq <-> a = b.
Proof.
  unfold f64_cmp, f64_key, two63. rewrite Z.compare_eq_iff.
  destruct (N.ltb_spec a 9223372036854775808), (N.ltb_spec b 9223372036854775808); lia.
Qed.

Lemma dbv_cmp_eq a b : dbv_cmp a b = Eq <-> a = b.
Proof.
  split; [|intros ->; apply (cmp_refl dbv_cmp dbv_cmp_ok)].
  intros H. pose proof (dbv_cmp_eq_kind a b H) as K.
  destruct a, b; try discriminate K; cbn [dbv_cmp] in H; f_equal; revert H.
  - apply bytes_cmp_eq.
  - apply Z.compare_eq_iff.
  - apply N.compare_eq_iff.
  - apply f64_cmp_eq.
  - apply bytes_cmp_eq.
  - apply (lex_cmp_eq Z.compare Z.compare_eq_iff).
  - apply (lex_cmp_eq N.compare N.compare_eq_iff).
  - apply (lex_cmp_eq f64_cmp f64_cmp_eq).
  - apply (lex_cmp_eq bytes_cmp bytes_cmp_eq).
Qed.

Lemma dbv_eqb_true a b : dbv_eqb a b = true <-> a = b.
Proof. rewrite <- dbv_cmp_eq. unfold dbv_eqb. destruct (dbv_cmp a b); cbn; split; congruence. Qed.

(* dbv_eqb is an equivalence; equal values are interchangeable on either side *)
Lemma dbv_eqb_trans a b c : dbv_eqb a b = true -> dbv_eqb b c = true -> dbv_eqb a c = true.
Proof. now intros ->%dbv_eqb_true. Qed.

Lemma dbv_eqb_congr_l a b c : dbv_eqb a b = true -> dbv_eqb a c = dbv_eqb b c.
Proof. now intros ->%dbv_eqb_true. Qed.

Lemma dbv_eqb_congr_r a b c : dbv_eqb a b = true -> dbv_eqb c a = dbv_eqb c b.
Proof. now intros ->%dbv_eqb_true. Qed.

(* values whose f64 payloads are 64-bit patterns *)
Definition f64_canon (b : N) : Prop := b < two64.
Definition dbv_canon (v : dbvalue) : Prop :=
  match v with
  | DF64 b => f64_canon b
  | DVecF64 l => Forall f64_canon l
  | _ => True
  end.

Lemma dbv_eqb_eq a b : dbv_canon a -> dbv_canon b -> (dbv_eqb a b = true <-> a = b).
Proof. intros _ _. apply dbv_eqb_true. Qed.
